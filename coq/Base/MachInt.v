(* Machine-integer semantics used by the rs2v translator.
   Every Rust integer value is a Z: unsigned types in [0, 2^n), signed types in
   [-2^(n-1), 2^(n-1)).  Wrapping is written explicitly. *)
From Coq Require Export ZArith List Bool Lia.
Export ListNotations.
Open Scope Z_scope.

Definition wrap (n : Z) (x : Z) : Z := x mod 2 ^ n.
Definition swrap (n : Z) (x : Z) : Z := (x + 2 ^ (n - 1)) mod 2 ^ n - 2 ^ (n - 1).

Definition b2z (b : bool) : Z := if b then 1 else 0.

(* range predicates (boolean, used by generated *_ok side conditions) *)
Definition in_u (n : Z) (x : Z) : bool := (0 <=? x) && (x <? 2 ^ n).
Definition in_s (n : Z) (x : Z) : bool := (- 2 ^ (n - 1) <=? x) && (x <? 2 ^ (n - 1)).

(* shifts: [shl n x k] is the value of the wrapping shift on an n-bit unsigned
   type; Rust panics (debug) when k >= n, which the generated *_ok records. *)
Definition shl (n x k : Z) : Z := (x * 2 ^ k) mod 2 ^ n.
Definition shr (x k : Z) : Z := x / 2 ^ k.          (* logical on unsigned, arithmetic on signed *)
Definition sshl (n x k : Z) : Z := swrap n (x * 2 ^ k).

Definition unot (n x : Z) : Z := 2 ^ n - 1 - x.      (* !x on an unsigned n-bit value *)

Definition ovf_add (n x y : Z) : Z * bool := ((x + y) mod 2 ^ n, 2 ^ n <=? x + y).
Definition ovf_sub (n x y : Z) : Z * bool := ((x - y) mod 2 ^ n, x <? y).

(* number of leading zeros of an n-bit unsigned value *)
Definition clz (n x : Z) : Z := if x <=? 0 then n else n - (Z.log2 x + 1).
Definition ctz (n x : Z) : Z :=
  if x =? 0 then n else
  (fix go (f : nat) (x k : Z) : Z :=
     match f with O => k | S f' => if Z.odd x then k else go f' (x / 2) (k + 1) end)
    (Z.to_nat n) x 0.

(* fuelled while loop: None = out of fuel *)
Fixpoint while_loop {S : Type} (fuel : nat) (cond : S -> bool) (body : S -> S) (s : S) : option S :=
  if cond s then
    match fuel with
    | O => None
    | Datatypes.S f => while_loop f cond body (body s)
    end
  else Some s.

(* fuelled while loop whose body may itself run out of fuel *)
Fixpoint while_loop_o {S : Type} (fuel : nat) (cond : S -> bool) (body : S -> option S) (s : S) : option S :=
  if cond s then
    match fuel with
    | O => None
    | Datatypes.S f => match body s with None => None | Some s' => while_loop_o f cond body s' end
    end
  else Some s.

(* for i in lo..hi  (ascending), for i in (lo..hi).rev() (descending) *)
Definition zrange (lo hi : Z) : list Z := map (fun i => lo + Z.of_nat i) (seq 0 (Z.to_nat (hi - lo))).
Definition for_up {S : Type} (lo hi : Z) (body : Z -> S -> S) (s : S) : S :=
  fold_left (fun acc i => body i acc) (zrange lo hi) s.
Definition for_down {S : Type} (lo hi : Z) (body : Z -> S -> S) (s : S) : S :=
  fold_left (fun acc i => body i acc) (rev (zrange lo hi)) s.

Fixpoint to_le_bytes (n : nat) (x : Z) : list Z :=
  match n with O => [] | S n' => (x mod 256) :: to_le_bytes n' (x / 256) end.
Fixpoint of_le_bytes (l : list Z) : Z :=
  match l with [] => 0 | b :: r => b + 256 * of_le_bytes r end.

Lemma wrap_range n x : 0 <= n -> 0 <= wrap n x < 2 ^ n.
Proof. intros Hn. unfold wrap. apply Z.mod_pos_bound. apply Z.pow_pos_nonneg; lia. Qed.

Lemma wrap_small n x : 0 <= x < 2 ^ n -> wrap n x = x.
Proof. intros H. unfold wrap. apply Z.mod_small. exact H. Qed.

Lemma of_to_le_bytes n x : 0 <= x < 256 ^ Z.of_nat n -> of_le_bytes (to_le_bytes n x) = x.
Proof.
  revert x. induction n as [|n IH]; intros x Hx.
  - simpl in *. lia.
  - cbn [to_le_bytes of_le_bytes]. rewrite IH.
    + pose proof (Z.div_mod x 256). lia.
    + rewrite Nat2Z.inj_succ, Z.pow_succ_r in Hx by lia.
      split. { apply Z.div_pos; lia. }
      apply Z.div_lt_upper_bound; lia.
Qed.

Lemma to_le_bytes_length n x : length (to_le_bytes n x) = n.
Proof. revert x. induction n as [|n IH]; intros x; simpl; [reflexivity | now rewrite IH]. Qed.
