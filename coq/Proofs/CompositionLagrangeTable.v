(* C17 — the evaluation table with the Lagrange-kernel terms: DefaultConstraintEvaluator::evaluate calls
   evaluate_lagrange_kernel_constraints on the combined column, which adds the Lagrange part row by row
   (`combined_evaluations_acc[step] += ..`).  Compositional statement: from the table theorem (C17_table_row_spec / _single_segment,
   hook = identity) and the Lagrange theorem (lagrange_evaluate_spec) to the table with the hook `lagrange_acc_of`.  stdlib style. *)
From Coq Require Import List Arith Bool Lia ZArith.
From VBase Require Import FieldOps.
From VModel Require Import Composition CompositionLagrange.
From VProofs Require Import ListFacts CompositionBase.
Import ListNotations.
Local Open Scope nat_scope.

Lemma mapM_some_inv {A B} (f : A -> option B) (g : A -> B) : forall l,
  mapM f l = Some (map g l) -> forall x, In x l -> f x = Some (g x).
Proof.
  induction l as [|a l IH]; intros H x Hx; [destruct Hx|].
  cbn [mapM map] in H. destruct (f a) eqn:Ea; [|discriminate]. destruct (mapM f l) eqn:El; [|discriminate].
  inversion H; subst. destruct Hx as [<-|Hx]; [exact Ea|]. apply IH; [now f_equal | exact Hx].
Qed.

Section WithLagrange.
Context {F : Type} (O : FOps F).
Variable n ceb ldeb : nat.
Variable offset : F.
Variable rou : nat -> F.
Variable num_main : nat.
Variable tmain : list F -> list F -> list F -> list F.
Variable taux : list F -> list F -> list F -> list F -> list F -> list F -> list F.
Variable ppolys : list (list F).
Variable exemptions : nat.
Variable tcoef : list F.
Variable main_groups aux_groups : list (@BGroup F).
Variable rands : list F.
Variable has_aux : bool.
Variable lde_main lde_aux : list (list F).
Local Notation evaluate acc :=
  (evaluate O n ceb ldeb offset rou num_main tmain taux ppolys exemptions tcoef main_groups aux_groups rands has_aux
            lde_main lde_aux acc).

(* the hook is the last thing applied to a row; everything before it does not depend on it *)
Lemma evaluate_hook (acc : nat -> F -> F) (gf : nat -> F) :
  evaluate (fun _ v => v) = Some (map gf (seq 0 (ce_size n ceb))) ->
  evaluate acc = Some (map (fun i => acc i (gf i)) (seq 0 (ce_size n ceb))).
Proof.
  unfold Composition.evaluate. destruct (ptable_new O n ceb offset rou ppolys); [|discriminate].
  destruct (mapM _ (tdiv O n rou exemptions :: _)); [|discriminate].
  intros H. apply mapM_some. intros i Hi.
  pose proof (mapM_some_inv _ gf _ H i Hi) as Hrow. cbv beta in Hrow.
  repeat match type of Hrow with
         | context [match ?e with Some _ => _ | None => _ end] => destruct e; [|discriminate Hrow]
         end.
  inversion Hrow. reflexivity.
Qed.

Theorem evaluate_with_lagrange (gf hf : nat -> F) :
  evaluate (fun _ v => v) = Some (map gf (seq 0 (ce_size n ceb))) ->
  evaluate (lagrange_acc_of O (map hf (seq 0 (ce_size n ceb))))
  = Some (map (fun i => fadd O (gf i) (hf i)) (seq 0 (ce_size n ceb))).
Proof.
  intros H. rewrite (evaluate_hook _ gf H). f_equal. apply map_ext_in. intros i Hi. apply in_seq in Hi.
  unfold lagrange_acc_of. now rewrite nth_map_seq by lia.
Qed.
End WithLagrange.
