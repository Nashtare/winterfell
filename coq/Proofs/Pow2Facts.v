(* Arithmetic shared by the index computations: powers of two over nat and Z, halving and doubling,
   row-major index splitting, and the integer ranges `zrange` of Base/MachInt.v.
   Nothing here mentions a definition of the model. *)
From Coq Require Import List Arith ZArith Lia FinFun.
From VBase Require Import MachInt.
From VProofs Require ListFacts MachIntFacts.
Import ListNotations.
Local Open Scope nat_scope.

(* ---------------------------------------------------------------- powers of two, nat *)
Lemma pow2_nonzero k : 2 ^ k <> 0.
Proof. apply Nat.pow_nonzero. discriminate. Qed.

Lemma pow2_pos k : 0 < 2 ^ k.
Proof. pose proof (pow2_nonzero k). lia. Qed.

Lemma pow2_S k : 2 ^ S k = 2 ^ k + 2 ^ k.
Proof. cbn. lia. Qed.

Lemma pow2_ge_2 e : 1 <= e -> 2 <= 2 ^ e.
Proof. intros He. change 2 with (2 ^ 1) at 1. apply Nat.pow_le_mono_r; lia. Qed.

Lemma pow2_double_le a b : a < b -> 2 * 2 ^ a <= 2 ^ b.
Proof. intros H. rewrite <- Nat.pow_succ_r'. apply Nat.pow_le_mono_r; lia. Qed.

Lemma succ_lt_pow2 v : 2 <= v -> S v < 2 ^ v.
Proof. induction 1 as [|m Hm IH]; [cbn; lia|]. cbn [Nat.pow]. lia. Qed.

Lemma pow2_split k m : m <= k -> 2 ^ k = 2 ^ m * 2 ^ (k - m).
Proof. intros H. rewrite <- Nat.pow_add_r. f_equal. lia. Qed.

Lemma pow2_div_pow2 k m : m <= k -> 2 ^ k / 2 ^ m = 2 ^ (k - m).
Proof. intros H. rewrite (pow2_split k m H), Nat.mul_comm. apply Nat.div_mul, pow2_nonzero. Qed.

Lemma pow2_mod_pow2 k m : m <= k -> 2 ^ k mod 2 ^ m = 0.
Proof. intros H. rewrite (pow2_split k m H), Nat.mul_comm. apply Nat.mod_mul, pow2_nonzero. Qed.

Lemma log2_pow2 k : Nat.log2 (2 ^ k) = k.
Proof. apply Nat.log2_pow2. lia. Qed.

Lemma z_pow2 a : (2 ^ Z.of_nat a)%Z = Z.of_nat (2 ^ a).
Proof. rewrite Nat2Z.inj_pow. reflexivity. Qed.

(* ---------------------------------------------------------------- halving, index arithmetic *)
Lemma div2_double i : (2 * i) / 2 = i.
Proof. rewrite Nat.mul_comm. apply Nat.div_mul. lia. Qed.
Lemma mod2_double i : (2 * i) mod 2 = 0.
Proof. rewrite Nat.mul_comm. apply Nat.mod_mul. lia. Qed.
Lemma div2_double1 i : (2 * i + 1) / 2 = i.
Proof. symmetry. apply Nat.div_unique with 1; lia. Qed.
Lemma mod2_double1 i : (2 * i + 1) mod 2 = 1.
Proof. symmetry. apply Nat.mod_unique with i; lia. Qed.

Lemma div2_lt_pow2 k i : i < 2 ^ S k -> i / 2 < 2 ^ k.
Proof. rewrite pow2_S. intros Hi. apply Nat.div_lt_upper_bound; lia. Qed.

Lemma half_pow2 k : 2 ^ S k / 2 = 2 ^ k.
Proof. apply div2_double. Qed.

Lemma half_pow2_up k : (2 ^ S k + 1) / 2 = 2 ^ k.
Proof. apply div2_double1. Qed.

(* position p of an m x n array in row-major order is row p / n, column p mod n *)
Lemma idx_split p m n : p < m * n -> p = p / n * n + p mod n /\ p / n < m /\ p mod n < n.
Proof.
  intros Hp. assert (Hn : n <> 0) by (intros ->; lia).
  pose proof (Nat.div_mod p n Hn). pose proof (Nat.mod_upper_bound p n Hn).
  repeat split; [lia | | assumption]. apply Nat.div_lt_upper_bound; lia.
Qed.

Lemma eqb0_false n : n <> 0 -> (n =? 0) = false.
Proof. apply Nat.eqb_neq. Qed.

Lemma mod_mod_mul a b c : b <> 0 -> c <> 0 -> (a mod (b * c)) mod b = a mod b.
Proof.
  intros Hb Hc. rewrite Nat.mod_mul_r by assumption.
  rewrite Nat.mul_comm, Nat.mod_add by assumption. now rewrite Nat.mod_mod.
Qed.

Local Open Scope Z_scope.

(* ---------------------------------------------------------------- powers of two, Z *)
Lemma p2_split a b : 0 <= b <= a -> 2 ^ a = 2 ^ (a - b) * 2 ^ b.
Proof. intros H. rewrite <- Z.pow_add_r by lia. f_equal. lia. Qed.

Lemma p2_div a b : 0 <= b <= a -> 2 ^ a / 2 ^ b = 2 ^ (a - b).
Proof.
  intros H. rewrite (p2_split a b H). apply Z.div_mul. pose proof (MachIntFacts.p2_pos b). lia.
Qed.

Lemma p2_divide a b : 0 <= b <= a -> (2 ^ b | 2 ^ a).
Proof. intros H. exists (2 ^ (a - b)). apply p2_split. exact H. Qed.

Lemma p2_not_divide_smaller a : 0 <= a -> ~ (2 ^ (a + 1) | 2 ^ a).
Proof.
  intros Ha H. pose proof (MachIntFacts.p2_pos a Ha). apply Z.divide_pos_le in H; [|lia]. rewrite MachIntFacts.p2_succ in H by lia. lia.
Qed.

Lemma log2_p2 v : 0 <= v -> Z.log2 (2 ^ v) = v.
Proof. intros. apply Z.log2_pow2. lia. Qed.

(* every positive integer is 2^t * (2q + 1) *)
Lemma two_adic j : 0 < j -> exists t q, 0 <= t /\ 0 <= q /\ j = 2 ^ t * (2 * q + 1).
Proof.
  intros Hj. assert (H0 : 0 <= j) by lia. revert Hj. pattern j. apply Z_lt_induction; [|exact H0].
  clear j H0. intros j IH Hj.
  destruct (Z.eq_dec (j mod 2) 0) as [E|E].
  - assert (Ej : j = 2 * (j / 2)) by (pose proof (Z.div_mod j 2); lia).
    destruct (IH (j / 2)) as (t & q & Ht & Hq & Eq); [lia|lia|].
    exists (t + 1), q. split; [lia|]. split; [lia|]. rewrite MachIntFacts.p2_succ by lia. lia.
  - exists 0, (j / 2). split; [lia|]. split; [apply Z.div_pos; lia|].
    pose proof (Z.div_mod j 2). pose proof (Z.mod_pos_bound j 2). cbn [Z.pow]. lia.
Qed.

(* the residue class of f modulo d, by its members *)
Lemma residue_class f d s : 0 <= f < d -> ((exists i, 0 <= i /\ s = f + i * d) <-> 0 <= s /\ s mod d = f).
Proof.
  intros Hf. split.
  - intros (i & Hi & ->). split; [nia|]. rewrite Z.mod_add by lia. apply Z.mod_small; lia.
  - intros [Hs Hm]. exists (s / d). pose proof (Z.div_mod s d ltac:(lia)).
    pose proof (Z.div_pos s d ltac:(lia) ltac:(lia)). split; lia.
Qed.

(* ---------------------------------------------------------------- zrange *)
Lemma In_zrange lo hi i : In i (zrange lo hi) <-> lo <= i < hi.
Proof.
  unfold zrange. rewrite in_map_iff. split.
  - intros (k & <- & Hk). apply in_seq in Hk. lia.
  - intros H. exists (Z.to_nat (i - lo)). split; [lia|]. apply in_seq. lia.
Qed.

Lemma zrange_length lo hi : length (zrange lo hi) = Z.to_nat (hi - lo).
Proof. unfold zrange. rewrite map_length, seq_length. reflexivity. Qed.

Lemma zrange_NoDup lo hi : NoDup (zrange lo hi).
Proof.
  unfold zrange. apply Injective_map_NoDup; [|apply seq_NoDup].
  intros a b H. lia.
Qed.

Lemma zrange_split lo mid hi : lo <= mid <= hi -> zrange lo hi = zrange lo mid ++ zrange mid hi.
Proof.
  intros H. unfold zrange.
  replace (Z.to_nat (hi - lo)) with (Z.to_nat (mid - lo) + Z.to_nat (hi - mid))%nat by lia.
  rewrite seq_app, map_app. f_equal. cbn [Nat.add].
  rewrite (ListFacts.map_seq_shift _ (Z.to_nat (mid - lo))). apply map_ext. intros i. lia.
Qed.

Lemma zrange_cons lo hi : lo < hi -> zrange lo hi = lo :: zrange (lo + 1) hi.
Proof.
  intros H. unfold zrange. replace (Z.to_nat (hi - lo)) with (S (Z.to_nat (hi - (lo + 1)))) by lia.
  cbn [seq map]. f_equal; [lia|]. rewrite <- seq_shift, map_map. apply map_ext. intros a. lia.
Qed.

Lemma zrange_nil lo hi : hi <= lo -> zrange lo hi = [].
Proof. intros H. unfold zrange. replace (Z.to_nat (hi - lo)) with 0%nat by lia. reflexivity. Qed.

Lemma zrange_shift lo hi : zrange (lo + 1) (hi + 1) = map (fun j => j + 1) (zrange lo hi).
Proof.
  unfold zrange. replace (hi + 1 - (lo + 1)) with (hi - lo) by lia. rewrite map_map. apply map_ext. intros a. lia.
Qed.

Lemma nth_error_zrange m i : 0 <= i < m -> nth_error (zrange 0 m) (Z.to_nat i) = Some i.
Proof.
  intros H. unfold zrange. rewrite ListFacts.nth_error_map_seq by lia. f_equal. lia.
Qed.

Lemma nth_map_zrange {A} (h : Z -> A) m i d : 0 <= i < m -> nth (Z.to_nat i) (map h (zrange 0 m)) d = h i.
Proof.
  intros H. apply nth_error_nth. apply map_nth_error. apply nth_error_zrange. exact H.
Qed.
