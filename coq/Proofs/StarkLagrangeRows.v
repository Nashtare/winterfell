(* C01 — the Lagrange-kernel column, from rows to points.  For the HONEST kernel column c[i] = prod_j (bit_j(i) ? r_j : 1 - r_j)
   (C16's lag_kernel_col, as harness/src/lagfam.rs and winterfell/src/tests.rs build it) and ANY coefficient list Lp that
   takes the column's values on the trace domain, the two validity hypotheses of C17's Proofs/CompositionLagrangePoly.v hold:
   numerator polynomial idx vanishes on the subgroup of size 2^idx (numer_vanishes), and Lp(1) = prod_j (1 - r_j) (first_cell).
   From C16: the rows (lag_honest_numerator_zero), which cells a numerator reads (lag_raw_at_row), and that the successor row
   i + 2^(v-k) never wraps around because row 0 is exempt (lag_target_in_range). *)
From Coq Require Import List Arith Bool Lia ZArith.
From VBase Require Import MachInt FieldOps.
From VModel Require Import Composition.
From VModel Require Stark Enforce EnforceLagrange.
From VProofs Require StarkPoly EnforceSteps EnforceLagrangeProofs.
From VProofs Require Pow2Facts.
From VProofs Require Import CompositionBase CompositionLagrangePoly.
Import ListNotations.
Local Open Scope nat_scope.

Section HonestRows.
Context {F : Type} (O : FOps F) (L : FLaws O).
Local Notation fz := (fzero O).
Local Notation f1 := (fone O).
Local Infix "-f" := (fsub O) (at level 50, left associativity).
Local Infix "*f" := (fmul O) (at level 40, left associativity).
Local Notation cpow := (cpow O).
Local Notation peval := (peval O).

Variable n v : nat.
Variable g : F.
Hypothesis n_eq : n = 2 ^ v.
Variable rr : list F.
Hypothesis rr_len : length rr = v.
Variable Lp : list F.

(* the honest kernel column over n = 2^v rows *)
Definition kernel_col : list F := EnforceLagrange.lag_kernel_col O rr (2 ^ Z.of_nat v).
(* Lp interpolates it over the trace domain *)
Hypothesis Lp_interp : forall i, i < n -> peval Lp (cpow g i) = nth i kernel_col fz.

Theorem honest_numer_vanishes : forall idx j, idx < v -> j < 2 ^ idx ->
  peval (lag_numer_poly O v g Lp rr idx) (cpow (hsub O v g idx) j) = fz.
Proof.
  intros idx j Hi Hj.
  rewrite (lag_numer_poly_eval O L). unfold hsub. rewrite <- (cpow_mul O L), <- (cpow_add O L).
  set (i := 2 ^ (v - idx) * j). set (s := 2 ^ (v - 1 - idx)).
  assert (Hvi : 2 ^ (v - idx) = 2 * s) by (unfold s; replace (v - idx) with (S (v - 1 - idx)) by lia; reflexivity).
  assert (Hn : n = 2 ^ (v - idx) * 2 ^ idx) by (rewrite n_eq, <- Nat.pow_add_r; f_equal; lia).
  assert (Hs : 0 < s) by (unfold s; pose proof (Nat.pow_nonzero 2 (v - 1 - idx)); lia).
  assert (Hi1 : i < n) by (unfold i; nia).
  assert (Hi2 : s + i < n) by (unfold i; nia).
  rewrite (Lp_interp i Hi1), (Lp_interp (s + i) Hi2).
  (* C16 on row i, constraint k = idx + 1 *)
  set (vz := Z.of_nat v). set (k := (Z.of_nat idx + 1)%Z). set (iz := Z.of_nat i).
  assert (Hvz : (0 <= vz)%Z) by (unfold vz; lia).
  assert (Hk : (1 <= k <= vz)%Z) by (unfold k, vz; lia).
  assert (Hrows : In iz (EnforceLagrange.lag_rows (2 ^ vz) k)).
  { apply (EnforceLagrangeProofs.lag_rows_spec vz Hvz k iz Hk). split.
    - unfold vz, iz. rewrite Pow2Facts.z_pow2, <- n_eq. lia.
    - exists (Z.of_nat j). unfold iz, i, k, vz.
      replace (Z.of_nat v - (Z.of_nat idx + 1) + 1)%Z with (Z.of_nat (v - idx)) by lia.
      rewrite Pow2Facts.z_pow2. lia. }
  assert (Hrl : Z.of_nat (length rr) = vz) by (unfold vz; now rewrite rr_len).
  destruct (EnforceLagrangeProofs.zidx_some rr (vz - k) ltac:(lia)) as (rk & Hrk & _).
  pose proof (EnforceLagrangeProofs.lag_honest_numerator_zero O L vz Hvz rr k iz Hrl Hk Hrows) as Hz.
  rewrite (EnforceLagrangeProofs.lag_raw_at_row O vz Hvz _ rr k iz rk Hk Hrk) in Hz.
  injection Hz as Hz.
  destruct (EnforceLagrangeProofs.lag_target_in_range vz Hvz k iz Hk Hrows) as [_ Em].
  rewrite (EnforceLagrangeProofs.shift_is vz k Hk) in Em. rewrite Em in Hz.
  assert (E1 : Z.to_nat iz = i) by (unfold iz; apply Nat2Z.id).
  assert (E2 : Z.to_nat (iz + 2 ^ (vz - k)) = s + i).
  { unfold iz, vz, k, s. replace (Z.of_nat v - (Z.of_nat idx + 1))%Z with (Z.of_nat (v - 1 - idx)) by lia.
    rewrite Pow2Facts.z_pow2, <- Nat2Z.inj_add, Nat2Z.id. lia. }
  rewrite E1, E2 in Hz. fold kernel_col in Hz.
  assert (Erk : nth (v - 1 - idx) rr fz = rk).
  { replace (v - 1 - idx) with (Z.to_nat (vz - k)) by (unfold vz, k; lia).
    now apply (EnforceLagrangeProofs.zidx_nth rr (vz - k) rk fz). }
  rewrite Erk. exact Hz.
Qed.

Theorem honest_first_cell : 0 < n -> peval Lp f1 = EnforceLagrange.lag_assertion_value O rr.
Proof.
  intros Hn. change f1 with (cpow g 0). rewrite (Lp_interp 0 Hn).
  rewrite (EnforceLagrangeProofs.assertion_value_is_cell0 O L). unfold kernel_col, EnforceLagrange.lag_kernel_col.
  assert (Hp : (0 < 2 ^ Z.of_nat v)%Z) by (apply Z.pow_pos_nonneg; lia).
  pose proof (Pow2Facts.nth_map_zrange (EnforceLagrange.lag_kernel_cell O rr) (2 ^ Z.of_nat v)%Z 0%Z fz ltac:(lia)) as E.
  cbn [Z.to_nat] in E. rewrite E. reflexivity. Unshelve. exact 0%Z.
Qed.

(* hence (C17's lagrange_term_is_poly / lag_def_is_poly need nothing else): every Lagrange quotient of the honest column is a
   polynomial *)
Theorem honest_lagrange_term_is_poly : StarkPoly.primitive_root O g n -> forall idx, idx < v ->
  exists q, length q = length Lp - 2 ^ idx /\
            forall x, peval (lag_numer_poly O v g Lp rr idx) x = (cpow x (2 ^ idx) -f f1) *f peval q x.
Proof.
  intros Hg idx Hi. exact (lagrange_term_is_poly O L n v g n_eq Hg Lp rr rr_len honest_numer_vanishes idx Hi).
Qed.

End HonestRows.
