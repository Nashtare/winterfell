(* C18: the conjectured security estimate (the generated term sec_get_conjectured_security), Context::num_modulus_bits,
   AcceptableOptions::validate and the order of the checks of verify(). *)
From VBase Require Import MachInt.
From VGen Require Import Security.
From VModel Require Import SecurityModel.
From VProofs Require Import BytesFacts.
Open Scope Z_scope.

(* The parameter space: the options ProofOptions::new accepts (queries 1..255, blowup a power of two in 2..128, grinding
   0..32, any extension), the bit lengths of the three base-field moduli, trace lengths from TraceInfo::MIN_TRACE_LENGTH =
   2^3 to 2^32, and a collision resistance in the range of the crate's hashers (96, 124, 128). *)
Definition valid_blowup (b : Z) : Prop := In b [2; 4; 8; 16; 32; 64; 128].
Definition valid_bits (bits : Z) : Prop := bits = 62 \/ bits = 64 \/ bits = 128.

Record in_space (o : ProofOptions) (bits tl cr : Z) : Prop := mk_in_space {
  sp_q : 1 <= po_num_queries o <= 255;
  sp_b : valid_blowup (po_blowup_factor o);
  sp_g : 0 <= po_grinding_factor o <= 32;
  sp_bits : valid_bits bits;
  sp_tl : exists k, 3 <= k <= 32 /\ tl = 2 ^ k;
  sp_cr : 96 <= cr <= 128 }.

Lemma pow32 : 2 ^ 32 = 4294967296. Proof. reflexivity. Qed.

Lemma valid_blowup_pow b : valid_blowup b -> exists j, 1 <= j <= 7 /\ b = 2 ^ j.
Proof.
  unfold valid_blowup. cbn [In]. intros H. exists (Z.log2 b).
  repeat (destruct H as [<- | H]; [split; [cbn; lia | reflexivity] | ]). contradiction.
Qed.

Lemma fe_degree_range e : 1 <= fe_degree e <= 3.
Proof. destruct e; cbn; lia. Qed.

(* q queries of lb bits each; the grinding factor counts only from GRINDING_CONTRIBUTION_FLOOR = 80 bits on *)
Definition query_security (q lb g : Z) : Z := if 80 <=? q * lb then q * lb + g else q * lb.

(* ------------------------------------------------------------------------------------------------ *)
(* Closed form of the generated term, for any inputs on which no u32 operation wraps. *)
Lemma conj_closed o bits tl cr :
  0 <= bits * fe_degree (po_field_extension o) < 2 ^ 32 ->
  0 <= Z.log2 tl + Z.log2 (po_blowup_factor o) < 2 ^ 32 ->
  0 <= po_num_queries o < 2 ^ 32 ->
  0 <= Z.log2 (po_blowup_factor o) * po_num_queries o < 2 ^ 32 ->
  0 <= query_security (po_num_queries o) (Z.log2 (po_blowup_factor o)) (po_grinding_factor o) < 2 ^ 32 ->
  sec_get_conjectured_security o bits tl cr =
  Z.min (Z.max 0 (Z.min (Z.max 0 (bits * fe_degree (po_field_extension o) - (Z.log2 tl + Z.log2 (po_blowup_factor o))))
                        (query_security (po_num_queries o) (Z.log2 (po_blowup_factor o)) (po_grinding_factor o)) - 1)) cr.
Proof.
  intros H1 H2 H3 H4 H5.
  cbv beta zeta delta [sec_get_conjectured_security sec_GRINDING_CONTRIBUTION_FLOOR].
  rewrite (wrap_small 32 (po_num_queries o)) by exact H3.
  rewrite (wrap_small 32 (bits * _)) by exact H1.
  rewrite (wrap_small 32 (Z.log2 tl + _)) by exact H2.
  rewrite (wrap_small 32 (Z.log2 _ * _)) by exact H4.
  rewrite Z.geb_leb.
  unfold query_security in *.
  rewrite (Z.mul_comm (po_num_queries o)) in *.
  destruct (80 <=? Z.log2 (po_blowup_factor o) * po_num_queries o) eqn:E.
  - rewrite (wrap_small 32 (_ + _)) by exact H5. reflexivity.
  - reflexivity.
Qed.

(* the same ranges, with positive ilog2 arguments, make the generated side condition true *)
Lemma conj_ok_intro o bits tl cr :
  0 <= bits * fe_degree (po_field_extension o) < 2 ^ 32 ->
  0 < tl -> 0 < po_blowup_factor o ->
  0 <= Z.log2 tl + Z.log2 (po_blowup_factor o) < 2 ^ 32 ->
  0 <= po_num_queries o < 2 ^ 32 ->
  0 <= Z.log2 (po_blowup_factor o) * po_num_queries o < 2 ^ 32 ->
  0 <= query_security (po_num_queries o) (Z.log2 (po_blowup_factor o)) (po_grinding_factor o) < 2 ^ 32 ->
  sec_get_conjectured_security_ok o bits tl cr = true.
Proof.
  intros H1 Htl Hb H2 H3 H4 H5.
  cbv beta zeta delta [sec_get_conjectured_security_ok sec_GRINDING_CONTRIBUTION_FLOOR].
  rewrite (wrap_small 32 (po_num_queries o)) by exact H3.
  rewrite (wrap_small 32 (Z.log2 _ * _)) by exact H4.
  rewrite Z.geb_leb.
  unfold query_security in H5. rewrite (Z.mul_comm (po_num_queries o)) in H5.
  assert (I : forall x, 0 <= x < 2 ^ 32 -> in_u 32 x = true).
  { intros x Hx. unfold in_u. apply andb_true_intro. split; [apply Z.leb_le | apply Z.ltb_lt]; lia. }
  rewrite (I _ H1), (I _ H2), (I _ H4).
  assert (T1 : (0 <? tl) = true) by (apply Z.ltb_lt; exact Htl).
  assert (T2 : (0 <? po_blowup_factor o) = true) by (apply Z.ltb_lt; exact Hb).
  rewrite T1, T2. cbn [andb].
  destruct (80 <=? Z.log2 (po_blowup_factor o) * po_num_queries o) eqn:E.
  - apply I. exact H5.
  - reflexivity.
Qed.

Lemma query_security_mono q q' lb g g' :
  0 <= lb -> q <= q' -> 0 <= g <= g' -> query_security q lb g <= query_security q' lb g'.
Proof.
  intros Hlb Hq Hg. unfold query_security.
  assert (q * lb <= q' * lb) by (apply Z.mul_le_mono_nonneg_r; lia).
  destruct (Z.leb_spec 80 (q * lb)), (Z.leb_spec 80 (q' * lb)); lia.
Qed.

(* ------------------------------------------------------------------------------------------------ *)
(* Outside the parameter space.  A context read from untrusted bytes may claim any modulus of up to 255 bytes (its length
   is a u8: 2040 bits) and any trace length 2^k with k <= 63 (k >= usize::BITS is refused).  There the estimate, as repaired
   by fixes/c18-security-estimate-saturating.diff, saturates instead of wrapping: the formula with both subtractions
   clamped at 0. *)
Lemma conj_hostile_no_panic o bits tl cr :
  0 <= bits <= 2040 -> (exists k, 0 <= k <= 63 /\ tl = 2 ^ k) -> valid_blowup (po_blowup_factor o) ->
  1 <= po_num_queries o <= 255 -> 0 <= po_grinding_factor o <= 32 ->
  sec_get_conjectured_security_ok o bits tl cr = true /\
  sec_get_conjectured_security o bits tl cr =
  Z.min (Z.max 0 (Z.min (Z.max 0 (bits * fe_degree (po_field_extension o) - Z.log2 (tl * po_blowup_factor o)))
                        (query_security (po_num_queries o) (Z.log2 (po_blowup_factor o)) (po_grinding_factor o)) - 1)) cr.
Proof.
  intros Hbits [k [Hk Htl]] Hb Hq Hg.
  destruct (valid_blowup_pow _ Hb) as [j [Hj Hbj]].
  pose proof (fe_degree_range (po_field_extension o)) as Hd.
  assert (Lk : Z.log2 tl = k) by (subst tl; apply Z.log2_pow2; lia).
  assert (Lj : Z.log2 (po_blowup_factor o) = j) by (rewrite Hbj; apply Z.log2_pow2; lia).
  assert (Lkj : Z.log2 (tl * po_blowup_factor o) = k + j).
  { rewrite Htl, Hbj, <- Z.pow_add_r by lia. apply Z.log2_pow2. lia. }
  assert (B1 : 0 <= bits * fe_degree (po_field_extension o) <= 6120) by nia.
  assert (B2 : 1 <= j * po_num_queries o <= 1785) by nia.
  assert (Q : 1 <= query_security (po_num_queries o) j (po_grinding_factor o) <= 1817).
  { unfold query_security. rewrite (Z.mul_comm _ j). destruct (80 <=? j * po_num_queries o); lia. }
  split.
  - apply conj_ok_intro; rewrite ?Lk, ?Lj, ?pow32; try lia.
  - rewrite conj_closed; rewrite ?Lk, ?Lj, ?Lkj, ?pow32; try lia.
Qed.

(* a superset of the (options, modulus bits, trace length) that Proof::from_bytes can produce *)
Definition deserialisable (o : ProofOptions) (bits tl : Z) : Prop :=
  0 <= bits <= 2040 /\ (exists k, 0 <= k <= 63 /\ tl = 2 ^ k) /\ valid_blowup (po_blowup_factor o) /\
  1 <= po_num_queries o <= 255 /\ 0 <= po_grinding_factor o <= 32.

Lemma conj_monotone_deserialisable o o' bits tl cr cr' :
  deserialisable o bits tl -> deserialisable o' bits tl ->
  po_blowup_factor o' = po_blowup_factor o ->
  po_num_queries o <= po_num_queries o' ->
  po_grinding_factor o <= po_grinding_factor o' ->
  fe_degree (po_field_extension o) <= fe_degree (po_field_extension o') ->
  cr <= cr' ->
  sec_get_conjectured_security o bits tl cr <= sec_get_conjectured_security o' bits tl cr'.
Proof.
  intros (Hb & Ht & Hv & Hq & Hg) (Hb' & Ht' & Hv' & Hq' & Hg') Eb Mq Mg Md Mc.
  destruct (conj_hostile_no_panic o bits tl cr Hb Ht Hv Hq Hg) as [_ ->].
  destruct (conj_hostile_no_panic o' bits tl cr' Hb' Ht' Hv' Hq' Hg') as [_ ->].
  rewrite Eb.
  destruct (valid_blowup_pow _ Hv) as [j [Hj Hbj]].
  assert (Lj : Z.log2 (po_blowup_factor o) = j) by (rewrite Hbj; apply Z.log2_pow2; lia).
  assert (M : query_security (po_num_queries o) (Z.log2 (po_blowup_factor o)) (po_grinding_factor o) <=
              query_security (po_num_queries o') (Z.log2 (po_blowup_factor o)) (po_grinding_factor o')).
  { apply query_security_mono; rewrite ?Lj; lia. }
  assert (D : bits * fe_degree (po_field_extension o) <= bits * fe_degree (po_field_extension o')).
  { apply Z.mul_le_mono_nonneg_l; [lia | exact Md]. }
  lia.
Qed.

(* ------------------------------------------------------------------------------------------------ *)
(* In the parameter space. *)
Lemma space_facts o bits tl cr : in_space o bits tl cr ->
  exists k j, 3 <= k <= 32 /\ 1 <= j <= 7 /\ tl = 2 ^ k /\ po_blowup_factor o = 2 ^ j /\
              Z.log2 tl = k /\ Z.log2 (po_blowup_factor o) = j /\ Z.log2 (tl * po_blowup_factor o) = k + j.
Proof.
  intros [Hq Hb Hg Hbits [k [Hk Htl]] Hcr].
  destruct (valid_blowup_pow _ Hb) as [j [Hj Hbj]].
  exists k, j. repeat split; try lia; try assumption.
  - subst tl. apply Z.log2_pow2. lia.
  - rewrite Hbj. apply Z.log2_pow2. lia.
  - rewrite Htl, Hbj, <- Z.pow_add_r by lia. apply Z.log2_pow2. lia.
Qed.

Lemma space_bounds o bits tl cr k j : in_space o bits tl cr ->
  3 <= k <= 32 -> 1 <= j <= 7 ->
  62 <= bits * fe_degree (po_field_extension o) <= 384 /\
  1 <= j * po_num_queries o <= 1785.
Proof.
  intros [Hq Hb Hg Hbits _ Hcr] Hk Hj.
  pose proof (fe_degree_range (po_field_extension o)) as Hd.
  split.
  - destruct Hbits as [-> | [-> | ->]]; lia.
  - split; nia.
Qed.

Lemma in_space_deserialisable o bits tl cr : in_space o bits tl cr -> deserialisable o bits tl.
Proof.
  intros [Hq Hb Hg Hbits [k [Hk Htl]] _]. split; [destruct Hbits as [-> | [-> | ->]]; lia|].
  split; [exists k; split; [lia | exact Htl]|]. split; [exact Hb|]. split; assumption.
Qed.

Lemma conj_no_wrap o bits tl cr : in_space o bits tl cr -> sec_get_conjectured_security_ok o bits tl cr = true.
Proof.
  intros H. destruct (in_space_deserialisable _ _ _ _ H) as (Hb & Ht & Hv & Hq & Hg).
  exact (proj1 (conj_hostile_no_panic o bits tl cr Hb Ht Hv Hq Hg)).
Qed.

(* in the space neither clamp of the general formula is active *)
Lemma conj_formula o bits tl cr : in_space o bits tl cr ->
  sec_get_conjectured_security o bits tl cr =
  Z.min (Z.min (bits * fe_degree (po_field_extension o) - Z.log2 (tl * po_blowup_factor o))
               (query_security (po_num_queries o) (Z.log2 (po_blowup_factor o)) (po_grinding_factor o)) - 1) cr.
Proof.
  intros H. destruct (in_space_deserialisable _ _ _ _ H) as (Hb & Ht & Hv & Hq & Hg).
  rewrite (proj2 (conj_hostile_no_panic o bits tl cr Hb Ht Hv Hq Hg)).
  destruct (space_facts _ _ _ _ H) as (k & j & Hk & Hj & Htl & Hbj & Lk & Lj & Lkj).
  destruct (space_bounds _ _ _ _ k j H Hk Hj) as [B1 B2].
  assert (Q : 1 <= query_security (po_num_queries o) j (po_grinding_factor o)).
  { unfold query_security. rewrite (Z.mul_comm _ j). destruct (80 <=? j * po_num_queries o); lia. }
  rewrite Lkj, Lj. lia.
Qed.

Lemma conj_range o bits tl cr : in_space o bits tl cr -> 0 <= sec_get_conjectured_security o bits tl cr <= cr.
Proof.
  intros H. rewrite (conj_formula _ _ _ _ H).
  destruct (space_facts _ _ _ _ H) as (k & j & Hk & Hj & Htl & Hbj & Lk & Lj & Lkj).
  destruct (space_bounds _ _ _ _ k j H Hk Hj) as [B1 B2].
  pose proof H as [Hq Hb Hg _ _ Hcr].
  assert (Q : 1 <= query_security (po_num_queries o) j (po_grinding_factor o)).
  { unfold query_security. rewrite (Z.mul_comm _ j). destruct (80 <=? j * po_num_queries o); lia. }
  rewrite Lkj, Lj. lia.
Qed.

(* ------------------------------------------------------------------------------------------------ *)
(* Monotonicity over the parameter space. *)
Lemma conj_monotone_gen o o' bits tl cr cr' :
  in_space o bits tl cr -> in_space o' bits tl cr' ->
  po_blowup_factor o' = po_blowup_factor o ->
  po_num_queries o <= po_num_queries o' ->
  po_grinding_factor o <= po_grinding_factor o' ->
  fe_degree (po_field_extension o) <= fe_degree (po_field_extension o') ->
  cr <= cr' ->
  sec_get_conjectured_security o bits tl cr <= sec_get_conjectured_security o' bits tl cr'.
Proof. intros H H'. apply conj_monotone_deserialisable; eapply in_space_deserialisable; eassumption. Qed.

Lemma conj_monotone_queries o o' bits tl cr :
  in_space o bits tl cr -> in_space o' bits tl cr ->
  po_blowup_factor o' = po_blowup_factor o -> po_grinding_factor o' = po_grinding_factor o ->
  po_field_extension o' = po_field_extension o ->
  po_num_queries o <= po_num_queries o' ->
  sec_get_conjectured_security o bits tl cr <= sec_get_conjectured_security o' bits tl cr.
Proof. intros H H' Eb Eg Ee Hq. apply conj_monotone_gen; try assumption; rewrite ?Eg, ?Ee; lia. Qed.

Lemma conj_monotone_grinding o o' bits tl cr :
  in_space o bits tl cr -> in_space o' bits tl cr ->
  po_blowup_factor o' = po_blowup_factor o -> po_num_queries o' = po_num_queries o ->
  po_field_extension o' = po_field_extension o ->
  po_grinding_factor o <= po_grinding_factor o' ->
  sec_get_conjectured_security o bits tl cr <= sec_get_conjectured_security o' bits tl cr.
Proof. intros H H' Eb Eq Ee Hg. apply conj_monotone_gen; try assumption; rewrite ?Eq, ?Ee; lia. Qed.

Lemma conj_monotone_degree o o' bits tl cr :
  in_space o bits tl cr -> in_space o' bits tl cr ->
  po_blowup_factor o' = po_blowup_factor o -> po_num_queries o' = po_num_queries o ->
  po_grinding_factor o' = po_grinding_factor o ->
  fe_degree (po_field_extension o) <= fe_degree (po_field_extension o') ->
  sec_get_conjectured_security o bits tl cr <= sec_get_conjectured_security o' bits tl cr.
Proof. intros H H' Eb Eq Eg Hd. apply conj_monotone_gen; try assumption; rewrite ?Eq, ?Eg; lia. Qed.

Lemma conj_monotone_cr o bits tl cr cr' :
  in_space o bits tl cr -> in_space o bits tl cr' -> cr <= cr' ->
  sec_get_conjectured_security o bits tl cr <= sec_get_conjectured_security o bits tl cr'.
Proof. intros H H' Hc. apply conj_monotone_gen; try assumption; try reflexivity; lia. Qed.

(* Pins the floor: grinding does NOT count below 80 and counts from 80 on.  The term is regenerated from the crate, so a
   changed constant or comparison there breaks this proof. *)
Lemma conj_grinding_threshold o bits tl cr : in_space o bits tl cr ->
  let qs := po_num_queries o * Z.log2 (po_blowup_factor o) in
  (qs < 80 -> sec_get_conjectured_security o bits tl cr =
              Z.min (Z.min (bits * fe_degree (po_field_extension o) - Z.log2 (tl * po_blowup_factor o)) qs - 1) cr) /\
  (80 <= qs -> sec_get_conjectured_security o bits tl cr =
              Z.min (Z.min (bits * fe_degree (po_field_extension o) - Z.log2 (tl * po_blowup_factor o))
                           (qs + po_grinding_factor o) - 1) cr).
Proof.
  intros H qs. rewrite (conj_formula _ _ _ _ H). unfold query_security. fold qs.
  split; intros Hq; destruct (Z.leb_spec 80 qs); try lia; reflexivity.
Qed.

(* ------------------------------------------------------------------------------------------------ *)
(* num_modulus_bits = bit length of the little-endian value. *)
Definition bitlen (v : Z) : Z := if v <=? 0 then 0 else Z.log2 v + 1.

Definition byte (b : Z) : Prop := 0 <= b < 256.

Lemma clz8_bitlen b : byte b -> b <> 0 -> 8 - clz 8 b = Z.log2 b + 1.
Proof.
  intros Hb Hz. unfold clz. destruct (Z.leb_spec b 0); [unfold byte in Hb; lia | lia].
Qed.

(* r = the bytes from the most significant one on, after the zero bytes already skipped.  The invariant nb = 8 * |r| is
   what keeps the u32 subtractions of the scan from underflowing (clz 8 b <= 8 <= nb). *)
Lemma nmb_scan_spec : forall (r : list Z) (nb : Z),
  Forall byte r -> nb = 8 * Z.of_nat (length r) -> nb < 2 ^ 32 ->
  nmb_scan r nb = bitlen (of_le_bytes (rev r)).
Proof.
  induction r as [|b r IH]; intros nb Hall Hnb Hlt.
  - reflexivity.
  - inversion Hall as [|? ? Hb Hr]; subst.
    cbn [nmb_scan rev]. rewrite of_le_bytes_app. cbn [of_le_bytes]. rewrite rev_length.
    cbn [length] in *. rewrite Nat2Z.inj_succ in *.
    pose proof (of_le_bytes_range (rev r) (Forall_rev Hr)) as Rg. rewrite rev_length in Rg.
    assert (P : 0 < 256 ^ Z.of_nat (length r)) by (apply Z.pow_pos_nonneg; lia).
    destruct (Z.eqb_spec b 0) as [-> | Hnz]; cbn [negb].
    + rewrite IH; [ | exact Hr | | ].
      * f_equal. lia.
      * rewrite wrap_small; lia.
      * rewrite wrap_small; lia.
    + assert (Hb' : 1 <= b <= 255) by (unfold byte in Hb; lia).
      pose proof (clz8_bitlen b Hb Hnz) as C.
      assert (L0 : 0 <= Z.log2 b <= 7).
      { split; [apply Z.log2_nonneg | ]. assert (Z.log2 b < 8); [ | lia]. apply Z.log2_lt_pow2; lia. }
      rewrite wrap_small by lia.
      unfold bitlen.
      set (n := Z.of_nat (length r)) in *.
      set (v := of_le_bytes (rev r)) in *.
      assert (E : 256 ^ n = 2 ^ (8 * n)) by (rewrite Z.pow_mul_r by lia; reflexivity).
      destruct (Z.leb_spec (v + 256 ^ n * (b + 256 * 0)) 0); [nia | ].
      replace (v + 256 ^ n * (b + 256 * 0)) with (b * 2 ^ (8 * n) + v) by (rewrite E; ring).
      assert (LL : Z.log2 (b * 2 ^ (8 * n) + v) = Z.log2 b + 8 * n).
      { apply Z.log2_unique; [lia | ].
        pose proof (Z.log2_spec b ltac:(lia)) as [S1 S2].
        rewrite Z.pow_add_r by lia. rewrite <- E in *.
        replace (Z.succ (Z.log2 b + 8 * n)) with (Z.succ (Z.log2 b) + 8 * n) by lia.
        rewrite Z.pow_add_r by lia. rewrite <- E. nia. }
      rewrite LL. lia.
Qed.

Lemma num_modulus_bits_spec bytes : Forall byte bytes -> num_modulus_bits_ok bytes = true ->
  num_modulus_bits bytes = bitlen (of_le_bytes bytes).
Proof.
  intros Hall Hok. unfold num_modulus_bits_ok in Hok. apply Z.ltb_lt in Hok.
  unfold num_modulus_bits.
  rewrite (wrap_small 32 (Z.of_nat _)) by lia.
  rewrite wrap_small by lia.
  rewrite nmb_scan_spec; [rewrite rev_involutive; reflexivity | apply Forall_rev; exact Hall | rewrite rev_length; lia | lia].
Qed.

Lemma num_modulus_bits_f62 : num_modulus_bits (fd_modulus f62_desc) = 62. Proof. vm_compute. reflexivity. Qed.
Lemma num_modulus_bits_f64 : num_modulus_bits (fd_modulus f64_desc) = 64. Proof. vm_compute. reflexivity. Qed.
Lemma num_modulus_bits_f128 : num_modulus_bits (fd_modulus f128_desc) = 128. Proof. vm_compute. reflexivity. Qed.

(* ------------------------------------------------------------------------------------------------ *)
(* Policy. *)
Lemma fe_eqb_eq a b : fe_eqb a b = true <-> a = b.
Proof. destruct a, b; cbn; split; intros H; try reflexivity; try discriminate. Qed.

Lemma po_eqb_eq a b : po_eqb a b = true <-> a = b.
Proof.
  destruct a as [q1 b1 g1 e1 f1 r1], b as [q2 b2 g2 e2 f2 r2]. unfold po_eqb. cbn [po_num_queries po_blowup_factor
    po_grinding_factor po_field_extension po_fri_folding_factor po_fri_remainder_max_degree].
  rewrite !andb_true_iff, !Z.eqb_eq, fe_eqb_eq.
  split.
  - intros [[[[[-> ->] ->] ->] ->] ->]. reflexivity.
  - intros H. inversion H. subst. repeat split.
Qed.

Lemma bytes_eqb_eq a : forall b, bytes_eqb a b = true <-> a = b.
Proof.
  induction a as [|x a IH]; intros [|y b]; cbn [bytes_eqb]; split; intros H; try reflexivity; try discriminate.
  - apply andb_true_iff in H. destruct H as [H1 H2]. apply Z.eqb_eq in H1. apply IH in H2. subst. reflexivity.
  - inversion H. subst. apply andb_true_iff. split; [apply Z.eqb_refl | apply IH; reflexivity].
Qed.

Lemma option_set_member s c :
  existsb (fun o => po_eqb o (cx_options c)) s = true <-> In (cx_options c) s.
Proof.
  rewrite existsb_exists. split.
  - intros [o [Hin He]]. apply po_eqb_eq in He. subst. exact Hin.
  - intros Hin. exists (cx_options c). split; [exact Hin | apply po_eqb_eq; reflexivity].
Qed.

Lemma validate_spec_conj lc lp l c s : lc c = Some s ->
  (l <= s -> validate lc lp (MinConjecturedSecurity l) c = Accept) /\
  (s < l -> validate lc lp (MinConjecturedSecurity l) c = Reject (InsufficientConjecturedSecurity l s)).
Proof. intros E. cbn [validate]. rewrite E. split; intros HH; destruct (Z.ltb_spec s l); try lia; reflexivity. Qed.

Lemma validate_spec_proven lc lp l c s : lp c = Some s ->
  (l <= s -> validate lc lp (MinProvenSecurity l) c = Accept) /\
  (s < l -> validate lc lp (MinProvenSecurity l) c = Reject (InsufficientProvenSecurity l s)).
Proof. intros E. cbn [validate]. rewrite E. split; intros HH; destruct (Z.ltb_spec s l); try lia; reflexivity. Qed.

Lemma validate_spec_set lc lp set c :
  (In (cx_options c) set -> validate lc lp (OptionSet set) c = Accept) /\
  (~ In (cx_options c) set -> validate lc lp (OptionSet set) c = Reject UnacceptableProofOptions).
Proof.
  cbn [validate]. pose proof (option_set_member set c) as M.
  destruct (existsb (fun o => po_eqb o (cx_options c)) set); cbn [negb]; split; intros H; try reflexivity.
  - exfalso. apply H. apply M. reflexivity.
  - apply M in H. discriminate.
Qed.

(* what `validate = Accept` means, per mode *)
Definition policy_satisfied (lc lp : Context -> option Z) (a : AcceptableOptions) (c : Context) : Prop :=
  match a with
  | MinConjecturedSecurity l => exists s, lc c = Some s /\ l <= s
  | MinProvenSecurity l => exists s, lp c = Some s /\ l <= s
  | OptionSet set => In (cx_options c) set
  end.

Lemma validate_accept_iff lc lp a c : validate lc lp a c = Accept <-> policy_satisfied lc lp a c.
Proof.
  destruct a as [l | l | set]; cbn [validate policy_satisfied].
  - destruct (lc c) as [s|]; [ | split; [discriminate | intros [s [E _]]; discriminate]].
    destruct (Z.ltb_spec s l) as [Hlt | Hge]; split; intros HH; try discriminate.
    + destruct HH as [s' [E Hs]]. inversion E. subst. lia.
    + exists s. split; [reflexivity | lia].
    + reflexivity.
  - destruct (lp c) as [s|]; [ | split; [discriminate | intros [s [E _]]; discriminate]].
    destruct (Z.ltb_spec s l) as [Hlt | Hge]; split; intros HH; try discriminate.
    + destruct HH as [s' [E Hs]]. inversion E. subst. lia.
    + exists s. split; [reflexivity | lia].
    + reflexivity.
  - pose proof (option_set_member set c) as M.
    destruct (existsb (fun o => po_eqb o (cx_options c)) set); cbn [negb]; split; intros H; try discriminate.
    + apply M. reflexivity.
    + reflexivity.
    + apply M in H. discriminate.
Qed.

(* a rejection by validate carries the error of the mode in force, with the exact payload *)
Lemma validate_reject_policy lc lp a c e : validate lc lp a c = Reject e ->
  (exists l s, e = InsufficientConjecturedSecurity l s /\ s < l /\ lc c = Some s /\ a = MinConjecturedSecurity l) \/
  (exists l s, e = InsufficientProvenSecurity l s /\ s < l /\ lp c = Some s /\ a = MinProvenSecurity l) \/
  (e = UnacceptableProofOptions /\ exists set, a = OptionSet set /\ ~ In (cx_options c) set).
Proof.
  destruct a as [l | l | set]; cbn [validate].
  - destruct (lc c) as [s|] eqn:E; [ | discriminate]. destruct (Z.ltb_spec s l); [ | discriminate].
    intros HH. inversion HH. left. exists l, s. repeat split; try reflexivity; lia.
  - destruct (lp c) as [s|] eqn:E; [ | discriminate]. destruct (Z.ltb_spec s l); [ | discriminate].
    intros HH. inversion HH. right. left. exists l, s. repeat split; try reflexivity; lia.
  - pose proof (option_set_member set c) as M.
    destruct (existsb (fun o => po_eqb o (cx_options c)) set); cbn [negb]; [discriminate | ].
    intros H. inversion H. right. right. split; [reflexivity | ]. exists set. split; [reflexivity | ].
    intros Hin. apply M in Hin. discriminate.
Qed.

Definition field_wf_b (air : FieldDesc) : bool := negb (to_elements_panics (fd_elem_bytes air) (fd_modulus air)).

(* ---- verify(): order of the checks ---- *)
Lemma foreign_field_refused air lc lp acc c rest :
  cx_modulus c <> fd_modulus air -> verify_decision air lc lp acc c rest = Reject InconsistentBaseField.
Proof.
  intros Hne. unfold verify_decision.
  destruct (bytes_eqb (fd_modulus air) (cx_modulus c)) eqn:E; [ | reflexivity].
  apply bytes_eqb_eq in E. congruence.
Qed.

Lemma accepted_implies_level air lc lp acc c rest :
  verify_decision air lc lp acc c rest = Accept ->
  cx_modulus c = fd_modulus air /\ policy_satisfied lc lp acc c /\
  ext_supported air (po_field_extension (cx_options c)) = None /\ rest = Accept.
Proof.
  unfold verify_decision.
  destruct (bytes_eqb (fd_modulus air) (cx_modulus c)) eqn:E; cbn [negb]; [ | discriminate].
  apply bytes_eqb_eq in E.
  destruct (validate lc lp acc c) eqn:V; try discriminate.
  destruct (to_elements_panics _ _); [discriminate | ].
  destruct (ext_supported _ _) eqn:X; [discriminate | ].
  intros R. repeat split; try congruence. apply validate_accept_iff. exact V.
Qed.

(* converse: nothing else than the listed conditions is needed for acceptance (the model does not over-reject) *)
Lemma accept_complete air lc lp acc c :
  cx_modulus c = fd_modulus air -> field_wf_b air = true -> policy_satisfied lc lp acc c ->
  ext_supported air (po_field_extension (cx_options c)) = None ->
  verify_decision air lc lp acc c Accept = Accept.
Proof.
  intros E W P X. unfold verify_decision.
  assert (B : bytes_eqb (fd_modulus air) (cx_modulus c) = true) by (apply bytes_eqb_eq; congruence).
  rewrite B. cbn [negb]. apply validate_accept_iff in P. rewrite P.
  unfold field_wf_b in W. rewrite E. apply negb_true_iff in W. rewrite W, X. reflexivity.
Qed.

(* if the policy refuses, the outcome is fixed before the context is used for the seed and before the rest of the
   verification is consulted *)
Lemma policy_checked_before_use air lc lp acc c e :
  validate lc lp acc c = Reject e ->
  forall rest, verify_decision air lc lp acc c rest = Reject InconsistentBaseField \/
               verify_decision air lc lp acc c rest = Reject e.
Proof.
  intros V rest. unfold verify_decision.
  destruct (bytes_eqb (fd_modulus air) (cx_modulus c)); cbn [negb]; [right | left; reflexivity].
  rewrite V. reflexivity.
Qed.

Lemma policy_refusal_independent_of_rest air lc lp acc c :
  validate lc lp acc c <> Accept ->
  forall rest rest', verify_decision air lc lp acc c rest = verify_decision air lc lp acc c rest' /\
                     verify_decision air lc lp acc c rest <> Accept.
Proof.
  intros V rest rest'. unfold verify_decision.
  destruct (bytes_eqb (fd_modulus air) (cx_modulus c)); cbn [negb]; [ | split; [reflexivity | discriminate]].
  destruct (validate lc lp acc c) eqn:E; [contradiction | split; [reflexivity | discriminate] ..].
Qed.

(* well-formed field description: Context::to_elements does not assert on the AIR's own modulus (each half of it is
   shorter than an element) *)
Definition field_wf (air : FieldDesc) : Prop := to_elements_panics (fd_elem_bytes air) (fd_modulus air) = false.

Lemma verify_no_panic air lc lp acc c rest :
  field_wf air -> (forall c', lc c' <> None) -> (forall c', lp c' <> None) -> rest <> Panic ->
  verify_decision air lc lp acc c rest <> Panic.
Proof.
  intros W Hc Hp Hr. unfold verify_decision.
  destruct (bytes_eqb (fd_modulus air) (cx_modulus c)) eqn:E; cbn [negb]; [ | discriminate].
  apply bytes_eqb_eq in E. rewrite <- E. unfold field_wf in W. rewrite W.
  destruct (validate lc lp acc c) eqn:V; try discriminate.
  - destruct (ext_supported _ _); [discriminate | exact Hr].
  - exfalso. destruct acc as [l | l | set]; cbn [validate] in V.
    + destruct (lc c) eqn:L; [destruct (_ <? _); discriminate | exact (Hc c L)].
    + destruct (lp c) eqn:L; [destruct (_ <? _); discriminate | exact (Hp c L)].
    + destruct (negb _); discriminate.
Qed.

Lemma field_wf_f62 : field_wf f62_desc. Proof. reflexivity. Qed.
Lemma field_wf_f64 : field_wf f64_desc. Proof. reflexivity. Qed.
Lemma field_wf_f128 : field_wf f128_desc. Proof. reflexivity. Qed.

(* the order of checks before fixes/c18-field-check-before-context-use.diff let a foreign modulus reach to_elements: an
   f64 AIR, a context claiming the 16-byte f128 modulus, any policy that accepts -> Panic instead of a refusal *)
Lemma foreign_field_panicked_before_fix :
  exists c rest, cx_modulus c <> fd_modulus f64_desc /\
    verify_decision_before_fix f64_desc (fun _ => Some 0) (fun _ => Some 0) (MinConjecturedSecurity 0) c rest = Panic /\
    verify_decision f64_desc (fun _ => Some 0) (fun _ => Some 0) (MinConjecturedSecurity 0) c rest = Reject InconsistentBaseField.
Proof.
  exists (mkContext 8 (fd_modulus f128_desc) (mkProofOptions 1 2 0 FeNone 2 0)), Accept.
  split; [ | split; vm_compute; reflexivity].
  (* 16 bytes against 8 *)
  intros H. apply (f_equal (@length Z)) in H. vm_compute in H. discriminate.
Qed.
