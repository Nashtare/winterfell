(* Little-endian byte strings (to_le_bytes / of_le_bytes of Base/MachInt.v).
   A byte string is a list satisfying [Forall (fun b => 0 <= b < 256)]; predicates such as
   CodecTypes.is_bytes unfold to exactly this, so the lemmas apply to them by conversion. *)
From VBase Require Import MachInt.
Open Scope Z_scope.

(* a concrete byte string is checked by evaluation *)
Lemma forallb_bytes l : forallb (fun b => (0 <=? b) && (b <? 256)) l = true -> Forall (fun b => 0 <= b < 256) l.
Proof. intros H. apply Forall_forall. intros x Hx. rewrite forallb_forall in H. specialize (H x Hx). lia. Qed.

Lemma of_le_bytes_nonneg l : Forall (fun b => 0 <= b) l -> 0 <= of_le_bytes l.
Proof. induction 1; cbn [of_le_bytes]; lia. Qed.

Lemma of_le_bytes_range l : Forall (fun b => 0 <= b < 256) l -> 0 <= of_le_bytes l < 256 ^ Z.of_nat (length l).
Proof.
  induction 1 as [|b l Hb _ IH]; cbn [of_le_bytes length]; [cbn; lia|].
  rewrite Nat2Z.inj_succ, Z.pow_succ_r by lia. lia.
Qed.

Lemma of_le_bytes_app l1 l2 : of_le_bytes (l1 ++ l2) = of_le_bytes l1 + 256 ^ Z.of_nat (length l1) * of_le_bytes l2.
Proof.
  induction l1 as [|b l IH]; cbn [app of_le_bytes length].
  - change (256 ^ Z.of_nat 0) with 1. lia.
  - rewrite IH, Nat2Z.inj_succ, Z.pow_succ_r by lia. ring.
Qed.

Lemma of_le_bytes_zeros n : of_le_bytes (repeat 0 n) = 0.
Proof. induction n as [|n IH]; cbn [repeat of_le_bytes]; [reflexivity | now rewrite IH]. Qed.

Lemma of_le_bytes_app_zeros l k : of_le_bytes (l ++ repeat 0 k) = of_le_bytes l.
Proof. rewrite of_le_bytes_app, of_le_bytes_zeros. ring. Qed.

Lemma of_le_bytes_inj l1 l2 : Forall (fun b => 0 <= b < 256) l1 -> Forall (fun b => 0 <= b < 256) l2 ->
  length l1 = length l2 -> of_le_bytes l1 = of_le_bytes l2 -> l1 = l2.
Proof.
  intros H1. revert l2. induction H1 as [|a l1 Ha _ IH]; intros [|b l2] H2 Hl He; try discriminate; [reflexivity|].
  inversion H2 as [|? ? Hb H2']; subst. cbn [of_le_bytes] in He.
  (* the low byte is the value mod 256 *)
  assert (a = b) by lia. subst b. f_equal. apply IH; auto; lia.
Qed.

Lemma to_le_bytes_range n x : Forall (fun b => 0 <= b < 256) (to_le_bytes n x).
Proof.
  revert x. induction n as [|n IH]; intros x; cbn [to_le_bytes]; constructor; [|apply IH].
  apply Z.mod_pos_bound. lia.
Qed.

Lemma firstn_to_le_bytes n m x : (n <= m)%nat -> firstn n (to_le_bytes m x) = to_le_bytes n x.
Proof.
  revert m x. induction n as [|n IH]; intros m x H; [reflexivity|].
  destruct m as [|m]; [lia|]. cbn [to_le_bytes firstn]. f_equal. apply IH. lia.
Qed.

Lemma to_of_le_bytes l : Forall (fun b => 0 <= b < 256) l -> to_le_bytes (length l) (of_le_bytes l) = l.
Proof.
  induction 1 as [|b l Hb _ IH]; cbn [length to_le_bytes of_le_bytes]; [reflexivity|].
  replace (b + 256 * of_le_bytes l) with (b + of_le_bytes l * 256) by ring.
  rewrite Z.mod_add, Z.div_add, (Z.mod_small b), (Z.div_small b), Z.add_0_l, IH by lia. reflexivity.
Qed.

Lemma to_le_bytes_inj n v1 v2 : 0 <= v1 < 256 ^ Z.of_nat n -> 0 <= v2 < 256 ^ Z.of_nat n ->
  to_le_bytes n v1 = to_le_bytes n v2 -> v1 = v2.
Proof. intros H1 H2 H. rewrite <- (of_to_le_bytes n v1 H1), <- (of_to_le_bytes n v2 H2), H. reflexivity. Qed.
