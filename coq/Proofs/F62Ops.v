(* f62 (M = 2^62 - 111*2^39 + 1, Montgomery form with R = 2^64, lazy range [0, 2M)):
   the generated terms of Gen/F62.v (from math/src/field/f62/mod.rs) against integer
   arithmetic modulo M.  mul / add / sub / neg / double / new / as_int / eq / normalize
   and the published constants.  exp is in F62Exp.v, inversion in F62Inv.v. *)
From Coq Require Import ZArith Lia Bool List Morphisms.
From VBase Require Import MachInt ZpOps.
From VGen Require Import F62.
From VProofs Require Import MachIntFacts NumTheoryFermat NumTheoryPrime.
Open Scope Z_scope.

Definition M62 : Z := 4611624995532046337.
Lemma M62_eq : f62_M = M62. Proof. reflexivity. Qed.
Lemma M62_val : M62 = 2^62 - 111 * 2^39 + 1. Proof. reflexivity. Qed.
Lemma M62_P62 : M62 = P62. Proof. reflexivity. Qed.
Lemma M62_pos : 0 < M62. Proof. reflexivity. Qed.

(* internal words live in the lazy range [0, 2M) *)
Definition repr62 (x : Z) : Prop := 0 <= x < 2 * M62.
(* 2^-64 mod M *)
Definition Rinv62 : Z := 1152890993361043456.
Lemma Rinv62_ok : (2^64 * Rinv62) mod M62 = 1. Proof. reflexivity. Qed.
(* the residue denoted by an internal word *)
Definition val62 (x : Z) : Z := (x * Rinv62) mod M62.

Lemma zdiv_eq a b q r : 0 <= r < b -> a = q * b + r -> a / b = q.
Proof. exact (div_eq a b q r). Qed.

(* ---------- congruences modulo M62 (sealed relation with setoid structure) ---------- *)
Inductive eqM62 (a b : Z) : Prop := eqM62_intro : a mod M62 = b mod M62 -> eqM62 a b.
Notation "a ==m b" := (eqM62 a b) (at level 70, no associativity).

Lemma eqM62_iff a b : a ==m b <-> a mod M62 = b mod M62.
Proof. split; [intros [H]; exact H|apply eqM62_intro]. Qed.
#[global] Instance eqM62_equiv : Equivalence eqM62.
Proof. split; [intros x|intros x y H|intros x y z H1 H2]; rewrite eqM62_iff in *; congruence. Qed.
#[global] Instance add_eqM62 : Proper (eqM62 ==> eqM62 ==> eqM62) Z.add.
Proof. intros a b H c d H'. rewrite eqM62_iff in *. rewrite (Zplus_mod a), (Zplus_mod b), H, H'. reflexivity. Qed.
#[global] Instance sub_eqM62 : Proper (eqM62 ==> eqM62 ==> eqM62) Z.sub.
Proof. intros a b H c d H'. rewrite eqM62_iff in *. rewrite (Zminus_mod a), (Zminus_mod b), H, H'. reflexivity. Qed.
#[global] Instance mul_eqM62 : Proper (eqM62 ==> eqM62 ==> eqM62) Z.mul.
Proof. intros a b H c d H'. rewrite eqM62_iff in *. rewrite (Zmult_mod a), (Zmult_mod b), H, H'. reflexivity. Qed.
#[global] Instance opp_eqM62 : Proper (eqM62 ==> eqM62) Z.opp.
Proof. intros a b H. change (- a) with (0 - a). change (- b) with (0 - b). now rewrite H. Qed.

Lemma eqm_refl_eq a b : a = b -> a ==m b.
Proof. intros ->. reflexivity. Qed.
Lemma eqm_M_0 : M62 ==m 0. Proof. apply eqM62_iff. reflexivity. Qed.
Lemma eqm_R_Rinv : 2^64 * Rinv62 ==m 1. Proof. apply eqM62_iff. reflexivity. Qed.
Lemma eqm_mod a : a mod M62 ==m a.
Proof. apply eqM62_iff. apply Z.mod_mod. unfold M62; lia. Qed.
Lemma eqm_val x : val62 x ==m x * Rinv62.
Proof. apply eqm_mod. Qed.
Lemma eqm_val_R x : val62 x * 2^64 ==m x.
Proof.
  rewrite eqm_val. replace (x * Rinv62 * 2^64) with (x * (2^64 * Rinv62)) by ring.
  rewrite eqm_R_Rinv. now rewrite Z.mul_1_r.
Qed.
(* dividing a congruence by R = 2^64 *)
Lemma eqm_mont r x : r * 2^64 ==m x -> r ==m x * Rinv62.
Proof.
  intros H. rewrite <- H. replace (r * 2^64 * Rinv62) with (r * (2^64 * Rinv62)) by ring.
  rewrite eqm_R_Rinv. now rewrite Z.mul_1_r.
Qed.
Lemma eqm_add_kM a k : a + k * M62 ==m a.
Proof. apply eqM62_iff. apply Z.mod_add. unfold M62; lia. Qed.
Lemma eqm_small a b : 0 <= a < M62 -> 0 <= b < M62 -> a ==m b -> a = b.
Proof. rewrite eqM62_iff. intros Ha Hb H. rewrite !Z.mod_small in H by assumption. exact H. Qed.
Lemma eqm_to_mod a b : 0 <= b < M62 -> a ==m b -> a mod M62 = b.
Proof. rewrite eqM62_iff. intros Hb H. rewrite H. apply Z.mod_small; exact Hb. Qed.

Lemma val62_range x : 0 <= val62 x < M62.
Proof. apply Z.mod_pos_bound, M62_pos. Qed.

(* val62 identifies exactly the words that are congruent modulo M *)
Lemma val62_eq_iff a b : val62 a = val62 b <-> a ==m b.
Proof.
  split; intros H.
  - rewrite <- (eqm_val_R a), <- (eqm_val_R b), H. reflexivity.
  - apply eqm_small; try apply val62_range. rewrite !eqm_val, H. reflexivity.
Qed.

Lemma val62_mod x : val62 (x mod M62) = val62 x.
Proof. apply val62_eq_iff, eqm_mod. Qed.

Lemma val62_zero_iff x : val62 x = 0 <-> x mod M62 = 0.
Proof.
  change 0 with (val62 0) at 1. rewrite val62_eq_iff, eqM62_iff. reflexivity.
Qed.

(* ---------- Montgomery multiplication ---------- *)
(* f62_U = -M^-1 mod 2^64, i.e. U*M + 1 = Ucoef62 * 2^64; this quotient is again 2^-64 mod M (= Rinv62) *)
Definition Ucoef62 : Z := 1152890993361043456.
Lemma U62_ok : f62_U * M62 + 1 = Ucoef62 * 2^64. Proof. reflexivity. Qed.

(* master fact: for 0 <= a*b < 2^64*M, mul(a,b) = (a*b + q*M) / 2^64 exactly, with q < 2^64;
   hence mul(a,b) < 2M and mul(a,b) * 2^64 == a*b (mod M); and no intermediate overflows u128.
   (The bound is what the algorithm needs for the lazy range: the result is < M*(a*b/(2^64 M) + 1).) *)
Lemma fn_mul_both a b : 0 <= a -> 0 <= b -> a * b < 2^64 * M62 ->
  (exists q, 0 <= q < 2^64 /\ f62_fn_mul a b * 2^64 = a * b + q * M62) /\ f62_fn_mul_ok a b = true.
Proof.
  intros Ha Hb Hab. unfold f62_fn_mul, f62_fn_mul_ok. cbv zeta.
  set (z := a * b) in *.
  assert (Hz : 0 <= z < 2^64 * M62) by (unfold z; nia).
  rewrite (wrap_small 128 z) by (unfold M62 in *; lia).
  set (zl := wrap 64 z).
  assert (Hzl : 0 <= zl < 2^64) by (apply wrap_range; lia).
  rewrite (wrap_small 128 (zl * f62_U)) by (unfold f62_U; lia).
  set (q := wrap 64 (zl * f62_U)).
  assert (Hq : 0 <= q < 2^64) by (apply wrap_range; lia).
  rewrite M62_eq, (wrap_small 128 (q * M62)) by (unfold M62; lia).
  split; [|rewrite !(proj2 (in_u_iff 128 _)) by (unfold f62_U, M62 in *; lia); reflexivity].
  rewrite (wrap_small 128 (z + q * M62)) by (unfold M62 in *; lia).
  (* the sum is divisible by 2^64 *)
  assert (Hdiv : z + q * M62 = (z / 2^64 + zl * Ucoef62 - (zl * f62_U) / 2^64 * M62) * 2^64).
  { pose proof (Z.div_mod z (2^64) ltac:(lia)) as E1.
    pose proof (Z.div_mod (zl * f62_U) (2^64) ltac:(lia)) as E2.
    fold (wrap 64 z) in E1. fold zl in E1. fold (wrap 64 (zl * f62_U)) in E2. fold q in E2.
    pose proof U62_ok as E3.
    set (zh := z / 2^64) in *. set (t := (zl * f62_U) / 2^64) in *.
    assert (E4 : zl * (f62_U * M62 + 1) = zl * (Ucoef62 * 2^64)) by (now rewrite E3).
    assert (E5 : q * M62 = zl * f62_U * M62 - 2^64 * t * M62) by (rewrite E2; ring).
    rewrite E5. rewrite E1 at 1.
    replace (zl * f62_U * M62) with (zl * (f62_U * M62 + 1) - zl) by ring.
    rewrite E4. ring. }
  set (r := z / 2^64 + zl * Ucoef62 - (zl * f62_U) / 2^64 * M62) in *.
  assert (Hsh : shr (z + q * M62) 64 = r).
  { unfold shr. rewrite Hdiv. apply Z.div_mul. lia. }
  rewrite Hsh.
  assert (Hr : 0 <= r < 2 * M62) by (unfold M62 in *; nia).
  rewrite (wrap_small 64 r) by (unfold M62 in *; lia).
  exists q. split; [exact Hq|]. lia.
Qed.

Lemma fn_mul_core a b : 0 <= a -> 0 <= b -> a * b < 2^64 * M62 ->
  exists q, 0 <= q < 2^64 /\ f62_fn_mul a b * 2^64 = a * b + q * M62.
Proof. intros Ha Hb Hab. exact (proj1 (fn_mul_both a b Ha Hb Hab)). Qed.

Lemma fn_mul_ok_gen a b : 0 <= a -> 0 <= b -> a * b < 2^64 * M62 -> f62_fn_mul_ok a b = true.
Proof. intros Ha Hb Hab. exact (proj2 (fn_mul_both a b Ha Hb Hab)). Qed.

Lemma fn_mul_spec a b : 0 <= a -> 0 <= b -> a * b < 2^64 * M62 ->
  repr62 (f62_fn_mul a b) /\ f62_fn_mul a b * 2^64 ==m a * b.
Proof.
  intros Ha Hb Hab. destruct (fn_mul_core a b Ha Hb Hab) as (q & Hq & E). split.
  - unfold repr62, M62 in *. nia.
  - rewrite E. apply eqm_add_kM.
Qed.

Lemma fn_mul_val a b : 0 <= a -> 0 <= b -> a * b < 2^64 * M62 ->
  val62 (f62_fn_mul a b) = (val62 a * val62 b) mod M62.
Proof.
  intros Ha Hb Hab. destruct (fn_mul_spec a b Ha Hb Hab) as [_ Hc].
  apply eqm_small; [apply val62_range|apply Z.mod_pos_bound, M62_pos|].
  rewrite eqm_mod, !eqm_val, (eqm_mont _ _ Hc). apply eqm_refl_eq. ring.
Qed.

Theorem f62_mul_spec a b : repr62 a -> repr62 b ->
  repr62 (f62_mul a b) /\ val62 (f62_mul a b) = (val62 a * val62 b) mod M62.
Proof.
  unfold repr62. intros Ha Hb. unfold f62_mul.
  assert (Hab : a * b < 2^64 * M62) by (unfold M62 in *; nia).
  split; [apply fn_mul_spec; lia|apply fn_mul_val; lia].
Qed.

Theorem f62_mul_ok_spec a b : repr62 a -> repr62 b -> f62_mul_ok a b = true.
Proof.
  unfold repr62. intros Ha Hb. unfold f62_mul_ok.
  apply fn_mul_ok_gen; unfold M62 in *; nia.
Qed.

(* ---------- normalize ---------- *)
Theorem f62_normalize_spec x : repr62 x ->
  f62_normalize x = x mod M62 /\ 0 <= f62_normalize x < M62 /\ val62 (f62_normalize x) = val62 x
  /\ f62_normalize_ok x = true.
Proof.
  unfold repr62. intros Hx.
  assert (E : f62_normalize x = x mod M62).
  { unfold f62_normalize. rewrite M62_eq. destruct (Z.geb_spec x M62) as [H|H].
    - rewrite wrap_small by (unfold M62 in *; lia). symmetry. apply (mod_eq _ _ 1); lia.
    - symmetry. apply Z.mod_small; lia. }
  split; [exact E|]. split; [rewrite E; apply Z.mod_pos_bound, M62_pos|].
  split; [rewrite E; apply val62_mod|].
  unfold f62_normalize_ok, in_u. rewrite M62_eq. destruct (Z.geb_spec x M62) as [H|H]; [|reflexivity].
  apply andb_true_iff; unfold M62 in *; split; lia.
Qed.

(* ---------- add / double / sub / neg ---------- *)
(* common tail of add and double: z - (z >> 62) * M *)
Lemma lazy_red z : 0 <= z < 4 * M62 ->
  let r := wrap 64 (z - wrap 64 (shr z 62 * f62_M)) in
  0 <= r < 2 * M62 /\ r ==m z /\ in_u 64 (shr z 62 * f62_M) = true
  /\ in_u 64 (z - wrap 64 (shr z 62 * f62_M)) = true.
Proof.
  intros Hz. cbv zeta. rewrite M62_eq.
  set (q := shr z 62).
  assert (Hq : 0 <= q <= 3).
  { unfold q, shr. split; [apply Z.div_pos; lia|]. apply Z.lt_succ_r, Z.div_lt_upper_bound; unfold M62 in *; lia. }
  assert (Hzq : z = q * 2^62 + z mod 2^62).
  { unfold q, shr. pose proof (Z.div_mod z (2^62) ltac:(lia)). lia. }
  assert (Hrem : 0 <= z mod 2^62 < 2^62) by (apply Z.mod_pos_bound; lia).
  assert (Hw : wrap 64 (q * M62) = q * M62) by (apply wrap_small; unfold M62; lia).
  rewrite Hw.
  assert (Hr : 0 <= z - q * M62 < 2 * M62) by (unfold M62 in *; lia).
  rewrite wrap_small by (unfold M62 in *; lia).
  split; [exact Hr|]. split.
  - replace (z - q * M62) with (z + (- q) * M62) by ring. apply eqm_add_kM.
  - unfold in_u. split; apply andb_true_iff; unfold M62 in *; split; lia.
Qed.

Theorem f62_add_spec a b : repr62 a -> repr62 b ->
  repr62 (f62_add a b) /\ val62 (f62_add a b) = (val62 a + val62 b) mod M62.
Proof.
  unfold repr62. intros Ha Hb. unfold f62_add, f62_fn_add. cbv zeta.
  assert (Hw : wrap 64 (a + b) = a + b) by (apply wrap_small; unfold M62 in *; lia).
  rewrite Hw.
  destruct (lazy_red (a + b) ltac:(lia)) as (Hr & Hc & _). cbv zeta in Hr, Hc.
  split; [exact Hr|].
  apply eqm_small; [apply val62_range|apply Z.mod_pos_bound, M62_pos|].
  rewrite eqm_mod, !eqm_val, Hc. apply eqm_refl_eq. ring.
Qed.

Theorem f62_add_ok_spec a b : repr62 a -> repr62 b -> f62_add_ok a b = true.
Proof.
  unfold repr62. intros Ha Hb. unfold f62_add_ok, f62_fn_add_ok. cbv zeta.
  assert (Hw : wrap 64 (a + b) = a + b) by (apply wrap_small; unfold M62 in *; lia).
  rewrite Hw.
  destruct (lazy_red (a + b) ltac:(lia)) as (_ & _ & H1 & H2).
  rewrite H1, H2. unfold in_u.
  repeat (apply andb_true_iff; split); unfold M62 in *; lia.
Qed.

Lemma shl64_1 a : 0 <= a < 2 * M62 -> shl 64 a 1 = 2 * a.
Proof. intros Ha. unfold shl. rewrite Z.mod_small; unfold M62 in *; lia. Qed.

Theorem f62_double_spec a : repr62 a ->
  repr62 (f62_double a) /\ val62 (f62_double a) = (2 * val62 a) mod M62.
Proof.
  unfold repr62. intros Ha. unfold f62_double. cbv zeta. rewrite shl64_1 by exact Ha.
  destruct (lazy_red (2 * a) ltac:(lia)) as (Hr & Hc & _). cbv zeta in Hr, Hc.
  split; [exact Hr|].
  apply eqm_small; [apply val62_range|apply Z.mod_pos_bound, M62_pos|].
  rewrite eqm_mod, !eqm_val, Hc. apply eqm_refl_eq. ring.
Qed.

Theorem f62_double_ok_spec a : repr62 a -> f62_double_ok a = true.
Proof.
  unfold repr62. intros Ha. unfold f62_double_ok. cbv zeta. rewrite shl64_1 by exact Ha.
  destruct (lazy_red (2 * a) ltac:(lia)) as (_ & _ & H1 & H2).
  rewrite H1, H2. reflexivity.
Qed.

(* in the lazy range, sub is subtraction modulo 2M *)
Lemma fn_sub_both a b : repr62 a -> repr62 b ->
  f62_fn_sub a b = (a - b) mod (2 * M62) /\ f62_fn_sub_ok a b = true.
Proof.
  unfold repr62. intros Ha Hb.
  exact (sub_mod_wrap 64 (2 * M62) a b ltac:(discriminate) Ha Hb).
Qed.

Theorem f62_sub_spec a b : repr62 a -> repr62 b ->
  repr62 (f62_sub a b) /\ val62 (f62_sub a b) = (val62 a - val62 b) mod M62.
Proof.
  intros Ha Hb. unfold f62_sub. rewrite (proj1 (fn_sub_both a b Ha Hb)).
  split; [apply Z.mod_pos_bound; reflexivity|].
  assert (Hc : (a - b) mod (2 * M62) ==m a - b).
  { apply eqM62_iff, mod_of_mod_divisor; [reflexivity|reflexivity|exists 2; reflexivity]. }
  apply eqm_small; [apply val62_range|apply Z.mod_pos_bound, M62_pos|].
  rewrite eqm_mod, !eqm_val, Hc. apply eqm_refl_eq. ring.
Qed.

Theorem f62_sub_ok_spec a b : repr62 a -> repr62 b -> f62_sub_ok a b = true.
Proof. intros Ha Hb. unfold f62_sub_ok. apply (fn_sub_both a b Ha Hb). Qed.

Lemma repr62_0 : repr62 0. Proof. unfold repr62, M62; lia. Qed.

Theorem f62_neg_spec a : repr62 a ->
  repr62 (f62_neg a) /\ val62 (f62_neg a) = (- val62 a) mod M62.
Proof.
  intros Ha. unfold f62_neg. destruct (f62_sub_spec 0 a repr62_0 Ha) as [Hr Hv].
  unfold f62_sub in *. split; [exact Hr|]. rewrite Hv. reflexivity.
Qed.

Theorem f62_neg_ok_spec a : repr62 a -> f62_neg_ok a = true.
Proof. intros Ha. unfold f62_neg_ok. apply (fn_sub_both 0 a repr62_0 Ha). Qed.

(* ---------- new / as_int / eq ---------- *)
Theorem f62_new_spec v : 0 <= v < 2^64 ->
  repr62 (f62_new v) /\ val62 (f62_new v) = v mod M62.
Proof.
  intros Hv. unfold f62_new. cbv zeta.
  assert (Hab : v * f62_R2 < 2^64 * M62) by (unfold f62_R2, M62; nia).
  destruct (fn_mul_spec v f62_R2 ltac:(lia) ltac:(unfold f62_R2; lia) Hab) as [Hr Hc].
  split; [exact Hr|].
  apply eqm_small; [apply val62_range|apply Z.mod_pos_bound, M62_pos|].
  rewrite eqm_mod, eqm_val, (eqm_mont _ _ Hc).
  replace (v * f62_R2 * Rinv62 * Rinv62) with (v * (f62_R2 * Rinv62 * Rinv62)) by ring.
  assert (E : f62_R2 * Rinv62 * Rinv62 ==m 1) by (apply eqM62_iff; reflexivity).
  rewrite E. now rewrite Z.mul_1_r.
Qed.

Theorem f62_new_ok_spec v : 0 <= v < 2^64 -> f62_new_ok v = true.
Proof.
  intros Hv. unfold f62_new_ok. apply fn_mul_ok_gen; unfold f62_R2, M62; nia.
Qed.

Theorem f62_as_int_spec x : repr62 x -> f62_as_int x = val62 x.
Proof.
  unfold repr62. intros Hx. unfold f62_as_int. cbv zeta.
  assert (Hab : x * 1 < 2^64 * M62) by (unfold M62 in *; lia).
  destruct (fn_mul_spec x 1 ltac:(lia) ltac:(lia) Hab) as [Hr Hc].
  destruct (f62_normalize_spec _ Hr) as (E & _). rewrite E.
  apply eqm_to_mod; [apply val62_range|].
  rewrite eqm_val, (eqm_mont _ _ Hc). apply eqm_refl_eq. ring.
Qed.

Theorem f62_as_int_canonical x : repr62 x -> 0 <= f62_as_int x < M62.
Proof. intros Hx. rewrite f62_as_int_spec by exact Hx. apply val62_range. Qed.

Theorem f62_as_int_ok_spec x : repr62 x -> f62_as_int_ok x = true.
Proof.
  unfold repr62. intros Hx. unfold f62_as_int_ok. cbv zeta.
  assert (Hab : x * 1 < 2^64 * M62) by (unfold M62 in *; lia).
  rewrite fn_mul_ok_gen by lia.
  destruct (fn_mul_spec x 1 ltac:(lia) ltac:(lia) Hab) as [Hr _].
  apply (f62_normalize_spec _ Hr).
Qed.

Corollary f62_as_int_new v : 0 <= v < 2^64 -> f62_as_int (f62_new v) = v mod M62.
Proof.
  intros Hv. destruct (f62_new_spec v Hv) as [Hr Hval].
  rewrite f62_as_int_spec by exact Hr. exact Hval.
Qed.

(* equality identifies exactly the equal residues (the words may differ by M) *)
Theorem f62_eq_spec a b : repr62 a -> repr62 b -> f62_eq a b = (val62 a =? val62 b).
Proof.
  intros Ha Hb. unfold f62_eq.
  destruct (f62_normalize_spec a Ha) as (Ea & _). destruct (f62_normalize_spec b Hb) as (Eb & _).
  rewrite Ea, Eb.
  destruct (Z.eqb_spec (val62 a) (val62 b)) as [H|H].
  - apply Z.eqb_eq. apply val62_eq_iff, eqM62_iff in H. exact H.
  - apply Z.eqb_neq. intros E. apply H, val62_eq_iff, eqM62_iff. exact E.
Qed.

Theorem f62_eq_ok_spec a b : repr62 a -> repr62 b -> f62_eq_ok a b = true.
Proof.
  intros Ha Hb. unfold f62_eq_ok.
  destruct (f62_normalize_spec a Ha) as (_ & _ & _ & Ea). destruct (f62_normalize_spec b Hb) as (_ & _ & _ & Eb).
  now rewrite Ea, Eb.
Qed.

(* two words of the lazy range denote the same residue iff equal or differing by M *)
Theorem val62_inj_lazy a b : repr62 a -> repr62 b ->
  (val62 a = val62 b <-> (a = b \/ a = b + M62 \/ b = a + M62)).
Proof.
  unfold repr62. intros Ha Hb. rewrite val62_eq_iff, eqM62_iff. split.
  - intros H.
    assert (E : (a - b) mod M62 = 0).
    { rewrite Zminus_mod, H, Z.sub_diag. reflexivity. }
    apply Z.mod_divide in E; [|unfold M62; lia]. destruct E as [k E].
    assert (Hk : -2 < k < 2) by (unfold M62 in *; nia).
    assert (Hk3 : k = -1 \/ k = 0 \/ k = 1) by lia.
    destruct Hk3 as [Hk3|[Hk3|Hk3]]; subst k; lia.
  - intros [H|[H|H]]; rewrite H; [reflexivity| |].
    + replace (b + M62) with (b + 1 * M62) by ring. apply Z.mod_add. unfold M62; lia.
    + replace (a + M62) with (a + 1 * M62) by ring. symmetry. apply Z.mod_add. unfold M62; lia.
Qed.

(* ---------- constants ---------- *)
Lemma f62_modulus_def : f62_MODULUS = 2^62 - 111 * 2^39 + 1 /\ f62_MODULUS = M62 /\ f62_MODULUS_BITS = 62
  /\ 2^61 <= M62 < 2^62.
Proof. repeat split; discriminate. Qed.

Lemma f62_R2_def : f62_R2 = 2^128 mod M62. Proof. reflexivity. Qed.
Lemma f62_R3_def : f62_R3 = 2^192 mod M62. Proof. reflexivity. Qed.
Lemma f62_U_def : (f62_U * M62 + 1) mod 2^64 = 0 /\ 0 <= f62_U < 2^64.
Proof. split; [reflexivity|split; [discriminate|reflexivity]]. Qed.

Lemma f62_ZERO_word : f62_ZERO = 0. Proof. vm_compute. reflexivity. Qed.
Lemma f62_ONE_word : f62_ONE = 2^64 mod M62. Proof. vm_compute. reflexivity. Qed.
Lemma val62_ZERO : val62 f62_ZERO = 0. Proof. vm_compute. reflexivity. Qed.
Lemma val62_ONE : val62 f62_ONE = 1. Proof. vm_compute. reflexivity. Qed.
Lemma repr62_ZERO : repr62 f62_ZERO. Proof. rewrite f62_ZERO_word. exact repr62_0. Qed.
Lemma repr62_ONE : repr62 f62_ONE.
Proof. unfold repr62. vm_compute. split; [discriminate|reflexivity]. Qed.

Lemma f62_generator_val : val62 f62_GENERATOR = 3 /\ repr62 f62_GENERATOR.
Proof. split; [vm_compute; reflexivity|]. unfold repr62. vm_compute. split; [discriminate|reflexivity]. Qed.

Lemma f62_Mm1_factored : M62 - 1 = 2^39 * 13 * 17 * 37957. Proof. reflexivity. Qed.

(* 3 is a primitive root: 3^(M-1) = 1 and 3^((M-1)/q) <> 1 for each prime q | M-1 *)
Lemma f62_generator_order :
  3 ^ (M62 - 1) mod M62 = 1 /\
  3 ^ ((M62 - 1) / 2) mod M62 <> 1 /\ 3 ^ ((M62 - 1) / 13) mod M62 <> 1 /\
  3 ^ ((M62 - 1) / 17) mod M62 <> 1 /\ 3 ^ ((M62 - 1) / 37957) mod M62 <> 1.
Proof.
  destruct (lucas_check_order_pow _ _ _ P62_lucas) as [H1 H].
  repeat apply conj; [exact H1|apply H; cbn [In]; tauto ..].
Qed.

Lemma f62_two_adicity :
  f62_TWO_ADICITY = 39 /\ (M62 - 1) mod 2^39 = 0 /\ Z.odd ((M62 - 1) / 2^39) = true.
Proof. repeat split. Qed.

Lemma f62_root_def :
  repr62 f62_TWO_ADIC_ROOT_OF_UNITY /\
  val62 f62_TWO_ADIC_ROOT_OF_UNITY = f62_G /\
  val62 f62_TWO_ADIC_ROOT_OF_UNITY = 3 ^ ((M62 - 1) / 2^39) mod M62.
Proof.
  split; [unfold repr62; vm_compute; split; [discriminate|reflexivity]|].
  split; [vm_compute; reflexivity|].
  rewrite <- zpow_mod_spec by (vm_compute; try reflexivity; discriminate).
  vm_compute. reflexivity.
Qed.

(* the root has order exactly 2^39: w^(2^39) = 1 and w^(2^38) = -1 *)
Lemma f62_root_order :
  f62_G ^ (2^39) mod M62 = 1 /\ f62_G ^ (2^38) mod M62 = M62 - 1.
Proof.
  rewrite <- !zpow_mod_spec by (vm_compute; try reflexivity; discriminate).
  split; vm_compute; reflexivity.
Qed.

(* ---------- further exported forms ---------- *)
Lemma fn_mul_spec_mod a b : 0 <= a -> 0 <= b -> a * b < 2^64 * M62 ->
  repr62 (f62_fn_mul a b) /\ (f62_fn_mul a b * 2^64) mod M62 = (a * b) mod M62 /\
  val62 (f62_fn_mul a b) = (val62 a * val62 b) mod M62 /\ f62_fn_mul_ok a b = true.
Proof.
  intros Ha Hb Hab. destruct (fn_mul_spec a b Ha Hb Hab) as [Hr Hc].
  split; [exact Hr|]. split; [apply eqM62_iff in Hc; exact Hc|].
  split; [apply fn_mul_val; assumption|apply fn_mul_ok_gen; assumption].
Qed.

(* canonical serialization identifies exactly the equal residues *)
Theorem f62_as_int_inj a b : repr62 a -> repr62 b ->
  (f62_as_int a = f62_as_int b <-> val62 a = val62 b).
Proof. intros Ha Hb. rewrite !f62_as_int_spec by assumption. reflexivity. Qed.

Theorem f62_try_from_u64_spec v : 0 <= v < 2^64 ->
  match f62_try_from_u64 v with
  | None => M62 <= v
  | Some e => v < M62 /\ repr62 e /\ val62 e = v
  end /\ f62_try_from_u64_ok v = true.
Proof.
  intros Hv. unfold f62_try_from_u64, f62_try_from_u64_ok. rewrite M62_eq.
  destruct (Z.geb_spec v M62) as [H|H]; [split; [exact H|reflexivity]|].
  destruct (f62_new_spec v Hv) as [Hr Hval].
  split; [|apply f62_new_ok_spec; exact Hv].
  split; [exact H|]. split; [exact Hr|]. rewrite Hval. apply Z.mod_small; lia.
Qed.

(* non-vacuity of the hypotheses used above *)
Example repr62_nonempty : repr62 0 /\ repr62 M62 /\ repr62 (2 * M62 - 1) /\ ~ repr62 (2 * M62).
Proof. unfold repr62, M62. repeat split; lia. Qed.
Example val62_two_words : val62 1 = val62 (M62 + 1) /\ 1 <> M62 + 1 /\ f62_eq 1 (M62 + 1) = true.
Proof. split; [vm_compute; reflexivity|]. split; [discriminate|vm_compute; reflexivity]. Qed.
