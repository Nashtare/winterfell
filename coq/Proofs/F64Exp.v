(* f64: exponentiation, inversion (addition chain = x^(M-2)), division. *)
From VBase Require Import MachInt.
From VGen Require Import F64.
From VProofs Require WhileLoop.
From VProofs Require Import MachIntFacts F64Red F64Ops.
Open Scope Z_scope.

(* r represents a^e *)
Definition is_pow (a r e : Z) : Prop := repr r /\ val r = (val a ^ e) mod M.

Lemma Mgt : 1 < M. Proof. reflexivity. Qed.

Lemma is_pow_mul a r1 r2 e1 e2 : 0 <= e1 -> 0 <= e2 ->
  is_pow a r1 e1 -> is_pow a r2 e2 -> is_pow a (f64_mul r1 r2) (e1 + e2).
Proof.
  intros H1 H2 [R1 V1] [R2 V2]. destruct (f64_mul_spec r1 r2 R1 R2) as [R V].
  split; [exact R|]. rewrite V, V1, V2, Z.pow_add_r by assumption.
  rewrite <- Z.mul_mod by (unfold M; lia). reflexivity.
Qed.

Lemma is_pow_one a : is_pow a f64_ONE 0.
Proof. split; [unfold repr, M; rewrite f64_ONE_eq; lia|]. rewrite val_ONE. reflexivity. Qed.

Lemma is_pow_self a : repr a -> is_pow a a 1.
Proof.
  intros Ha. split; [exact Ha|]. rewrite Z.pow_1_r. symmetry. apply Z.mod_small, val_range.
Qed.

(* ---- exp_acc ---- *)
Lemma exp_acc_spec a n base tail e1 e2 e : 0 <= n -> 0 <= e1 -> 0 <= e2 ->
  is_pow a base e1 -> is_pow a tail e2 -> e = e1 * 2 ^ n + e2 ->
  is_pow a (f64_exp_acc n base tail) e.
Proof.
  intros Hn H1 H2 Hb Ht ->. unfold f64_exp_acc. cbv beta iota zeta.
  assert (Hnn : forall i, 0 <= e1 * 2 ^ i) by (intros i; apply Z.mul_nonneg_nonneg; [exact H1|apply Z.pow_nonneg; lia]).
  apply is_pow_mul; [apply Hnn|exact H2| |exact Ht].
  apply (WhileLoop.for_up_ind (fun i r => is_pow a r (e1 * 2 ^ i))); [exact Hn| |].
  - replace (e1 * 2 ^ 0) with e1 by ring. exact Hb.
  - intros i r Hi Hr. rewrite p2_succ by lia.
    replace (e1 * (2 * 2 ^ i)) with (e1 * 2 ^ i + e1 * 2 ^ i) by ring.
    apply is_pow_mul; (exact Hr || apply Hnn).
Qed.

(* ---- inv: addition chain for M - 2 ---- *)
Theorem f64_inv_pow a : repr a -> is_pow a (f64_inv a) (M - 2).
Proof.
  intros Ha. pose proof (is_pow_self a Ha) as P1. unfold f64_inv.
  assert (P2 : is_pow a (f64_mul (f64_mul a a) a) 3).
  { replace 3 with ((1 + 1) + 1) by reflexivity. repeat apply is_pow_mul; try assumption; lia. }
  set (t2 := f64_mul (f64_mul a a) a) in *.
  assert (P3 : is_pow a (f64_mul (f64_mul t2 t2) a) 7).
  { replace 7 with ((3 + 3) + 1) by reflexivity. repeat apply is_pow_mul; try assumption; lia. }
  set (t3 := f64_mul (f64_mul t2 t2) a) in *.
  assert (P6 : is_pow a (f64_exp_acc 3 t3 t3) 63).
  { apply (exp_acc_spec a 3 t3 t3 7 7); try assumption; try lia; try reflexivity. }
  set (t6 := f64_exp_acc 3 t3 t3) in *.
  assert (P12 : is_pow a (f64_exp_acc 6 t6 t6) 4095).
  { apply (exp_acc_spec a 6 t6 t6 63 63); try assumption; try lia; try reflexivity. }
  set (t12 := f64_exp_acc 6 t6 t6) in *.
  assert (P24 : is_pow a (f64_exp_acc 12 t12 t12) 16777215).
  { apply (exp_acc_spec a 12 t12 t12 4095 4095); try assumption; try lia; try reflexivity. }
  set (t24 := f64_exp_acc 12 t12 t12) in *.
  assert (P30 : is_pow a (f64_exp_acc 6 t24 t6) 1073741823).
  { apply (exp_acc_spec a 6 t24 t6 16777215 63); try assumption; try lia; try reflexivity. }
  set (t30 := f64_exp_acc 6 t24 t6) in *.
  assert (P31 : is_pow a (f64_mul (f64_mul t30 t30) a) 2147483647).
  { replace 2147483647 with ((1073741823 + 1073741823) + 1) by reflexivity.
    repeat apply is_pow_mul; try assumption; lia. }
  set (t31 := f64_mul (f64_mul t30 t30) a) in *.
  assert (P63 : is_pow a (f64_exp_acc 32 t31 t31) 9223372034707292159).
  { apply (exp_acc_spec a 32 t31 t31 2147483647 2147483647); try assumption; try lia; try reflexivity. }
  set (t63 := f64_exp_acc 32 t31 t31) in *.
  cbv beta iota zeta. fold t2 t3 t6 t12 t24 t30 t31 t63.
  replace (M - 2) with ((9223372034707292159 + 9223372034707292159) + 1) by reflexivity.
  repeat apply is_pow_mul; try assumption; lia.
Qed.

Theorem f64_inv_zero : f64_inv 0 = 0.
Proof. vm_compute. reflexivity. Qed.

Theorem f64_div_spec a b : repr a -> repr b ->
  repr (f64_div a b) /\ val (f64_div a b) = (val a * (val b ^ (M - 2) mod M)) mod M.
Proof.
  intros Ha Hb. unfold f64_div. destruct (f64_inv_pow b Hb) as [Ri Vi].
  destruct (f64_mul_spec a (f64_inv b) Ha Ri) as [R V]. split; [exact R|].
  rewrite V, Vi. reflexivity.
Qed.

(* ---- exp: constant-time square-and-multiply over 64 bits ---- *)
Lemma mask_select r b (bit : bool) : 0 <= r < 2^64 -> 0 <= b < 2^64 ->
  Z.lxor r (Z.land (wrap 64 (swrap 64 (- b2z bit))) (Z.lxor r b)) = if bit then b else r.
Proof.
  intros Hr Hb. destruct bit; cbn [b2z].
  - assert (E : wrap 64 (swrap 64 (Z.opp 1)) = Z.ones 64) by reflexivity. rewrite E.
    rewrite Z.land_comm, Z.land_ones by lia.
    assert (Hx : 0 <= Z.lxor r b < 2^64).
    { split; [apply Z.lxor_nonneg; lia|].
      destruct (Z.eq_dec (Z.lxor r b) 0) as [E0|E0]; [rewrite E0; lia|].
      assert (0 <= Z.lxor r b) by (apply Z.lxor_nonneg; lia).
      apply Z.log2_lt_pow2; [lia|].
      eapply Z.le_lt_trans; [apply Z.log2_lxor; lia|].
      destruct (Z.eq_dec r 0) as [->|]; destruct (Z.eq_dec b 0) as [->|]; cbn; try lia;
        apply Z.max_lub_lt; try (apply Z.log2_lt_pow2; lia); cbn; lia. }
    rewrite Z.mod_small by exact Hx.
    rewrite <- Z.lxor_assoc, Z.lxor_nilpotent, Z.lxor_0_l. reflexivity.
  - assert (E : wrap 64 (swrap 64 (Z.opp 0)) = 0) by reflexivity. rewrite E.
    rewrite Z.land_0_l, Z.lxor_0_r. reflexivity.
Qed.

Lemma bit_eq p i : 0 <= p -> 0 <= i -> (Z.land (shr p i) 1 =? 1) = Z.odd (p / 2^i).
Proof.
  intros Hp Hi. unfold shr. rewrite land1, Zmod_odd. destruct (Z.odd (p / 2^i)); reflexivity.
Qed.

Lemma div_pow2_step p i : 0 <= p -> 0 <= i ->
  p / 2 ^ i = 2 * (p / 2 ^ (i + 1)) + (if Z.odd (p / 2 ^ i) then 1 else 0).
Proof.
  intros Hp Hi. rewrite p2_succ by exact Hi. pose proof (p2_pos i Hi) as Hpw.
  replace (2 * 2 ^ i) with (2 ^ i * 2) by ring. rewrite <- Z.div_div by lia.
  set (q := p / 2 ^ i). rewrite <- Zmod_odd. pose proof (Z.div_mod q 2). lia.
Qed.

Theorem f64_exp_spec a p : repr a -> 0 <= p < 2^64 -> is_pow a (f64_exp a p) p.
Proof.
  intros Ha Hp. unfold f64_exp. cbv beta iota zeta. set (L := for_down 0 64 _ _).
  (* once the bits 63..i are processed the accumulator holds a^(p / 2^i) *)
  pose (P := fun (i : Z) '((r, b) : Z * Z) => is_pow a r (p / 2 ^ i)).
  assert (HP : P 0 L).
  { apply WhileLoop.for_down_ind; [lia| |].
    - unfold P. rewrite Z.div_small by exact Hp. apply is_pow_one.
    - intros i [r b0] Hi Hr. unfold P in *. cbv beta iota zeta. set (q := p / 2 ^ (i + 1)) in *.
      assert (Hnn : 0 <= q) by (apply Z.div_pos; [lia|apply p2_pos; lia]).
      assert (Hsq : is_pow a (f64_mul r r) (q + q)) by (apply is_pow_mul; assumption).
      assert (Hsqa : is_pow a (f64_mul (f64_mul r r) a) (q + q + 1))
        by (apply is_pow_mul; [lia|lia|assumption|apply is_pow_self; exact Ha]).
      rewrite bit_eq by lia.
      rewrite mask_select by (destruct Hsq as [[? ?] _], Hsqa as [[? ?] _]; unfold M in *; lia).
      pose proof (div_pow2_step p i ltac:(lia) ltac:(lia)) as E. fold q in E. revert E.
      destruct (Z.odd (p / 2 ^ i)); intros ->.
      + replace (2 * q + 1) with (q + q + 1) by ring. exact Hsqa.
      + replace (2 * q + 0) with (q + q) by ring. exact Hsq. }
  destruct L as [r b]. unfold P in HP. rewrite Z.div_1_r in HP. exact HP.
Qed.
