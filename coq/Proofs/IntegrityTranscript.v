(* C03 <-> C04: the coin events of the component-level model (Model/Integrity.v) are, event for event, the verifier
   transcript of C04's model (Model/Transcript.v), for EVERY shape.  Two hand-written models of the same code, written
   for different properties and tied to the code by different correspondences, agree on their common part. *)
From Coq Require Import List Arith Bool Lia.
From VModel Require Transcript.
From VModel Require Import Integrity.
From VProofs Require Import ListFacts IntegrityOrderBase.
Import ListNotations.

Module T := Transcript.

Definition sym_of (c : comp) : T.sym :=
  match c with
  | TraceRoot i => T.TraceCommitment i
  | ConstraintRoot => T.ConstraintCommitment
  | FriRoot i => T.FriLayerCommitment i
  | RemainderRoot => T.RemainderCommitment
  | _ => T.PowNonce   (* never fed as a raw digest *)
  end.

Definition chal_of (k : chal) : nat -> T.chal :=
  match k with
  | AuxRand => T.AuxRand
  | CompCoeff => T.CompositionCoeff
  | OodPoint => fun _ => T.OodPoint
  | DeepCoeff => T.DeepCoeff
  | FriAlpha i => fun _ => T.FriAlpha i
  | FriAlphaUnused => fun _ => T.FriAlphaUnused
  end.

(* the coin operations behind one event; deg = extension degree, nq = options.num_queries() *)
Definition coin_ops (deg nq : nat) (e : event) : list T.step :=
  match e with
  | Absorb (SeedOf _) => [(T.EvNew T.seed_syms, None)]
  | Absorb (Raw c) => [T.reseed (sym_of c)]
  | Absorb (HashOf (OodTrace :: _)) => [T.reseed T.HashOodTraceFrame]
  | Absorb (HashOf _) => [T.reseed T.HashOodConstraintEvals]
  | Draw k n => T.draws deg (chal_of k) n
  | CheckPow => [(T.EvCheckPow T.PowNonce, Some T.PowCheck)]
  | DrawPositions => [(T.EvDrawInts T.PowNonce nq, Some T.QueryPositions)]
  | _ => []
  end.

Definition shape_of (t : T.shape) (rows : list nat) (uniq : nat) : shape :=
  mkShape (T.multi_segment t) (T.sh_aux_rands t) (T.n_comp t) (T.n_deep t) (T.sh_fri_layers t) rows uniq (T.sh_grinding t).

Lemma ops_channel_new deg nq v s : flat_map (coin_ops deg nq) (channel_new v s) = [].
Proof.
  unfold channel_new. rewrite pts_flat, pfl_flat, !flat_map_app, !flat_map_flat_map_nil by reflexivity.
  destruct (v_gkr_check v), (v_layer_count_check v); reflexivity.
Qed.

Lemma ops_query_phase deg nq v s : flat_map (coin_ops deg nq) (query_phase v s) = [].
Proof.
  unfold query_phase, remainder_phase. rewrite fri_layers_flat, !flat_map_app, flat_map_flat_map_nil by reflexivity.
  destruct (sh_aux s), (v_remainder_check v); reflexivity.
Qed.

Lemma draws_one deg c : T.draws deg (fun _ => c) 1 = [T.draw1 deg 0 c].
Proof. reflexivity. Qed.

Lemma ops_fri_commit deg nq layers i n : i + n = layers ->
  flat_map (coin_ops deg nq) (fri_commit i n) =
  T.verifier_fri_new deg layers i (map T.FriLayerCommitment (seq i n) ++ [T.RemainderCommitment]).
Proof.
  revert i. induction n as [| n IH]; intros i H.
  - cbn -[Nat.ltb]. replace (i <? layers) with false by (symmetry; apply Nat.ltb_ge; lia). reflexivity.
  - cbn [fri_commit flat_map coin_ops sym_of chal_of seq map app T.verifier_fri_new].
    replace (i <? layers) with true by (symmetry; apply Nat.ltb_lt; lia).
    rewrite (IH (S i)) by lia. reflexivity.
Qed.

(* for every shape of C04's model, every list of FRI rows, every number of opened rows, every variant *)
(* shapes without a Lagrange-kernel column: Model/Integrity.v does not model the GKR step (stated scope of C03) *)
Theorem coin_projection_is_transcript : forall (t : T.shape) rows uniq v, T.sh_lagrange t = None ->
  flat_map (coin_ops (T.sh_ext_deg t) (T.sh_queries t)) (events v (shape_of t rows uniq)) = T.verifier t.
Proof.
  intros t rows uniq v Hlag. unfold events, head, draw_phase, commit_head, T.verifier. rewrite ?Hlag.
  rewrite !flat_map_app, ops_channel_new, ops_query_phase.
  rewrite (ops_fri_commit _ _ (T.sh_fri_layers t) 0 (T.sh_fri_layers t)) by reflexivity.
  unfold shape_of, T.fri_roots; cbn [sh_aux sh_aux_rands sh_n_comp sh_n_deep sh_layers].
  destruct (T.multi_segment t); cbn [flat_map coin_ops sym_of chal_of app ood_frame]; rewrite ?draws_one, ?app_nil_r;
    repeat (rewrite <- ?app_assoc; cbn [app]); reflexivity.
Qed.
