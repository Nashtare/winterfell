(* C17 — base lemmas for the composition model (powers, polynomial semantics, sums, loops that may panic) and the
   column split theorem `column_split_recombine`: the columns that `segment` cuts out of a coefficient list recombine,
   the way the verifier recombines them (sum_i z^(i*n) * H_i(z)), to the polynomial that was cut.  Every statement is
   for an arbitrary `FOps F` satisfying `FLaws`. *)
From Coq Require Import List Arith Bool Lia Ring Field ZArith.
From VBase Require Import FieldOps.
From VModel Require Import Composition.
From VProofs Require FieldFacts.
From VProofs Require Import ListFacts.
Import ListNotations.

Lemma mapM_some {A B} (f : A -> option B) (g : A -> B) : forall l,
  (forall x, In x l -> f x = Some (g x)) -> mapM f l = Some (map g l).
Proof.
  induction l as [|h t IH]; intros H; simpl; [reflexivity|].
  rewrite (H h (or_introl eq_refl)), IH; [reflexivity|]. intros x Hx; apply H; now right.
Qed.

Lemma mapM_map {A B C} (f : B -> option C) (k : A -> B) : forall l, mapM f (map k l) = mapM (fun a => f (k a)) l.
Proof. induction l; simpl; [reflexivity | now rewrite IHl]. Qed.

Lemma mapM_ext_in {A C} (f g : A -> option C) : forall l, (forall x, In x l -> f x = g x) -> mapM f l = mapM g l.
Proof.
  induction l as [|a l IH]; intros Hx; [reflexivity|]. cbn [mapM].
  rewrite (Hx a (or_introl eq_refl)), IH by (intros x Hin; apply Hx; now right). reflexivity.
Qed.

Lemma mapM_opt {A C D} (fE : A -> option C) (fB : A -> option D) (g : D -> C) : forall l,
  (forall x, In x l -> fE x = option_map g (fB x)) -> mapM fE l = option_map (map g) (mapM fB l).
Proof.
  induction l as [|a l IH]; intros Hx; [reflexivity|]. cbn [mapM].
  rewrite (Hx a (or_introl eq_refl)), IH by (intros x Hin; apply Hx; now right).
  destruct (fB a); cbn [option_map]; [|reflexivity]. destruct (mapM fB l); reflexivity.
Qed.

Section Base.
Context {F : Type} (O : FOps F) (L : FLaws O).
Add Field Ff : (FLaws_field_theory O L).

Local Notation fz := (fzero O).
Local Notation f1 := (fone O).
Local Infix "+f" := (fadd O) (at level 50, left associativity).
Local Infix "-f" := (fsub O) (at level 50, left associativity).
Local Infix "*f" := (fmul O) (at level 40, left associativity).
Local Infix "/f" := (fdiv O) (at level 40, left associativity).
Local Notation cpow := (cpow O).
Local Notation peval := (peval O).
Local Notation horner := (horner O).
Local Notation rsum := (rsum O).
Local Notation rprod := (rprod O).
Local Notation lincomb := (lincomb O).

Lemma cpow_add x a b : cpow x (a + b) = cpow x a *f cpow x b.
Proof. exact (FieldFacts.fpow_add O L x a b). Qed.

Lemma cpow_one k : cpow f1 k = f1.
Proof. exact (FieldFacts.fpow_one O L k). Qed.

Lemma cpow_mul_base a b k : cpow (a *f b) k = cpow a k *f cpow b k.
Proof. exact (FieldFacts.fpow_mul_base O L a b k). Qed.

Lemma cpow_mul x a b : cpow x (a * b) = cpow (cpow x a) b.
Proof. exact (FieldFacts.fpow_mul O L x a b). Qed.

Lemma cpow_mod w m k : m <> 0 -> cpow w m = f1 -> cpow w (k mod m) = cpow w k.
Proof.
  intros Hm Hw. rewrite (Nat.div_mod k m Hm) at 2.
  rewrite cpow_add, cpow_mul, Hw, cpow_one. ring.
Qed.

Lemma cpow_S_r x k : cpow x (S k) = cpow x k *f x.
Proof. exact (FieldFacts.fpow_S_r O L x k). Qed.

Lemma power_series_from_length b : forall k cur, length (power_series_from O cur b k) = k.
Proof. induction k; intros; simpl; [reflexivity | now rewrite IHk]. Qed.

Lemma power_series_from_nth b : forall k cur i, i < k ->
  nth_error (power_series_from O cur b k) i = Some (cur *f cpow b i).
Proof.
  induction k; intros cur i Hi; [lia|]. destruct i; simpl.
  - f_equal. ring.
  - rewrite IHk by lia. f_equal. ring.
Qed.

Lemma power_series_length b k : length (power_series O b k) = k.
Proof. apply power_series_from_length. Qed.

Lemma power_series_nth b k i : i < k -> nth_error (power_series O b k) i = Some (cpow b i).
Proof. intros H. unfold power_series. rewrite power_series_from_nth by assumption. f_equal. ring. Qed.

Lemma peval_app p q x : peval (p ++ q) x = peval p x +f cpow x (length p) *f peval q x.
Proof. exact (FieldFacts.peval_app O L p q x). Qed.

Lemma peval_all_zero l z : (forall v, In v l -> v = fz) -> peval l z = fz.
Proof.
  induction l as [|a l IH]; intros H; simpl; [reflexivity|].
  rewrite (H a (or_introl eq_refl)), IH by (intros v Hv; apply H; now right). ring.
Qed.

Lemma peval_pad q k z : peval (q ++ repeat fz k) z = peval q z.
Proof.
  rewrite peval_app, (peval_all_zero (repeat fz k)) by (intros v Hv; now apply repeat_spec in Hv). ring.
Qed.

Lemma horner_peval p x : horner p x = peval p x.
Proof.
  unfold Composition.horner. rewrite <- fold_left_rev_right, rev_involutive.
  induction p; simpl; [reflexivity | rewrite IHp; ring].
Qed.

Lemma peval_single v x : peval [v] x = v.
Proof. simpl. ring. Qed.

Lemma fold_add_rsum {A} (g : A -> F) : forall l a,
  fold_left (fun acc v => acc +f g v) l a = a +f rsum (map g l).
Proof. induction l; intros a0; simpl; [ring | rewrite IHl; ring]. Qed.

Lemma lincomb_rsum evals coefs :
  lincomb evals coefs = rsum (map (fun ec => snd ec *f fst ec) (combine evals coefs)).
Proof. unfold Composition.lincomb. rewrite (fold_add_rsum (fun ec => snd ec *f fst ec)). ring. Qed.

Lemma rsum_app a b : rsum (a ++ b) = rsum a +f rsum b.
Proof. induction a; simpl; [ring | rewrite IHa; ring]. Qed.

Lemma rsum_scale {A} (g : A -> F) k l : rsum (map (fun v => g v *f k) l) = rsum (map g l) *f k.
Proof. induction l; simpl; [ring | rewrite IHl; ring]. Qed.

Lemma rsum_map_ext {A} (g h : A -> F) l : (forall x, In x l -> g x = h x) -> rsum (map g l) = rsum (map h l).
Proof. intros H. f_equal. apply map_ext_in. exact H. Qed.

Lemma fold_mul_rprod {A} (g : A -> F) : forall l a,
  fold_left (fun r e => r *f g e) l a = a *f rprod (map g l).
Proof. induction l; intros a0; simpl; [ring | rewrite IHl; ring]. Qed.

Lemma acc_opt_some {A} (f : A -> option F) (g : A -> F) : forall l a,
  (forall c, In c l -> f c = Some (g c)) -> acc_opt O f l (Some a) = Some (a +f rsum (map g l)).
Proof.
  unfold acc_opt. induction l as [|h t IH]; intros a H; simpl.
  - f_equal. ring.
  - rewrite (H h (or_introl eq_refl)). rewrite IH by (intros c Hc; apply H; now right). f_equal. ring.
Qed.

Lemma acc_opt_map {A B} (f : B -> option F) (k : A -> B) : forall l init,
  acc_opt O f (map k l) init = acc_opt O (fun c => f (k c)) l init.
Proof. unfold acc_opt. induction l; intros; simpl; [reflexivity | apply IHl]. Qed.

Lemma acc_opt_ext {A} (f g : A -> option F) : forall l init, (forall x, In x l -> f x = g x) ->
  acc_opt O f l init = acc_opt O g l init.
Proof.
  unfold acc_opt. induction l as [|a l IH]; intros init Hx; [reflexivity|]. cbn [fold_left].
  rewrite (Hx a (or_introl eq_refl)). apply IH. intros x Hin. apply Hx. now right.
Qed.

Lemma acc_opt_cong {A} (f g : A -> option F) l init init' :
  (forall x, In x l -> f x = g x) -> init = init' -> acc_opt O f l init = acc_opt O g l init'.
Proof. intros Hx <-. now apply acc_opt_ext. Qed.

Lemma chunks_some m (h : list F) : m <> 0 -> chunks m h = Some (chunks_fuel (length h) m h).
Proof. unfold chunks. destruct m; [congruence | reflexivity]. Qed.

Section Split.
Variable n : nat.
Hypothesis n_pos : n <> 0.

Lemma recombine_chunks z : forall fuel l c i acc, length l <= fuel ->
  recombine_from O n i (cp_evaluate_at O (firstn c (chunks_fuel fuel n l)) z) z acc
  = acc +f cpow z (i * n) *f peval (firstn (c * n) l) z.
Proof.
  unfold cp_evaluate_at.
  induction fuel as [|f IH]; intros l c i acc Hl.
  - destruct l; [|simpl in Hl; lia]. cbn [chunks_fuel]. rewrite !firstn_nil. cbn [map recombine_from Composition.peval]. ring.
  - destruct l as [|a l'].
    + cbn [chunks_fuel]. rewrite !firstn_nil. cbn [map recombine_from Composition.peval]. ring.
    + cbn [chunks_fuel]. destruct c as [|c'].
      * rewrite Nat.mul_0_l. cbn [firstn map recombine_from Composition.peval]. ring.
      * cbn [firstn map recombine_from].
        rewrite IH.
        2:{ rewrite skipn_length. cbn [length] in *. pose proof n_pos. lia. }
        rewrite horner_peval.
        replace (S c' * n) with (n + c' * n) by lia.
        rewrite firstn_add, peval_app.
        destruct (le_lt_dec n (length (a :: l'))) as [Hge|Hlt].
        -- rewrite firstn_length_le by assumption.
           replace (S i * n) with (i * n + n) by lia. rewrite cpow_add. ring.
        -- rewrite (skipn_all2 (a :: l')) by lia. rewrite !firstn_nil. simpl. ring.
Qed.

(* `segment` silently drops the coefficients beyond the first k*n: for EVERY coefficient list h, every number of columns
   k and column length n, the k columns recombine to the polynomial of the first k*n coefficients of h (to h itself
   when it has no more: column_split_recombine) *)
Theorem column_split_recombine_gen : forall k h z cols,
  segment h n k = Some cols ->
  recombine O n (cp_evaluate_at O cols z) z = peval (firstn (k * n) h) z.
Proof.
  intros k h z cols Hs. unfold segment in Hs. rewrite (chunks_some n h n_pos) in Hs.
  inversion Hs; subst cols. unfold recombine.
  rewrite recombine_chunks by lia. simpl. ring.
Qed.

Theorem column_split_recombine : forall k h z cols,
  length h <= k * n -> segment h n k = Some cols ->
  recombine O n (cp_evaluate_at O cols z) z = peval h z.
Proof.
  intros k h z cols Hl Hs. rewrite (column_split_recombine_gen k h z cols Hs).
  now rewrite firstn_all2.
Qed.

Lemma segment_some : forall k (h : list F), exists cols, segment h n k = Some cols.
Proof. intros. unfold segment. rewrite (chunks_some n h n_pos). eexists; reflexivity. Qed.

(* CompositionPoly::new on the evaluations, over m > n points xs, of ANY pointwise function d that agrees on a set
   containing the points with a coefficient list q of at most min(m, num_cols * n) coefficients: interpolation returns q
   padded with zeros, so the columns recombine to q everywhere *)
Lemma composition_core_points (m : nat) (xs : nat -> F) (interp : list F -> list F) (num_cols : nat)
  (d : F -> F) (good : F -> Prop) (q : list F) :
  n < m ->
  (forall p, length p = m -> interp (map (fun i => peval p (xs i)) (seq 0 m)) = p) ->
  (forall z, good z -> peval q z = d z) -> (forall i, i < m -> good (xs i)) ->
  length q <= m -> length q <= num_cols * n ->
  exists cols, composition_poly_new n interp (map (fun i => d (xs i)) (seq 0 m)) num_cols = Some cols
    /\ (forall z, recombine O n (cp_evaluate_at O cols z) z = peval q z)
    /\ (forall z, good z -> recombine O n (cp_evaluate_at O cols z) z = d z).
Proof.
  intros Hnm Hrt Hq Hgood Hl1 Hl2.
  set (evals := map (fun i => d (xs i)) (seq 0 m)).
  assert (Hlen : length evals = m) by (unfold evals; now rewrite map_length, seq_length).
  set (qpad := q ++ repeat fz (m - length q)).
  assert (Hh : interp evals = qpad).
  { rewrite <- (Hrt qpad) by (unfold qpad; rewrite app_length, repeat_length; lia).
    f_equal. unfold evals. apply map_ext_in. intros i Hi. apply in_seq in Hi.
    unfold qpad. rewrite peval_pad. symmetry. apply Hq, Hgood. lia. }
  destruct (segment_some num_cols (interp evals)) as [cols Hcols].
  exists cols. split.
  { unfold composition_poly_new. rewrite Hlen. apply Nat.ltb_lt in Hnm. now rewrite Hnm. }
  assert (Hre : forall z, recombine O n (cp_evaluate_at O cols z) z = peval q z).
  { intros z. rewrite (column_split_recombine_gen num_cols _ z cols Hcols), Hh. unfold qpad.
    rewrite firstn_app, (firstn_all2 q) by exact Hl2.
    rewrite peval_app, (peval_all_zero (firstn _ _)); [ring|].
    intros v Hv. apply in_firstn in Hv. now apply repeat_spec in Hv. }
  split; [exact Hre|]. intros z Hz. now rewrite Hre, Hq.
Qed.
End Split.

End Base.
