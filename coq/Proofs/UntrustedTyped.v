(* Proofs/UntrustedTyped.v — stage 2 of C06: the typed parsers (Commitments::parse, Queries::parse / Table::from_bytes /
   BatchMerkleProof::deserialize, OodFrame::parse, FriProof::{num_partitions, parse_remainder, parse_layers},
   draw_integers) never panic, for ANY blob and ANY AIR-side parameters in the stated ranges; on success their
   shapes are what the verifier's later index arithmetic assumes. *)
From VBase Require Import MachInt.
From VModel Require Import Codec Untrusted.
From VProofs Require Import CodecTypes CodecTotal UntrustedParse.
Open Scope Z_scope.

Definition rsafe {A} (P : A -> Prop) (x : Result A) : Prop :=
  match x with Ok a => P a | Err _ => True | Panic => False end.

Lemma rsafe_bind {A B} (P : A -> Prop) (Q : B -> Prop) (x : Result A) (f : A -> Result B) :
  rsafe P x -> (forall a, P a -> rsafe Q (f a)) -> rsafe Q (rbind x f).
Proof. destruct x; cbn; auto. Qed.

Lemma rsafe_assert {A} (P : A -> Prop) (c : bool) (k : Result A) : c = true -> rsafe P k -> rsafe P (assert_ c k).
Proof. intros ->. auto. Qed.

Lemma rsafe_weaken {A} (P Q : A -> Prop) x : (forall a, P a -> Q a) -> rsafe P x -> rsafe Q x.
Proof. destruct x; cbn; auto. Qed.

Lemma rsafe_not_panic {A} (P : A -> Prop) (x : Result A) : rsafe P x -> x <> Panic.
Proof. destruct x; cbn; congruence. Qed.

Lemma parse_all_safe {A} (P : A -> Prop) (r : Rd A) blob : safeP P r -> is_bytes blob -> rsafe P (parse_all r blob).
Proof.
  intros Hr Hb. unfold parse_all. specialize (Hr blob Hb). destruct (r blob) as [[a rest]| |]; cbn; auto.
  destruct (has_more rest); cbn; [exact I | apply Hr].
Qed.

Lemma parse_prefix_safe {A} (P : A -> Prop) (r : Rd A) blob : safeP P r -> is_bytes blob -> rsafe P (parse_prefix r blob).
Proof.
  intros Hr Hb. unfold parse_prefix. specialize (Hr blob Hb). destruct (r blob) as [[a rest]| |]; cbn; auto. apply Hr.
Qed.

Lemma safe_lift_ok {A} (P : A -> Prop) (x : Result A) : rsafe P x -> safeP P (lift x).
Proof. intros H bs Hbs. unfold lift. destruct x; cbn in *; auto. Qed.

Lemma safe_read_elem F deg : safeP any (read_elem F deg).
Proof. unfold read_elem, read_arr. eapply safe_any. apply safe_read_many. apply safe_read_felt. Qed.

Lemma safe_read_digest dl : safeP any (read_digest dl).
Proof. unfold read_digest. eapply safe_any. apply safe_read_array. Qed.

Lemma mul_bound a b A B : 0 <= a <= A -> 0 <= b <= B -> 0 <= a * b <= A * B.
Proof. intros Ha Hb. split; [apply Z.mul_nonneg_nonneg; lia | apply Z.mul_le_mono_nonneg; lia]. Qed.

(* admissible range: 0 <= num_fri_layers and num_fri_layers + 1 fits into usize (any num_trace_segments) *)
Theorem Commitments_parse_safe dl c nseg nl :
  is_bytes c -> 0 <= nl -> nl + 1 <= usize_max ->
  rsafe (fun r => fst r = Z.max 0 nseg /\ snd r = nl + 1) (Commitments_parse dl c nseg nl).
Proof.
  intros Hc H0 H1. unfold Commitments_parse. apply rsafe_assert; [apply Z.leb_le; lia|].
  apply parse_all_safe; [|exact Hc].
  eapply safe_bind; [apply (safe_read_many_len _ _ nseg (safe_read_digest dl))|]. intros t [_ Ht].
  eapply safe_bind; [apply safe_read_digest|]. intros d _.
  eapply safe_bind; [apply (safe_read_many_len _ _ (nl + 1) (safe_read_digest dl))|]. intros f [_ Hf].
  apply safe_ret. cbn. split; [exact Ht | unfold llen; lia].
Qed.

Lemma BatchMerkleProof_deserialize_safe dl leaves depth : safeP any (BatchMerkleProof_deserialize dl leaves depth).
Proof.
  unfold BatchMerkleProof_deserialize.
  repeat (apply safe_if; [apply safe_fail|]).
  eapply safe_bind; [apply safe_read_u8|]. intros nv _.
  eapply safe_any. apply safe_read_many.
  eapply safe_bind; [apply safe_read_u8|]. intros nd _.
  eapply safe_bind; [apply (safe_read_many _ _ nd (safe_read_digest dl))|]. intros ds _.
  apply (safe_ret any). exact I.
Qed.

(* admissible range (the `# Panics` section of Queries::parse and Table::from_bytes): domain_size a power of two,
   1 <= values_per_query <= 255, num_queries <= 255 (it is a u8 of the proof; 0 is an error),
   elements of at most 2^32 bytes *)
Theorem Queries_parse_safe F deg dl q domain nq vpq :
  queries_ok q -> is_pow2 domain = true -> 0 < vpq <= 255 -> 0 <= nq <= 255 -> 0 <= elem_bytes F deg <= 2 ^ 32 ->
  rsafe (fun s => qs_rows s = nq /\ qs_cols s = vpq /\ 0 < nq) (Queries_parse F deg dl q domain nq vpq).
Proof.
  intros [Hp Hv] Hd Hvpq Hnq Heb. unfold Queries_parse.
  apply rsafe_assert; [exact Hd|]. apply rsafe_assert; [apply Z.gtb_lt; lia|].
  destruct (nq =? 0) eqn:E0; [exact I|]. apply Z.eqb_neq in E0.
  cbv zeta.
  pose proof (mul_bound (elem_bytes F deg) vpq (2 ^ 32) 255 ltac:(lia) ltac:(lia)) as B1.
  pose proof (mul_bound nq (elem_bytes F deg * vpq) 255 (2 ^ 32 * 255) ltac:(lia) ltac:(lia)) as B2.
  apply rsafe_assert; [apply Z.leb_le; unfold usize_max; lia|].
  apply rsafe_assert; [apply Z.leb_le; unfold usize_max; lia|].
  destruct (negb (len (q_values q) =? nq * (elem_bytes F deg * vpq))); [exact I|].
  apply rsafe_assert; [apply Z.gtb_lt; lia|]. apply rsafe_assert; [apply Z.leb_le; lia|].
  apply rsafe_assert; [apply Z.gtb_lt; lia|]. apply rsafe_assert; [apply Z.leb_le; lia|].
  eapply rsafe_bind.
  { apply parse_prefix_safe; [|exact Hv]. apply (safe_read_many_len _ _ (nq * vpq) (safe_read_elem F deg)). }
  intros data [_ Hlen].
  eapply rsafe_bind.
  { apply parse_all_safe; [|exact Hp]. apply BatchMerkleProof_deserialize_safe. }
  intros nodes _. cbn. unfold llen. rewrite Hlen. rewrite Z.max_r by nia.
  rewrite Z.div_mul by lia. repeat split; lia.
Qed.

(* admissible range: 0 < main_trace_width, 0 < num_evaluations, widths below 2^32 (the library bounds them by 255) *)
Theorem OodFrame_parse_safe F deg f mw aw ne :
  ood_ok f -> 0 < mw -> 0 <= aw -> mw + aw <= 2 ^ 32 -> 0 < ne ->
  rsafe (fun s => os_evals s = ne /\
                  match os_lagrange s with
                  | Some n => 0 < n /\ 1 <= aw /\ os_cur s = mw + aw - 1
                  | None => os_cur s = mw + aw
                  end) (OodFrame_parse F deg f mw aw ne).
Proof.
  intros (Ht & Hl & He) Hmw Haw Hw Hne. unfold OodFrame_parse.
  apply rsafe_assert; [apply Z.gtb_lt; lia|]. apply rsafe_assert; [apply Z.gtb_lt; lia|].
  eapply (rsafe_bind (fun lag => match lag with Some n => 0 < n | None => True end)).
  { apply parse_all_safe; [|exact Hl].
    eapply safe_bind; [apply safe_read_u8|]. intros n Hn.
    destruct (n >? 0) eqn:En; [|apply safe_ret; exact I].
    eapply safe_bind; [apply (safe_read_many_len _ _ n (safe_read_elem F deg))|]. intros l [_ Hlen].
    apply safe_ret. unfold llen. rewrite Hlen. apply Z.gtb_lt in En. lia. }
  intros lag Hlag.
  set (dec := match lag with Some _ => 1 | None => 0 end).
  destruct (aw <? dec) eqn:Ed; [exact I|]. apply Z.ltb_ge in Ed.
  assert (Hdec : 0 <= dec <= 1) by (unfold dec; destruct lag; lia).
  eapply (rsafe_bind (fun cur => cur = mw + (aw - dec))).
  { apply parse_all_safe; [|exact Ht].
    eapply safe_bind; [apply safe_read_u8|]. intros fs Hfs.
    destruct (negb (fs =? 2)) eqn:Efs; [apply safe_fail|].
    apply negb_false_iff in Efs. apply Z.eqb_eq in Efs. subst fs.
    eapply (safe_bind any).
    { apply safe_lift_ok. apply rsafe_assert; [apply Z.leb_le; unfold usize_max; lia|].
      apply rsafe_assert; [apply Z.leb_le; unfold usize_max; lia|]. exact I. }
    intros _ _.
    eapply safe_bind; [apply (safe_read_many_len _ _ ((mw + (aw - dec)) * 2) (safe_read_elem F deg))|]. intros tr [_ Hlen].
    apply safe_ret. unfold llen. rewrite Hlen. rewrite Z.max_r by lia. apply Z.div_mul. lia. }
  intros cur Hcur.
  eapply (rsafe_bind (fun ev : list (list Z) => llen ev = ne)).
  { apply parse_all_safe; [|exact He].
    eapply safe_weaken; [|apply (safe_read_many_len _ _ ne (safe_read_elem F deg))].
    intros a [_ Ha]. unfold llen. lia. }
  intros ev Hev. cbn. split; [exact Hev|].
  subst cur. unfold dec in *. destruct lag; repeat split; try lia; auto.
Qed.

Lemma Fri_num_partitions_ok p : 0 <= fri_num_partitions p < 64 ->
  exists n, Fri_num_partitions p = Ok n /\ 1 <= n.
Proof.
  intros H. unfold Fri_num_partitions, assert_.
  assert (2 ^ fri_num_partitions p <= 2 ^ 63) by (apply Z.pow_le_mono_r; lia).
  assert (0 < 2 ^ fri_num_partitions p) by (apply Z.pow_pos_nonneg; lia).
  destruct (Z.leb_spec (2 ^ fri_num_partitions p) usize_max); [|unfold usize_max in *; lia].
  eexists. split; [reflexivity | lia].
Qed.

Theorem Fri_num_partitions_safe p : 0 <= fri_num_partitions p < 64 ->
  rsafe (fun n => 1 <= n) (Fri_num_partitions p).
Proof. intros H. destruct (Fri_num_partitions_ok p H) as (n & -> & Hn). exact Hn. Qed.

(* the necessity of the reader's check: the exponent 64 overflows *)
Lemma Fri_num_partitions_64_panics : Fri_num_partitions (mkFri [] [] 64) = Panic.
Proof. vm_compute. reflexivity. Qed.

Theorem Fri_parse_remainder_safe F deg p : fri_ok p -> 0 < elem_bytes F deg ->
  rsafe (fun n => 1 <= n) (Fri_parse_remainder F deg p).
Proof.
  intros (_ & Hr & _) Heb. unfold Fri_parse_remainder. cbv zeta.
  destruct (is_pow2 (len (fri_remainder p) / elem_bytes F deg)) eqn:E; [|exact I]. cbn [negb].
  eapply rsafe_bind.
  { apply parse_all_safe; [|exact Hr]. apply (safe_read_many_len _ _ _ (safe_read_elem F deg)). }
  intros r [_ Hlen]. cbn. unfold llen. rewrite Hlen. apply is_pow2_pos in E. lia.
Qed.

(* the folding chain of [n] layers starting at domain d never meets a domain smaller than the folding factor *)
Fixpoint fold_chain (n : nat) (d ff : Z) : Prop :=
  match n with O => True | S n' => ff <= d /\ fold_chain n' (d / ff) ff end.

Lemma FriLayer_parse_safe F deg dl l d ff :
  layer_ok l -> 0 < d -> 0 < ff <= 2 ^ 16 -> 0 < elem_bytes F deg <= 2 ^ 32 ->
  rsafe (fun s => 0 < ls_queries s) (FriLayer_parse F deg dl l d ff).
Proof.
  intros [Hv Hp] Hd Hff Heb. unfold FriLayer_parse. cbv zeta.
  pose proof (mul_bound (elem_bytes F deg) ff (2 ^ 32) (2 ^ 16) ltac:(lia) ltac:(lia)) as B1.
  assert (B0 : 0 < elem_bytes F deg * ff) by (apply Z.mul_pos_pos; lia).
  apply rsafe_assert; [apply Z.leb_le; unfold usize_max; lia|].
  apply rsafe_assert; [apply negb_true_iff, Z.eqb_neq; lia|].
  destruct (negb (len (fl_values l) mod (elem_bytes F deg * ff) =? 0)); [exact I|].
  destruct (len (fl_values l) / (elem_bytes F deg * ff) =? 0) eqn:E0; [exact I|]. apply Z.eqb_neq in E0.
  assert (Hq : 0 <= len (fl_values l) / (elem_bytes F deg * ff)) by (apply Z.div_pos; [unfold len; lia | lia]).
  eapply rsafe_bind.
  { apply parse_all_safe; [|exact Hv].
    apply (safe_read_many_len _ _ _ (safe_read_many _ _ ff (safe_read_elem F deg))). }
  intros qv [_ Hlen].
  apply rsafe_assert; [apply Z.gtb_lt; lia|].
  eapply rsafe_bind.
  { apply parse_all_safe; [|exact Hp]. apply BatchMerkleProof_deserialize_safe. }
  intros nodes _. cbn. unfold llen. rewrite Hlen. lia.
Qed.

Lemma Fri_layers_loop_safe F deg dl ls d ff :
  Forall layer_ok ls -> 0 < d -> 1 < ff <= 2 ^ 16 -> 0 < elem_bytes F deg <= 2 ^ 32 ->
  rsafe (fun r => length r = length ls /\ Forall (fun s => 0 < ls_queries s) r /\ fold_chain (length ls) d ff)
        (Fri_layers_loop F deg dl ls d ff).
Proof.
  intros Hls. revert d. induction Hls as [|l ls Hl Hls IH]; intros d Hd Hff Heb; cbn [Fri_layers_loop].
  - cbn. auto.
  - destruct (d <? ff) eqn:E; [exact I|]. apply Z.ltb_ge in E.
    assert (Hd' : 0 < d / ff) by (apply Z.div_str_pos; lia).
    eapply rsafe_bind; [apply FriLayer_parse_safe; auto; lia|]. intros s Hs.
    eapply rsafe_bind; [apply IH; auto|]. intros r (Hr1 & Hr2 & Hr3).
    cbn. repeat split; auto.
Qed.

(* admissible range (the `# Panics` section of parse_layers): domain_size and folding_factor powers of two, folding
   factor > 1 (and below 2^16: the library only supports 2, 4, 8, 16) *)
Theorem Fri_parse_layers_safe F deg dl p d ff :
  fri_ok p -> is_pow2 d = true -> is_pow2 ff = true -> 1 < ff <= 2 ^ 16 -> 0 < elem_bytes F deg <= 2 ^ 32 ->
  rsafe (fun r => length r = length (fri_layers p) /\ Forall (fun s => 0 < ls_queries s) r /\
                  fold_chain (length (fri_layers p)) d ff)
        (Fri_parse_layers F deg dl p d ff).
Proof.
  intros (Hl & _ & _) Hd Hf Hff Heb. unfold Fri_parse_layers.
  apply rsafe_assert; [exact Hd|]. apply rsafe_assert; [exact Hf|]. apply rsafe_assert; [apply Z.gtb_lt; lia|].
  apply Fri_layers_loop_safe; auto. now apply is_pow2_pos.
Qed.

Theorem draw_integers_safe nq d : is_pow2 d = true ->
  rsafe (fun n => 0 <= nq -> nq < d) (draw_integers_shape nq d).
Proof.
  intros Hd. unfold draw_integers_shape. apply rsafe_assert; [exact Hd|].
  destruct (nq >=? d) eqn:E; [exact I|]. rewrite Z.geb_leb in E. apply Z.leb_gt in E.
  apply rsafe_assert; [apply Z.geb_le; apply is_pow2_pos in Hd; lia|].
  destruct (nq >? 1000); cbn; auto.
Qed.

(* the fuel of the model's loop (64) is never exhausted for a 64-bit domain size and a folding factor >= 2: more fuel
   does not change the result, i.e. the function is the while loop of FriOptions::num_fri_layers *)
Lemma nfl_loop_zero fuel ff m : 0 <= m -> nfl_loop fuel 0 ff m = 0.
Proof. intros Hm. destruct fuel; cbn [nfl_loop]; [reflexivity|]. destruct (Z.gtb_spec 0 m); [lia | reflexivity]. Qed.

Lemma nfl_loop_fuel f : forall k d ff m, 0 <= d < 2 ^ Z.of_nat f -> 2 <= ff -> 0 <= m ->
  nfl_loop (f + k) d ff m = nfl_loop f d ff m.
Proof.
  induction f as [|f IH]; intros k d ff m Hd Hff Hm.
  - change (2 ^ Z.of_nat 0) with 1 in Hd. assert (d = 0) by lia. subst d. cbn [Nat.add]. now rewrite !nfl_loop_zero.
  - cbn [Nat.add nfl_loop]. destruct (d >? m); [|reflexivity]. f_equal. apply IH; auto.
    rewrite Nat2Z.inj_succ, Z.pow_succ_r in Hd by lia.
    split; [apply Z.div_pos; lia|].
    apply Z.div_lt_upper_bound; [lia|].
    assert (0 < 2 ^ Z.of_nat f) by (apply Z.pow_pos_nonneg; lia). nia.
Qed.

Theorem num_fri_layers_fuel : forall extra lde ff rmd bf, 0 <= lde < 2 ^ 64 -> 2 <= ff -> 0 <= (rmd + 1) * bf ->
  nfl_loop (64 + extra) lde ff ((rmd + 1) * bf) = num_fri_layers lde ff rmd bf.
Proof. intros. unfold num_fri_layers. apply (nfl_loop_fuel 64); auto. Qed.

(* the admissible ranges are not empty, and outside them the documented panics are real *)
Example typed_ranges_nonvacuous :
  Queries_parse F64P 1 32 (mkQ [0] (to_le_bytes 8 5)) 16 1 1 = Ok (mkQS 1 1 4 []) /\
  Queries_parse F64P 1 32 (mkQ [0] (to_le_bytes 8 5)) 16 0 1 = Err Invalid /\
  Queries_parse F64P 1 32 (mkQ [0] (to_le_bytes 8 5)) 12 1 1 = Panic /\
  OodFrame_parse F64P 1 (mkOod (2 :: to_le_bytes 8 1 ++ to_le_bytes 8 2) [0] (to_le_bytes 8 3)) 1 0 1 = Ok (mkOS 1 None 1) /\
  OodFrame_parse F64P 1 (mkOod [1] [0] (to_le_bytes 8 3)) 1 0 1 = Err Invalid /\
  OodFrame_parse F64P 1 (mkOod [2] (1 :: to_le_bytes 8 1) (to_le_bytes 8 3)) 1 0 1 = Err Invalid /\
  OodFrame_parse F64P 1 (mkOod [2] [0] []) 0 0 1 = Panic /\
  Fri_parse_layers F64P 1 32 (mkFri [mkFL (to_le_bytes 8 1 ++ to_le_bytes 8 2) [0]] [] 0) 4 2 = Ok [mkLS 1 1 []] /\
  Fri_parse_layers F64P 1 32 (mkFri [mkFL [0] [0]; mkFL [0] [0]] [] 0) 2 4 = Err Invalid /\
  Fri_parse_layers F64P 1 32 (mkFri [] [] 0) 6 2 = Panic /\
  draw_integers_shape 15 16 = Ok 15 /\ draw_integers_shape 16 16 = Err Invalid /\ draw_integers_shape 3 12 = Panic /\
  Commitments_parse 2 [1; 2; 3; 4; 5; 6] 1 0 = Ok (1, 1) /\ Commitments_parse 2 [] 1 usize_max = Panic.
Proof. vm_compute. repeat split; reflexivity. Qed.
