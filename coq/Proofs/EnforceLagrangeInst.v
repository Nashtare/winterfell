(* Lagrange kernel constraints: concrete instances (non-vacuity) and the refutation witnesses for "the last
   constraint could be dropped".  Field: Z/97 of Proofs/EnforceInst.v, g8 = 64 of exact order 8 (n = 8, v = 3). *)
From Coq Require Import ZArith List Bool Lia.
From VBase Require Import MachInt FieldOps ZpOps.
From VModel Require Import Enforce EnforceLagrange.
From VProofs Require Import EnforceInst EnforceLagrangeProofs.
Import ListNotations.
Open Scope Z_scope.

Definition g8 : F97 := mk 64.

Lemma g8_pow_8 : fpow f97_ops g8 (2 ^ 3) = fone f97_ops.
Proof. apply F97_eq. vm_compute. reflexivity. Qed.

Lemma g8_order : forall i, 0 < i < 2 ^ 3 -> fpow f97_ops g8 i <> fone f97_ops.
Proof. apply order_by_table. vm_compute. reflexivity. Qed.

(* random elements r_0, r_1, r_2 (none equal to 1) and composition coefficients *)
Definition r3 : list F97 := [mk 2; mk 3; mk 5].
Definition co3 : list F97 := [mk 7; mk 11; mk 13].

Lemma r3_not_one : forall rb, In rb r3 -> fsub f97_ops (fone f97_ops) rb <> fzero f97_ops.
Proof.
  intros rb [<-|[<-|[<-|[]]]]; intros E; apply (f_equal val) in E; vm_compute in E; discriminate.
Qed.

(* the honest column for n = 8 and the same column with the cell of row 5 (odd) replaced *)
Definition honest8 : list F97 := lag_kernel_col f97_ops r3 8.
Definition corrupt8 : list F97 := firstn 5 honest8 ++ [mk 1] ++ skipn 6 honest8.

Definition vals (l : list F97) : list Z := map val l.
Definition oval (o : option F97) : option Z := option_map val o.

(* zero pattern of the divisor of constraint k over the trace domain of size 8 *)
Definition lag_zero_pattern8 (t : LagTC (F := F97)) (k : Z) : option (list bool) :=
  match zidx (l_div t) (k - 1) with
  | Some d => Some (map (fun i => val (evaluate_at f97_ops d (fpow f97_ops g8 i)) =? 0) (zrange 0 8))
  | None => None
  end.

(* the model run inside Coq: 3 constraints, divisors x - 1, x^2 - 1, x^4 - 1, enforced on rows {0}, {0,4}, {0,2,4,6} *)
Example lag_run_new :
  option_map (fun t => (lag_num_constraints t, Z.of_nat (length (l_div t)))) (lag_new f97_ops co3) = Some (3, 3) /\
  (forall t, lag_new f97_ops co3 = Some t ->
     lag_zero_pattern8 t 1 = Some [true; false; false; false; false; false; false; false] /\
     lag_zero_pattern8 t 2 = Some [true; false; false; false; true; false; false; false] /\
     lag_zero_pattern8 t 3 = Some [true; false; true; false; true; false; true; false] /\
     lag_zero_pattern8 t 4 = None) /\
  lag_rows 8 1 = [0] /\ lag_rows 8 2 = [0; 4] /\ lag_rows 8 3 = [0; 2; 4; 6] /\
  lag_shift 8 1 = 4 /\ lag_shift 8 2 = 2 /\ lag_shift 8 3 = 1.
Proof.
  split; [vm_compute; reflexivity|]. split; [|vm_compute; repeat split].
  intros t E. vm_compute in E. injection E as <-. vm_compute. repeat split.
Qed.

(* numerators of the honest column: all vanish on their domains; of the corrupted column: constraints 1 and 2 do not
   read row 5 and still vanish on their domains, numerator 3 is non-zero on row 4 *)
Definition raws8 (col : list F97) (k : Z) : list (option Z) :=
  map (fun i => oval (lag_raw f97_ops (lag_frame_at_row f97_ops col 8 3 i) r3 k)) (lag_rows 8 k).

Example lag_run_numerators :
  raws8 honest8 1 = [Some 0] /\ raws8 honest8 2 = [Some 0; Some 0] /\ raws8 honest8 3 = [Some 0; Some 0; Some 0; Some 0] /\
  raws8 corrupt8 1 = [Some 0] /\ raws8 corrupt8 2 = [Some 0; Some 0] /\
  (exists x, x <> 0 /\ raws8 corrupt8 3 = [Some 0; Some 0; Some x; Some 0]).
Proof.
  repeat split; try (vm_compute; reflexivity). eexists. split; [|vm_compute; reflexivity]. lia.
Qed.

Lemma some_F97_eq (a : option F97) (b : F97) : oval a = Some (val b) -> a = Some b.
Proof. destruct a as [a|]; cbn; [|discriminate]. intros E. injection E as E. f_equal. apply F97_eq. exact E. Qed.

(* "the first log2(n) - 1 constraints cover every row" is false: for n = 8 no enforced instance of constraints 1, 2
   reads a row of odd index (rows 1, 3, 5, 7), while constraint 3 reads each of them on exactly one row of its domain *)
Lemma lag_cover_without_last_refuted_all : forall j, In j [1; 3; 5; 7] ->
  lag_readers 8 (lag_num_coefficients 8 - 1) j = [] /\
  lag_readers 8 (lag_num_coefficients 8) j = [(3, j - 1)].
Proof. intros j [<-|[<-|[<-|[<-|[]]]]]; vm_compute; split; reflexivity. Qed.

Lemma lag_cover_without_last_refuted :
  exists n j, n = 8 /\ 0 < j < n /\
    ~ (exists k i, 1 <= k <= lag_num_coefficients n - 1 /\ In i (lag_rows n k) /\ In j (lag_reads n k i)).
Proof.
  exists 8, 1. split; [reflexivity|]. split; [lia|]. intros (k & i & Hk & Hi & Hr).
  assert (H : In (k, i) (lag_readers (2 ^ 3) (lag_num_coefficients 8 - 1) 1)).
  { apply lag_readers_spec; [vm_compute; discriminate|]. auto. }
  vm_compute in H. exact H.
Qed.

(* "the first log2(n) - 1 constraints (with the boundary constraint) determine the column" is false: corrupt8 has the
   asserted cell in row 0, every numerator of constraints 1 .. v-1 vanishes on its whole enforcement domain, and yet the
   column differs from the Lagrange kernel column (row 5) *)
Lemma lag_determine_without_last_refuted :
  exists (col r : list F97), Z.of_nat (length r) = 3 /\
    (forall rb, In rb r -> fsub f97_ops (fone f97_ops) rb <> fzero f97_ops) /\
    nth 0 col (fzero f97_ops) = lag_assertion_value f97_ops r /\
    (forall k i, 1 <= k <= 3 - 1 -> In i (lag_rows (2 ^ 3) k) ->
       lag_raw f97_ops (lag_frame_at_row f97_ops col (2 ^ 3) 3 i) r k = Some (fzero f97_ops)) /\
    ~ (forall j, 0 <= j < 2 ^ 3 -> nth (Z.to_nat j) col (fzero f97_ops) = lag_kernel_cell f97_ops r j).
Proof.
  exists corrupt8, r3. split; [reflexivity|]. split; [exact r3_not_one|]. split; [apply F97_eq; vm_compute; reflexivity|]. split.
  - intros k i Hk Hi. assert (Hk' : k = 1 \/ k = 2) by lia.
    destruct Hk' as [-> | ->]; vm_compute in Hi.
    + destruct Hi as [<-|[]]. apply some_F97_eq. vm_compute. reflexivity.
    + destruct Hi as [<-|[<-|[]]]; apply some_F97_eq; vm_compute; reflexivity.
  - intros H. assert (Hr5 : 0 <= 5 < 2 ^ 3) by (change (2 ^ 3) with 8; lia). pose proof (H 5 Hr5) as H5. clear H. rename H5 into H. apply (f_equal val) in H. vm_compute in H. discriminate.
Qed.

(* the hypotheses of the general theorems are satisfiable: n = 8 over Z/97 *)
Lemma lag_instance_hyps : 0 <= 3 /\ 3 < 64 /\ fpow f97_ops g8 (2 ^ 3) = fone f97_ops /\
  (forall i, 0 < i < 2 ^ 3 -> fpow f97_ops g8 i <> fone f97_ops).
Proof. split; [lia|]. split; [lia|]. split; [exact g8_pow_8|exact g8_order]. Qed.

(* the determination theorem instantiated: honest8 is the only column passing all three constraints + boundary *)
Lemma lag_determine_instance : forall col,
  nth 0 col (fzero f97_ops) = lag_assertion_value f97_ops r3 ->
  (forall k i, 1 <= k <= 3 -> In i (lag_rows (2 ^ 3) k) ->
     lag_raw f97_ops (lag_frame_at_row f97_ops col (2 ^ 3) 3 i) r3 k = Some (fzero f97_ops)) ->
  forall j, 0 <= j < 2 ^ 3 -> nth (Z.to_nat j) col (fzero f97_ops) = lag_kernel_cell f97_ops r3 j.
Proof.
  intros col H0 Hc. apply (lag_constraints_determine f97_ops f97_laws 3 ltac:(lia) col r3 eq_refl r3_not_one H0 Hc).
Qed.
