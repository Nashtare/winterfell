(* C13 — conservation of bytes for EVERY source (also with empty reads before EOF): a required method of the adapter removes
   from [unread] exactly the bytes it returns, in order, and nothing when it fails. *)
From VBase Require Import MachInt.
From VModel Require Import ReadAdapter.
From VProofs Require Import ReadAdapterSim ReadAdapterInv.
Local Open Scope nat_scope.

Definition delivered {A : Type} (f : A -> list byte) (r : outcome A) : list byte :=
  match r with Ok a => f a | _ => [] end.

Definition conserves {A : Type} (m : astate -> outcome A * astate) (f : A -> list byte) : Prop :=
  forall s, wf s -> unread s = delivered f (fst (m s)) ++ unread (snd (m s)).

(* [method_ok] needs [SI] neither for what a success returns nor for what a failure consumes: hence every source *)
Lemma method_ok_conserves : forall (A : Type) (m : astate -> outcome A * astate) sp (f : A -> list byte),
  method_ok m sp -> (forall u a u', sp u = (Ok a, u') -> u = f a ++ u') -> conserves m f.
Proof.
  intros A m sp f Hm Hsp s Hwf. destruct (Hm s Hwf) as (_ & _ & [(a & E & H)|(E & Hu & _)]); rewrite E; cbn [delivered].
  - exact (Hsp _ _ _ H).
  - now rewrite Hu.
Qed.

Lemma method_ok_exact : forall (A : Type) (m : astate -> outcome A * astate) sp, method_ok m sp ->
  forall s, wf s -> forall a, fst (m s) = Ok a -> (Ok a, unread (snd (m s))) = sp (unread s).
Proof.
  intros A m sp Hm s Hwf a E. destruct (Hm s Hwf) as (_ & _ & [(a' & E' & H)|(E' & _)]); rewrite E in E'; [|discriminate].
  inversion E'; subst a'. now rewrite H.
Qed.

Lemma sp_u8_inv : forall u b u', sp_u8 u = (Ok b, u') -> u = [b] ++ u'.
Proof. intros [|c u] b u' H; inversion H. reflexivity. Qed.

Lemma sp_peek_inv : forall u b u', sp_peek u = (Ok b, u') -> u = [] ++ u'.
Proof. intros [|c u] b u' H; inversion H. reflexivity. Qed.

Lemma sp_take_inv : forall n u l u', sp_take n u = (Ok l, u') -> u = l ++ u'.
Proof. intros n u l u' H. unfold sp_take in H. destruct (n <=? length u); inversion H. symmetry. apply firstn_skipn. Qed.

Section Cons.
  Variable grow : nat -> nat -> nat.
  Variable dbg : bool.

  (* For EVERY source: whenever a required method succeeds, its result and the bytes left are those of the list semantics
     (= SliceReader) on the unread bytes.  A source with empty reads before EOF can only cause failures (UnexpectedEOF with
     nothing consumed), never a wrong value, a skipped or a repeated byte. *)
  Theorem ok_results_exact_any_source : forall s, wf s ->
    (forall b, fst (a_u8 s) = Ok b -> (Ok b, unread (snd (a_u8 s))) = sp_u8 (unread s)) /\
    (forall b, fst (a_peek s) = Ok b -> (Ok b, unread (snd (a_peek s))) = sp_peek (unread s)) /\
    (forall n l, fst (a_slice grow n s) = Ok l -> (Ok l, unread (snd (a_slice grow n s))) = sp_take n (unread s)) /\
    (forall n l, fst (a_array grow dbg n s) = Ok l -> (Ok l, unread (snd (a_array grow dbg n s))) = sp_take n (unread s)).
  Proof.
    intros s Hwf. split; [|split; [|split]].
    - exact (method_ok_exact _ _ _ a_u8_ok s Hwf).
    - exact (method_ok_exact _ _ _ a_peek_ok s Hwf).
    - intros n. exact (method_ok_exact _ _ _ (a_slice_ok grow n) s Hwf).
    - intros n. exact (method_ok_exact _ _ _ (a_array_ok grow dbg n) s Hwf).
  Qed.

  (* every byte is delivered exactly once: required methods of the adapter, any source *)
  Theorem required_methods_conserve :
    conserves a_u8 (fun b => [b]) /\ conserves a_peek (fun _ => []) /\
    (forall n, conserves (a_slice grow n) (fun l => l)) /\ (forall n, conserves (a_array grow dbg n) (fun l => l)) /\
    (forall n s, wf s -> unread (snd (a_eor n s)) = unread s) /\ (forall s, wf s -> unread (snd (a_more s)) = unread s).
  Proof.
    split; [exact (method_ok_conserves _ _ _ _ a_u8_ok sp_u8_inv)|].
    split; [exact (method_ok_conserves _ _ _ _ a_peek_ok sp_peek_inv)|].
    split; [intros n; exact (method_ok_conserves _ _ _ _ (a_slice_ok grow n) (sp_take_inv n))|].
    split; [intros n; exact (method_ok_conserves _ _ _ _ (a_array_ok grow dbg n) (sp_take_inv n))|]. split.
    - intros n s Hw. apply (a_eor_spec n s Hw).
    - intros s Hw. apply (a_more_spec s Hw).
  Qed.
End Cons.
