(* f128: limb-level helper functions of math/src/field/f128/mod.rs (generated terms in Gen/F128.v)
   against integer arithmetic.  A limb is a Z in [0, 2^64); a triple (z0,z1,z2) denotes
   z0 + z1*2^64 + z2*2^128. *)
From VBase Require Import MachInt.
From VGen Require Import F128.
From VProofs Require Import MachIntFacts.
Open Scope Z_scope.

Definition M : Z := 340282366920938463463374557953744961537.
Definition C : Z := 49478023249919.                    (* 45 * 2^40 - 1 = 2^128 - M *)
Lemma M_eq : f128_M = M. Proof. reflexivity. Qed.
Lemma M_val : M = 2^128 - 45 * 2^40 + 1. Proof. reflexivity. Qed.
Lemma M_C : M = 2^128 - C. Proof. reflexivity. Qed.
Lemma C_val : C = 45 * 2^40 - 1. Proof. reflexivity. Qed.
Lemma M_lo : wrap 64 f128_M = 2^64 - C. Proof. reflexivity. Qed.
Lemma M_hi : wrap 64 (shr f128_M 64) = 2^64 - 1. Proof. reflexivity. Qed.
Lemma M_limbs : M = (2^64 - C) + (2^64 - 1) * 2^64. Proof. reflexivity. Qed.

(* low limb / rest of a non-negative number *)
Lemma split64 z : 0 <= z ->
  0 <= wrap 64 z < 2^64 /\ 0 <= shr z 64 /\ z = wrap 64 z + shr z 64 * 2^64.
Proof.
  intros Hz. unfold wrap, shr.
  pose proof (Z.div_mod z (2^64)). pose proof (Z.mod_pos_bound z (2^64)).
  pose proof (Z.div_pos z (2^64)). lia.
Qed.

Lemma shl_limb x : 0 <= x < 2^64 -> shl 128 x 64 = x * 2^64.
Proof. intros H. unfold shl. apply Z.mod_small. lia. Qed.

(* ------------------------------------------------------------------ add64_with_carry *)
Theorem add64_with_carry_spec a b c :
  0 <= a < 2^64 -> 0 <= b < 2^64 -> 0 <= c < 2^64 ->
  let '(r, k) := f128_add64_with_carry a b c in
  0 <= r < 2^64 /\ 0 <= k <= 2 /\ r + k * 2^64 = a + b + c.
Proof.
  intros Ha Hb Hc. unfold f128_add64_with_carry. cbv zeta.
  assert (E : wrap 128 (wrap 128 (a + b) + c) = a + b + c).
  { unfold wrap. rewrite (Z.mod_small (a + b)) by lia. apply Z.mod_small; lia. }
  rewrite E. destruct (split64 (a + b + c)) as (H1 & H2 & H3); [lia|].
  rewrite (wrap_small 64 (shr (a + b + c) 64)) by lia. lia.
Qed.

Theorem add64_with_carry_ok_spec a b c :
  0 <= a < 2^64 -> 0 <= b < 2^64 -> 0 <= c < 2^64 -> f128_add64_with_carry_ok a b c = true.
Proof.
  intros Ha Hb Hc. unfold f128_add64_with_carry_ok, in_u.
  rewrite (wrap_small 128 (a + b)) by lia.
  apply andb_true_iff; split; lia.
Qed.

(* ------------------------------------------------------------------ add_192x192 *)
Lemma add_limb_step a b c : 0 <= a < 2^64 -> 0 <= b < 2^64 -> 0 <= c <= 1 ->
  let z := wrap 128 (wrap 128 (a + b) + c) in
  0 <= wrap 64 z < 2^64 /\ 0 <= shr z 64 <= 1 /\ wrap 64 z + shr z 64 * 2^64 = a + b + c /\
  in_u 128 (a + b) = true /\ in_u 128 (wrap 128 (a + b) + c) = true.
Proof.
  intros Ha Hb Hc. cbv zeta. rewrite (wrap_small 128 (a + b)), (wrap_small 128 (a + b + c)) by lia.
  destruct (split64 (a + b + c)) as (H1 & H2 & H3); [lia|].
  unfold in_u. repeat split; try lia; apply andb_true_iff; split; lia.
Qed.

Lemma add_192x192_both a0 a1 a2 b0 b1 b2 :
  0 <= a0 < 2^64 -> 0 <= a1 < 2^64 -> 0 <= a2 < 2^64 ->
  0 <= b0 < 2^64 -> 0 <= b1 < 2^64 -> 0 <= b2 < 2^64 ->
  (let '(r0, r1, r2) := f128_add_192x192 a0 a1 a2 b0 b1 b2 in
   0 <= r0 < 2^64 /\ 0 <= r1 < 2^64 /\ 0 <= r2 < 2^64 /\
   r0 + r1 * 2^64 + r2 * 2^128 =
     ((a0 + a1 * 2^64 + a2 * 2^128) + (b0 + b1 * 2^64 + b2 * 2^128)) mod 2^192) /\
  f128_add_192x192_ok a0 a1 a2 b0 b1 b2 = true.
Proof.
  intros Ha0 Ha1 Ha2 Hb0 Hb1 Hb2. unfold f128_add_192x192, f128_add_192x192_ok. cbv zeta.
  assert (E0 : wrap 128 (a0 + b0) = wrap 128 (wrap 128 (a0 + b0) + 0)).
  { rewrite Z.add_0_r. unfold wrap. now rewrite Z.mod_mod by lia. }
  rewrite E0.
  destruct (add_limb_step a0 b0 0 Ha0 Hb0 ltac:(lia)) as (R0 & K0 & S0 & O0 & _).
  set (z0 := wrap 128 (wrap 128 (a0 + b0) + 0)) in *.
  destruct (add_limb_step a1 b1 (shr z0 64) Ha1 Hb1 K0) as (R1 & K1 & S1 & O1 & O1').
  set (z1 := wrap 128 (wrap 128 (a1 + b1) + shr z0 64)) in *.
  destruct (add_limb_step a2 b2 (shr z1 64) Ha2 Hb2 K1) as (R2 & K2 & S2 & O2 & O2').
  set (z2 := wrap 128 (wrap 128 (a2 + b2) + shr z1 64)) in *.
  split.
  - repeat split; try lia. symmetry. apply (mod_eq _ _ (shr z2 64)); lia.
  - rewrite O0, O1, O1', O2, O2'. reflexivity.
Qed.

Theorem add_192x192_spec a0 a1 a2 b0 b1 b2 :
  0 <= a0 < 2^64 -> 0 <= a1 < 2^64 -> 0 <= a2 < 2^64 ->
  0 <= b0 < 2^64 -> 0 <= b1 < 2^64 -> 0 <= b2 < 2^64 ->
  let '(r0, r1, r2) := f128_add_192x192 a0 a1 a2 b0 b1 b2 in
  0 <= r0 < 2^64 /\ 0 <= r1 < 2^64 /\ 0 <= r2 < 2^64 /\
  r0 + r1 * 2^64 + r2 * 2^128 =
    ((a0 + a1 * 2^64 + a2 * 2^128) + (b0 + b1 * 2^64 + b2 * 2^128)) mod 2^192.
Proof. intros Ha0 Ha1 Ha2 Hb0 Hb1 Hb2. exact (proj1 (add_192x192_both a0 a1 a2 b0 b1 b2 Ha0 Ha1 Ha2 Hb0 Hb1 Hb2)). Qed.

Corollary add_192x192_exact a0 a1 a2 b0 b1 b2 :
  0 <= a0 < 2^64 -> 0 <= a1 < 2^64 -> 0 <= a2 < 2^64 ->
  0 <= b0 < 2^64 -> 0 <= b1 < 2^64 -> 0 <= b2 < 2^64 ->
  (a0 + a1 * 2^64 + a2 * 2^128) + (b0 + b1 * 2^64 + b2 * 2^128) < 2^192 ->
  let '(r0, r1, r2) := f128_add_192x192 a0 a1 a2 b0 b1 b2 in
  0 <= r0 < 2^64 /\ 0 <= r1 < 2^64 /\ 0 <= r2 < 2^64 /\
  r0 + r1 * 2^64 + r2 * 2^128 = (a0 + a1 * 2^64 + a2 * 2^128) + (b0 + b1 * 2^64 + b2 * 2^128).
Proof.
  intros Ha0 Ha1 Ha2 Hb0 Hb1 Hb2 Hlt.
  pose proof (add_192x192_spec a0 a1 a2 b0 b1 b2 Ha0 Ha1 Ha2 Hb0 Hb1 Hb2) as H.
  destruct (f128_add_192x192 a0 a1 a2 b0 b1 b2) as [[r0 r1] r2].
  rewrite Z.mod_small in H by lia. exact H.
Qed.

Theorem add_192x192_ok_spec a0 a1 a2 b0 b1 b2 :
  0 <= a0 < 2^64 -> 0 <= a1 < 2^64 -> 0 <= a2 < 2^64 ->
  0 <= b0 < 2^64 -> 0 <= b1 < 2^64 -> 0 <= b2 < 2^64 ->
  f128_add_192x192_ok a0 a1 a2 b0 b1 b2 = true.
Proof. intros Ha0 Ha1 Ha2 Hb0 Hb1 Hb2. exact (proj2 (add_192x192_both a0 a1 a2 b0 b1 b2 Ha0 Ha1 Ha2 Hb0 Hb1 Hb2)). Qed.

(* ------------------------------------------------------------------ sub_192x192 *)
(* the borrow trick: for a difference d of two 64(+1)-bit numbers, bit 127 of the wrapped
   u128 difference is the borrow *)
Lemma borrow_step d : - 2^64 <= d < 2^64 ->
  exists bw, 0 <= bw <= 1 /\ 0 <= d + bw * 2^64 < 2^64 /\
             wrap 64 (wrap 128 d) = d + bw * 2^64 /\ shr (wrap 128 d) 127 = bw.
Proof.
  intros Hd. unfold wrap, shr.
  destruct (Z.ltb_spec d 0) as [H|H]; [exists 1|exists 0]; (split; [lia|]); (split; [lia|]).
  - assert (E : d mod 2^128 = d + 2^128) by (apply (mod_eq _ _ (-1)); lia).
    rewrite E. split.
    + apply (mod_eq _ _ (2^64 - 1)); lia.
    + apply (div_eq _ _ 1 (d + 2^127)); lia.
  - rewrite (Z.mod_small d (2^128)) by lia. split.
    + rewrite Z.mod_small; lia.
    + apply Z.div_small; lia.
Qed.

Lemma sub_192x192_both a0 a1 a2 b0 b1 b2 :
  0 <= a0 < 2^64 -> 0 <= a1 < 2^64 -> 0 <= a2 < 2^64 ->
  0 <= b0 < 2^64 -> 0 <= b1 < 2^64 -> 0 <= b2 < 2^64 ->
  (let '(r0, r1, r2) := f128_sub_192x192 a0 a1 a2 b0 b1 b2 in
   0 <= r0 < 2^64 /\ 0 <= r1 < 2^64 /\ 0 <= r2 < 2^64 /\
   r0 + r1 * 2^64 + r2 * 2^128 =
     ((a0 + a1 * 2^64 + a2 * 2^128) - (b0 + b1 * 2^64 + b2 * 2^128)) mod 2^192) /\
  f128_sub_192x192_ok a0 a1 a2 b0 b1 b2 = true.
Proof.
  intros Ha0 Ha1 Ha2 Hb0 Hb1 Hb2. unfold f128_sub_192x192, f128_sub_192x192_ok. cbv zeta.
  destruct (borrow_step (a0 - b0) ltac:(lia)) as (k0 & Hk0 & B0 & R0 & K0).
  rewrite K0, (wrap_small 128 (b1 + k0)) by lia.
  destruct (borrow_step (a1 - (b1 + k0)) ltac:(lia)) as (k1 & Hk1 & B1 & R1 & K1).
  rewrite K1, (wrap_small 128 (b2 + k1)) by lia.
  destruct (borrow_step (a2 - (b2 + k1)) ltac:(lia)) as (k2 & Hk2 & B2 & R2 & K2).
  split.
  - rewrite R0, R1, R2. repeat split; try lia.
    symmetry. apply (mod_eq _ _ (- k2)); lia.
  - unfold in_u. repeat (apply andb_true_iff; split); lia.
Qed.

Theorem sub_192x192_spec a0 a1 a2 b0 b1 b2 :
  0 <= a0 < 2^64 -> 0 <= a1 < 2^64 -> 0 <= a2 < 2^64 ->
  0 <= b0 < 2^64 -> 0 <= b1 < 2^64 -> 0 <= b2 < 2^64 ->
  let '(r0, r1, r2) := f128_sub_192x192 a0 a1 a2 b0 b1 b2 in
  0 <= r0 < 2^64 /\ 0 <= r1 < 2^64 /\ 0 <= r2 < 2^64 /\
  r0 + r1 * 2^64 + r2 * 2^128 =
    ((a0 + a1 * 2^64 + a2 * 2^128) - (b0 + b1 * 2^64 + b2 * 2^128)) mod 2^192.
Proof. intros Ha0 Ha1 Ha2 Hb0 Hb1 Hb2. exact (proj1 (sub_192x192_both a0 a1 a2 b0 b1 b2 Ha0 Ha1 Ha2 Hb0 Hb1 Hb2)). Qed.

Corollary sub_192x192_exact a0 a1 a2 b0 b1 b2 :
  0 <= a0 < 2^64 -> 0 <= a1 < 2^64 -> 0 <= a2 < 2^64 ->
  0 <= b0 < 2^64 -> 0 <= b1 < 2^64 -> 0 <= b2 < 2^64 ->
  b0 + b1 * 2^64 + b2 * 2^128 <= a0 + a1 * 2^64 + a2 * 2^128 ->
  let '(r0, r1, r2) := f128_sub_192x192 a0 a1 a2 b0 b1 b2 in
  0 <= r0 < 2^64 /\ 0 <= r1 < 2^64 /\ 0 <= r2 < 2^64 /\
  r0 + r1 * 2^64 + r2 * 2^128 = (a0 + a1 * 2^64 + a2 * 2^128) - (b0 + b1 * 2^64 + b2 * 2^128).
Proof.
  intros Ha0 Ha1 Ha2 Hb0 Hb1 Hb2 Hle.
  pose proof (sub_192x192_spec a0 a1 a2 b0 b1 b2 Ha0 Ha1 Ha2 Hb0 Hb1 Hb2) as H.
  destruct (f128_sub_192x192 a0 a1 a2 b0 b1 b2) as [[r0 r1] r2].
  rewrite Z.mod_small in H by lia. exact H.
Qed.

Theorem sub_192x192_ok_spec a0 a1 a2 b0 b1 b2 :
  0 <= a0 < 2^64 -> 0 <= a1 < 2^64 -> 0 <= a2 < 2^64 ->
  0 <= b0 < 2^64 -> 0 <= b1 < 2^64 -> 0 <= b2 < 2^64 ->
  f128_sub_192x192_ok a0 a1 a2 b0 b1 b2 = true.
Proof. intros Ha0 Ha1 Ha2 Hb0 Hb1 Hb2. exact (proj2 (sub_192x192_both a0 a1 a2 b0 b1 b2 Ha0 Ha1 Ha2 Hb0 Hb1 Hb2)). Qed.

(* ------------------------------------------------------------------ sub_modulus *)
Theorem sub_modulus_spec lo hi : 0 <= lo < 2^64 -> 0 <= hi < 2^64 ->
  let '(r0, r1) := f128_sub_modulus lo hi in
  0 <= r0 < 2^64 /\ 0 <= r1 < 2^64 /\ r0 + r1 * 2^64 = (lo + hi * 2^64 - M) mod 2^128.
Proof.
  intros Hlo Hhi. unfold f128_sub_modulus. cbv zeta.
  replace (wrap 128 (0 - f128_M)) with C by reflexivity.
  rewrite shl_limb by exact Hhi.
  assert (E : wrap 128 (wrap 128 (C + lo) + hi * 2^64) = (lo + hi * 2^64 - M) mod 2^128).
  { unfold wrap. rewrite Zplus_mod_idemp_l.
    replace (C + lo + hi * 2^64) with (lo + hi * 2^64 - M + 1 * 2^128) by (rewrite M_C; ring).
    apply Z.mod_add. lia. }
  rewrite E. set (z := (lo + hi * 2^64 - M) mod 2^128).
  assert (Hz : 0 <= z < 2^128) by (apply Z.mod_pos_bound; lia).
  destruct (split64 z) as (H1 & H2 & H3); [lia|].
  rewrite (wrap_small 64 (shr z 64)) by lia. lia.
Qed.

(* ------------------------------------------------------------------ mul_by_modulus *)
Theorem mul_by_modulus_spec a : 0 <= a < 2^64 ->
  let '(q0, q1, q2) := f128_mul_by_modulus a in
  0 <= q0 < 2^64 /\ 0 <= q1 < 2^64 /\ 0 <= q2 < 2^64 /\
  q0 + q1 * 2^64 + q2 * 2^128 = a * M.
Proof.
  intros Ha. unfold f128_mul_by_modulus. cbv zeta. rewrite M_eq.
  destruct (Z.eqb_spec a 0) as [->|Hnz].
  - cbv. repeat split; discriminate || reflexivity.
  - (* a*M = (a-1)*2^128 + (2^128 - a*C), and 0 < a*C < 2^128 *)
    assert (E : wrap 128 (a * M) = 2^128 - a * C).
    { unfold wrap. apply (mod_eq _ _ (a - 1)); [unfold C; lia| rewrite M_C; ring]. }
    rewrite E, (wrap_small 64 (a - 1)) by lia.
    destruct (split64 (2^128 - a * C)) as (H1 & H2 & H3); [unfold C; lia|].
    rewrite (wrap_small 64 (shr (2^128 - a * C) 64)) by (unfold C in *; lia).
    repeat split; try (unfold C in *; lia).
    rewrite M_C. unfold C in *. lia.
Qed.

Theorem mul_by_modulus_ok_spec a : 0 <= a < 2^64 -> f128_mul_by_modulus_ok a = true.
Proof.
  intros Ha. unfold f128_mul_by_modulus_ok. cbv zeta.
  destruct (Z.eqb_spec a 0); [reflexivity|]. unfold in_u. apply andb_true_iff; split; lia.
Qed.

(* ------------------------------------------------------------------ mul_128x64 *)
Lemma mul_limbs_bound x y : 0 <= x < 2^64 -> 0 <= y < 2^64 -> 0 <= x * y <= (2^64 - 1) * (2^64 - 1).
Proof. intros Hx Hy. split; [apply Z.mul_nonneg_nonneg; lia|]. apply Z.mul_le_mono_nonneg; lia. Qed.

Lemma mul_128x64_both a b : 0 <= a < 2^128 -> 0 <= b < 2^64 ->
  (let '(z0, z1, z2) := f128_mul_128x64 a b in
   0 <= z0 < 2^64 /\ 0 <= z1 < 2^64 /\ 0 <= z2 < 2^64 /\
   z0 + z1 * 2^64 + z2 * 2^128 = a * b) /\
  f128_mul_128x64_ok a b = true.
Proof.
  intros Ha Hb. unfold f128_mul_128x64, f128_mul_128x64_ok. cbv zeta.
  destruct (split64 a) as (Hl & Hh & Ea); [lia|].
  set (al := wrap 64 a) in *. set (ah := shr a 64) in *.
  assert (Hah : ah < 2^64) by lia.
  pose proof (mul_limbs_bound al b Hl Hb) as B1.
  pose proof (mul_limbs_bound ah b ltac:(lia) Hb) as B2.
  assert (Eab : a * b = al * b + ah * b * 2^64) by (rewrite Ea; ring).
  set (p1 := al * b) in *. set (p2 := ah * b) in *.
  rewrite (wrap_small 128 p1), (wrap_small 128 p2) by lia.
  destruct (split64 p1) as (H1 & H2 & H3); [lia|].
  split.
  - rewrite (wrap_small 128 (p2 + shr p1 64)) by lia.
    destruct (split64 (p2 + shr p1 64)) as (H4 & H5 & H6); [lia|].
    rewrite (wrap_small 64 (shr (p2 + shr p1 64) 64)) by lia.
    repeat split; lia.
  - unfold in_u. repeat (apply andb_true_iff; split); lia.
Qed.

Theorem mul_128x64_spec a b : 0 <= a < 2^128 -> 0 <= b < 2^64 ->
  let '(z0, z1, z2) := f128_mul_128x64 a b in
  0 <= z0 < 2^64 /\ 0 <= z1 < 2^64 /\ 0 <= z2 < 2^64 /\
  z0 + z1 * 2^64 + z2 * 2^128 = a * b.
Proof. intros Ha Hb. exact (proj1 (mul_128x64_both a b Ha Hb)). Qed.

Theorem mul_128x64_ok_spec a b : 0 <= a < 2^128 -> 0 <= b < 2^64 -> f128_mul_128x64_ok a b = true.
Proof. intros Ha Hb. exact (proj2 (mul_128x64_both a b Ha Hb)). Qed.

(* ------------------------------------------------------------------ mul_reduce *)
(* z - z2*M = z0 + z1*2^64 + z2*C : at most 2^128 + 2^110, so the top limb is 0 or 1 *)
Theorem mul_reduce_spec z0 z1 z2 : 0 <= z0 < 2^64 -> 0 <= z1 < 2^64 -> 0 <= z2 < 2^64 ->
  let '(r0, r1, r2) := f128_mul_reduce z0 z1 z2 in
  0 <= r0 < 2^64 /\ 0 <= r1 < 2^64 /\ 0 <= r2 <= 1 /\
  r0 + r1 * 2^64 + r2 * 2^128 = (z0 + z1 * 2^64 + z2 * 2^128) - z2 * M /\
  (r2 = 1 -> r0 + r1 * 2^64 < 2^110).
Proof.
  intros H0 H1 H2. unfold f128_mul_reduce.
  pose proof (mul_by_modulus_spec z2 H2) as Hq.
  destruct (f128_mul_by_modulus z2) as [[q0 q1] q2]. destruct Hq as (Q0 & Q1 & Q2 & Eq).
  pose proof (sub_192x192_spec z0 z1 z2 q0 q1 q2 H0 H1 H2 Q0 Q1 Q2) as Hs.
  destruct (f128_sub_192x192 z0 z1 z2 q0 q1 q2) as [[r0 r1] r2].
  destruct Hs as (R0 & R1 & R2 & Er).
  rewrite Eq in Er.
  assert (Ev : z0 + z1 * 2^64 + z2 * 2^128 - z2 * M = z0 + z1 * 2^64 + z2 * C) by (rewrite M_C; ring).
  rewrite Ev in *.
  rewrite Z.mod_small in Er by (unfold C; lia).
  unfold C in *. repeat split; lia.
Qed.

Theorem mul_reduce_ok_spec z0 z1 z2 : 0 <= z0 < 2^64 -> 0 <= z1 < 2^64 -> 0 <= z2 < 2^64 ->
  f128_mul_reduce_ok z0 z1 z2 = true.
Proof.
  intros H0 H1 H2. unfold f128_mul_reduce_ok.
  rewrite mul_by_modulus_ok_spec by exact H2.
  pose proof (mul_by_modulus_spec z2 H2) as Hq.
  destruct (f128_mul_by_modulus z2) as [[q0 q1] q2]. destruct Hq as (Q0 & Q1 & Q2 & Eq).
  now rewrite sub_192x192_ok_spec.
Qed.
