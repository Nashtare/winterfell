(* C01 — the stage premises of stark_complete_lagrange_partial discharged exactly as Proofs/StarkInst.v / StarkFri.v do for
   the capstone without Lagrange column: merkle_complete from C10, interp_complete and coset_off_domain from C09, fri_complete
   from C15, cV = cP from C04; in addition interp_pts_spec from C20_interpolate_spec: the model's interp_pts is
   polynom::interpolate(xs, ys, true) of Model/Polynom.v (remove_leading_zeros included: it shortens the list and does not
   change the evaluation). *)
From Coq Require Import List Arith Bool ZArith Lia.
From VBase Require Import FieldOps.
From VModel Require Import Stark StarkLagrange.
From VModel Require FFT Merkle Transcript Enforce EnforceLagrange Fri Polynom.
From VProofs Require Import ListFacts Pow2Facts StarkPoly StarkDeep StarkComplete StarkInst StarkFri StarkLagrange.
From VProofs Require FFTSpec FFTOffset PolyBase PolyArith.
From VProps Require C20.
Import ListNotations.

Section InterpPts.
Context {F : Type} (O : FOps F) (L : FLaws O).
Variable dbg : bool.
(* interp_pts_c20 (Model/StarkLagrange.v) = polynom::interpolate(&xs, ood_frame, true) as the composers call it *)
Local Notation interp_pts_c20 := (interp_pts_c20 O dbg).

Theorem interp_pts_c20_spec : forall xs ys, NoDup xs -> length ys = length xs ->
  length (interp_pts_c20 xs ys) <= length xs /\
  forall m, m < length xs -> peval O (interp_pts_c20 xs ys) (nth m xs (fzero O)) = nth m ys (fzero O).
Proof.
  intros xs ys Hnd Hl.
  destruct (C20.C20_interpolate_spec O L dbg xs ys Hnd Hl) as (p & _ & Hpl & Ht & Hev).
  unfold interp_pts_c20. rewrite Ht.
  destruct (PolyArith.remove_leading_zeros_spec O L p) as (Hsplit & _ & Hsame). cbv zeta in Hsplit, Hsame.
  split.
  - rewrite <- Hpl. rewrite Hsplit at 2. rewrite app_length. lia.
  - intros m Hm. rewrite <- (Hev m Hm). apply Hsame.
Qed.
End InterpPts.

(* ================================================================================================ all stages instantiated *)
Section FinalLag.
Context {F : Type} (O : FOps F) (L : FLaws O).
Local Notation zero := (fzero O).
Local Notation one := (fone O).
Local Notation "a *f b" := (fmul O a b) (at level 40, left associativity).

Variable D : Type.
Variable D_eqb : D -> D -> bool.
Hypothesis D_eqb_spec : forall a b, D_eqb a b = true <-> a = b.
Variables (d0 : D) (merge : D -> D -> D) (hash_elements : list F -> D).
Variable rou : nat -> F.
Variable K : nat.
Hypothesis K_pos : 1 <= K.
Hypothesis rou_sq : forall k, k < K -> rou (S k) *f rou (S k) = rou k.
Hypothesis rou_1 : rou 1 = fneg O one.
Hypothesis two_nz : fadd O one one <> zero.
Variable gen_offset : F.
Hypothesis offset_nz : gen_offset <> zero.
Variable CS : Type.
Variable cs_reseed : CS -> D -> CS.
Variable cs_draw : CS -> CS * Fri.draw_res F.
Hypothesis draw_total : forall c, exists c' a, cs_draw c = (c', Fri.DrawOk a).
Variable coin0 : CS.
Variable sem : list (Transcript.chal * Transcript.cval) -> @Coin F.
Variables f b remmax a k : nat.
Hypothesis f_pos : 1 <= f.
Hypothesis f_supported : Fri.supported_folding (2 ^ f) = true.
Hypothesis Hlayers : Fri.num_fri_layers (Fri.mkOpts (2 ^ b) (2 ^ f) remmax) (2 ^ a) = Some k.
Hypothesis Hkf : k * f < a.
Hypothesis Hb : b <= a - k * f.
Hypothesis HaK : a <= K.
Hypothesis Ha62 : a <= 62.
Variables (two_adicity : nat) (itw : list F) (kc : nat).
Hypothesis Hta : S kc <= two_adicity.
Hypothesis Hroot : FFTSpec.root_cond O (S kc) (rou (S kc)).
Hypothesis Hget : FFT.get_inv_twiddles O two_adicity rou (2 ^ S kc) = Some itw.
Hypothesis Hn_inv : FFTSpec.two_pow_f O (S kc) *f FFTOffset.n_inv O (S kc) = one.
Variable dbg_fri dbg_interp : bool.
Variable air_eval : F -> list F -> list F -> F.
Variables (cols ce_b : nat) (g : F).

Local Notation v := (a - b).
Local Notation n := (2 ^ (a - b)).
Local Notation lde := (lde_of O rou gen_offset a).
Local Notation MT := (Merkle.mtree D).
Local Notation MN := (list (list D)).
Local Notation FriP := (FriProof D MN).
Local Notation fprove := (fri_prove O rou K gen_offset D hash_elements MT MN (mt_new' D d0 merge) (mt_root' D d0)
                                   (mt_prove_batch' D d0) CS cs_reseed cs_draw f b remmax a coin0).
Local Notation fverify := (fri_verify O rou K gen_offset dbg_fri D D_eqb hash_elements MN (mt_verify_batch' D D_eqb merge)
                                      CS cs_reseed cs_draw f b remmax a coin0).
Local Notation ipts := (interp_pts_c20 O dbg_interp).
Local Notation prove_lag' := (prove_lag O ipts D (Opening D) FriP (commit O D d0 merge hash_elements lde)
                                 (open_prove O D d0 merge hash_elements lde) fprove air_eval
                                 (interp_ce O two_adicity itw kc (rou (S kc)) gen_offset)).
Local Notation verify_lag' := (verify_lag O ipts D (Opening D) FriP (open_ok O D D_eqb merge hash_elements lde) fverify air_eval).

(* stark_complete_lagrange: NO stage premise.  The trace length is n = 2^(a-b) (LDE 2^a, blowup 2^b), v = a - b. *)
Theorem stark_complete_lagrange (dbg : bool) (s : Transcript.shape) (lc : @LagC F) (lcc : F)
    (Ts : list (list F)) (Lp : list F) (Qc : list F) :
  let cP := coin_prover sem s in
  let cV := coin_verifier sem s in
  primitive_root O g n -> fpow O gen_offset (2 ^ S kc) <> one ->
  2 <= v -> v < 64 -> 1 <= cols -> 2 ^ S kc = n * ce_b -> cols <= ce_b ->
  Ts <> [] -> Forall (fun p => length p = n) Ts -> length Lp = n ->
  (* valid ordinary part: the combined (divided) constraint evaluation is a polynomial that fits the composition columns *)
  length Qc <= n * cols ->
  (forall x, ~ In x (domain O g n) -> air_eval x (evals O Ts x) (evals O Ts (x *f g)) = peval O Qc x) ->
  (* the Lagrange constraints as LagrangeKernelTransitionConstraints::new builds them (C16_lagrange_count) *)
  length (EnforceLagrange.l_coef (lc_t lc)) = v -> length (lc_rr lc) = v -> length (EnforceLagrange.l_div (lc_t lc)) = v ->
  (forall idx, idx < v ->
     nth idx (EnforceLagrange.l_div (lc_t lc)) (Enforce.mkD [] []) = Enforce.mkD [((2 ^ Z.of_nat idx)%Z, one)] []) ->
  (* the kernel column is the honest one for the random elements lc_rr the GKR step handed to both sides *)
  (forall i, i < n -> peval O Lp (fpow O g i) = nth i (kernel_col O (lc_rr lc) v) zero) ->
  (* assumptions on the drawn values *)
  ~ In (c_z cP) (domain O g n) -> c_z cP <> zero -> c_z cP *f g <> zero ->
  incl (c_xs cP) lde -> NoDup (c_xs cP) -> c_xs cP <> [] -> length (c_xs cP) <= 255 ->
  (forall x, In x (c_xs cP) -> ~ In x (lag_pts O g (c_z cP) v)) ->
  exists pf, prove_lag' (mkParams n g cols false dbg) v lc cP lcc Ts Lp = Done pf /\
             verify_lag' (mkParams n g cols false dbg) v lc cV lcc pf = VAccept.
Proof.
  intros cP cV Hg Hoce Hv Hv64 Hcols Hsz Hcb HTs HTl HLl HQcl HQc Hcl Hrl Hdl Hds Hhon Hz Hz0 Hzg0 Hxs Hnd Hne H255 Hxz.
  assert (Ha1 : 1 <= a <= 62) by lia.
  destruct (C09.C09_get_inv_twiddles F O L two_adicity rou kc (rou (S kc)) Hta eq_refl Hroot) as (itw' & Hg' & Hitw & Htw & Hinv).
  rewrite Hget in Hg'. injection Hg' as <-. set (winv := FFT.fpow O (rou (S kc)) (2 ^ S kc - 1)) in *.
  assert (Hce : n * cols <= 2 ^ S kc) by (rewrite Hsz; apply Nat.mul_le_mono_l; exact Hcb).
  assert (Hgce : fpow O g (2 ^ S kc) = one).
  { rewrite Hsz. apply (fpow_order_mul O L), Hg. }
  assert (Hn2 : 2 <= n) by (pose proof (succ_lt_pow2 v Hv); lia).
  apply (stark_complete_lagrange_partial O L D (Opening D) FriP
           (commit O D d0 merge hash_elements lde) (open_prove O D d0 merge hash_elements lde) (open_ok O D D_eqb merge hash_elements lde)
           fprove fverify air_eval (interp_ce O two_adicity itw kc (rou (S kc)) gen_offset) ipts
           n cols (ce_size kc) v g (ce_coset O kc (rou (S kc)) gen_offset) lde) with (Qc := Qc); try assumption; try reflexivity.
  - apply (merkle_complete_inst O L D D_eqb D_eqb_spec d0 merge hash_elements lde a Ha1 (lde_of_length O rou gen_offset a)).
  - intros d xs Hd _ Hin Hxne Hx255.
    apply (fri_complete_inst O L rou K K_pos rou_sq rou_1 two_nz gen_offset offset_nz dbg_fri D D_eqb D_eqb_spec hash_elements
             MT MN (mt_new' D d0 merge) (mt_root' D d0) (mt_prove_batch' D d0) (mt_verify_batch' D D_eqb merge) CS cs_reseed cs_draw
             (merkle_new_ok' D d0 merge) (merkle_batch_complete' D D_eqb D_eqb_spec d0 merge) draw_total
             f b remmax f_pos f_supported a k coin0 Hlayers Hkf Hb HaK Ha62); assumption.
  - apply (interp_pts_c20_spec O L dbg_interp).
  - apply (interp_complete_inst O L two_adicity itw kc (rou (S kc)) winv gen_offset Hitw Hta Hroot Hinv Htw offset_nz Hn_inv).
  - apply (coset_off_domain_inst O L two_adicity itw kc (rou (S kc)) gen_offset Hitw Hta Hroot g n Hgce Hoce).
  - apply transcript_agree_inst.
Qed.
End FinalLag.
