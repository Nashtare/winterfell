(* f64 public operations against integer arithmetic mod M (generated terms from Gen/F64.v). *)
From VBase Require Import MachInt.
From VGen Require Import F64.
From VProofs Require Import MachIntFacts F64Red.
Open Scope Z_scope.

Definition repr (x : Z) : Prop := 0 <= x < M.
(* 2^-64 mod M *)
Definition Rinv : Z := 18446744065119617025.
Lemma Rinv_ok : (2^64 * Rinv) mod M = 1. Proof. reflexivity. Qed.
Definition val (x : Z) : Z := (x * Rinv) mod M.

Lemma M_pos : 0 < M. Proof. reflexivity. Qed.
Lemma val_range x : 0 <= val x < M. Proof. apply Z.mod_pos_bound, M_pos. Qed.

Lemma mont_cancel r x : (r * 2^64) mod M = x mod M -> r mod M = (x * Rinv) mod M.
Proof.
  intros H.
  assert (E : (r * (2^64 * Rinv)) mod M = (x * Rinv) mod M).
  { rewrite Z.mul_assoc, <- Z.mul_mod_idemp_l, H, Z.mul_mod_idemp_l by (unfold M; lia). reflexivity. }
  rewrite <- Z.mul_mod_idemp_r, Rinv_ok, Z.mul_1_r in E by (unfold M; lia). exact E.
Qed.

Lemma val_inj a b : repr a -> repr b -> val a = val b -> a = b.
Proof.
  unfold val, repr. intros Ha Hb H.
  assert (E : forall x, (x * Rinv * 2^64) mod M = x mod M).
  { intros x. rewrite <- Z.mul_assoc, <- Z.mul_mod_idemp_r, (Z.mul_comm Rinv), Rinv_ok, Z.mul_1_r by (unfold M; lia). reflexivity. }
  assert (E2 : (a * Rinv * 2^64) mod M = (b * Rinv * 2^64) mod M).
  { rewrite <- (Z.mul_mod_idemp_l (a * Rinv)), H, Z.mul_mod_idemp_l by (unfold M; lia). reflexivity. }
  rewrite !E, !Z.mod_small in E2 by assumption. exact E2.
Qed.

(* ---- mul / new / as_int ---- *)
Lemma mont_red_val x : 0 <= x < 2^64 * M -> repr (f64_mont_red_cst x) /\ f64_mont_red_cst x = val x.
Proof.
  intros Hx. destruct (mont_red_cst_spec x Hx) as [Hr Hc]. split; [exact Hr|].
  apply mont_cancel in Hc. rewrite Z.mod_small in Hc by exact Hr. exact Hc.
Qed.

Theorem f64_mul_spec a b : repr a -> repr b ->
  repr (f64_mul a b) /\ val (f64_mul a b) = (val a * val b) mod M.
Proof.
  unfold repr. intros Ha Hb. unfold f64_mul.
  assert (Hab : 0 <= a * b < 2^64 * M) by (unfold M in *; nia).
  rewrite wrap_small by (unfold M in *; nia).
  destruct (mont_red_val _ Hab) as [Hr Hc]. split; [exact Hr|].
  rewrite Hc. unfold val.
  rewrite Z.mul_mod_idemp_l by (unfold M; lia).
  rewrite <- Z.mul_mod by (unfold M; lia). f_equal. ring.
Qed.

Theorem f64_mul_ok_spec a b : repr a -> repr b -> f64_mul_ok a b = true.
Proof.
  unfold repr, f64_mul_ok, in_u. intros Ha Hb.
  assert (0 <= a * b < 2^128) by (unfold M in *; nia).
  apply andb_true_iff; split; lia.
Qed.

Theorem f64_new_spec v : 0 <= v < 2^64 -> repr (f64_new v) /\ val (f64_new v) = v mod M.
Proof.
  intros Hv. unfold f64_new.
  assert (Hab : 0 <= v * f64_R2 < 2^64 * M) by (unfold M, f64_R2 in *; nia).
  rewrite wrap_small by (unfold M, f64_R2 in *; nia).
  destruct (mont_red_val _ Hab) as [Hr Hc]. split; [exact Hr|].
  rewrite Hc. unfold val. rewrite Z.mul_mod_idemp_l by (unfold M; lia).
  replace (v * f64_R2 * Rinv * Rinv) with (v * (f64_R2 * Rinv * Rinv)) by ring.
  rewrite <- Z.mul_mod_idemp_r by (unfold M; lia).
  replace ((f64_R2 * Rinv * Rinv) mod M) with 1 by reflexivity. now rewrite Z.mul_1_r.
Qed.

Theorem f64_as_int_spec x : 0 <= x < 2^64 -> f64_as_int x = val x.
Proof.
  intros Hx. unfold f64_as_int. rewrite mont_to_int_eq by exact Hx.
  apply mont_red_val. unfold M; lia.
Qed.

Corollary f64_as_int_new v : 0 <= v < 2^64 -> f64_as_int (f64_new v) = v mod M.
Proof.
  intros Hv. destruct (f64_new_spec v Hv) as [Hr Hval].
  rewrite f64_as_int_spec; [exact Hval| unfold repr, M in Hr; lia].
Qed.

(* ---- add / sub / neg / double ---- *)
Theorem f64_add_eq a b : repr a -> repr b -> f64_add a b = (a + b) mod M.
Proof.
  unfold repr. intros Ha Hb. unfold f64_add.
  assert (Hw : wrap 64 (f64_M - b) = M - b) by (apply Z.mod_small; unfold f64_M, M in *; lia).
  rewrite Hw.
  assert (Hmb : 0 <= M - b <= M) by lia.
  destruct (Z.eq_dec b 0) as [->|Hnz].
  - (* M - 0 = M is not < M: handle directly *)
    unfold ovf_sub, wrap, b2z, M in *.
    destruct (Z.ltb_spec a (18446744069414584321 - 0)) as [H|H]; [|lia].
    assert (E1 : (0 - 1) mod 2^32 = 2^32 - 1) by reflexivity. rewrite E1.
    assert (E2 : (a - (18446744069414584321 - 0)) mod 2^64 = a - 18446744069414584321 + 2^64)
      by (apply (mod_eq _ _ (-1)); lia).
    rewrite E2, Z.add_0_r, (Z.mod_small a) by lia.
    rewrite Z.mod_small by lia. lia.
  - pose proof (sub_fix a (M - b) Ha ltac:(lia)) as Hs.
    destruct (ovf_sub 64 a (M - b)) as [r c]. rewrite Hs.
    replace (a - (M - b)) with (a + b + (-1) * M) by ring.
    apply Z.mod_add. unfold M; lia.
Qed.

Theorem f64_add_ok_spec a b : repr b -> f64_add_ok a b = true.
Proof. unfold repr, f64_add_ok, in_u, f64_M, M. intros Hb. apply andb_true_iff; split; lia. Qed.

Theorem f64_sub_eq a b : repr a -> repr b -> f64_sub a b = (a - b) mod M.
Proof.
  intros Ha Hb. unfold f64_sub. pose proof (sub_fix a b Ha Hb) as Hs.
  destruct (ovf_sub 64 a b) as [r c]. exact Hs.
Qed.

Lemma f64_ZERO_eq : f64_ZERO = 0. Proof. reflexivity. Qed.
Lemma f64_ONE_eq : f64_ONE = 4294967295. Proof. reflexivity. Qed.
Lemma val_ONE : val f64_ONE = 1. Proof. reflexivity. Qed.
Lemma val_ZERO : val f64_ZERO = 0. Proof. reflexivity. Qed.

Theorem f64_neg_eq a : repr a -> f64_neg a = (- a) mod M.
Proof.
  intros Ha. unfold f64_neg. rewrite f64_ZERO_eq, f64_sub_eq by (exact Ha || (unfold repr, M; lia)).
  reflexivity.
Qed.

(* final "subtract M once if possible" step shared by the repaired double / mul_small *)
Lemma cond_sub x : 0 <= x < 2^64 ->
  (let '(red, under) := ovf_sub 64 x f64_M in if under then x else red) = x mod M.
Proof.
  intros Hx. unfold ovf_sub. rewrite M_eq, <- (reduce_once M x) by (unfold M; lia).
  destruct (Z.ltb_spec x M) as [H|H]; [reflexivity|].
  apply Z.mod_small. unfold M in *. lia.
Qed.

Lemma mod_sub_M x : (x - M) mod M = x mod M.
Proof. replace (x - M) with (x + (-1) * M) by ring. apply Z.mod_add. discriminate. Qed.

Theorem f64_double_eq a : repr a -> f64_double a = (2 * a) mod M.
Proof.
  unfold repr. intros Ha. unfold f64_double.
  assert (Hs : shl 128 a 1 = 2 * a) by (unfold shl; rewrite Z.mod_small; unfold M in *; lia).
  rewrite Hs. cbv beta iota zeta.
  destruct (Z.lt_ge_cases (2 * a) (2^64)) as [H|H].
  - assert (E : wrap 64 (wrap 64 (2 * a) - wrap 64 (f64_M * wrap 64 (shr (2 * a) 64))) = 2 * a).
    { unfold wrap, shr. rewrite (Z.div_small (2 * a)) by lia.
      replace (0 mod 2^64) with 0 by reflexivity. rewrite Z.mul_0_r.
      replace (0 mod 2^64) with 0 by reflexivity. rewrite Z.sub_0_r, Z.mod_mod by lia.
      apply Z.mod_small; lia. }
    rewrite E, cond_sub by lia. reflexivity.
  - assert (E : wrap 64 (wrap 64 (2 * a) - wrap 64 (f64_M * wrap 64 (shr (2 * a) 64))) = 2 * a - M).
    { unfold wrap, shr.
      assert (E1 : (2 * a) / 2^64 = 1) by (apply (div_eq _ _ 1 (2 * a - 2^64)); unfold M in *; lia).
      rewrite E1. replace (1 mod 2^64) with 1 by reflexivity. rewrite Z.mul_1_r.
      replace (f64_M mod 2^64) with M by reflexivity.
      assert (E2 : (2 * a) mod 2^64 = 2 * a - 2^64) by (apply (mod_eq _ _ 1); unfold M in *; lia).
      rewrite E2. apply (mod_eq _ _ (-1)); unfold M in *; lia. }
    rewrite E, cond_sub by (unfold M in *; lia). apply mod_sub_M.
Qed.

Theorem f64_double_ok_spec a : repr a -> f64_double_ok a = true.
Proof.
  unfold repr, f64_double_ok. intros Ha.
  assert (Hs : shl 128 a 1 = 2 * a) by (unfold shl; rewrite Z.mod_small; unfold M in *; lia).
  rewrite Hs. unfold in_u, wrap, shr, f64_M.
  assert (0 <= (2 * a) / 2^64 <= 1).
  { split; [apply Z.div_pos; lia|]. apply Z.lt_succ_r, Z.div_lt_upper_bound; unfold M in *; lia. }
  rewrite (Z.mod_small ((2 * a) / 2^64)) by lia.
  apply andb_true_iff; split; nia.
Qed.

(* ---- mul_small (repaired): canonical result, value = a * r ---- *)
Theorem f64_mul_small_spec a r : repr a -> 0 <= r < 2^32 ->
  repr (f64_mul_small a r) /\ f64_mul_small a r = (a * r) mod M.
Proof.
  unfold repr. intros Ha Hr. unfold f64_mul_small.
  assert (Hs : wrap 128 (a * r) = a * r) by (apply Z.mod_small; unfold M in *; nia).
  rewrite Hs. set (s := a * r).
  set (hi := s / 2^64). set (lo := s mod 2^64).
  assert (Hlo : 0 <= lo < 2^64) by (apply Z.mod_pos_bound; lia).
  assert (Hhi : 0 <= hi < 2^32).
  { unfold hi, s. split; [apply Z.div_pos; nia|apply Z.div_lt_upper_bound; unfold M in *; nia]. }
  assert (Hsplit : s = hi * 2^64 + lo) by (unfold hi, lo; pose proof (Z.div_mod s (2^64)); lia).
  assert (E1 : wrap 64 (shr s 64) = hi) by (unfold wrap, shr; fold hi; apply Z.mod_small; lia).
  assert (E2 : wrap 64 s = lo) by reflexivity.
  rewrite E1, E2.
  assert (E3 : shl 64 hi 32 = hi * 2^32) by (unfold shl; apply Z.mod_small; nia).
  rewrite E3.
  assert (E4 : wrap 64 (hi * 2^32 - hi) = hi * (2^32 - 1)) by (unfold wrap; rewrite Z.mod_small; nia).
  rewrite E4. set (zz := hi * (2^32 - 1)).
  assert (Hzz : 0 <= zz <= (2^32-1) * (2^32 - 1)) by (unfold zz; nia).
  (* s = hi*2^64 + lo == hi*(2^32-1) + lo  (mod M) *)
  assert (Hcong : (lo + zz) mod M = s mod M).
  { rewrite Hsplit. unfold zz. replace (hi * 2^64 + lo) with (lo + hi * (2^32-1) + hi * M) by (unfold M; ring).
    rewrite Z.mod_add by (unfold M; lia). reflexivity. }
  cbv beta iota zeta. unfold ovf_add.
  destruct (Z.leb_spec (2^64) (lo + zz)) as [Ho|Ho]; cbv beta iota zeta.
  - assert (E6 : wrap 64 ((lo + zz) mod 2^64 + wrap 32 (0 - b2z true)) = lo + zz - M).
    { assert (E5 : (lo + zz) mod 2^64 = lo + zz - 2^64) by (apply (mod_eq _ _ 1); lia).
      rewrite E5. unfold b2z. replace (wrap 32 (0 - 1)) with (2^32 - 1) by reflexivity.
      unfold wrap, M; apply (mod_eq _ _ 0); lia. }
    rewrite E6, cond_sub, mod_sub_M by (unfold M; lia).
    split; [apply Z.mod_pos_bound, M_pos|exact Hcong].
  - assert (E6 : wrap 64 ((lo + zz) mod 2^64 + wrap 32 (0 - b2z false)) = lo + zz).
    { assert (E5 : (lo + zz) mod 2^64 = lo + zz) by (apply Z.mod_small; lia).
      rewrite E5. unfold b2z. replace (wrap 32 (0 - 0)) with 0 by reflexivity.
      rewrite Z.add_0_r. apply Z.mod_small; lia. }
    rewrite E6, cond_sub by lia.
    split; [apply Z.mod_pos_bound, M_pos|exact Hcong].
Qed.

(* ---- equality: the raw-word comparison is Leibniz equality on words ---- *)
Lemma sar63 x : - 2^63 <= x < 2^63 -> shr x 63 = if x <? 0 then -1 else 0.
Proof.
  intros Hx. unfold shr. destruct (Z.ltb_spec x 0) as [H|H].
  - apply (div_eq _ _ (-1) (x + 2^63)); lia.
  - apply Z.div_small; lia.
Qed.

Lemma bit63 x : 0 <= x < 2^64 -> Z.testbit x 63 = (2^63 <=? x).
Proof.
  intros Hx. rewrite Z.testbit_odd, Z.shiftr_div_pow2 by lia. destruct (Z.leb_spec (2^63) x).
  - rewrite (div_eq x (2^63) 1 (x - 2^63)) by lia. reflexivity.
  - rewrite Z.div_small by lia. reflexivity.
Qed.

(* t or 2^64 - t has bit 63 set *)
Lemma lor_neg_pos t : 0 < t < 2^64 -> 2^63 <= Z.lor t (wrap 64 (- t)) < 2^64.
Proof.
  intros Ht.
  assert (Hn : wrap 64 (-t) = 2^64 - t) by (apply (mod_eq _ _ (-1)); lia).
  rewrite Hn. set (w := Z.lor t (2^64 - t)).
  assert (Hnn : 0 <= w) by (apply Z.lor_nonneg; lia).
  assert (Hlt : w < 2^64).
  { destruct (Z.eq_dec w 0) as [E0|E0]; [rewrite E0; lia|].
    apply Z.log2_lt_pow2; [lia|]. unfold w. rewrite Z.log2_lor by lia.
    apply Z.max_lub_lt; apply Z.log2_lt_pow2; lia. }
  split; [|exact Hlt]. apply Z.leb_le. rewrite <- bit63 by lia.
  unfold w. rewrite Z.lor_spec, !bit63 by lia.
  destruct (Z.leb_spec (2^63) t), (Z.leb_spec (2^63) (2^64 - t)); try reflexivity; lia.
Qed.

Theorem f64_eq_spec a b : 0 <= a < 2^64 -> 0 <= b < 2^64 -> f64_eq a b = (a =? b).
Proof.
  intros Ha Hb. unfold f64_eq, f64_equals.
  set (t := Z.lxor a b).
  assert (Ht : 0 <= t < 2^64).
  { unfold t. split; [apply Z.lxor_nonneg; lia|].
    destruct (Z.eq_dec (Z.lxor a b) 0) as [E0|E0]; [rewrite E0; lia|].
    assert (0 <= Z.lxor a b) by (apply Z.lxor_nonneg; lia).
    apply Z.log2_lt_pow2; [lia|].
    eapply Z.le_lt_trans; [apply Z.log2_lxor; lia|].
    destruct (Z.eq_dec a 0) as [->|]; destruct (Z.eq_dec b 0) as [->|]; cbn; try lia;
      apply Z.max_lub_lt; try (apply Z.log2_lt_pow2; lia); cbn; lia. }
  destruct (Z.eqb_spec a b) as [E|E].
  - subst b. unfold t. rewrite Z.lxor_nilpotent. reflexivity.
  - assert (Hnz : t <> 0) by (unfold t; intros H0; apply Z.lxor_eq in H0; contradiction).
    pose proof (lor_neg_pos t ltac:(lia)) as Hl.
    set (w := Z.lor t (wrap 64 (- t))) in *.
    assert (Hsw : swrap 64 w = w - 2^64).
    { unfold swrap. replace (64 - 1) with 63 by reflexivity.
      rewrite (mod_eq (w + 2^63) (2^64) 1 (w - 2^63)) by lia. lia. }
    rewrite Hsw, sar63 by lia.
    destruct (Z.ltb_spec (w - 2^64) 0) as [_|]; [|lia].
    reflexivity.
Qed.
