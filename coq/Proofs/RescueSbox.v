(* C11 — S-box / inverse S-box of the Rescue hashers and the constant tables:
   the addition chains of apply_inv_sbox compute x^INV_ALPHA, ALPHA * INV_ALPHA = 1 mod (p - 1), hence (Fermat)
   inv_sbox (sbox x) = x = sbox (inv_sbox x) for every residue; INV_MDS * MDS = I; the permutation is the iterated
   textbook round. *)
From Coq Require Import Znumtheory Zpow_facts.
From VBase Require Import MachInt ZpOps.
From VModel Require Import RescueConsts Rescue.
From VProofs Require Import NumTheoryFermat NumTheoryPrime.
Open Scope Z_scope.

Lemma M64_is_P64 : M64 = P64. Proof. reflexivity. Qed.
Lemma M62_is_P62 : M62 = P62. Proof. reflexivity. Qed.
Lemma M64_prime : prime M64. Proof. rewrite M64_is_P64. exact P64_prime. Qed.
Lemma M62_prime : prime M62. Proof. rewrite M62_is_P62. exact P62_prime. Qed.

Section Pow.
  Variable p : Z.
  Hypothesis Hp : 1 < p.
  Variable x : Z.

  (* r is x^e reduced *)
  Definition ispow (r e : Z) : Prop := 0 <= e /\ r = x ^ e mod p.

  Lemma ispow_base : ispow (x mod p) 1.
  Proof. split; [lia|]. now rewrite Z.pow_1_r. Qed.

  Lemma ispow_mul r1 e1 r2 e2 : ispow r1 e1 -> ispow r2 e2 -> ispow (fmul p r1 r2) (e1 + e2).
  Proof.
    intros (H1 & ->) (H2 & ->). split; [lia|]. unfold fmul.
    rewrite <- Z.mul_mod by lia. now rewrite Z.pow_add_r by lia.
  Qed.
  Lemma ispow_mul_x r e : ispow r e -> ispow (fmul p r x) (e + 1).
  Proof.
    intros (H1 & ->). split; [lia|]. unfold fmul.
    rewrite Z.mul_mod_idemp_l by lia. rewrite Z.pow_add_r, Z.pow_1_r by lia. reflexivity.
  Qed.
  Lemma ispow_x_mul r e : ispow r e -> ispow (fmul p x r) (e + 1).
  Proof. intros H. unfold fmul. rewrite Z.mul_comm. apply ispow_mul_x. exact H. Qed.
  Lemma ispow_sq r e : ispow r e -> ispow (fsq p r) (2 * e).
  Proof. intros H. unfold fsq. replace (2 * e) with (e + e) by lia. apply ispow_mul; exact H. Qed.
  Lemma ispow_sq_x : ispow (fsq p x) 2.
  Proof. split; [lia|]. unfold fsq, fmul. f_equal. lia. Qed.
  Lemma ispow_sqn n : forall r e, ispow r e -> ispow (sqn p n r) (e * 2 ^ Z.of_nat n).
  Proof.
    induction n as [|n IH]; intros r e H.
    - cbn [sqn]. change (2 ^ Z.of_nat 0) with 1. now rewrite Z.mul_1_r.
    - cbn [sqn]. rewrite Nat2Z.inj_succ, Z.pow_succ_r by lia.
      replace (e * (2 * 2 ^ Z.of_nat n)) with ((2 * e) * 2 ^ Z.of_nat n) by lia.
      apply IH. apply ispow_sq. exact H.
  Qed.
  Lemma ispow_exp_acc n r1 e1 r2 e2 : ispow r1 e1 -> ispow r2 e2 ->
    ispow (exp_acc p n r1 r2) (e1 * 2 ^ Z.of_nat n + e2).
  Proof. intros H1 H2. unfold exp_acc. apply ispow_mul; [apply ispow_sqn; exact H1 | exact H2]. Qed.

  Lemma ispow_eq r e e' : ispow r e -> e = e' -> r = x ^ e' mod p.
  Proof. intros (_ & ->) <-. reflexivity. Qed.

  (* the addition chain of Rp64_256 / RpJive64_256 apply_inv_sbox computes x^10540996611094048183 *)
  Lemma inv_sbox64_pow : inv_sbox64 p x = x ^ 10540996611094048183 mod p.
  Proof.
    unfold inv_sbox64.
    pose proof ispow_sq_x as H1.
    pose proof (ispow_sq _ _ H1) as H2.
    pose proof (ispow_exp_acc 3 _ _ _ _ H2 H2) as H3.
    pose proof (ispow_exp_acc 6 _ _ _ _ H3 H3) as H4.
    pose proof (ispow_exp_acc 12 _ _ _ _ H4 H4) as H5.
    pose proof (ispow_exp_acc 6 _ _ _ _ H5 H3) as H6.
    pose proof (ispow_exp_acc 31 _ _ _ _ H6 H6) as H7.
    pose proof (ispow_sq _ _ (ispow_sq _ _ (ispow_mul _ _ _ _ (ispow_sq _ _ H7) H6))) as Ha.
    pose proof (ispow_mul_x _ _ (ispow_mul _ _ _ _ H1 H2)) as Hb.
    pose proof (ispow_mul _ _ _ _ Ha Hb) as H.
    cbv zeta. eapply ispow_eq; [exact H|]. vm_compute. reflexivity.
  Qed.

  (* the addition chain of Rp62_248 apply_inv_sbox computes x^3074416663688030891 *)
  Lemma inv_sbox62_pow : inv_sbox62 p x = x ^ 3074416663688030891 mod p.
  Proof.
    unfold inv_sbox62.
    pose proof ispow_sq_x as H1.
    pose proof (ispow_exp_acc 2 _ _ _ _ H1 H1) as H2.
    pose proof (ispow_exp_acc 4 _ _ _ _ H2 H2) as H4.
    pose proof (ispow_exp_acc 8 _ _ _ _ H4 H4) as H8.
    pose proof (ispow_exp_acc 7 _ _ _ _ H8 H2) as A1.
    pose proof (ispow_exp_acc 15 _ _ _ _ A1 H8) as A2.
    pose proof (ispow_exp_acc 16 _ _ _ _ A2 H8) as A3.
    pose proof (ispow_exp_acc 8 _ _ _ _ A3 H4) as A4.
    pose proof (ispow_x_mul _ _ A4) as H.
    cbv zeta. eapply ispow_eq; [exact H|]. vm_compute. reflexivity.
  Qed.

  Lemma exp7_pow : exp7 p x = x ^ 7 mod p.
  Proof.
    unfold exp7.
    pose proof ispow_sq_x as H2.
    pose proof (ispow_sq _ _ H2) as H4.
    pose proof (ispow_mul_x _ _ H2) as H3.
    pose proof (ispow_mul _ _ _ _ H3 H4) as H.
    cbv zeta. eapply ispow_eq; [exact H|]. reflexivity.
  Qed.
  Lemma cube_pow : cube p x = x ^ 3 mod p.
  Proof.
    unfold cube. pose proof (ispow_mul_x _ _ ispow_sq_x) as H.
    change (fmul p x x) with (fsq p x). eapply ispow_eq; [exact H|]. reflexivity.
  Qed.
End Pow.

(* x^(1 + k (p-1)) = x in Z/p (Fermat), for every residue including 0 *)
Lemma pow_fermat_cycle p x k : prime p -> 0 <= x < p -> 0 <= k -> x ^ (1 + k * (p - 1)) mod p = x.
Proof.
  intros Hp Hx Hk. assert (1 < p) by (apply prime_gt1; exact Hp).
  destruct (Z.eq_dec x 0) as [->|Hx0].
  - rewrite Z.pow_0_l by nia. apply Z.mod_0_l. lia.
  - rewrite Z.pow_add_r, Z.pow_1_r by nia.
    rewrite (Z.mul_comm k), Z.pow_mul_r by lia.
    rewrite <- Z.mul_mod_idemp_r by lia.
    rewrite Zpower_mod by lia.
    rewrite fermat_pm1 by (auto; rewrite Z.mod_small; lia).
    rewrite Z.pow_1_l by lia. rewrite Z.mod_1_l by lia.
    rewrite Z.mul_1_r. apply Z.mod_small. exact Hx.
Qed.

(* raising to a and then to b is the identity on the residues when a * b = 1 (mod p - 1) *)
Lemma pow_inverse p a b k x : prime p -> a * b = 1 + k * (p - 1) -> 0 <= a -> 0 <= b -> 0 <= k -> 0 <= x < p ->
  (x ^ a mod p) ^ b mod p = x.
Proof.
  intros Hp E Ha Hb Hk Hx. assert (1 < p) by (apply prime_gt1; exact Hp).
  rewrite <- Zpower_mod, <- Z.pow_mul_r, E by lia. apply pow_fermat_cycle; assumption.
Qed.

(* ALPHA * INV_ALPHA = 1 (mod p - 1) for the constants declared in the sources (used only by the crate's tests there) *)
Lemma alpha64_inverse : rp64_ALPHA * rp64_INV_ALPHA = 1 + 4 * (M64 - 1) /\ rp64_ALPHA = 7 /\
  rp64_INV_ALPHA = 10540996611094048183 /\ jive_ALPHA = 7 /\ jive_INV_ALPHA = 10540996611094048183.
Proof. vm_compute. repeat split; reflexivity. Qed.
Lemma alpha62_inverse : rp62_ALPHA * rp62_INV_ALPHA = 1 + 2 * (M62 - 1) /\ rp62_ALPHA = 3 /\ rp62_INV_ALPHA = 3074416663688030891.
Proof. vm_compute. repeat split; reflexivity. Qed.

Lemma M64_gt1 : 1 < M64. Proof. reflexivity. Qed.
Lemma M62_gt1 : 1 < M62. Proof. reflexivity. Qed.

(* inv_sbox_spec / sbox_inv_sbox: the two S-boxes are mutually inverse permutations of Z/p *)
Theorem inv_sbox_spec_64 : forall x, 0 <= x < M64 -> exp7 M64 (inv_sbox64 M64 x) = x.
Proof.
  intros x Hx. rewrite exp7_pow, inv_sbox64_pow by exact M64_gt1.
  apply (pow_inverse M64 _ _ 4); [exact M64_prime | reflexivity | lia | lia | lia | exact Hx].
Qed.
Theorem sbox_inv_sbox_64 : forall x, 0 <= x < M64 -> inv_sbox64 M64 (exp7 M64 x) = x.
Proof.
  intros x Hx. rewrite inv_sbox64_pow, exp7_pow by exact M64_gt1.
  apply (pow_inverse M64 _ _ 4); [exact M64_prime | reflexivity | lia | lia | lia | exact Hx].
Qed.
Theorem inv_sbox_spec_62 : forall x, 0 <= x < M62 -> cube M62 (inv_sbox62 M62 x) = x.
Proof.
  intros x Hx. rewrite cube_pow, inv_sbox62_pow by exact M62_gt1.
  apply (pow_inverse M62 _ _ 2); [exact M62_prime | reflexivity | lia | lia | lia | exact Hx].
Qed.
Theorem sbox_inv_sbox_62 : forall x, 0 <= x < M62 -> inv_sbox62 M62 (cube M62 x) = x.
Proof.
  intros x Hx. rewrite inv_sbox62_pow, cube_pow by exact M62_gt1.
  apply (pow_inverse M62 _ _ 2); [exact M62_prime | reflexivity | lia | lia | lia | exact Hx].
Qed.

(* ------------------------------------------------------------------------------------------------ constant tables *)
Definition col (j : nat) (m : list (list Z)) : list Z := map (fun r => nth j r 0) m.
Definition mat_mul (p : Z) (a b : list (list Z)) : list (list Z) :=
  map (fun r => map (fun j => dotZ r (col j b) mod p) (seq 0 (length b))) a.
Definition identity (n : nat) : list (list Z) := map (fun i => map (fun j => if Nat.eqb i j then 1 else 0) (seq 0 n)) (seq 0 n).

(* inv_mds_spec: INV_MDS * MDS = I (mod M) for the two hashers that publish INV_MDS *)
Theorem inv_mds_spec_rp64 : mat_mul M64 rp64_INV_MDS rp64_MDS = identity 12 /\ mat_mul M64 rp64_MDS rp64_INV_MDS = identity 12.
Proof. split; vm_compute; reflexivity. Qed.
Theorem inv_mds_spec_jive : mat_mul M64 jive_INV_MDS jive_MDS = identity 8 /\ mat_mul M64 jive_MDS jive_INV_MDS = identity 8.
Proof. split; vm_compute; reflexivity. Qed.

(* shapes and ranges of the tables: width x width matrices, 7 rounds of width constants, all entries canonical *)
Definition table_ok (p : Z) (rows width : nat) (t : list (list Z)) : bool :=
  Nat.eqb (length t) rows && forallb (fun r => Nat.eqb (length r) width && forallb (fun v => (0 <=? v) && (v <? p)) r) t.
Theorem tables_wellformed :
  table_ok M64 12 12 rp64_MDS = true /\ table_ok M64 12 12 rp64_INV_MDS = true /\ table_ok M64 7 12 rp64_ARK1 = true /\ table_ok M64 7 12 rp64_ARK2 = true /\
  table_ok M62 12 12 rp62_MDS = true /\ table_ok M62 7 12 rp62_ARK1 = true /\ table_ok M62 7 12 rp62_ARK2 = true /\
  table_ok M64 8 8 jive_MDS = true /\ table_ok M64 8 8 jive_INV_MDS = true /\ table_ok M64 7 8 jive_ARK1 = true /\ table_ok M64 7 8 jive_ARK2 = true.
Proof. vm_compute. repeat split; reflexivity. Qed.

Lemma table_ok_canon p rows width t : table_ok p rows width t = true ->
  Forall (Forall (fun c => 0 <= c < p)) t /\ Forall (fun r => length r = width) t /\ length t = rows.
Proof.
  unfold table_ok. intros H. apply andb_prop in H. destruct H as (Hl & Hf). apply Nat.eqb_eq in Hl.
  rewrite forallb_forall in Hf. repeat split; [| |exact Hl]; apply Forall_forall; intros r Hr; specialize (Hf r Hr);
    apply andb_prop in Hf; destruct Hf as (H1 & H2).
  - apply Forall_forall. intros c Hc. rewrite forallb_forall in H2. specialize (H2 c Hc).
    apply andb_prop in H2. destruct H2 as (A & B). apply Z.leb_le in A. apply Z.ltb_lt in B. lia.
  - apply Nat.eqb_eq. exact H1.
Qed.

(* the f64 MDS matrices are the circulant matrices of the first rows documented in mds_f64_12x12.rs / mds_f64_8x8.rs *)
Definition rot_right (k : nat) (l : list Z) : list Z := skipn (length l - k) l ++ firstn (length l - k) l.
Definition circulant (row : list Z) : list (list Z) := map (fun i => rot_right i row) (seq 0 (length row)).
Theorem mds_circulant :
  rp64_MDS = circulant [7; 23; 8; 26; 13; 10; 9; 7; 6; 22; 21; 8] /\ jive_MDS = circulant [23; 8; 13; 10; 7; 6; 21; 8].
Proof. split; vm_compute; reflexivity. Qed.

(* ------------------------------------------------------------------------------------------------ permutation_spec *)
(* the textbook Rescue-XLIX round: power S-box, MDS product, round constants, inverse power S-box, MDS product, constants *)
Definition textbook_round (p alpha inv_alpha : Z) (mds ark1 ark2 : list (list Z)) (s : list Z) (r : nat) : list Z :=
  let s := map (fun x => x ^ alpha mod p) s in
  let s := mat_vec p mds s in
  let s := add_constants p s (nth r ark1 []) in
  let s := map (fun x => x ^ inv_alpha mod p) s in
  let s := mat_vec p mds s in
  add_constants p s (nth r ark2 []).
Definition textbook_permutation p alpha inv_alpha mds ark1 ark2 (s : list Z) : list Z :=
  fold_left (textbook_round p alpha inv_alpha mds ark1 ark2) (seq 0 7) s.

Lemma round_eq p P alpha inv_alpha :
  (forall x, rp_sbox P x = x ^ alpha mod p) -> (forall x, rp_inv_sbox P x = x ^ inv_alpha mod p) ->
  forall s r, apply_round p P s r = textbook_round p alpha inv_alpha (rp_mds P) (rp_ark1 P) (rp_ark2 P) s r.
Proof.
  intros Hs Hi s r. unfold apply_round, textbook_round. cbv zeta.
  rewrite (map_ext _ _ Hs). rewrite (map_ext _ _ Hi). reflexivity.
Qed.

Lemma permutation_eq p P alpha inv_alpha :
  (forall x, rp_sbox P x = x ^ alpha mod p) -> (forall x, rp_inv_sbox P x = x ^ inv_alpha mod p) ->
  forall s, apply_permutation p P s = textbook_permutation p alpha inv_alpha (rp_mds P) (rp_ark1 P) (rp_ark2 P) s.
Proof.
  intros Hs Hi s. unfold apply_permutation, textbook_permutation.
  generalize (seq 0 7). intros l. revert s. induction l as [|r l IH]; intros s; [reflexivity|].
  cbn [fold_left]. rewrite (round_eq p P alpha inv_alpha Hs Hi). apply IH.
Qed.

Theorem permutation_spec_rp64 : forall s,
  rp64_permutation s = textbook_permutation M64 rp64_ALPHA rp64_INV_ALPHA rp64_MDS rp64_ARK1 rp64_ARK2 s.
Proof.
  intros s. unfold rp64_permutation.
  apply (permutation_eq M64 rp64_params 7 10540996611094048183); intros x; [apply exp7_pow | apply inv_sbox64_pow]; exact M64_gt1.
Qed.
Theorem permutation_spec_jive : forall s,
  jive_permutation s = textbook_permutation M64 jive_ALPHA jive_INV_ALPHA jive_MDS jive_ARK1 jive_ARK2 s.
Proof.
  intros s. unfold jive_permutation.
  apply (permutation_eq M64 jive_params 7 10540996611094048183); intros x; [apply exp7_pow | apply inv_sbox64_pow]; exact M64_gt1.
Qed.
Theorem permutation_spec_rp62 : forall s,
  rp62_permutation s = textbook_permutation M62 rp62_ALPHA rp62_INV_ALPHA rp62_MDS rp62_ARK1 rp62_ARK2 s.
Proof.
  intros s. unfold rp62_permutation.
  apply (permutation_eq M62 rp62_params 3 3074416663688030891); intros x; [apply cube_pow | apply inv_sbox62_pow]; exact M62_gt1.
Qed.
