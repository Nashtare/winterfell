(* C03 — ordering / binding-structure theorems about the event generator of Model/Integrity.v, for EVERY
   shape (induction over the number of FRI layers, of trace segments and of layers present in the proof). *)
From Coq Require Import List Arith Bool Lia.
From VModel Require Import Integrity.
From VProofs Require Import ListFacts IntegrityOrderBase.
Import ListNotations.

(* ------------------------------------------------------------------------------------------------
   Declarative vocabulary. *)

(* event e feeds component c into the coin *)
Definition absorbs (e : event) (c : comp) : Prop :=
  (exists t, e = Absorb t /\ In c (comps_of t)) \/ (e = DrawPositions /\ c = PowNonce).

(* c is fed into the coin by an event that no DrawPositions precedes: the query positions depend on it *)
Definition absorbed_pre (l : list event) (c : comp) : Prop :=
  exists l1 e l2, l = l1 ++ e :: l2 /\ absorbs e c /\ ~ In DrawPositions l1.

(* the rows of c are hashed into leaves, later authenticated against a commitment [root] which the positions depend on *)
Definition auth_bound (l : list event) (c : comp) : Prop :=
  exists n p root l1 l2 l3, l = l1 ++ HashLeaves c n :: l2 ++ AuthCheck c p root :: l3 /\ absorbed_pre l root.

Definition bound1 (l : list event) (c : comp) : Prop := absorbed_pre l c \/ auth_bound l c.

(* c is determined (CkRemainderCommit: up to a collision of hash_elements) by components that are bound *)
Definition cmp_bound (l : list event) (c : comp) : Prop :=
  exists k rhs, In (Compare k [c] rhs) l /\ injective_kind k = true /\ Forall (bound1 l) rhs.

Definition bound (l : list event) (c : comp) : Prop := bound1 l c \/ cmp_bound l c.

(* c takes part in the run at all *)
Definition consumed (l : list event) (c : comp) : Prop :=
  In (Use c) l \/ (exists r root, In (AuthCheck r c root) l) \/ (exists e, In e l /\ absorbs e c)
  \/ (exists k rhs, In (Compare k [c] rhs) l).

(* ------------------------------------------------------------------------------------------------
   Generic list facts. *)
Lemma in_split_first : forall (x : event) l, In x l -> exists l1 l2, l = l1 ++ x :: l2.
Proof. intros x l H. apply in_split in H. exact H. Qed.

(* commitments of a proof of shape s *)
Definition commitments (s : shape) : list comp :=
  [TraceRoot 0] ++ (if sh_aux s then [TraceRoot 1] else []) ++ [ConstraintRoot]
  ++ fri_root_comps 0 (sh_layers s) ++ [RemainderRoot].

(* blobs of a proof of shape s *)
Fixpoint trace_blobs (i n : nat) : list blob :=
  match n with O => [] | S n' => BTraceValues i :: BTracePaths i :: trace_blobs (S i) n' end.
Fixpoint fri_blobs (i n : nat) : list blob :=
  match n with O => [] | S n' => BFriValues i :: BFriPaths i :: fri_blobs (S i) n' end.
Definition blobs (s : shape) : list blob :=
  [BProof; BCommitments] ++ trace_blobs 0 (segments s) ++ [BConstraintValues; BConstraintPaths; BOodTrace; BOodLagrange; BOodEvals]
  ++ fri_blobs 0 (length (sh_fri_rows s)) ++ [BRemainder].

(* ------------------------------------------------------------------------------------------------
   Helpers. *)
Lemma seg_lt0 : forall s, 0 < segments s.
Proof. intro s. unfold segments. destruct (sh_aux s); lia. Qed.

Lemma seg_lt1 : forall s, sh_aux s = true -> 1 < segments s.
Proof. intros s H. unfold segments. rewrite H. lia. Qed.

Lemma seg_inv : forall s j, j < segments s -> j = 0 \/ (j = 1 /\ sh_aux s = true).
Proof. intros s j. unfold segments. destruct (sh_aux s); intro; [destruct j as [|[|j]]; auto; lia | left; lia]. Qed.

(* an absorbing event of the head makes the positions depend on what it absorbs *)
Lemma absorbed_pre_abs : forall v s t c, EvH v s (Absorb t) -> In c (comps_of t) -> absorbed_pre (events v s) c.
Proof.
  intros v s t c H Hc. apply head_in in H; [|intros k n; discriminate]. destruct (in_split _ _ H) as (l1 & l2 & E).
  exists l1, (Absorb t), (l2 ++ draw_phase ++ query_phase v s). split; [|split].
  - unfold events. rewrite E, <- app_assoc. reflexivity.
  - left. exists t. auto.
  - intro D. apply (no_DP_head v s). rewrite E. apply in_or_app. auto.
Qed.

Lemma absorbed_pre_raw : forall v s c, EvH v s (Absorb (Raw c)) -> absorbed_pre (events v s) c.
Proof. intros v s c H. apply (absorbed_pre_abs v s (Raw c)); [exact H | left; reflexivity]. Qed.

Lemma check_draw_phase : forall st q, st_drawn st = false ->
  check st (CheckPow :: DrawPositions :: q)
  = check (mkState (PowNonce :: st_absorbed st) (st_hashed st) (st_authed st) true) q.
Proof. intros st q H. rewrite !check_cons. simpl. rewrite H. reflexivity. Qed.

(* the generated run passes the checker *)
Theorem events_check : forall s, admissible current s = true -> check st0 (events current s) = true.
Proof.
  intros s Ha. unfold admissible in Ha. simpl in Ha. apply Nat.eqb_eq in Ha.
  unfold events. rewrite check_app.
  destruct (check_head_ok (head current s) st0) as [A B]. { apply head_all_ok. } { reflexivity. }
  rewrite A. rewrite andb_true_l.
  change (draw_phase ++ query_phase current s) with (CheckPow :: DrawPositions :: query_phase current s).
  assert (FA : forall c, EvH current s (Absorb (Raw c)) -> mem c (st_absorbed (run st0 (head current s))) = true).
  { intros c H. apply mem_In, (run_absorbed _ _ (Raw c)); [apply head_in; [exact H | intros k n; discriminate] | left; reflexivity]. }
  assert (FH : forall c n, EvH current s (HashLeaves c n) -> mem c (st_hashed (run st0 (head current s))) = true).
  { intros c n H. apply mem_In, (run_hashed _ _ c n), head_in; [exact H | intros k m; discriminate]. }
  remember (run st0 (head current s)) as st1.
  rewrite check_draw_phase by exact B. apply check_query.
  split; [reflexivity|]. unfold facts; simpl.
  repeat split; intros; first [ apply FA; constructor; auto | eapply FH; constructor; auto using seg_lt0, seg_lt1; lia ].
Qed.

(* every commitment carried by the proof is absorbed before the positions are drawn *)
Theorem every_commitment_absorbed : forall s c, In c (commitments s) -> absorbed_pre (events current s) c.
Proof.
  intros s c H. unfold commitments in H. rewrite fri_root_comps_flat, !in_app_iff, in_flat_map_seq in H. simpl in H.
  destruct H as [[H|[]]|[H|[[H|[]]|[(j & Hj & [H|[]])|[H|[]]]]]]; try subst c.
  - apply absorbed_pre_raw. constructor.
  - destruct (sh_aux s) eqn:E; simpl in H; [|tauto]. destruct H as [H|[]]. subst c.
    apply absorbed_pre_raw. constructor. exact E.
  - apply absorbed_pre_raw. constructor.
  - apply absorbed_pre_raw. constructor. exact Hj.
  - apply absorbed_pre_raw. constructor.
Qed.

(* absorbs happen only before the positions are drawn, authentication only after and against an absorbed
   root; the positions are drawn exactly once *)
Theorem commitments_before_positions : forall s pre post e, events current s = pre ++ e :: post ->
  (forall t, e = Absorb t -> ~ In DrawPositions pre) /\
  (forall r p root, e = AuthCheck r p root -> In DrawPositions pre /\ absorbed_pre (events current s) root) /\
  (e = DrawPositions -> ~ In DrawPositions pre /\ ~ In DrawPositions post).
Proof.
  intros s pre post e H. apply events_split in H.
  destruct H as [(r & Hh)|[(-> & ->)|[(-> & -> & ->)|(r & -> & Hq)]]].
  - assert (Hn : ~ In DrawPositions pre).
    { intro D. apply (no_DP_head current s). rewrite Hh. apply in_or_app. auto. }
    assert (He : EvH current s e). { apply in_head. rewrite Hh. apply in_elt. }
    split; [auto|split].
    + intros r0 p root ->. inversion He.
    + intros ->. inversion He.
  - split; [|split]; intros; discriminate.
  - split; [|split]; try (intros; discriminate). intros _. split.
    + intro D. apply in_app_or in D. destruct D as [D|[D|[]]]; [|discriminate]. exact (no_DP_head _ _ D).
    + apply no_DP_query.
  - assert (He : EvQ current s e). { apply in_query. rewrite Hq. apply in_elt. }
    split; [|split].
    + intros t ->. inversion He.
    + intros r0 p root ->. split.
      * apply in_or_app. right. simpl. auto.
      * inversion He; subst; apply absorbed_pre_raw; constructor; auto.
    + intros ->. inversion He.
Qed.

(* ------------------------------------------------------------------------------------------------
   Binding of what is used. *)
Lemma auth_bound_ev : forall v s c n p root,
  EvH v s (HashLeaves c n) -> EvQ v s (AuthCheck c p root) -> EvH v s (Absorb (Raw root)) ->
  auth_bound (events v s) c.
Proof.
  intros v s c n p root H1 H2 H3.
  apply head_in in H1; [|intros; discriminate]. apply query_in in H2. apply absorbed_pre_raw in H3.
  destruct (in_split _ _ H1) as (a & b & E1). destruct (in_split _ _ H2) as (c' & d & E2).
  exists n, p, root, a, (b ++ draw_phase ++ c'), d. split; auto.
  unfold events. rewrite E1, E2. repeat rewrite <- app_assoc. simpl. reflexivity.
Qed.

(* everything the verifier's arithmetic consumes (layout metadata apart) is bound *)
Theorem every_component_bound : forall s c, admissible current s = true ->
  In (Use c) (events current s) -> layout_only c = false -> bound (events current s) c.
Proof.
  intros s c Ha Hu Hl. unfold admissible in Ha. simpl in Ha. apply Nat.eqb_eq in Ha.
  assert (TR0 : auth_bound (events current s) (TraceRows 0)).
  { eapply auth_bound_ev; [apply H_HTR; apply seg_lt0 | apply Q_AT0 | constructor]. }
  apply in_events in Hu. destruct Hu as [H|[H|[H|H]]]; try discriminate; inversion H; subst.
  - (* Context *) left; left. apply (absorbed_pre_abs _ _ (SeedOf [Context; PubInputs])); [constructor | simpl; auto].
  - (* NumQueries *) right. exists CkLen, [TraceRows 0]. split; [|split].
    + apply events_head_in, head_in; [constructor | intros; discriminate].
    + reflexivity.
    + constructor; [right; exact TR0 | constructor].
  - (* OodTrace *) left; left. apply (absorbed_pre_abs _ _ (HashOf ood_frame)); [constructor | simpl; auto].
  - (* OodEvals *) left; left. apply (absorbed_pre_abs _ _ (HashOf [OodEvals])); [constructor | simpl; auto].
  - left; right. exact TR0.
  - left; right. eapply auth_bound_ev; [apply H_HTR; apply seg_lt1; assumption | apply Q_AT1; assumption | constructor; assumption].
  - left; left. apply (absorbed_pre_abs _ _ (HashOf ood_frame)); [constructor | simpl; auto].
  - left; right. eapply auth_bound_ev; [apply H_HCR | apply Q_AC | constructor].
  - left; left. apply (absorbed_pre_abs _ _ (HashOf [OodEvals])); [constructor | simpl; auto].
  - simpl in Hl. discriminate.
  - left; right. eapply auth_bound_ev; [apply H_HFR; lia | apply Q_AF; assumption | constructor; assumption].
  - (* Remainder *) right. exists CkRemainderCommit, [RemainderRoot]. split; [|split].
    + apply events_query_in, query_in. constructor. reflexivity.
    + reflexivity.
    + constructor; [left; apply absorbed_pre_raw; constructor | constructor].
Qed.

(* ------------------------------------------------------------------------------------------------
   Order inside the query phase. *)
Ltac prec := first [ apply precedes_here; discriminate | apply precedes_cons; [discriminate | prec] ].

Lemma precedes_fri_layers : forall s j n i,
  precedes (AuthCheck (FriRows j) (FriPaths j) (FriRoot j)) (Use (FriRows j)) (fri_layers s i n).
Proof.
  intros s j; induction n as [|n IH]; intro i.
  - apply precedes_absent. simpl. tauto.
  - change (fri_layers s i (S n)) with (fri_layer s i ++ fri_layers s (S i) n).
    destruct (Nat.eq_dec i j) as [->|N].
    + apply precedes_left; [unfold fri_layer; simpl; auto | unfold fri_layer; prec].
    + apply precedes_skip; [|apply IH].
      unfold fri_layer; simpl. intros [H|[H|[H|[H|[]]]]]; try discriminate. injection H; auto.
Qed.

Lemma head_no_qd_use : forall v s c, query_data c = true -> ~ In (Use c) (head v s).
Proof. intros v s c Hq H. apply in_head in H. inversion H; subst; discriminate. Qed.

Lemma precedes_events_q : forall a b v s, ~ In b (head v s) -> b <> CheckPow -> b <> DrawPositions ->
  precedes a b (query_phase v s) -> precedes a b (events v s).
Proof.
  intros a b v s H1 H2 H3 H4. unfold events. apply precedes_skip; auto.
  unfold draw_phase. simpl. apply precedes_cons; auto. apply precedes_cons; auto.
Qed.

Lemma precedes_DP : forall b v s, ~ In b (head v s) -> b <> CheckPow -> b <> DrawPositions ->
  precedes DrawPositions b (events v s).
Proof.
  intros b v s H1 H2 H3. unfold events. apply precedes_skip; auto.
  unfold draw_phase. simpl. apply precedes_cons; auto. apply precedes_here; auto.
Qed.

Lemma no_use_fixed_fri : forall s j, ~ In (Use (FriRows j)) (query_fixed s).
Proof. intros s j. unfold query_fixed, auth_trace. destruct (sh_aux s); simpl; intuition discriminate. Qed.

Lemma no_use_fixed_rem : forall s, ~ In (Use Remainder) (query_fixed s).
Proof. intros s. unfold query_fixed, auth_trace. destruct (sh_aux s); simpl; intuition discriminate. Qed.

Lemma no_use_fri_rem : forall s i n, ~ In (Use Remainder) (fri_layers s i n).
Proof. intros s i n H. rewrite fri_layers_flat in H. brk; discriminate. Qed.

Lemma remainder_precedes_q : forall s,
  precedes (Compare CkRemainderCommit [Remainder] [RemainderRoot]) (Use Remainder) (query_phase current s).
Proof.
  intro s. rewrite query_phase_eq. apply precedes_skip; [apply no_use_fixed_rem|].
  apply precedes_skip; [apply no_use_fri_rem|]. unfold remainder_phase. simpl. prec.
Qed.

Lemma auth_precedes_use_q : forall s c p r, EvQ current s (AuthCheck c p r) ->
  precedes (AuthCheck c p r) (Use c) (query_phase current s).
Proof.
  intros s c p r H. rewrite query_phase_eq. inversion H; subst.
  - apply precedes_left; [unfold query_fixed, auth_trace; simpl; auto | unfold query_fixed, auth_trace; simpl; prec].
  - apply precedes_left; unfold query_fixed, auth_trace; rewrite H1; simpl; [auto | prec].
  - apply precedes_left; unfold query_fixed, auth_trace; destruct (sh_aux s); simpl; [auto | auto | prec | prec].
  - apply precedes_skip; [apply no_use_fixed_fri|]. apply precedes_left; [|apply precedes_fri_layers].
    rewrite fri_layers_flat. apply in_flat_map_seq. exists j. simpl. auto.
Qed.

(* data opened at the query positions is consumed only after the positions are drawn and after it has been
   authenticated (rows) or compared with its commitment (remainder) *)
Theorem query_data_used_after_auth : forall s pre post c, admissible current s = true ->
  events current s = pre ++ Use c :: post -> query_data c = true ->
  In DrawPositions pre /\
  ((exists p r, In (AuthCheck c p r) pre) \/ (exists r, In (Compare CkRemainderCommit [c] [r]) pre)).
Proof.
  intros s pre post c _ E Hq.
  assert (Hh := head_no_qd_use current s c Hq).
  split.
  - eapply (precedes_DP (Use c)); eauto; discriminate.
  - assert (Hu : In (Use c) (events current s)). { rewrite E. apply in_elt. }
    apply in_events in Hu. destruct Hu as [H|[H|[H|H]]]; try discriminate.
    { exfalso. apply Hh. apply head_in; auto. intros; discriminate. }
    assert (A : forall p r, EvQ current s (AuthCheck c p r) -> In (AuthCheck c p r) pre).
    { intros p r Ha. eapply (precedes_events_q (AuthCheck c p r) (Use c)); eauto; try discriminate.
      apply auth_precedes_use_q. exact Ha. }
    inversion H; subst; try discriminate.
    + left. do 2 eexists. apply A. apply Q_AT0.
    + left. do 2 eexists. apply A. apply Q_AT1. assumption.
    + left. do 2 eexists. apply A. apply Q_AC.
    + left. do 2 eexists. apply A. apply Q_AF. assumption.
    + right. exists RemainderRoot.
      eapply (precedes_events_q _ (Use Remainder)); eauto; try discriminate. apply remainder_precedes_q.
Qed.

(* the remainder is hashed and compared with the absorbed remainder commitment before it is used *)
Theorem remainder_bound : forall s, exists pre post,
  events current s = pre ++ Compare CkRemainderCommit [Remainder] [RemainderRoot] :: post /\
  In (HashWhole [Remainder]) pre /\ In DrawPositions pre /\ absorbed_pre (events current s) RemainderRoot /\
  (forall pre' post', events current s = pre' ++ Use Remainder :: post' ->
     In (Compare CkRemainderCommit [Remainder] [RemainderRoot]) pre').
Proof.
  intro s.
  exists (head current s ++ draw_phase ++ query_fixed s ++ fri_layers s 0 (sh_layers s) ++ [HashWhole [Remainder]]),
         [Use Remainder; Compare CkRemainderEval [Remainder] (fold_sources s (sh_layers s))].
  split; [|split; [|split; [|split]]].
  - unfold events. rewrite query_phase_eq. repeat rewrite <- app_assoc. reflexivity.
  - rewrite !in_app_iff. simpl. tauto.
  - rewrite !in_app_iff. unfold draw_phase. simpl. tauto.
  - apply absorbed_pre_raw. constructor.
  - intros pre' post' E.
    eapply (precedes_events_q _ (Use Remainder)); eauto; try discriminate.
    + apply head_no_qd_use. reflexivity.
    + apply remainder_precedes_q.
Qed.

(* ------------------------------------------------------------------------------------------------
   What is NOT bound / NOT consumed. *)
Lemma not_bound : forall l c, c <> PowNonce ->
  (forall t, In (Absorb t) l -> ~ In c (comps_of t)) ->
  (forall n, ~ In (HashLeaves c n) l) ->
  (forall k rhs, In (Compare k [c] rhs) l -> injective_kind k = false) ->
  ~ bound l c.
Proof.
  intros l c N A B C [[H|H]|H].
  - destruct H as (l1 & e & l2 & -> & [(t & -> & Ht)|(-> & ->)] & _).
    + apply (A t); [apply in_elt | auto].
    + congruence.
  - destruct H as (n & p & root & l1 & l2 & l3 & -> & _). apply (B n). apply in_elt.
  - destruct H as (k & rhs & Hin & Hk & _). rewrite (C k rhs Hin) in Hk. discriminate.
Qed.

Ltac cls H :=
  apply in_events in H; destruct H as [H|[H|[H|H]]]; try discriminate; inversion H; subst; simpl in *.

(* without the remainder-commitment check the remainder is used but bound by nothing *)
Theorem remainder_unbound_without_check : forall v s, v_remainder_check v = false ->
  In (Use Remainder) (events v s) /\ ~ bound (events v s) Remainder.
Proof.
  intros v s Hv. split.
  - apply events_query_in, query_in. constructor.
  - apply not_bound.
    + discriminate.
    + intros t Ht Hc. cls Ht; intuition discriminate.
    + intros n Hn. cls Hn.
    + intros k rhs Hc. cls Hc; try reflexivity; congruence.
Qed.

(* of what the arithmetic consumes, exactly the layout-only metadata is unbound *)
Theorem layout_metadata_excluded : forall s c, admissible current s = true -> In (Use c) (events current s) ->
  (bound (events current s) c <-> layout_only c = false).
Proof.
  intros s c Ha Hu. split.
  - intros Hb. destruct (layout_only c) eqn:E; auto. exfalso. destruct c; try discriminate.
    revert Hb. apply not_bound.
    + discriminate.
    + intros t Ht Hc. cls Ht; intuition discriminate.
    + intros n Hn. cls Hn.
    + intros k rhs Hc. cls Hc; reflexivity.
  - apply every_component_bound; auto.
Qed.

Lemma in_decode : forall e v s, In e (decode_events ++ events v s) <-> e = Parse BProof false \/ In e (events v s).
Proof.
  intros e v s. change (decode_events ++ events v s) with (Parse BProof false :: events v s).
  split; intros [H|H]; [left; symmetry; exact H | right; exact H | left; symmetry; exact H | right; exact H].
Qed.

(* trailing bytes: only the outermost container tolerates them (and OodFrame's Lagrange block before the repair) *)
Theorem trailing_bytes_policy : forall s b, In (Parse b false) (decode_events ++ events current s) <-> b = BProof.
Proof.
  intros s b. split.
  - rewrite in_decode. intros [H|H]; [injection H; auto|]. cls H; discriminate.
  - intros ->. rewrite in_decode. auto.
Qed.

Theorem trailing_bytes_policy_unrepaired : forall s b,
  In (Parse b false) (decode_events ++ events unrepaired s) <-> b = BProof \/ b = BOodLagrange.
Proof.
  intros s b. split.
  - rewrite in_decode. intros [H|H]; [injection H; auto|]. cls H; auto; discriminate.
  - rewrite in_decode. intros [->| ->]; auto. right. apply events_head_in, head_in; [|intros; discriminate].
    apply (H_PLag unrepaired s).
Qed.

Lemma trace_blobs_flat : forall n i, trace_blobs i n = flat_map (fun j => [BTraceValues j; BTracePaths j]) (seq i n).
Proof. induction n as [|n IH]; intro i; simpl; rewrite ?IH; reflexivity. Qed.

Lemma fri_blobs_flat : forall n i, fri_blobs i n = flat_map (fun j => [BFriValues j; BFriPaths j]) (seq i n).
Proof. induction n as [|n IH]; intro i; simpl; rewrite ?IH; reflexivity. Qed.

(* every byte container of the proof is parsed, and nothing else is *)
Theorem every_blob_parsed : forall v s b, In b (blobs s) <-> exists x, In (Parse b x) (decode_events ++ events v s).
Proof.
  intros v s b. split.
  - unfold blobs. rewrite trace_blobs_flat, fri_blobs_flat, !in_app_iff, !in_flat_map_seq. simpl. intro H.
    brk; subst; try (exists false; apply in_decode; left; reflexivity);
      (eexists; apply in_decode; right; apply events_head_in, head_in; [constructor; auto | intros; discriminate]).
  - intros (x & H). apply in_decode in H. destruct H as [H|H].
    + injection H; intros; subst. unfold blobs. simpl. auto.
    + unfold blobs. rewrite trace_blobs_flat, fri_blobs_flat, !in_app_iff, !in_flat_map_seq. cls H; eauto 20.
Qed.

(* ------------------------------------------------------------------------------------------------
   Consumption of the decoded content. *)
Ltac in_ev :=
  first [ apply events_head_in, head_in;
            [ constructor; solve [auto using seg_lt0, seg_lt1 | lia | reflexivity] | intros; discriminate ]
        | apply events_query_in, query_in; constructor; solve [auto | lia | reflexivity] ].

Ltac cons_abs t :=
  right; right; left; exists (Absorb t); split; [in_ev | left; exists t; split; [reflexivity | simpl; auto]].

Ltac cons_any :=
  first [ left; in_ev
        | right; left; do 2 eexists; in_ev
        | match goal with |- consumed _ ?c => cons_abs (Raw c) end
        | right; right; right; do 2 eexists; in_ev ].

(* every component of an accepted proof (layout metadata apart) takes part in the run *)
Theorem no_component_ignored : forall s c, admissible current s = true ->
  In c (proof_components s) -> layout_only c = false -> consumed (events current s) c.
Proof.
  intros s c Ha Hin Hl. unfold admissible in Ha. simpl in Ha. apply Nat.eqb_eq in Ha.
  unfold proof_components in Hin. rewrite fri_root_comps_flat, fri_layer_comps_flat, !in_app_iff, !in_flat_map_seq in Hin.
  simpl in Hin. brk; subst; try discriminate; try cons_any.
  - (* OodLagrange *) cons_abs (HashOf ood_frame).
  - (* PowNonce *) right; right; left. exists DrawPositions. split; [apply events_DP_in | right; auto].
Qed.

Ltac fold_src_contra :=
  match goal with
  | H : fold_sources ?s ?j = _ |- _ =>
      destruct j; unfold fold_sources, deep_sources in H; try destruct (sh_aux s); discriminate
  end.

(* without the layer-count check a proof can carry FRI layers that nothing looks at *)
Theorem surplus_layers_ignored_without_check : forall v, v_layer_count_check v = false ->
  exists s c, admissible v s = true /\ In c (proof_components s) /\ layout_only c = false /\ ~ consumed (events v s) c.
Proof.
  intros v Hv. exists (mkShape false 0 0 0 0 [1] 0 0), (FriRows 0). split; [|split; [|split]].
  - unfold admissible. rewrite Hv. reflexivity.
  - simpl. auto 30.
  - reflexivity.
  - intros [H|[(r & root & H)|[(e & H & Ha)|(k & rhs & H)]]].
    + cls H; lia.
    + cls H.
    + destruct Ha as [(t & -> & Hc)|(-> & Hc)]; [|discriminate]. cls H; intuition discriminate.
    + cls H; lia.
Qed.

(* without the presence check the GKR proof field is ignored altogether *)
Theorem gkr_ignored_without_check : forall v s, v_gkr_check v = false -> ~ consumed (events v s) GkrProof.
Proof.
  intros v s Hv [H|[(r & root & H)|[(e & H & Ha)|(k & rhs & H)]]].
  - cls H.
  - cls H.
  - destruct Ha as [(t & -> & Hc)|(-> & Hc)]; [|discriminate]. cls H; intuition discriminate.
  - cls H; try congruence; fold_src_contra.
Qed.
