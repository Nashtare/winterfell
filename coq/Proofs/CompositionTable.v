(* C17 — the prover's evaluation table: the i-th value DefaultConstraintEvaluator::evaluate returns is the definition
   `comp_def` at x_i = offset * w_ce^i (property table_row_spec: evaluate_spec_aux, evaluate_spec_main), and the
   capstone composition_is_definition_partial, which still assumes the interpolation round trip and a coefficient list
   for comp_def.  Arbitrary field with FLaws, arbitrary sizes. *)
From Coq Require Import List Arith Bool Lia Ring Field ZArith.
From VBase Require Import FieldOps.
From VModel Require Import Composition.
From VProofs Require Import ListFacts CompositionBase CompositionIndex CompositionVerifier.
Import ListNotations.

Section Core.
Context {F : Type} (O : FOps F) (L : FLaws O).
Local Notation fz := (fzero O).
Local Notation peval := (peval O).
Variable n ceb : nat.
Variable offset : F.
Variable rou : nat -> F.
Local Notation ce_size := (ce_size n ceb).
Local Notation ce_x := (ce_x O n ceb offset rou).
(* `interp` stands for fft::interpolate_poly_with_offset over the ce coset.  The only fact needed about it is the round
   trip "interpolating the evaluations of a polynomial with |ce| coefficients over the ce coset returns that polynomial"
   (C09_interpolate_with_offset_spec; discharged in Proofs/CompositionFFT.v). *)
Variable interp : list F -> list F.

(* The capstone in its general form.  `ev` is what the evaluator returned: the values over the ce coset of a pointwise
   definition d.  "deg d < |ce domain|", in the only form that makes sense for a rational function: a coefficient list q
   with at most min(|ce|, num_cols * n) coefficients agrees with d wherever no divisor vanishes (`good`), in particular on
   the ce coset (this is where validity of the trace enters: CompositionValid.comp_def_is_poly, from C01's
   air_quotient_exists).  Then CompositionPoly::new
   succeeds (its assert: ce blowup >= 2) and the committed columns recombine to q, hence to d on `good`. *)
Lemma composition_core (ev : option (list F)) (d : F -> F) (good : F -> Prop) (q : list F) (num_cols : nat) :
  n <> 0 -> n < ce_size ->
  (forall p, length p = ce_size -> interp (map (fun i => peval p (ce_x i)) (seq 0 ce_size)) = p) ->
  ev = Some (map (fun i => d (ce_x i)) (seq 0 ce_size)) ->
  (forall z, good z -> peval q z = d z) -> (forall i, i < ce_size -> good (ce_x i)) ->
  length q <= ce_size -> length q <= num_cols * n ->
  exists evals cols,
    ev = Some evals
    /\ composition_poly_new n interp evals num_cols = Some cols
    /\ (forall z, recombine O n (cp_evaluate_at O cols z) z = peval q z)
    /\ (forall z, good z -> recombine O n (cp_evaluate_at O cols z) z = d z).
Proof.
  intros n_pos n_lt_ce Hrt Hev Hq Hgood Hl1 Hl2.
  destruct (composition_core_points O L n n_pos ce_size ce_x interp num_cols d good q n_lt_ce Hrt Hq Hgood Hl1 Hl2)
    as [cols Hcols].
  eexists. exists cols. split; [exact Hev | exact Hcols].
Qed.

(* the round trip follows from "interpolation returns a polynomial with the given evaluations" + uniqueness *)
Lemma roundtrip_from_unique :
  (forall evals, length evals = ce_size ->
     length (interp evals) = ce_size /\ forall i, i < ce_size -> peval (interp evals) (ce_x i) = nth i evals fz) ->
  (forall p1 p2, length p1 = ce_size -> length p2 = ce_size ->
     (forall i, i < ce_size -> peval p1 (ce_x i) = peval p2 (ce_x i)) -> p1 = p2) ->
  forall p, length p = ce_size -> interp (map (fun i => peval p (ce_x i)) (seq 0 ce_size)) = p.
Proof.
  intros interp_evals interp_unique p Hp.
  destruct (interp_evals (map (fun i => peval p (ce_x i)) (seq 0 ce_size))) as [Hil Hiv];
    [now rewrite map_length, seq_length|].
  apply interp_unique; [exact Hil | exact Hp|].
  intros i Hi. now rewrite (Hiv i Hi), nth_map_seq.
Qed.
End Core.

Section Table.
Context {F : Type} (O : FOps F) (L : FLaws O).
Add Field Ff : (FLaws_field_theory O L).

Local Notation fz := (fzero O).
Local Notation f1 := (fone O).
Local Infix "+f" := (fadd O) (at level 50, left associativity).
Local Infix "-f" := (fsub O) (at level 50, left associativity).
Local Infix "*f" := (fmul O) (at level 40, left associativity).
Local Infix "/f" := (fdiv O) (at level 40, left associativity).
Local Notation cpow := (cpow O).
Local Notation peval := (peval O).
Local Notation rsum := (rsum O).
Local Notation rprod := (rprod O).
Local Notation lincomb := (lincomb O).

(* no side condition: inv 0 = 0 (fl_inv_0), as batch_inversion does in get_inv_evaluation *)
Lemma finv_div a p : finv O (a /f p) = finv O a *f p.
Proof.
  destruct (FieldFacts.feq_dec O L a fz) as [->|Ha].
  - rewrite (fl_div_def O L). replace (fz *f finv O p) with fz by ring. rewrite (fl_inv_0 O L). ring.
  - destruct (FieldFacts.feq_dec O L p fz) as [->|Hp].
    + rewrite (fl_div_def O L), (fl_inv_0 O L). replace (a *f fz) with fz by ring. rewrite (fl_inv_0 O L). ring.
    + field. split; assumption.
Qed.

Lemma rsum_filter3 {A} (h : A -> F) (p1 p2 p3 : A -> bool) : forall l,
  (forall x, In x l -> (p1 x = true /\ p2 x = false /\ p3 x = false) \/ (p1 x = false /\ p2 x = true /\ p3 x = false)
                       \/ (p1 x = false /\ p2 x = false /\ p3 x = true)) ->
  rsum (map h (filter p1 l)) +f rsum (map h (filter p2 l)) +f rsum (map h (filter p3 l)) = rsum (map h l).
Proof.
  induction l as [|a l IH]; intros H; simpl; [ring|].
  assert (IH' := IH (fun x Hx => H x (or_intror Hx))).
  destruct (H a (or_introl eq_refl)) as [[-> [-> ->]]|[[-> [-> ->]]|[-> [-> ->]]]]; simpl; rewrite <- IH'; ring.
Qed.

(* ---------------------------------------------------------------- the setting *)
Variable n ceb ldeb r : nat.
Variable offset : F.
Variable rou : nat -> F.
Variable wlde ginv : F.
Hypothesis n_pos : n <> 0.
Hypothesis ceb_pos : ceb <> 0.
Hypothesis r_pos : r <> 0.
Hypothesis ldeb_eq : ldeb = ceb * r.                        (* the ce blowup divides the LDE blowup *)
Local Notation ce_size := (ce_size n ceb).
Local Notation lde_size := (lde_size n ldeb).
Local Notation wce := (wce n ceb rou).
Local Notation gtrace := (gtrace n rou).
(* root-of-unity relations (get_root_of_unity): w_lde generates the LDE domain, w_lde^r = w_ce, w_lde^ldeb = g *)
Hypothesis wlde_order : cpow wlde lde_size = f1.
Hypothesis wlde_wce : cpow wlde r = wce.
Hypothesis wlde_g : cpow wlde ldeb = gtrace.
Hypothesis ginv_spec : ginv *f gtrace = f1.

Local Notation ce_x := (ce_x O n ceb offset rou).

Lemma setting : CeSetting O n ceb ldeb r rou wlde.
Proof. now constructor. Qed.

Variable num_main : nat.
Variable tmain : list F -> list F -> list F -> list F.
Variable taux : list F -> list F -> list F -> list F -> list F -> list F -> list F.
Variable ppolys : list (list F).
Variable exemptions : nat.
Variable tcoef : list F.
Variable main_groups aux_groups : list (@BGroup F).
Variable rands : list F.
Variable tpolys apolys : list (list F).
Variable lde_main lde_aux : list (list F).

Hypothesis tmain_len : forall cur nxt pv, length (tmain cur nxt pv) = num_main.
Hypothesis exemptions_le : exemptions <= n.

(* periodic columns: what Air::get_periodic_column_polys asserts *)
Local Notation max_size := (fold_left Nat.max (map (@length F) ppolys) 0).
Hypothesis poly_len_pos : forall p, In p ppolys -> length p <> 0.
Hypothesis poly_len_div_n : forall p, In p ppolys -> length p * (n / length p) = n.
Hypothesis poly_len_div_max : forall p, In p ppolys -> exists q, max_size = length p * q.
Hypothesis rou_compat : forall p, In p ppolys -> rou (length p * ceb) = cpow wce (n / length p).

(* boundary constraints: what BoundaryConstraint::new / ConstraintDivisor::from_assertion produce *)
Definition bc_ok (polys : list (list F)) (c : @BC F) : Prop :=
  bc_col c < length polys /\ length (bc_poly c) <> 0 /\ bc_xoff c = cpow ginv (bc_first c) /\ bc_first c < n
  /\ length (bc_poly c) * (ce_size / length (bc_poly c)) = ce_size.
Definition div_ok (d : @Div F) : Prop := dv_ex d = [] /\ dv_a d <> 0 /\ dv_a d * (ce_size / dv_a d) = ce_size.
Hypothesis main_ok : forall g, In g main_groups -> div_ok (bg_div g) /\ forall c, In c (bg_cs g) -> bc_ok tpolys c.
Hypothesis aux_ok : forall g, In g aux_groups -> div_ok (bg_div g) /\ forall c, In c (bg_cs g) -> bc_ok apolys c.

(* the trace LDE holds the trace polynomials evaluated over the LDE coset (C09: CompositionFFT.lde_rows_from_segments) *)
Definition lde_rows_of (lde polys : list (list F)) : Prop :=
  length lde = lde_size /\
  forall j, j < lde_size -> nth_error lde j = Some (map (fun T => peval T (cpow wlde j *f offset)) polys).
Hypothesis lde_main_ok : lde_rows_of lde_main tpolys.
Hypothesis lde_aux_ok : lde_rows_of lde_aux apolys.

Lemma read_frame_spec lde polys step : lde_rows_of lde polys -> step < ce_size ->
  read_frame ldeb lde (step * r)
  = Some (map (fun T => peval T (ce_x step)) polys, map (fun T => peval T (gtrace *f ce_x step)) polys).
Proof.
  intros [Hlen Hrows] Hstep. unfold read_frame. rewrite Hlen.
  pose proof (lde_size_pos O setting) as Hp.
  destruct lde_size eqn:E; [congruence|]. rewrite <- E in *.
  rewrite (Hrows (step * r)) by (rewrite (lde_size_eq O setting); nia).
  rewrite Hrows by (now apply Nat.mod_upper_bound).
  now rewrite (ce_x_lde O L setting), (ce_x_lde_next O L setting).
Qed.

(* periodic_row_spec, and the case of no periodic columns *)
Lemma ptable_spec : exists t, ptable_new O n ceb offset rou ppolys = Some t /\
  forall step, pt_get_row t step = Some (def_periodic O n ppolys (ce_x step)).
Proof.
  destruct ppolys as [|p0 pt] eqn:E.
  - eexists; split; [reflexivity|]. intros; reflexivity.
  - rewrite <- E in *.
    destruct (periodic_row_spec O L n ceb offset rou n_pos ceb_pos (wce_order O L setting) ppolys) as [t [Ht Hrow]]; try assumption.
    + rewrite E; discriminate.
    + exists t; split; [exact Ht|]. exact Hrow.
Qed.

(* ---------------------------------------------------------------- boundary groups *)
(* one constraint's contribution to its group's numerator *)
Definition bterm (polys : list (list F)) (x : F) (c : @BC F) : F :=
  bc_cc c *f bc_evaluate_at O c x (peval (nth (bc_col c) polys []) x).

(* A prover group before its constraints are sorted into the three representations: divisor, main constraints,
   auxiliary constraints.  `realize` sorts them; BoundaryConstraints::new's merge acts on AGs (pg_merge_realize), so it
   is reasoned about without the representations. *)
Definition AG : Type := (@Div F * list (@BC F) * list (@BC F))%type.
Definition realize (ag : AG) : @PGroup F :=
  match ag with
  | (d, m, a) =>
    mkPG d (map (single_new O) (filter is_single m)) (map small_new (filter is_small m))
         (map (large_new O n ceb offset rou) (filter is_large m))
         (map (single_new O) (filter is_single a)) (map small_new (filter is_small a))
         (map (large_new O n ceb offset rou) (filter is_large a))
  end.
Fixpoint ag_merge (ps : list AG) (g : @BGroup F) : list AG :=
  match ps with
  | [] => [(bg_div g, [], bg_cs g)]
  | (d, m, a) :: t => if div_eqb O d (bg_div g) then (d, m, a ++ bg_cs g) :: t else (d, m, a) :: ag_merge t g
  end.
Definition ags : list AG := fold_left ag_merge aux_groups (map (fun g => (bg_div g, bg_cs g, [])) main_groups).

Lemma pg_merge_realize : forall ps g,
  pg_merge O n ceb offset rou (map realize ps) g = map realize (ag_merge ps g).
Proof.
  induction ps as [|[[d m] a] t IH]; intros g; simpl.
  - reflexivity.
  - destruct (div_eqb O d (bg_div g)); simpl.
    + f_equal. unfold pg_add_aux. simpl. now rewrite !filter_app, !map_app.
    + f_equal. apply IH.
Qed.

Lemma prover_groups_realize : prover_groups O n ceb offset rou main_groups aux_groups = map realize ags.
Proof.
  unfold prover_groups, ags.
  assert (E : map (pg_from_main O n ceb offset rou) main_groups
              = map realize (map (fun g => (bg_div g, bg_cs g, [])) main_groups)).
  { rewrite map_map. apply map_ext. intros g. reflexivity. }
  rewrite E. generalize (map (fun g : BGroup => (bg_div g, bg_cs g, @nil (@BC F))) main_groups).
  assert (G : forall gs l, fold_left (pg_merge O n ceb offset rou) gs (map realize l) = map realize (fold_left ag_merge gs l)).
  { induction gs as [|g gs IH]; intros l; simpl; [reflexivity|]. rewrite pg_merge_realize. apply IH. }
  apply G.
Qed.

Lemma classes_exclusive (c : @BC F) :
  (is_single c = true /\ is_small c = false /\ is_large c = false)
  \/ (is_single c = false /\ is_small c = true /\ is_large c = false)
  \/ (is_single c = false /\ is_small c = false /\ is_large c = true).
Proof.
  unfold is_small, is_large. destruct (is_single c); simpl; [tauto|].
  destruct (length (bc_poly c) <? SMALL_POLY_DEGREE); simpl; tauto.
Qed.

(* the three loops over one segment's constraints (single, small, large) add every constraint's term exactly once *)
Lemma segment_loops polys cs step acc : step < ce_size ->
  (forall c, In c cs -> bc_ok polys c) ->
  let state := map (fun T => peval T (ce_x step)) polys in
  acc_opt O (fun c => large_eval O c state step) (map (large_new O n ceb offset rou) (filter is_large cs))
    (acc_opt O (fun c => small_eval O c state (ce_x step)) (map small_new (filter is_small cs))
       (acc_opt O (fun c => single_eval O c state) (map (single_new O) (filter is_single cs)) (Some acc)))
  = Some (acc +f rsum (map (bterm polys (ce_x step)) cs)).
Proof.
  intros Hstep Hok state.
  assert (Hrepr : forall c, In c cs ->
     small_eval O (small_new c) state (ce_x step) = Some (bterm polys (ce_x step) c)
     /\ large_eval O (large_new O n ceb offset rou c) state step = Some (bterm polys (ce_x step) c)
     /\ (length (bc_poly c) = 1 -> single_eval O (single_new O c) state = Some (bterm polys (ce_x step) c))).
  { intros c Hc. destruct (Hok c Hc) as [H1 [H2 [H3 [H4 H5]]]].
    apply (boundary_repr_equiv O L n ceb offset rou n_pos ceb_pos (wce_order O L setting) (gtrace_compat O L setting) ginv ginv_spec c state
             (peval (nth (bc_col c) polys []) (ce_x step))); try assumption.
    unfold state. rewrite nth_error_map, (nth_error_nth' polys [] H1). reflexivity. }
  rewrite !(acc_opt_map O).
  rewrite (acc_opt_some O L _ (bterm polys (ce_x step))).
  2:{ intros c Hc. apply filter_In in Hc. destruct Hc as [Hc Hs]. apply (proj2 (proj2 (Hrepr c Hc))).
      unfold is_single in Hs. now apply Nat.eqb_eq in Hs. }
  rewrite (acc_opt_some O L _ (bterm polys (ce_x step))).
  2:{ intros c Hc. apply filter_In in Hc. apply (proj1 (Hrepr c (proj1 Hc))). }
  rewrite (acc_opt_some O L _ (bterm polys (ce_x step))).
  2:{ intros c Hc. apply filter_In in Hc. apply (proj1 (proj2 (Hrepr c (proj1 Hc)))). }
  f_equal. rewrite <- (rsum_filter3 (bterm polys (ce_x step)) is_single is_small is_large cs).
  - ring.
  - intros c _. apply classes_exclusive.
Qed.

Definition ag_ok (ag : AG) : Prop :=
  match ag with (d, m, a) => div_ok d /\ (forall c, In c m -> bc_ok tpolys c) /\ (forall c, In c a -> bc_ok apolys c) end.
Definition ag_num (x : F) (ag : AG) : F :=
  match ag with (d, m, a) => rsum (map (bterm tpolys x) m) +f rsum (map (bterm apolys x) a) end.
Definition ag_div (ag : AG) : @Div F := match ag with (d, _, _) => d end.

Lemma pg_evaluate_all_spec ag step : step < ce_size -> ag_ok ag ->
  pg_evaluate_all O (realize ag) (def_cur O tpolys (ce_x step)) (def_acur O apolys (ce_x step)) step (ce_x step)
  = Some (ag_num (ce_x step) ag).
Proof.
  intros Hstep Hok. destruct ag as [[d m] a]. destruct Hok as [_ [Hm Ha]].
  unfold pg_evaluate_all, pg_evaluate_main, realize, def_cur, def_acur.
  cbn [pg_main_single pg_main_small pg_main_large pg_aux_single pg_aux_small pg_aux_large].
  rewrite (segment_loops tpolys m step fz Hstep Hm).
  rewrite (segment_loops apolys a step _ Hstep Ha).
  f_equal. unfold ag_num. ring.
Qed.

Lemma pg_evaluate_main_spec ag step : step < ce_size -> ag_ok ag ->
  pg_evaluate_main O (realize ag) (def_cur O tpolys (ce_x step)) step (ce_x step)
  = Some (rsum (map (bterm tpolys (ce_x step)) (snd (fst ag)))).
Proof.
  intros Hstep Hok. destruct ag as [[d m] a]. destruct Hok as [_ [Hm Ha]].
  unfold pg_evaluate_main, realize, def_cur. cbn [pg_main_single pg_main_small pg_main_large fst snd].
  rewrite (segment_loops tpolys m step fz Hstep Hm). f_equal. ring.
Qed.

(* merging preserves well-formedness, and (ag_merge_sum) the sum of the quotients: a group is merged into one whose
   divisor is div_eqb to its own, hence has the same factor 1 / (x^a - b) *)
Lemma ag_merge_ok : forall ps g, Forall ag_ok ps -> div_ok (bg_div g) -> (forall c, In c (bg_cs g) -> bc_ok apolys c) ->
  Forall ag_ok (ag_merge ps g).
Proof.
  induction ps as [|[[d m] a] t IH]; intros g Hps Hd Hc; simpl.
  - constructor; [|constructor]. simpl. split; [exact Hd|]. split; [intros c0 []| exact Hc].
  - inversion Hps as [|? ? Hh Ht]; subst. destruct (div_eqb O d (bg_div g)).
    + constructor; [|exact Ht]. destruct Hh as [H1 [H2 H3]]. split; [exact H1|]. split; [exact H2|].
      intros c0 Hin. apply in_app_or in Hin. destruct Hin; [now apply H3 | now apply Hc].
    + constructor; [exact Hh | now apply IH].
Qed.

Lemma ags_ok : Forall ag_ok ags.
Proof.
  unfold ags.
  assert (H0 : Forall ag_ok (map (fun g => (bg_div g, bg_cs g, [])) main_groups)).
  { apply Forall_forall. intros ag Hag. apply in_map_iff in Hag. destruct Hag as [g [<- Hg]].
    destruct (main_ok g Hg) as [Hd Hc]. simpl. split; [exact Hd|]. split; [exact Hc | intros c0 []]. }
  revert H0. generalize (map (fun g : BGroup => (bg_div g, bg_cs g, @nil (@BC F))) main_groups).
  assert (G : forall gs, (forall g, In g gs -> div_ok (bg_div g) /\ forall c, In c (bg_cs g) -> bc_ok apolys c) ->
              forall l, Forall ag_ok l -> Forall ag_ok (fold_left ag_merge gs l)).
  { induction gs as [|g gs IH]; intros Haux l Hl; simpl; [exact Hl|].
    apply IH; [intros g' Hg'; apply Haux; now right|].
    destruct (Haux g (or_introl eq_refl)) as [Hd Hc]. now apply ag_merge_ok. }
  apply G. exact aux_ok.
Qed.

(* the factor 1 / (x^a - b) of a boundary divisor *)
Definition dfac (x : F) (d : @Div F) : F := finv O (cpow x (dv_a d) -f dv_b d).

Lemma div_eqb_dfac d e x : div_eqb O d e = true -> dfac x d = dfac x e.
Proof.
  unfold div_eqb, dfac. intros H. apply andb_prop in H. destruct H as [H _].
  apply andb_prop in H. destruct H as [H _]. apply andb_prop in H. destruct H as [Ha Hb].
  apply Nat.eqb_eq in Ha. apply (fl_eqb_spec O L) in Hb. now rewrite Ha, Hb.
Qed.

Definition ags_sum (x : F) (l : list AG) : F := rsum (map (fun ag => ag_num x ag *f dfac x (ag_div ag)) l).

Lemma ag_merge_sum x : forall ps g,
  ags_sum x (ag_merge ps g) = ags_sum x ps +f rsum (map (bterm apolys x) (bg_cs g)) *f dfac x (bg_div g).
Proof.
  unfold ags_sum. induction ps as [|[[d m] a] t IH]; intros g; simpl.
  - ring.
  - destruct (div_eqb O d (bg_div g)) eqn:E; simpl.
    + rewrite map_app, (rsum_app O L), <- (div_eqb_dfac d (bg_div g) x E). ring.
    + rewrite IH. ring.
Qed.

Lemma ags_sum_spec x :
  ags_sum x ags = rsum (map (fun g => rsum (map (bterm tpolys x) (bg_cs g)) *f dfac x (bg_div g)) main_groups)
                  +f rsum (map (fun g => rsum (map (bterm apolys x) (bg_cs g)) *f dfac x (bg_div g)) aux_groups).
Proof.
  unfold ags.
  assert (H0 : ags_sum x (map (fun g => (bg_div g, bg_cs g, [])) main_groups)
               = rsum (map (fun g => rsum (map (bterm tpolys x) (bg_cs g)) *f dfac x (bg_div g)) main_groups)).
  { unfold ags_sum. rewrite map_map. apply (rsum_map_ext O). intros g _. simpl. ring. }
  rewrite <- H0. generalize (map (fun g : BGroup => (bg_div g, bg_cs g, @nil (@BC F))) main_groups).
  assert (G : forall gs l, ags_sum x (fold_left ag_merge gs l)
              = ags_sum x l +f rsum (map (fun g => rsum (map (bterm apolys x) (bg_cs g)) *f dfac x (bg_div g)) gs)).
  { induction gs as [|g gs IH]; intros l; simpl; [ring|]. rewrite IH, ag_merge_sum. ring. }
  apply G.
Qed.

Lemma def_group_bterm polys g x :
  def_group O polys g x = rsum (map (bterm polys x) (bg_cs g)) *f dfac x (bg_div g).
Proof.
  unfold def_group, dfac. rewrite (rsum_div O L), (fl_div_def O L). f_equal.
  apply (rsum_map_ext O). intros c _. unfold bterm, bc_evaluate_at. now rewrite (bc_value_def O L).
Qed.


(* ---------------------------------------------------------------- division by the divisors (acc_column) *)
Definition inv_evals (d : @Div F) : list F :=
  map (fun xa => finv O (xa -f dv_b d))
      (map (fun i => cpow (cpow wce i) (dv_a d) *f cpow offset (dv_a d)) (seq 0 (ce_size / dv_a d))).

Lemma get_inv_evaluation_spec d : dv_a d <> 0 -> get_inv_evaluation O n ceb offset rou d = Some (inv_evals d).
Proof.
  intros Ha. unfold get_inv_evaluation. destruct (dv_a d) eqn:E; [congruence|]. rewrite <- E.
  rewrite (mapM_some _ (fun i => cpow (cpow wce i) (dv_a d) *f cpow offset (dv_a d))).
  - reflexivity.
  - intros i _. apply (get_ce_x_power_at_spec O L n ceb rou n_pos ceb_pos (wce_order O L setting)).
Qed.

Lemma acc_factor_spec d i : i < ce_size -> dv_a d <> 0 -> dv_a d * (ce_size / dv_a d) = ce_size ->
  acc_factor O n ceb offset rou d (inv_evals d) i = Some (dfac (ce_x i) d *f div_exemptions_at O d (ce_x i)).
Proof.
  intros Hi Ha Hdiv. unfold acc_factor, inv_evals. rewrite !map_length, seq_length.
  set (m := ce_size / dv_a d) in *.
  assert (Hm : m <> 0) by (intros Hm0; rewrite Hm0 in Hdiv; pose proof (ce_size_pos n ceb n_pos ceb_pos); lia).
  destruct m eqn:Em; [congruence|]. rewrite <- Em in *.
  rewrite map_map, nth_error_map_seq by (now apply Nat.mod_upper_bound).
  rewrite <- (ce_x_pow O L), (ce_x_pow_mod O L n ceb offset rou n_pos ceb_pos (wce_order O L setting) _ _ _ Hdiv).
  fold (dfac (ce_x i) d). destruct (dv_ex d) eqn:Eex.
  - f_equal. unfold div_exemptions_at. rewrite Eex. simpl. ring.
  - now rewrite (get_ce_x_at_spec O L n ceb offset rou i Hi).
Qed.

Lemma combine_row_spec (fac : @Div F -> F) divs i row :
  (forall dz, In dz divs -> acc_factor O n ceb offset rou (fst dz) (snd dz) i = Some (fac (fst dz))) ->
  combine_row O n ceb offset rou divs i row
  = Some (rsum (map (fun vd => fst vd *f fac (fst (snd vd))) (combine row divs))).
Proof.
  intros H. unfold combine_row.
  rewrite (acc_opt_some O L _ (fun vd => fst vd *f fac (fst (snd vd)))).
  - f_equal. ring.
  - intros [v dz] Hin. apply in_combine_r in Hin. cbn [fst snd]. now rewrite (H dz Hin).
Qed.

(* ---------------------------------------------------------------- the whole table: evaluate_spec *)
Local Notation comp_def has_aux :=
  (comp_def O n rou tmain taux ppolys exemptions tcoef main_groups aux_groups rands has_aux tpolys apolys).

Lemma tdiv_ok : dv_a (tdiv O n rou exemptions) <> 0
  /\ dv_a (tdiv O n rou exemptions) * (ce_size / dv_a (tdiv O n rou exemptions)) = ce_size.
Proof.
  unfold tdiv, div_from_transition. cbn [dv_a]. split; [exact n_pos|].
  unfold Composition.ce_size. rewrite (Nat.mul_comm n ceb), Nat.div_mul by exact n_pos. lia.
Qed.

Lemma tdiv_factor x :
  dfac x (tdiv O n rou exemptions) *f div_exemptions_at O (tdiv O n rou exemptions) x
  = finv O (def_tdiv O n rou exemptions x).
Proof.
  unfold def_tdiv. rewrite finv_div. unfold dfac, tdiv, div_from_transition, div_exemptions_at. cbn [dv_a dv_b dv_ex].
  rewrite (fold_mul_rprod O L (fun e => x -f e)), map_map. ring.
Qed.

Lemma ag_factor x ag : ag_ok ag ->
  dfac x (ag_div ag) *f div_exemptions_at O (ag_div ag) x = dfac x (ag_div ag).
Proof.
  destruct ag as [[d m] a]. intros [[Hex _] _]. cbn [ag_div]. unfold div_exemptions_at. rewrite Hex. simpl. ring.
Qed.

(* The table once its rows are known: if, for a periodic table with the right rows, row i of the evaluation table is
   trans i :: [bval i ag | ag in ags], then the combined value at row i is
   trans i / def_tdiv(x_i) + sum_ag bval i ag / (x_i^a_ag - b_ag). *)
Lemma evaluate_rows_spec has_aux (trans : nat -> F) (bval : nat -> AG -> F) :
  (forall t, (forall step, pt_get_row t step = Some (def_periodic O n ppolys (ce_x step))) ->
   forall i, i < ce_size ->
     eval_row O n ceb ldeb offset rou num_main tmain taux tcoef rands has_aux lde_main lde_aux t (map realize ags) i
     = Some (trans i :: map (bval i) ags)) ->
  evaluate O n ceb ldeb offset rou num_main tmain taux ppolys exemptions tcoef main_groups aux_groups rands has_aux
           lde_main lde_aux (fun _ v => v)
  = Some (map (fun i => trans i *f finv O (def_tdiv O n rou exemptions (ce_x i))
                        +f rsum (map (fun ag => bval i ag *f dfac (ce_x i) (ag_div ag)) ags)) (seq 0 ce_size)).
Proof.
  intros Hrows. unfold evaluate. destruct ptable_spec as [t [Ht Hrow]]. rewrite Ht, prover_groups_realize.
  assert (Hdiv : forall d, In d (tdiv O n rou exemptions :: map (@pg_div F) (map realize ags)) ->
            dv_a d <> 0 /\ dv_a d * (ce_size / dv_a d) = ce_size).
  { intros d [<-|Hd]; [apply tdiv_ok|].
    rewrite map_map in Hd. apply in_map_iff in Hd. destruct Hd as [[[d' m] a] [<- Hin]].
    exact (proj2 (proj1 (proj1 (Forall_forall _ _) ags_ok _ Hin))). }
  rewrite (mapM_some _ (fun d => (d, inv_evals d))).
  2:{ intros d Hd. now rewrite get_inv_evaluation_spec by apply (Hdiv d Hd). }
  apply mapM_some. intros i Hi. apply in_seq in Hi. cbn [Nat.add] in Hi.
  rewrite (Hrows t Hrow i) by apply Hi.
  set (fac := fun d : @Div F => dfac (ce_x i) d *f div_exemptions_at O d (ce_x i)).
  rewrite (combine_row_spec fac).
  2:{ intros [d zs] Hin. apply in_map_iff in Hin. destruct Hin as [d' [E Hd]]. inversion E; subst d' zs. cbn [fst snd].
      apply acc_factor_spec; [apply Hi | apply (Hdiv d Hd) | apply (Hdiv d Hd)]. }
  f_equal. rewrite !map_map. cbn [map combine fst snd].
  rewrite (map_map (fun x : AG => pg_div (realize x))), combine_map_map, map_map. cbn [fst snd].
  change (rsum (?v :: ?l)) with (v +f rsum l).
  unfold fac at 1. rewrite tdiv_factor. f_equal.
  apply (rsum_map_ext O). intros ag Hag. unfold fac.
  replace (pg_div (realize ag)) with (ag_div ag) by (destruct ag as [[? ?] ?]; reflexivity).
  now rewrite (ag_factor _ ag (proj1 (Forall_forall _ _) ags_ok _ Hag)).
Qed.

(* property table_row_spec, the table's `combine` included: with an auxiliary segment (evaluate_fragment_full), the i-th
   value returned by DefaultConstraintEvaluator::evaluate is comp_def at x_i = w_ce^i * offset, for every
   i < |ce domain|; the Lagrange hook is the identity *)
Theorem evaluate_spec_aux :
  evaluate O n ceb ldeb offset rou num_main tmain taux ppolys exemptions tcoef main_groups aux_groups rands true
           lde_main lde_aux (fun _ v => v)
  = Some (map (fun i => comp_def true (ce_x i)) (seq 0 ce_size)).
Proof.
  rewrite (evaluate_rows_spec true
     (fun i => lincomb (tmain (def_cur O tpolys (ce_x i)) (def_nxt O n rou tpolys (ce_x i)) (def_periodic O n ppolys (ce_x i)))
                       (main_coef num_main tcoef)
               +f lincomb (taux (def_cur O tpolys (ce_x i)) (def_nxt O n rou tpolys (ce_x i)) (def_acur O apolys (ce_x i))
                                (def_anxt O n rou apolys (ce_x i)) (def_periodic O n ppolys (ce_x i)) rands)
                          (aux_coef num_main tcoef))
     (fun i => ag_num (ce_x i))).
  - f_equal. apply map_ext. intros i. unfold Composition.comp_def. f_equal.
    + unfold def_transition, def_constraints. rewrite (rsum_div O L), (fl_div_def O L). f_equal.
      rewrite combine_app_l, map_app, (rsum_app O L), tmain_len.
      fold (main_coef num_main tcoef). fold (aux_coef num_main tcoef).
      now rewrite <- !(lincomb_rsum O L).
    + fold (ags_sum (ce_x i) ags). rewrite ags_sum_spec. unfold def_boundary.
      f_equal; apply (rsum_map_ext O); intros g _; now rewrite def_group_bterm.
  - intros t Hrow i Hi. unfold eval_row. rewrite (ce_to_lde_blowup_eq O setting).
    rewrite (read_frame_spec lde_main tpolys i lde_main_ok Hi), (read_frame_spec lde_aux apolys i lde_aux_ok Hi).
    rewrite (get_ce_x_at_spec O L n ceb offset rou i Hi).
    unfold evaluate_main_transition, evaluate_aux_transition. rewrite Hrow, mapM_map.
    rewrite (mapM_some _ (ag_num (ce_x i))); [reflexivity|].
    intros ag Hag. apply (pg_evaluate_all_spec ag i Hi). exact (proj1 (Forall_forall _ _) ags_ok _ Hag).
Qed.

(* the same, row by row *)
Corollary table_row_spec_aux : forall evals i, i < ce_size ->
  evaluate O n ceb ldeb offset rou num_main tmain taux ppolys exemptions tcoef main_groups aux_groups rands true
           lde_main lde_aux (fun _ v => v) = Some evals ->
  nth_error evals i = Some (comp_def true (ce_x i)).
Proof.
  intros evals i Hi H. rewrite evaluate_spec_aux in H. injection H as <-.
  exact (nth_error_map_seq (fun i => comp_def true (ce_x i)) ce_size i Hi).
Qed.


(* ---------------------------------------------------------------- single-segment path (evaluate_fragment_main) *)
Section MainOnly.
Hypothesis aux_empty : aux_groups = [].        (* no auxiliary segment: get_boundary_constraints returns no aux groups *)

Lemma ags_main_only : ags = map (fun g => (bg_div g, bg_cs g, [])) main_groups.
Proof. unfold ags. rewrite aux_empty. reflexivity. Qed.

(* table_row_spec for the single-segment code path: evaluate_fragment_main reads only the main frame, merges the main
   transition constraints with the FIRST num_main coefficients and evaluates the boundary groups with evaluate_main *)
Theorem evaluate_spec_main :
  evaluate O n ceb ldeb offset rou num_main tmain taux ppolys exemptions tcoef main_groups aux_groups rands false
           lde_main lde_aux (fun _ v => v)
  = Some (map (fun i => comp_def false (ce_x i)) (seq 0 ce_size)).
Proof.
  rewrite (evaluate_rows_spec false
     (fun i => lincomb (tmain (def_cur O tpolys (ce_x i)) (def_nxt O n rou tpolys (ce_x i)) (def_periodic O n ppolys (ce_x i)))
                       (main_coef num_main tcoef))
     (fun i (ag : AG) => rsum (map (bterm tpolys (ce_x i)) (snd (fst ag))))).
  - f_equal. apply map_ext. intros i. unfold Composition.comp_def. f_equal.
    + unfold def_transition, def_constraints. rewrite app_nil_r, (rsum_div O L), (fl_div_def O L). f_equal.
      rewrite (combine_firstn_l (tmain _ _ _)), tmain_len. apply (lincomb_rsum O L).
    + unfold def_boundary. rewrite ags_main_only, map_map. cbn [fst snd ag_div].
      transitivity (rsum (map (fun g => def_group O tpolys g (ce_x i)) main_groups)); [|ring].
      apply (rsum_map_ext O). intros g _. now rewrite def_group_bterm.
  - intros t Hrow i Hi. unfold eval_row. rewrite (ce_to_lde_blowup_eq O setting).
    rewrite (read_frame_spec lde_main tpolys i lde_main_ok Hi), (get_ce_x_at_spec O L n ceb offset rou i Hi).
    unfold evaluate_main_transition. rewrite Hrow, mapM_map.
    rewrite (mapM_some _ (fun ag : AG => rsum (map (bterm tpolys (ce_x i)) (snd (fst ag))))); [reflexivity|].
    intros ag Hag. apply (pg_evaluate_main_spec ag i Hi). exact (proj1 (Forall_forall _ _) ags_ok _ Hag).
Qed.
End MainOnly.

(* ---------------------------------------------------------------- capstone *)
Section CapstoneAux.
Variable interp : list F -> list F.
Hypothesis interp_evals : forall evals, length evals = ce_size ->
  length (interp evals) = ce_size /\ forall i, i < ce_size -> peval (interp evals) (ce_x i) = nth i evals fz.
Hypothesis interp_unique : forall p1 p2, length p1 = ce_size -> length p2 = ce_size ->
  (forall i, i < ce_size -> peval p1 (ce_x i) = peval p2 (ce_x i)) -> p1 = p2.
Variable good : F -> Prop.
Variable q : list F.
Variable num_cols : nat.
Hypothesis q_is_def : forall z, good z -> peval q z = comp_def true z.
Hypothesis ce_good : forall i, i < ce_size -> good (ce_x i).
Hypothesis q_len_ce : length q <= ce_size.
Hypothesis q_len_cols : length q <= num_cols * n.
Hypothesis n_lt_ce : n < ce_size.

Theorem composition_is_definition_partial :
  exists evals cols,
    evaluate O n ceb ldeb offset rou num_main tmain taux ppolys exemptions tcoef main_groups aux_groups rands true
             lde_main lde_aux (fun _ v => v) = Some evals
    /\ composition_poly_new n interp evals num_cols = Some cols
    /\ (forall z, recombine O n (cp_evaluate_at O cols z) z = peval q z)
    /\ (forall z, good z -> recombine O n (cp_evaluate_at O cols z) z = comp_def true z).
Proof.
  exact (composition_core O L n ceb offset rou interp _ (comp_def true) good q num_cols n_pos n_lt_ce
           (roundtrip_from_unique O n ceb offset rou interp interp_evals interp_unique)
           evaluate_spec_aux q_is_def ce_good q_len_ce q_len_cols).
Qed.
End CapstoneAux.

End Table.
