(* C19 — the stored internal word of a drawn f62 / f128 element (composition with the C07 theorems about the
   generated Gen/F62.v, Gen/F128.v; f64 is draw_f64_internal_canonical in CoinProps.v).  stdlib style.
     f62 : try_from(&[u8]) / read_from store BaseElement::new(v): a word in [0, 2M) whose as_int is v.
     f128: they store BaseElement(v): the identity representation, v < M. *)
From VBase Require Import MachInt.
From VGen Require F62 F128.
From VModel Require Import ToyHash Coin.
From VProofs Require Import CoinProps.
From VProofs Require F62Ops F128Limbs F128Ops.
Open Scope Z_scope.

Section Fields.
  Variable D : Type.
  Variable merge_with_int : D -> Z -> D.
  Variable dbytes : D -> list Z.
  Hypothesis Hbytes : forall d, Forall (fun b => 0 <= b < 256) (dbytes d).

  Local Notation draw := (coin_draw D merge_with_int dbytes).

  Theorem draw_f62_internal deg c c' e : draw (fk_f62 deg) c = (c', Ok e) ->
    Forall (fun v => F62Ops.repr62 (F62.f62_new v) /\ F62.f62_as_int (F62.f62_new v) = v /\
                     F62Ops.val62 (F62.f62_new v) = v) e.
  Proof.
    intros H. destruct (draw_valid_nonneg D merge_with_int dbytes _ _ _ _ Hbytes H) as [_ Hr].
    eapply Forall_impl; [|exact Hr]. cbn. intros v Hv. change mod_f62 with F62Ops.M62 in Hv.
    assert (Hv64 : 0 <= v < 2 ^ 64) by (unfold F62Ops.M62 in Hv; lia).
    destruct (F62Ops.f62_new_spec v Hv64) as [H1 H2].
    split; [exact H1|]. split.
    - rewrite (F62Ops.f62_as_int_new v Hv64). apply Z.mod_small. exact Hv.
    - etransitivity; [exact H2|]. apply Z.mod_small. exact Hv.
  Qed.

  Theorem draw_f128_internal deg c c' e : draw (fk_f128 deg) c = (c', Ok e) ->
    Forall (fun v => F128Ops.repr128 v /\ F128.f128_as_int v = v /\ F128.f128_new v = v /\
                     F128.f128_try_from_u128 v = Some v) e.
  Proof.
    intros H. destruct (draw_valid_nonneg D merge_with_int dbytes _ _ _ _ Hbytes H) as [_ Hr].
    eapply Forall_impl; [|exact Hr]. cbn. intros v Hv. change mod_f128 with F128Limbs.M in Hv.
    assert (Hv128 : 0 <= v < 2 ^ 128) by (unfold F128Limbs.M in Hv; lia).
    split; [exact Hv|]. split; [apply F128Ops.f128_as_int_spec|]. split.
    - rewrite (F128Ops.f128_new_spec v Hv128). apply Z.mod_small. exact Hv.
    - rewrite (F128Ops.f128_try_from_u128_spec v Hv128).
      replace (v <? F128Limbs.M) with true by (symmetry; apply Z.ltb_lt; lia). reflexivity.
  Qed.
End Fields.
