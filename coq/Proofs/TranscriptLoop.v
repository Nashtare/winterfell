(* C04 — closing the loop: the decision procedure [log_ok] that is run on OBSERVED coin logs accepts the event list of
   both generators for every shape (so a disagreement reported by it on a real log is a disagreement with the model,
   never an artefact of the labelling).  stdlib style. *)
From Coq Require Import List Arith Bool.
From VModel Require Import Transcript.
From VProofs Require Import TranscriptRun.
Import ListNotations.

Definition not_query (c : chal) : bool := negb (chal_eqb c PowCheck || chal_eqb c QueryPositions).

(* a step labelled the way [label] labels: a draw carries a challenge other than the two query ones, the PoW check and the
   position draw carry theirs, absorptions carry none; on such lists [label] only restores the labels it is given *)
Definition wl1 (x : step) : Prop :=
  match x with
  | (EvNew _, None) | (EvReseed _, None) => True
  | (EvDraw _ _, Some c) => not_query c = true
  | (EvCheckPow _, Some PowCheck) => True
  | (EvDrawInts _ _, Some QueryPositions) => True
  | _ => False
  end.

Fixpoint draw_labs (l : list step) : list chal :=
  match l with
  | [] => []
  | (EvDraw _ _, Some c) :: r => c :: draw_labs r
  | _ :: r => draw_labs r
  end.

Lemma label_wl l : Forall wl1 l -> forall rest, label (draw_labs l ++ rest) (map fst l) = l.
Proof.
  induction 1 as [|[e lab] l Hx _ IH]; intros rest; [reflexivity|].
  destruct e, lab as [c|]; cbn in Hx; try contradiction; cbn [map fst draw_labs label app].
  - now rewrite IH.
  - now rewrite IH.
  - now rewrite IH.
  - destruct c; try contradiction. cbn [map fst draw_labs label]. now rewrite IH.
  - destruct c; try contradiction. cbn [map fst draw_labs label]. now rewrite IH.
Qed.

Lemma draw_labs_run l : Forall wl1 l -> forall st, draw_labs l = filter not_query (map fst (run st l)).
Proof.
  induction 1 as [|[e lab] l Hx _ IH]; intros st; [reflexivity|].
  destruct e, lab as [c|]; cbn in Hx; try contradiction; cbn [draw_labs run out1 map fst filter].
  - apply IH.
  - apply IH.
  - rewrite Hx. f_equal. apply IH.
  - destruct c; try contradiction. cbn. apply IH.
  - destruct c; try contradiction. cbn. apply IH.
Qed.

Lemma wl_body deg rs : Forall (fun c => not_query c = true) (flat_map snd rs) -> Forall wl1 (body deg rs).
Proof.
  assert (D : forall cs k, Forall (fun c => not_query c = true) cs -> Forall wl1 (draws_from deg k cs)).
  { induction cs as [|c cs IH]; intros k H; cbn; constructor; [exact (Forall_inv H)|apply IH, (Forall_inv_tail H)]. }
  induction rs as [|[d cs] rs IH]; cbn; intros H; [constructor|]. apply Forall_app in H as [H1 H2].
  constructor; [exact I|]. apply Forall_app. split; [now apply D|now apply IH].
Qed.

Lemma wl_pre s : Forall wl1 (pre s).
Proof.
  constructor; [exact I|]. apply wl_body. rewrite <- (labs_body (sh_ext_deg s)).
  apply (chals_pre (fun c => not_query c = true) s); reflexivity.
Qed.

Lemma wl_prover s : Forall wl1 (prover s).
Proof. rewrite prover_split. apply Forall_app; split; [apply wl_pre | repeat constructor]. Qed.
Lemma wl_verifier s : Forall wl1 (verifier s).
Proof.
  rewrite verifier_split. apply Forall_app; split; [apply wl_pre|].
  apply Forall_app; split; repeat constructor.
Qed.

(* counters: a round starts at 0 whatever was drawn before it and ends at the number of its challenges *)
Lemma counters_body deg rs : forall a rest,
  counters_ok a (map fst (body deg rs) ++ rest) = counters_ok (fold_left (fun _ r => length (snd r)) rs a) rest.
Proof.
  assert (D : forall cs k r, counters_ok k (map fst (draws_from deg k cs) ++ r) = counters_ok (k + length cs) r).
  { induction cs as [|c cs IH]; intros k r; cbn; [now rewrite Nat.add_0_r|]. now rewrite Nat.eqb_refl, IH, Nat.add_succ_r. }
  induction rs as [|[d cs] rs IH]; intros a rest; [reflexivity|].
  cbn. rewrite map_app, <- app_assoc, D. apply IH.
Qed.

Lemma counters_side (side : bool) s : counters_ok 0 (map fst (if side then verifier s else prover s)) = true.
Proof.
  destruct side; [rewrite verifier_split|rewrite prover_split]; unfold pre; cbn [map fst app counters_ok];
    rewrite map_app, counters_body; unfold rounds; rewrite !app_assoc, fold_left_app; reflexivity.
Qed.

Lemma starts_new_prover s : match map fst (prover s) with EvNew _ :: _ => true | _ => false end = true.
Proof. reflexivity. Qed.
Lemma starts_new_verifier s : match map fst (verifier s) with EvNew _ :: _ => true | _ => false end = true.
Proof. reflexivity. Qed.

Lemma drawn_challenges_eq side s : drawn_challenges side s = filter not_query (challenges side s).
Proof. reflexivity. Qed.

Lemma relabel (side : bool) s :
  label (drawn_challenges side s) (map fst (if side then verifier s else prover s)) = (if side then verifier s else prover s).
Proof.
  assert (W : Forall wl1 (if side then verifier s else prover s)) by (destruct side; [apply wl_verifier | apply wl_prover]).
  rewrite drawn_challenges_eq.
  assert (L : map fst (run cs_init (if side then verifier s else prover s)) = challenges side s)
    by (destruct side; [apply labels_verifier | apply labels_prover]).
  rewrite <- L, <- (draw_labs_run _ W cs_init).
  rewrite <- (app_nil_r (draw_labs _)). apply label_wl, W.
Qed.

Theorem log_ok_generators (side : bool) s :
  log_ok side s (map fst (if side then verifier s else prover s)) = true.
Proof.
  unfold log_ok. rewrite relabel.
  assert (L : map fst (run cs_init (if side then verifier s else prover s)) = challenges side s)
    by (destruct side; [apply labels_verifier | apply labels_prover]).
  rewrite L.
  repeat (apply andb_true_iff; split).
  - destruct side; reflexivity.
  - apply counters_side.
  - now apply chals_eqb_eq.
  - unfold depends_ok. apply forallb_forall. intros [c v] Hin. cbn [fst snd].
    apply syms_eqb_eq. exact (proj1 (challenge_depends_on_all_prior s side c v Hin)).
Qed.
