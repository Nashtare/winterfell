(* C10 — map_indexes / normalize_indexes specifications and list-prefix machinery. *)
From Coq Require Import ZArith List Bool Lia.
From VBase Require Import MachInt.
From VModel Require Import Merkle.
From VProofs Require Import MerkleBase.
Import ListNotations.
Open Scope Z_scope.

(* ---------------------------------------------------------------- prefixes *)
Definition prefix {A} (l L : list A) : Prop := exists r, L = l ++ r.

Lemma prefix_refl {A} (l : list A) : prefix l l.
Proof. exists []. rewrite app_nil_r. reflexivity. Qed.

Lemma prefix_trans {A} (a b c : list A) : prefix a b -> prefix b c -> prefix a c.
Proof. intros [r ->] [s ->]. exists (r ++ s). rewrite app_assoc. reflexivity. Qed.

Lemma prefix_app {A} (a r : list A) : prefix a (a ++ r).
Proof. exists r. reflexivity. Qed.

Lemma prefix_snoc_nth {A} (l L : list A) x : prefix (l ++ [x]) L -> nth_error L (length l) = Some x /\ (length l < length L)%nat.
Proof.
  intros [r ->]. rewrite <- app_assoc. split.
  - rewrite nth_error_app2 by lia. rewrite Nat.sub_diag. reflexivity.
  - rewrite !app_length. simpl. lia.
Qed.

Lemma prefix_nth {A} (l L : list A) q x : prefix l L -> nth_error l q = Some x -> nth_error L q = Some x.
Proof.
  intros [r ->] H. rewrite nth_error_app1; [assumption|]. apply nth_error_Some. congruence.
Qed.

Lemma Forall2_upd {A} (R : A -> A -> Prop) (l l' : list A) q x x' :
  (forall a, R a a) ->
  nth_error l q = Some x -> R x x' -> length l' = length l ->
  (forall j, nth_error l' j = if Nat.eqb j q then Some x' else nth_error l j) ->
  Forall2 R l l'.
Proof.
  intros Rr. revert l' q. induction l as [|a l IH]; intros l' q E Rx L N.
  - destruct q; discriminate.
  - destruct l' as [|a' l']; [discriminate|]. destruct q as [|q].
    + simpl in E. injection E as ->. pose proof (N 0%nat) as N0. simpl in N0. injection N0 as ->.
      constructor; [assumption|].
      assert (l' = l); [|subst; apply Forall2_refl; assumption].
      apply nth_error_ext. intros j. exact (N (S j)).
    + pose proof (N 0%nat) as N0. simpl in N0. injection N0 as ->. constructor; [apply Rr|].
      apply (IH l' q); [exact E|exact Rx|simpl in L; lia|]. intros j. exact (N (S j)).
Qed.

(* ---------------------------------------------------------------- assoc maps, continued *)
Lemma bt_insert_length_new {X} k (x : X) m : bt_get k m = None -> length (bt_insert k x m) = S (length m).
Proof.
  induction m as [|[k' x'] m IH]; simpl; [reflexivity|].
  destruct (Z.eqb_spec k k'); [discriminate|]. intros H.
  destruct (Z.ltb_spec k k'); [reflexivity|]. simpl. rewrite IH by assumption. reflexivity.
Qed.

Lemma bt_insert_length_le {X} k (x : X) m : (length (bt_insert k x m) <= S (length m))%nat.
Proof.
  induction m as [|[k' x'] m IH]; simpl; [lia|].
  destruct (Z.ltb_spec k k'); [simpl; lia|]. destruct (Z.eqb_spec k k'); simpl; lia.
Qed.

Fixpoint keys_sorted {X} (m : bmap X) : Prop :=
  match m with
  | [] => True
  | (k, _) :: r => (forall k' x', In (k', x') r -> k < k') /\ keys_sorted r
  end.

Lemma bt_insert_In {X} k (x : X) m k2 x2 :
  In (k2, x2) (bt_insert k x m) -> (k2 = k /\ x2 = x) \/ In (k2, x2) m.
Proof.
  induction m as [|[k' x'] m IH]; simpl.
  - intros [[= <- <-]|[]]. auto.
  - destruct (Z.ltb_spec k k'); simpl.
    + intros [[= <- <-]|H']; auto.
    + destruct (Z.eqb_spec k k'); simpl.
      * intros [[= <- <-]|H']; auto.
      * intros [E|H']; [auto|]. apply IH in H'. destruct H'; auto.
Qed.

Lemma bt_insert_sorted {X} k (x : X) m : keys_sorted m -> keys_sorted (bt_insert k x m).
Proof.
  induction m as [|[k' x'] m IH]; simpl.
  - intros _. split; [intros ? ? []|exact I].
  - intros [Hlt Hs]. destruct (Z.ltb_spec k k'); simpl.
    + split; [|split; assumption]. intros k2 x2 [[= <- <-]|H2]; [assumption|]. apply Hlt in H2. lia.
    + destruct (Z.eqb_spec k k'); simpl.
      * subst k'. split; assumption.
      * split; [|apply IH; assumption]. intros k2 x2 H2. apply bt_insert_In in H2.
        destruct H2 as [[-> ->]|H2]; [lia|]. apply Hlt in H2. assumption.
Qed.

Lemma bt_get_In {X} k (x : X) m : bt_get k m = Some x -> In (k, x) m.
Proof.
  induction m as [|[k' x'] m IH]; simpl; [discriminate|].
  destruct (Z.eqb_spec k k'); [intros [= <-]; subst; auto|auto].
Qed.

Lemma bt_get_sorted_In {X} k (x : X) m : keys_sorted m -> In (k, x) m -> bt_get k m = Some x.
Proof.
  induction m as [|[k' x'] m IH]; simpl; [intros _ []|].
  intros [Hlt Hs] [[= -> ->]|H].
  - rewrite Z.eqb_refl. reflexivity.
  - destruct (Z.eqb_spec k k'); [subst; apply Hlt in H; lia|]. auto.
Qed.

Lemma bt_insert_length_old {X} k (x : X) m : keys_sorted m -> bt_get k m <> None -> length (bt_insert k x m) = length m.
Proof.
  induction m as [|[k' x'] m IH]; simpl; [congruence|].
  intros [Hlt Hs]. destruct (Z.eqb_spec k k').
  - intros _. subst. destruct (Z.ltb_spec k' k'); [lia|]. reflexivity.
  - intros H. destruct (Z.ltb_spec k k').
    + exfalso. destruct (bt_get k m) eqn:E; [|congruence]. apply bt_get_In in E. apply Hlt in E. lia.
    + simpl. rewrite IH by assumption. reflexivity.
Qed.

(* ---------------------------------------------------------------- map_indexes *)
(* imap maps a queried position to its place in the index list *)
Definition imap_ok (indexes : list Z) (imap : bmap Z) : Prop :=
  forall i j, bt_get i imap = Some j <-> (0 <= j /\ nth_error indexes (Z.to_nat j) = Some i).

Lemma imap_ok_inj indexes imap k k' j : imap_ok indexes imap ->
  bt_get k imap = Some j -> bt_get k' imap = Some j -> k = k'.
Proof. intros H E E'. apply H in E. apply H in E'. destruct E as [_ E], E' as [_ E']. congruence. Qed.

Lemma imap_ok_range indexes imap k j : imap_ok indexes imap -> bt_get k imap = Some j -> 0 <= j < zlen indexes.
Proof.
  intros H E. apply H in E. destruct E as [Hj E]. split; [assumption|].
  assert (Z.to_nat j < length indexes)%nat by (apply nth_error_Some; congruence). unfold zlen. lia.
Qed.

Lemma imap_ok_In indexes imap k : imap_ok indexes imap -> In k indexes -> exists j, bt_get k imap = Some j.
Proof.
  intros H Hin. apply In_nth_error in Hin. destruct Hin as [q E]. exists (Z.of_nat q). apply H.
  split; [lia|]. rewrite Nat2Z.id. assumption.
Qed.

Lemma imap_ok_In_inv indexes imap k j : imap_ok indexes imap -> bt_get k imap = Some j -> In k indexes.
Proof. intros H E. apply H in E. destruct E as [_ E]. apply nth_error_In in E. assumption. Qed.

Lemma mi_loop_not_Panic : forall rest nl i map, mi_loop nl rest i map <> Panic.
Proof. induction rest as [|x r IH]; intros; cbn [mi_loop]; [discriminate|]. destruct (nl <=? x); [discriminate|apply IH]. Qed.

Lemma map_indexes_not_Panic indexes depth : map_indexes indexes depth <> Panic.
Proof.
  unfold map_indexes. destruct (64 <=? depth); [discriminate|].
  apply bind_not_Panic; [apply mi_loop_not_Panic|]. intros. destruct (negb _); discriminate.
Qed.

(* The loop invariant behind the final length test of map_indexes: the map has as many keys as the prefix read so far
   only if that prefix is duplicate-free (an insertion of an old key overwrites). *)
Lemma mi_loop_inv : forall rest pre nl map map',
  mi_loop nl rest (zlen pre) map = Ok map' ->
  keys_sorted map ->
  (forall i j, bt_get i map = Some j -> 0 <= j /\ nth_error pre (Z.to_nat j) = Some i) ->
  (forall i, In i pre -> bt_get i map <> None) ->
  (length map <= length pre)%nat -> (length map = length pre -> NoDup pre) ->
  (forall x, In x rest -> x < nl) /\
  (forall i j, bt_get i map' = Some j -> 0 <= j /\ nth_error (pre ++ rest) (Z.to_nat j) = Some i) /\
  (forall i, In i (pre ++ rest) -> bt_get i map' <> None) /\
  (length map' <= length (pre ++ rest))%nat /\ (length map' = length (pre ++ rest) -> NoDup (pre ++ rest)).
Proof.
  induction rest as [|x r IH]; intros pre nl map map' E HS H1 H2 H3 H4.
  - cbn [mi_loop] in E. injection E as <-. rewrite app_nil_r.
    split; [intros ? []|]. split; [exact H1|]. split; [exact H2|]. split; assumption.
  - cbn [mi_loop] in E. destruct (Z.leb_spec nl x); [discriminate|].
    replace (zlen pre + 1) with (zlen (pre ++ [x])) in E by (rewrite zlen_app; reflexivity).
    apply IH in E.
    + replace ((pre ++ [x]) ++ r) with (pre ++ x :: r) in E by (rewrite <- app_assoc; reflexivity).
      destruct E as (E1 & E2 & E3 & E4 & E5).
      split; [intros y [<-|Hy]; auto|]. split; [exact E2|]. split; [exact E3|]. split; assumption.
    + apply bt_insert_sorted. assumption.
    + intros i j. rewrite bt_get_insert. destruct (Z.eqb_spec i x) as [->|Hne].
      * intros [= <-]. split; [apply zlen_nonneg|]. unfold zlen. rewrite Nat2Z.id.
        rewrite nth_error_app2 by lia. rewrite Nat.sub_diag. reflexivity.
      * intros Hg. apply H1 in Hg. destruct Hg as [Hj Hg]. split; [assumption|].
        rewrite nth_error_app1; [assumption|]. apply nth_error_Some. congruence.
    + intros i Hi. rewrite bt_get_insert. destruct (Z.eqb_spec i x); [discriminate|].
      apply in_app_or in Hi. destruct Hi as [Hi|[<-|[]]]; [auto|congruence].
    + pose proof (bt_insert_length_le x (zlen pre) map). rewrite app_length. simpl. lia.
    + rewrite app_length. simpl. intros HL.
      destruct (bt_get x map) eqn:Eg.
      * exfalso. rewrite bt_insert_length_old in HL by (assumption || congruence). lia.
      * rewrite bt_insert_length_new in HL by assumption.
        assert (Hnx : ~ In x pre) by (intros Hin; apply H2 in Hin; congruence).
        assert (ND : NoDup pre) by (apply H4; lia).
        clear - Hnx ND. induction pre as [|a pre IHp]; simpl.
        -- constructor; [intros []|constructor].
        -- inversion ND; subst. constructor.
           ++ intros Hin. apply in_app_or in Hin. destruct Hin as [Hin|[<-|[]]]; [contradiction|]. apply Hnx. left. reflexivity.
           ++ apply IHp; [intros Hin; apply Hnx; right; assumption|assumption].
Qed.

Lemma map_indexes_inv : forall indexes depth imap,
  map_indexes indexes depth = Ok imap ->
  depth < 64 /\ NoDup indexes /\ (forall x, In x indexes -> x < 2 ^ depth) /\ imap_ok indexes imap /\
  length imap = length indexes.
Proof.
  intros indexes depth imap. unfold map_indexes.
  destruct (Z.leb_spec 64 depth); [discriminate|].
  intros E. apply bind_Ok in E. destruct E as (map & E & E2).
  destruct (Z.eqb_spec (zlen indexes) (zlen map)) as [HL|]; [|discriminate]. cbn [negb] in E2. injection E2 as ->.
  change 0 with (zlen (@nil Z)) in E. apply mi_loop_inv in E; simpl; try (intros; discriminate || contradiction || lia).
  - simpl in E. destruct E as (E1 & E2 & E3 & E4 & E5).
    assert (HLn : length imap = length indexes) by (unfold zlen in HL; lia).
    assert (ND : NoDup indexes) by (apply E5; assumption).
    split; [assumption|]. split; [assumption|]. split; [assumption|]. split; [|assumption].
    intros i j. split; [apply E2|].
    intros [Hj Hn].
    assert (Hin : In i indexes) by (apply nth_error_In in Hn; assumption).
    destruct (bt_get i imap) eqn:Eg; [|apply E3 in Hin; congruence].
    f_equal. apply E2 in Eg. destruct Eg as [Hz Eg].
    assert (Z.to_nat z = Z.to_nat j); [|lia].
    apply (proj1 (NoDup_nth_error indexes) ND); [apply nth_error_Some; congruence|congruence].
  - intros _. constructor.
Qed.

(* conversely: on a duplicate-free in-range list the loop succeeds, and the distinct positions are distinct
   keys, so the length test passes *)
Lemma mi_loop_Ok : forall rest nl i map, (forall x, In x rest -> x < nl) -> exists map', mi_loop nl rest i map = Ok map'.
Proof.
  induction rest as [|x r IH]; intros nl i map Hr; cbn [mi_loop]; [eauto|].
  destruct (Z.leb_spec nl x); [specialize (Hr x (or_introl eq_refl)); lia|]. apply IH. intros y Hy. apply Hr. right. assumption.
Qed.

Lemma bt_get_keys {X} k (m : bmap X) : bt_get k m <> None -> In k (map fst m).
Proof.
  induction m as [|[k' x'] m IH]; simpl; [congruence|]. destruct (Z.eqb_spec k k'); [left; congruence|right; auto].
Qed.

Lemma map_indexes_complete : forall indexes depth,
  0 <= depth < 64 -> NoDup indexes -> (forall x, In x indexes -> x < 2 ^ depth) ->
  exists imap, map_indexes indexes depth = Ok imap /\ imap_ok indexes imap /\ length imap = length indexes.
Proof.
  intros indexes depth Hd ND Hr. destruct (mi_loop_Ok indexes (2 ^ depth) 0 [] Hr) as (imap & E).
  assert (Emi : map_indexes indexes depth = Ok imap).
  { unfold map_indexes. destruct (Z.leb_spec 64 depth); [lia|]. rewrite E. cbn [bind].
    change 0 with (zlen (@nil Z)) in E. apply mi_loop_inv in E; simpl; try (intros; discriminate || contradiction || lia);
      [|intros _; constructor].
    simpl in E. destruct E as (_ & _ & E3 & E4 & _).
    replace (zlen indexes =? zlen imap) with true; [reflexivity|]. symmetry. apply Z.eqb_eq. unfold zlen. f_equal.
    apply Nat.le_antisymm; [|assumption]. rewrite <- (map_length fst imap).
    apply NoDup_incl_length; [assumption|]. intros i Hi. apply bt_get_keys, E3, Hi. }
  exists imap. split; [assumption|]. apply map_indexes_inv in Emi. tauto.
Qed.

(* ---------------------------------------------------------------- normalize_indexes *)
Lemma bs_insert_In k s x : In x (bs_insert k s) <-> x = k \/ In x s.
Proof.
  induction s as [|k' s IH]; simpl; [intuition|].
  destruct (Z.ltb_spec k k'); simpl; [intuition|].
  destruct (Z.eqb_spec k k'); simpl; [subst; intuition|]. rewrite IH. intuition.
Qed.

Lemma bs_insert_length k s : (length (bs_insert k s) <= S (length s))%nat.
Proof.
  induction s as [|k' s IH]; simpl; [lia|].
  destruct (Z.ltb_spec k k'); simpl; [lia|]. destruct (Z.eqb_spec k k'); simpl; lia.
Qed.

Lemma normalize_In_gen : forall indexes s e,
  In e (fold_left (fun set index => bs_insert (index - Z.land index 1) set) indexes s) <->
  In e s \/ exists i, In i indexes /\ e = i - i mod 2.
Proof.
  induction indexes as [|i r IH]; intros s e; cbn [fold_left].
  - split; [auto|intros [H|(i & [] & _)]; assumption].
  - rewrite IH, bs_insert_In, land1. split.
    + intros [[->|H]|(i' & Hi & ->)]; [right; exists i; simpl; auto|auto|right; exists i'; simpl; auto].
    + intros [H|(i' & [<-|Hi] & ->)]; [auto|auto|right; eauto].
Qed.

Lemma normalize_In indexes e : In e (normalize_indexes indexes) <-> exists i, In i indexes /\ e = i - i mod 2.
Proof. unfold normalize_indexes. rewrite normalize_In_gen. simpl. intuition. Qed.

Lemma normalize_length_gen : forall indexes s,
  (length (fold_left (fun set index => bs_insert (index - Z.land index 1) set) indexes s) <= length s + length indexes)%nat.
Proof.
  induction indexes as [|i r IH]; intros s; cbn [fold_left]; [simpl; lia|].
  etransitivity; [apply IH|]. pose proof (bs_insert_length (i - Z.land i 1) s). simpl. lia.
Qed.

Lemma normalize_length indexes : (length (normalize_indexes indexes) <= length indexes)%nat.
Proof. unfold normalize_indexes. pose proof (normalize_length_gen indexes []). simpl in *. lia. Qed.

Lemma normalize_nonempty indexes : indexes <> [] -> normalize_indexes indexes <> [].
Proof.
  destruct indexes as [|i r]; [congruence|]. intros _ E.
  assert (H : In (i - i mod 2) (normalize_indexes (i :: r))) by (apply normalize_In; exists i; simpl; auto).
  rewrite E in H. destruct H.
Qed.

(* the normalized list holds the even left elements of the queried sibling pairs *)
Lemma normalize_range indexes n e : n mod 2 = 0 -> (forall i, In i indexes -> 0 <= i < n) ->
  In e (normalize_indexes indexes) -> 0 <= e /\ e mod 2 = 0 /\ e + 1 < n.
Proof.
  intros Hn Hr He. apply normalize_In in He. destruct He as (i & Hi & ->). pose proof (Hr i Hi). zmod i. zmod n.
  split; [lia|]. split; [apply floor2_even|lia].
Qed.

Lemma normalize_imap indexes imap e : imap_ok indexes imap -> In e (normalize_indexes indexes) ->
  bt_get e imap <> None \/ bt_get (e + 1) imap <> None.
Proof.
  intros IM He. apply normalize_In in He. destruct He as (i & Hi & ->). destruct (imap_ok_In _ _ i IM Hi) as (j & Ej).
  destruct (mod2_cases i) as [E|E]; rewrite E; [left; replace (i - 0) with i by lia|right; replace (i - 1 + 1) with i by lia]; congruence.
Qed.
