(* C07: the StarkField trait default `get_root_of_unity` (math/src/field/traits.rs), generated
   per field in Gen/F64.v, Gen/F62.v, Gen/F128.v, and the trait-default `exp_vartime` for f62.
   For 1 <= n <= TWO_ADICITY the result w has order exactly 2^n; the assert/shift side condition
   (`_ok`) holds exactly for 1 <= n <= TWO_ADICITY. *)
From Coq Require Import Zpow_facts.
From VBase Require Import MachInt ZpOps.
From VGen Require F64 F62 F128.
From VProofs Require MachIntFacts WhileLoop NumTheoryFermat F64Red F64Ops F64Exp F64ExpVartime F64Consts F62Ops F62Exp F128Limbs F128Ops.
Open Scope Z_scope.

(* ------------------------------------------------------------------ generic facts *)
Lemma shl_one N k : 0 <= k < N -> shl N 1 k = 2 ^ k.
Proof.
  intros H. unfold shl. rewrite Z.mul_1_l. apply Z.mod_small.
  split; [apply Z.pow_nonneg; lia|apply Z.pow_lt_mono_r; lia].
Qed.

Lemma root_pow m g T n : 0 < m -> 1 <= n <= T ->
  (g ^ 2 ^ (T - n) mod m) ^ 2 ^ n mod m = g ^ 2 ^ T mod m /\
  (g ^ 2 ^ (T - n) mod m) ^ 2 ^ (n - 1) mod m = g ^ 2 ^ (T - 1) mod m.
Proof.
  intros Hm Hn. rewrite <- !Zpower_mod by exact Hm.
  rewrite <- !Z.pow_mul_r by (apply Z.pow_nonneg; lia).
  rewrite <- !Z.pow_add_r by lia.
  replace (T - n + n) with T by lia. replace (T - n + (n - 1)) with (T - 1) by lia. split; reflexivity.
Qed.

Lemma order_exact m w n : 2 < m -> 1 <= n -> w ^ 2 ^ (n - 1) mod m = m - 1 ->
  forall k, 0 < k < 2 ^ n -> w ^ k mod m <> 1.
Proof. exact (MachIntFacts.order_pow2_exact m w n). Qed.

Lemma root_of_unity_generic m g T n : 2 < m -> 1 <= n <= T ->
  g ^ 2 ^ T mod m = 1 -> g ^ 2 ^ (T - 1) mod m = m - 1 ->
  let w := g ^ 2 ^ (T - n) mod m in
  w ^ 2 ^ n mod m = 1 /\ w ^ 2 ^ (n - 1) mod m = m - 1 /\ forall k, 0 < k < 2 ^ n -> w ^ k mod m <> 1.
Proof.
  intros Hm Hn H1 H2 w. destruct (root_pow m g T n ltac:(lia) Hn) as [E1 E2]. fold w in E1, E2.
  rewrite H1 in E1. rewrite H2 in E2. split; [exact E1|]. split; [exact E2|].
  apply order_exact; [exact Hm|lia|exact E2].
Qed.

Lemma grou_ok_generic T N n : 0 <= n < 2^32 -> 0 < T < N -> N <= 2^32 ->
  andb (negb (n =? 0)) (andb (n <=? T) (andb (in_u 32 (T - n)) (wrap 32 (T - n) <? N))) =
  andb (1 <=? n) (n <=? T).
Proof.
  intros Hn HT HN. unfold in_u.
  destruct (Z.eqb_spec n 0) as [->|Hnz]; [reflexivity|].
  destruct (Z.leb_spec n T) as [Hle|Hgt]; cbn [negb andb].
  - rewrite (wrap_small 32 (T - n)) by lia.
    destruct (Z.leb_spec 1 n); [|lia]. cbn [andb].
    destruct (Z.leb_spec 0 (T - n)); [|lia]. destruct (Z.ltb_spec (T - n) (2^32)); [|lia].
    destruct (Z.ltb_spec (T - n) N); [reflexivity|lia].
  - destruct (1 <=? n); reflexivity.
Qed.

(* ------------------------------------------------------------------ f64 *)
Module R64.
Import F64 F64Red F64Ops F64Exp F64Consts.

Definition g64 : Z := 7277203076849721926.

Lemma g64_order : g64 ^ 2 ^ 32 mod M = 1 /\ g64 ^ 2 ^ (32 - 1) mod M = M - 1.
Proof.
  rewrite <- !NumTheoryFermat.zpow_mod_spec by (vm_compute; try reflexivity; discriminate).
  exact f64_root_order.
Qed.

Theorem f64_get_root_of_unity_spec n : 1 <= n <= 32 ->
  let w := f64_get_root_of_unity n in
  repr w /\ val w = g64 ^ 2 ^ (32 - n) mod M /\
  val w ^ 2 ^ n mod M = 1 /\ val w ^ 2 ^ (n - 1) mod M = M - 1 /\
  forall k, 0 < k < 2 ^ n -> val w ^ k mod M <> 1.
Proof.
  intros Hn. unfold f64_get_root_of_unity. cbv zeta.
  change f64_TWO_ADICITY with 32.
  rewrite (wrap_small 32 (32 - n)) by lia. rewrite shl_one by lia.
  assert (Hp : 0 <= 2 ^ (32 - n) < 2 ^ 64).
  { split; [apply Z.pow_nonneg; lia|apply Z.pow_lt_mono_r; lia]. }
  destruct (f64_exp_spec f64_TWO_ADIC_ROOT_OF_UNITY (2 ^ (32 - n)) (proj2 f64_root_def) Hp) as [Rw Vw].
  rewrite (proj1 f64_root_def) in Vw. fold g64 in Vw.
  split; [exact Rw|]. split; [exact Vw|]. rewrite Vw.
  destruct g64_order as [H1 H2].
  exact (root_of_unity_generic M g64 32 n ltac:(reflexivity) Hn H1 H2).
Qed.

Theorem f64_get_root_of_unity_ok_spec n : 0 <= n < 2^32 ->
  f64_get_root_of_unity_ok n = andb (1 <=? n) (n <=? 32).
Proof.
  intros Hn. unfold f64_get_root_of_unity_ok. change f64_TWO_ADICITY with 32.
  apply grou_ok_generic; lia.
Qed.
End R64.

(* ------------------------------------------------------------------ f62 *)
Module R62.
Import F62 F62Ops F62Exp.

Theorem f62_get_root_of_unity_spec n : 1 <= n <= 39 ->
  let w := f62_get_root_of_unity n in
  repr62 w /\ val62 w = f62_G ^ 2 ^ (39 - n) mod M62 /\
  val62 w ^ 2 ^ n mod M62 = 1 /\ val62 w ^ 2 ^ (n - 1) mod M62 = M62 - 1 /\
  forall k, 0 < k < 2 ^ n -> val62 w ^ k mod M62 <> 1.
Proof.
  intros Hn. unfold f62_get_root_of_unity. cbv zeta.
  change f62_TWO_ADICITY with 39.
  rewrite (wrap_small 32 (39 - n)) by lia. rewrite shl_one by lia.
  assert (Hp : 0 <= 2 ^ (39 - n) < 2 ^ 64).
  { split; [apply Z.pow_nonneg; lia|apply Z.pow_lt_mono_r; lia]. }
  destruct f62_root_def as (Rg & Vg & _).
  destruct (f62_exp_spec f62_TWO_ADIC_ROOT_OF_UNITY (2 ^ (39 - n)) Rg Hp) as [Rw Vw].
  rewrite Vg in Vw.
  split; [exact Rw|]. split; [exact Vw|]. rewrite Vw.
  destruct f62_root_order as [H1 H2].
  exact (root_of_unity_generic M62 f62_G 39 n ltac:(reflexivity) Hn H1 H2).
Qed.

Theorem f62_get_root_of_unity_ok_spec n : 0 <= n < 2^32 ->
  f62_get_root_of_unity_ok n = andb (1 <=? n) (n <=? 39).
Proof.
  intros Hn. unfold f62_get_root_of_unity_ok. change f62_TWO_ADICITY with 39.
  apply grou_ok_generic; lia.
Qed.

(* exp_vartime (trait default; f62 overrides only `exp`): the loop of WhileLoop.v over f62_mul *)
Import WhileLoop.

Lemma f62_exp_vartime_unfold fuel a p :
  f62_exp_vartime fuel a p =
  if p =? 0 then Some f62_ONE else if f62_eq a f62_ZERO then Some f62_ZERO else
  match while_loop fuel expv_cond (expv_body f62_mul) (f62_ONE, p, a) with
  | None => None
  | Some (r, _, _) => Some r
  end.
Proof. reflexivity. Qed.

Theorem f62_exp_vartime_sound fuel a p r : repr62 a -> 0 <= p < 2^64 ->
  f62_exp_vartime fuel a p = Some r -> repr62 r /\ val62 r = (val62 a ^ p) mod M62.
Proof.
  intros Ha Hp. rewrite f62_exp_vartime_unfold.
  destruct (Z.eqb_spec p 0) as [->|Hp0].
  { intros <-%F64ExpVartime.Some_inj. split; [exact repr62_ONE|]. rewrite val62_ONE. reflexivity. }
  rewrite f62_eq_spec by (exact Ha || exact repr62_ZERO). rewrite val62_ZERO.
  destruct (Z.eqb_spec (val62 a) 0) as [Hz|Hnz].
  { intros <-%F64ExpVartime.Some_inj. split; [exact repr62_ZERO|].
    rewrite val62_ZERO, Hz, Z.pow_0_l by lia. reflexivity. }
  destruct (while_loop fuel expv_cond (expv_body f62_mul) (f62_ONE, p, a)) as [[[r' q'] b']|] eqn:W; [|discriminate].
  intros [= <-].
  exact (expv_sound M62 repr62 val62 f62_mul eq_refl (fun x _ => val62_range x) f62_mul_spec fuel _ a p r' q' b'
           repr62_ONE val62_ONE Ha (proj1 Hp) W).
Qed.

Theorem f62_exp_vartime_terminates a p : 0 <= p < 2^64 -> exists r, f62_exp_vartime 66 a p = Some r.
Proof.
  intros Hp. rewrite f62_exp_vartime_unfold.
  destruct (p =? 0); [eauto|]. destruct (f62_eq a f62_ZERO); [eauto|].
  destruct (expv_terminates f62_mul 66 f62_ONE p a) as [[[r q] b] ->]; [|eauto].
  change (2 ^ Z.of_nat 66) with (2^66). lia.
Qed.

(* the loop and the overriding `exp` denote the same field element *)
Corollary f62_exp_vartime_agrees fuel a p r : repr62 a -> 0 <= p < 2^64 ->
  f62_exp_vartime fuel a p = Some r -> val62 r = val62 (f62_exp a p).
Proof.
  intros Ha Hp H. rewrite (proj2 (f62_exp_vartime_sound fuel a p r Ha Hp H)).
  symmetry. exact (proj2 (f62_exp_spec a p Ha Hp)).
Qed.
End R62.

(* ------------------------------------------------------------------ f128 *)
Module R128.
Import F128 F128Limbs F128Ops.

Lemma f128_G_repr : repr128 f128_G. Proof. split; (discriminate || reflexivity). Qed.

Theorem f128_get_root_of_unity_sound fuel n w : 1 <= n <= 40 ->
  f128_get_root_of_unity fuel n = Some w ->
  repr128 w /\ w = f128_G ^ 2 ^ (40 - n) mod M /\
  w ^ 2 ^ n mod M = 1 /\ w ^ 2 ^ (n - 1) mod M = M - 1 /\
  forall k, 0 < k < 2 ^ n -> w ^ k mod M <> 1.
Proof.
  intros Hn. unfold f128_get_root_of_unity. cbv zeta.
  change f128_TWO_ADICITY with 40. change f128_TWO_ADIC_ROOT_OF_UNITY with f128_G.
  rewrite (wrap_small 32 (40 - n)) by lia. rewrite shl_one by lia.
  assert (Hp : 0 <= 2 ^ (40 - n) < 2 ^ 128).
  { split; [apply Z.pow_nonneg; lia|apply Z.pow_lt_mono_r; lia]. }
  destruct (f128_exp fuel f128_G (2 ^ (40 - n))) as [r|] eqn:E; [|discriminate].
  intros H. injection H as <-.
  pose proof (f128_exp_sound fuel f128_G _ r f128_G_repr Hp E) as Er.
  split; [rewrite Er; apply repr128_mod|]. split; [exact Er|]. rewrite Er.
  destruct f128_root_pow as [H1 H2].
  exact (root_of_unity_generic M f128_G 40 n ltac:(reflexivity) Hn H1 H2).
Qed.

Theorem f128_get_root_of_unity_terminates n : 1 <= n <= 40 ->
  exists w, f128_get_root_of_unity 130 n = Some w.
Proof.
  intros Hn. unfold f128_get_root_of_unity. cbv zeta. change f128_TWO_ADICITY with 40.
  rewrite (wrap_small 32 (40 - n)) by lia. rewrite shl_one by lia.
  assert (Hp : 0 <= 2 ^ (40 - n) < 2 ^ 128).
  { split; [apply Z.pow_nonneg; lia|apply Z.pow_lt_mono_r; lia]. }
  destruct (f128_exp_terminates f128_TWO_ADIC_ROOT_OF_UNITY _ Hp) as [r ->]. eauto.
Qed.

Theorem f128_get_root_of_unity_ok_spec fuel n : 0 <= n < 2^32 ->
  f128_get_root_of_unity_ok fuel n = andb (1 <=? n) (n <=? 40).
Proof.
  intros Hn. unfold f128_get_root_of_unity_ok. change f128_TWO_ADICITY with 40.
  apply grou_ok_generic; lia.
Qed.
End R128.
