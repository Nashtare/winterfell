(* C09 stage (c), algebraic half: bit reversal, `permute` = the bit-reversal permutation, twiddles (tw_ok), brfft =
   the DFT in bit-reversed order, and the first end-to-end theorem for the faithful model: evaluate_poly equals direct
   evaluation, for EVERY size 2^k; get_twiddles.  Coset evaluation, interpolation, infer_degree: FFTOffset.v. *)
From Coq Require Import List Arith Bool ZArith Lia Ring Field.
From VBase Require Import FieldOps.
From VModel Require Import FFT.
From VProofs Require Import FieldFacts ListFacts Pow2Facts FFTSpec FFTRefine.
Import ListNotations.

(* ---------------------------------------------------------------- bit reversal on nat *)
Lemma rev_bits_lt : forall k i, rev_bits k i < 2 ^ k.
Proof.
  induction k as [|k IH]; intros i; cbn [rev_bits]; [cbn; lia|].
  specialize (IH (i / 2)). pose proof (Nat.mod_upper_bound i 2 ltac:(lia)).
  rewrite pow2_S. assert (i mod 2 = 0 \/ i mod 2 = 1) as [-> | ->] by lia; lia.
Qed.

Lemma rev_bits_even k i : rev_bits (S k) (2 * i) = rev_bits k i.
Proof. cbn [rev_bits]. rewrite mod2_double, div2_double. lia. Qed.

Lemma rev_bits_odd k i : rev_bits (S k) (2 * i + 1) = 2 ^ k + rev_bits k i.
Proof. cbn [rev_bits]. rewrite mod2_double1, div2_double1. lia. Qed.

Lemma rev_bits_0 k : rev_bits k 0 = 0.
Proof.
  induction k as [|k IH]; [reflexivity|].
  cbn [rev_bits]. change (0 / 2) with 0. change (0 mod 2) with 0. rewrite IH. lia.
Qed.

(* reversal of a concatenated index: chunk index i (b bits) above position q (k bits) *)
Lemma rev_bits_concat b : forall k i q, q < 2 ^ k ->
  rev_bits (k + b) (i * 2 ^ k + q) = rev_bits b i + 2 ^ b * rev_bits k q.
Proof.
  induction k as [|k IH]; intros i q Hq.
  - cbn in Hq. assert (q = 0) by lia. subst.
    replace (i * 2 ^ 0 + 0) with i by (cbn; lia). cbn [Nat.add rev_bits]. lia.
  - cbn [Nat.add rev_bits].
    replace (i * 2 ^ S k + q) with (q + i * 2 ^ k * 2) by (rewrite pow2_S; lia).
    rewrite Nat.mod_add, Nat.div_add by lia.
    rewrite (Nat.add_comm (q / 2)), IH by (apply div2_lt_pow2; exact Hq).
    rewrite Nat.pow_add_r. lia.
Qed.

(* one more bit on top of k bits: a 0 bit, then a 1 bit *)
Lemma rev_bits_low : forall k i, i < 2 ^ k -> rev_bits (S k) i = 2 * rev_bits k i.
Proof.
  intros k i Hi. rewrite <- (Nat.add_1_r k). exact (rev_bits_concat 1 k 0 i Hi).
Qed.

Lemma rev_bits_high : forall k i, i < 2 ^ k -> rev_bits (S k) (i + 2 ^ k) = 2 * rev_bits k i + 1.
Proof.
  intros k i Hi. rewrite <- (Nat.add_1_r k), <- (Nat.mul_1_l (2 ^ k)), (Nat.add_comm i).
  rewrite rev_bits_concat by exact Hi. change (rev_bits 1 1) with 1. change (2 ^ 1) with 2. lia.
Qed.

Theorem rev_bits_involutive : forall k i, i < 2 ^ k -> rev_bits k (rev_bits k i) = i.
Proof.
  induction k as [|k IH]; intros i Hi.
  - cbn in *. lia.
  - change (rev_bits (S k) i) with (2 ^ k * (i mod 2) + rev_bits k (i / 2)).
    rewrite <- (Nat.add_1_r k), (Nat.mul_comm (2 ^ k)), rev_bits_concat by apply rev_bits_lt.
    rewrite IH by (apply div2_lt_pow2; exact Hi).
    cbn [rev_bits Nat.pow]. rewrite Nat.mod_mod by lia.
    pose proof (Nat.div_mod i 2). lia.
Qed.

(* permute_index(size, i) is the bit reversal on log2(size) bits, an involution on [0, size) *)
Theorem permute_index_spec k i : permute_index (2 ^ k) i = rev_bits k i.
Proof. unfold permute_index. rewrite log2_pow2. reflexivity. Qed.

Theorem permute_index_involutive k i : i < 2 ^ k ->
  permute_index (2 ^ k) i < 2 ^ k /\ permute_index (2 ^ k) (permute_index (2 ^ k) i) = i.
Proof.
  intros Hi. rewrite !permute_index_spec. split; [apply rev_bits_lt | apply rev_bits_involutive; exact Hi].
Qed.

Section Eval.
Context {F : Type} (O : FOps F) (L : FLaws O).
Add Field Ffield2 : (FLaws_field_theory O L).

Local Notation fz := (fzero O).
Local Notation f1 := (fone O).
Local Infix "+f" := (fadd O) (at level 50, left associativity).
Local Infix "-f" := (fsub O) (at level 50, left associativity).
Local Infix "*f" := (fmul O) (at level 40, left associativity).
Local Notation "-f x" := (fneg O x) (at level 35, right associativity).
Local Notation peval := (peval O).
Local Notation fpow := (fpow O).
Local Notation vget := (vget O).

(* ---------------------------------------------------------------- permute = bit-reversal permutation *)
Lemma swap_length v i j : length (swap O v i j) = length v.
Proof. unfold swap. rewrite !lupd_length. reflexivity. Qed.

(* case split on every comparison in the goal, dropping the impossible cases *)
Ltac nat_cases := repeat match goal with
  | |- context [?x =? ?y] => destruct (Nat.eqb_spec x y); try lia
  | |- context [?x <? ?y] => destruct (Nat.ltb_spec x y); try lia
  end.

Lemma swap_nth v i j p : i < length v -> j < length v ->
  nth p (swap O v i j) fz = if p =? j then nth i v fz else if p =? i then nth j v fz else nth p v fz.
Proof.
  intros Hi Hj. unfold swap, FFT.vget. rewrite !nth_lupd, !lupd_length.
  nat_cases; cbn [andb]; subst; reflexivity.
Qed.

(* generic: the swap loop of an involution r on [0, n).  After steps 0..m-1 position p holds its final value
   iff p < m or r p < m; step m swaps m and r m iff m < r m. *)
Lemma permute_loop (r : nat -> nat) (v : list F) :
  (forall i, i < length v -> r i < length v) -> (forall i, i < length v -> r (r i) = i) ->
  forall m, m <= length v ->
  let v' := fold_left (fun v i => let j := r i in if i <? j then swap O v i j else v) (seq 0 m) v in
  length v' = length v /\
  forall p, p < length v ->
    nth p v' fz = if (p <? m) || (r p <? m) then nth (r p) v fz else nth p v fz.
Proof.
  intros Hr Hinv. induction m as [|m IH]; intros Hm; cbv zeta.
  - split; [reflexivity|]. intros p Hp. reflexivity.
  - rewrite seq_S, fold_left_app. cbn [fold_left Nat.add].
    destruct (IH ltac:(lia)) as [Lm Nm]. cbv zeta in Lm, Nm.
    set (vm := fold_left _ (seq 0 m) v) in *.
    assert (Hrm := Hr m ltac:(lia)). assert (Hrrm := Hinv m ltac:(lia)).
    assert (Hpm : forall p, p < length v -> r p = m <-> p = r m).
    { intros p Hp. split; intros E; [rewrite <- E, Hinv | rewrite E]; auto. }
    destruct (Nat.ltb_spec m (r m)) as [Hlt | Hge]; (split; [rewrite ?swap_length; exact Lm|]);
      intros p Hp; specialize (Hpm p Hp).
    + rewrite swap_nth by (rewrite Lm; lia). rewrite !Nm by lia. rewrite Hrrm.
      destruct (Nat.eq_dec p m) as [->|Hne]; nat_cases; cbn [orb]; f_equal; lia.
    + rewrite Nm by lia.
      destruct (Nat.eq_dec p m) as [->|Hne]; nat_cases; cbn [orb]; f_equal; lia.
Qed.

Theorem permute_spec k v : length v = 2 ^ k ->
  length (permute O v) = 2 ^ k /\
  forall i, i < 2 ^ k -> nth i (permute O v) fz = nth (rev_bits k i) v fz.
Proof.
  intros Hl. unfold permute. rewrite Hl.
  rewrite (fold_left_ext_in _ (fun a i => let j := rev_bits k i in if i <? j then swap O a i j else a))
    by (intros; rewrite permute_index_spec; reflexivity).
  cbv zeta.
  destruct (permute_loop (rev_bits k) v) with (m := 2 ^ k) as [Lp Np].
  - intros i _. rewrite Hl. apply rev_bits_lt.
  - intros i Hi. apply rev_bits_involutive. rewrite <- Hl. exact Hi.
  - rewrite Hl. apply le_n.
  - cbv zeta in Lp, Np. split; [rewrite Lp; exact Hl|].
    intros i Hi. rewrite Np by (rewrite Hl; exact Hi).
    rewrite (proj2 (Nat.ltb_lt i (2 ^ k)) Hi). reflexivity.
Qed.

Theorem permute_involutive k v : length v = 2 ^ k -> permute O (permute O v) = v.
Proof.
  intros Hl. destruct (permute_spec k v Hl) as [L1 N1].
  destruct (permute_spec k (permute O v) L1) as [L2 N2].
  apply nth_ext with (d := fz) (d' := fz); [rewrite L2, Hl; reflexivity|].
  rewrite L2. intros i Hi. rewrite N2 by exact Hi. rewrite N1 by apply rev_bits_lt.
  rewrite rev_bits_involutive by exact Hi. reflexivity.
Qed.

Lemma permute_map (f : F -> F) k v : length v = 2 ^ k -> permute O (map f v) = map f (permute O v).
Proof.
  intros Hl. destruct (permute_spec k v Hl) as [L1 N1].
  destruct (permute_spec k (map f v)) as [L2 N2]; [rewrite map_length; exact Hl|].
  apply nth_ext with (d := fz) (d' := f fz); [rewrite L2, map_length, L1; reflexivity|].
  rewrite L2. intros i Hi. rewrite N2 by exact Hi. rewrite (map_nth f (permute O v)), N1 by exact Hi.
  rewrite (nth_indep _ fz (f fz)) by (rewrite map_length, Hl; apply rev_bits_lt). apply map_nth.
Qed.

(* natural-order position r of the permuted concatenation of 2^b chunks of 2^k elements holds
   element P mod 2^k of chunk P / 2^k, where P is the bit reversal of r *)
Lemma permute_concat_nth (chunk : nat -> list F) k b : (forall i, i < 2 ^ b -> length (chunk i) = 2 ^ k) ->
  length (permute O (concat (map chunk (seq 0 (2 ^ b))))) = 2 ^ (k + b) /\
  forall r, r < 2 ^ (k + b) ->
    rev_bits (k + b) r / 2 ^ k < 2 ^ b /\ rev_bits (k + b) r mod 2 ^ k < 2 ^ k /\
    nth r (permute O (concat (map chunk (seq 0 (2 ^ b))))) fz
      = nth (rev_bits (k + b) r mod 2 ^ k) (chunk (rev_bits (k + b) r / 2 ^ k)) fz.
Proof.
  intros Hc. destruct (concat_map_seq fz chunk (2 ^ b) (2 ^ k) Hc) as [CL CN].
  assert (E : 2 ^ b * 2 ^ k = 2 ^ (k + b)) by (rewrite Nat.pow_add_r; apply Nat.mul_comm).
  rewrite E in CL. destruct (permute_spec (k + b) _ CL) as [Lp Np]. split; [exact Lp|].
  intros r Hr. pose proof (rev_bits_lt (k + b) r) as HP. rewrite <- E in HP.
  destruct (idx_split _ _ _ HP) as (EP & Hi & Hq).
  split; [exact Hi|]. split; [exact Hq|].
  rewrite Np by exact Hr. rewrite EP at 1. apply CN; assumption.
Qed.

(* ---------------------------------------------------------------- twiddles *)
(* twiddles fit transforms of size 2^k with root w: twiddles[i] = w^(bitrev_{k-1} i), i < 2^(k-1) *)
Definition tw_ok (tw : list F) (k : nat) (w : F) : Prop :=
  match k with
  | 0 => True
  | S k' => forall i, i < 2 ^ k' -> vget tw i = fpow w (rev_bits k' i)
  end.

Lemma tw_ok_sq tw k w : tw_ok tw (S k) w -> tw_ok tw k (w *f w).
Proof.
  destruct k as [|k]; cbn [tw_ok]; [trivial|]. intros H i Hi.
  rewrite H by (rewrite pow2_S; lia). rewrite rev_bits_low by exact Hi. apply (fpow_sq O L).
Qed.

Lemma tw_ok_pow tw : forall d k w, tw_ok tw (k + d) w -> tw_ok tw k (fpow w (2 ^ d)).
Proof.
  induction d as [|d IH]; intros k w H.
  - rewrite Nat.add_0_r in H. change (2 ^ 0) with 1. rewrite (fpow_1_r O L). exact H.
  - rewrite Nat.add_succ_r in H. apply tw_ok_sq, IH in H.
    change (2 ^ S d) with (2 * 2 ^ d). rewrite (fpow_sq O L). exact H.
Qed.

(* the middle twiddle is the root itself: position 2^k reverses to 1 on k+1 bits *)
Lemma tw_ok_mid tw k w : tw_ok tw (S (S k)) w -> vget tw (2 ^ k) = w.
Proof.
  cbn [tw_ok]. intros H. rewrite H by (rewrite pow2_S; pose proof (pow2_pos k); lia).
  rewrite <- (Nat.add_0_l (2 ^ k)), rev_bits_high, rev_bits_0 by apply pow2_pos. apply (fpow_1_r O L).
Qed.

(* ---------------------------------------------------------------- brfft = bit-reversed DFT *)
Lemma brfft_dft tw : forall k w l i,
  length l = 2 ^ k -> root_cond O k w -> tw_ok tw k w -> i < 2 ^ k ->
  nth i (brfft O tw k l) fz = peval l (fpow w (rev_bits k i)).
Proof.
  induction k as [|k IH]; intros w l i Hl Hw Ht Hi.
  - destruct l as [|a [|b t]]; cbn in Hl; try lia. cbn in Hi. assert (i = 0) by lia. subst. cbn. ring.
  - destruct (split_eo_pow2 k l Hl) as [He Ho].
    assert (HlE := brfft_length O tw k _ He). assert (HlO := brfft_length O tw k _ Ho).
    pose proof (fun q => IH (w *f w) _ q He (root_cond_sq O L k w Hw) (tw_ok_sq tw k w Ht)) as IHe.
    pose proof (fun q => IH (w *f w) _ q Ho (root_cond_sq O L k w Hw) (tw_ok_sq tw k w Ht)) as IHo.
    assert (Htm : forall i' y, i' < 2 ^ k -> tmul O tw i' y = y *f fpow w (rev_bits k i')).
    { intros i' y Hi'. unfold tmul. cbn [tw_ok] in Ht. destruct (Nat.eqb_spec i' 0) as [->|Hn].
      - rewrite rev_bits_0. cbn. ring.
      - rewrite Ht by exact Hi'. reflexivity. }
    cbn [brfft]. rewrite pow2_S in Hi.
    (* outputs 2i', 2i'+1 are E[i'] +- w^r O[i'], r = rev i': the two values of the decimation lemma at +-w^r *)
    destruct (Nat.Even_or_Odd i) as [[i' ->]|[i' ->]];
      destruct (bf_list_nth O tw _ _ 0 i' (eq_trans HlE (eq_sym HlO)) ltac:(rewrite HlE; lia)) as [Be Bo].
    + rewrite Be. cbn [Nat.add]. rewrite Htm, IHe, IHo, rev_bits_even, (fpow_mul_base O L), (peval_split O L l) by lia. ring.
    + rewrite Bo. cbn [Nat.add].
      rewrite Htm, IHe, IHo, rev_bits_odd, (root_cond_half O L k w _ Hw), (fpow_mul_base O L), (peval_split_neg O L l) by lia.
      ring.
Qed.

(* ---------------------------------------------------------------- evaluate_poly: natural-order DFT, every k >= 1 *)
Variable two_adicity : nat.

(* the asserts shared by the entry points hold for 2^(K+1) values with 2^K twiddles *)
Lemma size_guards K (v tw : list F) : length v = 2 ^ S K -> length tw = 2 ^ K -> S K <= two_adicity ->
  is_pow2 (length v) = true /\ (length v =? length tw * 2) = true /\ (two_adicity <? Nat.log2 (length v)) = false.
Proof.
  intros -> -> Had. rewrite is_pow2_pow2, log2_pow2. repeat split.
  - apply Nat.eqb_eq. cbn. lia.
  - apply Nat.ltb_ge. exact Had.
Qed.

Lemma permuted_fft_is_dft tw K w p :
  length p = 2 ^ S K -> root_cond O (S K) w -> tw_ok tw (S K) w ->
  permute O (fft_in_place_top O p tw) = dft O (2 ^ S K) w p.
Proof.
  intros Hl Hw Ht.
  rewrite (fft_in_place_top_brfft O tw K p Hl).
  assert (Hlb : length (brfft O tw (S K) p) = 2 ^ S K) by (apply brfft_length; exact Hl).
  destruct (permute_spec (S K) _ Hlb) as [Lp Np].
  apply nth_ext with (d := fz) (d' := fz); [rewrite Lp, dft_length; reflexivity|].
  rewrite Lp. intros i Hi. rewrite Np by exact Hi.
  rewrite (brfft_dft tw (S K) w p _ Hl Hw Ht (rev_bits_lt _ _)).
  rewrite rev_bits_involutive by exact Hi. rewrite (dft_nth O) by exact Hi. reflexivity.
Qed.

Theorem evaluate_poly_correct tw K w p :
  length p = 2 ^ S K -> length tw = 2 ^ K -> S K <= two_adicity ->
  root_cond O (S K) w -> tw_ok tw (S K) w ->
  evaluate_poly O two_adicity p tw = Some (map (fun i => peval p (fpow w i)) (seq 0 (2 ^ S K))).
Proof.
  intros Hl Hlt Had Hw Ht. unfold evaluate_poly.
  destruct (size_guards K _ _ Hl Hlt Had) as (G1 & G2 & G3). rewrite G1, G2, G3. cbn [negb]. f_equal.
  apply (permuted_fft_is_dft tw K w p Hl Hw Ht).
Qed.

(* get_twiddles returns twiddles that fit *)
Variable root_of_unity : nat -> F.

Lemma power_series_nth w n i : i < n -> nth i (get_power_series O w n) fz = fpow w i.
Proof. rewrite (get_power_series_spec O L). apply nth_map_seq. Qed.

Lemma permuted_powers_ok w K :
  length (permute O (get_power_series O w (2 ^ K))) = 2 ^ K /\
  tw_ok (permute O (get_power_series O w (2 ^ K))) (S K) w.
Proof.
  destruct (permute_spec K _ (get_power_series_length O L w (2 ^ K))) as [Lp Np]. split; [exact Lp|].
  cbn [tw_ok]. intros i Hi. unfold FFT.vget. rewrite Np by exact Hi.
  apply power_series_nth. apply rev_bits_lt.
Qed.

Theorem get_twiddles_correct K : S K <= two_adicity ->
  exists tw, get_twiddles O two_adicity root_of_unity (2 ^ S K) = Some tw /\
             length tw = 2 ^ K /\ tw_ok tw (S K) (root_of_unity (S K)).
Proof.
  intros Had. unfold get_twiddles. rewrite is_pow2_pow2, log2_pow2. cbn [negb].
  assert (E2 : (two_adicity <? S K) = false) by (apply Nat.ltb_ge; lia).
  rewrite E2. cbn [Nat.eqb]. rewrite half_pow2.
  eexists; split; [reflexivity|]. apply permuted_powers_ok.
Qed.

End Eval.
