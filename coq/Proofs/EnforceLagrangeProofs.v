(* Lagrange kernel constraints (Model/EnforceLagrange.v): the rows on which each of the log2(n) transition
   constraints is enforced, the rows it relates, and that together with the boundary constraint they determine the
   column.  Integer level first (n = 2^v), then field level (any FOps with FLaws, g of exact order n). *)
From Coq Require Import ZArith List Bool Lia Ring Field Arith.
From VBase Require Import MachInt FieldOps.
From VModel Require Import Enforce EnforceLagrange.
From VProofs Require Import EnforceSteps EnforceField EnforceDivisor.
Import ListNotations.
Open Scope Z_scope.

Section Rows.
  Variable v : Z.
  Hypothesis Hv : 0 <= v.
  Let n := 2 ^ v.

  Lemma n_is : n = 2 ^ v. Proof. reflexivity. Qed.
  Lemma rows_n_pos : 0 < n. Proof. apply p2_pos. exact Hv. Qed.

  Lemma lag_num_coefficients_spec : lag_num_coefficients n = v.
  Proof. unfold lag_num_coefficients, n. apply log2_p2. exact Hv. Qed.

  Lemma stride_is k : 1 <= k <= v -> n / 2 ^ (k - 1) = 2 ^ (v - k + 1).
  Proof. intros H. unfold n. rewrite p2_div by lia. f_equal. lia. Qed.

  Lemma shift_is k : 1 <= k <= v -> lag_shift n k = 2 ^ (v - k).
  Proof. intros H. unfold lag_shift, n. apply p2_div. lia. Qed.

  Lemma n_factor k : 1 <= k <= v -> n = 2 ^ (k - 1) * 2 ^ (v - k + 1).
  Proof. intros H. unfold n. rewrite <- Z.pow_add_r by lia. f_equal. lia. Qed.

  (* the enforcement domain of constraint k: the multiples of 2^(v-k+1) below n *)
  Lemma lag_rows_spec k i : 1 <= k <= v ->
    (In i (lag_rows n k) <-> 0 <= i < n /\ (2 ^ (v - k + 1) | i)).
  Proof.
    intros Hk. unfold lag_rows. cbv zeta. rewrite stride_is by lia. rewrite in_map_iff.
    pose proof (p2_pos (v - k + 1) ltac:(lia)) as Hs. pose proof (p2_pos (k - 1) ltac:(lia)) as Hm.
    pose proof (n_factor k Hk) as En. split.
    - intros (j & <- & Hj). apply In_zrange in Hj. split; [nia|]. exists j. reflexivity.
    - intros (Hi & (q & ->)). exists q. split; [reflexivity|]. apply In_zrange. nia.
  Qed.

  Lemma lag_rows_length k : 1 <= k <= v -> Z.of_nat (length (lag_rows n k)) = 2 ^ (k - 1).
  Proof.
    intros Hk. unfold lag_rows. cbv zeta. rewrite map_length, zrange_length.
    pose proof (p2_pos (k - 1) ltac:(lia)). lia.
  Qed.

  Lemma lag_rows_NoDup k : 1 <= k <= v -> NoDup (lag_rows n k).
  Proof.
    intros Hk. unfold lag_rows. cbv zeta. rewrite stride_is by lia.
    pose proof (p2_pos (v - k + 1) ltac:(lia)) as Hs.
    apply FinFun.Injective_map_NoDup; [|apply zrange_NoDup]. intros a b H. nia.
  Qed.

  (* the domains are nested: subgroup of size 2^(k-1) inside the subgroup of size 2^k *)
  Lemma lag_rows_nested k i : 1 <= k < v -> In i (lag_rows n k) -> In i (lag_rows n (k + 1)).
  Proof.
    intros Hk H. apply lag_rows_spec in H; [|lia]. apply lag_rows_spec; [lia|].
    destruct H as [Hi Hd]. split; [exact Hi|].
    eapply Z.divide_trans; [|exact Hd]. replace (v - (k + 1) + 1) with (v - k) by lia.
    exists 2. rewrite p2_succ by lia. lia.
  Qed.

  Lemma lag_rows_even k i : 1 <= k <= v -> In i (lag_rows n k) -> (2 | i).
  Proof.
    intros Hk H. apply lag_rows_spec in H; [|lia]. destruct H as [_ Hd].
    eapply Z.divide_trans; [|exact Hd]. replace (v - k + 1) with ((v - k) + 1) by lia.
    rewrite p2_succ by lia. exists (2 ^ (v - k)). lia.
  Qed.

  (* the union of the enforcement domains is the last one: the rows of even index *)
  Lemma lag_rows_union i : 1 <= v ->
    ((exists k, 1 <= k <= v /\ In i (lag_rows n k)) <-> 0 <= i < n /\ (2 | i)).
  Proof.
    intros Hv1. split.
    - intros (k & Hk & H). split; [apply lag_rows_spec in H; [tauto|lia]|]. eapply lag_rows_even; eassumption.
    - intros [Hi Hd]. exists v. split; [lia|]. apply lag_rows_spec; [lia|]. split; [exact Hi|].
      replace (v - v + 1) with 1 by lia. exact Hd.
  Qed.

  (* the second row read by an enforced constraint lies inside the trace: no wrap-around *)
  Lemma lag_target_in_range k i : 1 <= k <= v -> In i (lag_rows n k) ->
    0 < i + lag_shift n k < n /\ (i + lag_shift n k) mod n = i + lag_shift n k.
  Proof.
    intros Hk H. apply lag_rows_spec in H; [|lia]. destruct H as [Hi (q & ->)].
    rewrite shift_is by lia. pose proof (p2_pos (v - k) ltac:(lia)) as Hs.
    pose proof (n_factor k Hk) as En. replace (v - k + 1) with ((v - k) + 1) in * by lia.
    rewrite p2_succ in * by lia. pose proof (p2_pos (k - 1) ltac:(lia)) as Hm.
    assert (Hq : 0 <= q < 2 ^ (k - 1)) by nia.
    assert (R : 0 < q * (2 * 2 ^ (v - k)) + 2 ^ (v - k) < n) by nia.
    split; [exact R|]. apply Z.mod_small. lia.
  Qed.

  Lemma lag_reads_spec k i j : 1 <= k <= v -> In i (lag_rows n k) ->
    (In j (lag_reads n k i) <-> j = i \/ j = i + 2 ^ (v - k)).
  Proof.
    intros Hk H. unfold lag_reads. destruct (lag_target_in_range k i Hk H) as [_ ->].
    rewrite shift_is by lia. cbn [In]. intuition lia.
  Qed.

  (* every row j but row 0 is the second ("target") row of exactly one enforced (constraint, row) pair:
     for j = 2^t * (2q + 1) it is constraint v - t on row q * 2^(t+1) *)
  Lemma lag_target_exists j : 0 < j < n ->
    exists k i, 1 <= k <= v /\ In i (lag_rows n k) /\ j = i + lag_shift n k.
  Proof.
    intros Hj. destruct (two_adic j ltac:(lia)) as (t & q & Ht & Hq & E).
    pose proof (p2_pos t Ht) as Hpt.
    assert (Htv : t < v).
    { apply (Z.pow_lt_mono_r_iff 2); [lia|lia|]. fold n. nia. }
    exists (v - t), (q * 2 ^ (t + 1)). split; [lia|].
    rewrite shift_is by lia. replace (v - (v - t)) with t by lia. split.
    - apply lag_rows_spec; [lia|]. replace (v - (v - t) + 1) with (t + 1) by lia.
      split; [|exists q; reflexivity]. rewrite p2_succ by lia. nia.
    - rewrite p2_succ by lia. lia.
  Qed.

  Lemma lag_target_unique : forall j k i k' i', 1 <= k <= v -> 1 <= k' <= v ->
    In i (lag_rows n k) -> In i' (lag_rows n k') ->
    j = i + lag_shift n k -> j = i' + lag_shift n k' -> k = k' /\ i = i'.
  Proof.
    assert (Half : forall k i k' i', 1 <= k <= v -> 1 <= k' <= v -> In i (lag_rows n k) -> In i' (lag_rows n k') ->
               i + lag_shift n k = i' + lag_shift n k' -> k < k' -> False).
    { intros k i k' i' Hk Hk' H H' E Hlt.
      apply lag_rows_spec in H; [|lia]. apply lag_rows_spec in H'; [|lia].
      destruct H as [_ Hd]. destruct H' as [_ Hd']. rewrite !shift_is in E by lia.
      assert (D1 : (2 ^ (v - k' + 1) | i + 2 ^ (v - k))).
      { apply Z.divide_add_r.
        - eapply Z.divide_trans; [|exact Hd]. apply p2_divide. lia.
        - apply p2_divide. lia. }
      rewrite E in D1. apply (Z.divide_add_cancel_r _ _ _ Hd') in D1.
      apply (p2_not_divide_smaller (v - k')); [lia|]. exact D1. }
    intros j k i k' i' Hk Hk' H H' E E'. rewrite E in E'.
    destruct (Z.lt_trichotomy k k') as [Hlt | [-> | Hgt]].
    - exfalso. eapply (Half k i k' i'); eassumption.
    - split; [reflexivity|lia].
    - exfalso. eapply (Half k' i' k i); try eassumption. lia.
  Qed.

  (* row 0 is never a target; it is pinned by the boundary constraint *)
  Lemma lag_row0_not_target k i : 1 <= k <= v -> In i (lag_rows n k) -> i + lag_shift n k <> 0.
  Proof. intros Hk H. pose proof (lag_target_in_range k i Hk H). lia. Qed.

  (* a row of odd index is read by the last constraint only *)
  Lemma lag_odd_row_last_only j k i : 1 <= k <= v -> In i (lag_rows n k) -> In j (lag_reads n k i) ->
    ~ (2 | j) -> k = v /\ j = i + 1.
  Proof.
    intros Hk H Hr Hodd. pose proof (lag_rows_even k i Hk H) as He.
    apply lag_reads_spec in Hr; [|lia|exact H]. destruct Hr as [-> | ->]; [contradiction|].
    destruct (Z.eq_dec k v) as [->|Hne].
    - split; [reflexivity|]. rewrite Z.sub_diag. reflexivity.
    - exfalso. apply Hodd. apply Z.divide_add_r; [exact He|].
      replace (v - k) with ((v - k - 1) + 1) by lia. rewrite p2_succ by lia. exists (2 ^ (v - k - 1)). lia.
  Qed.

  Lemma lag_readers_spec kmax j k i : 0 <= kmax ->
    (In (k, i) (lag_readers n kmax j) <-> 1 <= k <= kmax /\ In i (lag_rows n k) /\ In j (lag_reads n k i)).
  Proof.
    intros Hkm. unfold lag_readers. rewrite in_flat_map. split.
    - intros (k0 & Hk0 & Hin). apply In_zrange in Hk0. apply in_flat_map in Hin.
      destruct Hin as (i0 & Hi0 & Hin). destruct (existsb (Z.eqb j) (lag_reads n k0 i0)) eqn:Ex; [|destruct Hin].
      destruct Hin as [Hin|[]]. injection Hin as <- <-. split; [lia|]. split; [exact Hi0|].
      apply existsb_exists in Ex. destruct Ex as (y & Hy & Ey). apply Z.eqb_eq in Ey. subst y. exact Hy.
    - intros (Hk & Hi & Hr). exists k. split; [apply In_zrange; lia|]. apply in_flat_map. exists i. split; [exact Hi|].
      replace (existsb (Z.eqb j) (lag_reads n k i)) with true; [left; reflexivity|].
      symmetry. apply existsb_exists. exists j. split; [exact Hr|apply Z.eqb_refl].
  Qed.
End Rows.

Lemma zidx_map_zrange {A} (h : Z -> A) m i : 0 <= i < m -> zidx (map h (zrange 0 m)) i = Some (h i).
Proof.
  intros H. unfold zidx. replace (i <? 0) with false by (symmetry; apply Z.ltb_ge; lia).
  apply map_nth_error. apply nth_error_zrange. exact H.
Qed.

Lemma zidx_cons_succ {A} (a : A) l j : 0 <= j -> zidx (a :: l) (j + 1) = zidx l j.
Proof.
  intros H. unfold zidx. replace (j + 1 <? 0) with false by (symmetry; apply Z.ltb_ge; lia).
  replace (j <? 0) with false by (symmetry; apply Z.ltb_ge; lia).
  replace (Z.to_nat (j + 1)) with (S (Z.to_nat j)) by lia. reflexivity.
Qed.

Lemma zidx_some {A} (l : list A) i : 0 <= i < Z.of_nat (length l) -> exists x, zidx l i = Some x /\ In x l.
Proof.
  intros H. unfold zidx. replace (i <? 0) with false by (symmetry; apply Z.ltb_ge; lia).
  destruct (nth_error l (Z.to_nat i)) as [x|] eqn:E.
  - exists x. split; [reflexivity|]. eapply nth_error_In. exact E.
  - apply nth_error_None in E. lia.
Qed.

Lemma zidx_nth {A} (l : list A) i x d : zidx l i = Some x -> nth (Z.to_nat i) l d = x.
Proof.
  unfold zidx. destruct (i <? 0); [discriminate|]. apply nth_error_nth.
Qed.

Lemma opt_all_map_Some {A B} (h : A -> B) (f : A -> option B) l :
  (forall a, In a l -> f a = Some (h a)) -> opt_all (map f l) = Some (map h l).
Proof.
  induction l as [|a l IH]; intros H; [reflexivity|].
  cbn [map opt_all]. rewrite (H a (or_introl eq_refl)). rewrite IH; [reflexivity|].
  intros b Hb. apply H. right. exact Hb.
Qed.

Section LagField.
  Context {F : Type} (Fo : FOps F) (L : FLaws Fo).
  Variables (g : F) (v : Z).
  Hypothesis Hv : 0 <= v.
  Hypothesis Hv64 : v < 64.
  Let n := 2 ^ v.
  Hypothesis Hgn : fpow Fo g n = fone Fo.
  Hypothesis Hord : forall i, 0 < i < n -> fpow Fo g i <> fone Fo.

  Notation "0" := (fzero Fo) : F_scope.
  Notation "1" := (fone Fo) : F_scope.
  Infix "+" := (fadd Fo) : F_scope.
  Infix "*" := (fmul Fo) : F_scope.
  Infix "-" := (fsub Fo) : F_scope.
  Delimit Scope F_scope with F.

  Add Field FfieldLag : (FLaws_field_theory Fo L).

  Notation pw := (fpow Fo).

  Lemma lf_n_pow2 : exists k, 0 <= k /\ n = 2 ^ k.
  Proof. exists v. split; [exact Hv|reflexivity]. Qed.
  Lemma lf_n_lt_2_64 : n < 2 ^ 64.
  Proof. unfold n. apply Z.pow_lt_mono_r; lia. Qed.
  Lemma lf_n_pos : 0 < n. Proof. apply p2_pos. exact Hv. Qed.

  Lemma g_eq_iff a b : 0 <= a -> 0 <= b -> (pw g a = pw g b <-> a mod n = b mod n).
  Proof. apply (gpow_eq_iff Fo L g n lf_n_pow2 lf_n_lt_2_64 Hgn Hord). Qed.

  Lemma pw_1_r x : pw x 1 = x. Proof. reflexivity. Qed.

  (* ---------------------------------------------------------------- new(): constraints and divisors *)

  (* with no exemption the generator is not used: the divisor of a domain of size s is x^s - 1 *)
  Lemma from_transition_0_spec g' s : 0 <= s -> from_transition Fo g' s 0 = Some (mkD [(s, 1%F)] []).
  Proof.
    intros Hs. unfold from_transition, checked_sub.
    replace (s <? 0) with false by (symmetry; apply Z.ltb_ge; lia).
    rewrite zrange_nil by lia. reflexivity.
  Qed.

  Definition lag_div (k : Z) : Divisor := mkD [(2 ^ (k - 1), 1%F)] [].

  Lemma lag_new_spec coefs : Z.of_nat (length coefs) <= 64 ->
    lag_new Fo coefs = Some (mkLTC coefs (map (fun i => lag_div (i + 1)) (zrange 0 (Z.of_nat (length coefs))))).
  Proof.
    intros H. unfold lag_new, lag_domain_sizes.
    replace (64 <? Z.of_nat (length coefs)) with false by (symmetry; apply Z.ltb_ge; lia).
    rewrite (opt_all_map_Some (fun s => mkD [(s, 1%F)] [])).
    - rewrite map_map. do 2 f_equal. apply map_ext. intros i. unfold lag_div. replace (i + 1 - 1) with i by lia. reflexivity.
    - intros s Hs. apply in_map_iff in Hs. destruct Hs as (i & <- & Hi). apply In_zrange in Hi.
      apply from_transition_0_spec. pose proof (p2_pos i ltac:(lia)). lia.
  Qed.

  Lemma lag_new_refuses coefs : 64 < Z.of_nat (length coefs) -> lag_new Fo coefs = None.
  Proof.
    intros H. unfold lag_new, lag_domain_sizes.
    replace (64 <? Z.of_nat (length coefs)) with true by (symmetry; apply Z.ltb_lt; lia). reflexivity.
  Qed.

  (* an AIR with a Lagrange kernel column over a trace of length n = 2^v hands `lag_num_coefficients n` coefficients
     to new(): there are exactly v = log2 n constraints, as many divisors (evaluate_and_combine's zip drops nothing),
     and the divisor of constraint k (numbered from 1) is x^(2^(k-1)) - 1 without exemptions *)
  Theorem lag_count coefs : Z.of_nat (length coefs) = lag_num_coefficients n ->
    exists t, lag_new Fo coefs = Some t /\ l_coef t = coefs /\
      lag_num_constraints t = v /\ Z.of_nat (length (l_div t)) = v /\
      forall k, 1 <= k <= v -> zidx (l_div t) (k - 1) = Some (lag_div k).
  Proof.
    intros Hl. unfold n in Hl. rewrite lag_num_coefficients_spec in Hl by lia.
    eexists. split; [apply lag_new_spec; lia|]. cbn [l_coef l_div]. split; [reflexivity|].
    split; [exact Hl|]. split.
    - rewrite map_length, zrange_length. lia.
    - intros k Hk. rewrite Hl. rewrite zidx_map_zrange by lia. do 2 f_equal. lia.
  Qed.

  (* ---------------------------------------------------------------- the divisor of constraint k *)

  Lemma lag_div_evaluate_at k x : 1 <= k <= v -> evaluate_at Fo (lag_div k) x = (pw x (2 ^ (k - 1)) - 1)%F.
  Proof.
    intros Hk. unfold evaluate_at, lag_div.
    rewrite (eval_numerator_single Fo L n lf_n_lt_2_64).
    - cbn [eval_exemptions d_ex fold_left]. apply (fdiv_1_r Fo L).
    - pose proof (p2_pos (k - 1) ltac:(lia)). split; [lia|]. unfold n. apply Z.pow_le_mono_r; lia.
  Qed.

  (* no exemption points: evaluate_at is never the totalised 0/0 *)
  Lemma lag_div_no_exemption k x : eval_exemptions Fo (lag_div k) x = 1%F.
  Proof. reflexivity. Qed.

  (* constraint k is enforced on EXACTLY the rows of the subgroup of size 2^(k-1) *)
  Theorem lag_enforcement_exact k i : 1 <= k <= v -> 0 <= i < n ->
    (evaluate_at Fo (lag_div k) (pw g i) = 0%F <-> In i (lag_rows n k)).
  Proof.
    intros Hk Hi. rewrite lag_div_evaluate_at by lia. rewrite (fsub_eq_0 Fo L).
    pose proof (p2_pos (k - 1) ltac:(lia)) as Hm. pose proof (p2_pos (v - k + 1) ltac:(lia)) as Hs.
    rewrite (pw_pw Fo L) by lia. change 1%F with (pw g 0). rewrite g_eq_iff by nia.
    rewrite Z.mod_0_l by lia. rewrite Z.mod_divide by lia.
    unfold n at 2. rewrite lag_rows_spec by lia. fold n.
    assert (En : n = 2 ^ (v - k + 1) * 2 ^ (k - 1)).
    { unfold n. rewrite <- Z.pow_add_r by lia. f_equal. lia. }
    rewrite En at 1. rewrite Z.mul_divide_cancel_r by lia. tauto.
  Qed.

  (* ... over the whole field: the only zeros of the divisor are the trace-domain points of those rows *)
  Theorem lag_enforcement_exact_all k x : 1 <= k <= v ->
    (evaluate_at Fo (lag_div k) x = 0%F <-> exists i, In i (lag_rows n k) /\ x = pw g i).
  Proof.
    intros Hk. pose proof (p2_pos (k - 1) ltac:(lia)) as Hm. pose proof (p2_pos (v - k + 1) ltac:(lia)) as Hs. split.
    - intros H. assert (Hx : pw x n = 1%F).
      { rewrite lag_div_evaluate_at in H by lia. apply (proj1 (fsub_eq_0 Fo L _ _)) in H.
        replace n with (2 ^ (k - 1) * 2 ^ (v - k + 1)) by (unfold n; rewrite <- Z.pow_add_r by lia; f_equal; lia).
        rewrite <- (pw_pw Fo L) by lia. rewrite H. apply (pw_one_l Fo L). }
      apply (root_in_domain Fo L g n lf_n_pow2 lf_n_lt_2_64 Hgn Hord) in Hx. destruct Hx as (i & Hi & ->).
      exists i. split; [|reflexivity]. apply lag_enforcement_exact; assumption.
    - intros (i & Hi & ->). apply lag_enforcement_exact; [lia| |exact Hi].
      unfold n in Hi. apply lag_rows_spec in Hi; [|lia|lia]. exact (proj1 Hi).
  Qed.

  (* the boundary constraint's denominator x - 1 vanishes on row 0 only *)
  Theorem lag_boundary_row i : 0 <= i < n -> (lag_boundary_denominator Fo (pw g i) = 0%F <-> i = 0).
  Proof.
    intros Hi. unfold lag_boundary_denominator. rewrite (fsub_eq_0 Fo L). change 1%F with (pw g 0). split.
    - intros E. apply (gpow_inj Fo L g n lf_n_pow2 lf_n_lt_2_64 Hgn Hord) in E; [exact E|lia|pose proof lf_n_pos; lia].
    - intros ->. reflexivity.
  Qed.

  (* ---------------------------------------------------------------- which cells a numerator reads *)

  Lemma frame_length col i : Z.of_nat (length (lag_frame_at_row Fo col n v i)) - 1 = v.
  Proof.
    unfold lag_frame_at_row. cbn [length]. rewrite map_length, zrange_length. lia.
  Qed.

  (* numerator k on the frame of row i relates the cells of rows i and i + 2^(v-k) (modulo n), weighted by r[v-k] *)
  Theorem lag_raw_at_row col r k i rk : 1 <= k <= v -> zidx r (v - k) = Some rk ->
    lag_raw Fo (lag_frame_at_row Fo col n v i) r k =
    Some (rk * nth (Z.to_nat i) col 0 - (1 - rk) * nth (Z.to_nat ((i + 2 ^ (v - k)) mod n)) col 0)%F.
  Proof.
    intros Hk Hr. unfold lag_raw. rewrite frame_length.
    replace (v <? 0) with false by (symmetry; apply Z.ltb_ge; lia).
    replace (v <? k) with false by (symmetry; apply Z.ltb_ge; lia).
    rewrite Hr. unfold lag_frame_at_row.
    replace (v - k + 1) with ((v - k) + 1) by lia. rewrite zidx_cons_succ by lia.
    rewrite (zidx_map_zrange (fun j => nth (Z.to_nat ((i + 2 ^ j) mod n)) col 0%F)) by lia.
    reflexivity.
  Qed.

  (* ---------------------------------------------------------------- the honest column *)

  Definition sel (rb : F) (bit : bool) : F := if bit then rb else (1 - rb)%F.

  Fixpoint cellrec (row lo : Z) (r : list F) : F :=
    match r with
    | [] => 1%F
    | rb :: r' => (sel rb (Z.testbit row lo) * cellrec row (lo + 1) r')%F
    end.

  Lemma fold_prod_acc {A} (h : A -> F) l acc :
    fold_left (fun a p => (a * h p)%F) l acc = (acc * fold_left (fun a p => (a * h p)%F) l 1%F)%F.
  Proof.
    revert acc. induction l as [|p l IH]; intros acc; cbn [fold_left]; [ring|].
    rewrite (IH (acc * h p)%F), (IH (1 * h p)%F). ring.
  Qed.

  Lemma cell_fold row lo r :
    fold_left (fun acc p => (acc * (if Z.testbit row (fst p) then snd p else 1 - snd p))%F)
              (combine (zrange lo (lo + Z.of_nat (length r))) r) 1%F = cellrec row lo r.
  Proof.
    revert lo. induction r as [|rb r IH]; intros lo.
    - cbn [length combine cellrec]. destruct (zrange lo (lo + Z.of_nat 0)); reflexivity.
    - cbn [length cellrec]. rewrite zrange_cons by lia. cbn [combine fold_left fst snd].
      rewrite fold_prod_acc. replace (lo + Z.of_nat (S (length r))) with ((lo + 1) + Z.of_nat (length r)) by lia.
      rewrite IH. unfold sel. ring.
  Qed.

  Lemma cell_is_cellrec r row : lag_kernel_cell Fo r row = cellrec row 0 r.
  Proof. unfold lag_kernel_cell. apply (cell_fold row 0 r). Qed.

  Lemma cellrec_ext row row' r : forall lo,
    (forall b, lo <= b < lo + Z.of_nat (length r) -> Z.testbit row b = Z.testbit row' b) ->
    cellrec row lo r = cellrec row' lo r.
  Proof.
    induction r as [|rb r IH]; intros lo H; [reflexivity|]. cbn [cellrec length] in *.
    rewrite (H lo) by lia. rewrite (IH (lo + 1)); [reflexivity|]. intros b Hb. apply H. lia.
  Qed.

  (* two rows that differ in bit b only (clear in row, set in row'): rb * cell(row) = (1 - rb) * cell(row') *)
  Lemma cellrec_cross row row' b rb r : forall lo,
    lo <= b < lo + Z.of_nat (length r) -> zidx r (b - lo) = Some rb ->
    (forall b', lo <= b' < lo + Z.of_nat (length r) -> b' <> b -> Z.testbit row b' = Z.testbit row' b') ->
    Z.testbit row b = false -> Z.testbit row' b = true ->
    (rb * cellrec row lo r = (1 - rb) * cellrec row' lo r)%F.
  Proof.
    induction r as [|r0 r IH]; intros lo Hb Hz Hag H0 H1; [cbn [length] in Hb; lia|].
    cbn [cellrec length] in *. destruct (Z.eq_dec lo b) as [->|Hne].
    - rewrite Z.sub_diag in Hz. cbv in Hz. injection Hz as ->. rewrite H0, H1. unfold sel.
      rewrite (cellrec_ext row row' r (b + 1)); [ring|]. intros b' Hb'. apply Hag; lia.
    - rewrite (Hag lo) by lia. replace (b - lo) with ((b - lo - 1) + 1) in Hz by lia.
      rewrite zidx_cons_succ in Hz by lia.
      assert (IH' := IH (lo + 1) ltac:(lia) ltac:(replace (b - (lo + 1)) with (b - lo - 1) by lia; exact Hz)
                        ltac:(intros b' Hb' Hn; apply Hag; lia) H0 H1).
      transitivity (sel r0 (Z.testbit row' lo) * (rb * cellrec row (lo + 1) r))%F; [ring|]. rewrite IH'. ring.
  Qed.

  (* the bits of an enforced row i = q * 2^(b+1) and of its target i + 2^b *)
  Lemma target_bits q b b' : 0 <= b -> 0 <= b' ->
    Z.testbit (q * 2 ^ (b + 1)) b = false /\ Z.testbit (q * 2 ^ (b + 1) + 2 ^ b) b = true /\
    (b' <> b -> Z.testbit (q * 2 ^ (b + 1)) b' = Z.testbit (q * 2 ^ (b + 1) + 2 ^ b) b').
  Proof.
    intros Hb Hb'.
    assert (E : q * 2 ^ (b + 1) + 2 ^ b = (2 * q + 1) * 2 ^ b) by (rewrite p2_succ by lia; ring).
    rewrite E. split; [apply Z.mul_pow2_bits_low; lia|]. split.
    - rewrite Z.mul_pow2_bits by lia. rewrite Z.sub_diag. apply Z.testbit_odd_0.
    - intros Hne. destruct (Z_lt_le_dec b' b) as [Hlt|Hge].
      + rewrite !Z.mul_pow2_bits_low by lia. reflexivity.
      + rewrite !Z.mul_pow2_bits by lia. replace (b' - b) with (Z.succ (b' - (b + 1))) by lia.
        rewrite Z.testbit_odd_succ by lia. reflexivity.
  Qed.

  (* completeness: on the Lagrange kernel column every numerator vanishes on every row of its enforcement domain *)
  Theorem lag_honest_numerator_zero r k i : Z.of_nat (length r) = v -> 1 <= k <= v -> In i (lag_rows n k) ->
    lag_raw Fo (lag_frame_at_row Fo (lag_kernel_col Fo r n) n v i) r k = Some 0%F.
  Proof.
    intros Hl Hk Hi. destruct (zidx_some r (v - k) ltac:(lia)) as (rk & Hrk & _).
    rewrite (lag_raw_at_row _ r k i rk Hk Hrk). f_equal. apply (fsub_eq_0 Fo L).
    pose proof Hi as Hi'. unfold n in Hi'. apply lag_rows_spec in Hi'; [|lia|lia]. destruct Hi' as [Hir (q & Eq)].
    destruct (lag_target_in_range v Hv k i Hk Hi) as [Ht Em].
    rewrite (shift_is v k Hk) in Ht, Em. fold n in Ht, Em. rewrite Em.
    unfold lag_kernel_col. rewrite !nth_map_zrange by lia. rewrite !cell_is_cellrec.
    replace (v - k + 1) with ((v - k) + 1) in Eq by lia. subst i.
    apply cellrec_cross with (b := v - k).
    - lia.
    - rewrite Z.sub_0_r. exact Hrk.
    - intros b' Hb' Hne. apply (target_bits q (v - k) b'); lia.
    - apply (target_bits q (v - k) 0); lia.
    - apply (target_bits q (v - k) 0); lia.
  Qed.

  Lemma assertion_value_cellrec r : forall lo,
    fold_left (fun acc ri => (acc * (1 - ri))%F) r 1%F = cellrec 0 lo r.
  Proof.
    induction r as [|rb r IH]; intros lo; [reflexivity|].
    cbn [fold_left cellrec]. rewrite (fold_prod_acc (fun ri => (1 - ri)%F)). rewrite (IH (lo + 1)).
    rewrite Z.testbit_0_l. unfold sel. ring.
  Qed.

  Lemma assertion_value_is_cell0 r : lag_assertion_value Fo r = lag_kernel_cell Fo r 0.
  Proof. rewrite cell_is_cellrec. apply assertion_value_cellrec. Qed.

  (* soundness: a column whose cell of row 0 is the asserted value and on which every one of the v numerators vanishes on
     its enforcement domain IS the Lagrange kernel column (no random element equal to 1).  Strong induction on the row:
     j > 0 is the target of an enforced pair (k, i) with i < j, and the vanishing numerator gives (1 - r) * col[j] the
     value it has for the kernel column *)
  Theorem lag_constraints_determine col r : Z.of_nat (length r) = v ->
    (forall rb, In rb r -> (1 - rb)%F <> 0%F) ->
    nth 0 col 0%F = lag_assertion_value Fo r ->
    (forall k i, 1 <= k <= v -> In i (lag_rows n k) ->
       lag_raw Fo (lag_frame_at_row Fo col n v i) r k = Some 0%F) ->
    forall j, 0 <= j < n -> nth (Z.to_nat j) col 0%F = lag_kernel_cell Fo r j.
  Proof.
    intros Hl Hr H0 Hc j Hj. assert (Hj0 : 0 <= j) by lia. revert Hj. pattern j. apply Z_lt_induction; [|exact Hj0].
    clear j Hj0. intros j IH Hjn. destruct (Z.eq_dec j 0) as [->|Hne].
    - cbn [Z.to_nat]. rewrite H0. apply assertion_value_is_cell0.
    - assert (Hj : 0 < j < n) by lia.
      destruct (lag_target_exists v Hv j Hj) as (k & i & Hk & Hi & Ej). rewrite (shift_is v k Hk) in Ej. fold n in Hi.
      destruct (zidx_some r (v - k) ltac:(lia)) as (rk & Hrk & Hin).
      pose proof (Hc k i Hk Hi) as Hnum. rewrite (lag_raw_at_row col r k i rk Hk Hrk) in Hnum.
      injection Hnum as Hnum. apply (proj1 (fsub_eq_0 Fo L _ _)) in Hnum.
      pose proof (lag_honest_numerator_zero r k i Hl Hk Hi) as Hh.
      rewrite (lag_raw_at_row _ r k i rk Hk Hrk) in Hh. injection Hh as Hh. apply (proj1 (fsub_eq_0 Fo L _ _)) in Hh.
      destruct (lag_target_in_range v Hv k i Hk Hi) as [Ht Em].
      rewrite (shift_is v k Hk) in Ht, Em. fold n in Ht, Em. rewrite Em, <- Ej in Hnum, Hh.
      pose proof Hi as Hi'. unfold n in Hi'. apply lag_rows_spec in Hi'; [|lia|lia].
      pose proof (p2_pos (v - k) ltac:(lia)).
      unfold lag_kernel_col in Hh. rewrite !nth_map_zrange in Hh by lia.
      rewrite (IH i) in Hnum by lia.
      apply (fmul_cancel_l Fo L (1 - rk)%F); [apply Hr; exact Hin|]. rewrite <- Hnum, <- Hh. reflexivity.
  Qed.

  (* ---------------------------------------------------------------- frames built from the column polynomial *)

  Lemma pw_sq x m : 0 <= m -> pw (x * x)%F m = pw x (2 * m).
  Proof.
    intros Hm. rewrite (pw_mul_base Fo L), <- (pw_add Fo L) by lia. f_equal. lia.
  Qed.

  Lemma lag_frame_go_spec poly z fuel : forall gexp,
    lag_frame_go Fo poly z gexp fuel =
    map (fun j => poly_eval Fo poly (pw gexp (2 ^ j) * z)%F) (zrange 0 (Z.of_nat fuel)).
  Proof.
    induction fuel as [|f IH]; intros gexp; [reflexivity|].
    cbn [lag_frame_go]. rewrite zrange_cons by lia. cbn [map]. f_equal.
    rewrite IH. replace (Z.of_nat (S f)) with (Z.of_nat f + 1) by lia. rewrite (zrange_shift 0 (Z.of_nat f)), map_map.
    apply map_ext_in. intros j Hj. apply In_zrange in Hj. rewrite pw_sq by (pose proof (p2_pos j); lia).
    rewrite p2_succ by lia. reflexivity.
  Qed.

  (* on the trace domain from_lagrange_kernel_column_poly returns the cells of rows i, i+1, i+2, i+4, .., i+2^(v-1) *)
  Theorem lag_frame_from_poly_on_domain poly col i :
    (forall j, 0 <= j < n -> poly_eval Fo poly (pw g j) = nth (Z.to_nat j) col 0%F) -> 0 <= i < n ->
    lag_frame_from_poly Fo g v poly (pw g i) = lag_frame_at_row Fo col n v i.
  Proof.
    intros Hp Hi. unfold lag_frame_from_poly, lag_frame_at_row. rewrite Hp by lia. f_equal.
    rewrite lag_frame_go_spec. rewrite Z2Nat.id by lia. apply map_ext_in. intros j Hj. apply In_zrange in Hj.
    pose proof (p2_pos j ltac:(lia)). pose proof lf_n_pos.
    rewrite <- (pw_add Fo L) by lia. rewrite <- Hp by (apply Z.mod_pos_bound; lia). f_equal.
    apply g_eq_iff; [lia|apply Z.mod_pos_bound; lia|]. rewrite Z.mod_mod by lia. f_equal. lia.
  Qed.
End LagField.
