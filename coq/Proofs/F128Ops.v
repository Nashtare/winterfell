(* f128 public operations against integer arithmetic modulo M = 2^128 - 45*2^40 + 1
   (generated terms from Gen/F128.v).  Elements are canonical: the value map is the identity. *)
From Coq Require Import ZArith Lia Bool List.
From VBase Require Import MachInt ZpOps.
From VGen Require Import F128.
From VProofs Require WhileLoop.
From VProofs Require Import MachIntFacts NumTheoryFermat FastMod NumTheoryPrime F128Limbs.
Open Scope Z_scope.

Definition repr128 (x : Z) : Prop := 0 <= x < M.

Lemma M_pos : 0 < M. Proof. reflexivity. Qed.
Lemma repr128_mod x : repr128 (x mod M). Proof. apply Z.mod_pos_bound, M_pos. Qed.

(* ------------------------------------------------------------------ add / sub / neg / new *)
(* shape-independent proofs: every comparison is case-split, every wrap is of a value in range and is dropped, the rest
   is linear arithmetic (with one `mod M`); they survive a reordering of branches or operands in the Rust source
   (seeded/harmless/H6).  Leaving the wraps to lia as `mod 2^128` equations works too but takes it many seconds. *)
Ltac split_cmp :=
  repeat match goal with
  | |- context[Z.ltb ?x ?y] => destruct (Z.ltb_spec x y)
  | |- context[Z.leb ?x ?y] => destruct (Z.leb_spec x y)
  | |- context[Z.eqb ?x ?y] => destruct (Z.eqb_spec x y)
  end.
Ltac wraps_small :=
  repeat match goal with
  | |- context[wrap 128 ?x] => rewrite (wrap_small 128 x) by (unfold M in *; lia)
  end.
Ltac f128_lin :=
  unfold repr128 in *; cbv zeta; rewrite ?Z.geb_leb, ?Z.gtb_ltb, ?M_eq; unfold in_u;
  wraps_small; repeat (split_cmp; wraps_small; cbn [andb negb orb]);
  try reflexivity; unfold M in *; try lia; Z.div_mod_to_equations; lia.

Theorem f128_add_spec a b : repr128 a -> repr128 b -> f128_add a b = (a + b) mod M.
Proof. intros Ha Hb. unfold f128_add, f128_fn_add. f128_lin. Qed.

Theorem f128_add_ok_spec a b : repr128 a -> repr128 b -> f128_add_ok a b = true.
Proof. intros Ha Hb. unfold f128_add_ok, f128_fn_add_ok. f128_lin. Qed.

Theorem f128_sub_spec a b : repr128 a -> repr128 b -> f128_sub a b = (a - b) mod M.
Proof. intros Ha Hb. unfold f128_sub, f128_fn_sub. f128_lin. Qed.

Theorem f128_sub_ok_spec a b : repr128 a -> repr128 b -> f128_sub_ok a b = true.
Proof. intros Ha Hb. unfold f128_sub_ok, f128_fn_sub_ok. f128_lin. Qed.

Theorem f128_neg_spec a : repr128 a -> f128_neg a = (- a) mod M.
Proof.
  intros Ha. unfold f128_neg. change (f128_fn_sub 0 a) with (f128_sub 0 a).
  rewrite f128_sub_spec by (exact Ha || (unfold repr128, M; lia)). reflexivity.
Qed.

Theorem f128_neg_ok_spec a : repr128 a -> f128_neg_ok a = true.
Proof.
  intros Ha. unfold f128_neg_ok. change (f128_fn_sub_ok 0 a) with (f128_sub_ok 0 a).
  apply f128_sub_ok_spec; [unfold repr128, M; lia|exact Ha].
Qed.

Theorem f128_new_spec v : 0 <= v < 2^128 -> f128_new v = v mod M.
Proof.
  intros Hv. unfold f128_new. rewrite M_eq, <- (reduce_once M v) by (unfold M; lia).
  destruct (Z.ltb_spec v M) as [H|H]; [reflexivity|]. apply wrap_small. unfold M in *; lia.
Qed.

Theorem f128_new_ok_spec v : 0 <= v < 2^128 -> f128_new_ok v = true.
Proof.
  intros Hv. unfold f128_new_ok. rewrite M_eq.
  destruct (Z.ltb_spec v M) as [H|H]; [reflexivity|].
  unfold in_u. apply andb_true_iff; split; unfold M in *; lia.
Qed.

Theorem f128_new_repr v : 0 <= v < 2^128 -> repr128 (f128_new v).
Proof. intros Hv. rewrite f128_new_spec by exact Hv. apply repr128_mod. Qed.

Theorem f128_as_int_spec x : f128_as_int x = x.
Proof. reflexivity. Qed.

Theorem f128_try_from_u128_spec v : 0 <= v < 2^128 ->
  f128_try_from_u128 v = if v <? M then Some v else None.
Proof.
  intros Hv. unfold f128_try_from_u128. rewrite M_eq.
  rewrite Z.geb_leb. destruct (Z.leb_spec M v) as [H|H]; destruct (Z.ltb_spec v M) as [H'|H']; try lia.
  - reflexivity.
  - rewrite f128_new_spec by exact Hv. rewrite Z.mod_small by lia. reflexivity.
Qed.

Theorem f128_try_from_u128_ok_spec v : 0 <= v < 2^128 -> f128_try_from_u128_ok v = true.
Proof.
  intros Hv. unfold f128_try_from_u128_ok.
  destruct (Z.geb v f128_M); [reflexivity|]. apply f128_new_ok_spec; exact Hv.
Qed.

(* ------------------------------------------------------------------ mul *)
(* conditional correction used three times in mul:  (lo,hi) |-> (lo,hi) - M  as a 128-bit value *)
Definition csub (c : bool) (lo hi : Z) : Z * Z :=
  if c then (let '(t0, t1) := f128_sub_modulus lo hi in (t0, t1)) else (lo, hi).

(* first case: a carry out of 128 bits with a small remainder: 2^128 + w  ==>  w + C *)
Lemma csub_carry lo hi (k : Z) : 0 <= lo < 2^64 -> 0 <= hi < 2^64 -> 0 <= k <= 1 ->
  (k = 1 -> lo + hi * 2^64 < M) ->
  let '(r0, r1) := csub (k =? 1) lo hi in
  0 <= r0 < 2^64 /\ 0 <= r1 < 2^64 /\ r0 + r1 * 2^64 = lo + hi * 2^64 + k * 2^128 - k * M.
Proof.
  intros Hlo Hhi Hk Hsm. unfold csub.
  destruct (Z.eqb_spec k 1) as [E|E].
  - pose proof (sub_modulus_spec lo hi Hlo Hhi) as Hs.
    destruct (f128_sub_modulus lo hi) as [t0 t1]. destruct Hs as (T0 & T1 & Et).
    rewrite (mod_eq _ _ (-1) (lo + hi * 2^64 - M + 2^128)) in Et by (specialize (Hsm E); unfold M in *; lia).
    subst k. lia.
  - assert (k = 0) by lia. subst k. lia.
Qed.

Lemma fn_mul_unfold a b :
  f128_fn_mul a b =
  let '(x0, x1, x2) := f128_mul_128x64 a (wrap 64 (shr b 64)) in
  let '(x0, x1, x2) := f128_mul_reduce x0 x1 x2 in
  let '(x0, x1) := csub (x2 =? 1) x0 x1 in
  let '(y0, y1, y2) := f128_mul_128x64 a (wrap 64 b) in
  let '(y1, carry) := f128_add64_with_carry y1 x0 0 in
  let '(y2, y3) := f128_add64_with_carry y2 x1 carry in
  let '(y1, y2) := csub (y3 =? 1) y1 y2 in
  let '(z0, z1, z2) := f128_mul_reduce y0 y1 y2 in
  let '(z0, z1) := csub (orb (z2 =? 1) (andb (z1 =? wrap 64 (shr f128_M 64)) (z0 >=? wrap 64 f128_M))) z0 z1 in
  wrap 128 (shl 128 z1 64 + z0).
Proof. reflexivity. Qed.

Lemma fn_mul_ok_unfold a b :
  f128_fn_mul_ok a b =
  andb (f128_mul_128x64_ok a (wrap 64 (shr b 64))) (let '(x0, x1, x2) := f128_mul_128x64 a (wrap 64 (shr b 64)) in
  andb (f128_mul_reduce_ok x0 x1 x2) (let '(x0, x1, x2) := f128_mul_reduce x0 x1 x2 in
  let '(x0, x1) := csub (x2 =? 1) x0 x1 in
  andb (f128_mul_128x64_ok a (wrap 64 b)) (let '(y0, y1, y2) := f128_mul_128x64 a (wrap 64 b) in
  andb (f128_add64_with_carry_ok y1 x0 0) (let '(y1, carry) := f128_add64_with_carry y1 x0 0 in
  andb (f128_add64_with_carry_ok y2 x1 carry) (let '(y2, y3) := f128_add64_with_carry y2 x1 carry in
  let '(y1, y2) := csub (y3 =? 1) y1 y2 in
  andb (f128_mul_reduce_ok y0 y1 y2) (let '(z0, z1, z2) := f128_mul_reduce y0 y1 y2 in
  let '(z0, z1) := csub (orb (z2 =? 1) (andb (z1 =? wrap 64 (shr f128_M 64)) (z0 >=? wrap 64 f128_M))) z0 z1 in
  in_u 128 (shl 128 z1 64 + z0))))))).
Proof. reflexivity. Qed.

(* The whole of mul, as a staged computation on integers.  Every stage is an exact integer
   identity "new = old - k*M (times a power of 2^64)", so a*b = result + K*M at the end. *)
Theorem f128_fn_mul_both a b : repr128 a -> repr128 b ->
  f128_fn_mul a b = (a * b) mod M /\ f128_fn_mul_ok a b = true.
Proof.
  unfold repr128. intros Ha Hb.
  rewrite fn_mul_unfold, fn_mul_ok_unfold.
  assert (Ha' : 0 <= a < 2^128) by (unfold M in *; lia).
  destruct (split64 b) as (Hbl & Hbh0 & Eb); [lia|].
  assert (Hbh : shr b 64 < 2^64) by (unfold M in *; lia).
  rewrite (wrap_small 64 (shr b 64)) by lia.
  set (bl := wrap 64 b) in *. set (bh := shr b 64) in *.
  (* stage 1: x = a * bh *)
  rewrite (mul_128x64_ok_spec a bh Ha' ltac:(lia)).
  pose proof (mul_128x64_spec a bh Ha' ltac:(lia)) as S1.
  destruct (f128_mul_128x64 a bh) as [[x0 x1] x2]. destruct S1 as (X0 & X1 & X2 & Ex).
  (* stage 2: x' = x - x2*M *)
  rewrite (mul_reduce_ok_spec x0 x1 x2 X0 X1 X2).
  pose proof (mul_reduce_spec x0 x1 x2 X0 X1 X2) as S2.
  destruct (f128_mul_reduce x0 x1 x2) as [[x0' x1'] x2']. destruct S2 as (X0' & X1' & X2' & Ex' & Sx').
  (* stage 3: x'' = x' - x2'*M, below 2^128 *)
  pose proof (csub_carry x0' x1' x2' X0' X1' X2' ltac:(unfold M; lia)) as S3.
  destruct (csub (x2' =? 1) x0' x1') as [x0'' x1'']. destruct S3 as (X0'' & X1'' & Ex'').
  (* stage 4: y = a * bl *)
  rewrite (mul_128x64_ok_spec a bl Ha' Hbl).
  pose proof (mul_128x64_spec a bl Ha' Hbl) as S4.
  destruct (f128_mul_128x64 a bl) as [[y0 y1] y2]. destruct S4 as (Y0 & Y1 & Y2 & Ey).
  (* stage 5: y' = y + x''*2^64, four limbs *)
  rewrite (add64_with_carry_ok_spec y1 x0'' 0 Y1 X0'' ltac:(lia)).
  pose proof (add64_with_carry_spec y1 x0'' 0 Y1 X0'' ltac:(lia)) as S5.
  destruct (f128_add64_with_carry y1 x0'' 0) as [y1' carry]. destruct S5 as (Y1' & Hc & Ey1).
  assert (Hc' : 0 <= carry <= 1) by lia.
  rewrite (add64_with_carry_ok_spec y2 x1'' carry Y2 X1'' ltac:(lia)).
  pose proof (add64_with_carry_spec y2 x1'' carry Y2 X1'' ltac:(lia)) as S6.
  destruct (f128_add64_with_carry y2 x1'' carry) as [y2' y3]. destruct S6 as (Y2' & Hy3 & Ey2).
  assert (Hy3' : 0 <= y3 <= 1) by lia.
  (* a < M and bl < 2^64, so the top 128 bits of y are below M - 1; this is what makes the
     second correction safe ("needs to be proven" in the source) *)
  set (ab_l := a * bl) in *. set (ab_h := a * bh) in *.
  assert (Bl : 0 <= ab_l <= (M - 1) * (2^64 - 1)).
  { unfold ab_l. split; [apply Z.mul_nonneg_nonneg; lia|]. apply Z.mul_le_mono_nonneg; lia. }
  assert (Hsmall : y3 = 1 -> y1' + y2' * 2^64 < M) by (intros ->; unfold M in *; lia).
  (* stage 6: y'' = y' - y3 * M * 2^64 *)
  pose proof (csub_carry y1' y2' y3 Y1' Y2' Hy3' Hsmall) as S7.
  destruct (csub (y3 =? 1) y1' y2') as [y1'' y2'']. destruct S7 as (Y1'' & Y2'' & Ey'').
  (* stage 7: z = y'' - y2''*M *)
  rewrite (mul_reduce_ok_spec y0 y1'' y2'' Y0 Y1'' Y2'').
  pose proof (mul_reduce_spec y0 y1'' y2'' Y0 Y1'' Y2'') as S8.
  destruct (f128_mul_reduce y0 y1'' y2'') as [[z0 z1] z2]. destruct S8 as (Z0 & Z1 & Z2 & Ez & Sz).
  (* stage 8: final correction *)
  rewrite M_lo, M_hi.
  set (cnd := orb (z2 =? 1) (andb (z1 =? 2^64 - 1) (z0 >=? 2^64 - C))).
  assert (Hfin : let '(r0, r1) := csub cnd z0 z1 in
     0 <= r0 < 2^64 /\ 0 <= r1 < 2^64 /\ 0 <= r0 + r1 * 2^64 < M /\
     exists e, r0 + r1 * 2^64 = z0 + z1 * 2^64 + z2 * 2^128 - e * M).
  { unfold csub, cnd. rewrite Z.geb_leb.
    destruct (Z.eqb_spec z2 1) as [E2|E2]; cbn [orb].
    - pose proof (sub_modulus_spec z0 z1 Z0 Z1) as Hs.
      destruct (f128_sub_modulus z0 z1) as [t0 t1]. destruct Hs as (T0 & T1 & Et).
      specialize (Sz E2).
      rewrite (mod_eq _ _ (-1) (z0 + z1 * 2^64 - M + 2^128)) in Et by (unfold M in *; lia).
      repeat split; try lia; [unfold M in *; lia|]. exists 1. subst z2. lia.
    - assert (z2 = 0) by lia. subst z2.
      destruct (Z.eqb_spec z1 (2^64 - 1)) as [E1|E1]; cbn [andb].
      + destruct (Z.leb_spec (2^64 - C) z0) as [E0|E0].
        * pose proof (sub_modulus_spec z0 z1 Z0 Z1) as Hs.
          destruct (f128_sub_modulus z0 z1) as [t0 t1]. destruct Hs as (T0 & T1 & Et).
          rewrite (mod_eq _ _ 0 (z0 + z1 * 2^64 - M)) in Et by (unfold M, C in *; lia).
          repeat split; try lia; [unfold M, C in *; lia|]. exists 1. lia.
        * repeat split; try lia; [unfold M, C in *; lia|]. exists 0. lia.
      + repeat split; try lia; [unfold M, C in *; lia|]. exists 0. lia. }
  destruct (csub cnd z0 z1) as [r0 r1]. destruct Hfin as (R0 & R1 & Rm & e & Er).
  rewrite shl_limb by exact R1.
  assert (Rw : 0 <= r1 * 2^64 + r0 < 2^128) by lia.
  rewrite (wrap_small 128 (r1 * 2^64 + r0)) by exact Rw.
  split.
  - symmetry.
    assert (Eab : a * b = ab_l + ab_h * 2^64) by (unfold ab_l, ab_h; rewrite Eb; ring).
    apply (mod_eq _ _ (e + y2'' + (y3 + x2' + x2) * 2^64)); [lia|].
    rewrite Eab. lia.
  - unfold in_u. cbn [andb]. apply andb_true_iff; split; lia.
Qed.

Theorem f128_mul_spec a b : repr128 a -> repr128 b -> f128_mul a b = (a * b) mod M.
Proof. intros Ha Hb. exact (proj1 (f128_fn_mul_both a b Ha Hb)). Qed.

Theorem f128_mul_ok_spec a b : repr128 a -> repr128 b -> f128_mul_ok a b = true.
Proof. intros Ha Hb. exact (proj2 (f128_fn_mul_both a b Ha Hb)). Qed.

Corollary f128_mul_repr a b : repr128 a -> repr128 b -> repr128 (f128_mul a b).
Proof. intros Ha Hb. rewrite f128_mul_spec by assumption. apply repr128_mod. Qed.

(* ------------------------------------------------------------------ loop rules of WhileLoop.v, restated *)
Lemma while_loop_inv {S : Type} (I : S -> Prop) (cond : S -> bool) (body : S -> S) :
  (forall s, I s -> cond s = true -> I (body s)) ->
  forall fuel s r, I s -> while_loop fuel cond body s = Some r -> I r /\ cond r = false.
Proof. exact (WhileLoop.while_loop_inv I cond body). Qed.

Lemma while_loop_term {S : Type} (R : nat -> S -> Prop) (cond : S -> bool) (body : S -> S) :
  (forall s, R O s -> cond s = false) ->
  (forall n s, R (Datatypes.S n) s -> cond s = true -> R n (body s)) ->
  forall n s, R n s -> exists r, while_loop n cond body s = Some r.
Proof. exact (WhileLoop.while_loop_term R cond body). Qed.

Lemma while_loop_fuel_mono {S : Type} (cond : S -> bool) (body : S -> S) :
  forall n m s r, (n <= m)%nat -> while_loop n cond body s = Some r -> while_loop m cond body s = Some r.
Proof.
  induction n as [|n IH]; intros m s r Hle; cbn [while_loop].
  - destruct (cond s) eqn:E; [discriminate|]. intros H. destruct m; cbn [while_loop]; rewrite E; exact H.
  - destruct m as [|m]; [lia|]. cbn [while_loop]. destruct (cond s); [|trivial]. apply IH. lia.
Qed.

(* ------------------------------------------------------------------ exp *)
Lemma f128_exp_unfold fuel a p :
  f128_exp fuel a p =
  if p =? 0 then Some 1 else if a =? 0 then Some 0 else
  match while_loop fuel WhileLoop.expv_cond (WhileLoop.expv_body f128_mul) (1, p, a) with
  | None => None
  | Some (r, _, _) => Some r
  end.
Proof. reflexivity. Qed.

(* f128 words are their own values: the loop of WhileLoop.v with val the identity *)
Lemma f128_mul_both a b : repr128 a -> repr128 b -> repr128 (f128_mul a b) /\ f128_mul a b = (a * b) mod M.
Proof. intros Ha Hb. split; [apply f128_mul_repr; assumption | apply f128_mul_spec; assumption]. Qed.

Theorem f128_exp_sound fuel a p r : repr128 a -> 0 <= p < 2^128 ->
  f128_exp fuel a p = Some r -> r = (a ^ p) mod M.
Proof.
  intros Ha Hp. rewrite f128_exp_unfold.
  destruct (Z.eqb_spec p 0) as [->|Hp0].
  { intros [= <-]. reflexivity. }
  destruct (Z.eqb_spec a 0) as [->|Ha0].
  { intros [= <-]. rewrite Z.pow_0_l by lia. reflexivity. }
  destruct (while_loop fuel WhileLoop.expv_cond (WhileLoop.expv_body f128_mul) (1, p, a)) as [[[r' q'] b']|] eqn:W;
    [|discriminate].
  intros [= <-].
  assert (R1 : repr128 1) by (unfold repr128, M; lia).
  exact (proj2 (WhileLoop.expv_sound M repr128 (fun x => x) f128_mul M_pos (fun x H => H) f128_mul_both
                  fuel 1 a p r' q' b' R1 eq_refl Ha (proj1 Hp) W)).
Qed.

Theorem f128_exp_repr fuel a p r : repr128 a -> 0 <= p < 2^128 ->
  f128_exp fuel a p = Some r -> repr128 r.
Proof. intros Ha Hp H. rewrite (f128_exp_sound fuel a p r Ha Hp H). apply repr128_mod. Qed.

Theorem f128_exp_terminates a p : 0 <= p < 2^128 -> exists r, f128_exp 130 a p = Some r.
Proof.
  intros Hp. rewrite f128_exp_unfold.
  destruct (p =? 0); [eauto|]. destruct (a =? 0); [eauto|].
  destruct (WhileLoop.expv_terminates f128_mul 130 1 p a) as [[[r q] b] ->]; [|eauto].
  change (2 ^ Z.of_nat 130) with (2^130). lia.
Qed.

(* ------------------------------------------------------------------ constants *)
Lemma f128_modulus_def :
  f128_MODULUS = 2^128 - 45 * 2^40 + 1 /\ f128_MODULUS = M /\ f128_MODULUS_BITS = 128 /\ 2^127 <= M < 2^128.
Proof. repeat split; discriminate. Qed.

Lemma f128_consts_repr :
  f128_ZERO = 0 /\ f128_ONE = 1 /\ f128_GENERATOR = 3 /\ repr128 f128_TWO_ADIC_ROOT_OF_UNITY.
Proof. repeat split; discriminate. Qed.

Lemma f128_Mm1_factored : M - 1 = 2^40 * 29 * 181 * 286619 * 11394379 * 18053749339.
Proof. reflexivity. Qed.

(* 3 is a primitive root: 3^(M-1) = 1 and 3^((M-1)/q) <> 1 for each prime q | M-1 *)
Lemma f128_generator_order :
  3 ^ (M - 1) mod M = 1 /\
  3 ^ ((M - 1) / 2) mod M <> 1 /\ 3 ^ ((M - 1) / 29) mod M <> 1 /\
  3 ^ ((M - 1) / 181) mod M <> 1 /\ 3 ^ ((M - 1) / 286619) mod M <> 1 /\
  3 ^ ((M - 1) / 11394379) mod M <> 1 /\ 3 ^ ((M - 1) / 18053749339) mod M <> 1.
Proof.
  destruct (lucas_check_order_pow _ _ _ P128_lucas) as [H1 H].
  repeat apply conj; [exact H1|apply H; cbn [In]; tauto ..].
Qed.

Lemma f128_two_adicity :
  f128_TWO_ADICITY = 40 /\ (M - 1) mod 2^40 = 0 /\ Z.odd ((M - 1) / 2^40) = true.
Proof. repeat split. Qed.

Lemma f128_root_def :
  f128_TWO_ADIC_ROOT_OF_UNITY = f128_G /\ f128_G = 3 ^ ((M - 1) / 2^40) mod M.
Proof.
  split; [reflexivity|].
  rewrite <- zpow_mod_spec by (vm_compute; try reflexivity; discriminate).
  change M with P128. rewrite (zpow_mod_rd P128 red128 red128_mod). vm_compute. reflexivity.
Qed.

Lemma f128_root_pow :
  f128_G ^ (2^40) mod M = 1 /\ f128_G ^ (2^39) mod M = M - 1.
Proof.
  rewrite <- !zpow_mod_spec by (vm_compute; try reflexivity; discriminate).
  change M with P128. rewrite !(zpow_mod_rd P128 red128 red128_mod). split; vm_compute; reflexivity.
Qed.

(* the order of the root of unity is exactly 2^40 *)
Theorem f128_root_order_exact :
  f128_G ^ (2^40) mod M = 1 /\ forall k, 0 < k < 2^40 -> f128_G ^ k mod M <> 1.
Proof.
  split; [exact (proj1 f128_root_pow)|].
  apply (order_pow2_exact M f128_G 40); [reflexivity | lia | exact (proj2 f128_root_pow)].
Qed.

Lemma repr128_inhabited : repr128 (M - 1) /\ repr128 0.
Proof. split; split; (discriminate || reflexivity). Qed.
