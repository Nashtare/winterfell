(* C17 — the prover's Lagrange-kernel part of the evaluation table (prover/src/constraints/evaluator/lagrange.rs) equals
   the definition  sum_k cc_k * numerator_k(x) / (x^(2^(k-1)) - 1) + cc_b * (L(x) - prod(1 - r_i)) / (x - 1)  at every
   point x_i = w_ce^i * offset of the ce domain, and the verifier's Lagrange section is the same expression.  The numerators
   are C16's (coq/Model/EnforceLagrange.v).  stdlib style; arbitrary field with FLaws, arbitrary sizes.  Divisions are by
   finv (x / 0 = 0), as in the code: no non-vanishing hypothesis. *)
From Coq Require Import List Arith Bool Lia Ring Field ZArith.
From VBase Require Import MachInt FieldOps.
From VModel Require Import Composition CompositionLagrange.
From VModel Require Enforce EnforceLagrange.
From VProofs Require EnforceField EnforceLagrangeProofs.
From VProofs Require Import ListFacts CompositionBase CompositionIndex.
Import ListNotations.
Local Open Scope nat_scope.

(* where slice k starts in the one vector of all divisor evaluations: sum_{j<k} len / 2^j *)
Fixpoint psum (len k : nat) : nat := match k with 0 => 0 | S k' => psum len k' + len / 2 ^ k' end.

Lemma psum_shift len : forall k, len + psum (len / 2) k = psum len (S k).
Proof.
  induction k; cbn [psum].
  - rewrite Nat.pow_0_r, Nat.div_1_r. lia.
  - cbn [psum] in IHk. rewrite Nat.add_assoc, IHk. f_equal.
    rewrite Nat.div_div by (try lia; apply Nat.pow_nonzero; lia). reflexivity.
Qed.

Section LagrangeProofs.
Context {F : Type} (O : FOps F) (L : FLaws O).
Add Ring Fr : (FLaws_ring_theory O L).
Local Notation fz := (fzero O).
Local Notation f1 := (fone O).
Local Infix "+f" := (fadd O) (at level 50, left associativity).
Local Infix "-f" := (fsub O) (at level 50, left associativity).
Local Infix "*f" := (fmul O) (at level 40, left associativity).
Local Notation cpow := (cpow O).
Local Notation peval := (peval O).
Local Notation rsum := (rsum O).

Variable n ceb ldeb r' : nat.
Variable offset : F.
Variable rou : nat -> F.
Variable wlde : F.
Hypothesis n_pos : n <> 0.
Hypothesis ceb_pos : ceb <> 0.
Hypothesis r_pos : r' <> 0.
Hypothesis ldeb_eq : ldeb = ceb * r'.
Local Notation ce_size := (ce_size n ceb).
Local Notation lde_size := (lde_size n ldeb).
Local Notation wce := (wce n ceb rou).
Local Notation g := (gtrace n rou).
Local Notation ce_x := (ce_x O n ceb offset rou).
Hypothesis wlde_order : cpow wlde lde_size = f1.
Hypothesis wlde_wce : cpow wlde r' = wce.
Hypothesis wlde_g : cpow wlde ldeb = g.

Lemma setting : CeSetting O n ceb ldeb r' rou wlde.
Proof. now constructor. Qed.
Lemma ce_pos : ce_size <> 0.
Proof. now apply ce_size_pos. Qed.

(* ---------------------------------------------------------------- TransitionDivisorEvaluator *)
Lemma s_precomputes_from_nth : forall m s e k, s = cpow offset e -> k < m ->
  nth_error (s_precomputes_from O offset s m) k = Some (cpow offset (2 ^ k * (e + 1) - 1)).
Proof.
  induction m; intros s e k Hs Hk; [lia|]. destruct k; cbn [s_precomputes_from nth_error].
  - f_equal. rewrite Hs. f_equal. cbn. lia.
  - rewrite (IHm _ (e + e + 1)) by (try lia; rewrite Hs, !(cpow_add O L); cbn; ring).
    f_equal. f_equal. cbn [Nat.pow]. pose proof (Nat.pow_nonzero 2 k ltac:(lia)). nia.
Qed.

Lemma s_precomputes_nth m k : k < m -> nth_error (s_precomputes O offset m) k = Some (cpow offset (2 ^ k - 1)).
Proof.
  intros Hk. unfold s_precomputes. rewrite (s_precomputes_from_nth m f1 0 k) by (auto; reflexivity).
  f_equal. f_equal. lia.
Qed.

(* s_idx * x_(2^idx * step) = offset^(2^idx - 1) * (wce^(2^idx * step) * offset) = (x_step)^(2^idx) *)
Lemma evaluate_ith_divisor_spec m idx step : idx < m ->
  evaluate_ith_divisor O n ceb offset rou (s_precomputes O offset m) idx step = Some (cpow (ce_x step) (2 ^ idx) -f f1).
Proof.
  intros Hi. unfold evaluate_ith_divisor. destruct ce_size eqn:E; [exfalso; apply ce_pos; exact E|]. rewrite <- E.
  pose proof ce_pos as Hc.
  rewrite (s_precomputes_nth m idx Hi).
  rewrite (get_ce_x_at_spec O L n ceb offset rou) by (apply Nat.mod_upper_bound; exact Hc).
  f_equal. f_equal. unfold CompositionIndex.ce_x.
  rewrite (cpow_mod O L) by (exact Hc || exact (wce_order O L setting)).
  rewrite (cpow_mul_base O L), <- (cpow_mul O L), (Nat.mul_comm step).
  assert (Ho : cpow offset (2 ^ idx) = cpow offset (2 ^ idx - 1) *f offset).
  { pose proof (Nat.pow_nonzero 2 idx ltac:(lia)). replace (2 ^ idx) with (S (2 ^ idx - 1)) at 1 by lia.
    apply (cpow_S_r O L). }
  rewrite Ho. ring.
Qed.

Definition div_lists (m : nat) : list (list F) :=
  map (fun idx => map (fun step => cpow (ce_x step) (2 ^ idx) -f f1) (seq 0 (ce_size / 2 ^ idx))) (seq 0 m).

Lemma divisor_evals_inv_spec m :
  divisor_evals_inv O n ceb offset rou m = Some (map (finv O) (concat (div_lists m))).
Proof.
  unfold divisor_evals_inv, div_lists.
  rewrite (mapM_some _ (fun idx => map (fun step => cpow (ce_x step) (2 ^ idx) -f f1) (seq 0 (ce_size / 2 ^ idx)))).
  - reflexivity.
  - intros idx Hin. apply in_seq in Hin. apply mapM_some. intros step _. apply evaluate_ith_divisor_spec. lia.
Qed.

(* ---------------------------------------------------------------- slices *)
Lemma slice_indices_from_nth : forall m st len k, k <= m ->
  nth_error (slice_indices_from st len m) k = Some (st + psum len k).
Proof.
  induction m; intros st len k Hk.
  - assert (k = 0) by lia. subst. cbn. f_equal. lia.
  - destruct k; cbn [slice_indices_from nth_error]; [cbn; f_equal; lia|].
    rewrite IHm by lia. f_equal. rewrite <- psum_shift. lia.
Qed.

Lemma div_lists_nth m idx : idx < m ->
  nth idx (div_lists m) [] = map (fun step => cpow (ce_x step) (2 ^ idx) -f f1) (seq 0 (ce_size / 2 ^ idx)).
Proof.
  exact (nth_map_seq (fun i => map (fun step => cpow (ce_x step) (2 ^ i) -f f1) (seq 0 (ce_size / 2 ^ i))) m idx []).
Qed.

Lemma div_lists_prefix m : forall k, k <= m -> length (concat (firstn k (div_lists m))) = psum ce_size k.
Proof.
  induction k; intros Hk; [reflexivity|].
  assert (Hl : k < length (div_lists m)) by (unfold div_lists; rewrite map_length, seq_length; lia).
  rewrite (firstn_S_nth (div_lists m) k []) by exact Hl.
  rewrite concat_app, app_length, IHk by lia. cbn [psum concat]. rewrite app_nil_r. f_equal.
  rewrite div_lists_nth by lia. now rewrite map_length, seq_length.
Qed.

(* slice idx holds only ce_size / 2^idx values, yet `row mod slice.len()` reads the right one for EVERY row: x^(2^idx) has
   that period in the row when 2^idx divides ce_size *)
Lemma get_inverse_divisor_eval_spec m idx row : idx < m -> 2 ^ idx * (ce_size / 2 ^ idx) = ce_size ->
  get_inverse_divisor_eval (map (finv O) (concat (div_lists m))) (slice_indices n ceb m) idx row
  = Some (finv O (cpow (ce_x row) (2 ^ idx) -f f1)).
Proof.
  intros Hi Hdiv. unfold get_inverse_divisor_eval, slice_indices.
  rewrite !slice_indices_from_nth by lia. cbn [Nat.add].
  set (Lk := ce_size / 2 ^ idx) in *.
  assert (HL : Lk <> 0) by (intros H0; rewrite H0 in Hdiv; pose proof ce_pos; lia).
  assert (Hlen : length (div_lists m) = m) by (unfold div_lists; now rewrite map_length, seq_length).
  assert (Hen : psum ce_size (S idx) <= length (map (finv O) (concat (div_lists m)))).
  { rewrite map_length, (concat_split (div_lists m) (S idx)), app_length, div_lists_prefix by lia. lia. }
  cbn [psum] in *. fold Lk in Hen |- *.
  replace (psum ce_size idx <=? psum ce_size idx + Lk) with true by (symmetry; apply Nat.leb_le; lia).
  replace (psum ce_size idx + Lk <=? length (map (finv O) (concat (div_lists m)))) with true by (symmetry; apply Nat.leb_le; lia).
  cbn [andb]. replace (psum ce_size idx + Lk - psum ce_size idx) with Lk by lia.
  assert (Hs : firstn Lk (skipn (psum ce_size idx) (concat (div_lists m))) = nth idx (div_lists m) []).
  { rewrite <- (div_lists_prefix m idx) by lia.
    replace Lk with (length (nth idx (div_lists m) [])) by (rewrite div_lists_nth by exact Hi; now rewrite map_length, seq_length).
    apply concat_slice. lia. }
  rewrite skipn_map, firstn_map, Hs, div_lists_nth by exact Hi.
  rewrite !map_length, seq_length. fold Lk.
  destruct Lk eqn:EL; [congruence|]. rewrite <- EL in *.
  rewrite map_map, nth_error_map_seq by (apply Nat.mod_upper_bound; exact HL).
  now rewrite (ce_x_pow_mod O L n ceb offset rou n_pos ceb_pos (wce_order O L setting) _ _ _ Hdiv).
Qed.

(* ---------------------------------------------------------------- the frame read from the trace LDE *)
Variable v : nat.
Variable Lp : list F.                                  (* the Lagrange kernel column's polynomial *)
Variable lde_lag : list F.
Hypothesis lde_lag_len : length lde_lag = lde_size.
Hypothesis lde_lag_spec : forall j, j < lde_size -> nth_error lde_lag j = Some (peval Lp (cpow wlde j *f offset)).

Definition lag_frame (x : F) : list F := peval Lp x :: map (fun i => peval Lp (cpow g (2 ^ i) *f x)) (seq 0 v).

Lemma read_lagrange_frame_spec step : step < ce_size ->
  read_lagrange_frame ldeb v lde_lag (step * r') = Some (lag_frame (ce_x step)).
Proof.
  intros Hs. unfold read_lagrange_frame. rewrite lde_lag_len. pose proof (lde_size_pos O setting) as Hp.
  destruct lde_size eqn:E; [congruence|]. rewrite <- E in *.
  rewrite (mapM_some _ (fun s => peval Lp (cpow wlde s *f offset))).
  2:{ intros s Hin. apply lde_lag_spec. destruct Hin as [<-|Hin]; [rewrite (lde_size_eq O setting); nia|].
      apply in_map_iff in Hin. destruct Hin as [i [<- _]]. apply Nat.mod_upper_bound. exact Hp. }
  f_equal. unfold lag_frame. cbn [map]. rewrite (ce_x_lde O L setting). f_equal.
  rewrite map_map. apply map_ext. intros i. now rewrite (ce_x_lde_shift O L setting).
Qed.

(* ---------------------------------------------------------------- numerators (C16's functions) *)
Variable t : EnforceLagrange.LagTC (F := F).
Variable rr : list F.
Variable lb : F.
Hypothesis coef_len : length (EnforceLagrange.l_coef t) = v.
Hypothesis rr_len : length rr = v.

(* idx = k - 1 for C16's constraint k: coef_idx * (r[v-k] * c[0] - (1 - r[v-k]) * c[v-k+1]) *)
Definition lag_num (c : list F) (idx : nat) : F :=
  nth idx (EnforceLagrange.l_coef t) fz *f
  (nth (v - 1 - idx) rr fz *f nth 0 c fz -f (f1 -f nth (v - 1 - idx) rr fz) *f nth (v - idx) c fz).

Lemma zidx_nat {A} (l : list A) (i : nat) d : i < length l -> EnforceLagrange.zidx l (Z.of_nat i) = Some (nth i l d).
Proof.
  intros H. unfold EnforceLagrange.zidx. replace (Z.of_nat i <? 0)%Z with false by (symmetry; apply Z.ltb_ge; lia).
  rewrite Nat2Z.id. now apply nth_error_nth'.
Qed.

Lemma lag_boundary_numerator_spec c : c <> [] ->
  EnforceLagrange.lag_boundary_numerator O rr c lb = Some ((nth 0 c fz -f EnforceLagrange.lag_assertion_value O rr) *f lb).
Proof.
  intros Hc. unfold EnforceLagrange.lag_boundary_numerator. change 0%Z with (Z.of_nat 0).
  rewrite (zidx_nat c 0 fz) by (destruct c; [congruence | simpl; lia]). reflexivity.
Qed.

(* ---------------------------------------------------------------- the verifier's Lagrange section (C16's model of
   LagrangeKernelTransitionConstraints::evaluate_and_combine and LagrangeKernelBoundaryConstraint::evaluate_at, which
   verifier/src/evaluator.rs calls on the OOD Lagrange frame) is the same definition *)
Definition lag_rawn (c : list F) (idx : nat) : F :=
  nth (v - 1 - idx) rr fz *f nth 0 c fz -f (f1 -f nth (v - 1 - idx) rr fz) *f nth (v - idx) c fz.

Lemma lag_raw_spec c idx : length c = S v -> idx < v ->
  EnforceLagrange.lag_raw O c rr (Z.of_nat idx + 1) = Some (lag_rawn c idx).
Proof.
  intros Hc Hi. unfold EnforceLagrange.lag_raw. rewrite Hc.
  replace (Z.of_nat (S v) - 1 <? 0)%Z with false by (symmetry; apply Z.ltb_ge; lia).
  replace (Z.of_nat (S v) - 1 <? Z.of_nat idx + 1)%Z with false by (symmetry; apply Z.ltb_ge; lia).
  replace (Z.of_nat (S v) - 1 - (Z.of_nat idx + 1))%Z with (Z.of_nat (v - 1 - idx)) by lia.
  replace (Z.of_nat (v - 1 - idx) + 1)%Z with (Z.of_nat (v - idx)) by lia.
  change 0%Z with (Z.of_nat 0).
  rewrite (zidx_nat rr (v - 1 - idx) fz), (zidx_nat c 0 fz), (zidx_nat c (v - idx) fz) by lia.
  reflexivity.
Qed.

(* the prover's numerator is the same raw numerator, times its coefficient *)
Lemma lag_ith_numerator_spec c idx : length c = S v -> idx < v ->
  EnforceLagrange.lag_ith_numerator O t c rr (Z.of_nat idx) = Some (lag_num c idx).
Proof.
  intros Hc Hi. unfold EnforceLagrange.lag_ith_numerator.
  rewrite (lag_raw_spec c idx Hc Hi), (zidx_nat _ idx fz) by lia. reflexivity.
Qed.

Lemma zrange_1_seq : zrange 1 (Z.of_nat v + 1) = map (fun idx => (Z.of_nat idx + 1)%Z) (seq 0 v).
Proof.
  unfold zrange. replace (Z.to_nat (Z.of_nat v + 1 - 1)) with v by lia.
  apply map_ext. intros i. lia.
Qed.

Lemma zip_with_seq {A B C} (f : A -> B -> C) (ga : nat -> A) (d : B) : forall m (l : list B) st,
  length l = m ->
  EnforceLagrange.zip_with f (map ga (seq st m)) l = map (fun i => f (ga (st + i)) (nth i l d)) (seq 0 m).
Proof.
  induction m; intros l st Hl; destruct l; simpl in Hl; try lia; [reflexivity|].
  cbn [seq map EnforceLagrange.zip_with nth]. f_equal; [now rewrite Nat.add_0_r|].
  rewrite (IHm l (S st)) by lia. rewrite <- seq_shift, map_map. apply map_ext. intros i.
  replace (S st + i) with (st + S i) by lia. reflexivity.
Qed.

(* the divisors LagrangeKernelTransitionConstraints::new builds (C16_lagrange_count): x^(2^idx) - 1, no exemptions *)
Hypothesis div_len : length (EnforceLagrange.l_div t) = v.
Hypothesis div_spec : forall idx, idx < v ->
  nth idx (EnforceLagrange.l_div t) (Enforce.mkD [] []) = Enforce.mkD [((2 ^ Z.of_nat idx)%Z, f1)] [].
Hypothesis v_lt_64 : v < 64.

Lemma lag_divisor_eval idx x : idx < v ->
  Enforce.evaluate_at O (Enforce.mkD [((2 ^ Z.of_nat idx)%Z, f1)] []) x = cpow x (2 ^ idx) -f f1.
Proof.
  intros Hi. unfold Enforce.evaluate_at, Enforce.eval_numerator, Enforce.eval_exemptions. cbn [Enforce.d_num Enforce.d_ex fold_left fst snd].
  assert (Hlt : (2 ^ Z.of_nat idx < 2 ^ 64)%Z) by (apply Z.pow_lt_mono_r; lia).
  rewrite Z.mod_small by (split; [apply Z.pow_nonneg; lia | exact Hlt]).
  rewrite (EnforceField.fpow_spec O L).
  replace (Z.to_nat (2 ^ Z.of_nat idx)) with (2 ^ idx) by (rewrite <- (Nat2Z.id (2 ^ idx)); f_equal; rewrite Nat2Z.inj_pow; reflexivity).
  change (EnforceField.pown O x (2 ^ idx)) with (cpow x (2 ^ idx)).
  rewrite (fl_div_def O L).
  assert (E1 : finv O f1 = f1).
  { transitivity (finv O f1 *f f1); [ring | apply (fl_inv_l O L), (fl_one_neq_zero O L)]. }
  rewrite E1. ring.
Qed.

Theorem verifier_lagrange_agrees c x : length c = S v ->
  EnforceLagrange.lag_evaluate_and_combine O t c rr x = Some (rsum (map (fun idx => lag_num c idx *f finv O (cpow x (2 ^ idx) -f f1)) (seq 0 v)))
  /\ EnforceLagrange.lag_boundary_evaluate_at O rr c lb x
     = Some ((nth 0 c fz -f EnforceLagrange.lag_assertion_value O rr) *f lb *f finv O (x -f f1)).
Proof.
  intros Hc. split.
  - unfold EnforceLagrange.lag_evaluate_and_combine, EnforceLagrange.lag_numerators. rewrite Hc.
    replace (Z.of_nat (S v) - 1 <? 0)%Z with false by (symmetry; apply Z.ltb_ge; lia).
    replace (Z.of_nat (S v) - 1 + 1)%Z with (Z.of_nat v + 1)%Z by lia.
    rewrite zrange_1_seq, map_map.
    rewrite (EnforceLagrangeProofs.opt_all_map_Some (lag_rawn c)) by (intros idx Hin; apply in_seq in Hin; apply lag_raw_spec; [exact Hc | lia]).
    f_equal.
    rewrite (zip_with_seq (fun e co => co *f e) (lag_rawn c) fz v (EnforceLagrange.l_coef t) 0 coef_len). cbn [Nat.add].
    rewrite (zip_with_seq (fun nm d => fdiv O nm (Enforce.evaluate_at O d x))
               (fun i => nth i (EnforceLagrange.l_coef t) fz *f lag_rawn c i) (Enforce.mkD [] []) v (EnforceLagrange.l_div t) 0 div_len). cbn [Nat.add].
    rewrite (fold_add_rsum O L (fun p => p)), map_id.
    transitivity (rsum (map (fun idx => lag_num c idx *f finv O (cpow x (2 ^ idx) -f f1)) (seq 0 v))); [|reflexivity].
    assert (E : map (fun i => fdiv O (nth i (EnforceLagrange.l_coef t) fz *f lag_rawn c i)
                                     (Enforce.evaluate_at O (nth i (EnforceLagrange.l_div t) (Enforce.mkD [] [])) x)) (seq 0 v)
                = map (fun idx => lag_num c idx *f finv O (cpow x (2 ^ idx) -f f1)) (seq 0 v)).
    { apply map_ext_in. intros idx Hin. apply in_seq in Hin. rewrite div_spec by lia. rewrite lag_divisor_eval by lia.
      rewrite (fl_div_def O L). reflexivity. }
    rewrite E. ring.
  - unfold EnforceLagrange.lag_boundary_evaluate_at. rewrite lag_boundary_numerator_spec by (destruct c; [discriminate | discriminate]).
    unfold EnforceLagrange.lag_boundary_denominator. now rewrite (fl_div_def O L).
Qed.

(* ---------------------------------------------------------------- the definition of the Lagrange part *)
Definition lag_def_on (c : list F) (x : F) : F :=
  rsum (map (fun idx => lag_num c idx *f finv O (cpow x (2 ^ idx) -f f1)) (seq 0 v))
  +f (nth 0 c fz -f EnforceLagrange.lag_assertion_value O rr) *f lb *f finv O (x -f f1).
Definition lag_def (x : F) : F := lag_def_on (lag_frame x) x.

(* the ce domain size is a multiple of every constraint domain size 2^idx, idx < v  (true when n = 2^v) *)
Hypothesis pow_div : forall idx, idx < v -> 2 ^ idx * (ce_size / 2 ^ idx) = ce_size.

Lemma boundary_divisors_inv_spec :
  boundary_divisors_inv O n ceb offset rou = Some (map (fun step => finv O (ce_x step -f f1)) (seq 0 ce_size)).
Proof.
  unfold boundary_divisors_inv. rewrite (mapM_some _ ce_x).
  - rewrite map_map. reflexivity.
  - intros s Hs. apply in_seq in Hs. apply (get_ce_x_at_spec O L). lia.
Qed.

(* the value the prover adds to combined_evaluations_acc[step] is the definition at x_step *)
Theorem lagrange_row_spec step : step < ce_size ->
  lagrange_combined O n ceb ldeb v lde_lag t rr lb (map (finv O) (concat (div_lists v))) (slice_indices n ceb v)
                    (map (fun s => finv O (ce_x s -f f1)) (seq 0 ce_size)) step
  = Some (lag_def (ce_x step)).
Proof.
  intros Hs. unfold lagrange_combined. rewrite (ce_to_lde_blowup_eq O setting), (read_lagrange_frame_spec step Hs), coef_len.
  assert (Hfl : length (lag_frame (ce_x step)) = S v) by (unfold lag_frame; cbn [length]; now rewrite map_length, seq_length).
  rewrite (acc_opt_some O L _ (fun idx => lag_num (lag_frame (ce_x step)) idx *f finv O (cpow (ce_x step) (2 ^ idx) -f f1))).
  2:{ intros idx Hin. apply in_seq in Hin.
      rewrite (lag_ith_numerator_spec _ idx Hfl) by lia.
      rewrite (get_inverse_divisor_eval_spec v idx step) by (try lia; apply pow_div; lia). reflexivity. }
  rewrite lag_boundary_numerator_spec by (unfold lag_frame; discriminate).
  rewrite nth_error_map_seq by exact Hs. f_equal. unfold lag_def, lag_def_on. ring.
Qed.

(* the whole Lagrange column of evaluate_constraints *)
Theorem lagrange_evaluate_spec :
  lagrange_evaluate O n ceb ldeb offset rou v lde_lag t rr lb = Some (map (fun i => lag_def (ce_x i)) (seq 0 ce_size)).
Proof.
  unfold lagrange_evaluate. rewrite coef_len, divisor_evals_inv_spec, boundary_divisors_inv_spec.
  apply mapM_some. intros i Hi. apply in_seq in Hi. apply lagrange_row_spec. lia.
Qed.

End LagrangeProofs.
