(* C10 — decompression of honest batch openings: into_paths (prove_batch t idx) idx is exactly the list
   of individual paths prove t i, for every depth and every order of the positions. *)
From Coq Require Import ZArith List Bool Lia.
From VBase Require Import MachInt.
From VModel Require Import Merkle.
From VProofs Require Import MerkleBase MerkleSingle MerkleBatch MerkleTotal MerkleBind.
Import ListNotations.
Open Scope Z_scope.

Section Round.
Variable D : Type.
Variable D_eqb : D -> D -> bool.
Hypothesis D_eqb_spec : forall a b, D_eqb a b = true <-> a = b.
Variable d0 : D.
Variable merge : D -> D -> D.
Variable t : mtree D.
Variable d : nat.
Hypothesis WF : wf_tree D d0 merge d t.
Hypothesis Hd : (d <= 62)%nat.
Let N := 2 ^ Z.of_nat d.

Notation hval := (hval D d0 t).

(* the honest path of position i: the leaf, then the sibling of each node on the way up *)
Definition hpath (i : Z) : list D :=
  hval (i + N) :: map (fun j => hval (Z.lxor ((i + N) / 2 ^ Z.of_nat j) 1)) (seq 0 d).

Lemma mt_prove_spec i : 0 <= i < N -> mt_prove D t i = Ok (hpath i).
Proof. apply (mt_prove_path D d0 merge t d WF Hd). Qed.

Lemma get_path_up_sound ptm : ptmsound D d0 t ptm -> forall (l : nat) c fuel ps,
  lev (Z.of_nat l) c -> get_path_up D fuel ptm c = Ok ps -> ps = sibs D d0 t c l.
Proof.
  intros Hs. induction l as [|l IH]; intros c fuel ps Lc E.
  - unfold lev in Lc. cbn in Lc. assert (c = 1) by lia. subst c. destruct fuel; cbn in E; injection E as <-; reflexivity.
  - assert (Hl : 1 <= Z.of_nat (S l)) by lia. pose proof (lev_ge2 _ _ Hl Lc).
    destruct fuel as [|fuel]; cbn [Merkle.get_path_up] in E; destruct (Z.leb_spec c 1); try lia; [discriminate|].
    destruct (bt_get (Z.lxor c 1) ptm) as [x|] eqn:Ex; [|discriminate].
    apply bind_Ok in E. destruct E as (r & Er & E). injection E as <-. rewrite shiftr1 in Er.
    apply IH in Er; [|replace (Z.of_nat l) with (Z.of_nat (S l) - 1) by lia; apply lev_div2; assumption].
    rewrite sibs_S, Er. f_equal. apply Hs. assumption.
Qed.

Theorem into_paths_spec_tree : forall indexes,
  indexes <> [] -> zlen indexes <= 255 -> NoDup indexes -> (forall i, In i indexes -> 0 <= i < N) ->
  exists p, mt_prove_batch D d0 t indexes = Ok p /\
            into_paths D merge p indexes = Ok (map hpath indexes) /\
            mapM (mt_prove D t) indexes = Ok (map hpath indexes).
Proof.
  intros idx Hne Hlen ND Hr. pose proof (wf_d _ _ _ _ _ WF) as Hd1.
  destruct (batch_complete_core D d0 merge t d WF Hd idx Hne Hlen ND Hr) as (p & Ep & Hdep & HL & HLv & Hc).
  exists p. split; [assumption|]. split; [|apply mapM_map; intros i Hi; apply mt_prove_spec; apply Hr; assumption].
  set (ptm0 := ptm_leaves D (2 ^ bp_depth p) idx (bp_leaves p) []).
  assert (Hs0 : ptmsound D d0 t ptm0).
  { intros k x Ek. destruct (ptm_leaves_spec D (2 ^ bp_depth p) idx (bp_leaves p) [] ND ltac:(lia) ltac:(intros; reflexivity)) as (_ & _ & P).
    apply P in Ek. destruct Ek as [Ek|(j & i & Ei & Ex & ->)]; [discriminate|].
    rewrite (HLv j i Ei) in Ex. injection Ex as <-. rewrite Hdep. fold N.
    pose proof (Hr i (nth_error_In _ _ Ei)).
    apply (leaf_hval D d0 merge t d WF Hd). lia. }
  destruct (Hc ptm0) as (v & ptm & Eg & Er & Hs). specialize (Hs Hs0).
  assert (Hu : usize_list idx) by (intros i Hi; apply Hr; assumption).
  assert (Hroot : get_root D merge p idx = Ok (hval 1)).
  { destruct (batch_complete_tree D d0 merge t d WF Hd idx Hne Hlen ND Hr) as (p' & Ep' & _ & _ & _ & G).
    rewrite Ep in Ep'. injection Ep' as <-. assumption. }
  destruct (into_paths_sound D D_eqb D_eqb_spec d0 merge p idx _ d Hd1 Hdep Hu Hroot) as (paths & Eip & _ & _).
  rewrite Eip. f_equal.
  assert (Hip : into_paths D merge p idx = mapM (fun i => get_path D i ptm (bp_depth p)) idx).
  { rewrite (into_paths_eq D merge) by (try assumption; unfold zlen; lia). fold ptm0. rewrite Eg. reflexivity. }
  rewrite Hip in Eip. apply mapM_Ok_inv in Eip. apply Forall2_map_eq.
  eapply Forall2_impl_In; [exact Eip|]. cbv beta. intros i path Hi Egp.
  pose proof (Hr i Hi) as Hir. unfold Merkle.get_path in Egp. rewrite Hdep in Egp. fold N in Egp.
  destruct (Z.leb_spec 64 (Z.of_nat d)); [lia|].
  apply bind_Ok in Egp. destruct Egp as (s & Es & Egp). apply uadd_inv in Es. destruct Es as [-> _].
  destruct (bt_get (i + N) ptm) as [x|] eqn:Ex; [|discriminate].
  apply bind_Ok in Egp. destruct Egp as (r & Erp & Egp). injection Egp as <-.
  unfold hpath. f_equal; [apply Hs; assumption|].
  apply (get_path_up_sound ptm Hs d (i + N) 64 r); [|assumption].
  unfold lev. fold N. rewrite Z.pow_add_r by lia. change (2 ^ 1) with 2. fold N. lia.
Qed.

End Round.

(* ================================================================ from_paths round trip, evaluated instances
   A regression test beside the general theorem (MerkleFrom.from_into_roundtrip): the round trip
   from_paths (into_paths (prove_batch t idx) idx) idx = Ok (prove_batch t idx)  by exhaustive evaluation on the
   FREE merge (digests are binary terms over leaf symbols, merge = the term constructor: no collisions, every value
   records how it was computed), trees with 2, 4 and 8 distinct symbolic leaves, EVERY duplicate-free non-empty
   list of positions in EVERY order for 2 and 4 leaves; for 8 leaves every duplicate-free list of at most 3
   positions in every order and every non-empty subset in ascending and in descending order. *)
Inductive FT : Type := FL (n : Z) | FN (a b : FT).

Definition FT_eq_dec : forall a b : FT, {a = b} + {a <> b}.
Proof. decide equality. apply Z.eq_dec. Defined.

Definition FT_eqb (a b : FT) : bool := if FT_eq_dec a b then true else false.

Definition fbproof_eq_dec : forall p q : bproof FT, {p = q} + {p <> q}.
Proof. decide equality; [apply Z.eq_dec|apply (list_eq_dec (list_eq_dec FT_eq_dec))|apply (list_eq_dec FT_eq_dec)]. Defined.

Definition free_tree (n : nat) : res (mtree FT) := mt_new FT (FL (-1)) FN (map (fun k => FL (Z.of_nat k)) (seq 0 n)).

Definition roundtrip_ok (n : nat) (idx : list Z) : bool :=
  match free_tree n with
  | Ok t =>
    match mt_prove_batch FT (FL (-1)) t idx with
    | Ok p =>
      match into_paths FT FN p idx with
      | Ok paths =>
        match from_paths FT (FL (-1)) paths idx with
        | Ok q => if fbproof_eq_dec p q then true else false
        | _ => false
        end
      | _ => false
      end
    | _ => false
    end
  | _ => false
  end.

(* all duplicate-free lists of length k over [pool] *)
Definition inject_all (pool : list Z) (l : list Z) : list (list Z) :=
  flat_map (fun x => if existsb (Z.eqb x) l then [] else [x :: l]) pool.

Fixpoint nodup_lists (pool : list Z) (k : nat) : list (list Z) :=
  match k with
  | O => [[]]
  | S k' => flat_map (inject_all pool) (nodup_lists pool k')
  end.

Definition zpool (n : nat) : list Z := map Z.of_nat (seq 0 n).

Definition all_orders (n : nat) (maxlen : nat) : list (list Z) :=
  flat_map (fun k => nodup_lists (zpool n) (S k)) (seq 0 maxlen).

Fixpoint sublists (l : list Z) : list (list Z) :=
  match l with [] => [[]] | a :: r => let s := sublists r in map (cons a) s ++ s end.

Definition subsets_both_orders (n : nat) : list (list Z) :=
  let s := filter (fun l => match l with [] => false | _ => true end) (sublists (zpool n)) in s ++ map (@rev Z) s.

Definition roundtrip_cases : list (nat * list Z) :=
  map (pair 2%nat) (all_orders 2 2) ++ map (pair 4%nat) (all_orders 4 4) ++
  map (pair 8%nat) (all_orders 8 3) ++ map (pair 8%nat) (subsets_both_orders 8).

Lemma roundtrip_cases_ok : forallb (fun c => roundtrip_ok (fst c) (snd c)) roundtrip_cases = true.
Proof. vm_compute. reflexivity. Qed.

Theorem from_into_roundtrip_free_le8 : forall n idx, In (n, idx) roundtrip_cases ->
  exists t p paths, free_tree n = Ok t /\ mt_prove_batch FT (FL (-1)) t idx = Ok p /\
    into_paths FT FN p idx = Ok paths /\ from_paths FT (FL (-1)) paths idx = Ok p.
Proof.
  intros n idx Hin. pose proof roundtrip_cases_ok as H. rewrite forallb_forall in H. specialize (H _ Hin). cbn [fst snd] in H.
  unfold roundtrip_ok in H.
  destruct (free_tree n) as [t| |] eqn:E1; try discriminate.
  destruct (mt_prove_batch FT (FL (-1)) t idx) as [p| |] eqn:E2; try discriminate.
  destruct (into_paths FT FN p idx) as [paths| |] eqn:E3; try discriminate.
  destruct (from_paths FT (FL (-1)) paths idx) as [q| |] eqn:E4; try discriminate.
  destruct (fbproof_eq_dec p q) as [<-|]; [|discriminate]. exists t, p, paths. auto.
Qed.

Lemma roundtrip_cases_count : length roundtrip_cases = (4 + 64 + 400 + 510)%nat.
Proof. vm_compute. reflexivity. Qed.
