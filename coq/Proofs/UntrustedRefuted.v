(* Proofs/UntrustedRefuted.v — C06: each repaired check is necessary.  The parsers of the unrepaired crate (Model/Untrusted.v,
   the definitions named ..._unrepaired) reach Panic on concrete inputs; the same inputs panic in the unrepaired crate
   (harness: `c06 replay <name>`, notes/C06.findings.json). *)
From VBase Require Import MachInt.
From VModel Require Import Codec Untrusted.
Open Scope Z_scope.

(* proof.num_unique_queries = 0 (one byte of the proof) *)
Theorem Queries_parse_refuted : exists q, Queries_parse_unrepaired F64P 1 32 q 16 0 1 = Panic.
Proof. exists (mkQ [] []). vm_compute. reflexivity. Qed.

(* a Lagrange kernel frame attached to the OOD frame of a trace without auxiliary columns *)
Theorem OodFrame_lagrange_refuted : exists f, OodFrame_parse_unrepaired F64P 1 f 1 0 1 = Panic.
Proof. exists (mkOod (2 :: to_le_bytes 8 1 ++ to_le_bytes 8 2) (1 :: to_le_bytes 8 7) (to_le_bytes 8 3)). vm_compute. reflexivity. Qed.

(* frame size byte 1: the parser succeeds with rows shorter than the trace width, and main_frame() slices [0..width] *)
Theorem OodFrame_frame_size_refuted :
  exists f s, OodFrame_parse_unrepaired F64P 1 f 1 0 1 = Ok s /\ os_cur s < 1 /\
              vassert (1 <=? os_cur s) W_main_frame_slice = VPanic W_main_frame_slice.
Proof.
  exists (mkOod (1 :: to_le_bytes 8 1) [0] (to_le_bytes 8 3)), (mkOS 0 None 1).
  vm_compute. repeat split; reflexivity.
Qed.

(* options fold 16, remainder degree 0, blowup 2 over an LDE domain of 64: schedule 64 -> 4 -> 0, two layers implied *)
Theorem Fri_layers_refuted :
  num_fri_layers 64 16 0 2 = 2 /\
  exists ls, length ls = 2%nat /\ Fri_layers_loop_unrepaired F64P 1 32 ls 64 16 = Panic.
Proof.
  split; [vm_compute; reflexivity|].
  exists [mkFL (flat_map (fun _ => to_le_bytes 8 0) (seq 0 16)) [0]; mkFL (flat_map (fun _ => to_le_bytes 8 0) (seq 0 16)) [0]].
  split; [reflexivity|]. vm_compute. reflexivity.
Qed.
(* ... and the repaired loop answers with an error on the same input *)
Theorem Fri_layers_repaired :
  Fri_layers_loop F64P 1 32 [mkFL (flat_map (fun _ => to_le_bytes 8 0) (seq 0 16)) [0]; mkFL (flat_map (fun _ => to_le_bytes 8 0) (seq 0 16)) [0]] 64 16
  = Err Invalid.
Proof. vm_compute. reflexivity. Qed.

(* as many queries as domain points (options of the proof: 16 queries, trace length 8, blowup 2) *)
Theorem draw_integers_refuted : draw_integers_unrepaired 16 16 = Panic /\ draw_integers_shape 16 16 = Err Invalid.
Proof. vm_compute. split; reflexivity. Qed.

(* a context with a trace of length 2^32 (accepted by TraceInfo::read_from; Context::new asserts against it): Air::new of an AIR
   written for exactly this layout and these options panics in get_root_of_unity *)
Theorem context_limits_refuted :
  TraceInfo_new 1 (2 ^ 32) = Ok (mkTI 1 0 0 (2 ^ 32) []) /\
  ProofOptions_new 1 2 0 FE_None 2 0 = Ok (mkPO 1 2 0 FE_None 2 0) /\
  air_new (mkAP F64P 32 1 0 0 (2 ^ 32) 2 1 false) (mkTI 1 0 0 (2 ^ 32) []) (mkPO 1 2 0 FE_None 2 0) = VPanic W_root_of_unity /\
  Context_new (to_le_bytes 8 M64) (mkTI 1 0 0 (2 ^ 32) []) (mkPO 1 2 0 FE_None 2 0) = Panic.
Proof. vm_compute. repeat split; reflexivity. Qed.
