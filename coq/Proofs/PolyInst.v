(* C20 — a concrete field satisfying FLaws (GF(7) on a 7-constructor type): shows that the hypothesis of every
   C20 theorem is satisfiable, and is used for the non-vacuity examples. *)
From Coq Require Import List ZArith Bool.
From VBase Require Import FieldOps ZpOps.
From VModel Require Import Polynom.
Import ListNotations.

Inductive F7 : Type := e0 | e1 | e2 | e3 | e4 | e5 | e6.

Definition f7_to_Z (a : F7) : Z :=
  match a with e0 => 0 | e1 => 1 | e2 => 2 | e3 => 3 | e4 => 4 | e5 => 5 | e6 => 6 end%Z.

Definition f7_of_Z (z : Z) : F7 :=
  match (z mod 7)%Z with
  | 0 => e0 | 1 => e1 | 2 => e2 | 3 => e3 | 4 => e4 | 5 => e5 | _ => e6
  end%Z.

Definition f7_lift2 (f : Z -> Z -> Z) (a b : F7) : F7 := f7_of_Z (f (f7_to_Z a) (f7_to_Z b)).
Definition f7_lift1 (f : Z -> Z) (a : F7) : F7 := f7_of_Z (f (f7_to_Z a)).

Definition f7_ops : FOps F7 := {|
  fzero := e0; fone := e1;
  fadd := f7_lift2 (fadd (zp_ops 7));
  fsub := f7_lift2 (fsub (zp_ops 7));
  fmul := f7_lift2 (fmul (zp_ops 7));
  fneg := f7_lift1 (fneg (zp_ops 7));
  fdouble := f7_lift1 (fdouble (zp_ops 7));
  fsquare := f7_lift1 (fsquare (zp_ops 7));
  finv := f7_lift1 (finv (zp_ops 7));
  fdiv := f7_lift2 (fdiv (zp_ops 7));
  feqb := fun a b => Z.eqb (f7_to_Z a) (f7_to_Z b);
  fofz := f7_of_Z
|}.

Lemma f7_laws : FLaws f7_ops.
Proof.
  constructor.
  - intros a b; destruct a, b; reflexivity.
  - intros a b c; destruct a, b, c; reflexivity.
  - intros a; destruct a; reflexivity.
  - intros a b; destruct a, b; reflexivity.
  - intros a b c; destruct a, b, c; reflexivity.
  - intros a; destruct a; reflexivity.
  - intros a b c; destruct a, b, c; reflexivity.
  - intros a b; destruct a, b; reflexivity.
  - intros a; destruct a; reflexivity.
  - intros a; destruct a; reflexivity.
  - intros a; destruct a; reflexivity.
  - discriminate.
  - intros a H; destruct a; try reflexivity. exfalso; apply H; reflexivity.
  - reflexivity.
  - intros a b; destruct a, b; reflexivity.
  - intros a b; destruct a, b; split; intros H; try reflexivity; try discriminate.
Qed.
