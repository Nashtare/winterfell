(* Proofs/UntrustedAlloc.v — C06: the capacity requested while Proof::from_bytes runs is bounded linearly in the input:
   parse_alloc bs <= 25 * |bs| + 131680 for EVERY byte string (whatever lengths and counts it claims); and the reader
   with accounting (a_Proof) returns the result of read_Proof on every input. *)
From VBase Require Import MachInt.
From VModel Require Import Codec Untrusted.
From VProofs Require Import CodecPrim.
Open Scope Z_scope.

(* ------------------------------------------------------------------------------- readers consume, never produce *)
(* [eats w r]: a successful read leaves a rest which is shorter by at least w bytes *)
Definition eats {T} (w : Z) (r : Rd T) : Prop := forall bs a rest, r bs = Ok (a, rest) -> w <= len bs - len rest.

Lemma eats_weaken {T} w w' (r : Rd T) : w' <= w -> eats w r -> eats w' r.
Proof. intros Hw H bs a rest E. specialize (H bs a rest E). lia. Qed.

Lemma eats_bind {T U} w1 w2 (r : Rd T) (f : T -> Rd U) : eats w1 r -> (forall a, eats w2 (f a)) -> eats (w1 + w2) (bind r f).
Proof.
  intros H1 H2 bs b rest E. unfold bind in E. destruct (r bs) as [[a bs']| |] eqn:E1; try discriminate.
  specialize (H1 bs a bs' E1). specialize (H2 a bs' b rest E). lia.
Qed.

Lemma eats_ret {T} (a : T) : eats 0 (ret a).
Proof. intros bs b rest E. inversion E; subst. lia. Qed.

Lemma eats_fail {T} w e : eats w (@fail T e).
Proof. intros bs b rest E. discriminate. Qed.

Lemma eats_lift {T} (x : Result T) : eats 0 (lift x).
Proof. intros bs b rest E. unfold lift in E. destruct x; inversion E; subst. lia. Qed.

Lemma eats_if {T} w (c : bool) (r1 r2 : Rd T) : eats w r1 -> eats w r2 -> eats w (if c then r1 else r2).
Proof. destruct c; auto. Qed.

Lemma read_array_eats n bs h t : read_array n bs = Ok (h, t) -> len bs = Z.of_nat n + len t /\ len h = Z.of_nat n.
Proof.
  unfold read_array. destruct (take n bs) as [[h' t']|] eqn:E; intros H; inversion H; subst.
  destruct (take_length _ _ _ _ E) as [-> Hl]. rewrite len_app. unfold len. rewrite Hl. lia.
Qed.

Lemma eats_read_array n : eats (Z.of_nat n) (read_array n).
Proof. intros bs a rest E. apply read_array_eats in E. lia. Qed.

Lemma eats_read_u8 : eats 1 read_u8.
Proof. intros [|b r] a rest E; inversion E; subst. unfold len. cbn [length]. lia. Qed.

Lemma eats_peek_u8 : eats 0 peek_u8.
Proof. intros [|b r] a rest E; inversion E; subst. lia. Qed.

Lemma eats_read_uint k : eats (Z.of_nat k) (read_uint k).
Proof.
  unfold read_uint. replace (Z.of_nat k) with (Z.of_nat k + 0) by lia.
  apply eats_bind; [apply eats_read_array | intros; apply eats_ret].
Qed.

Lemma read_slice_eats n bs b rest : read_slice n bs = Ok (b, rest) -> len bs = len b + len rest /\ (0 <= n -> len b = n).
Proof.
  unfold read_slice. destruct (n <=? len bs); [|discriminate]. intros E. apply read_array_eats in E.
  destruct E as [E1 E2]. split; [lia|]. intros Hn. rewrite E2. lia.
Qed.

Lemma eats_read_slice n : eats 0 (read_slice n).
Proof. intros bs a rest E. apply read_slice_eats in E. pose proof (len_nonneg a). lia. Qed.

Lemma eats_read_bool : eats 1 read_bool.
Proof.
  unfold read_bool. replace 1 with (1 + 0) by lia. apply eats_bind; [apply eats_read_u8|]. intros b.
  repeat apply eats_if; try apply eats_fail; apply eats_ret.
Qed.

Lemma eats_read_usize : eats 0 read_usize.
Proof.
  unfold read_usize. replace 0 with (0 + (0 + 0)) by lia. apply eats_bind; [apply eats_peek_u8|]. intros fb.
  apply eats_bind.
  - apply eats_if.
    + replace 0 with (0 + 0) by lia. apply eats_bind; [eapply eats_weaken; [|apply eats_read_u8]; lia|].
      intros _. eapply eats_weaken; [|apply eats_read_uint]; lia.
    + replace 0 with (0 + 0) by lia. apply eats_bind; [apply eats_read_slice | intros; apply eats_ret].
  - intros r. apply eats_if; [apply eats_fail | apply eats_ret].
Qed.

Ltac eats0 :=
  repeat first
    [ apply eats_fail | apply eats_ret | apply eats_lift
    | match goal with |- eats 0 (if ?c then _ else _) => apply eats_if end
    | match goal with |- eats 0 (bind _ _) => replace 0 with (0 + 0) by lia; apply eats_bind; [|intros] end
    | (eapply eats_weaken; [|apply eats_read_u8]; lia)
    | (eapply eats_weaken; [|apply eats_read_uint]; lia)
    | (eapply eats_weaken; [|apply eats_read_bool]; lia)
    | apply eats_read_slice | apply eats_read_usize ].

Lemma eats_read_FieldExtension : eats 0 read_FieldExtension.
Proof. unfold read_FieldExtension. eats0. Qed.

Lemma eats_read_ProofOptions : eats 0 read_ProofOptions.
Proof. unfold read_ProofOptions. eats0; apply eats_read_FieldExtension. Qed.

Lemma eats_read_TraceInfo : eats 0 read_TraceInfo.
Proof. unfold read_TraceInfo, read_u16, read_vec. eats0. Qed.

Lemma eats_read_Context : eats 0 read_Context.
Proof. unfold read_Context, read_vec. eats0; first [apply eats_read_TraceInfo | apply eats_read_ProofOptions]. Qed.

(* ------------------------------------------------------------------------------------ cost of a reader *)
(* [acost c k w r]: r requests at most c * (bytes consumed) + k on success (and consumes at least w), at most
   c * (bytes available) + k when it fails; never a negative amount *)
Definition acost {T} (c k w : Z) (r : A T) : Prop :=
  forall bs, 0 <= fst (r bs) /\
    match snd (r bs) with
    | Ok (_, rest) => w <= len bs - len rest /\ fst (r bs) <= c * (len bs - len rest) + k
    | _ => fst (r bs) <= c * len bs + k
    end.

Lemma acost_weaken {T} c k w c' k' w' (r : A T) :
  0 <= w' <= w -> c <= c' -> k <= k' -> acost c k w r -> acost c' k' w' r.
Proof.
  intros Hw Hc Hk H bs. specialize (H bs). destruct H as [H0 H]. split; [exact H0|].
  pose proof (len_nonneg bs).
  destruct (snd (r bs)) as [[a rest]| |].
  - destruct H as [G1 G2]. split; [lia|]. nia.
  - nia.
  - nia.
Qed.

Lemma acost_ret {T} (a : T) : acost 0 0 0 (aret a).
Proof. intros bs. cbn. lia. Qed.

Lemma acost_fail {T} w e : acost 0 0 w (@afail T e).
Proof. intros bs. cbn. pose proof (len_nonneg bs). lia. Qed.

Lemma acost_free {T} w (r : Rd T) : 0 <= w -> eats w r -> acost 0 0 w (afree r).
Proof.
  intros Hw He bs. unfold afree. cbn [fst snd]. split; [lia|].
  destruct (r bs) as [[a rest]| |] eqn:E; [|pose proof (len_nonneg bs); lia|pose proof (len_nonneg bs); lia].
  specialize (He bs a rest E). lia.
Qed.

Lemma acost_bind {T U} c k1 k2 w1 w2 (r : A T) (f : T -> A U) :
  0 <= c -> 0 <= k1 -> 0 <= k2 -> 0 <= w1 -> 0 <= w2 ->
  acost c k1 w1 r -> (forall a, acost c k2 w2 (f a)) -> acost c (k1 + k2) (w1 + w2) (abind r f).
Proof.
  intros Hc Hk1 Hk2 Hw1 Hw2 H1 H2 bs. unfold abind. specialize (H1 bs).
  destruct (r bs) as [n [[a bs']| |]]; cbn [fst snd] in *.
  - destruct H1 as [Hn [Hw Hcost]]. specialize (H2 a bs').
    destruct (f a bs') as [m x]. cbn [fst snd] in *. destruct H2 as [Hm H2]. split; [lia|].
    pose proof (len_nonneg bs'). pose proof (len_nonneg bs).
    destruct x as [[b rest]| |].
    + destruct H2 as [Hw' Hcost']. split; [lia|]. nia.
    + nia.
    + nia.
  - destruct H1 as [Hn H1]. split; [lia|]. lia.
  - destruct H1 as [Hn H1]. split; [lia|]. lia.
Qed.

Lemma acost_if {T} c k w (b : bool) (r1 r2 : A T) : acost c k w r1 -> acost c k w r2 -> acost c k w (if b then r1 else r2).
Proof. destruct b; auto. Qed.

(* read_vec(n): the n bytes are copied only when they are there *)
Lemma acost_avec n : acost 1 0 0 (avec n).
Proof.
  intros bs. unfold avec. destruct (read_vec n bs) as [[b rest]| |] eqn:E; cbn [fst snd].
  - unfold read_vec in E. apply read_slice_eats in E. destruct E as [E _]. pose proof (len_nonneg b). lia.
  - pose proof (len_nonneg bs). lia.
  - pose proof (len_nonneg bs). lia.
Qed.

Lemma acost_avec_pos n : 1 <= n -> acost 1 0 1 (avec n).
Proof.
  intros Hn bs. unfold avec. destruct (read_vec n bs) as [[b rest]| |] eqn:E; cbn [fst snd].
  - unfold read_vec in E. apply read_slice_eats in E. destruct E as [E E2]. specialize (E2 ltac:(lia)). lia.
  - pose proof (len_nonneg bs). lia.
  - pose proof (len_nonneg bs). lia.
Qed.

Lemma acost_bind' {T U} c k w k1 k2 w1 w2 (r : A T) (f : T -> A U) :
  k = k1 + k2 -> w = w1 + w2 -> 0 <= c -> 0 <= k1 -> 0 <= k2 -> 0 <= w1 -> 0 <= w2 ->
  acost c k1 w1 r -> (forall a, acost c k2 w2 (f a)) -> acost c k w (abind r f).
Proof. intros -> ->. apply acost_bind. Qed.

(* the forms used below: all at one rate c, steps that request nothing, readers that allocate nothing *)
Lemma acost_le {T} c k w c' (r : A T) : acost c k w r -> c <= c' -> 0 <= w -> acost c' k 0 r.
Proof. intros H Hc Hw. eapply acost_weaken; [| | |exact H]; lia. Qed.

Lemma acost_step0 {T U} c k (r : A T) (f : T -> A U) :
  0 <= c -> 0 <= k -> acost c 0 0 r -> (forall a, acost c k 0 (f a)) -> acost c k 0 (abind r f).
Proof. intros Hc Hk. apply (acost_bind' c k 0 0 k 0 0); lia. Qed.

Lemma acost_afree {T} c w w' (r : Rd T) : 0 <= c -> 0 <= w' <= w -> eats w r -> acost c 0 w' (afree r).
Proof. intros Hc Hw He. eapply acost_weaken; [| | |apply (acost_free w); [lia | exact He]]; lia. Qed.

Lemma acost_ret' {T} c k (a : T) : 0 <= c -> 0 <= k -> acost c k 0 (aret a).
Proof. intros Hc Hk. eapply acost_weaken; [| | |apply acost_ret]; lia. Qed.

Lemma acost_fail' {T} c k w e : 0 <= c -> 0 <= k -> 0 <= w -> acost c k w (@afail T e).
Proof. intros Hc Hk Hw. eapply acost_weaken; [| | |apply (acost_fail w)]; lia. Qed.

Lemma acost_ablob k : acost 1 0 (Z.of_nat k) (ablob k).
Proof.
  unfold ablob. apply (acost_bind' 1 0 (Z.of_nat k) 0 0 (Z.of_nat k) 0); try lia.
  - apply (acost_afree 1 (Z.of_nat k)); [lia | lia | apply eats_read_uint].
  - intros n. apply acost_avec.
Qed.

Lemma acost_Queries : acost 1 0 8 a_Queries.
Proof.
  unfold a_Queries.
  apply (acost_bind' 1 0 8 0 0 4 4); try lia; [apply (acost_ablob 4)|]. intros v.
  apply (acost_bind' 1 0 4 0 0 4 0); try lia; [apply (acost_ablob 4)|]. intros p.
  apply acost_ret'; lia.
Qed.

Lemma acost_OodFrame : acost 1 0 6 a_OodFrame.
Proof.
  unfold a_OodFrame.
  apply (acost_bind' 1 0 6 0 0 2 4); try lia; [apply (acost_ablob 2)|]. intros t.
  apply (acost_bind' 1 0 4 0 0 2 2); try lia; [apply (acost_ablob 2)|]. intros l.
  apply (acost_bind' 1 0 2 0 0 2 0); try lia; [apply (acost_ablob 2)|]. intros e.
  apply acost_ret'; lia.
Qed.

(* a FRI layer: at least the two 4-byte prefixes (the value bytes are at least 1 for the 32-bit values the reader can
   return; 8 is enough for the bound) *)
Lemma acost_FriProofLayer : acost 1 0 8 a_FriProofLayer.
Proof.
  unfold a_FriProofLayer.
  apply (acost_bind' 1 0 8 0 0 4 4); try lia.
  { apply (acost_afree 1 4); [lia | lia | apply (eats_read_uint 4)]. }
  intros n. apply acost_if; [apply acost_fail'; lia|].
  apply (acost_bind' 1 0 4 0 0 0 4); try lia; [apply acost_avec|]. intros v.
  apply (acost_bind' 1 0 4 0 0 4 0); try lia; [apply (acost_ablob 4)|]. intros p.
  apply acost_ret'; lia.
Qed.

(* ------------------------------------------------------------------------------------------ read_many *)
(* every element costs at most c x its bytes and is backed by at least w >= 1 input bytes; pushing it costs g <= b * w *)
Lemma acost_many_loop {T} (r : A T) c b g w : 0 <= c -> 0 <= b -> 0 <= g <= b * w -> 1 <= w -> acost c 0 w r ->
  forall fuel n acc, acost (c + b) 0 0 (a_many_loop fuel r g n acc).
Proof.
  intros Hc Hb Hg Hw Hr. induction fuel as [|fuel IH]; intros n acc bs; cbn [a_many_loop].
  - destruct (n <=? 0); cbn [fst snd]; pose proof (len_nonneg bs); nia.
  - destruct (n <=? 0); [cbn [fst snd]; pose proof (len_nonneg bs); nia|].
    specialize (Hr bs). destruct (r bs) as [m [[a bs']| |]]; cbn [fst snd] in *.
    + destruct Hr as [Hm [Hw' Hcost]]. specialize (IH (n - 1) (a :: acc) bs').
      destruct (a_many_loop fuel r g (n - 1) (a :: acc) bs') as [m' x]. cbn [fst snd] in *.
      destruct IH as [Hm' IH]. split; [lia|].
      pose proof (len_nonneg bs'). pose proof (len_nonneg bs).
      destruct x as [[l rest]| |].
      * destruct IH as [Hw2 IH]. split; [lia|]. nia.
      * nia.
      * nia.
    + destruct Hr as [Hm Hr]. split; [lia|]. pose proof (len_nonneg bs). nia.
    + destruct Hr as [Hm Hr]. split; [lia|]. pose proof (len_nonneg bs). nia.
Qed.

Lemma prealloc_bounds n sz : 0 <= sz -> 0 <= prealloc n sz <= MAX_PREALLOC.
Proof.
  intros Hsz. unfold prealloc, MAX_PREALLOC.
  destruct (Z.eq_dec sz 0) as [-> | Hnz]; [lia|].
  rewrite (Z.max_l sz 1) by lia.
  assert (0 <= 65536 / sz) by (apply Z.div_pos; lia).
  assert (65536 / sz * sz <= 65536) by (pose proof (Z.mul_div_le 65536 sz ltac:(lia)); lia).
  split; [apply Z.mul_nonneg_nonneg; lia|].
  transitivity (65536 / sz * sz); [apply Z.mul_le_mono_nonneg_r; lia | lia].
Qed.

Lemma acost_many {T} (r : A T) c b sz w n : 0 <= c -> 0 <= b -> 0 <= sz -> GROW * sz <= b * w -> 1 <= w -> acost c 0 w r ->
  acost (c + b) (prealloc n sz) 0 (a_many r sz n).
Proof.
  intros Hc Hb Hsz Hg Hw Hr bs. unfold a_many.
  pose proof (acost_many_loop r c b (GROW * sz) w Hc Hb ltac:(unfold GROW in *; lia) Hw Hr (S (length bs)) n [] bs) as H.
  destruct (a_many_loop (S (length bs)) r (GROW * sz) n [] bs) as [m x]. cbn [fst snd] in *.
  pose proof (prealloc_bounds n sz Hsz). destruct H as [Hm H]. split; [lia|].
  destruct x as [[l rest]| |]; [destruct H; split|..]; lia.
Qed.

(* ------------------------------------------------------------------------------------- FriProof and Proof *)
Lemma MAXP : 0 <= MAX_PREALLOC.
Proof. unfold MAX_PREALLOC. lia. Qed.

Lemma acost_many' {T} (r : A T) c b sz w n C : 0 <= c -> 0 <= b -> 0 <= sz -> GROW * sz <= b * w -> 1 <= w -> acost c 0 w r ->
  c + b <= C -> acost C MAX_PREALLOC 0 (a_many r sz n).
Proof.
  intros Hc Hb Hsz Hg Hw Hr HC. pose proof (prealloc_bounds n sz Hsz).
  eapply acost_weaken; [| | |apply (acost_many r c b sz w n); auto]; lia.
Qed.

Lemma acost_FriProof : acost 25 MAX_PREALLOC 0 a_FriProof.
Proof.
  pose proof MAXP. unfold a_FriProof.
  apply acost_step0; try lia; [apply (acost_afree 25 1); try lia; apply eats_read_u8|]. intros n.
  apply (acost_bind' 25 _ 0 MAX_PREALLOC 0 0 0); try lia.
  { apply (acost_many' a_FriProofLayer 1 24 SZ_2VEC 8 n 25); try (unfold GROW, SZ_2VEC; lia). apply acost_FriProofLayer. }
  intros layers.
  apply acost_step0; try lia; [apply (acost_le 1 0 2); try lia; apply (acost_ablob 2)|]. intros r.
  apply acost_step0; try lia; [apply (acost_afree 25 1); try lia; apply eats_read_u8|]. intros np.
  apply acost_if; [apply acost_fail'; lia | apply acost_ret'; lia].
Qed.

Lemma acost_Context : acost 1 0 0 a_Context.
Proof.
  intros bs. unfold a_Context. pose proof (len_nonneg bs).
  destruct (read_Context bs) as [[c rest]| |] eqn:E; cbn [fst snd].
  - pose proof (eats_read_Context bs c rest E). lia.
  - lia.
  - lia.
Qed.

(* Vec::with_capacity(num_trace_segments) and the Queries read into it *)
Lemma acost_trace_queries n :
  acost 25 (2 * SZ_2VEC) 0 (fun bs => let '(m, x) := a_many a_Queries 0 n bs in (m + 2 * SZ_2VEC, x)).
Proof.
  intros bs.
  pose proof (acost_many a_Queries 1 0 0 8 n ltac:(lia) ltac:(lia) ltac:(lia) ltac:(unfold GROW; lia) ltac:(lia)
                acost_Queries bs) as Hq.
  replace (prealloc n 0) with 0 in Hq by (unfold prealloc; lia).
  destruct (a_many a_Queries 0 n bs) as [m x]. cbn [fst snd] in *.
  destruct Hq as [Hm Hq]. split; [unfold SZ_2VEC; lia|]. pose proof (len_nonneg bs).
  destruct x as [[l rest]| |]; [destruct Hq; split|..]; unfold SZ_2VEC; nia.
Qed.

Lemma acost_gkr :
  acost 25 MAX_PREALLOC 0
    (tag <~ afree read_bool ;;
     if tag then (n <~ afree read_usize ;; v <~ a_many (afree read_u8) 1 n ;; aret (Some v)) else aret None).
Proof.
  pose proof MAXP.
  apply acost_step0; try lia; [apply (acost_afree 25 1); try lia; apply eats_read_bool|]. intros tag.
  apply acost_if; [|apply acost_ret'; lia].
  apply acost_step0; try lia; [apply (acost_afree 25 0); try lia; apply eats_read_usize|]. intros n.
  apply (acost_bind' 25 _ 0 MAX_PREALLOC 0 0 0); try lia.
  { apply (acost_many' (afree read_u8) 0 4 1 1 n 25); try (unfold GROW; lia).
    apply acost_free; [lia | apply eats_read_u8]. }
  intros v. apply acost_ret'; lia.
Qed.

Definition K_PROOF : Z := MAX_PREALLOC + MAX_PREALLOC + 2 * SZ_2VEC.

Lemma acost_Proof : acost 25 K_PROOF 0 a_Proof.
Proof.
  pose proof MAXP. assert (0 <= SZ_2VEC) by (unfold SZ_2VEC; lia). unfold a_Proof, K_PROOF.
  apply acost_step0; try lia; [apply (acost_le 1 0 0); try lia; apply acost_Context|]. intros c.
  apply acost_step0; try lia; [apply (acost_afree 25 1); try lia; apply eats_read_u8|]. intros nuq.
  apply acost_step0; try lia; [apply (acost_le 1 0 2); try lia; apply (acost_ablob 2)|]. intros com.
  apply (acost_bind' 25 _ 0 (2 * SZ_2VEC) (MAX_PREALLOC + MAX_PREALLOC) 0 0); try lia; [apply acost_trace_queries|].
  intros tq.
  apply acost_step0; try lia; [apply (acost_le 1 0 8); try lia; apply acost_Queries|]. intros cq.
  apply acost_step0; try lia; [apply (acost_le 1 0 6); try lia; apply acost_OodFrame|]. intros ood.
  apply (acost_bind' 25 _ 0 MAX_PREALLOC MAX_PREALLOC 0 0); try lia; [apply acost_FriProof|]. intros fri.
  apply acost_step0; try lia; [apply (acost_afree 25 8); try lia; apply (eats_read_uint 8)|]. intros nonce.
  apply (acost_bind' 25 _ 0 MAX_PREALLOC 0 0 0); try lia; [apply acost_gkr|]. intros gkr.
  apply acost_ret'; lia.
Qed.

(* total capacity requested while parsing <= 25 * |bytes| + 131680, for every byte string *)
Theorem parse_alloc_bounded : forall bs, 0 <= parse_alloc bs <= alloc_bound (len bs).
Proof.
  intros bs. unfold parse_alloc, alloc_bound. pose proof (acost_Proof bs) as H.
  destruct (a_Proof bs) as [n x]. cbn [fst snd] in H. destruct H as [Hn H].
  pose proof (len_nonneg bs). unfold K_PROOF, ERR_MSG, MAX_PREALLOC, SZ_2VEC in *.
  destruct x as [[p rest]| |].
  - destruct H as [_ H]. pose proof (len_nonneg rest). lia.
  - lia.
  - lia.
Qed.

Example alloc_bound_constants : forall n, alloc_bound n = 25 * n + 131680.
Proof. intros n. unfold alloc_bound, MAX_PREALLOC, SZ_2VEC, ERR_MSG. lia. Qed.

(* the accounting is not trivially zero: a hostile gkr length of 2^60 is charged the bounded pre-allocation only *)
Example parse_alloc_hostile_length :
  parse_alloc ([1; 0; 0; 3; 0; 0] ++ [8] ++ to_le_bytes 8 M64 ++ [1; 2; 0; 1; 2; 0] ++ [0] ++ [0; 0] ++
               [0; 0; 0; 0; 0; 0; 0; 0] ++ [0; 0; 0; 0; 0; 0; 0; 0] ++ [0; 0; 0; 0; 0; 0] ++ [0; 0; 0; 0] ++
               [0; 0; 0; 0; 0; 0; 0; 0] ++ [1; 0; 0; 0; 0; 0; 0; 0; 0; 16]) = 21 + 96 + 65536 + 512.
Proof. vm_compute. reflexivity. Qed.

(* ============================================================ the accounting run takes the path of the reader *)
(* [tracks r r0]: the accounting reader r returns, besides its cost, exactly the result of the plain reader r0 *)
Definition tracks {T} (r : A T) (r0 : Rd T) : Prop := forall bs, snd (r bs) = r0 bs.

Lemma tracks_ret {T} (a : T) : tracks (aret a) (ret a).
Proof. intros bs. reflexivity. Qed.

Lemma tracks_fail {T} e : tracks (@afail T e) (fail e).
Proof. intros bs. reflexivity. Qed.

Lemma tracks_free {T} (r : Rd T) : tracks (afree r) r.
Proof. intros bs. reflexivity. Qed.

Lemma tracks_bind {T U} (r : A T) r0 (f : T -> A U) f0 :
  tracks r r0 -> (forall a, tracks (f a) (f0 a)) -> tracks (abind r f) (bind r0 f0).
Proof.
  intros H1 H2 bs. unfold abind, bind. specialize (H1 bs). destruct (r bs) as [n x]. cbn [snd] in H1. subst x.
  destruct (r0 bs) as [[a bs']| |]; cbn [snd]; auto.
  specialize (H2 a bs'). destruct (f a bs') as [m y]. cbn [snd] in *. exact H2.
Qed.

Lemma tracks_if {T} (c : bool) (r1 r2 : A T) q1 q2 : tracks r1 q1 -> tracks r2 q2 -> tracks (if c then r1 else r2) (if c then q1 else q2).
Proof. destruct c; auto. Qed.

Lemma tracks_avec n : tracks (avec n) (read_vec n).
Proof. intros bs. unfold avec. destruct (read_vec n bs) as [[b r]| |]; reflexivity. Qed.

Lemma tracks_ablob k : tracks (ablob k) (read_blob k).
Proof. unfold ablob, read_blob. apply tracks_bind; [apply tracks_free | intros n; apply tracks_avec]. Qed.

Lemma tracks_Queries : tracks a_Queries read_Queries.
Proof.
  unfold a_Queries, read_Queries. apply tracks_bind; [apply tracks_ablob|]. intros v.
  apply tracks_bind; [apply tracks_ablob|]. intros p. apply tracks_ret.
Qed.

Lemma tracks_OodFrame : tracks a_OodFrame read_OodFrame.
Proof.
  unfold a_OodFrame, read_OodFrame. apply tracks_bind; [apply tracks_ablob|]. intros t.
  apply tracks_bind; [apply tracks_ablob|]. intros l. apply tracks_bind; [apply tracks_ablob|]. intros e. apply tracks_ret.
Qed.

Lemma tracks_FriProofLayer : tracks a_FriProofLayer read_FriProofLayer.
Proof.
  unfold a_FriProofLayer, read_FriProofLayer. apply tracks_bind; [apply tracks_free|]. intros n.
  apply tracks_if; [apply tracks_fail|].
  apply tracks_bind; [apply tracks_avec|]. intros v. apply tracks_bind; [apply tracks_ablob|]. intros p. apply tracks_ret.
Qed.

(* the loop: with more fuel than input bytes and elements that consume at least one byte, fuel is never exhausted *)
Lemma tracks_many_loop {T} (r : A T) (r0 : Rd T) g : tracks r r0 -> eats 1 r0 ->
  forall fuel n acc bs, len bs < Z.of_nat fuel ->
    snd (a_many_loop fuel r g n acc bs) =
    match read_many_nat r0 (Z.to_nat n) bs with Ok (l, rest) => Ok (rev acc ++ l, rest) | Err e => Err e | Panic => Panic end.
Proof.
  intros Ht He. induction fuel as [|fuel IH]; intros n acc bs Hf.
  - pose proof (len_nonneg bs). lia.
  - cbn [a_many_loop]. destruct (Z.leb_spec n 0) as [Hn | Hn].
    + replace (Z.to_nat n) with 0%nat by lia. cbn. now rewrite app_nil_r.
    + replace (Z.to_nat n) with (S (Z.to_nat (n - 1))) by lia. cbn [read_many_nat].
      specialize (Ht bs). destruct (r bs) as [m x]. cbn [snd] in Ht. subst x.
      destruct (r0 bs) as [[a bs']| |] eqn:E; cbn [snd]; auto.
      specialize (He bs a bs' E).
      specialize (IH (n - 1) (a :: acc) bs' ltac:(lia)).
      destruct (a_many_loop fuel r g (n - 1) (a :: acc) bs') as [m' y]. cbn [snd] in *. rewrite IH.
      destruct (read_many_nat r0 (Z.to_nat (n - 1)) bs') as [[l rest]| |]; auto.
      cbn [rev]. now rewrite <- app_assoc.
Qed.

Lemma tracks_many {T} (r : A T) (r0 : Rd T) sz n : tracks r r0 -> eats 1 r0 -> tracks (a_many r sz n) (read_many r0 n).
Proof.
  intros Ht He bs. unfold a_many.
  pose proof (tracks_many_loop r r0 (GROW * sz) Ht He (S (length bs)) n [] bs ltac:(unfold len; lia)) as H.
  destruct (a_many_loop (S (length bs)) r (GROW * sz) n [] bs) as [m x]. cbv beta iota zeta. cbn [snd] in *. rewrite H. cbn [rev app].
  destruct (Z.leb_spec n 0) as [Hn | Hn].
  - replace (Z.to_nat n) with 0%nat by lia. cbn. unfold read_many. destruct n; try lia; reflexivity.
  - rewrite <- (Z2Nat.id n) at 2 by lia. rewrite read_many_spec.
    destruct (read_many_nat r0 (Z.to_nat n) bs) as [[l rest]| |]; reflexivity.
Qed.

Lemma eats_read_blob k : eats (Z.of_nat k) (read_blob k).
Proof.
  unfold read_blob, read_vec. replace (Z.of_nat k) with (Z.of_nat k + 0) by lia.
  apply eats_bind; [apply eats_read_uint | intros; apply eats_read_slice].
Qed.

Lemma eats_read_Queries : eats 1 read_Queries.
Proof.
  unfold read_Queries. replace 1 with (1 + (0 + 0)) by lia.
  apply eats_bind; [eapply eats_weaken; [|apply (eats_read_blob 4)]; lia|]. intros v.
  apply eats_bind; [eapply eats_weaken; [|apply (eats_read_blob 4)]; lia|]. intros p. apply eats_ret.
Qed.

Lemma eats_read_FriProofLayer : eats 1 read_FriProofLayer.
Proof.
  unfold read_FriProofLayer, read_u32, read_vec. replace 1 with (1 + 0) by lia.
  apply eats_bind; [eapply eats_weaken; [|apply (eats_read_uint 4)]; lia|]. intros n.
  apply eats_if; [apply eats_fail|]. eats0. eapply eats_weaken; [|apply (eats_read_blob 4)]; lia.
Qed.

Lemma tracks_FriProof : tracks a_FriProof read_FriProof.
Proof.
  unfold a_FriProof, read_FriProof. apply tracks_bind; [apply tracks_free|]. intros n.
  apply tracks_bind; [apply tracks_many; [apply tracks_FriProofLayer | apply eats_read_FriProofLayer]|]. intros layers.
  apply tracks_bind; [apply tracks_ablob|]. intros r. apply tracks_bind; [apply tracks_free|]. intros np.
  apply tracks_if; [apply tracks_fail | apply tracks_ret].
Qed.

Lemma tracks_Context : tracks a_Context read_Context.
Proof. intros bs. unfold a_Context. destruct (read_Context bs) as [[c r]| |]; reflexivity. Qed.

Lemma bind_assoc {T U V} (a : Rd T) (f : T -> Rd U) (g : U -> Rd V) bs :
  bind (bind a f) g bs = bind a (fun x => bind (f x) g) bs.
Proof. unfold bind. destruct (a bs) as [[x bs']| |]; reflexivity. Qed.

Lemma tracks_gkr :
  tracks (tag <~ afree read_bool ;;
          if tag then (n <~ afree read_usize ;; v <~ a_many (afree read_u8) 1 n ;; aret (Some v)) else aret None)
         (read_option (read_vec_of read_u8)).
Proof.
  unfold read_option. apply tracks_bind; [apply tracks_free|]. intros tag.
  apply tracks_if; [|apply tracks_ret].
  intros bs. unfold read_vec_of. rewrite bind_assoc. revert bs.
  apply tracks_bind; [apply tracks_free|]. intros n.
  apply tracks_bind; [apply tracks_many; [apply tracks_free | apply eats_read_u8]|]. intros v. apply tracks_ret.
Qed.

Theorem tracks_Proof : tracks a_Proof read_Proof.
Proof.
  unfold a_Proof, read_Proof. apply tracks_bind; [apply tracks_Context|]. intros c.
  apply tracks_bind; [apply tracks_free|]. intros nuq.
  apply tracks_bind; [apply tracks_ablob|]. intros com.
  apply tracks_bind.
  { intros bs. pose proof (tracks_many a_Queries read_Queries 0 (ti_num_segments (ctx_trace_info c)) tracks_Queries eats_read_Queries bs) as H.
    destruct (a_many a_Queries 0 (ti_num_segments (ctx_trace_info c)) bs) as [m x]. exact H. }
  intros tq. apply tracks_bind; [apply tracks_Queries|]. intros cq.
  apply tracks_bind; [apply tracks_OodFrame|]. intros ood.
  apply tracks_bind; [apply tracks_FriProof|]. intros fri.
  apply tracks_bind; [apply tracks_free|]. intros nonce.
  apply tracks_bind; [apply tracks_gkr|]. intros gkr. apply tracks_ret.
Qed.

(* the accounting is an annotation of Proof::from_bytes: same result on every input *)
Theorem parse_alloc_follows_parse : forall bs, parse_alloc_result bs = parse bs.
Proof.
  intros bs. unfold parse_alloc_result, parse, parse_prefix. rewrite (tracks_Proof bs). reflexivity.
Qed.
