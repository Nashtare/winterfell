(* C20 — Lagrange interpolation (polynom::interpolate): numerators roots_poly (xs without k), denominators by one
   batch inversion, the accumulator after k rounds in closed form (lag_acc); no panic, and the points are hit. *)
From Coq Require Import List Arith Bool Lia Ring Field.
From VBase Require Import FieldOps.
From VModel Require Import Polynom.
From VProofs Require Import PolyBase PolyArith PolyCoeff PolyUtils PolyDiv PolyRoots.
Import ListNotations.

Section Interp.
Context {F : Type} (O : FOps F) (L : FLaws O).
Local Notation zero := (fzero O).
Local Notation one := (fone O).
Local Notation "a +f b" := (fadd O a b) (at level 50, left associativity).
Local Notation "a -f b" := (fsub O a b) (at level 50, left associativity).
Local Notation "a *f b" := (fmul O a b) (at level 40, left associativity).
Local Notation peval := (peval O).
Local Notation fpow := (fpow O).
Local Notation pprod := (pprod O).
Local Notation roots_poly := (roots_poly O).
Local Notation gsum := (gsum O).

Add Field Ffield : (FLaws_field_theory O L).

Lemma split_nth (xs : list F) k : k < length xs -> xs = firstn k xs ++ nth k xs zero :: skipn (S k) xs.
Proof. intros H. rewrite <- (skipn_cons_nth xs k zero H). symmetry. apply firstn_skipn. Qed.

Definition removek (k : nat) (xs : list F) : list F := firstn k xs ++ skipn (S k) xs.

Lemma zip_acc_peval c x : forall (a b : list F), length a <= length b ->
  peval (zip_with (fun r m => r +f m *f c) a b) x = peval a x +f c *f peval (firstn (length a) b) x.
Proof.
  induction a as [|a0 a IH]; intros b H. simpl. ring.
  destruct b as [|b0 b]; [simpl in H; lia|]. cbn [zip_with length firstn PolyBase.peval].
  rewrite IH by (simpl in H; lia). ring.
Qed.

(* ------------------------------------------------------------------ the numerators *)
Definition Ng (xs : list F) (k : nat) : list F := roots_poly (removek k xs) ++ [zero].

Lemma numer_spec xs k : k < length xs ->
  syn_div_roots_in_place O (roots_poly xs) [nth k xs zero] = Ok (Ng xs k).
Proof.
  intros H. unfold syn_div_roots_in_place, syn_div_roots_in_place_full.
  rewrite roots_poly_length. cbn [length].
  destruct (Nat.ltb_spec 1 (S (length xs))); [|lia]. cbn [negb bind syn_roots_loop].
  rewrite (split_nth xs k H) at 1. rewrite (roots_poly_split O L). rewrite (syn_lin_linmul O L).
  reflexivity.
Qed.

Lemma Ng_peval xs k x : peval (Ng xs k) x = pprod (removek k xs) x.
Proof. unfold Ng. rewrite (peval_app O L), (roots_poly_peval O L). simpl. ring. Qed.

Lemma Ng_length xs k : k < length xs -> length (Ng xs k) = S (length xs).
Proof.
  intros H. unfold Ng, removek. rewrite app_length, (roots_poly_length O), app_length, firstn_length, skipn_length.
  simpl. lia.
Qed.

Lemma Ng_firstn xs k x : k < length xs -> peval (firstn (length xs) (Ng xs k)) x = pprod (removek k xs) x.
Proof.
  intros H. unfold Ng.
  assert (Hl : length (roots_poly (removek k xs)) = length xs).
  { rewrite (roots_poly_length O). unfold removek. rewrite app_length, firstn_length, skipn_length. lia. }
  rewrite firstn_app, Hl, Nat.sub_diag. simpl. rewrite app_nil_r.
  rewrite <- Hl, firstn_all. apply (roots_poly_peval O L).
Qed.

(* ------------------------------------------------------------------ the accumulation loops *)
Definition interp_inner_body (Ns : list (list F)) (i : nat) (y_slice : F) : nat -> list F -> Result (list F) :=
  fun j res => ni <- get Ns i;; nij <- get ni j;; rj <- get res j;; set res j (rj +f nij *f y_slice).

Definition interp_outer_body (Ns : list (list F)) (ys den : list F) : nat -> list F -> Result (list F) :=
  fun i result =>
    yi <- get ys i;; di <- get den i;;
    let y_slice := yi *f di in
    for_up 0 (length result) (interp_inner_body Ns i y_slice) result.

Lemma interp_inner Ns i Ni ysl : get Ns i = Ok Ni ->
  forall todo done, length done + length todo <= length Ni ->
  for_up (length done) (length todo) (interp_inner_body Ns i ysl) (done ++ todo)
  = Ok (done ++ zip_with (fun r m => r +f m *f ysl) todo (skipn (length done) Ni)).
Proof.
  intros HN. induction todo as [|t0 todo IH]; intros done Hl. reflexivity.
  cbn [length for_up]. unfold interp_inner_body at 1. rewrite HN. cbn [bind].
  simpl in Hl.
  rewrite (get_ok Ni (length done) zero) by lia. cbn [bind].
  rewrite get_app_mid. cbn [bind].
  rewrite set_ok by (rewrite app_length; simpl; lia). rewrite upd_app_mid.
  pose proof (IH (done ++ [t0 +f nth (length done) Ni zero *f ysl])) as G.
  rewrite last_length, <- !app_assoc in G. cbn [app] in G. rewrite G by lia.
  rewrite (skipn_cons_nth Ni (length done) zero) by lia. reflexivity.
Qed.

Section Fixed.
Variables (xs ys den : list F).
Let n := length xs.
Let Ns := map (Ng xs) (seq 0 n).
Definition term (x : F) (i : nat) : F := nth i ys zero *f nth i den zero *f pprod (removek i xs) x.

(* the value of the accumulator after k rounds, as a closed form *)
Fixpoint lag_acc (k : nat) : list F :=
  match k with
  | 0 => repeat zero n
  | S k' => zip_with (fun r m => r +f m *f (nth k' ys zero *f nth k' den zero)) (lag_acc k') (Ng xs k')
  end.

Lemma lag_acc_length : forall k, k <= n -> length (lag_acc k) = n.
Proof.
  induction k as [|k IH]; intros Hk; cbn [lag_acc]. apply repeat_length.
  rewrite zip_with_length; rewrite IH by lia; [reflexivity|]. rewrite Ng_length; fold n; lia.
Qed.

Lemma lag_acc_peval x : forall k, k <= n -> peval (lag_acc k) x = gsum (term x) k.
Proof.
  induction k as [|k IH]; intros Hk; cbn [lag_acc PolyCoeff.gsum]. apply (peval_repeat_zero O L).
  rewrite zip_acc_peval by (rewrite lag_acc_length, Ng_length; fold n; lia).
  rewrite lag_acc_length by lia. unfold n at 1. rewrite Ng_firstn, IH by (fold n; lia). unfold term. ring.
Qed.

Hypothesis Hys : n <= length ys.
Hypothesis Hden : length den = n.

Lemma interp_outer : forall k, k <= n ->
  for_up 0 k (interp_outer_body Ns ys den) (repeat zero n) = Ok (lag_acc k).
Proof.
  induction k as [|k IH]; intros Hk. reflexivity.
  rewrite for_up_snoc, IH by lia. cbn [bind]. simpl (0 + k).
  unfold interp_outer_body. rewrite (get_ok ys k zero) by lia. cbn [bind].
  rewrite (get_ok den k zero) by lia. cbn [bind].
  assert (HN : get Ns k = Ok (Ng xs k)) by (apply get_map_seq; lia).
  pose proof (interp_inner Ns k (Ng xs k) (nth k ys zero *f nth k den zero) HN (lag_acc k) []) as G.
  simpl in G. apply G. rewrite lag_acc_length, Ng_length; fold n; lia.
Qed.
End Fixed.

Definition dens (xs : list F) : list F :=
  batch_inversion O (zip_with (fun e x => eval O e x) (map (Ng xs) (seq 0 (length xs))) xs).

Lemma dens_length xs : length (dens xs) = length xs.
Proof.
  unfold dens. rewrite (batch_inversion_length O L).
  rewrite zip_with_length; rewrite map_length, seq_length; lia.
Qed.

Lemma dens_nth xs k : k < length xs ->
  nth k (dens xs) zero = inv0 O (pprod (removek k xs) (nth k xs zero)).
Proof.
  intros H. unfold dens. rewrite (batch_inversion_spec O L).
  assert (Hl : length (map (Ng xs) (seq 0 (length xs))) = length xs) by now rewrite map_length, seq_length.
  rewrite (nth_indep _ zero (inv0 O zero)) by (rewrite map_length, zip_with_length; lia).
  rewrite map_nth. f_equal.
  rewrite (zip_with_nth _ (Ng xs 0) zero zero), nth_map_seq by lia.
  rewrite (eval_horner O L). apply Ng_peval.
Qed.

Lemma interpolate_unfold dbg xs ys rlz : (dbg = true -> length xs = length ys) ->
  interpolate O dbg xs ys rlz =
  (result <- for_up 0 (length xs) (interp_outer_body (map (Ng xs) (seq 0 (length xs))) ys (dens xs))
               (repeat zero (length xs));;
   Ok (if rlz then remove_leading_zeros O result else result)).
Proof.
  intros Hd. unfold interpolate, interpolate_gen.
  assert (Hc : dbg && negb (length xs =? length ys) = false).
  { destruct dbg; [|reflexivity]. rewrite (proj2 (Nat.eqb_eq _ _) (Hd eq_refl)). reflexivity. }
  rewrite Hc. rewrite (poly_from_roots_spec O). cbn [bind].
  rewrite (mapM_nth _ zero xs (Ng xs)) by (intros; now apply numer_spec). cbn [bind].
  reflexivity.
Qed.

(* closed form of the result (also relates interpolate_batch to interpolate) *)
Lemma interpolate_eq_lag dbg xs ys rlz : length xs <= length ys -> (dbg = true -> length xs = length ys) ->
  interpolate O dbg xs ys rlz
  = Ok (let p := lag_acc xs ys (dens xs) (length xs) in if rlz then remove_leading_zeros O p else p).
Proof.
  intros H Hd. rewrite interpolate_unfold by assumption.
  now rewrite (interp_outer xs ys (dens xs) H (dens_length xs) (length xs) (le_n _)).
Qed.

(* no panic whenever the lengths agree (duplicates in xs allowed); value of the result as a sum of Lagrange terms.
   Release profile (dbg = false): ys may be longer than xs, the extra values are ignored. *)
Lemma interpolate_ok_gen dbg xs ys : length xs <= length ys -> (dbg = true -> length xs = length ys) ->
  exists p, interpolate O dbg xs ys false = Ok p /\ length p = length xs /\
            interpolate O dbg xs ys true = Ok (remove_leading_zeros O p) /\
            forall x, peval p x = gsum (term xs ys (dens xs) x) (length xs).
Proof.
  intros H Hd. exists (lag_acc xs ys (dens xs) (length xs)). rewrite !interpolate_eq_lag by assumption.
  split; [reflexivity|]. split; [apply lag_acc_length, le_n|]. split; [reflexivity|].
  intros x. apply lag_acc_peval, le_n.
Qed.

Lemma interpolate_ok dbg xs ys : length ys = length xs ->
  exists p, interpolate O dbg xs ys false = Ok p /\ length p = length xs /\
            interpolate O dbg xs ys true = Ok (remove_leading_zeros O p) /\
            forall x, peval p x = gsum (term xs ys (dens xs) x) (length xs).
Proof. intros H. apply interpolate_ok_gen; intros; lia. Qed.

Lemma interpolate_total_iff xs ys rlz : interpolate O true xs ys rlz <> Panic <-> length xs = length ys.
Proof.
  split.
  - intros H. unfold interpolate, interpolate_gen in H. destruct (Nat.eqb_spec (length xs) (length ys)); auto.
    simpl in H. congruence.
  - intros H. destruct (interpolate_ok true xs ys (eq_sym H)) as (p & H1 & _ & H2 & _).
    destruct rlz; [rewrite H2|rewrite H1]; discriminate.
Qed.

(* release profile (no debug_assert): panics exactly when ys is shorter than xs (at `ys[i]`) *)
Lemma interpolate_release_total_iff xs ys rlz : interpolate O false xs ys rlz <> Panic <-> length xs <= length ys.
Proof.
  split.
  - intros H. destruct (Nat.le_gt_cases (length xs) (length ys)) as [|Hlt]; auto. exfalso. apply H.
    rewrite interpolate_unfold by discriminate.
    replace (length xs) with (length ys + S (length xs - length ys - 1)) at 1 by lia.
    rewrite for_up_add.
    destruct (for_up 0 (length ys) _ _) as [s'|]; [|reflexivity]. cbn [bind for_up].
    unfold interp_outer_body at 1. rewrite (get_panic ys) by lia. reflexivity.
  - intros H. destruct (interpolate_ok_gen false xs ys H ltac:(discriminate)) as (p & H1 & _ & H2 & _).
    destruct rlz; [rewrite H2|rewrite H1]; discriminate.
Qed.

(* distinct X coordinates (0 allowed): the result passes through every point *)
Lemma interpolate_spec dbg xs ys : NoDup xs -> length ys = length xs ->
  exists p, interpolate O dbg xs ys false = Ok p /\ length p = length xs /\
            interpolate O dbg xs ys true = Ok (remove_leading_zeros O p) /\
            forall m, m < length xs -> peval p (nth m xs zero) = nth m ys zero.
Proof.
  intros Hnd H. destruct (interpolate_ok dbg xs ys H) as (p & H1 & H2 & H3 & H4).
  exists p. repeat split; auto. intros m Hm. rewrite H4.
  rewrite (gsum_single O L _ m).
  - destruct (Nat.ltb_spec m (length xs)); [|lia]. unfold term.
    rewrite dens_nth by assumption. unfold inv0.
    assert (Hnz : pprod (removek m xs) (nth m xs zero) <> zero).
    { apply (pprod_nonroot O L). unfold removek. apply NoDup_remove_2. rewrite <- split_nth; assumption. }
    rewrite (feqb_neq O L) by assumption. field. exact Hnz.
  - intros i Hi Him. unfold term.
    assert (Hin : In (nth m xs zero) (removek i xs)).
    { pose proof (nth_In xs zero Hm) as Hx. rewrite (split_nth xs i Hi) in Hx at 2.
      unfold removek. apply in_app_or in Hx. apply in_or_app. destruct Hx as [Hx|[Hx|Hx]]; auto.
      exfalso. apply Him. apply (proj1 (NoDup_nth xs zero) Hnd i m Hi Hm Hx). }
    rewrite (pprod_root O L) by assumption. ring.
Qed.

(* the unrepaired code (syn_div(&roots, 1, x)) panicked as soon as one X coordinate was zero *)
Lemma interpolate_unrepaired_zero dbg xs ys rlz : In zero xs -> interpolate_unrepaired O dbg xs ys rlz = Panic.
Proof.
  intros Hin. unfold interpolate_unrepaired, interpolate_gen.
  destruct (dbg && negb (length xs =? length ys)); [reflexivity|].
  rewrite (poly_from_roots_spec O). cbn [bind].
  rewrite (mapM_panic _ xs zero Hin). reflexivity.
  unfold syn_div, syn_div_in_place, syn_div_in_place_full. simpl. now rewrite (feqb_refl O L).
Qed.

End Interp.
