(* C01 — non-vacuity of the instantiated capstone `stark_complete` (Proofs/StarkInst.v): a concrete instance over Z/17
   in which EVERY hypothesis holds — Merkle model of C10 with D = Z, FFT interpolation of C09 over the coset 3*<4>
   (constraint evaluation domain of 4 points), the symbolic transcript of C04, a transparent FRI. *)
From Coq Require Import List Arith Bool ZArith Lia Ring Field.
From VBase Require Import FieldOps ZpOps.
From VModel Require Import Stark.
From VModel Require FFT Transcript.
From VProofs Require Import NumTheoryFermat NumTheoryPrime ZpLaws ListFacts Pow2Facts StarkPoly StarkDeep StarkComplete StarkInst StarkExamples.
From VProofs Require FFTSpec FFTEval FFTOffset TranscriptExamples.
From VProps Require C09.
Import ListNotations.
Open Scope nat_scope.

Definition T2 : list (Zp 17%Z) := [e17 5%Z; fzero O17].       (* one constant column, trace length 2 *)
Definition g2 : Zp 17%Z := e17 16%Z.                          (* trace domain generator, order 2 *)
Definition w4 : Zp 17%Z := e17 4%Z.                           (* CE domain generator, order 4; g2 = w4^2 *)
Definition lde4 : list (Zp 17%Z) := [e17 3%Z; e17 12%Z; e17 14%Z; e17 5%Z].   (* 3 * <4> *)
Definition coin2 : @Coin (Zp 17%Z) := mkCoin (e17 6%Z) [e17 7%Z] [e17 11%Z] [e17 3%Z; e17 5%Z].
Definition air2 (x : Zp 17%Z) (cur nxt : list (Zp 17%Z)) : Zp 17%Z :=
  fadd O17
    (fmul O17 (fmul O17 (fsub O17 (nth 0 nxt (fzero O17)) (nth 0 cur (fzero O17))) (pprod O17 (exempt O17 g2 2 1) x))
              (finv O17 (fsub O17 (fpow O17 x 2) (fone O17))))
    (fmul O17 (fsub O17 (nth 0 cur (fzero O17)) (e17 5%Z)) (finv O17 (fsub O17 x (fone O17)))).

Lemma T2_eval x : peval O17 T2 x = e17 5%Z.
Proof. unfold T2. cbn [Stark.peval]. ring. Qed.

Definition rou2 (k : nat) : Zp 17%Z := match k with 2 => w4 | 1 => g2 | _ => fone O17 end.
Definition itw2 : list (Zp 17%Z) := match FFT.get_inv_twiddles O17 4 rou2 (2 ^ 2) with Some l => l | None => [] end.
Definition fri_v (pf : list (Zp 17%Z)) (_ : nat) (xs evs : list (Zp 17%Z)) : bool := leqb evs (map (peval O17 pf) xs).
Lemma ex_depth : 1 <= 2 <= 62. Proof. lia. Qed.
Lemma ex_len : length lde4 = 2 ^ 2. Proof. reflexivity. Qed.
Lemma ex_ta : 2 <= 4. Proof. lia. Qed.
Lemma ex_rou : rou2 2 = w4. Proof. reflexivity. Qed.
Lemma ex_root : FFTSpec.root_cond O17 2 w4. Proof. cbn [FFTSpec.root_cond]. zp_eq. Qed.
Lemma ex_get : FFT.get_inv_twiddles O17 4 rou2 (2 ^ 2) = Some itw2.
Proof.
  destruct (VProps.C09.C09_get_inv_twiddles _ O17 L17 4 rou2 1 w4 ex_ta ex_rou ex_root) as (itw' & E & _).
  unfold itw2. rewrite E. reflexivity.
Qed.
Lemma ex_off : e17 3%Z <> fzero O17. Proof. intros E. zp_neq E. Qed.
Lemma ex_ninv : fmul O17 (FFTSpec.two_pow_f O17 2) (FFTOffset.n_inv O17 2) = fone O17. Proof. zp_eq. Qed.
Lemma ex_fri : forall d xs, length d = 2 -> last d (fzero O17) = fzero O17 -> incl xs lde4 -> xs <> [] -> length xs <= 255 ->
  fri_v d (2 - 2) xs (map (peval O17 d) xs) = true.
Proof. intros d xs _ _ _ _ _. apply leqb_refl. Qed.

Example stark_complete_instance :
  exists pf,
    prove O17 Z (Opening Z) (list (Zp 17%Z)) (commit O17 Z 0%Z Z.add (fun _ => 0%Z) lde4) (open_prove O17 Z 0%Z Z.add (fun _ => 0%Z) lde4)
          (fun d _ => d) air2 (interp_ce O17 4 itw2 1 w4 (e17 3%Z))
          (mkParams 2 g2 1 false true) (coin_prover (fun _ => coin2) TranscriptExamples.s0) [T2] = Done pf /\
    verify O17 Z (Opening Z) (list (Zp 17%Z)) (open_ok O17 Z Z.eqb Z.add (fun _ => 0%Z) lde4)
           fri_v air2
           (mkParams 2 g2 1 false true) (coin_verifier (fun _ => coin2) TranscriptExamples.s0) pf = None.
Proof.
  apply (stark_complete O17 L17 Z Z.eqb Z.eqb_eq 0%Z Z.add (fun _ => 0%Z) lde4 2 ex_depth ex_len
           4 rou2 itw2 1 w4 (e17 3%Z) ex_ta ex_rou ex_root ex_get ex_off ex_ninv
           (list (Zp 17%Z)) (fun d _ => d) fri_v air2 (fun _ => coin2) 2 1 2 g2 ex_fri true TranscriptExamples.s0 [T2] 1 [] [([], [fone O17])]).
  all: cbn [coin_prover c_z c_xs coin2].
  - (* primitive_root g2 2 *) split; [zp_eq|]. intros i j Hi Hj E.
    destruct i as [|[|i]]; destruct j as [|[|j]]; try lia; try reflexivity; zp_neq E.
  - intros E. zp_neq E.
  - lia.
  - lia.
  - reflexivity.
  - lia.
  - discriminate.
  - repeat constructor.
  - lia.
  - intros i _. reflexivity.
  - simpl; lia.
  - constructor; [|constructor]. cbn [fst snd]. split; [repeat constructor; intros []|]. split.
    + intros r [<-|[]]. apply (In_domain O17). exists 0. split; [lia | reflexivity].
    + split; [intros r _; reflexivity | simpl; lia].
  - intros x _. unfold air2, combined. cbn [evals map nth bsum Stark.peval]. rewrite !T2_eval. ring.
  - intros H. apply (In_domain O17) in H. destruct H as (i & Hi & E). destruct i as [|[|i]]; [zp_neq E | zp_neq E | lia].
  - intros E. zp_neq E.
  - intros E. zp_neq E.
  - intros x [<-|[<-|[]]]; unfold lde4; simpl; tauto.
  - constructor; [intros [E|[]]; zp_neq E | constructor; [intros [] | constructor]].
  - discriminate.
  - simpl; lia.
  - intros x [<-|[<-|[]]]; split; intros E; zp_neq E.
Qed.
