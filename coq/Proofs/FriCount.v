(* C05 — the one probabilistic step of FRI soundness that is pure counting.  For layer functions and a remainder fixed
   before the queries, the comparisons of the query phase pass on a vector of q LDE positions iff every position reduces
   (through fold_positions: mod + dedup) into the good set of every comparison, and exactly (D - U)^q of the D^q vectors
   pass, U the number of positions that do not.  Partial: the proximity-gap argument relating distance to the number of
   bad positions is not treated. *)
From Coq Require Import List Arith Bool Lia.
From VBase Require Import FieldOps.
From VModel Require Import Fri.
From VProofs Require Import ListFacts Pow2Facts FriIdx.
Import ListNotations.

Fixpoint vectors (n q : nat) : list (list nat) :=
  match q with
  | 0 => [[]]
  | S q' => flat_map (fun p => map (cons p) (vectors n q')) (seq 0 n)
  end.

Lemma vectors_length n q : length (vectors n q) = n ^ q.
Proof.
  induction q as [|q IH]; [reflexivity|]. cbn [vectors Nat.pow].
  rewrite (flat_map_length_count (fun _ => true) _ (n ^ q)).
  - assert (G : forall l : list nat, filter (fun _ => true) l = l) by (induction l; cbn; congruence).
    now rewrite G, seq_length.
  - intros x. now rewrite map_length.
Qed.

Theorem passing_vectors_count (good : nat -> bool) n q :
  length (filter (forallb good) (vectors n q)) = length (filter good (seq 0 n)) ^ q.
Proof.
  induction q as [|q IH]; [reflexivity|]. cbn [vectors Nat.pow].
  rewrite filter_flat_map.
  rewrite (flat_map_length_count good _ (length (filter good (seq 0 n)) ^ q)); [reflexivity|].
  intros p. rewrite <- IH.
  assert (G : forall V, filter (forallb good) (map (cons p) V)
                        = if good p then map (cons p) (filter (forallb good) V) else []).
  { induction V as [|v V IHV]; cbn [map filter forallb]; [now destruct (good p)|].
    rewrite IHV. destruct (good p); cbn [andb]; [destruct (forallb good v); reflexivity | reflexivity]. }
  rewrite G. destruct (good p); [now rewrite map_length | reflexivity].
Qed.

(* in terms of the number of bad positions *)
Corollary passing_vectors_count_bad (good : nat -> bool) n q :
  length (filter (forallb good) (vectors n q)) = (n - length (filter (fun p => negb (good p)) (seq 0 n))) ^ q.
Proof.
  rewrite passing_vectors_count. f_equal.
  pose proof (filter_partition_length good (seq 0 n)) as H. rewrite seq_length in H. lia.
Qed.

(* ---------------------------------------------------------------- from LDE positions to last-layer positions *)
(* the positions the verifier reaches after k layers: P_0 = ps, P_{i+1} = fold_positions P_i *)
Fixpoint fold_chain (k : nat) (ps : list nat) (d N : nat) : list nat :=
  match k with 0 => ps | S k' => fold_chain k' (fold_positions_core ps (d / N)) (d / N) N end.

Lemma fold_core_In ps t x : In x (fold_positions_core ps t) <-> exists p, In p ps /\ x = p mod t.
Proof.
  rewrite fold_positions_core_dedup, dedup_In, in_map_iff. split; intros [p [A B]]; exists p; auto.
Qed.

Lemma fold_chain_In : forall k ps n N x, N <> 0 -> n <> 0 -> (forall p, In p ps -> p < n * N ^ k) ->
  (In x (fold_chain k ps (n * N ^ k) N) <-> exists p, In p ps /\ x = p mod n).
Proof.
  induction k as [|k IH]; intros ps n N x HN Hn Hps; cbn [fold_chain Nat.pow].
  - rewrite Nat.mul_1_r in Hps. split.
    + intros H. exists x. split; [assumption|]. symmetry. apply Nat.mod_small. now apply Hps.
    + intros [p [A ->]]. rewrite Nat.mod_small by now apply Hps. assumption.
  - assert (Hd : n * (N * N ^ k) / N = n * N ^ k).
    { replace (n * (N * N ^ k)) with (n * N ^ k * N) by lia. now apply Nat.div_mul. }
    rewrite Hd. assert (Hz : n * N ^ k <> 0) by (apply Nat.neq_mul_0; split; [assumption | now apply Nat.pow_nonzero]).
    rewrite IH; [|assumption|assumption|].
    + split.
      * intros [y [Hy ->]]. apply fold_core_In in Hy. destruct Hy as [p [Hp ->]]. exists p. split; [assumption|].
        apply mod_mod_mul; [assumption | now apply Nat.pow_nonzero].
      * intros [p [Hp ->]]. exists (p mod (n * N ^ k)). split; [apply fold_core_In; eauto|].
        symmetry. apply mod_mod_mul; [assumption | now apply Nat.pow_nonzero].
    + intros y Hy. apply fold_core_In in Hy. destruct Hy as [p [_ ->]]. now apply Nat.mod_upper_bound.
Qed.

Lemma forallb_fold_chain (good : nat -> bool) k ps n N : N <> 0 -> n <> 0 -> (forall p, In p ps -> p < n * N ^ k) ->
  forallb good (fold_chain k ps (n * N ^ k) N) = forallb (fun p => good (p mod n)) ps.
Proof.
  intros HN Hn Hps. apply eq_true_iff_eq. rewrite !forallb_forall. split.
  - intros H p Hp. apply H. apply fold_chain_In; eauto.
  - intros H x Hx. apply fold_chain_In in Hx; try assumption. destruct Hx as [p [Hp ->]]. now apply H.
Qed.

Lemma vectors_entries n q v : In v (vectors n q) -> forall p, In p v -> p < n.
Proof.
  revert v. induction q as [|q IH]; intros v Hv p Hp; cbn [vectors] in Hv.
  - destruct Hv as [<-|[]]. destruct Hp.
  - apply in_flat_map in Hv. destruct Hv as [a [Ha Hv]]. apply in_map_iff in Hv. destruct Hv as [v' [<- Hv']].
    destruct Hp as [<-|Hp]; [apply in_seq in Ha; lia | eapply IH; eassumption].
Qed.

(* every last-layer position has exactly m preimages in the LDE domain of size n * m *)
Lemma preimage_count (good : nat -> bool) n : forall m, n <> 0 ->
  length (filter (fun p => good (p mod n)) (seq 0 (n * m))) = m * length (filter good (seq 0 n)).
Proof.
  induction m as [|m IH]; intros Hn; [now rewrite Nat.mul_0_r|].
  replace (n * S m) with (n * m + n) by lia. rewrite seq_app, filter_app, app_length, IH by assumption. cbn [Nat.add].
  rewrite <- (map_id (seq (n * m) n)), map_seq_shift, filter_map_length. rewrite (filter_ext_in (fun x => good ((n * m + x) mod n)) good).
  - cbn. lia.
  - intros i Hi. apply in_seq in Hi. f_equal. rewrite Nat.add_comm, Nat.mul_comm, Nat.mod_add by assumption.
    apply Nat.mod_small. lia.
Qed.

(* ---------------------------------------------------------------- several checks at several layers *)
(* a check (i, g): the predicate g must hold at every position the verifier reaches after i foldings (1 <= i <= k;
   these live in the domain of size n * N^(k-i)) *)
Definition level_size (n N k i : nat) : nat := n * N ^ (k - i).

Definition pass_checks (cs : list (nat * (nat -> bool))) (n N k : nat) (ps : list nat) : bool :=
  forallb (fun c => forallb (snd c) (fold_chain (fst c) ps (n * N ^ k) N)) cs.

(* a single LDE position is fine when it reduces into the good set of every check *)
Definition pos_ok_checks (cs : list (nat * (nat -> bool))) (n N k : nat) (p : nat) : bool :=
  forallb (fun c => snd c (p mod level_size n N k (fst c))) cs.

Lemma level_split n N k i : i <= k -> n * N ^ k = level_size n N k i * N ^ i.
Proof. intros H. unfold level_size. rewrite <- Nat.mul_assoc, <- Nat.pow_add_r. do 2 f_equal. lia. Qed.

Theorem pass_checks_pointwise : forall cs n N k ps, N <> 0 -> n <> 0 ->
  (forall c, In c cs -> fst c <= k) -> (forall p, In p ps -> p < n * N ^ k) ->
  pass_checks cs n N k ps = forallb (pos_ok_checks cs n N k) ps.
Proof.
  intros cs n N k ps HN Hn Hcs Hps. unfold pass_checks, pos_ok_checks.
  rewrite <- (forallb_swap (fun c p => snd c (p mod level_size n N k (fst c))) cs ps).
  assert (E : forall c, In c cs ->
            forallb (snd c) (fold_chain (fst c) ps (n * N ^ k) N)
            = forallb (fun p => snd c (p mod level_size n N k (fst c))) ps).
  { intros c Hc. pose proof (Hcs c Hc) as Hi. rewrite (level_split n N k (fst c) Hi).
    apply (forallb_fold_chain (snd c) (fst c) ps (level_size n N k (fst c)) N HN).
    - apply Nat.neq_mul_0. split; [assumption | now apply Nat.pow_nonzero].
    - intros p Hp. rewrite <- (level_split n N k (fst c) Hi). now apply Hps. }
  apply eq_true_iff_eq. rewrite !forallb_forall. split; intros H c Hc; specialize (H c Hc).
  - now rewrite <- (E c Hc).
  - now rewrite (E c Hc).
Qed.

(* exact count over ALL checks, and the upper bound given by any single check *)
Theorem passing_vectors_all_checks : forall cs n N k q, N <> 0 -> n <> 0 -> (forall c, In c cs -> fst c <= k) ->
  let D := n * N ^ k in
  let U := length (filter (fun p => negb (pos_ok_checks cs n N k p)) (seq 0 D)) in
  length (filter (pass_checks cs n N k) (vectors D q)) = (D - U) ^ q /\
  length (vectors D q) = D ^ q /\
  forall i g, In (i, g) cs ->
    let bad := length (filter (fun x => negb (g x)) (seq 0 (level_size n N k i))) in
    (D - U) ^ q <= (D - bad * N ^ i) ^ q.
Proof.
  intros cs n N k q HN Hn Hcs D U. split; [|split; [apply vectors_length|]].
  - rewrite (filter_ext_in _ (forallb (pos_ok_checks cs n N k))).
    2:{ intros ps Hps. apply pass_checks_pointwise; try assumption. intros p Hp. eapply vectors_entries; eassumption. }
    apply passing_vectors_count_bad.
  - intros i g Hin bad. apply Nat.pow_le_mono_l.
    pose proof (filter_partition_length (pos_ok_checks cs n N k) (seq 0 D)) as H. rewrite seq_length in H. fold U in H.
    assert (Hi : i <= k) by (apply (Hcs (i, g) Hin)).
    assert (Hle : length (filter (pos_ok_checks cs n N k) (seq 0 D))
                  <= length (filter (fun p => g (p mod level_size n N k i)) (seq 0 D))).
    { apply filter_length_imp. intros x Hx. unfold pos_ok_checks in Hx. rewrite forallb_forall in Hx. apply (Hx (i, g) Hin). }
    unfold D in Hle at 2. rewrite (level_split n N k i Hi) in Hle.
    rewrite preimage_count in Hle by (apply Nat.neq_mul_0; split; [assumption | now apply Nat.pow_nonzero]).
    pose proof (filter_partition_length g (seq 0 (level_size n N k i))) as Hg. rewrite seq_length in Hg. fold bad in Hg.
    assert (HD : D = level_size n N k i * N ^ i) by (apply level_split; assumption).
    nia.
Qed.

Section Check.
Context {F : Type} (O : FOps F).
Variable gen_offset : F.

(* a position is good when the remainder polynomial agrees with the last-layer function there *)
Definition good_position (R : list F) (g : F) (E : list F) (p : nat) : bool :=
  feqb O (eval_horner O R (fmul O gen_offset (fexp O g p))) (nth p E (fzero O)).

Lemma remainder_check_forallb R g E : forall ps,
  remainder_check O gen_offset R g ps (map (fun p => nth p E (fzero O)) ps) = forallb (good_position R g E) ps.
Proof. induction ps as [|p ps IH]; cbn [remainder_check map forallb]; [reflexivity | now rewrite IH]. Qed.

(* with `bad` = number of last-layer positions where R and E disagree, exactly
   (n - bad)^q of the n^q position vectors of length q pass check (e); for bad >= delta * n this is at most
   ((1 - delta) n)^q *)
Theorem fri_query_counting_partial : forall R g E n q,
  let bad := length (filter (fun p => negb (good_position R g E p)) (seq 0 n)) in
  length (filter (fun ps => remainder_check O gen_offset R g ps (map (fun p => nth p E (fzero O)) ps)) (vectors n q))
  = (n - bad) ^ q /\ length (vectors n q) = n ^ q.
Proof.
  intros R g E n q bad. split; [|apply vectors_length].
  rewrite (filter_ext _ (forallb (good_position R g E))) by (intros; apply remainder_check_forallb).
  apply passing_vectors_count_bad.
Qed.

(* q query positions in the LDE domain of size D = n * N^k (k layers of folding factor
   N, last layer of size n), a last-layer function E fixed before the queries, a remainder R disagreeing with E on
   `bad` of the n last-layer positions.  The verifier folds the positions k times (fold_positions: mod + dedup) and
   runs check (e) on the result; this passes iff every query position reduces (mod n) to a good position, and
   exactly (D - bad * N^k)^q of the D^q position vectors pass — a fraction ((n - bad)/n)^q. *)
Theorem fri_query_counting_lde_partial : forall R g E n N k q, N <> 0 -> n <> 0 ->
  let D := n * N ^ k in
  let bad := length (filter (fun p => negb (good_position R g E p)) (seq 0 n)) in
  length (filter (fun ps => let last := fold_chain k ps D N in
                            remainder_check O gen_offset R g last (map (fun p => nth p E (fzero O)) last))
                 (vectors D q))
  = (D - bad * N ^ k) ^ q /\ length (vectors D q) = D ^ q.
Proof.
  intros R g E n N k q HN Hn D bad. split; [|apply vectors_length].
  rewrite (filter_ext_in _ (forallb (fun p => good_position R g E (p mod n)))).
  2:{ intros ps Hps. cbv zeta. rewrite remainder_check_forallb.
      apply forallb_fold_chain; try assumption. intros p Hp. eapply vectors_entries; eassumption. }
  rewrite passing_vectors_count_bad. unfold D.
  rewrite (preimage_count (fun p => negb (good_position R g E p))) by assumption. fold bad. f_equal. lia.
Qed.

(* ---------------------------------------------------------------- all query-phase checks of the verifier *)
(* Layer functions committed before the positions are drawn: Es = [E_0; ...; E_(k-1)] (E_j on the domain of size
   n * N^(k-j)), challenges alphas, remainder R.  [foldval] is the value the verifier carries out of a layer: the
   interpolant of the opened row at alpha (Model/Fri.v layer_step).  The comparison `evaluations != query_values`
   (InvalidLayerFolding(j)) at layer j >= 1 and the remainder comparison (InvalidRemainderFolding) are, position by
   position: *)
Variable roots : list F.
Variable N : nat.
Definition foldval (g : F) (E : list F) (rl : nat) (alpha : F) (x : nat) : F :=
  interp_eval O (row_xs O gen_offset roots g x) (row_of (fzero O) N rl E x) alpha.

(* layer check: the committed next function agrees with the fold of the previous one at x *)
Definition good_fold (g : F) (Eprev Enext : list F) (rl : nat) (alpha : F) (x : nat) : bool :=
  feqb O (foldval g Eprev rl alpha x) (nth x Enext (fzero O)).
(* remainder check against the fold of the last committed function *)
Definition good_rem (R : list F) (gk gprev : F) (Eprev : list F) (rl : nat) (alpha : F) (x : nat) : bool :=
  feqb O (eval_horner O R (fmul O gen_offset (fexp O gk x))) (foldval gprev Eprev rl alpha x).

Lemma layer_compare_forallb g Eprev Enext rl alpha : forall P,
  list_feqb O (map (foldval g Eprev rl alpha) P) (map (fun p => nth p Enext (fzero O)) P)
  = forallb (good_fold g Eprev Enext rl alpha) P.
Proof. induction P as [|p P IH]; cbn [map list_feqb forallb]; [reflexivity | now rewrite IH]. Qed.

Lemma remainder_compare_forallb R gk gprev Eprev rl alpha : forall P,
  remainder_check O gen_offset R gk P (map (foldval gprev Eprev rl alpha) P) = forallb (good_rem R gk gprev Eprev rl alpha) P.
Proof. induction P as [|p P IH]; cbn [map remainder_check forallb]; [reflexivity | now rewrite IH]. Qed.

(* the checks of the whole query phase as a list cs of (level, predicate) — level j for the layer comparison j (good_fold),
   level k for the remainder (good_rem), each a predicate on the positions reached after that many foldings.  The conjunction
   of the verifier's comparisons on a position vector is pass_checks (the two lemmas above, comparison by comparison; not
   part of the statement).  Then (1) a vector passes iff every LDE position reduces, modulo the respective layer domain
   size, into the good set of every check, (2) exactly (D - U)^q of the D^q vectors pass, U = number
   of LDE positions in the union of the preimages of the bad sets, and (3) (D - U)^q <= (D - bad_c * N^level)^q for every
   single check c: the passing fraction is at most (1 - max_c bad_c / |domain_c|)^q. *)
Theorem fri_query_counting_all_checks_partial : forall (cs : list (nat * (nat -> bool))) n k q, N <> 0 -> n <> 0 ->
  (forall c, In c cs -> fst c <= k) ->
  let D := n * N ^ k in
  let U := length (filter (fun p => negb (pos_ok_checks cs n N k p)) (seq 0 D)) in
  (forall ps, (forall p, In p ps -> p < D) -> pass_checks cs n N k ps = forallb (pos_ok_checks cs n N k) ps) /\
  length (filter (pass_checks cs n N k) (vectors D q)) = (D - U) ^ q /\ length (vectors D q) = D ^ q /\
  (forall i g, In (i, g) cs ->
     (D - U) ^ q <= (D - length (filter (fun x => negb (g x)) (seq 0 (level_size n N k i))) * N ^ i) ^ q).
Proof.
  intros cs n k q HN Hn Hcs D U. split.
  - intros ps Hps. now apply pass_checks_pointwise.
  - exact (passing_vectors_all_checks cs n N k q HN Hn Hcs).
Qed.
End Check.
