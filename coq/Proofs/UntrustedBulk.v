(* Proofs/UntrustedBulk.v — C06: no bulk read with an untrusted, unbounded length is reachable in Proof::from_bytes.
   read_Proof_chk (Model/Untrusted.v: read_Proof with the `pos + n` of SliceReader::check_eor made explicit at every bulk
   read) coincides with read_Proof on every input shorter than 2^63 bytes, so the overflow branch is dead; the same bulk
   read applied to the vint64 length of the GKR proof is not (gkr_bulk_read_refuted). *)
From VBase Require Import MachInt.
From VModel Require Import Codec Untrusted.
From VProofs Require Import CodecPrim CodecTypes CodecTotal UntrustedAlloc.
Open Scope Z_scope.

(* [agree total rc r]: on byte input which is a rest of a source of [total] bytes the two readers coincide *)
Definition agree (total : Z) {T} (rc r : Rd T) : Prop := forall bs, is_bytes bs -> len bs <= total -> rc bs = r bs.

Lemma agree_refl total {T} (r : Rd T) : agree total r r.
Proof. intros bs _ _. reflexivity. Qed.

Lemma agree_bind total {T U} (P : T -> Prop) w (rc r : Rd T) (fc f : T -> Rd U) :
  agree total rc r -> safeP P r -> eats w r -> 0 <= w -> (forall a, P a -> agree total (fc a) (f a)) ->
  agree total (bind rc fc) (bind r f).
Proof.
  intros Hr Hs He Hw Hf bs Hbs Hl. unfold bind. rewrite (Hr bs Hbs Hl). specialize (Hs bs Hbs).
  destruct (r bs) as [[a rest]| |] eqn:E; auto.
  destruct Hs as [Pa Hrest]. specialize (He bs a rest E). apply Hf; auto. lia.
Qed.

Lemma agree_bind_same total {T U} (rc r : Rd T) (f : T -> Rd U) : agree total rc r -> agree total (bind rc f) (bind r f).
Proof. intros Hr bs Hbs Hl. unfold bind. now rewrite (Hr bs Hbs Hl). Qed.

Lemma agree_if total {T} (c : bool) (a1 a2 b1 b2 : Rd T) :
  agree total a1 b1 -> agree total a2 b2 -> agree total (if c then a1 else a2) (if c then b1 else b2).
Proof. destruct c; auto. Qed.

(* the heart: with a length below 2^63 the checked bulk read is Codec's read_slice *)
Lemma agree_slice total n : total < 2 ^ 63 -> 0 <= n < 2 ^ 63 -> agree total (read_slice_chk total n) (read_slice n).
Proof.
  intros Ht Hn bs Hbs Hl. unfold read_slice_chk, bind, check_eor. pose proof (len_nonneg bs).
  destruct (Z.gtb_spec (total - len bs + n) usize_max); [unfold usize_max in *; lia|].
  destruct (Z.gtb_spec (total - len bs + n) total).
  - unfold read_slice. destruct (Z.leb_spec n (len bs)); [lia | reflexivity].
  - reflexivity.
Qed.

Lemma agree_blob total k : total < 2 ^ 63 -> (k <= 4)%nat -> agree total (read_blob_chk total k) (read_blob k).
Proof.
  intros Ht Hk. unfold read_blob_chk, read_blob, read_vec, read_vec_chk.
  eapply agree_bind; [apply agree_refl | apply safe_read_uint | apply eats_read_uint | lia |].
  intros n Hn. cbv beta in Hn. apply agree_slice; auto.
  assert (256 ^ Z.of_nat k <= 256 ^ 4) by (apply Z.pow_le_mono_r; lia). change (256 ^ 4) with 4294967296 in *. lia.
Qed.

Lemma agree_many total {T} (P : T -> Prop) w (rc r : Rd T) n : agree total rc r -> safeP P r -> eats w r -> 0 <= w ->
  agree total (read_many rc n) (read_many r n).
Proof.
  intros Ha Hs He Hw bs Hbs Hl. destruct (Z_le_gt_dec n 0).
  - unfold read_many. destruct n; try lia; reflexivity.
  - rewrite <- (Z2Nat.id n) by lia. rewrite !read_many_spec. revert bs Hbs Hl.
    induction (Z.to_nat n) as [|m IH]; intros bs Hbs Hl; cbn [read_many_nat]; [reflexivity|].
    rewrite (Ha bs Hbs Hl). specialize (Hs bs Hbs). destruct (r bs) as [[a rest]| |] eqn:E; auto.
    specialize (He bs a rest E). rewrite (IH rest (proj2 Hs) ltac:(lia)). reflexivity.
Qed.

Lemma eats_many {T} (r : Rd T) w n : eats w r -> 0 <= w -> eats 0 (read_many r n).
Proof.
  intros He Hw bs a rest E. destruct (Z_le_gt_dec n 0).
  - unfold read_many in E. destruct n; try lia; inversion E; subst; lia.
  - rewrite <- (Z2Nat.id n) in E by lia. rewrite read_many_spec in E. revert bs a E.
    induction (Z.to_nat n) as [|m IH]; intros bs a E; cbn [read_many_nat] in E.
    + inversion E; subst. lia.
    + destruct (r bs) as [[x bs']| |] eqn:E1; try discriminate.
      destruct (read_many_nat r m bs') as [[l bs'']| |] eqn:E2; try discriminate. inversion E; subst.
      specialize (He bs x bs' E1). specialize (IH bs' _ E2). lia.
Qed.

Lemma eats_read_OodFrame : eats 0 read_OodFrame.
Proof.
  unfold read_OodFrame. replace 0 with (0 + (0 + (0 + 0))) by lia.
  apply eats_bind; [eapply eats_weaken; [|apply (eats_read_blob 2)]; lia|]. intros t.
  apply eats_bind; [eapply eats_weaken; [|apply (eats_read_blob 2)]; lia|]. intros l.
  apply eats_bind; [eapply eats_weaken; [|apply (eats_read_blob 2)]; lia|]. intros e. apply eats_ret.
Qed.

Section Agree.
  Variable total : Z.
  Hypothesis Ht : total < 2 ^ 63.

  Lemma agree_TraceInfo : agree total (read_TraceInfo_chk total) read_TraceInfo.
  Proof.
    unfold read_TraceInfo_chk, read_TraceInfo.
    eapply agree_bind; [apply agree_refl | apply safe_read_u8 | apply eats_read_u8 | lia |]. intros main _.
    apply agree_if; [apply agree_refl|].
    eapply agree_bind; [apply agree_refl | apply safe_read_u8 | apply eats_read_u8 | lia |]. intros aux _.
    apply agree_if; [apply agree_refl|].
    eapply agree_bind; [apply agree_refl | apply safe_read_u8 | apply eats_read_u8 | lia |]. intros rands _.
    apply agree_if; [apply agree_refl|]. apply agree_if; [apply agree_refl|].
    eapply agree_bind; [apply agree_refl | apply safe_read_u8 | apply eats_read_u8 | lia |]. intros e _.
    apply agree_if; [apply agree_refl|]. apply agree_if; [apply agree_refl|].
    eapply agree_bind; [apply agree_refl | apply (safe_read_uint 2) | apply (eats_read_uint 2) | lia |].
    intros n Hn. cbv beta in Hn. change (256 ^ Z.of_nat 2) with 65536 in Hn.
    apply agree_bind_same. apply agree_if; [|apply agree_refl].
    unfold read_vec_chk, read_vec. apply agree_slice; auto. lia.
  Qed.

  Lemma agree_Context : agree total (read_Context_chk total) read_Context.
  Proof.
    unfold read_Context_chk, read_Context.
    eapply agree_bind; [apply agree_TraceInfo | apply read_TraceInfo_no_panic | apply eats_read_TraceInfo | lia |]. intros t _.
    eapply agree_bind; [apply agree_refl | apply safe_read_u8 | apply eats_read_u8 | lia |]. intros n Hn.
    cbv beta in Hn. apply agree_if; [apply agree_refl|].
    apply agree_bind_same. unfold read_vec_chk, read_vec. apply agree_slice; auto. lia.
  Qed.

  Lemma agree_Queries : agree total (read_Queries_chk total) read_Queries.
  Proof.
    unfold read_Queries_chk, read_Queries.
    eapply agree_bind; [apply agree_blob; auto | apply (safe_read_blob 4) | apply (eats_read_blob 4) | lia |]. intros v _.
    apply agree_bind_same. apply agree_blob; auto.
  Qed.

  Lemma agree_OodFrame : agree total (read_OodFrame_chk total) read_OodFrame.
  Proof.
    unfold read_OodFrame_chk, read_OodFrame.
    eapply agree_bind; [apply agree_blob; auto | apply (safe_read_blob 2) | apply (eats_read_blob 2) | lia |]. intros t _.
    eapply agree_bind; [apply agree_blob; auto | apply (safe_read_blob 2) | apply (eats_read_blob 2) | lia |]. intros l _.
    apply agree_bind_same. apply agree_blob; auto.
  Qed.

  Lemma agree_FriProofLayer : agree total (read_FriProofLayer_chk total) read_FriProofLayer.
  Proof.
    unfold read_FriProofLayer_chk, read_FriProofLayer, read_u32.
    eapply agree_bind; [apply agree_refl | apply (safe_read_uint 4) | apply (eats_read_uint 4) | lia |].
    intros n Hn. cbv beta in Hn. change (256 ^ Z.of_nat 4) with 4294967296 in Hn.
    apply agree_if; [apply agree_refl|]. unfold read_vec_chk, read_vec.
    eapply agree_bind; [apply agree_slice; auto; lia | apply safe_read_slice | apply eats_read_slice | lia |].
    intros v _. apply agree_bind_same. apply agree_blob; auto.
  Qed.

  Lemma agree_FriProof : agree total (read_FriProof_chk total) read_FriProof.
  Proof.
    unfold read_FriProof_chk, read_FriProof.
    eapply agree_bind; [apply agree_refl | apply safe_read_u8 | apply eats_read_u8 | lia |]. intros n _.
    eapply agree_bind;
      [ apply (agree_many _ _ _ _ _ _ agree_FriProofLayer read_FriProofLayer_no_panic eats_read_FriProofLayer); lia
      | apply (safe_read_many _ _ n read_FriProofLayer_no_panic)
      | apply (eats_many _ _ _ eats_read_FriProofLayer); lia | lia |].
    intros layers _. apply agree_bind_same. apply agree_blob; auto.
  Qed.

  Theorem agree_Proof : agree total (read_Proof_chk total) read_Proof.
  Proof.
    unfold read_Proof_chk, read_Proof.
    eapply agree_bind; [apply agree_Context | apply read_Context_no_panic | apply eats_read_Context | lia |]. intros c _.
    eapply agree_bind; [apply agree_refl | apply safe_read_u8 | apply eats_read_u8 | lia |]. intros nuq _.
    eapply agree_bind; [apply agree_blob; auto | apply (safe_read_blob 2) | apply (eats_read_blob 2) | lia |]. intros com _.
    eapply agree_bind;
      [ apply (agree_many _ _ _ _ _ _ agree_Queries read_Queries_no_panic eats_read_Queries); lia
      | apply (safe_read_many _ _ _ read_Queries_no_panic)
      | apply (eats_many _ _ _ eats_read_Queries); lia | lia |].
    intros tq _.
    eapply agree_bind; [apply agree_Queries | apply read_Queries_no_panic | apply eats_read_Queries | lia |]. intros cq _.
    eapply agree_bind; [apply agree_OodFrame | apply read_OodFrame_no_panic | apply eats_read_OodFrame | lia |]. intros ood _.
    apply agree_bind_same. apply agree_FriProof.
  Qed.
End Agree.

(* Proof::from_bytes with the position arithmetic of check_eor at every bulk read IS the reader of Codec.v: the overflow
   branch of `pos + n` is unreachable, for every input a slice can hold *)
Theorem read_Proof_chk_eq : forall bs, is_bytes bs -> len bs < 2 ^ 63 -> read_Proof_chk (len bs) bs = read_Proof bs.
Proof. intros bs Hbs Hl. apply (agree_Proof (len bs) Hl bs Hbs). lia. Qed.

(* ... whereas a bulk read of the GKR component's vint64 length panics: 10 bytes `01 00 F6 FF FF FF FF FF FF FF` at the end
   of a 10-byte source (tag, 9-byte length 2^64 - 10: position 10 + length wraps to 0) *)
Theorem gkr_bulk_read_refuted :
  read_gkr_bulk 10 [1; 0; 246; 255; 255; 255; 255; 255; 255; 255] = Panic /\
  read_option (read_vec_of read_u8) [1; 0; 246; 255; 255; 255; 255; 255; 255; 255] = Err Eof.
Proof. vm_compute. split; reflexivity. Qed.
