(* C14 — index-batched maps (commit_to_rows, get_inv_evaluation) and the local-index lookup of acc_column. *)
From Coq Require Import List Arith Bool Lia.
From VModel Require Import FFT Par.
From VProofs Require Import ListFacts Pow2Facts ParBatch ParMisc.
Import ListNotations.

Lemma map_batched_from {A} (f : nat -> A) cs off : consecutive off cs ->
  map_batched f cs = map f (seq off (list_sum (map snd cs))).
Proof.
  intros Hc. unfold map_batched.
  rewrite (flat_map_ext _ (fun c => map f (seq (fst c) (snd c)))) by (intros c; symmetry; apply map_seq_shift).
  apply (consecutive_flat_map (fun off n => map f (seq off n))); [reflexivity| |exact Hc].
  intros o a b. rewrite seq_app. apply map_app.
Qed.

(* every batch computes f at the global index: the concatenation is the serial map, for every partition *)
Theorem map_batched_spec {A} (f : nat -> A) n cs : covers n cs -> map_batched f cs = map_serial f n.
Proof. intros [Hc Hs]. rewrite (map_batched_from f cs 0 Hc), Hs. reflexivity. Qed.

Corollary map_batched_any_T {A} (f : nat -> A) conc n min T : 1 <= min ->
  exists cs, batch_iter_chunks conc n min T = Done cs /\ map_batched f cs = map_serial f n.
Proof.
  intros Hm. destruct (batch_sizes_cover conc n min T Hm) as (cs & E & Hc). exists cs. split; [exact E|].
  apply map_batched_spec; exact Hc.
Qed.

(* local index = global index modulo zl whenever every batch starts at a multiple of zl *)
Lemma acc_z_index_from zl cs off : zl <> 0 -> consecutive off cs -> Forall (fun c => fst c mod zl = 0) cs ->
  acc_z_index_batched zl cs = map (fun i => i mod zl) (seq off (list_sum (map snd cs))).
Proof.
  intros Hz Hc HF. rewrite <- (map_batched_from (fun i => i mod zl) cs off Hc).
  apply flat_map_ext_in. intros c Hin. rewrite Forall_forall in HF. apply map_ext. intros i.
  rewrite Nat.add_mod, (HF c Hin), Nat.add_0_l, Nat.mod_mod by exact Hz. reflexivity.
Qed.

(* acc_column, general form: whatever minimum batch size [mn] the source passes to batch_iter_mut!, the batch-local lookup
   z[i % z.len()] is the global lookup as soon as z.len() = 2^j <= mn — for every domain size 2^k and every T.
   (checks/c14.py reads [mn] off the source of acc_column and checks MAX_BLOWUP_FACTOR <= mn on every run.) *)
Theorem acc_z_index_spec_gen k j mn T cs : 1 <= mn -> 2 ^ j <= mn ->
  batch_iter_chunks true (2 ^ k) mn T = Done cs ->
  acc_z_index_batched (2 ^ j) cs = acc_z_index_serial (2 ^ j) (2 ^ k).
Proof.
  intros Hmn Hj E.
  assert (Hz : 2 ^ j <> 0) by (pose proof (pow2_pos j); lia).
  assert (Hcov : covers (2 ^ k) cs).
  { destruct (batch_sizes_cover true (2 ^ k) mn T Hmn) as (cs' & E' & Hc). rewrite E in E'. inversion E'. subst. exact Hc. }
  destruct Hcov as [Hc Hs].
  unfold acc_z_index_serial. rewrite <- Hs. apply acc_z_index_from; [exact Hz|exact Hc|].
  set (m := Nat.log2_up T). assert (ES : npo2 T = 2 ^ m) by reflexivity.
  destruct (Nat.lt_ge_cases (2 ^ k / npo2 T) mn) as [Hlt|Hge].
  - rewrite (batch_iter_serial_below true (2 ^ k) mn T Hlt) in E. inversion E. subst. repeat constructor.
    cbn [fst]. apply Nat.mod_0_l. exact Hz.
  - assert (Hmk : m <= k).
    { destruct (Nat.le_gt_cases m k); [assumption|]. exfalso.
      rewrite ES, Nat.div_small in Hge; [lia|]. apply Nat.pow_lt_mono_r; lia. }
    assert (Ek : 2 ^ k = 2 ^ (k - m) * npo2 T) by (rewrite Nat.mul_comm; apply pow2_split; exact Hmk).
    assert (Ed : 2 ^ k / npo2 T = 2 ^ (k - m)) by (apply pow2_div_pow2; exact Hmk).
    rewrite Ed in Hge.
    assert (H7 : j <= k - m).
    { apply (Nat.pow_le_mono_r_iff 2); lia. }
    rewrite Ek in E. rewrite (batch_iter_exact (2 ^ (k - m)) mn T Hmn Hge) in E. inversion E. subst cs.
    apply Forall_forall. intros c Hin. apply in_map_iff in Hin. destruct Hin as (q & <- & _). cbn [fst].
    replace (2 ^ (k - m)) with (2 ^ (k - m - j) * 2 ^ j) by (rewrite <- Nat.pow_add_r; f_equal; lia).
    rewrite Nat.mul_assoc. apply Nat.mod_mul. exact Hz.
Qed.

(* the code as written: minimum 128 = MAX_BLOWUP_FACTOR >= every admissible constraint-evaluation blowup 2^j *)
Theorem acc_z_index_spec k j T cs : j <= 7 ->
  batch_iter_chunks true (2 ^ k) 128 T = Done cs ->
  acc_z_index_batched (2 ^ j) cs = acc_z_index_serial (2 ^ j) (2 ^ k).
Proof.
  intros Hj. apply acc_z_index_spec_gen; [lia|].
  change 128 with (2 ^ 7). apply Nat.pow_le_mono_r; lia.
Qed.

(* a minimum of 16 (MIN_FRAGMENT_SIZE) would NOT do: trace length 8, constraint-evaluation blowup 32 (256 rows),
   12 threads -> 16 batches of 16 rows, the local index wraps at 16 instead of 32 *)
Example acc_z_index_min16_refuted : exists cs, batch_iter_chunks true (2 ^ 8) 16 12 = Done cs /\
  acc_z_index_batched (2 ^ 5) cs <> acc_z_index_serial (2 ^ 5) (2 ^ 8).
Proof. eexists. split; [vm_compute; reflexivity|]. vm_compute. discriminate. Qed.

(* the guarantee rests on the minimum batch size: with smaller batches the local index is wrong *)
Example acc_z_index_needs_min_batch : acc_z_index_batched 8 [(0, 4); (4, 4)] <> acc_z_index_serial 8 8.
Proof. vm_compute. discriminate. Qed.

Example acc_z_index_ex : exists cs, batch_iter_chunks true (2 ^ 10) 128 3 = Done cs /\ length cs = 4 /\
  acc_z_index_batched (2 ^ 7) cs = acc_z_index_serial (2 ^ 7) (2 ^ 10).
Proof. eexists. split; [vm_compute; reflexivity|]. split; [reflexivity|]. vm_compute. reflexivity. Qed.

(* ---------------------------------------------------------------- periodic-value lookups of the fragmented evaluator *)

(* the code: lookup at the global step offset + i — equal to the single-fragment evaluation for EVERY partition *)
Theorem periodic_global_index_spec tl n frags : covers n frags ->
  periodic_rows_fragmented tl frags = periodic_rows_serial tl n.
Proof. intros H. exact (map_batched_spec (fun r => r mod tl) n frags H). Qed.

Corollary periodic_global_index_fragments conc k T tl : 4 <= k -> T <= 64 ->
  exists cs, fragment_plan conc (2 ^ k) T = Done cs /\ periodic_rows_fragmented tl cs = periodic_rows_serial tl (2 ^ k).
Proof.
  intros Hk HT. destruct (ParMisc.fragment_plan_T_le_64 conc k T Hk HT) as (cs & E & Hc).
  exists cs. split; [exact E|]. apply periodic_global_index_spec; exact Hc.
Qed.

(* a fragment-local lookup is WRONG as soon as there are two non-empty fragments and the table is longer than the first *)
Theorem periodic_local_index_wrong tl n cs o0 sz o1 sz' rest : covers n cs ->
  cs = (o0, sz) :: (o1, sz') :: rest -> 1 <= sz -> 1 <= sz' -> sz < tl ->
  periodic_rows_local tl cs <> periodic_rows_serial tl n.
Proof.
  intros [_ Hs] -> H1 H2 Hlt E.
  assert (Hn : sz + sz' <= n).
  { rewrite <- Hs. cbn [map snd list_sum fold_right]. lia. }
  apply (f_equal (fun l => nth sz l 0)) in E.
  unfold periodic_rows_local, periodic_rows_serial in E. cbn [flat_map fst snd] in E.
  rewrite app_nth2 in E by (rewrite map_length, seq_length; lia).
  rewrite map_length, seq_length, Nat.sub_diag in E.
  destruct sz' as [|sz'']; [lia|]. cbn [seq map app nth] in E.
  rewrite (nth_indep _ 0 (0 mod tl)) in E by (rewrite map_length, seq_length; lia).
  rewrite (map_nth (fun i => i mod tl)), seq_nth in E by lia.
  rewrite Nat.mod_0_l, Nat.add_0_l, Nat.mod_small in E by lia. lia.
Qed.

(* ... and invisible exactly when the table length divides every fragment offset *)
Theorem periodic_local_index_ok tl cs n : tl <> 0 -> covers n cs -> Forall (fun c => fst c mod tl = 0) cs ->
  periodic_rows_local tl cs = periodic_rows_serial tl n.
Proof.
  intros Hz [Hc Hs] HF. unfold periodic_rows_serial. rewrite <- Hs.
  exact (acc_z_index_from tl cs 0 Hz Hc HF).
Qed.

(* witness: trace 4096, ce blowup 2 (8192 rows), cycle 4096 (table 8192), 2 threads *)
Example periodic_local_index_refuted : exists cs, fragment_plan true (2 ^ 13) 2 = Done cs /\ length cs = 2 /\
  periodic_rows_local (2 ^ 13) cs <> periodic_rows_serial (2 ^ 13) (2 ^ 13).
Proof.
  exists [(0, 2 ^ 12); (2 ^ 12, 2 ^ 12)]. split; [vm_compute; reflexivity|]. split; [reflexivity|].
  apply (periodic_local_index_wrong (2 ^ 13) (2 ^ 13) _ 0 (2 ^ 12) (2 ^ 12) (2 ^ 12) []); try reflexivity.
  - split; [cbn [consecutive fst snd]; repeat split; reflexivity|].
    cbn [map snd list_sum fold_right]. rewrite Nat.add_0_r. change (2 ^ 13) with (2 * 2 ^ 12). lia.
  - pose proof (pow2_pos 12). lia.
  - pose proof (pow2_pos 12). lia.
  - change (2 ^ 13) with (2 * 2 ^ 12). pose proof (pow2_pos 12). lia.
Qed.
