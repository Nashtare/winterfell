(* C05 — the query phase of the verifier model, for committed layer functions opened honestly by the channel, as ONE iff
   with the counting predicate of Proofs/FriCount.v: layers_loop succeeds and the remainder comparison holds
   IFF pass_checks cs ps, cs the check list built from the layer functions, the challenges and the remainder.
   Composition of FriQuery.layer_step_opened_iff over layers_loop. *)
From Coq Require Import List Arith Bool Lia.
From VBase Require Import FieldOps.
From VModel Require Import Fri.
From VProofs Require Import ListFacts FriIdx FriAccept FriCount FriQuery.
Import ListNotations.

Local Arguments mkVCh {F D MN}.
Local Arguments mkVS {F D MN}.
Local Arguments vs_gen {F D MN}.
Local Arguments vs_positions {F D MN}.
Local Arguments vs_evals {F D MN}.
Local Arguments v_commitments {F D}.
Local Arguments v_alphas {F D}.
Local Arguments v_options {F D}.
Local Arguments v_partitions {F D}.

Section Loop.
Context {F : Type} (O : FOps F) (L : FLaws O).
Variable gen_offset : F.
Variable dbg : bool.
Variable D : Type.
Variable hash_elements : list F -> D.
Variable MN : Type.
Variable mt_verify_batch : D -> list nat -> list D -> MN -> nat -> auth_res.
Variable roots : list F.
Variable N : nat.
Hypothesis N_nz : N <> 0.
Local Notation zero := (fzero O).
Local Notation foldval := (foldval O gen_offset roots N).
Local Notation layers_loop := (layers_loop O gen_offset dbg D MN mt_verify_batch).

(* a committed layer: its evaluation vector, the challenge drawn after its commitment, the commitment, and what the
   channel supplies besides the opened rows (Merkle nodes, depth) *)
Record clayer : Type := mkCL { cl_E : list F; cl_alpha : F; cl_commitment : D; cl_nodes : MN; cl_depth : nat }.

Definition evals_at (E : list F) (Pos : list nat) : list F := map (fun p => nth p E zero) Pos.

(* what the channel holds when it opens the committed functions at the folded positions *)
Fixpoint opened (Ls : list clayer) (Pos : list nat) (d : nat) : list (list D * MN * nat) * list (list F) :=
  match Ls with
  | [] => ([], [])
  | l :: rest =>
    let fd := fold_positions_core Pos (d / N) in
    let rows := map (row_of zero N (d / N) (cl_E l)) fd in
    let r := opened rest fd (d / N) in
    ((map hash_elements rows, cl_nodes l, cl_depth l) :: fst r, concat rows :: snd r)
  end.

Fixpoint auth_all (Ls : list clayer) (Pos : list nat) (d : nat) : Prop :=
  match Ls with
  | [] => True
  | l :: rest =>
    let fd := fold_positions_core Pos (d / N) in
    mt_verify_batch (cl_commitment l) fd (map hash_elements (map (row_of zero N (d / N) (cl_E l)) fd)) (cl_nodes l) (cl_depth l) = AuthOk /\
    auth_all rest fd (d / N)
  end.

(* the comparisons `evaluations != query_values` of all layers *)
Fixpoint comparisons (Ls : list clayer) (g : F) (d : nat) (Pos : list nat) (carried : list F) : bool :=
  match Ls with
  | [] => true
  | l :: rest =>
    let fd := fold_positions_core Pos (d / N) in
    list_feqb O carried (evals_at (cl_E l) Pos) &&
    comparisons rest (fexp O g N) (d / N) fd (map (foldval g (cl_E l) (d / N) (cl_alpha l)) fd)
  end.

(* the state after the loop *)
Fixpoint final_state (Ls : list clayer) (g : F) (d mdp1 : nat) (Pos : list nat) (carried : list F) : F * nat * nat * list nat * list F :=
  match Ls with
  | [] => (g, d, mdp1, Pos, carried)
  | l :: rest =>
    let fd := fold_positions_core Pos (d / N) in
    final_state rest (fexp O g N) (d / N) (mdp1 / N) fd (map (foldval g (cl_E l) (d / N) (cl_alpha l)) fd)
  end.

Lemma fold_core_lt Pos t x : t <> 0 -> In x (fold_positions_core Pos t) -> x < t.
Proof. intros Ht H. apply fold_core_In in H. destruct H as [p [_ ->]]. now apply Nat.mod_upper_bound. Qed.

Theorem loop_opened_iff : forall Ls (v : @verifier F D) pre_c tail_c pre_a tail_a g m e Pos carried cm ptail qtail rem s',
  m <> 0 -> (forall p, In p Pos -> p < m * N ^ length Ls) ->
  v_commitments v = pre_c ++ map cl_commitment Ls ++ tail_c -> v_alphas v = pre_a ++ map cl_alpha Ls ++ tail_a ->
  length pre_a = length pre_c -> fo_folding (v_options v) = N -> v_partitions v = 1 ->
  auth_all Ls Pos (m * N ^ length Ls) ->
  let d := m * N ^ length Ls in
  let mdp1 := e * N ^ length Ls in
  (layers_loop (length Ls) N v roots (length pre_c)
     (mkVS g d mdp1 Pos carried (mkVCh cm (fst (opened Ls Pos d) ++ ptail) (snd (opened Ls Pos d) ++ qtail) rem 1)) = Ok s'
   <-> comparisons Ls g d Pos carried = true /\
       s' = (let '(g', d', mdp1', Pos', carried') := final_state Ls g d mdp1 Pos carried in
             mkVS g' d' mdp1' Pos' carried' (mkVCh cm ptail qtail rem 1))).
Proof.
  induction Ls as [|l Ls IH]; intros v pre_c tail_c pre_a tail_a g m e Pos carried cm ptail qtail rem s'
    Hm Hpos Hvc Hva Hpre Hff Hpart Hauth d mdp1.
  - cbn. split; [intros [= <-]; auto | intros [_ ->]; reflexivity].
  - cbn [length Fri.layers_loop]. rewrite bind_Ok.
    assert (HNk : N ^ length Ls <> 0) by now apply Nat.pow_nonzero.
    assert (Hd : d = m * N ^ length Ls * N) by (unfold d; cbn [length Nat.pow]; lia).
    assert (Hdiv : d / N = m * N ^ length Ls) by (rewrite Hd; now apply Nat.div_mul).
    assert (Hmd : mdp1 = e * N ^ length Ls * N) by (unfold mdp1; cbn [length Nat.pow]; lia).
    assert (Hmdiv : mdp1 / N = e * N ^ length Ls) by (rewrite Hmd; now apply Nat.div_mul).
    assert (Hrl : m * N ^ length Ls <> 0) by (apply Nat.neq_mul_0; split; assumption).
    cbn [opened auth_all comparisons final_state] in *. fold d in Hauth |- *. destruct Hauth as [Hauth1 Hauth2].
    set (fd := fold_positions_core Pos (d / N)) in *.
    set (rows := map (row_of zero N (d / N) (cl_E l)) fd) in *.
    set (carried1 := map (foldval g (cl_E l) (d / N) (cl_alpha l)) fd).
    cbn [fst snd app].
    (* the first layer, by layer_step_opened_iff *)
    assert (Step : forall s1,
      Fri.layer_step O gen_offset dbg D MN mt_verify_batch N v roots (length pre_c)
        (mkVS g d mdp1 Pos carried (mkVCh cm ((map hash_elements rows, cl_nodes l, cl_depth l) :: fst (opened Ls fd (d / N)) ++ ptail)
                                            (concat rows :: snd (opened Ls fd (d / N)) ++ qtail) rem 1)) = Ok s1
      <-> carried = evals_at (cl_E l) Pos /\
          s1 = mkVS (fexp O g N) (d / N) (mdp1 / N) fd carried1
                    (mkVCh cm (fst (opened Ls fd (d / N)) ++ ptail) (snd (opened Ls fd (d / N)) ++ qtail) rem 1)).
    { intros s1.
      pose proof (layer_step_opened_iff O L gen_offset dbg D hash_elements MN mt_verify_batch N v roots (length pre_c)
               (mkVS g d mdp1 Pos carried (mkVCh cm ((map hash_elements rows, cl_nodes l, cl_depth l) :: fst (opened Ls fd (d / N)) ++ ptail)
                                                   (concat rows :: snd (opened Ls fd (d / N)) ++ qtail) rem 1)) s1
               (cl_E l) (d / N) (cl_alpha l) (cl_commitment l) (cl_nodes l) (cl_depth l)
               (fst (opened Ls fd (d / N)) ++ ptail) (snd (opened Ls fd (d / N)) ++ qtail)) as S.
      cbn [vs_size vs_positions vs_chan vc_proofs vc_queries vs_mdp1 vs_evals vs_gen] in S. unfold chan_tail in S.
      cbn [vc_commitments vc_proofs vc_queries vc_remainder vc_partitions tl] in S.
      apply S;
        [ assumption | rewrite Hdiv; assumption | rewrite Hdiv; lia
        | intros p Hp; rewrite Hdiv, <- Hd; now apply Hpos
        | assumption | assumption
        | rewrite Hvc, nth_error_app2, Nat.sub_diag by lia; reflexivity
        | rewrite Hva, nth_error_app2, Hpre, Nat.sub_diag by lia; reflexivity
        | reflexivity | reflexivity | exact Hauth1 | rewrite Hmd; now apply Nat.mod_mul ]. }
    (* the remaining layers, by the induction hypothesis *)
    assert (Rest : forall s2,
      layers_loop (length Ls) N v roots (S (length pre_c))
        (mkVS (fexp O g N) (d / N) (mdp1 / N) fd carried1
              (mkVCh cm (fst (opened Ls fd (d / N)) ++ ptail) (snd (opened Ls fd (d / N)) ++ qtail) rem 1)) = Ok s2
      <-> comparisons Ls (fexp O g N) (d / N) fd carried1 = true /\
          s2 = (let '(g', d', mdp1', Pos', carried') := final_state Ls (fexp O g N) (d / N) (mdp1 / N) fd carried1 in
                mkVS g' d' mdp1' Pos' carried' (mkVCh cm ptail qtail rem 1))).
    { intros s2. rewrite Hmdiv, Hdiv in *.
      replace (S (length pre_c)) with (length (pre_c ++ [cl_commitment l])) by (rewrite app_length; cbn; lia).
      apply (IH v (pre_c ++ [cl_commitment l]) tail_c (pre_a ++ [cl_alpha l]) tail_a);
        [ assumption | intros p Hp; rewrite <- Hdiv; apply (fold_core_lt Pos); [rewrite Hdiv; assumption | exact Hp]
        | rewrite Hvc, <- app_assoc; reflexivity | rewrite Hva, <- app_assoc; reflexivity
        | rewrite !app_length, Hpre; reflexivity | assumption | assumption | exact Hauth2 ]. }
    rewrite andb_true_iff, (list_feqb_spec O L). split.
    + intros [s1 [H1 H2]]. apply Step in H1. destruct H1 as [Hcar ->]. apply Rest in H2. destruct H2 as [Hc ->]. auto.
    + intros [[Hcar Hc] ->]. eexists. split; [apply Step | apply Rest]; split; auto.
Qed.

(* ---------------------------------------------------------------- the check list of the query phase *)
Variable R : list F.   (* the remainder polynomial sent *)

(* checks contributed by the layers after the first one and by the remainder; (gprev, Eprev, rlprev, aprev) describe
   the previous layer, whose fold is what the current comparison is made against *)
Fixpoint checks_from (Ls : list clayer) (lvl : nat) (gprev : F) (Eprev : list F) (rlprev : nat) (aprev : F) (g : F) (d : nat)
  : list (nat * (nat -> bool)) :=
  match Ls with
  | [] => [(lvl, good_rem O gen_offset roots N R g gprev Eprev rlprev aprev)]
  | l :: rest =>
    (lvl, good_fold O gen_offset roots N gprev Eprev (cl_E l) rlprev aprev)
      :: checks_from rest (S lvl) g (cl_E l) (d / N) (cl_alpha l) (fexp O g N) (d / N)
  end.

Lemma checks_from_levels : forall Ls lvl gp Ep rp ap g d c,
  In c (checks_from Ls lvl gp Ep rp ap g d) -> lvl <= fst c <= lvl + length Ls.
Proof.
  induction Ls as [|l Ls IH]; intros lvl gp Ep rp ap g d c Hc; cbn [checks_from length] in *.
  - destruct Hc as [<-|[]]. cbn. lia.
  - destruct Hc as [<-|Hc]; [cbn; lia|]. apply IH in Hc. lia.
Qed.

Definition fs_gen (x : F * nat * nat * list nat * list F) : F := fst (fst (fst (fst x))).
Definition fs_pos (x : F * nat * nat * list nat * list F) : list nat := snd (fst x).
Definition fs_carried (x : F * nat * nat * list nat * list F) : list F := snd x.

Lemma comparisons_checks : forall Ls lvl gp Ep rp ap g d mdp1 Pos,
  let carried := map (foldval gp Ep rp ap) Pos in
  let fs := final_state Ls g d mdp1 Pos carried in
  comparisons Ls g d Pos carried && remainder_check O gen_offset R (fs_gen fs) (fs_pos fs) (fs_carried fs)
  = forallb (fun c => forallb (snd c) (fold_chain (fst c - lvl) Pos d N)) (checks_from Ls lvl gp Ep rp ap g d).
Proof.
  induction Ls as [|l Ls IH]; intros lvl gp Ep rp ap g d mdp1 Pos carried fs.
  - cbn [comparisons final_state checks_from forallb fst snd] in *. unfold fs, fs_gen, fs_pos, fs_carried. cbn [fst snd].
    rewrite Nat.sub_diag. cbn [fold_chain]. unfold carried. rewrite (remainder_compare_forallb O gen_offset roots N).
    now rewrite andb_true_r.
  - cbn [comparisons final_state checks_from forallb fst snd] in *. rewrite Nat.sub_diag. cbn [fold_chain].
    unfold carried at 1. unfold evals_at. rewrite (layer_compare_forallb O gen_offset roots N).
    rewrite <- andb_assoc. f_equal.
    unfold fs. cbn [final_state].
    rewrite (IH (S lvl) g (cl_E l) (d / N) (cl_alpha l) (fexp O g N) (d / N) (mdp1 / N) (fold_positions_core Pos (d / N))).
    apply forallb_ext_in. intros c Hc. apply checks_from_levels in Hc.
    replace (fst c - lvl) with (S (fst c - S lvl)) by lia. reflexivity.
Qed.

(* k >= 1 committed layers l0 :: rest on the LDE domain D = n * N^k, the evaluations handed to the
   verifier being those of the first committed function at the query positions; the channel opens the committed functions at
   the folded positions and every opening authenticates; no degree truncation (running bound e * N^k).  Then the model's query
   phase (layers_loop followed by the remainder comparison) succeeds IFF the position vector passes the check list. *)
Theorem query_phase_iff_pass_checks : forall l0 rest (v : @verifier F D) pre_c tail_c pre_a tail_a g n e ps cm ptail qtail rem,
  let Ls := l0 :: rest in
  let k := length Ls in
  let Dm := n * N ^ k in
  let cs := checks_from rest 1 g (cl_E l0) (Dm / N) (cl_alpha l0) (fexp O g N) (Dm / N) in
  n <> 0 -> (forall p, In p ps -> p < Dm) ->
  v_commitments v = pre_c ++ map cl_commitment Ls ++ tail_c -> v_alphas v = pre_a ++ map cl_alpha Ls ++ tail_a ->
  length pre_a = length pre_c -> fo_folding (v_options v) = N -> v_partitions v = 1 ->
  auth_all Ls ps Dm ->
  ((exists s', layers_loop k N v roots (length pre_c)
                 (mkVS g Dm (e * N ^ k) ps (evals_at (cl_E l0) ps)
                       (mkVCh cm (fst (opened Ls ps Dm) ++ ptail) (snd (opened Ls ps Dm) ++ qtail) rem 1)) = Ok s' /\
               remainder_check O gen_offset R (vs_gen s') (vs_positions s') (vs_evals s') = true)
   <-> pass_checks cs n N k ps = true).
Proof.
  intros l0 rest v pre_c tail_c pre_a tail_a g n e ps cm ptail qtail rem Ls k Dm cs Hn Hps Hvc Hva Hpre Hff Hpart Hauth.
  pose proof (fun s' => loop_opened_iff Ls v pre_c tail_c pre_a tail_a g n e ps (evals_at (cl_E l0) ps) cm ptail qtail rem s'
                          Hn Hps Hvc Hva Hpre Hff Hpart Hauth) as LI.
  fold k in LI. fold Dm in LI.
  assert (Hself : list_feqb O (evals_at (cl_E l0) ps) (evals_at (cl_E l0) ps) = true) by now apply (list_feqb_spec O L).
  assert (Key : comparisons Ls g Dm ps (evals_at (cl_E l0) ps) &&
                remainder_check O gen_offset R (fs_gen (final_state Ls g Dm (e * N ^ k) ps (evals_at (cl_E l0) ps)))
                  (fs_pos (final_state Ls g Dm (e * N ^ k) ps (evals_at (cl_E l0) ps)))
                  (fs_carried (final_state Ls g Dm (e * N ^ k) ps (evals_at (cl_E l0) ps)))
                = pass_checks cs n N k ps).
  { unfold Ls. cbn [comparisons final_state]. rewrite Hself. cbn [andb].
    rewrite (comparisons_checks rest 1 g (cl_E l0) (Dm / N) (cl_alpha l0) (fexp O g N) (Dm / N) (e * N ^ k / N)
               (fold_positions_core ps (Dm / N))).
    unfold pass_checks. fold Dm. apply forallb_ext_in. intros c Hc. unfold cs in Hc. apply checks_from_levels in Hc.
    replace (fst c) with (S (fst c - 1)) at 2 by lia. reflexivity. }
  rewrite <- Key. split.
  - intros [s' [H1 H2]]. apply LI in H1. destruct H1 as [Hc ->].
    destruct (final_state Ls g Dm (e * N ^ k) ps (evals_at (cl_E l0) ps)) as [[[[g' d'] m'] P'] c'] eqn:Efs.
    cbn [vs_gen vs_positions vs_evals] in H2. unfold fs_gen, fs_pos, fs_carried. cbn [fst snd]. now rewrite Hc, H2.
  - intros H. apply andb_true_iff in H. destruct H as [Hc Hr].
    destruct (final_state Ls g Dm (e * N ^ k) ps (evals_at (cl_E l0) ps)) as [[[[g' d'] m'] P'] c'] eqn:Efs.
    eexists. split; [apply LI; split; [exact Hc | rewrite Efs; reflexivity]|].
    cbn [vs_gen vs_positions vs_evals]. exact Hr.
Qed.

End Loop.
