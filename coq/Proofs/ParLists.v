(* Facts about [lupd], [map2] and bit reversal of Model/FFT.v that mention neither the fork-join model (C14,
   Proofs/Par*.v) nor the event model (C03). *)
From Coq Require Import List Arith Bool Lia.
From VModel Require Import FFT.
From VProofs Require Import ListFacts Pow2Facts.
Import ListNotations.

(* ---------------------------------------------------------------- lupd / nth *)
Lemma lupd_length {A} (l : list A) i v : length (lupd l i v) = length l.
Proof. revert i; induction l as [|h t IH]; intros [|i]; cbn; auto. Qed.

Lemma nth_lupd_same {A} (l : list A) i v d : i < length l -> nth i (lupd l i v) d = v.
Proof. revert i; induction l as [|h t IH]; intros [|i] H; cbn in *; try lia; auto. apply IH; lia. Qed.

Lemma nth_lupd_other {A} (l : list A) i j v d : i <> j -> nth j (lupd l i v) d = nth j l d.
Proof.
  revert i j; induction l as [|h t IH]; intros [|i] [|j] H; cbn; auto; try lia; try (apply IH; lia).
Qed.

Lemma lupd_oob {A} (l : list A) i v : length l <= i -> lupd l i v = l.
Proof. revert i; induction l as [|h t IH]; intros [|i] H; cbn in *; auto; try lia. f_equal; apply IH; lia. Qed.

Lemma lupd_app {A} (pre post : list A) a b : lupd (pre ++ a :: post) (length pre) b = pre ++ b :: post.
Proof. induction pre as [|h t IH]; cbn; auto. f_equal; exact IH. Qed.

Lemma nth_lupd {A} (l : list A) i j v d :
  nth j (lupd l i v) d = if (i =? j) && (i <? length l) then v else nth j l d.
Proof.
  destruct (Nat.eqb_spec i j) as [->|Hne]; cbn [andb].
  - destruct (Nat.ltb_spec j (length l)).
    + apply nth_lupd_same; assumption.
    + rewrite lupd_oob by assumption. reflexivity.
  - apply nth_lupd_other; assumption.
Qed.

(* ---------------------------------------------------------------- bit reversal (the lemmas of Proofs/FFTEval.v, pp_ prefix) *)
Lemma pp_rev_bits_lt : forall k i, rev_bits k i < 2 ^ k.
Proof.
  induction k as [|k IH]; intros i; cbn [rev_bits]; [cbn; lia|].
  specialize (IH (i / 2)). pose proof (Nat.mod_upper_bound i 2 ltac:(lia)).
  rewrite pow2_S. assert (i mod 2 = 0 \/ i mod 2 = 1) as [-> | ->] by lia; lia.
Qed.

Lemma pp_rev_bits_low : forall k i, i < 2 ^ k -> rev_bits (S k) i = 2 * rev_bits k i.
Proof.
  induction k as [|k IH]; intros i Hi.
  - cbn in Hi. assert (i = 0) by lia. subst. reflexivity.
  - change (rev_bits (S (S k)) i) with (2 ^ S k * (i mod 2) + rev_bits (S k) (i / 2)).
    rewrite IH.
    + change (rev_bits (S k) i) with (2 ^ k * (i mod 2) + rev_bits k (i / 2)). rewrite pow2_S. lia.
    + apply Nat.div_lt_upper_bound; [lia|]. rewrite pow2_S in Hi. lia.
Qed.

Lemma pp_rev_bits_high : forall k i, i < 2 ^ k -> rev_bits (S k) (i + 2 ^ k) = 2 * rev_bits k i + 1.
Proof.
  induction k as [|k IH]; intros i Hi.
  - cbn in Hi. assert (i = 0) by lia. subst. reflexivity.
  - change (rev_bits (S (S k)) (i + 2 ^ S k))
      with (2 ^ S k * ((i + 2 ^ S k) mod 2) + rev_bits (S k) ((i + 2 ^ S k) / 2)).
    assert (E1 : (i + 2 ^ S k) mod 2 = i mod 2).
    { rewrite (pow2_S k). replace (i + (2 ^ k + 2 ^ k)) with (i + 2 ^ k * 2) by lia. apply Nat.mod_add. lia. }
    assert (E2 : (i + 2 ^ S k) / 2 = i / 2 + 2 ^ k).
    { rewrite (pow2_S k). replace (i + (2 ^ k + 2 ^ k)) with (i + 2 ^ k * 2) by lia. apply Nat.div_add. lia. }
    rewrite E1, E2, IH.
    + change (rev_bits (S k) i) with (2 ^ k * (i mod 2) + rev_bits k (i / 2)). rewrite pow2_S. lia.
    + apply Nat.div_lt_upper_bound; [lia|]. rewrite pow2_S in Hi. lia.
Qed.

Theorem pp_rev_bits_involutive : forall k i, i < 2 ^ k -> rev_bits k (rev_bits k i) = i.
Proof.
  induction k as [|k IH]; intros i Hi.
  - cbn in *. lia.
  - change (rev_bits (S k) i) with (2 ^ k * (i mod 2) + rev_bits k (i / 2)).
    assert (Hd : i / 2 < 2 ^ k).
    { apply Nat.div_lt_upper_bound; [lia|]. rewrite pow2_S in Hi. lia. }
    pose proof (pp_rev_bits_lt k (i / 2)) as Hr.
    pose proof (Nat.div_mod i 2 ltac:(lia)) as Hdm.
    pose proof (Nat.mod_upper_bound i 2 ltac:(lia)) as Hm.
    assert (i mod 2 = 0 \/ i mod 2 = 1) as [E | E] by lia; rewrite E.
    + rewrite Nat.mul_0_r, Nat.add_0_l, pp_rev_bits_low by exact Hr. rewrite IH by exact Hd. lia.
    + rewrite Nat.mul_1_r, Nat.add_comm, pp_rev_bits_high by exact Hr. rewrite IH by exact Hd. lia.
Qed.

Lemma pp_permute_index_spec k i : permute_index (2 ^ k) i = rev_bits k i.
Proof. unfold permute_index. rewrite Nat.log2_pow2 by lia. reflexivity. Qed.

(* ---------------------------------------------------------------- map2 *)
Lemma map2_app_r {A B C} (f : A -> B -> C) a b1 b2 :
  map2 f a (b1 ++ b2) = map2 f (firstn (length b1) a) b1 ++ map2 f (skipn (length b1) a) b2.
Proof.
  revert a; induction b1 as [|y b1 IH]; intros [|x a]; cbn [app length firstn skipn map2]; try reflexivity.
  f_equal. apply IH.
Qed.

Lemma map2_length {A B C} (f : A -> B -> C) a b : length a = length b -> length (map2 f a b) = length a.
Proof.
  revert b; induction a as [|x a IH]; intros [|y b] H; cbn in *; try discriminate; [reflexivity|].
  f_equal. apply IH. lia.
Qed.

Lemma map2_nth {A B C} (f : A -> B -> C) a b i da db dc : length a = length b -> i < length a ->
  nth i (map2 f a b) dc = f (nth i a da) (nth i b db).
Proof.
  revert b i; induction a as [|x a IH]; intros [|y b] i H Hi; cbn in *; try discriminate; try lia.
  destruct i as [|i]; [reflexivity|]. apply IH; lia.
Qed.

Lemma map_seq_map2 {A B C} (f : A -> B -> C) a b da db : length a = length b ->
  map (fun i => f (nth i a da) (nth i b db)) (seq 0 (length b)) = map2 f a b.
Proof.
  intros Hl. destruct a as [|x a].
  - destruct b; [reflexivity|discriminate].
  - destruct b as [|y b]; [discriminate|].
    apply nth_ext with (d := f x y) (d' := f x y).
    + rewrite map_length, seq_length, map2_length by exact Hl. symmetry. exact Hl.
    + intros i Hi. rewrite map_length, seq_length in Hi. rewrite nth_map_seq by exact Hi.
      symmetry. apply map2_nth; [exact Hl|lia].
Qed.
