(* C17 — the hypotheses `numer_vanishes` / `first_cell` of lag_def_is_poly discharged for the HONEST kernel column with
   C01's row-to-point translation (Proofs/StarkLagrangeRows.v: honest_numer_vanishes, honest_first_cell). *)
From Coq Require Import List Arith Bool Lia ZArith.
From VBase Require Import MachInt FieldOps.
From VModel Require Import Composition CompositionLagrange.
From VModel Require Stark Enforce EnforceLagrange.
From VProofs Require StarkPoly StarkDeep StarkLagrangeRows.
From VProofs Require Import CompositionLagrange CompositionLagrangePoly.
Import ListNotations.
Local Open Scope nat_scope.

Section Honest.
Context {F : Type} (O : FOps F) (L : FLaws O).
Variable n v : nat.
Variable rou : nat -> F.
Hypothesis n_eq : n = 2 ^ v.
Hypothesis g_prim : StarkPoly.primitive_root O (gtrace n rou) n.
Variable Lp rr : list F.
Hypothesis rr_len : length rr = v.
(* the kernel column polynomial interpolates the honest Lagrange kernel column eq(r, bits of the row) over the trace domain *)
Hypothesis Lp_interp : forall i, i < n ->
  peval O Lp (cpow O (gtrace n rou) i) = nth i (StarkLagrangeRows.kernel_col O v rr) (fzero O).
Variable t : EnforceLagrange.LagTC (F := F).
Variable lb : F.

Theorem lag_def_is_poly_honest :
  exists Q, length Q <= length Lp /\ forall x, lag_good O v x -> lag_def O n rou v Lp t rr lb x = peval O Q x.
Proof.
  assert (Hn : 0 < n) by (rewrite n_eq; pose proof (Nat.pow_nonzero 2 v); lia).
  apply (lag_def_is_poly O L n v (gtrace n rou) n_eq g_prim Lp rr rr_len).
  - exact (StarkLagrangeRows.honest_numer_vanishes O L n v (gtrace n rou) n_eq rr rr_len Lp Lp_interp).
  - exact (StarkLagrangeRows.honest_first_cell O L n v (gtrace n rou) n_eq rr rr_len Lp Lp_interp Hn).
  - reflexivity.
Qed.
End Honest.
