(* C03 — soundness of the executable checker [check] of Model/Integrity.v: ANY event list it accepts (not only the
   generator's) satisfies the ordering discipline in declarative form.  Together with events_check this gives a second,
   independent route to the ordering theorems, and makes [check] usable as an oracle for observed logs. *)
From Coq Require Import List Arith Bool.
From VModel Require Import Integrity.
From VProofs Require Import IntegrityOrderBase IntegrityOrder.
Import ListNotations.

Definition hashed_in (l : list event) (c : comp) : Prop :=
  (exists n, In (HashLeaves c n) l) \/ (exists cs, In (HashWhole cs) l /\ In c cs).

Definition authed_in (l : list event) (c : comp) : Prop :=
  (exists r p root, In (AuthCheck r p root) l /\ (c = r \/ c = p)) \/
  (exists root, In (Compare CkRemainderCommit [c] [root]) l).

Definition absorbed_in (l : list event) (c : comp) : Prop := exists e, In e l /\ absorbs e c.

(* the checker state describes the prefix consumed so far *)
Definition inv (st : cstate) (acc : list event) : Prop :=
  (st_drawn st = true <-> In DrawPositions acc) /\
  (forall c, mem c (st_absorbed st) = true -> absorbed_in acc c) /\
  (forall c, mem c (st_hashed st) = true -> hashed_in acc c) /\
  (forall c, mem c (st_authed st) = true -> authed_in acc c).

Lemma inv0 : inv st0 [].
Proof. repeat split; cbn; intros; try discriminate; try contradiction. Qed.

Lemma mem_app_or : forall c l1 l2, mem c (l1 ++ l2) = true -> mem c l1 = true \/ mem c l2 = true.
Proof. intros c l1 l2 H. apply mem_In in H. apply in_app_or in H. destruct H; [left | right]; now apply mem_In. Qed.

Lemma mem_cons_or : forall c x l, mem c (x :: l) = true -> c = x \/ mem c l = true.
Proof. intros c x l H. apply mem_In in H. destruct H as [-> | H]; [now left | right; now apply mem_In]. Qed.

Lemma absorbed_in_incl : forall l l' c, incl l l' -> absorbed_in l c -> absorbed_in l' c.
Proof. intros l l' c S (e & H & A). exists e. split; [apply S; exact H | exact A]. Qed.

Lemma hashed_in_incl : forall l l' c, incl l l' -> hashed_in l c -> hashed_in l' c.
Proof. intros l l' c S [(n & H) | (cs & H & I)]; [left; exists n | right; exists cs; split; [|exact I]]; apply S; exact H. Qed.

Lemma authed_in_incl : forall l l' c, incl l l' -> authed_in l c -> authed_in l' c.
Proof.
  intros l l' c S [(r & p & root & H & I) | (root & H)]; [left; exists r, p, root; split; [|exact I] | right; exists root];
    apply S; exact H.
Qed.

(* one more event: the positions are drawn iff they were or the event draws them, and each list of the state gains only
   components that the event itself absorbs / hashes / authenticates *)
Lemma inv_extend : forall st st' acc e, inv st acc ->
  (st_drawn st' = true <-> st_drawn st = true \/ e = DrawPositions) ->
  (forall c, mem c (st_absorbed st') = true -> mem c (st_absorbed st) = true \/ absorbed_in [e] c) ->
  (forall c, mem c (st_hashed st') = true -> mem c (st_hashed st) = true \/ hashed_in [e] c) ->
  (forall c, mem c (st_authed st') = true -> mem c (st_authed st) = true \/ authed_in [e] c) ->
  inv st' (acc ++ [e]).
Proof.
  intros st st' acc e (D & A & H & U) D' A' H' U'.
  assert (Sl : incl acc (acc ++ [e])) by apply incl_appl, incl_refl.
  assert (Sr : incl [e] (acc ++ [e])) by apply incl_appr, incl_refl.
  split; [| split; [| split]].
  - rewrite D', D, in_app_iff. simpl. intuition.
  - intros c M. destruct (A' c M) as [M' | N]; [apply (absorbed_in_incl acc), A | apply (absorbed_in_incl [e])]; assumption.
  - intros c M. destruct (H' c M) as [M' | N]; [apply (hashed_in_incl acc), H | apply (hashed_in_incl [e])]; assumption.
  - intros c M. destruct (U' c M) as [M' | N]; [apply (authed_in_incl acc), U | apply (authed_in_incl [e])]; assumption.
Qed.

Lemma inv_step : forall st acc e, inv st acc -> fst (step st e) = true -> inv (snd (step st e)) (acc ++ [e]).
Proof.
  intros st acc e I _. apply (inv_extend st _ acc e I).
  - destruct e as [b x | t | k n | | | c n | cs | r p root | k lhs rhs | c]; simpl; brk_match; simpl; intuition discriminate.
  - destruct e as [b x | t | k n | | | c n | cs | r p root | k lhs rhs | c]; cbn -[mem]; brk_match; cbn -[mem]; try (intros ? M; left; exact M).
    + (* Absorb *) intros c M. apply mem_app_or in M. destruct M as [M | M]; [right | left; exact M].
      exists (Absorb t). split; [left; reflexivity |]. left. exists t. split; [reflexivity | now apply mem_In].
    + (* DrawPositions *) intros c M. apply mem_cons_or in M. destruct M as [-> | M]; [right | left; exact M].
      exists DrawPositions. split; [left; reflexivity | right; now split].
  - destruct e as [b x | t | k n | | | c n | cs | r p root | k lhs rhs | c]; cbn -[mem]; brk_match; cbn -[mem]; try (intros ? M; left; exact M).
    + (* HashLeaves *) intros c' M. apply mem_cons_or in M. destruct M as [-> | M]; [right | left; exact M].
      left. exists n. left. reflexivity.
    + (* HashWhole *) intros c' M. apply mem_app_or in M. destruct M as [M | M]; [right | left; exact M].
      right. exists cs. split; [left; reflexivity | now apply mem_In].
  - destruct e as [b x | t | k n | | | c n | cs | r p root | k lhs rhs | c]; cbn -[mem]; brk_match; cbn -[mem]; try (intros ? M; left; exact M).
    + (* AuthCheck *) intros c' M. apply mem_cons_or in M. destruct M as [-> | M]; [right; left; exists r, p, root; split; [left; reflexivity | now left] |].
      apply mem_cons_or in M. destruct M as [-> | M]; [right; left; exists r, p, root; split; [left; reflexivity | now right] | left; exact M].
    + (* Compare CkRemainderCommit [c] [root] *) intros c' M. apply mem_cons_or in M. destruct M as [-> | M]; [right | left; exact M].
      right. eexists. left. reflexivity.
Qed.

(* what the checker demands of the event it is looking at *)
Definition demands (acc : list event) (e : event) : Prop :=
  (forall t, e = Absorb t -> ~ In DrawPositions acc) /\
  (e = DrawPositions -> ~ In DrawPositions acc) /\
  (forall r p root, e = AuthCheck r p root -> In DrawPositions acc /\ absorbed_in acc root /\ hashed_in acc r) /\
  (forall c root, e = Compare CkRemainderCommit [c] [root] -> absorbed_in acc root /\ hashed_in acc c) /\
  (forall c, e = Use c -> query_data c = true -> In DrawPositions acc /\ authed_in acc c).

Lemma step_demands : forall st acc e, inv st acc -> fst (step st e) = true -> demands acc e.
Proof.
  intros st acc e (D & A & H & U) OK. unfold demands.
  repeat split; intros; subst e; cbn -[mem] in OK;
    try match goal with Q : query_data _ = true |- _ => rewrite Q in OK end;
    rewrite ?andb_true_iff, ?negb_true_iff in OK.
  - intro J. apply D in J. congruence.
  - intro J. apply D in J. congruence.
  - apply D, OK.
  - apply A, OK.
  - apply H, OK.
  - apply A, OK.
  - apply H, OK.
  - apply D, OK.
  - apply U, OK.
Qed.

Lemma check_sound_gen : forall l st acc, inv st acc -> check st l = true ->
  forall pre e post, l = pre ++ e :: post -> demands (acc ++ pre) e.
Proof.
  induction l as [| x r IH]; intros st acc I C pre e post E.
  - destruct pre; discriminate.
  - rewrite check_cons in C. apply andb_prop in C. destruct C as [C1 C2].
    destruct pre as [| y pre'].
    + cbn in E. injection E as -> ->. rewrite app_nil_r. now apply (step_demands st).
    + cbn in E. injection E as -> E.
      replace (acc ++ y :: pre') with ((acc ++ [y]) ++ pre') by (rewrite <- app_assoc; reflexivity).
      apply (IH (snd (step st y)) (acc ++ [y]) (inv_step st acc y I C1) C2 pre' e post E).
Qed.

(* every list accepted by the checker, from the initial state *)
Theorem check_sound : forall l, check st0 l = true ->
  forall pre e post, l = pre ++ e :: post -> demands pre e.
Proof. intros l C pre e post E. exact (check_sound_gen l st0 [] inv0 C pre e post E). Qed.

(* ... hence, by events_check, for the runs of every admissible shape *)
Corollary events_obey_discipline : forall s, admissible current s = true ->
  forall pre e post, events current s = pre ++ e :: post -> demands pre e.
Proof. intros s Ha. apply check_sound. now apply events_check. Qed.
