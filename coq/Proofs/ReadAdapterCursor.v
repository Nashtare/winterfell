(* C13 — the ByteReader impl for std::io::Cursor is the list semantics on buf[min(pos, len)..], hence equal to SliceReader on
   every operation sequence.  Its `pos + n` is computed only after the length test has passed, so it cannot overflow: unlike
   for SliceReader::check_eor no bound on the length arguments is needed. *)
From VBase Require Import MachInt.
From VModel Require Import ReadAdapter.
From VProofs Require Import ListFacts ReadAdapterSim.
Local Open Scope nat_scope.

(* the cursor state [t] represents the unread byte list [u]; both the buffer length and the position are u64 values *)
Definition cursor_rel (t : cstate) (u : list byte) : Prop :=
  u = c_rem t /\ (Z.of_nat (length (c_src t)) < 2 ^ 64)%Z /\ (Z.of_nat (c_pos t) < 2 ^ 64)%Z.

Lemma c_rem_length : forall t, length (c_rem t) = length (c_src t) - c_pos t.
Proof. intros t. unfold c_rem. rewrite skipn_length. lia. Qed.

Lemma c_rem_beyond : forall t, length (c_src t) <= c_pos t -> c_rem t = [].
Proof.
  intros t H. pose proof (c_rem_length t) as L. destruct (c_rem t); [reflexivity|simpl in L; lia].
Qed.

Lemma c_rem_inside : forall t, c_pos t <= length (c_src t) -> c_rem t = skipn (c_pos t) (c_src t).
Proof. intros t H. unfold c_rem. now rewrite Nat.min_l. Qed.

Lemma cursor_take_sim : forall n, sim cstate (list byte) cursor_rel (c_slice n) (sp_take n).
Proof.
  intros n t u (Hu & Hs & Hp). unfold c_slice, sp_take. subst u. rewrite c_rem_length.
  change (2 ^ 64)%Z with 18446744073709551616%Z in *.
  destruct (Nat.ltb_spec (length (c_src t) - c_pos t) n) as [Hlt|Hge].
  - destruct (Nat.leb_spec n (length (c_src t) - c_pos t)); [lia|]. simpl. split; [reflexivity|]. repeat split; auto.
  - destruct (Nat.leb_spec n (length (c_src t) - c_pos t)); [|lia].
    unfold c_advance. change (2 ^ 64)%Z with 18446744073709551616%Z.
    destruct (Z.leb_spec 18446744073709551616 (Z.of_nat (c_pos t) + Z.of_nat n)) as [Hov|Hov].
    + (* pos + n overflows only if n = 0 and pos >= 2^64, or n > 0 and pos + n <= size: neither is possible *)
      exfalso. destruct n; lia.
    + destruct (Nat.le_gt_cases (c_pos t) (length (c_src t))) as [Hin|Hout].
      * rewrite (Nat.min_l _ _ Hin). destruct (Nat.leb_spec (c_pos t + n) (length (c_src t))); [|lia].
        simpl. rewrite (c_rem_inside t Hin). split; [reflexivity|].
        unfold cursor_rel, c_rem. simpl. split; [|split; [assumption|lia]].
        rewrite Nat.min_l by lia. now rewrite <- skipn_add.
      * (* position beyond the end: only n = 0 passes the length test *)
        assert (n = 0) by lia. subst n. rewrite Nat.min_r by lia. rewrite Nat.add_0_r, Nat.leb_refl.
        simpl. rewrite (c_rem_beyond t) by lia. simpl. split; [reflexivity|].
        unfold cursor_rel, c_rem. simpl. rewrite Nat.add_0_r. split; [|split; assumption].
        rewrite Nat.min_r by lia. rewrite skipn_all. reflexivity.
Qed.

Lemma cursor_u8_sim : sim cstate (list byte) cursor_rel c_u8 sp_u8.
Proof.
  intros t u (Hu & Hs & Hp). unfold c_u8, sp_u8. subst u.
  destruct (c_rem t) as [|b r] eqn:E.
  - simpl. split; [reflexivity|]. unfold cursor_rel. rewrite E. repeat split; auto.
  - pose proof (c_rem_length t) as L. rewrite E in L. simpl in L.
    assert (Hin : c_pos t < length (c_src t)) by lia.
    unfold c_advance. change (2 ^ 64)%Z with 18446744073709551616%Z in *.
    destruct (Z.leb_spec 18446744073709551616 (Z.of_nat (c_pos t) + Z.of_nat 1)); [lia|].
    simpl. split; [reflexivity|]. unfold cursor_rel, c_rem. simpl. split; [|split; [assumption|lia]].
    rewrite Nat.min_l by lia. unfold c_rem in E. rewrite Nat.min_l in E by lia.
    destruct (skipn_cons_inv _ _ _ _ E) as (_ & H2 & _). rewrite Nat.add_1_r. now rewrite H2.
Qed.

Lemma cursor_peek_sim : sim cstate (list byte) cursor_rel c_peek sp_peek.
Proof.
  intros t u (Hu & Hs & Hp). unfold c_peek, sp_peek. subst u.
  destruct (c_rem t) as [|b r] eqn:E; simpl; (split; [reflexivity|]); unfold cursor_rel; rewrite E; repeat split; auto.
Qed.

Lemma cursor_more_sim : forall t u, cursor_rel t u ->
  fst (r_more cursor_reader t) = fst (sp_more u) /\ cursor_rel (snd (r_more cursor_reader t)) (snd (sp_more u)).
Proof.
  intros t u Hr. simpl. split; [|exact Hr]. destruct Hr as (Hu & _ & _). subst u.
  pose proof (c_rem_length t) as L.
  destruct (c_rem t); simpl in *; destruct (Nat.ltb_spec (c_pos t) (length (c_src t))); auto; lia.
Qed.

Lemma cursor_eor_spec : forall n t u, cursor_rel t u -> r_eor cursor_reader n t = (fst (sp_eor n u), t).
Proof. intros n t u (Hu & _ & _). subst u. reflexivity. Qed.

(* every operation of the Cursor reader is the list semantics (check_eor included: Cursor's answer is exact) *)
Lemma cursor_step_spec : forall utf8 o t u, cursor_rel t u ->
  fst (step cursor_reader utf8 o t) = fst (step spec_reader utf8 o u) /\
  cursor_rel (snd (step cursor_reader utf8 o t)) (snd (step spec_reader utf8 o u)).
Proof.
  intros utf8 o t u Hr. destruct (is_eor o) eqn:E.
  - destruct o; try discriminate. unfold step, vmap, bind, ret.
    rewrite (cursor_eor_spec n t u Hr). simpl. destruct (n <=? length u); simpl; auto.
  - apply (sim_step cstate (list byte) cursor_reader spec_reader cursor_rel utf8 (Nat.max 16 (op_arg o))); auto; try lia.
    + apply cursor_u8_sim.
    + apply cursor_peek_sim.
    + intros n _. apply cursor_take_sim.
    + intros n _. apply cursor_take_sim.
    + apply cursor_more_sim.
Qed.

Lemma run_spec_cursor : forall utf8 ops t u, cursor_rel t u ->
  run cursor_reader utf8 ops t = run spec_reader utf8 ops u.
Proof.
  intros utf8 ops t u. apply (sim_run _ _ cursor_reader spec_reader cursor_rel utf8 (fun _ => True)).
  - intros o _ t' u'. exact (cursor_step_spec utf8 o t' u').
  - apply Forall_forall. auto.
Qed.

Lemma cursor_init_rel : forall bytes pos, (Z.of_nat (length bytes) < 2 ^ 64)%Z -> (Z.of_nat pos < 2 ^ 64)%Z ->
  cursor_rel (c_init bytes pos) (skipn pos bytes).
Proof.
  intros bytes pos Hl Hp. unfold cursor_rel, c_init, c_rem. simpl. split; [|split; assumption].
  destruct (Nat.le_gt_cases pos (length bytes)).
  - now rewrite Nat.min_l.
  - rewrite Nat.min_r by lia. rewrite skipn_all. apply skipn_all2. lia.
Qed.

(* Cursor == SliceReader on every operation sequence: same values, same errors at the same points, check_eor and
   has_more_bytes included; the cursor may start at any position (also beyond the end), the slice reader then reads the
   bytes from that position on.  The bound B only excludes `pos + n` overflowing inside SliceReader::check_eor. *)
Theorem cursor_equals_slice : forall utf8 bytes pos ops B,
  16 <= B -> Forall (fun o => op_arg o <= B) ops ->
  (Z.of_nat (length bytes) + Z.of_nat B < 2 ^ 64)%Z -> (Z.of_nat pos < 2 ^ 64)%Z ->
  run cursor_reader utf8 ops (c_init bytes pos) = run slice_reader utf8 ops (s_init (skipn pos bytes)).
Proof.
  intros utf8 bytes pos ops B HB Hops Hl Hp.
  rewrite (run_spec_cursor utf8 ops (c_init bytes pos) (skipn pos bytes)) by (apply cursor_init_rel; lia).
  symmetry. apply (run_spec_slice utf8 B); auto.
  unfold slice_rel, s_init. simpl. repeat split; try lia.
  rewrite skipn_length. lia.
Qed.

(* the cursor reader never panics (u64 position arithmetic, slice indexing) *)
Lemma cursor_never_aborts : forall utf8 ops bytes pos,
  (Z.of_nat (length bytes) < 2 ^ 64)%Z -> (Z.of_nat pos < 2 ^ 64)%Z ->
  Forall (fun r => aborts r = false) (run cursor_reader utf8 ops (c_init bytes pos)).
Proof.
  intros utf8 ops bytes pos Hl Hp.
  rewrite (run_spec_cursor utf8 ops (c_init bytes pos) (skipn pos bytes)) by (apply cursor_init_rel; lia).
  apply (safe_run (list byte) spec_reader (fun _ => True) utf8); [|exact I]. apply safe_step.
  - intros s _. unfold sp_u8. simpl. destruct s; simpl; auto.
  - intros s _. unfold sp_peek. simpl. destruct s; simpl; auto.
  - intros n s _. simpl. unfold sp_take. destruct (n <=? length s); simpl; auto.
  - intros n s _. simpl. unfold sp_take. destruct (n <=? length s); simpl; auto.
  - intros n s _. simpl. unfold sp_eor. destruct (n <=? length s); simpl; auto.
  - auto.
Qed.

(* witnesses: a cursor positioned beyond the end answers like an exhausted reader, and read_slice(0) still succeeds *)
Lemma cursor_beyond_end_example :
  run cursor_reader utf8_valid [HasMore; CheckEor 0; CheckEor 1; PeekU8; ReadU8; ReadSlice 0; ReadSlice 1; ReadArray 0; ReadU16]
      (c_init [1; 2; 3]%Z 7) =
  [Ok (VBool false); Ok VUnit; Err EOF; Err EOF; Err EOF; Ok (VBytes []); Err EOF; Ok (VBytes []); Err EOF].
Proof. vm_compute. reflexivity. Qed.

Lemma cursor_mid_example :
  run cursor_reader utf8_valid [CheckEor 2; CheckEor 3; ReadU8; HasMore; ReadU8; HasMore; CheckEor 0; ReadU8] (c_init [1; 2; 3]%Z 1) =
  [Ok VUnit; Err EOF; Ok (VInt 2); Ok (VBool true); Ok (VInt 3); Ok (VBool false); Ok VUnit; Err EOF].
Proof. vm_compute. reflexivity. Qed.
