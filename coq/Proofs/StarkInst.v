(* C01 — discharging the stage premises of the capstone from the theorems of the other properties, by instantiating the
   Section variables of Model/Stark.v with their models: interp_complete and coset_off_domain from C09 (FFT interpolation over
   the CE coset, Model/FFT.v), merkle_complete from C10 (Model/Merkle.v), transcript agreement cV = cP from C04
   (Model/Transcript.v), the transition and assertion divisors from C16 (ConstraintDivisor::evaluate_at is the vanishing
   polynomial by which quotient_is_poly divides).  `fri_complete` stays a premise here; Proofs/StarkFri.v discharges it. *)
From Coq Require Import List Arith Bool ZArith Lia Ring Field.
From VBase Require Import FieldOps.
From VModel Require Import Stark.
From VModel Require FFT Merkle Transcript Enforce.
From VProofs Require Import FieldFacts ListFacts Pow2Facts StarkPoly StarkDeep StarkComplete.
From VProofs Require FFTSpec FFTEval FFTOffset MerkleBase MerkleSingle TranscriptRun EnforceField EnforceDivisor.
From VProps Require C09 C10 C04 C16.
Import ListNotations.

(* ================================================================================================ C09 *)
Section InterpInst.
Context {F : Type} (O : FOps F) (L : FLaws O).
Local Notation zero := (fzero O).
Local Notation one := (fone O).
Local Notation "a *f b" := (fmul O a b) (at level 40, left associativity).
Add Ring FringI : (FLaws_ring_theory O L).

Lemma fft_peval_eq : forall p x, FFT.peval O p x = peval O p x.
Proof. reflexivity. Qed.
Lemma fft_fpow_eq : forall x n, FFT.fpow O x n = fpow O x n.
Proof. reflexivity. Qed.

(* parameters of fft::interpolate_poly_with_offset as called by CompositionPoly::new *)
Variables (two_adicity : nat) (itw : list F) (K : nat) (w winv offset : F).
Definition ce_size : nat := 2 ^ S K.
Definition ce_coset : list F := map (fun i => offset *f fpow O w i) (seq 0 ce_size).
Definition interp_ce (f : F -> F) : list F :=
  match FFT.interpolate_poly_with_offset O two_adicity (map f ce_coset) itw offset with Some c => c | None => [] end.

Hypothesis Hitw : length itw = 2 ^ K.
Hypothesis Hta : S K <= two_adicity.
Hypothesis Hroot : FFTSpec.root_cond O (S K) w.
Hypothesis Hinv : w *f winv = one.
Hypothesis Htw : FFTEval.tw_ok O itw (S K) winv.
Hypothesis Hoff : offset <> zero.
Hypothesis Hn_inv : FFTSpec.two_pow_f O (S K) *f FFTOffset.n_inv O (S K) = one.

(* interp_complete, from C09_interpolate_with_offset_spec *)
Theorem interp_complete_inst : forall f Q, length Q <= ce_size -> (forall x, In x ce_coset -> f x = peval O Q x) ->
  interp_ce f = Q ++ repeat zero (ce_size - length Q).
Proof.
  intros f Q Hl Hf. unfold interp_ce.
  set (p := Q ++ repeat zero (ce_size - length Q)).
  assert (Hp : length p = 2 ^ S K). { unfold p. rewrite app_length, repeat_length. unfold ce_size in *. lia. }
  assert (E : map f ce_coset = map (fun i => FFT.peval O p (offset *f FFT.fpow O w i)) (seq 0 (2 ^ S K))).
  { unfold ce_coset. rewrite map_map. apply map_ext_in. intros i H.
    change (FFT.peval O p) with (peval O p). change (FFT.fpow O w i) with (fpow O w i). unfold p. rewrite (peval_app O L), (peval_repeat_zero O L).
    rewrite Hf. { ring. } unfold ce_coset. apply in_map_iff. exists i. split; [reflexivity|].
    apply in_seq. apply in_seq in H. exact H. }
  rewrite E. rewrite (C09.C09_interpolate_with_offset_spec F O L two_adicity itw K w winv offset p Hp Hitw Hta Hroot Hinv Htw Hoff Hn_inv).
  reflexivity.
Qed.

(* coset_off_domain: the coset offset*<w> does not meet the trace domain <g> when g lies in <w> and offset does not *)
Lemma root_cond_order : fpow O w ce_size = one.
Proof.
  unfold ce_size. cbn [FFTSpec.root_cond] in Hroot. change (FFT.fpow O w (2 ^ K)) with (fpow O w (2 ^ K)) in Hroot.
  replace (2 ^ S K) with (2 ^ K + 2 ^ K) by (simpl; lia). rewrite (fpow_add O L), Hroot. ring.
Qed.

Theorem coset_off_domain_inst g n : fpow O g ce_size = one -> fpow O offset ce_size <> one ->
  forall x, In x ce_coset -> ~ In x (domain O g n).
Proof.
  intros Hg Ho x Hx Hd. unfold ce_coset in Hx. apply in_map_iff in Hx. destruct Hx as (i & <- & _).
  apply (In_domain O) in Hd. destruct Hd as (j & _ & E).
  apply Ho. assert (E2 : fpow O (offset *f fpow O w i) ce_size = fpow O (fpow O g j) ce_size) by now rewrite E.
  rewrite (fpow_mul_base O L), (fpow_root_pow O L w _ i root_cond_order), (fpow_root_pow O L g _ j Hg) in E2.
  rewrite <- E2. ring.
Qed.
End InterpInst.

(* position of a point in a list of distinct points (the LDE domain in position order) *)
Section Find.
Context {F : Type} (O : FOps F) (L : FLaws O).
Fixpoint find (l : list F) (x : F) : nat :=
  match l with [] => 0 | h :: t => if feqb O h x then 0 else S (find t x) end.

Lemma find_spec : forall l x, In x l -> find l x < length l /\ nth_error l (find l x) = Some x.
Proof.
  induction l as [|h t IH]; intros x Hx; [contradiction|]. cbn [find].
  destruct (feqb O h x) eqn:E.
  - apply (feqb_true O L) in E. subst. simpl. split; [lia | reflexivity].
  - destruct Hx as [->|Hx]; [rewrite (feqb_refl O L) in E; discriminate|].
    destruct (IH x Hx) as [H1 H2]. simpl. split; [lia | exact H2].
Qed.
End Find.

(* ================================================================================================ C10 *)
Section MerkleInst.
Context {F : Type} (O : FOps F) (L : FLaws O).
Variable D : Type.
Variable D_eqb : D -> D -> bool.
Hypothesis D_eqb_spec : forall a b, D_eqb a b = true <-> a = b.
Variable d0 : D.
Variable merge : D -> D -> D.
Variable hash_row : list F -> D.          (* H::hash_elements of one row of the LDE matrix *)
Variable lde : list F.                    (* the LDE domain, in position order: lde[i] = offset * g_lde^i *)
Variable depth : nat.
Hypothesis Hdepth : 1 <= depth <= 62.
Hypothesis Hlde_len : length lde = 2 ^ depth.

Definition pos_of (x : F) : Z := Z.of_nat (find O lde x).

Definition leaves_of (cs : list (list F)) : list D := map (fun x => hash_row (evals O cs x)) lde.
Definition Opening : Type := (list (list D) * Z)%type.      (* BatchMerkleProof without its leaves: nodes, depth *)

Definition commit (cs : list (list F)) : D :=
  match Merkle.mt_new D d0 merge (leaves_of cs) with
  | Merkle.Ok t => match Merkle.mt_root D t with Merkle.Ok r => r | _ => d0 end
  | _ => d0
  end.
Definition open_prove (cs : list (list F)) (xs : list F) : Opening :=
  match Merkle.mt_new D d0 merge (leaves_of cs) with
  | Merkle.Ok t => match Merkle.mt_prove_batch D d0 t (map pos_of xs) with
                   | Merkle.Ok p => (@Merkle.bp_nodes D p, @Merkle.bp_depth D p) | _ => ([], 0%Z) end
  | _ => ([], 0%Z)
  end.
(* the verifier hashes the opened rows into the leaves of the batch proof and calls verify_batch *)
Definition open_ok (root : D) (xs : list F) (rows : list (list F)) (op : Opening) : bool :=
  match Merkle.verify_batch D D_eqb merge root (map pos_of xs)
          (@Merkle.Build_bproof D (map hash_row rows) (fst op) (snd op)) with
  | Merkle.Ok _ => true | _ => false end.

(* merkle_complete, from C10_new_ok / C10_build_nodes_spec / C10_batch_complete *)
Theorem merkle_complete_inst : forall (cs : list (list F)) xs, incl xs lde -> NoDup xs -> xs <> [] -> length xs <= 255 ->
  open_ok (commit cs) xs (map (evals O cs) xs) (open_prove cs xs) = true.
Proof.
  intros cs xs Hin Hnd Hne H255.
  assert (Hll : Merkle.zlen (leaves_of cs) = (2 ^ Z.of_nat depth)%Z).
  { unfold Merkle.zlen, leaves_of. rewrite map_length, Hlde_len. rewrite Nat2Z.inj_pow. reflexivity. }
  assert (Hbr : Z.of_nat (2 ^ depth) = (2 ^ Z.of_nat depth)%Z) by (rewrite Nat2Z.inj_pow; reflexivity).
  destruct (C10.C10_new_ok D d0 merge (leaves_of cs) depth ltac:(lia) Hll) as (t & Ht).
  destruct (C10.C10_build_nodes_spec D d0 merge (leaves_of cs) t Ht) as (Hlv & d' & WF).
  assert (d' = depth).
  { pose proof (MerkleSingle.wf_leaves D d0 merge d' t WF) as E. rewrite Hlv, Hll in E.
    apply Z.pow_inj_r in E; lia. }
  subst d'.
  pose proof (MerkleSingle.root_hval D d0 merge t depth WF ltac:(lia)) as Hroot.
  set (root := MerkleSingle.hval D d0 t 1%Z) in *.
  assert (Hidx : forall i, In i (map pos_of xs) -> (0 <= i < Merkle.zlen (leaves_of cs))%Z).
  { intros i Hi. apply in_map_iff in Hi. destruct Hi as (x & <- & Hx).
    destruct (find_spec O L lde x (Hin x Hx)) as [Hlt _]. unfold pos_of. rewrite Hll, <- Hbr, <- Hlde_len. lia. }
  assert (Hnd' : NoDup (map pos_of xs)).
  { apply NoDup_map_inj_in; [|exact Hnd]. intros x y Hx Hy E.
    destruct (find_spec O L lde x (Hin x Hx)) as [_ Fx]. destruct (find_spec O L lde y (Hin y Hy)) as [_ Fy].
    unfold pos_of in E. apply Nat2Z.inj in E. rewrite E, Fy in Fx. now inversion Fx. }
  destruct (C10.C10_batch_complete D D_eqb D_eqb_spec d0 merge (leaves_of cs) t depth root (map pos_of xs)
              Ht Hll ltac:(lia) Hroot) as (p & Hp & _ & Hlen & Hleaves & _ & Hver).
  { destruct xs; [congruence | discriminate]. }
  { unfold Merkle.zlen. rewrite map_length. lia. }
  { exact Hnd'. }
  { exact Hidx. }
  (* the proof's leaves are the hashes of the opened rows *)
  assert (El : @Merkle.bp_leaves D p = map hash_row (map (evals O cs) xs)).
  { apply nth_error_ext. intros j. rewrite map_length in Hlen.
    destruct (nth_error xs j) as [x|] eqn:Ex.
    - assert (Hx : In x xs) by (eapply nth_error_In; eassumption).
      rewrite (Hleaves j (pos_of x)) by (rewrite nth_error_map, Ex; reflexivity).
      unfold pos_of. rewrite Nat2Z.id. destruct (find_spec O L lde x (Hin x Hx)) as [_ Hf].
      unfold leaves_of. rewrite !nth_error_map, Hf, Ex. reflexivity.
    - apply nth_error_None in Ex.
      assert (nth_error (@Merkle.bp_leaves D p) j = None) as -> by (apply nth_error_None; lia).
      symmetry. apply nth_error_None. rewrite !map_length. exact Ex. }
  unfold open_ok, commit, open_prove. rewrite Ht, Hroot, Hp. cbn [fst snd]. rewrite <- El.
  destruct p as [pl pn pd]. cbn [Merkle.bp_leaves Merkle.bp_nodes Merkle.bp_depth]. rewrite Hver. reflexivity.
Qed.
End MerkleInst.

(* ================================================================================================ C16 *)
Section EnforceInst.
Context {F : Type} (O : FOps F) (L : FLaws O).
Local Notation zero := (fzero O).
Add Ring FringE : (FLaws_ring_theory O L).

Lemma vanish_is_pprod x : forall l, EnforceField.vanish O x l = pprod O l x.
Proof.
  induction l as [|r l IH]; [reflexivity|]. rewrite (EnforceField.vanish_cons O L), IH. reflexivity.
Qed.

(* C16's quotient polynomial Zt of the transition divisor is the vanishing polynomial of the first n - e trace-domain points *)
Lemma Zt_is_pprod g (n e : nat) x : e <= n ->
  EnforceDivisor.Zt O g (Z.of_nat n) (Z.of_nat e) x = pprod O (domain O g (n - e)) x.
Proof.
  intros He. unfold EnforceDivisor.Zt. rewrite vanish_is_pprod.
  rewrite (EnforceDivisor.map_pw_zrange O L g (Z.of_nat n)) by lia.
  replace (Z.to_nat (Z.of_nat n - Z.of_nat e - 0)) with (n - e) by lia. reflexivity.
Qed.

(* ConstraintDivisor::from_transition(n, e).evaluate_at(x), as modelled and proved by C16, is the divisor of
   quotient_is_poly wherever the exemption product is non-zero (in particular for every x outside the trace domain) *)
Theorem transition_divisor_inst g (n e : nat) d x :
  (exists k, (0 <= k)%Z /\ Z.of_nat n = (2 ^ k)%Z) -> (Z.of_nat n < 2 ^ 64)%Z ->
  Enforce.fpow O g (Z.of_nat n) = fone O -> (forall i, (0 < i < Z.of_nat n)%Z -> Enforce.fpow O g i <> fone O) ->
  e <= n -> Enforce.from_transition O g (Z.of_nat n) (Z.of_nat e) = Some d ->
  Enforce.eval_exemptions O d x <> zero ->
  Enforce.evaluate_at O d x = pprod O (domain O g (n - e)) x.
Proof.
  intros Hp H64 Hgn Hord He Hd Hx.
  destruct (C16.C16_transition_divisor_is_polynomial O L g (Z.of_nat n) Hp H64 Hgn Hord (Z.of_nat e) d x ltac:(lia) Hd) as (_ & H2 & _).
  rewrite (H2 Hx). now apply Zt_is_pprod.
Qed.

(* An assertion divisor x^m - c^m (ConstraintDivisor::from_assertion: m = number of asserted steps, c = g^first_step, so that
   the Rust offset g^(m * first_step) is c^m), evaluated by C16's model of evaluate_at, is the vanishing polynomial of the
   asserted steps c * h^i (h = g^stride a primitive m-th root): the divisor by which air_quotient_exists divides a boundary group *)
Theorem assertion_divisor_inst (n : Z) (m : nat) c h x : (n < 2 ^ 64)%Z -> (Z.of_nat m <= n)%Z ->
  primitive_root O h m -> 0 < m -> c <> zero ->
  Enforce.evaluate_at O (Enforce.mkD [(Z.of_nat m, fpow O c m)] []) x = pprod O (coset O c h m) x.
Proof.
  intros H64 Hmn Hh Hm Hc. rewrite (EnforceDivisor.assertion_evaluate_at O L n H64) by lia.
  rewrite (EnforceField.fpow_of_nat O L). rewrite (coset_vanishing O L c h m Hh Hm Hc). reflexivity.
Qed.
End EnforceInst.

(* ================================================================================================ C04 *)
Section TranscriptInst.
Context {F : Type}.
(* Any reading of the coin values off the labelled challenge list (the label says which challenge, the symbolic value
   says from which absorbed history and with which draw index it is derived; `sem` is the concrete coin: hashing,
   rejection sampling, position de-duplication).  Prover and verifier use the SAME function of their own lists. *)
Variable sem : list (Transcript.chal * Transcript.cval) -> @Coin F.
Definition coin_prover (s : Transcript.shape) : @Coin F := sem (Transcript.run Transcript.cs_init (Transcript.prover s)).
Definition coin_verifier (s : Transcript.shape) : @Coin F :=
  sem (filter TranscriptRun.usedb (Transcript.run Transcript.cs_init (Transcript.verifier s))).

(* transcript_agree, from C04_transcript_agree: the challenges the verifier uses are, label by label and term by term,
   the prover's (it derives one more value, the unused last FRI alpha, on which nothing depends) *)
Theorem transcript_agree_inst : forall s, coin_verifier s = coin_prover s.
Proof.
  intros s. unfold coin_verifier, coin_prover.
  destruct (C04.C04_transcript_agree s) as (_ & E & _). now rewrite E.
Qed.
End TranscriptInst.

(* ================================================================================================ the capstone, instantiated *)
Section Final.
Context {F : Type} (O : FOps F) (L : FLaws O).
Local Notation zero := (fzero O).
Local Notation one := (fone O).
Local Notation "a *f b" := (fmul O a b) (at level 40, left associativity).

(* Merkle side (C10): any digest type with decidable equality, any merge and row-hash functions *)
Variable D : Type.
Variable D_eqb : D -> D -> bool.
Hypothesis D_eqb_spec : forall a b, D_eqb a b = true <-> a = b.
Variables (d0 : D) (merge : D -> D -> D) (hash_row : list F -> D).
Variables (lde : list F) (depth : nat).
Hypothesis Hdepth : 1 <= depth <= 62.
Hypothesis Hlde_len : length lde = 2 ^ depth.
(* interpolation side (C09): parameters of fft::interpolate_poly_with_offset over the constraint evaluation coset *)
Variables (two_adicity : nat) (rou : nat -> F) (itw : list F) (K : nat) (w offset : F).
Hypothesis Hta : S K <= two_adicity.
Hypothesis Hrou : rou (S K) = w.                       (* B::get_root_of_unity(log2 ce_size) *)
Hypothesis Hroot : FFTSpec.root_cond O (S K) w.          (* ... is a primitive 2^(S K)-th root of unity: w^(2^K) = -1 *)
Hypothesis Hget : FFT.get_inv_twiddles O two_adicity rou (2 ^ S K) = Some itw.   (* fft::get_inv_twiddles(ce_size) *)
Hypothesis Hoff : offset <> zero.
Hypothesis Hn_inv : FFTSpec.two_pow_f O (S K) *f FFTOffset.n_inv O (S K) = one.
(* FRI (C15): still abstract *)
Variable FriProof : Type.
Variable fri_prove : list F -> list F -> FriProof.
Variable fri_verify : FriProof -> nat -> list F -> list F -> bool.
(* the AIR and the coin semantics *)
Variable air_eval : F -> list F -> list F -> F.
Variable sem : list (Transcript.chal * Transcript.cval) -> @Coin F.
Variables (n cols ce_b : nat) (g : F).

Local Notation prove' := (prove O D (Opening D) FriProof (commit O D d0 merge hash_row lde) (open_prove O D d0 merge hash_row lde)
                                 fri_prove air_eval (interp_ce O two_adicity itw K w offset)).
Local Notation verify' := (verify O D (Opening D) FriProof (open_ok O D D_eqb merge hash_row lde) fri_verify air_eval).

(* THE ONE STAGE PREMISE LEFT IN THIS FILE.  fri_complete (C15): FRI accepts the evaluations, at query points of the LDE
   domain, of a polynomial given by n coefficients whose top coefficient is zero (degree <= n - 2).  Proofs/StarkFri.v
   discharges it (fri_complete_inst) from C15_fri_complete, the end-to-end completeness of the prover and verifier of
   Model/Fri.v over all layers and the remainder check, and so obtains stark_complete_all_stages. *)
Hypothesis fri_complete : forall d xs, length d = n -> last d zero = zero -> incl xs lde -> xs <> [] -> length xs <= 255 ->
  fri_verify (fri_prove d xs) (n - 2) xs (map (peval O d) xs) = true.

Theorem stark_complete (dbg : bool) (s : Transcript.shape) (Ts : list (list F))
    (e : nat) (N : list F) (bs : list (list F * list F)) :
  let cP := coin_prover sem s in
  let cV := coin_verifier sem s in
  (* domains: g generates the trace domain, which lies in <w>; the coset offset does not *)
  primitive_root O g n -> fpow O offset (2 ^ S K) <> one ->
  (* shape: the constraint evaluation domain has n * ce_b points and holds the cols composition columns *)
  2 <= n -> 1 <= cols -> 2 ^ S K = n * ce_b -> cols <= ce_b ->
  (* the trace: polynomials of n coefficients on which all constraints hold *)
  Ts <> [] -> Forall (fun p => length p = n) Ts -> e <= n ->
  (forall i, i < n - e -> peval O N (fpow O g i) = zero) ->
  length N - (n - e) <= n * cols ->
  Forall (fun br => NoDup (snd br) /\ incl (snd br) (domain O g n) /\
                    (forall r, In r (snd br) -> peval O (fst br) r = zero) /\ length (fst br) - length (snd br) <= n * cols) bs ->
  (forall x, ~ In x (domain O g n) -> air_eval x (evals O Ts x) (evals O Ts (x *f g)) = combined O g n e N bs x) ->
  (* assumptions on the drawn values *)
  ~ In (c_z cP) (domain O g n) -> c_z cP <> zero -> c_z cP *f g <> zero ->
  incl (c_xs cP) lde -> NoDup (c_xs cP) -> c_xs cP <> [] -> length (c_xs cP) <= 255 ->
  (forall x, In x (c_xs cP) -> x <> c_z cP /\ x <> c_z cP *f g) ->
  exists pf, prove' (mkParams n g cols false dbg) cP Ts = Done pf /\
             verify' (mkParams n g cols false dbg) cV pf = None.
Proof.
  intros cP cV Hg Hoce Hn Hcols Hsz Hcb HTs HTl He Hv HNl Hbs Hair Hz Hz0 Hzg0 Hxs Hnd Hne H255 Hxz.
  (* C09_get_inv_twiddles: the inverse twiddles have the right length and shape *)
  destruct (C09.C09_get_inv_twiddles F O L two_adicity rou K w Hta Hrou Hroot) as (itw' & Hg' & Hitw & Htw & Hinv).
  rewrite Hget in Hg'. injection Hg' as <-. set (winv := FFT.fpow O w (2 ^ S K - 1)) in *.
  assert (Hce : n * cols <= 2 ^ S K) by (rewrite Hsz; apply Nat.mul_le_mono_l; exact Hcb).
  assert (Hgce : fpow O g (2 ^ S K) = one).
  { rewrite Hsz. apply (fpow_order_mul O L), Hg. }
  apply (stark_complete_valid_trace_partial O L D (Opening D) FriProof
           (commit O D d0 merge hash_row lde) (open_prove O D d0 merge hash_row lde) (open_ok O D D_eqb merge hash_row lde)
           fri_prove fri_verify air_eval (interp_ce O two_adicity itw K w offset)
           n cols (ce_size K) g (ce_coset O K w offset) lde) with (e := e) (N := N) (bs := bs); try assumption.
  - apply (merkle_complete_inst O L D D_eqb D_eqb_spec d0 merge hash_row lde depth Hdepth Hlde_len).
  - apply (interp_complete_inst O L two_adicity itw K w winv offset Hitw Hta Hroot Hinv Htw Hoff Hn_inv).
  - apply (coset_off_domain_inst O L two_adicity itw K w offset Hitw Hta Hroot g n Hgce Hoce).
  - apply transcript_agree_inst.
Qed.
End Final.
