(* C14 x C10 — the serial reference of the concurrent Merkle theorems IS C10's model of crypto::merkle::build_merkle_nodes
   (Model/Merkle.v [build_nodes]); hence concurrent::build_merkle_nodes = build_merkle_nodes at function level. *)
From Coq Require Import ZArith List Arith Bool Lia Permutation.
From VModel Require Import FFT Par Merkle.
From VProofs Require Import Pow2Facts MerkleSingle ParMerkle.
Import ListNotations.

Section Bridge.
Context {D : Type} (d0 : D) (merge : D -> D -> D).

(* C10's vector d0 :: build_down .. satisfies the tree equations that characterise [merkle_serial] *)
Lemma c10_nodes_eqs n leaves : (1 <= n)%nat -> length leaves = (2 * n)%nat ->
  merkle_eqs d0 merge n leaves
    (d0 :: build_down D d0 merge (Z.to_nat (Z.of_nat n - 1)) (Z.of_nat n - 1) (pairs_merge D merge leaves)).
Proof.
  intros Hn Hl.
  pose proof (build_nodes_eqs D d0 merge leaves (Z.of_nat n) ltac:(lia) ltac:(unfold zlen; lia)) as [HL HJ].
  set (N := (2 * Z.of_nat n)%Z) in *.
  set (F := build_down D d0 merge _ _ _) in *.
  assert (LF : length F = (2 * n - 1)%nat) by (unfold zlen, N in HL; lia).
  (* value of a node of (d0 :: F) in terms of znth F *)
  assert (HR : forall c, (1 <= c)%nat -> nth c (d0 :: F) d0 = znth D d0 F (Z.of_nat c - 1)).
  { intros c Hc. destruct c as [|c]; [lia|]. cbn [nth]. unfold znth. f_equal. lia. }
  unfold merkle_eqs. split; [cbn [length]; lia|]. split; [reflexivity|]. split.
  - intros i Hi. rewrite HR by lia.
    replace (Z.of_nat (n + i) - 1)%Z with (Z.of_nat (n + i) - 0 - 1)%Z by lia.
    rewrite (HJ (Z.of_nat (n + i))) by (unfold N; lia). unfold Hv.
    destruct (Z.ltb_spec (2 * Z.of_nat (n + i)) N); [unfold N in *; lia|].
    destruct (Z.ltb_spec (2 * Z.of_nat (n + i) + 1) N); [unfold N in *; lia|].
    unfold znth, N. do 2 f_equal; lia.
  - intros c Hc. rewrite HR by lia.
    replace (Z.of_nat c - 1)%Z with (Z.of_nat c - 0 - 1)%Z by lia.
    rewrite (HJ (Z.of_nat c)) by (unfold N; lia). unfold Hv.
    destruct (Z.ltb_spec (2 * Z.of_nat c) N); [|unfold N in *; lia].
    destruct (Z.ltb_spec (2 * Z.of_nat c + 1) N); [|unfold N in *; lia].
    rewrite !HR by lia. f_equal; f_equal; lia.
Qed.

(* the serial reference of Model/Par.v is C10's build_nodes, whatever the un-initialised vector contained *)
Theorem merkle_serial_is_C10_build_nodes n leaves junk : (1 <= n)%nat ->
  length leaves = (2 * n)%nat -> length junk = (2 * n)%nat ->
  build_nodes D d0 merge leaves = Ok (merkle_serial d0 merge leaves junk).
Proof.
  intros Hn Hl Hj. unfold build_nodes.
  assert (E : (zlen leaves / 2 = Z.of_nat n)%Z).
  { unfold zlen. rewrite Hl. replace (Z.of_nat (2 * n)) with (Z.of_nat n * 2)%Z by lia. apply Z.div_mul. lia. }
  rewrite E. destruct (Z.leb_spec (2 * Z.of_nat n) 0); [lia|]. f_equal.
  apply (merkle_eqs_unique d0 merge n leaves).
  - apply c10_nodes_eqs; assumption.
  - apply merkle_serial_eqs_gen; assumption.
Qed.

Local Open Scope nat_scope.

(* concurrent::build_merkle_nodes = build_merkle_nodes: for every n = 2^k leaf pairs, every thread count T whose number of
   subtrees npo2 T = 2^j is admissible (<= n), every hash [merge], every content of the un-initialised vector, every
   task schedule / complete interleaving of the leaf phase and of the subtree phase, the concurrent node vector EQUALS the
   node vector of C10's sequential model *)
Theorem build_merkle_nodes_concurrent_eq k T leaves junk nodes : let n := 2 ^ k in
  length leaves = 2 * n -> length junk = 2 * n -> npo2 T <= n ->
  build_nodes D d0 merge leaves = Ok nodes ->
  (forall s1 s2, Permutation s1 (seq 0 n) -> Permutation s2 (seq 0 (npo2 T)) ->
     merkle_par d0 merge leaves junk T s1 s2 = Done nodes) /\
  (forall ch1 ch2 r, merkle_par_interleaved d0 merge leaves junk T ch1 ch2 = Done (r, true) -> r = nodes) /\
  (forall conc s1 s2, Permutation s1 (seq 0 n) -> Permutation s2 (seq 0 (npo2 T)) ->
     merkle_nodes_dispatch d0 merge conc leaves junk T s1 s2 = Done nodes).
Proof.
  intros n Hl Hj HT Hb.
  pose proof (pow2_pos k : 1 <= n) as Hn.
  rewrite (merkle_serial_is_C10_build_nodes n leaves junk Hn Hl Hj) in Hb. inversion Hb; subst nodes.
  destruct (merkle_par_spec d0 merge k T leaves junk Hl Hj HT) as [A B].
  split; [exact A|]. split; [exact B|].
  intros conc s1 s2 P1 P2. apply (merkle_dispatch_spec d0 merge k T leaves junk conc s1 s2); assumption.
Qed.

(* ... and the sequential model does return a vector under these hypotheses (non-vacuity of the last premise) *)
Lemma build_nodes_total k leaves : length leaves = 2 * 2 ^ k -> exists nodes, build_nodes D d0 merge leaves = Ok nodes.
Proof.
  intros Hl. exists (merkle_serial d0 merge leaves (repeat d0 (2 * 2 ^ k))).
  apply (merkle_serial_is_C10_build_nodes (2 ^ k)); [apply pow2_pos|exact Hl|apply repeat_length].
Qed.
End Bridge.

(* ---------------------------------------------------------------- off-by-one twin *)
Local Open Scope nat_scope.
(* the same three phases with every subtree range shifted by one cell (`start_idx + 1`): the cell n/2 is never computed and the
   last subtree overwrites a leaf-phase cell — the node vector differs from C10's sequential one *)
Definition c10_mg (a b : nat) : nat := (1 + 3 * a + 7 * b) mod 101.
Definition offby1_result (leaves junk : list nat) (T : nat) : option (list nat) :=
  let n := length leaves / 2 in
  let ns := npo2 T in
  let batch := n / ns in
  match sequence_opt (map (fun i => let start := n / 2 + (batch / 2) * i + 1 in subtree_steps 0 c10_mg (S start) ns start (batch / 2))
                          (seq 0 ns)) with
  | None => None
  | Some subs => Some (exec_phases [map (leaf_task 0 c10_mg leaves n) (seq 0 n); concat subs; map (node_task 0 c10_mg) (desc_range 1 (ns - 1))]
                                   (merkle_init 0 junk))
  end.

Example merkle_subtree_offby1_refuted : exists r, offby1_result (seq 10 32) (repeat 99 32) 3 = Some r /\
  build_nodes nat 0 c10_mg (seq 10 32) <> Ok r.
Proof. eexists. split; [vm_compute; reflexivity|]. vm_compute. intros H. discriminate H. Qed.

(* while the model of the code as written agrees with C10's vector on the same input (T = 3 -> 4 subtrees) *)
Example merkle_concurrent_eq_ex :
  exists nodes, build_nodes nat 0 c10_mg (seq 10 32) = Ok nodes /\
  merkle_par 0 c10_mg (seq 10 32) (repeat 99 32) 3 (rev (seq 0 16)) [2; 0; 3; 1] = Done nodes.
Proof. eexists. split; vm_compute; reflexivity. Qed.
