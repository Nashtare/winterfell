(* C17 — transport along the embedding of the base field into an extension field.  `Emb`: emb : B -> E is an injective ring
   homomorphism between two fields with FLaws and mul_base x b = x * emb b (C08_quad_embed_hom / C08_cube_embed_hom /
   C08_*_mul_base_spec for the concrete extensions).  Every mixed operation of coq/Model/CompositionMixed.v equals the
   single-field operation over OE on the embedded inputs, and what the prover computes in B and then embeds (domain points,
   evaluations, inverses) commutes with emb: the single-field theorems at F := E speak about the mixed computation.  stdlib style. *)
From Coq Require Import List Arith Bool Lia Ring Field ZArith.
From VBase Require Import FieldOps.
From VModel Require Import Composition CompositionMixed.
From VProofs Require Import CompositionBase CompositionIndex.
Import ListNotations.

Record Emb {B E : Type} (OB : FOps B) (OE : FOps E) (emb : B -> E) (mul_base : E -> B -> E) : Prop := mkEmb {
  emb_zero : emb (fzero OB) = fzero OE;
  emb_one : emb (fone OB) = fone OE;
  emb_add : forall x y, emb (fadd OB x y) = fadd OE (emb x) (emb y);
  emb_sub : forall x y, emb (fsub OB x y) = fsub OE (emb x) (emb y);
  emb_mul : forall x y, emb (fmul OB x y) = fmul OE (emb x) (emb y);
  emb_inj : forall x y, emb x = emb y -> x = y;
  emb_mul_base : forall x b, mul_base x b = fmul OE x (emb b)
}.

Section Transport.
Context {B E : Type} (OB : FOps B) (OE : FOps E) (LB : FLaws OB) (LE : FLaws OE).
Variable emb : B -> E.
Variable mul_base : E -> B -> E.
Hypothesis H : Emb OB OE emb mul_base.
Add Field FE : (FLaws_field_theory OE LE).

Lemma emb_nonzero b : b <> fzero OB -> emb b <> fzero OE.
Proof. intros Hb E0. apply Hb. apply (emb_inj _ _ _ _ H). now rewrite (emb_zero _ _ _ _ H). Qed.

(* inversion (with inv 0 = 0 on both sides) commutes with the embedding *)
Lemma emb_inv b : emb (finv OB b) = finv OE (emb b).
Proof.
  destruct (feqb OB b (fzero OB)) eqn:Eb.
  - apply (fl_eqb_spec OB LB) in Eb. subst b. rewrite (fl_inv_0 OB LB), (emb_zero _ _ _ _ H), (fl_inv_0 OE LE). reflexivity.
  - assert (Hb : b <> fzero OB) by (intros E0; apply (fl_eqb_spec OB LB) in E0; congruence).
    pose proof (emb_nonzero b Hb) as Hnz.
    assert (E1 : fmul OE (emb (finv OB b)) (emb b) = fone OE)
      by (rewrite <- (emb_mul _ _ _ _ H), (fl_inv_l OB LB b Hb); apply (emb_one _ _ _ _ H)).
    transitivity (fmul OE (fmul OE (emb (finv OB b)) (emb b)) (finv OE (emb b))); [field; exact Hnz | rewrite E1; ring].
Qed.

Lemma emb_div x y : emb (fdiv OB x y) = fdiv OE (emb x) (emb y).
Proof. now rewrite (fl_div_def OB LB), (fl_div_def OE LE), (emb_mul _ _ _ _ H), emb_inv. Qed.

Lemma emb_cpow x k : emb (cpow OB x k) = cpow OE (emb x) k.
Proof. induction k; simpl; [apply (emb_one _ _ _ _ H) | now rewrite (emb_mul _ _ _ _ H), IHk]. Qed.

Lemma emb_peval p x : emb (peval OB p x) = peval OE (map emb p) (emb x).
Proof.
  induction p; simpl; [apply (emb_zero _ _ _ _ H)|].
  now rewrite (emb_add _ _ _ _ H), (emb_mul _ _ _ _ H), IHp.
Qed.

Lemma emb_horner p x : emb (horner OB p x) = horner OE (map emb p) (emb x).
Proof. now rewrite (horner_peval OB LB), (horner_peval OE LE), emb_peval. Qed.

(* polynom::eval::<B, E> is the E-polynomial with embedded coefficients (cf. C20_eval_mixed_spec) *)
Lemma horner_mixed_spec p x : horner_mixed OE emb p x = horner OE (map emb p) x.
Proof.
  unfold horner_mixed, horner. rewrite <- map_rev. generalize (fzero OE). induction (rev p); intros a0; simpl; [reflexivity | apply IHl].
Qed.

Lemma emb_power_series_from b : forall k cur,
  map emb (power_series_from OB cur b k) = power_series_from OE (emb cur) (emb b) k.
Proof. induction k; intros cur; simpl; [reflexivity|]. now rewrite IHk, (emb_mul _ _ _ _ H). Qed.

Lemma emb_eval_poly_with_offset (rouB : nat -> B) p off blowup :
  map emb (eval_poly_with_offset OB rouB p off blowup)
  = eval_poly_with_offset OE (fun m => emb (rouB m)) (map emb p) (emb off) blowup.
Proof.
  unfold eval_poly_with_offset, power_series. rewrite map_length, map_map.
  rewrite <- (emb_one _ _ _ _ H), <- emb_power_series_from, map_map.
  apply map_ext. intros w. now rewrite emb_peval, (emb_mul _ _ _ _ H).
Qed.

Lemma emb_ce_x n ceb offset (rouB : nat -> B) step :
  emb (ce_x OB n ceb offset rouB step) = ce_x OE n ceb (emb offset) (fun m => emb (rouB m)) step.
Proof. unfold ce_x, wce. now rewrite (emb_mul _ _ _ _ H), emb_cpow. Qed.

(* ---------------------------------------------------------------- the mixed operations *)
Theorem lincomb_mixed_embeds evals coefs :
  lincomb_mixed OE mul_base evals coefs = lincomb OE (map emb evals) coefs.
Proof.
  unfold lincomb_mixed, lincomb. generalize (fzero OE). revert coefs.
  induction evals as [|e t IH]; intros [|c cs] a0; simpl; try reflexivity.
  rewrite (emb_mul_base _ _ _ _ H). apply IH.
Qed.

Theorem single_eval_mixed_embeds col value cc state :
  single_eval_mixed OB mul_base col value cc state = single_eval OE (mkSC col (emb value) cc) (map emb state).
Proof.
  unfold single_eval_mixed, single_eval. cbn [sc_col sc_value sc_cc]. rewrite nth_error_map.
  destruct (nth_error state col); cbn [option_map]; [|reflexivity].
  now rewrite (emb_mul_base _ _ _ _ H), (emb_sub _ _ _ _ H).
Qed.

Theorem small_eval_mixed_embeds col poly xoff cc state x :
  small_eval_mixed OB mul_base col poly xoff cc state x
  = small_eval OE (mkPC col (map emb poly) (emb xoff) cc) (map emb state) (emb x).
Proof.
  unfold small_eval_mixed, small_eval. cbn [pc_col pc_poly pc_xoff pc_cc]. rewrite nth_error_map.
  destruct (nth_error state col); cbn [option_map]; [|reflexivity].
  now rewrite (emb_mul_base _ _ _ _ H), (emb_sub _ _ _ _ H), emb_horner, (emb_mul _ _ _ _ H).
Qed.

Theorem large_eval_mixed_embeds col values so cc state step :
  large_eval_mixed OB mul_base col values so cc state step
  = large_eval OE (mkLC col (map emb values) so cc) (map emb state) step.
Proof.
  unfold large_eval_mixed, large_eval, large_value_index. cbn [lc_col lc_values lc_step_offset lc_cc].
  rewrite !nth_error_map, map_length.
  destruct (nth_error state col); cbn [option_map]; [|reflexivity].
  destruct (nth_error values _); cbn [option_map]; [|reflexivity].
  now rewrite (emb_mul_base _ _ _ _ H), (emb_sub _ _ _ _ H).
Qed.

Theorem acc_column_mixed_embeds acc value z e :
  acc_boundary_mixed OE mul_base acc value z = fadd OE acc (fmul OE value (emb z))
  /\ acc_transition_mixed OB OE mul_base acc value z e = fadd OE acc (fmul OE value (fmul OE (emb z) (emb e))).
Proof.
  unfold acc_boundary_mixed, acc_transition_mixed.
  now rewrite !(emb_mul_base _ _ _ _ H), (emb_mul _ _ _ _ H).
Qed.

Theorem bc_evaluate_at_mixed_embeds col first poly xoff cc x tv :
  bc_evaluate_at_mixed OB OE emb poly xoff x tv = bc_evaluate_at OE (mkBC col (map emb poly) first (emb xoff) cc) x tv.
Proof.
  unfold bc_evaluate_at_mixed, bc_evaluate_at, bc_value_at. cbn [bc_poly bc_xoff]. rewrite map_length.
  destruct (length poly =? 1) eqn:El.
  - f_equal. apply Nat.eqb_eq in El. destruct poly as [|v [|]]; simpl in El; try lia. reflexivity.
  - now rewrite horner_mixed_spec.
Qed.

Theorem periodic_at_mixed_embeds n ppolys x :
  periodic_at_mixed OE emb n ppolys x = periodic_at OE n (map (map emb) ppolys) x.
Proof.
  unfold periodic_at_mixed, periodic_at. rewrite map_map. apply map_ext. intros p.
  now rewrite horner_mixed_spec, map_length.
Qed.

Theorem mixed_ops_are_embedded :
  (forall b, emb (finv OB b) = finv OE (emb b))
  /\ (forall p x, emb (peval OB p x) = peval OE (map emb p) (emb x))
  /\ (forall p x, horner_mixed OE emb p x = horner OE (map emb p) x)
  /\ (forall (rouB : nat -> B) p off blowup,
        map emb (eval_poly_with_offset OB rouB p off blowup)
        = eval_poly_with_offset OE (fun m => emb (rouB m)) (map emb p) (emb off) blowup)
  /\ (forall n ceb offset (rouB : nat -> B) step,
        emb (ce_x OB n ceb offset rouB step) = ce_x OE n ceb (emb offset) (fun m => emb (rouB m)) step)
  /\ (forall evals coefs, lincomb_mixed OE mul_base evals coefs = lincomb OE (map emb evals) coefs)
  /\ (forall col value cc state,
        single_eval_mixed OB mul_base col value cc state = single_eval OE (mkSC col (emb value) cc) (map emb state))
  /\ (forall col poly xoff cc state x,
        small_eval_mixed OB mul_base col poly xoff cc state x
        = small_eval OE (mkPC col (map emb poly) (emb xoff) cc) (map emb state) (emb x))
  /\ (forall col values so cc state step,
        large_eval_mixed OB mul_base col values so cc state step
        = large_eval OE (mkLC col (map emb values) so cc) (map emb state) step)
  /\ (forall acc value z e,
        acc_boundary_mixed OE mul_base acc value z = fadd OE acc (fmul OE value (emb z))
        /\ acc_transition_mixed OB OE mul_base acc value z e = fadd OE acc (fmul OE value (fmul OE (emb z) (emb e))))
  /\ (forall col first poly xoff cc x tv,
        bc_evaluate_at_mixed OB OE emb poly xoff x tv = bc_evaluate_at OE (mkBC col (map emb poly) first (emb xoff) cc) x tv)
  /\ (forall n ppolys x, periodic_at_mixed OE emb n ppolys x = periodic_at OE n (map (map emb) ppolys) x).
Proof.
  repeat split; intros.
  - apply emb_inv.
  - apply emb_peval.
  - apply horner_mixed_spec.
  - apply emb_eval_poly_with_offset.
  - apply emb_ce_x.
  - apply lincomb_mixed_embeds.
  - apply single_eval_mixed_embeds.
  - apply small_eval_mixed_embeds.
  - apply large_eval_mixed_embeds.
  - destruct (acc_column_mixed_embeds acc value z e); assumption.
  - destruct (acc_column_mixed_embeds acc value z e); assumption.
  - apply bc_evaluate_at_mixed_embeds.
  - apply periodic_at_mixed_embeds.
Qed.

(* ---------------------------------------------------------------- a single-field theorem transported: the three mixed
   representations of a MAIN boundary constraint (state, x, polynomial in B; coefficient in E) all equal
   cc * BoundaryConstraint::evaluate_at over E on the embedded data, at every ce step *)
Section BoundaryExt.
Variable n ceb : nat.
Variable offset : B.
Variable rouB : nat -> B.
Hypothesis n_pos : n <> 0.
Hypothesis ceb_pos : ceb <> 0.
Hypothesis wce_order : cpow OB (rouB (n * ceb)) (n * ceb) = fone OB.
Hypothesis gtrace_compat : cpow OB (rouB (n * ceb)) ceb = rouB n.
Variable ginv : B.
Hypothesis ginv_spec : fmul OB ginv (rouB n) = fone OB.
Variables (col first : nat) (poly : list B) (cc : E) (state : list B) (s : B).
Hypothesis state_col : nth_error state col = Some s.
Hypothesis poly_nonempty : length poly <> 0.
Hypothesis first_lt : first < n.
Hypothesis len_div : length poly * (n * ceb / length poly) = n * ceb.

Theorem boundary_repr_equiv_ext : forall step, step < n * ceb ->
  let xB := ce_x OB n ceb offset rouB step in
  let spec := Some (fmul OE cc (bc_evaluate_at_mixed OB OE emb poly (cpow OB ginv first) (emb xB) (emb s))) in
  small_eval_mixed OB mul_base col poly (cpow OB ginv first) cc state xB = spec
  /\ large_eval_mixed OB mul_base col (eval_poly_with_offset OB rouB poly offset (n * ceb / length poly)) (first * ceb) cc state step = spec
  /\ (length poly = 1 -> single_eval_mixed OB mul_base col (nth 0 poly (fzero OB)) cc state = spec).
Proof.
  intros step Hstep xB spec. unfold spec, xB.
  rewrite small_eval_mixed_embeds, large_eval_mixed_embeds, single_eval_mixed_embeds.
  rewrite (bc_evaluate_at_mixed_embeds col first _ _ cc), emb_ce_x, emb_eval_poly_with_offset, emb_cpow.
  set (cE := mkBC col (map emb poly) first (cpow OE (emb ginv) first) cc).
  pose proof (boundary_repr_equiv OE LE n ceb (emb offset) (fun m => emb (rouB m)) n_pos ceb_pos) as T.
  specialize (T ltac:(unfold wce, ce_size; rewrite <- emb_cpow, wce_order; apply (emb_one _ _ _ _ H))).
  specialize (T ltac:(unfold wce, ce_size, gtrace; rewrite <- emb_cpow, gtrace_compat; reflexivity)).
  specialize (T (emb ginv) ltac:(unfold gtrace; rewrite <- (emb_mul _ _ _ _ H), ginv_spec; apply (emb_one _ _ _ _ H))).
  specialize (T cE (map emb state) (emb s)).
  specialize (T ltac:(cbn [cE bc_col]; rewrite nth_error_map, state_col; reflexivity)).
  specialize (T ltac:(cbn [cE bc_poly]; now rewrite map_length) eq_refl first_lt).
  specialize (T ltac:(cbn [cE bc_poly]; rewrite map_length; exact len_div) step Hstep).
  destruct T as [T1 [T2 T3]]. unfold bc_spec in *. unfold small_new, large_new, single_new in *.
  cbn [cE bc_col bc_poly bc_first bc_xoff bc_cc] in *. rewrite map_length in *.
  split; [exact T1|]. split; [exact T2|].
  intros Hl. rewrite <- (T3 Hl). f_equal. f_equal.
  destruct poly as [|v0 [|]]; simpl in Hl; try lia. reflexivity.
Qed.
End BoundaryExt.
End Transport.
