(* The hand-written integer-level model (Model/Enforce.v) EQUALS the Gallina that rs2v regenerates from
   air/src/air/assertions/mod.rs on every run (Gen/Assertions.v), on usize arguments.  With these equalities the
   theorems of Proofs/EnforceSteps.v are statements about the generated code.
   Generated functions come in pairs: `f` (value, wrapping arithmetic) and `f_ok` (no checked operation / assert! /
   unwrap fails = the debug build does not panic).  The model folds both into one option / VRes result. *)
From Coq Require Import ZArith List Bool Lia.
From VBase Require Import MachInt.
From VGen Require Assertions.
From VModel Require Import Enforce.
From VProofs Require Import EnforceSteps.
Open Scope Z_scope.

Definition to_gen (a : Assertion) : Assertions.GAssertion :=
  Assertions.mkGAssertion (a_col a) (a_first a) (a_stride a) (a_nvals a).
Definition of_gen (g : Assertions.GAssertion) : Assertion :=
  mkA (Assertions.ga_column g) (Assertions.ga_first_step g) (Assertions.ga_stride g) (Assertions.ga_values g).

Lemma of_to_gen a : of_gen (to_gen a) = a. Proof. destruct a; reflexivity. Qed.
Lemma to_of_gen g : to_gen (of_gen g) = g. Proof. destruct g; reflexivity. Qed.

Definition usize (x : Z) : Prop := 0 <= x < 2 ^ 64.
Definition usize_a (a : Assertion) : Prop :=
  usize (a_col a) /\ usize (a_first a) /\ usize (a_stride a) /\ usize (a_nvals a).

Lemma gen_is_pow2 x : Assertions.is_pow2 x = is_pow2 x.
Proof. reflexivity. Qed.

Lemma gen_is_single a : Assertions.assertions_is_single (to_gen a) = is_single a.
Proof. reflexivity. Qed.

Lemma gen_is_periodic a : Assertions.assertions_is_periodic (to_gen a) = is_periodic a.
Proof. reflexivity. Qed.

Lemma gen_is_sequence a : Assertions.assertions_is_sequence (to_gen a) = is_sequence a.
Proof.
  unfold Assertions.assertions_is_sequence, is_sequence, Assertions.vec_len. cbn [to_gen Assertions.ga_values].
  apply Z.gtb_ltb.
Qed.

Lemma gen_validate_stride stride first col :
  Assertions.assertions_validate_stride_ok stride first col = validate_stride stride first.
Proof.
  unfold Assertions.assertions_validate_stride_ok, validate_stride,
    Assertions.assertions_MIN_STRIDE_LENGTH, MIN_STRIDE_LENGTH.
  change (Assertions.is_pow2 stride) with (is_pow2 stride). rewrite Z.geb_leb, andb_assoc. reflexivity.
Qed.

Theorem gen_single col step :
  mk_single col step = Some (of_gen (Assertions.assertions_single col step tt)).
Proof. reflexivity. Qed.

Theorem gen_periodic col first stride :
  mk_periodic col first stride =
  if Assertions.assertions_periodic_ok col first stride tt
  then Some (of_gen (Assertions.assertions_periodic col first stride tt)) else None.
Proof.
  unfold mk_periodic, Assertions.assertions_periodic_ok. rewrite gen_validate_stride.
  destruct (validate_stride stride first); reflexivity.
Qed.

(* `values` is the vector, represented by its length *)
Theorem gen_sequence col first stride nvals :
  mk_sequence col first stride nvals =
  if Assertions.assertions_sequence_ok col first stride nvals
  then Some (of_gen (Assertions.assertions_sequence col first stride nvals)) else None.
Proof.
  unfold mk_sequence, Assertions.assertions_sequence_ok, Assertions.assertions_sequence,
    Assertions.vec_is_empty, Assertions.vec_len, Assertions.assertions_NO_STRIDE, NO_STRIDE.
  rewrite gen_validate_stride. change (Assertions.is_pow2 nvals) with (is_pow2 nvals).
  destruct (validate_stride stride first); cbn [andb]; [|reflexivity].
  destruct (negb (nvals =? 0)); cbn [andb]; [|reflexivity].
  destruct (is_pow2 nvals); reflexivity.
Qed.

(* the leaf `(first_b - first_a) % stride == 0` of overlaps_with: the model's checked `-` and `%` against the generated
   wrapping value and its side condition *)
Lemma rem_leaf x y d : 0 <= y -> x < 2 ^ 64 -> (y <? x) = true ->
  rem_is_zero x y d =
  if andb (in_u 64 (x - y)) (negb (d =? 0)) then Some (Z.modulo (wrap 64 (x - y)) d =? 0) else None.
Proof.
  intros Hy Hx Hlt. apply Z.ltb_lt in Hlt.
  unfold rem_is_zero, checked_sub, checked_rem, in_u, wrap.
  replace (x <? y) with false by (symmetry; apply Z.ltb_ge; lia).
  replace (0 <=? x - y) with true by (symmetry; apply Z.leb_le; lia).
  replace (x - y <? 2 ^ 64) with true by (symmetry; apply Z.ltb_lt; lia).
  rewrite (Z.mod_small (x - y) (2 ^ 64)) by lia. cbn [andb].
  destruct (d =? 0); reflexivity.
Qed.

Theorem gen_overlaps_with a b : usize_a a -> usize_a b ->
  overlaps_with a b =
  if Assertions.assertions_overlaps_with_ok (to_gen a) (to_gen b)
  then Some (Assertions.assertions_overlaps_with (to_gen a) (to_gen b)) else None.
Proof.
  intros (_ & Hfa & _ & _) (_ & Hfb & _ & _). unfold usize in *.
  unfold overlaps_with, Assertions.assertions_overlaps_with_ok, Assertions.assertions_overlaps_with.
  rewrite !gen_is_single. cbn [to_gen Assertions.ga_column Assertions.ga_first_step Assertions.ga_stride].
  destruct (negb (a_col a =? a_col b)); [reflexivity|].
  destruct (Z.eqb_spec (a_first a) (a_first b)) as [Ef|Ef]; [reflexivity|].
  destruct (a_stride a =? a_stride b); [reflexivity|].
  destruct (Z.ltb_spec (a_first a) (a_first b)) as [Hlt|Hge].
  - destruct (is_single a); [reflexivity|].
    destruct (is_single b || (a_stride a <? a_stride b)); [|reflexivity].
    apply rem_leaf; [lia|lia|apply Z.ltb_lt; lia].
  - destruct (is_single b); [reflexivity|].
    destruct (is_single a || (a_stride b <? a_stride a)); [|reflexivity].
    apply rem_leaf; [lia|lia|apply Z.ltb_lt; lia].
Qed.

Theorem gen_validate_trace_width a w :
  Assertions.assertions_validate_trace_width (to_gen a) w =
  if validate_trace_width a w then Some tt else None.
Proof.
  unfold Assertions.assertions_validate_trace_width, validate_trace_width.
  cbn [to_gen Assertions.ga_column]. rewrite Z.geb_leb. destruct (w <=? a_col a); reflexivity.
Qed.

(* the payload `(first_step + 1).next_power_of_two()` of TraceLengthTooShort fits usize iff first_step + 1 <= 2^63 *)
Lemma next_pow2_fits f : 0 <= f < 2 ^ 64 ->
  andb (in_u 64 (f + 1)) (in_u 64 (Assertions.next_pow2 (wrap 64 (f + 1)))) = negb (2 ^ 63 <? f + 1).
Proof.
  intros Hf. unfold in_u at 1.
  replace (0 <=? f + 1) with true by (symmetry; apply Z.leb_le; lia). cbn [andb].
  destruct (Z.ltb_spec (f + 1) (2 ^ 64)) as [Hlt|Hge].
  - unfold wrap. rewrite Z.mod_small by lia. unfold Assertions.next_pow2.
    destruct (Z.leb_spec (f + 1) 1) as [H1|H1].
    + replace (2 ^ 63 <? f + 1) with false by (symmetry; apply Z.ltb_ge; lia). reflexivity.
    + pose proof (Z.log2_up_le_pow2 (f + 1) 63 ltac:(lia)) as Hl.
      pose proof (Z.log2_up_nonneg (f + 1)) as Hn.
      unfold in_u. destruct (Z.ltb_spec (2 ^ 63) (f + 1)) as [Hbig|Hsmall]; cbn [negb].
      * assert (64 <= Z.log2_up (f + 1)) by (destruct (Z.le_gt_cases (Z.log2_up (f + 1)) 63); [apply Hl in H; lia|lia]).
        assert (2 ^ 64 <= 2 ^ Z.log2_up (f + 1)) by (apply Z.pow_le_mono_r; lia).
        replace (2 ^ Z.log2_up (f + 1) <? 2 ^ 64) with false by (symmetry; apply Z.ltb_ge; lia).
        apply andb_false_r.
      * assert (Z.log2_up (f + 1) <= 63) by (apply Hl; lia).
        assert (2 ^ Z.log2_up (f + 1) <= 2 ^ 63) by (apply Z.pow_le_mono_r; lia).
        assert (0 < 2 ^ Z.log2_up (f + 1)) by (apply Z.pow_pos_nonneg; lia).
        replace (0 <=? 2 ^ Z.log2_up (f + 1)) with true by (symmetry; apply Z.leb_le; lia).
        replace (2 ^ Z.log2_up (f + 1) <? 2 ^ 64) with true by (symmetry; apply Z.ltb_lt; lia).
        reflexivity.
  - replace (2 ^ 63 <? f + 1) with true by (symmetry; apply Z.ltb_lt; lia). reflexivity.
Qed.

(* the debug build panics (overflow while computing) exactly where the model says VOverflow *)
Theorem gen_validate_trace_length_ok a n : usize_a a ->
  Assertions.assertions_validate_trace_length_ok (to_gen a) n =
  match validate_trace_length a n with VOverflow => false | _ => true end.
Proof.
  intros (_ & Hf & Hs & Hv). unfold usize in *.
  unfold Assertions.assertions_validate_trace_length_ok, validate_trace_length, USIZE_MAX1.
  change (Assertions.is_pow2 n) with (is_pow2 n). rewrite gen_is_single, gen_is_periodic.
  cbn [to_gen Assertions.ga_first_step Assertions.ga_stride Assertions.ga_values]. unfold Assertions.vec_len.
  destruct (negb (is_pow2 n)); [reflexivity|].
  destruct (is_single a).
  - rewrite Z.geb_leb. destruct (n <=? a_first a); [|reflexivity].
    rewrite next_pow2_fits by lia. destruct (2 ^ 63 <? a_first a + 1); reflexivity.
  - destruct (is_periodic a).
    + destruct (n <? a_stride a); reflexivity.
    + unfold in_u. replace (0 <=? a_nvals a * a_stride a) with true by (symmetry; apply Z.leb_le; nia).
      cbn [andb]. rewrite Z.ltb_antisym.
      destruct (2 ^ 64 <=? a_nvals a * a_stride a); cbn [negb]; [reflexivity|].
      destruct (a_nvals a * a_stride a =? n); reflexivity.
Qed.

(* where it does not panic, the answer (Ok / Err) is the model's *)
Theorem gen_validate_trace_length a n : usize_a a -> validate_trace_length a n <> VOverflow ->
  Assertions.assertions_validate_trace_length (to_gen a) n =
  match validate_trace_length a n with VOk => Some tt | _ => None end.
Proof.
  intros (_ & Hf & Hs & Hv). unfold usize in *.
  unfold Assertions.assertions_validate_trace_length, validate_trace_length, USIZE_MAX1.
  change (Assertions.is_pow2 n) with (is_pow2 n). rewrite gen_is_single, gen_is_periodic.
  cbn [to_gen Assertions.ga_first_step Assertions.ga_stride Assertions.ga_values]. unfold Assertions.vec_len.
  destruct (negb (is_pow2 n)); [reflexivity|].
  destruct (is_single a).
  - rewrite Z.geb_leb. destruct (n <=? a_first a); [|reflexivity].
    destruct (2 ^ 63 <? a_first a + 1); reflexivity.
  - destruct (is_periodic a).
    + rewrite Z.gtb_ltb. destruct (n <? a_stride a); reflexivity.
    + destruct (Z.leb_spec (2 ^ 64) (a_nvals a * a_stride a)) as [Hov|Hin]; [congruence|]. intros _.
      unfold wrap. rewrite Z.mod_small by nia.
      destruct (a_nvals a * a_stride a =? n); reflexivity.
Qed.

Theorem gen_get_num_steps a n : usize_a a ->
  get_num_steps a n =
  if Assertions.assertions_get_num_steps_ok (to_gen a) n
  then Some (Assertions.assertions_get_num_steps (to_gen a) n) else None.
Proof.
  intros Hu. unfold get_num_steps, Assertions.assertions_get_num_steps_ok, Assertions.assertions_get_num_steps.
  rewrite (gen_validate_trace_length_ok a n Hu), gen_is_single, gen_is_periodic.
  cbn [to_gen Assertions.ga_stride Assertions.ga_values]. unfold Assertions.vec_len.
  destruct (validate_trace_length a n) eqn:V; cbn [andb]; try reflexivity;
    rewrite (gen_validate_trace_length a n Hu) by congruence; rewrite V; cbn [Assertions.opt_is_some andb]; try reflexivity.
  destruct (is_single a); [reflexivity|].
  destruct (is_periodic a) eqn:P; [|reflexivity].
  unfold is_periodic, NO_STRIDE in P. apply andb_true_iff in P. destruct P as [P _]. rewrite P. reflexivity.
Qed.

(* overlaps_iff restated on the generated code: the regenerated overlaps_with does not panic on assertions valid for a common length and answers true exactly
   when they name a common cell *)
Theorem gen_overlaps_iff a b n : usize_a a -> usize_a b -> valid a n -> valid b n ->
  Assertions.assertions_overlaps_with_ok (to_gen a) (to_gen b) = true /\
  (Assertions.assertions_overlaps_with (to_gen a) (to_gen b) = true <->
   a_col a = a_col b /\ exists s, In s (steps a n) /\ In s (steps b n)).
Proof.
  intros Ua Ub Va Vb. destruct (overlaps_iff a b n Va Vb) as [Ht Hf].
  rewrite (gen_overlaps_with a b Ua Ub) in Ht, Hf.
  destruct (Assertions.assertions_overlaps_with_ok (to_gen a) (to_gen b)).
  - split; [reflexivity|]. rewrite <- Ht. split; [intros ->; reflexivity|intros [= ->]; reflexivity].
  - exfalso. assert (Hn : ~ common_cell a b n) by (intros H; apply Ht in H; discriminate).
    apply Hf in Hn. discriminate.
Qed.
