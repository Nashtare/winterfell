(* Proofs/UntrustedParse.v — stage 1 of C06: Proof::from_bytes on arbitrary bytes.
   Lifts the C12 reader theorems (Proofs/CodecTotal.v) to [parse], and records what every successfully parsed proof
   satisfies ([proof_inv]): the facts the later stages rely on. *)
From VBase Require Import MachInt.
From VModel Require Import Codec Untrusted.
From VProofs Require Import CodecTypes CodecTotal.
Open Scope Z_scope.

Lemma llen_nonneg {T} (l : list T) : 0 <= llen l.
Proof. unfold llen. lia. Qed.

Lemma safe_conj {A} (P Q : A -> Prop) r : safeP P r -> safeP Q r -> safeP (fun a => P a /\ Q a) r.
Proof.
  intros HP HQ bs Hbs. specialize (HP bs Hbs). specialize (HQ bs Hbs).
  destruct (r bs) as [[a rest]| |]; auto. destruct HP, HQ. auto.
Qed.

Definition queries_ok (q : Queries) : Prop := is_bytes (q_paths q) /\ is_bytes (q_values q).
Definition ood_ok (f : OodFrame) : Prop := is_bytes (ood_trace_states f) /\ is_bytes (ood_lagrange f) /\ is_bytes (ood_evaluations f).
Definition layer_ok (l : FriProofLayer) : Prop := is_bytes (fl_values l) /\ is_bytes (fl_paths l).
Definition fri_ok (f : FriProof) : Prop :=
  Forall layer_ok (fri_layers f) /\ is_bytes (fri_remainder f) /\ 0 <= fri_num_partitions f < 64.

Definition context_ok (c : Context) : Prop :=
  wf_TraceInfo (ctx_trace_info c) /\ wf_ProofOptions (ctx_options c) /\ 1 <= len (ctx_modulus c) <= 255 /\
  Context_new (ctx_modulus c) (ctx_trace_info c) (ctx_options c) = Ok c.

Definition proof_inv0 (p : Proof) : Prop :=
  context_ok (pr_context p) /\
  0 <= pr_num_unique_queries p < 256 /\
  is_bytes (pr_commitments p) /\
  Forall queries_ok (pr_trace_queries p) /\
  llen (pr_trace_queries p) = ti_num_segments (ctx_trace_info (pr_context p)) /\
  queries_ok (pr_constraint_queries p) /\
  ood_ok (pr_ood_frame p) /\
  fri_ok (pr_fri_proof p).

Definition proof_inv (p : Proof) : Prop :=
  proof_inv0 p /\ is_bytes (ti_meta (ctx_trace_info (pr_context p))).

Lemma read_Queries_ok : safeP queries_ok read_Queries.
Proof.
  unfold read_Queries. eapply safe_bind; [apply safe_read_blob|]. intros v Hv.
  eapply safe_bind; [apply safe_read_blob|]. intros p Hp. apply safe_ret. split; assumption.
Qed.

Lemma read_OodFrame_ok : safeP ood_ok read_OodFrame.
Proof.
  unfold read_OodFrame. eapply safe_bind; [apply safe_read_blob|]. intros t Ht.
  eapply safe_bind; [apply safe_read_blob|]. intros l Hl.
  eapply safe_bind; [apply safe_read_blob|]. intros e He. apply safe_ret. repeat split; assumption.
Qed.

Lemma read_FriProofLayer_ok : safeP layer_ok read_FriProofLayer.
Proof.
  unfold read_FriProofLayer. eapply safe_bind; [apply (safe_read_uint 4)|]. intros n _.
  apply safe_if; [apply safe_fail|].
  eapply safe_bind; [apply safe_read_slice|]. intros v Hv.
  eapply safe_bind; [apply safe_read_blob|]. intros p Hp. apply safe_ret. split; assumption.
Qed.

Lemma read_FriProof_ok : safeP fri_ok read_FriProof.
Proof.
  unfold read_FriProof. eapply safe_bind; [apply safe_read_u8|]. intros n _.
  eapply safe_bind; [apply (safe_read_many _ _ n read_FriProofLayer_ok)|]. intros layers Hl.
  eapply safe_bind; [apply safe_read_blob|]. intros r Hr.
  eapply safe_bind; [apply safe_read_u8|]. intros np Hnp.
  destruct (np >=? 64) eqn:C; [apply safe_fail|].
  apply safe_ret. rewrite Z.geb_leb in C. apply Z.leb_gt in C. cbv beta in Hnp.
  repeat split; cbn; auto; lia.
Qed.

Theorem read_Proof_inv : safeP proof_inv read_Proof.
Proof.
  unfold read_Proof. eapply safe_bind; [apply (read_Context_with _ read_TraceInfo_safe)|]. intros c [[Ht Hmeta] Hc].
  eapply safe_bind; [apply safe_read_u8|]. intros nuq Hnuq.
  eapply safe_bind; [apply (safe_read_blob 2)|]. intros com Hcom.
  eapply safe_bind; [apply (safe_read_many_len _ _ _ read_Queries_ok)|]. intros tq [Htq Hlen].
  eapply safe_bind; [apply read_Queries_ok|]. intros cq Hcq.
  eapply safe_bind; [apply read_OodFrame_ok|]. intros ood Hood.
  eapply safe_bind; [apply read_FriProof_ok|]. intros fri Hfri.
  eapply safe_bind; [apply (safe_read_uint 8)|]. intros nonce _.
  eapply safe_bind; [apply (safe_read_option _ _ (safe_read_vec_of _ _ safe_read_u8))|]. intros gkr _.
  apply safe_ret. unfold proof_inv, proof_inv0. cbn [pr_context pr_num_unique_queries pr_commitments pr_trace_queries
    pr_constraint_queries pr_ood_frame pr_fri_proof].
  split; [|exact Hmeta].
  split; [exact (conj Ht Hc)|]. split; [exact Hnuq|]. split; [exact Hcom|]. split; [exact Htq|].
  split; [|split; [exact Hcq|split; [exact Hood|exact Hfri]]].
  unfold llen. rewrite Hlen. unfold ti_num_segments. destruct (ti_aux (ctx_trace_info c) >? 0); lia.
Qed.

(* Proof::from_bytes answers Ok or Err on every byte string *)
Theorem parse_total : forall bs, is_bytes bs -> parse bs <> Panic.
Proof.
  intros bs Hbs. unfold parse, parse_prefix. pose proof (read_Proof_no_panic bs Hbs) as H.
  destruct (read_Proof bs) as [[p rest]| |]; [discriminate | discriminate | contradiction].
Qed.

Theorem parse_total' : forall bs, is_bytes bs -> (exists p, parse bs = Ok p) \/ (exists e, parse bs = Err e).
Proof.
  intros bs Hbs. pose proof (parse_total bs Hbs) as H. destruct (parse bs) as [p|e|]; [left; eauto | right; eauto | congruence].
Qed.

Theorem parse_inv : forall bs p, is_bytes bs -> parse bs = Ok p -> proof_inv p.
Proof.
  intros bs p Hbs. unfold parse, parse_prefix. pose proof (read_Proof_inv bs Hbs) as H.
  destruct (read_Proof bs) as [[q rest]| |]; intros E; try discriminate. inversion E; subst. apply H.
Qed.

(* explicit arithmetic content of [context_ok] *)
Lemma context_ok_facts c : context_ok c ->
  let t := ctx_trace_info c in let o := ctx_options c in
  0 < ti_main t /\ 0 <= ti_aux t /\ ti_main t + ti_aux t <= 255 /\ 0 <= ti_rands t <= 255 /\
  8 <= ti_length t /\ is_pow2 (ti_length t) = true /\ ti_length t * po_blowup_factor o <= 2 ^ 32 - 1 /\
  1 <= po_num_queries o <= 255 /\ is_pow2 (po_blowup_factor o) = true /\ 2 <= po_blowup_factor o <= 128 /\
  0 <= po_grinding_factor o <= 32 /\ is_pow2 (po_fri_folding_factor o) = true /\ 2 <= po_fri_folding_factor o <= 16 /\
  0 <= po_fri_remainder_max_degree o <= 255.
Proof.
  intros (Ht & Ho & _ & Hnew). cbv zeta.
  destruct Ht as (main & aux & rands & length_ & meta & Hm & Ha & Hr & Hl & Hti).
  apply TraceInfo_new_inv in Hti. destruct Hti as (H1 & H2 & H3 & H4 & H5 & H6 & H7 & Hteq).
  apply Context_new_inv in Hnew. destruct Hnew as (_ & Hlde & _).
  destruct Ho as (nq & bf & gf & fe & ff & rd & Hnq & Hbf & Hgf & Hff & Hrd & Hpo).
  pose proof (narrow_ProofOptions _ _ _ _ _ _ _ (proj1 Hgf) (proj1 Hrd) Hpo) as Hoeq.
  apply ProofOptions_new_inv in Hpo. destruct Hpo as (O1 & O2 & O3 & O4 & O5 & O6 & O7 & O8 & _).
  rewrite Hteq, Hoeq in *. cbn [ti_main ti_aux ti_rands ti_length po_num_queries po_blowup_factor po_grinding_factor
    po_fri_folding_factor po_fri_remainder_max_degree] in *.
  repeat split; auto; lia.
Qed.
