(* C01 — non-vacuity of `stark_complete_all_stages` (Proofs/StarkFri.v): an instance over Z/17 in which EVERY hypothesis
   holds: roots of unity rou = (1, 16, 4, 2, 6), LDE domain 3*<2> (8 points, blowup 2), trace length 4, constraint
   evaluation domain 3*<2> (8 points), FRI with folding 2, one layer and a 4-point remainder, Merkle model with D = Z. *)
From Coq Require Import List Arith Bool ZArith Lia Ring Field.
From VBase Require Import FieldOps ZpOps.
From VModel Require Import Stark.
From VModel Require FFT Transcript Fri.
From VProofs Require Import NumTheoryFermat NumTheoryPrime ZpLaws ListFacts Pow2Facts StarkPoly StarkDeep StarkComplete StarkInst StarkFri StarkExamples.
From VProofs Require FFTSpec FFTEval FFTOffset TranscriptExamples.
From VProps Require C09.
Import ListNotations.
Open Scope nat_scope.

Definition rouF (k : nat) : Zp 17%Z := match k with 0 => fone O17 | 1 => e17 16%Z | 2 => e17 4%Z | 3 => e17 2%Z | _ => e17 6%Z end.
Definition T4 : list (Zp 17%Z) := [e17 5%Z; fzero O17; fzero O17; fzero O17].     (* one constant column, trace length 4 *)
Definition g4 : Zp 17%Z := e17 4%Z.                                                (* = rouF 2, order 4 *)
Definition coin4 : @Coin (Zp 17%Z) := mkCoin (e17 9%Z) [e17 7%Z] [e17 11%Z] [e17 3%Z; e17 5%Z].
Definition air4 (x : Zp 17%Z) (cur nxt : list (Zp 17%Z)) : Zp 17%Z :=
  fadd O17
    (fmul O17 (fmul O17 (fsub O17 (nth 0 nxt (fzero O17)) (nth 0 cur (fzero O17))) (pprod O17 (exempt O17 g4 4 1) x))
              (finv O17 (fsub O17 (fpow O17 x 4) (fone O17))))
    (fmul O17 (fsub O17 (nth 0 cur (fzero O17)) (e17 5%Z)) (finv O17 (fsub O17 x (fone O17)))).
Definition itw8 : list (Zp 17%Z) := match FFT.get_inv_twiddles O17 4 rouF (2 ^ 3) with Some l => l | None => [] end.
Definition draw4 (c : unit) : unit * Fri.draw_res (Zp 17%Z) := (c, Fri.DrawOk (e17 5%Z)).

Lemma T4_eval x : peval O17 T4 x = e17 5%Z.
Proof. unfold T4. cbn [Stark.peval]. ring. Qed.

Lemma ex_rou_sq : forall k, k < 4 -> fmul O17 (rouF (S k)) (rouF (S k)) = rouF k.
Proof. intros k Hk. do 4 (destruct k as [|k]; [zp_eq|]). lia. Qed.
Lemma ex_rou_1 : rouF 1 = fneg O17 (fone O17). Proof. zp_eq. Qed.
Lemma ex_two : fadd O17 (fone O17) (fone O17) <> fzero O17. Proof. intros E. zp_neq E. Qed.
Lemma ex_offnz : e17 3%Z <> fzero O17. Proof. intros E. zp_neq E. Qed.
Lemma ex_draw : forall c, exists c' a, draw4 c = (c', Fri.DrawOk a). Proof. intros c. exists c, (e17 5%Z). reflexivity. Qed.
Lemma ex_root' : FFTSpec.root_cond O17 3 (rouF 3). Proof. cbn [FFTSpec.root_cond]. zp_eq. Qed.
Lemma ex_get' : FFT.get_inv_twiddles O17 4 rouF (2 ^ 3) = Some itw8.
Proof.
  destruct (C09.C09_get_inv_twiddles _ O17 L17 4 rouF 2 (rouF 3) ltac:(lia) eq_refl ex_root') as (itw' & E & _).
  unfold itw8. rewrite E. reflexivity.
Qed.
Lemma ex_ninv' : fmul O17 (FFTSpec.two_pow_f O17 3) (FFTOffset.n_inv O17 3) = fone O17. Proof. zp_eq. Qed.

Example stark_complete_all_stages_instance :
  exists pf,
    prove O17 Z (Opening Z) (FriProof Z (list (list Z)))
          (commit O17 Z 0%Z Z.add (fun _ => 0%Z) (lde_of O17 rouF (e17 3%Z) 3)) (open_prove O17 Z 0%Z Z.add (fun _ => 0%Z) (lde_of O17 rouF (e17 3%Z) 3))
          (fri_prove O17 rouF 4 (e17 3%Z) Z (fun _ => 0%Z) (Merkle.mtree Z) (list (list Z)) (mt_new' Z 0%Z Z.add) (mt_root' Z 0%Z)
                     (mt_prove_batch' Z 0%Z) unit (fun c _ => c) draw4 1 1 1 3 tt)
          air4 (interp_ce O17 4 itw8 2 (rouF 3) (e17 3%Z))
          (mkParams (2 ^ (3 - 1)) g4 1 false true) (coin_prover (fun _ => coin4) TranscriptExamples.s0) [T4] = Done pf /\
    verify O17 Z (Opening Z) (FriProof Z (list (list Z))) (open_ok O17 Z Z.eqb Z.add (fun _ => 0%Z) (lde_of O17 rouF (e17 3%Z) 3))
           (fri_verify O17 rouF 4 (e17 3%Z) true Z Z.eqb (fun _ => 0%Z) (list (list Z)) (mt_verify_batch' Z Z.eqb Z.add)
                       unit (fun c _ => c) draw4 1 1 1 3 tt)
           air4 (mkParams (2 ^ (3 - 1)) g4 1 false true) (coin_verifier (fun _ => coin4) TranscriptExamples.s0) pf = None.
Proof.
  apply (stark_complete_all_stages O17 L17 Z Z.eqb Z.eqb_eq 0%Z Z.add (fun _ => 0%Z) rouF 4 ltac:(lia) ex_rou_sq ex_rou_1 ex_two
           (e17 3%Z) ex_offnz unit (fun c _ => c) draw4 ex_draw tt (fun _ => coin4) 1 1 1 3 1 ltac:(lia) eq_refl eq_refl ltac:(lia) ltac:(simpl; lia) ltac:(lia) ltac:(lia)
           4 itw8 2 ltac:(lia) ex_root' ex_get' ex_ninv' true air4 1 2 g4 true TranscriptExamples.s0 [T4] 1 [] [([], [fone O17])]).
  all: cbn [coin_prover c_z c_xs coin4].
  - (* primitive_root g4 4 *) split; [zp_eq|]. intros i j Hi Hj E. simpl in Hi, Hj.
    do 4 (destruct i as [|i]; [do 4 (destruct j as [|j]; [first [reflexivity | zp_neq E]|]); lia|]). lia.
  - intros E. zp_neq E.
  - simpl; lia.
  - lia.
  - reflexivity.
  - lia.
  - discriminate.
  - repeat constructor.
  - simpl; lia.
  - intros i _. reflexivity.
  - simpl; lia.
  - constructor; [|constructor]. cbn [fst snd]. split; [repeat constructor; intros []|]. split.
    + intros r [<-|[]]. apply (In_domain O17). exists 0. split; [simpl; lia | reflexivity].
    + split; [intros r _; reflexivity | simpl; lia].
  - intros x _. unfold air4, combined. cbn [evals map nth bsum Stark.peval]. rewrite !T4_eval. ring.
  - intros H. apply (In_domain O17) in H. destruct H as (i & Hi & E). simpl in Hi. do 4 (destruct i as [|i]; [zp_neq E|]). lia.
  - intros E. zp_neq E.
  - intros E. zp_neq E.
  - intros x [<-|[<-|[]]]; unfold lde_of; apply in_map_iff.
    + exists 0. split; [zp_eq | simpl; tauto].
    + exists 6. split; [zp_eq | simpl; tauto].
  - constructor; [intros [E|[]]; zp_neq E | constructor; [intros [] | constructor]].
  - discriminate.
  - simpl; lia.
  - intros x [<-|[<-|[]]]; split; intros E; zp_neq E.
Qed.
