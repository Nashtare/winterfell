(* C10 — basic lemmas for the Merkle model: arithmetic on heap indexes, list access, assoc maps. *)
From Coq Require Import ZArith List Bool Lia.
From VBase Require Import MachInt.
From VModel Require Import Merkle.
From VProofs Require Export ListFacts MachIntFacts.
Import ListNotations.
Open Scope Z_scope.

(* ---------------------------------------------------------------- general facts on Z and lists *)
Lemma Forall2_refl {A} (R : A -> A -> Prop) (l : list A) : (forall a, R a a) -> Forall2 R l l.
Proof. intros H. induction l; constructor; auto. Qed.

Lemma Forall2_trans {A} (R : A -> A -> Prop) (a b c : list A) :
  (forall x y z, R x y -> R y z -> R x z) -> Forall2 R a b -> Forall2 R b c -> Forall2 R a c.
Proof.
  intros T H. revert c. induction H; intros c H2; inversion H2; subst; constructor; eauto.
Qed.

Lemma Forall2_nth {A B} (R : A -> B -> Prop) a b q x :
  Forall2 R a b -> nth_error a q = Some x -> exists y, nth_error b q = Some y /\ R x y.
Proof.
  intros H. revert q. induction H; intros q E; destruct q; simpl in *; try discriminate.
  - injection E as <-. eauto.
  - eauto.
Qed.

Lemma Forall2_len {A B} (R : A -> B -> Prop) a b : Forall2 R a b -> length a = length b.
Proof. induction 1; simpl; congruence. Qed.

Lemma Forall2_of_nth {A B} (R : A -> B -> Prop) : forall (l : list A) (l' : list B), length l = length l' ->
  (forall j a b, nth_error l j = Some a -> nth_error l' j = Some b -> R a b) -> Forall2 R l l'.
Proof.
  induction l as [|a l IH]; intros [|b l'] HL H; try discriminate; constructor.
  - apply (H 0%nat); reflexivity.
  - apply IH; [simpl in HL; lia|]. intros j. apply (H (S j)).
Qed.

Lemma Forall2_map_eq {A B} (g : A -> B) : forall (l : list A) bs, Forall2 (fun a b => b = g a) l bs -> bs = map g l.
Proof. induction 1; cbn [map]; congruence. Qed.

Lemma Forall2_impl_In {A B} (R Q : A -> B -> Prop) : forall l l',
  Forall2 R l l' -> (forall a b, In a l -> R a b -> Q a b) -> Forall2 Q l l'.
Proof.
  induction 1; intros H'; constructor.
  - apply H'; [left; reflexivity|assumption].
  - apply IHForall2. intros a b Ha. apply H'. right. assumption.
Qed.

(* induction with hypotheses for both the tail and the tail's tail: loops that consume one or two elements *)
Lemma list_ind_tl {A} (P : list A -> Prop) :
  P [] -> (forall a r, P r -> P (tl r) -> P (a :: r)) -> forall l, P l.
Proof.
  intros H0 Hc l. enough (P l /\ P (tl l)) by tauto.
  induction l as [|a r [IH1 IH2]]; [auto|]. split; [apply Hc|]; assumption.
Qed.

Lemma match_nonempty {A B} (l : list A) (a b : B) : l <> [] -> match l with [] => a | _ :: _ => b end = b.
Proof. destruct l; [congruence|reflexivity]. Qed.

(* ---------------------------------------------------------------- parity, halves, siblings *)
Lemma shiftr1 x : Z.shiftr x 1 = x / 2.
Proof. rewrite Z.shiftr_div_pow2 by lia. reflexivity. Qed.

(* x = 2 * (x / 2) + x mod 2 with x mod 2 in {0, 1}: what lia needs to reason about halves *)
Ltac zmod x := pose proof (Z.div_mod x 2 ltac:(lia)); pose proof (Z.mod_pos_bound x 2 ltac:(lia)).

Lemma mod2_add_even x n : n mod 2 = 0 -> (x + n) mod 2 = x mod 2.
Proof. intros H. zmod n. replace (x + n) with (x + (n / 2) * 2) by lia. apply Z.mod_add. lia. Qed.

Lemma div2_add_even x n : n mod 2 = 0 -> (x + n) / 2 = x / 2 + n / 2.
Proof. intros H. zmod n. replace (x + n) with (x + (n / 2) * 2) by lia. apply Z.div_add. lia. Qed.

(* i - i mod 2 is the left element of the sibling pair of i (normalize_indexes) *)
Lemma floor2_even i : (i - i mod 2) mod 2 = 0.
Proof. rewrite Zminus_mod_idemp_r, Z.sub_diag. reflexivity. Qed.

Lemma floor2_half i : (i - i mod 2) / 2 = i / 2.
Proof. zmod i. replace (i - i mod 2) with (0 + (i / 2) * 2) by lia. rewrite Z.div_add by lia. reflexivity. Qed.

Lemma lxor1 x : 0 <= x -> Z.lxor x 1 = x + 1 - 2 * (x mod 2).
Proof.
  intros H. rewrite Zmod_odd. destruct x as [|p|p]; [reflexivity| |lia].
  destruct p as [p|p|]; cbn [Z.lxor Pos.lxor Z.of_N Z.odd]; lia.
Qed.

Lemma lxor1_even x : 0 <= x -> x mod 2 = 0 -> Z.lxor x 1 = x + 1.
Proof. intros. rewrite lxor1 by lia. lia. Qed.

Lemma lxor1_odd x : 0 <= x -> x mod 2 = 1 -> Z.lxor x 1 = x - 1.
Proof. intros. rewrite lxor1 by lia. lia. Qed.

Lemma lxor1_div2 x : 0 <= x -> Z.lxor x 1 / 2 = x / 2.
Proof. intros. rewrite lxor1 by lia. zmod x. zmod (x + 1 - 2 * (x mod 2)). lia. Qed.

Lemma lxor1_nonneg x : 0 <= x -> 0 <= Z.lxor x 1.
Proof. intros. rewrite lxor1 by lia. zmod x. lia. Qed.

Lemma lxor1_mod2 x : 0 <= x -> Z.lxor x 1 mod 2 = 1 - x mod 2.
Proof. intros. rewrite lxor1 by lia. zmod x. zmod (x + 1 - 2 * (x mod 2)). lia. Qed.

Lemma lxor1_invol x : 0 <= x -> Z.lxor (Z.lxor x 1) 1 = x.
Proof. intros. rewrite Z.lxor_assoc. change (Z.lxor 1 1) with 0. apply Z.lxor_0_r. Qed.

Lemma lxor1_neq a : 0 <= a -> Z.lxor a 1 <> a.
Proof. intros. rewrite lxor1 by lia. destruct (mod2_cases a); lia. Qed.

Lemma lxor1_add_even x n : 0 <= x -> 0 <= n -> n mod 2 = 0 -> Z.lxor (x + n) 1 = Z.lxor x 1 + n.
Proof. intros. rewrite !lxor1, mod2_add_even by lia. lia. Qed.

(* the sibling of a node below an even bound is below it too (rows of the heap have even length) *)
Lemma lxor1_lt_even x n : 0 <= x < n -> n mod 2 = 0 -> Z.lxor x 1 < n.
Proof. intros. rewrite lxor1 by lia. zmod x. zmod n. lia. Qed.

(* ---------------------------------------------------------------- powers of two *)
Lemma p2_pred l : 1 <= l -> 2 ^ l = 2 * 2 ^ (l - 1).
Proof. intros. rewrite <- p2_succ by lia. f_equal. lia. Qed.

Lemma p2_S (d : nat) : 2 ^ Z.of_nat (S d) = 2 * 2 ^ Z.of_nat d.
Proof. rewrite Nat2Z.inj_succ, Z.pow_succ_r by lia. reflexivity. Qed.

Lemma pow2_even l : 1 <= l -> (2 ^ l) mod 2 = 0 /\ 2 <= 2 ^ l.
Proof.
  intros Hl. rewrite (p2_pred l Hl). pose proof (p2_pos (l - 1) ltac:(lia)).
  split; [rewrite Z.mul_comm; apply Z.mod_mul; lia|lia].
Qed.

(* row l of the heap is [2^l, 2^(l+1)); halving goes one row up *)
Lemma div2_range l k : 0 <= l -> 2 ^ (l + 1) <= k < 2 ^ (l + 2) -> 2 ^ l <= k / 2 < 2 ^ (l + 1).
Proof.
  intros Hl H. replace (l + 2) with (l + 1 + 1) in H by lia. rewrite (p2_succ (l + 1)), (p2_succ l) in * by lia.
  zmod k. lia.
Qed.

Lemma usz_eq : usz = 2 ^ 64.
Proof. reflexivity. Qed.

(* 2^d leaves with d < 64: the heap indexes i + 2^d of the leaves are usize values *)
Lemma pow2_usz d i : d < 64 -> i < 2 ^ d -> i + 2 ^ d < usz.
Proof.
  intros Hd Hi. assert (2 ^ d <= 2 ^ 63) by (apply p2_le_mono; lia).
  rewrite usz_eq. change (2 ^ 64) with (2 * 2 ^ 63). lia.
Qed.

(* ---------------------------------------------------------------- result monad *)
Lemma bind_Ok {A B} (r : res A) (f : A -> res B) b :
  bind r f = Ok b -> exists a, r = Ok a /\ f a = Ok b.
Proof. destruct r; simpl; intros; try discriminate. eauto. Qed.

Lemma bind_not_Panic {A B} (r : res A) (f : A -> res B) :
  r <> Panic -> (forall a, r = Ok a -> f a <> Panic) -> bind r f <> Panic.
Proof. destruct r; simpl; intros; try congruence. apply H0. reflexivity. Qed.

Lemma mapM_Ok_Forall2 {A B} (f : A -> res B) (P : A -> B -> Prop) (l : list A) :
  (forall a, In a l -> exists b, f a = Ok b /\ P a b) -> exists bs, mapM f l = Ok bs /\ Forall2 P l bs.
Proof.
  induction l as [|a r IH]; intros H.
  - exists []. split; [reflexivity|constructor].
  - destruct (H a (or_introl eq_refl)) as (b & Eb & Pb). destruct IH as (bs & Ebs & F); [intros; apply H; right; assumption|].
    exists (b :: bs). cbn [mapM]. rewrite Eb. cbn [bind]. rewrite Ebs. cbn [bind]. split; [reflexivity|constructor; assumption].
Qed.

Lemma mapM_Ok_inv {A B} (f : A -> res B) : forall (l : list A) bs, mapM f l = Ok bs -> Forall2 (fun a b => f a = Ok b) l bs.
Proof.
  induction l as [|a r IH]; intros bs E; cbn [mapM] in E.
  - injection E as <-. constructor.
  - apply bind_Ok in E. destruct E as (b & Eb & E). apply bind_Ok in E. destruct E as (bs' & Ebs & E). injection E as <-.
    constructor; auto.
Qed.

Lemma mapM_map {A B} (f : A -> res B) (g : A -> B) (l : list A) : (forall a, In a l -> f a = Ok (g a)) -> mapM f l = Ok (map g l).
Proof.
  induction l as [|a r IH]; intros H; [reflexivity|]. cbn [mapM map]. rewrite (H a (or_introl eq_refl)). cbn [bind].
  rewrite IH by (intros; apply H; right; assumption). reflexivity.
Qed.

Lemma mapM_ext_Ok {A B} (f g : A -> res B) (l : list A) :
  (forall a, In a l -> exists b, f a = Ok b /\ g a = Ok b) -> mapM g l = mapM f l.
Proof.
  induction l as [|a r IH]; intros H; [reflexivity|]. cbn [mapM].
  destruct (H a (or_introl eq_refl)) as (b & -> & ->). cbn [bind]. rewrite IH by (intros; apply H; right; assumption). reflexivity.
Qed.

(* ---------------------------------------------------------------- zlen / idx / upd *)
Lemma zlen_nonneg {A} (l : list A) : 0 <= zlen l.
Proof. unfold zlen. lia. Qed.

Lemma zlen_cons {A} (a : A) l : zlen (a :: l) = zlen l + 1.
Proof. unfold zlen. simpl length. lia. Qed.

Lemma zlen_app {A} (l1 l2 : list A) : zlen (l1 ++ l2) = zlen l1 + zlen l2.
Proof. unfold zlen. rewrite app_length. lia. Qed.

Lemma zlen_nil {A} : zlen (@nil A) = 0.
Proof. reflexivity. Qed.

Lemma idx_Ok {A} (l : list A) i (d : A) : 0 <= i < zlen l -> idx l i = Ok (nth (Z.to_nat i) l d).
Proof.
  intros H. unfold idx. destruct (Z.ltb_spec i 0); [lia|].
  destruct (nth_error l (Z.to_nat i)) eqn:E.
  - erewrite nth_error_nth by eassumption. reflexivity.
  - apply nth_error_None in E. unfold zlen in H. lia.
Qed.

Lemma idx_inv {A} (l : list A) i x : idx l i = Ok x -> 0 <= i < zlen l /\ nth_error l (Z.to_nat i) = Some x.
Proof.
  unfold idx. destruct (Z.ltb_spec i 0); [discriminate|].
  destruct (nth_error l (Z.to_nat i)) eqn:E; [|discriminate].
  intros [= <-]. split; [|reflexivity].
  assert (Hn : (Z.to_nat i < length l)%nat) by (apply nth_error_Some; congruence). unfold zlen. lia.
Qed.

Lemma idx_not_Err {A} (l : list A) i e : idx l i <> Err e.
Proof. unfold idx. destruct (i <? 0); [discriminate|]. destruct (nth_error _ _); discriminate. Qed.

Lemma idx_not_Panic {A} (l : list A) i : 0 <= i < zlen l -> idx l i <> Panic.
Proof.
  intros H. destruct l as [|a l]; [unfold zlen in H; simpl in H; lia|]. rewrite (idx_Ok _ _ a) by assumption. discriminate.
Qed.

Lemma idx_Panic_iff {A} (l : list A) i : idx l i = Panic <-> ~ (0 <= i < zlen l).
Proof.
  split.
  - intros E H. exact (idx_not_Panic _ _ H E).
  - intros H. unfold idx. destruct (Z.ltb_spec i 0); [reflexivity|].
    destruct (nth_error l (Z.to_nat i)) eqn:E; [|reflexivity].
    exfalso. apply H. assert ((Z.to_nat i < length l)%nat) by (apply nth_error_Some; congruence). unfold zlen. lia.
Qed.

Lemma idx_cons_0 {A} (a : A) l : idx (a :: l) 0 = Ok a.
Proof. reflexivity. Qed.

Lemma idx_cons_S {A} (a : A) l i : 0 < i -> idx (a :: l) i = idx l (i - 1).
Proof.
  intros. unfold idx. destruct (Z.ltb_spec i 0); [lia|]. destruct (Z.ltb_spec (i - 1) 0); [lia|].
  replace (Z.to_nat i) with (S (Z.to_nat (i - 1))) by lia. reflexivity.
Qed.

Lemma upd_nat_spec {A} (l : list A) n x :
  (n < length l)%nat ->
  exists l', upd_nat l n x = Some l' /\ length l' = length l /\
             forall j, nth_error l' j = if Nat.eqb j n then Some x else nth_error l j.
Proof.
  revert n. induction l as [|a l IH]; intros n H; simpl in H; [lia|].
  destruct n as [|n].
  - eexists. split; [reflexivity|]. split; [reflexivity|]. intros [|j]; reflexivity.
  - destruct (IH n) as (l' & E & L & N); [lia|]. simpl. rewrite E. eexists. split; [reflexivity|].
    split; [simpl; lia|]. intros [|j]; [reflexivity|]. simpl. apply N.
Qed.

Lemma upd_nat_None {A} (l : list A) n x : (length l <= n)%nat -> upd_nat l n x = None.
Proof.
  revert n. induction l as [|a l IH]; intros n H; [reflexivity|]. simpl in H. destruct n; [lia|].
  simpl. rewrite IH by lia. reflexivity.
Qed.

Lemma upd_Ok {A} (l : list A) i x :
  0 <= i < zlen l ->
  exists l', upd l i x = Ok l' /\ length l' = length l /\
             forall j, nth_error l' j = if Nat.eqb j (Z.to_nat i) then Some x else nth_error l j.
Proof.
  intros H. unfold upd. destruct (Z.ltb_spec i 0); [lia|].
  destruct (upd_nat_spec l (Z.to_nat i) x) as (l' & E & L & N); [unfold zlen in H; lia|].
  rewrite E. eauto.
Qed.

Lemma upd_inv {A} (l : list A) i x l' :
  upd l i x = Ok l' ->
  0 <= i < zlen l /\ length l' = length l /\
  forall j, nth_error l' j = if Nat.eqb j (Z.to_nat i) then Some x else nth_error l j.
Proof.
  intros E. assert (H : 0 <= i < zlen l).
  { unfold upd in E. destruct (Z.ltb_spec i 0); [discriminate|].
    destruct (Nat.lt_ge_cases (Z.to_nat i) (length l)); [unfold zlen; lia|].
    rewrite upd_nat_None in E by assumption. discriminate. }
  split; [assumption|]. destruct (upd_Ok l i x H) as (l2 & E2 & L & N). rewrite E in E2. injection E2 as <-. auto.
Qed.

Lemma idx_nth_error {A} (l : list A) i x : 0 <= i -> nth_error l (Z.to_nat i) = Some x -> idx l i = Ok x.
Proof. intros Hi E. unfold idx. destruct (Z.ltb_spec i 0); [lia|]. rewrite E. reflexivity. Qed.

Lemma idx_map {A B} (f : A -> B) (l : list A) i x : idx l i = Ok x -> idx (map f l) i = Ok (f x).
Proof.
  unfold idx. destruct (i <? 0); [discriminate|]. rewrite nth_error_map.
  destruct (nth_error l (Z.to_nat i)); [|discriminate]. intros [= ->]. reflexivity.
Qed.

Lemma upd_nat_map {A B} (f : A -> B) (l : list A) n x :
  upd_nat (map f l) n (f x) = match upd_nat l n x with Some l' => Some (map f l') | None => None end.
Proof.
  revert n. induction l as [|a l IH]; intros n; [reflexivity|]. destruct n as [|n]; [reflexivity|].
  simpl. rewrite IH. destruct (upd_nat l n x); reflexivity.
Qed.

Lemma upd_map {A B} (f : A -> B) (l l' : list A) i x : upd l i x = Ok l' -> upd (map f l) i (f x) = Ok (map f l').
Proof.
  unfold upd. destruct (i <? 0); [discriminate|]. rewrite upd_nat_map.
  destruct (upd_nat l (Z.to_nat i) x); [|discriminate]. intros [= ->]. reflexivity.
Qed.

Lemma upd_not_Err {A} (l : list A) i x e : upd l i x <> Err e.
Proof. unfold upd. destruct (i <? 0); [discriminate|]. destruct (upd_nat _ _ _); discriminate. Qed.

Lemma uadd_Ok a b : a + b < usz -> uadd a b = Ok (a + b).
Proof. intros. unfold uadd. destruct (Z.ltb_spec (a + b) usz); [reflexivity|lia]. Qed.

Lemma uadd_pow2 i d : d < 64 -> i < 2 ^ d -> uadd i (2 ^ d) = Ok (i + 2 ^ d).
Proof. intros. apply uadd_Ok, pow2_usz; assumption. Qed.

Lemma uadd_inv a b s : uadd a b = Ok s -> s = a + b /\ a + b < usz.
Proof. unfold uadd. destruct (Z.ltb_spec (a + b) usz); intros [=]. auto. Qed.

Lemma uadd_not_Err a b e : uadd a b <> Err e.
Proof. unfold uadd. destruct (_ <? _); discriminate. Qed.

(* ---------------------------------------------------------------- assoc maps *)
Lemma bt_get_insert_same {X} k (x : X) m : bt_get k (bt_insert k x m) = Some x.
Proof.
  induction m as [|[k' x'] m IH]; simpl.
  - rewrite Z.eqb_refl. reflexivity.
  - destruct (Z.ltb_spec k k'); simpl.
    + rewrite Z.eqb_refl. reflexivity.
    + destruct (Z.eqb_spec k k'); simpl.
      * rewrite Z.eqb_refl. reflexivity.
      * destruct (Z.eqb_spec k k'); [contradiction|]. exact IH.
Qed.

Lemma bt_get_insert_other {X} k k2 (x : X) m : k2 <> k -> bt_get k2 (bt_insert k x m) = bt_get k2 m.
Proof.
  intros N. induction m as [|[k' x'] m IH]; simpl.
  - destruct (Z.eqb_spec k2 k); [contradiction|reflexivity].
  - destruct (Z.ltb_spec k k'); simpl.
    + destruct (Z.eqb_spec k2 k); [contradiction|reflexivity].
    + destruct (Z.eqb_spec k k'); simpl.
      * subst k'. destruct (Z.eqb_spec k2 k); [contradiction|reflexivity].
      * destruct (Z.eqb_spec k2 k'); [reflexivity|]. exact IH.
Qed.

Lemma bt_get_insert {X} k k2 (x : X) m :
  bt_get k2 (bt_insert k x m) = if k2 =? k then Some x else bt_get k2 m.
Proof.
  destruct (Z.eqb_spec k2 k).
  - subst. apply bt_get_insert_same.
  - apply bt_get_insert_other. assumption.
Qed.
