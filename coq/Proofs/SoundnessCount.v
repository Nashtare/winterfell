(* C02 — cardinality form of the ALI counting lemma: over a finite field enumerated by [elems], if some p_j is not
   divisible by d then at most |F|^(k-1) of the |F|^k coefficient vectors make sum_i alpha_i p_i divisible by d. *)
From Coq Require Import List Arith Bool Lia Ring Field.
From VBase Require Import FieldOps.
From VModel Require Import Soundness.
From VProofs Require Import ListFacts SoundnessPoly SoundnessVerifier.
Import ListNotations.

Section Count.
Context {F : Type} (O : FOps F) (L : FLaws O).
Local Notation zero := (fzero O).
Local Notation one := (fone O).
Local Infix "+f" := (fadd O) (at level 50, left associativity).
Local Infix "*f" := (fmul O) (at level 40, left associativity).
Add Ring Fr5 : (FLaws_ring_theory O L).
Local Notation coeff := (coeff O).
Local Notation padd := (padd O).
Local Notation pscale := (pscale O).
Local Notation lincomb := (lincomb O).
Local Notation peqv := (peqv O).
Local Notation pdivides := (pdivides O).

Definition remove_nth {A} (j : nat) (l : list A) : list A := firstn j l ++ skipn (S j) l.

Lemma remove_nth_length {A} j (l : list A) : j < length l -> length (remove_nth j l) = length l - 1.
Proof. intros H. unfold remove_nth. rewrite app_length, firstn_length, skipn_length. lia. Qed.

Lemma upd_nth_split {A} (l : list A) j v : j < length l -> upd_nth l j v = firstn j l ++ v :: skipn (S j) l.
Proof.
  revert j; induction l as [|x l IH]; intros [|j] H; cbn in *; try lia; [reflexivity|].
  f_equal. apply IH. lia.
Qed.

Lemma nth_split_eq {A} (l : list A) j d : j < length l -> l = firstn j l ++ nth j l d :: skipn (S j) l.
Proof.
  revert j; induction l as [|x l IH]; intros [|j] H; cbn in *; try lia; [reflexivity|].
  f_equal. apply IH. lia.
Qed.

(* lists that agree outside position j have the same parts before and after it *)
Lemma remove_nth_parts {A} (a b : list A) j : j < length a -> j < length b ->
  remove_nth j a = remove_nth j b -> firstn j a = firstn j b /\ skipn (S j) a = skipn (S j) b.
Proof. intros Ha Hb Hr. apply app_eq_len; [rewrite !firstn_length; lia | exact Hr]. Qed.

Lemma remove_nth_determines {A} (a b : list A) j d : j < length a -> j < length b ->
  remove_nth j a = remove_nth j b -> nth j a d = nth j b d -> a = b.
Proof.
  intros Ha Hb Hr Hn. destruct (remove_nth_parts a b j Ha Hb Hr) as [E1 E2].
  rewrite (nth_split_eq a j d Ha), (nth_split_eq b j d Hb), E1, E2, Hn. reflexivity.
Qed.

(* the combination splits into the part without coordinate j and alpha_j * p_j *)
Lemma lincomb_split (al : list F) (ps : list (list F)) j : length al = length ps -> j < length ps ->
  peqv (lincomb al ps) (padd (lincomb (upd_nth al j zero) ps) (pscale (nth j al zero) (nth j ps []))).
Proof.
  revert ps j; induction al as [|a al IH]; intros [|p ps] j Hl Hj; cbn in Hl, Hj; try lia.
  destruct j as [|j]; cbn [upd_nth nth Soundness.lincomb]; intros i.
  - rewrite !(coeff_padd O L), !(coeff_pscale O L). ring.
  - rewrite !(coeff_padd O L), (IH ps j ltac:(lia) ltac:(lia) i), !(coeff_padd O L). ring.
Qed.

Variable d : list F.
Variable ps : list (list F).
Variable j : nat.
Hypothesis Hj : j < length ps.
Hypothesis Hbad : ~ pdivides d (nth j ps []).

Definition good (al : list F) : Prop := length al = length ps /\ pdivides d (lincomb al ps).

(* two good vectors that agree outside coordinate j are equal *)
Lemma good_fiber al be : good al -> good be -> remove_nth j al = remove_nth j be -> al = be.
Proof.
  intros [Hla Ha] [Hlb Hb] Hr.
  assert (Hu : upd_nth al j zero = upd_nth be j zero).
  { rewrite !upd_nth_split by lia. destruct (remove_nth_parts al be j ltac:(lia) ltac:(lia) Hr) as [-> ->]. reflexivity. }
  apply (remove_nth_determines al be j zero); try lia; [exact Hr|].
  apply (ali_fiber_unique O L d (lincomb (upd_nth al j zero) ps) (nth j ps [])); [exact Hbad| |].
  - apply (pdivides_peqv O (lincomb al ps)); [apply lincomb_split; lia|exact Ha].
  - rewrite Hu. apply (pdivides_peqv O (lincomb be ps)); [apply lincomb_split; lia|exact Hb].
Qed.

(* all vectors of length m over an enumeration of the field *)
Variable elems : list F.
Hypothesis Hall : forall x, In x elems.

Fixpoint all_vecs (m : nat) : list (list F) :=
  match m with
  | 0 => [[]]
  | S m' => map (fun xv => fst xv :: snd xv) (list_prod elems (all_vecs m'))
  end.

Lemma all_vecs_length m : length (all_vecs m) = length elems ^ m.
Proof. induction m as [|m IH]; cbn [all_vecs Nat.pow]; [reflexivity|]. now rewrite map_length, prod_length, IH. Qed.

Lemma all_vecs_complete v : In v (all_vecs (length v)).
Proof.
  induction v as [|x v IH]; cbn [length all_vecs]; [now left|].
  apply in_map_iff. exists (x, v). split; [reflexivity|]. apply in_prod; [apply Hall|exact IH].
Qed.

(* a family of vectors of length m in which the coordinates other than k determine the k-th one has at most |F|^(m-1)
   members: dropping coordinate k is injective on it *)
Lemma fiber_counting (P : list F -> Prop) (m k : nat) : k < m ->
  (forall al, P al -> length al = m) ->
  (forall al be, P al -> P be -> remove_nth k al = remove_nth k be -> al = be) ->
  forall goods, NoDup goods -> (forall al, In al goods -> P al) -> length goods <= length elems ^ (m - 1).
Proof using Hall.
  intros Hk Hlen Hfib goods Hnd Hg. rewrite <- all_vecs_length, <- (map_length (remove_nth k) goods).
  apply NoDup_incl_length.
  - apply NoDup_map_inj_in; [|exact Hnd]. intros a b Ha Hb E. apply Hfib; auto.
  - intros v Hv. apply in_map_iff in Hv. destruct Hv as [al [<- Hal]].
    pose proof (Hlen al (Hg al Hal)) as Hl.
    rewrite <- Hl, <- (remove_nth_length k al) by (rewrite Hl; exact Hk). apply all_vecs_complete.
Qed.

Theorem ali_counting (goods : list (list F)) :
  NoDup goods -> (forall al, In al goods -> good al) -> length goods <= length elems ^ (length ps - 1).
Proof. apply (fiber_counting good (length ps) j Hj); [now intros al [Hl _] | exact good_fiber]. Qed.

End Count.
