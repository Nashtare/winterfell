(* Proofs/UntrustedVerify.v — stage 3 of C06: verify() on any parsed proof, any public inputs (= any AIR parameters
   satisfying [wfAir]: a supported field, no Lagrange kernel column), any outcome of the value-dependent checks and any numbers of distinct positions never panics — except inside Air::new
   when the proof's context is not the one the AIR was written for (open finding F-C06-air-new-cannot-fail). *)
From VBase Require Import MachInt.
From VModel Require Import Codec Untrusted.
From VProofs Require Import CodecPrim CodecTypes UntrustedParse UntrustedTyped.
Open Scope Z_scope.

Definition vsafe {A} (P : A -> Prop) (x : VRes A) : Prop :=
  match x with VOk a => P a | VErr _ => True | VPanic _ => False end.

Lemma vsafe_bind {A B} (P : A -> Prop) (Q : B -> Prop) (x : VRes A) (f : A -> VRes B) :
  vsafe P x -> (forall a, P a -> vsafe Q (f a)) -> vsafe Q (vbind x f).
Proof. destruct x; cbn; auto. Qed.

Lemma vsafe_assert (c : bool) w : c = true -> vsafe (fun _ => True) (vassert c w).
Proof. intros ->. exact I. Qed.

Lemma vsafe_check (c : bool) e : vsafe (fun _ => c = true) (vcheck c e).
Proof. destruct c; cbn; auto. Qed.

Lemma vsafe_check_any (c : bool) e : vsafe (fun _ => True) (vcheck c e).
Proof. destruct c; cbn; auto. Qed.

Lemma vsafe_deser {A} (P : A -> Prop) (x : Result A) : rsafe P x -> vsafe P (vdeser x).
Proof. destruct x; cbn; auto. Qed.

Lemma vsafe_weaken {A} (P Q : A -> Prop) x : (forall a, P a -> Q a) -> vsafe P x -> vsafe Q x.
Proof. destruct x; cbn; auto. Qed.

Lemma vsafe_not_panic {A} (P : A -> Prop) (x : VRes A) : vsafe P x -> forall w, x <> VPanic w.
Proof. destruct x; cbn; intros; congruence. Qed.

Ltac vstep_assert := eapply vsafe_bind; [apply vsafe_assert | intros _ _].
Ltac vstep_check H := eapply vsafe_bind; [apply vsafe_check | let u := fresh "u" in intros u H; cbv beta in H; clear u].

Definition wfField (F : FieldP) : Prop :=
  let m := fp_modbytes F in let eb := Z.of_nat (fp_bytes F) in let half := Z.to_nat (len m / 2) in
  2 <= eb <= 2 ^ 16 /\
  (* the two halves of the modulus bytes are shorter than an element and smaller than the modulus *)
  from_bytes_with_padding_ok F (firstn half m) = true /\ from_bytes_with_padding_ok F (skipn half m) = true /\
  (* ELEMENT_BYTES - 1 arbitrary bytes are always a canonical element *)
  256 ^ (eb - 1) <= fp_mod F /\ 31 <= fp_two_adicity F.

Definition wfAir (A : AirP) : Prop := wfField (ap_field A) /\ 0 < ap_ncols A <= 255 /\ ap_lagrange A = false.

(* the proof's context is not the one the AIR was written for: Air::new panics (it cannot return an error) *)
Definition Known (A : AirP) (p : Proof) : Prop :=
  let t := ctx_trace_info (pr_context p) in
  ti_main t <> ap_main A \/ ti_aux t <> ap_aux A \/ ti_rands t <> ap_rands A \/ ti_length t <> ap_length A \/
  po_blowup_factor (ctx_options (pr_context p)) < ap_ceb A.

Example wfField_supported : wfField F64P /\ wfField F128P /\ wfField F62P.
Proof. unfold wfField. vm_compute. repeat split; intros; discriminate. Qed.

(* ------------------------------------------------------------------------------------ Context::to_elements *)
Lemma chunks_loop_spec fuel n bs : is_bytes bs ->
  Forall (fun ch => Z.of_nat (length ch) <= Z.of_nat n /\ is_bytes ch) (chunks_loop fuel n bs).
Proof.
  revert bs. induction fuel as [|f IH]; intros bs Hbs; cbn [chunks_loop]; [constructor|].
  destruct bs as [|b r] eqn:E; [constructor|]. rewrite <- E in *. clear E b r.
  constructor; [|apply IH, Forall_skipn, Hbs].
  split; [|apply Forall_firstn, Hbs]. pose proof (firstn_le_length n bs). lia.
Qed.

Lemma from_bytes_with_padding_small F ch :
  is_bytes ch -> Z.of_nat (length ch) <= Z.of_nat (fp_bytes F) - 1 -> 256 ^ (Z.of_nat (fp_bytes F) - 1) <= fp_mod F ->
  from_bytes_with_padding_ok F ch = true.
Proof.
  intros Hb Hl HM. unfold from_bytes_with_padding_ok. apply andb_true_intro; split.
  - apply Z.ltb_lt. unfold len. lia.
  - apply Z.ltb_lt. pose proof (of_le_bytes_range ch Hb) as Hr.
    assert (256 ^ Z.of_nat (length ch) <= 256 ^ (Z.of_nat (fp_bytes F) - 1)) by (apply Z.pow_le_mono_r; lia). lia.
Qed.

(* for the code as it is (chunks of ELEMENT_BYTES - 1 bytes): building the coin seed from ANY parsed context whose
   modulus bytes are the field's never panics *)
Theorem to_elements_total : forall F c, wfField F -> is_bytes (ti_meta (ctx_trace_info c)) ->
  ctx_modulus c = fp_modbytes F -> to_elements_ok (META_CHUNK F) F c = true.
Proof.
  intros F c (Heb & Hm1 & Hm2 & HM & _) Hmeta Hmod. cbv zeta in *. unfold to_elements_ok, META_CHUNK. rewrite Hmod, Hm1, Hm2.
  rewrite !andb_true_r. set (meta := ti_meta (ctx_trace_info c)) in *.
  assert (HX : (0 <? Z.of_nat (fp_bytes F) - 1) &&
               forallb (from_bytes_with_padding_ok F) (chunks (Z.to_nat (Z.of_nat (fp_bytes F) - 1)) meta) = true).
  { apply andb_true_intro; split; [apply Z.ltb_lt; lia|].
    apply forallb_forall. intros ch Hin. unfold chunks in Hin.
    pose proof (chunks_loop_spec (length meta) (Z.to_nat (Z.of_nat (fp_bytes F) - 1)) _ Hmeta) as Hs.
    rewrite Forall_forall in Hs. destruct (Hs ch Hin) as [Hl Hb].
    apply from_bytes_with_padding_small; auto. lia. }
  destruct meta; [reflexivity | exact HX].
Qed.

(* with chunks of ELEMENT_BYTES bytes (and the length assertion relaxed to <=, or not) metadata of one full-width block
   that is not a canonical element is a panic: `ELEMENT_BYTES - 1` is what makes the conversion total *)
Theorem to_elements_full_chunk_refuted :
  to_elements_ok 8 F64P (mkCtx (mkTI 1 0 0 8 [1; 0; 0; 0; 255; 255; 255; 255]) (fp_modbytes F64P) (mkPO 1 2 0 FE_None 2 0)) = false /\
  of_le_bytes [1; 0; 0; 0; 255; 255; 255; 255] = M64 /\
  to_elements_ok (META_CHUNK F64P) F64P (mkCtx (mkTI 1 0 0 8 [1; 0; 0; 0; 255; 255; 255; 255]) (fp_modbytes F64P) (mkPO 1 2 0 FE_None 2 0)) = true.
Proof. vm_compute. repeat split; reflexivity. Qed.

(* ------------------------------------------------------------------------------------------ arithmetic *)
Lemma bytes_eqb_eq a b : bytes_eqb a b = true -> a = b.
Proof.
  revert b. induction a as [|x a IH]; intros [|y b] H; cbn in H; try discriminate; auto.
  apply andb_prop in H. destruct H as [H1 H2]. apply Z.eqb_eq in H1. f_equal; auto.
Qed.

Lemma is_pow2_mul x y : is_pow2 x = true -> is_pow2 y = true -> is_pow2 (x * y) = true.
Proof.
  intros Hx Hy. apply MachIntFacts.is_pow2_iff in Hx as (i & Hi & ->), Hy as (j & Hj & ->).
  rewrite <- Z.pow_add_r by lia. apply is_pow2_pow. lia.
Qed.

Lemma nfl_loop_bounds fuel d ff m : 0 <= nfl_loop fuel d ff m <= Z.of_nat fuel.
Proof.
  revert d. induction fuel as [|f IH]; intros d; cbn [nfl_loop]; [lia|].
  destruct (d >? m); [|lia]. specialize (IH (d / ff)). lia.
Qed.

Lemma log2_le_31 x : 0 < x <= 2 ^ 32 - 1 -> Z.log2 x <= 31.
Proof. intros H. change 31 with (Z.log2 (2 ^ 32 - 1)). apply Z.log2_le_mono. lia. Qed.

Lemma log2_ge_3 x : 8 <= x -> 3 <= Z.log2 x.
Proof. intros H. change 3 with (Z.log2 8). apply Z.log2_le_mono. lia. Qed.

Lemma elem_bytes_bounds F fe : wfField F -> 0 < elem_bytes F (ext_degree fe) <= 2 ^ 32.
Proof.
  intros (Heb & _). unfold elem_bytes. destruct fe; cbn [ext_degree]; lia.
Qed.

Lemma elem_bytes_bounds1 F : wfField F -> 0 < elem_bytes F 1 <= 2 ^ 32.
Proof. intros (Heb & _). unfold elem_bytes. lia. Qed.

(* what air_new_safe, channel_new_safe and perform_verification_safe use of a parsed context: its ranges, the LDE domain
   size and the number of FRI layers *)
Lemma context_arith c : context_ok c ->
  let t := ctx_trace_info c in let o := ctx_options c in let lde := ti_length t * po_blowup_factor o in
  (0 < ti_main t /\ 0 <= ti_aux t /\ ti_main t + ti_aux t <= 255 /\ 0 <= ti_rands t <= 255) /\
  (8 <= ti_length t /\ 3 <= Z.log2 (ti_length t) <= 31) /\
  (is_pow2 lde = true /\ 16 <= lde <= 2 ^ 32 - 1 /\ 3 <= Z.log2 lde <= 31) /\
  (1 <= po_num_queries o <= 255 /\ 2 <= po_blowup_factor o <= 128) /\
  (is_pow2 (po_fri_folding_factor o) = true /\ 2 <= po_fri_folding_factor o <= 16) /\
  0 <= num_fri_layers lde (po_fri_folding_factor o) (po_fri_remainder_max_degree o) (po_blowup_factor o) <= 64.
Proof.
  intros Hc. pose proof (context_ok_facts c Hc) as Hf. cbv zeta in *.
  destruct Hf as (T1 & T2 & T3 & T4 & T5 & T6 & T7 & O1 & Pbf & Hbf & _ & Pff & Hff & _).
  pose proof (log2_ge_3 _ T5). pose proof (log2_le_31 (ti_length (ctx_trace_info c)) ltac:(nia)).
  pose proof (log2_ge_3 (ti_length (ctx_trace_info c) * po_blowup_factor (ctx_options c)) ltac:(nia)).
  pose proof (log2_le_31 (ti_length (ctx_trace_info c) * po_blowup_factor (ctx_options c)) ltac:(nia)).
  pose proof (nfl_loop_bounds 64 (ti_length (ctx_trace_info c) * po_blowup_factor (ctx_options c))
                (po_fri_folding_factor (ctx_options c))
                ((po_fri_remainder_max_degree (ctx_options c) + 1) * po_blowup_factor (ctx_options c))).
  unfold num_fri_layers. repeat split; auto; try lia; try nia. now apply is_pow2_mul.
Qed.

Lemma air_new_safe A c :
  context_ok c -> wfField (ap_field A) ->
  ti_main (ctx_trace_info c) = ap_main A -> ti_aux (ctx_trace_info c) = ap_aux A ->
  ti_rands (ctx_trace_info c) = ap_rands A -> ti_length (ctx_trace_info c) = ap_length A ->
  ap_ceb A <= po_blowup_factor (ctx_options c) ->
  vsafe (fun _ => True) (air_new A (ctx_trace_info c) (ctx_options c)).
Proof.
  intros Hc HF E1 E2 E3 E4 E5. pose proof (context_arith c Hc) as Hf. cbv zeta in Hf.
  destruct Hf as (_ & (T5 & Hlog) & (_ & Hlde & Hlogl) & (_ & Hbf) & _). destruct HF as (_ & _ & _ & _ & Had).
  unfold air_new.
  vstep_assert. { rewrite E1, E2, E3, E4, !Z.eqb_refl. reflexivity. }
  vstep_assert. { apply Z.geb_le. lia. }
  cbv zeta.
  vstep_assert. { apply Z.leb_le. unfold usize_max. lia. }
  vstep_assert.
  { apply andb_true_intro; split; [apply andb_true_intro; split|].
    - apply Z.ltb_lt. lia. - apply negb_true_iff, Z.eqb_neq. lia. - apply Z.leb_le. lia. }
  apply vsafe_assert.
  apply andb_true_intro; split; [apply andb_true_intro; split|].
  - apply Z.ltb_lt. lia. - apply negb_true_iff, Z.eqb_neq. lia. - apply Z.leb_le. lia.
Qed.

Definition chan_post (A : AirP) (p : Proof) (ch : Chan) : Prop :=
  let c := pr_context p in let t := ctx_trace_info c in let o := ctx_options c in
  let lde := ti_length t * po_blowup_factor o in
  let nl := num_fri_layers lde (po_fri_folding_factor o) (po_fri_remainder_max_degree o) (po_blowup_factor o) in
  ch_trace_roots ch = ti_num_segments t /\ ch_fri_roots ch = nl + 1 /\
  0 < pr_num_unique_queries p /\
  qs_rows (ch_main ch) = pr_num_unique_queries p /\ qs_cols (ch_main ch) = ti_main t /\
  (if ti_aux t >? 0 then exists a, ch_aux ch = Some a /\ qs_rows a = pr_num_unique_queries p /\ qs_cols a = ti_aux t
   else ch_aux ch = None) /\
  qs_rows (ch_constraint ch) = pr_num_unique_queries p /\ qs_cols (ch_constraint ch) = ap_ncols A /\
  1 <= ch_nparts ch /\ 1 <= ch_remainder ch /\
  length (ch_layers ch) = Z.to_nat nl /\ fold_chain (Z.to_nat nl) lde (po_fri_folding_factor o) /\
  os_lagrange (ch_ood ch) = None /\ os_cur (ch_ood ch) = ti_main t + ti_aux t /\ os_evals (ch_ood ch) = ap_ncols A.

Lemma channel_new_safe A p : proof_inv p -> wfAir A -> vsafe (chan_post A p) (channel_new A p).
Proof.
  intros ((Hc & Hnuq & Hcom & Htq & Hlen & Hcq & Hood & Hfri) & _) (HF & Hnc & Hlag).
  pose proof (context_arith _ Hc) as Hf. cbv zeta in Hf.
  destruct Hf as ((T1 & T2 & T3 & T4) & (T5 & _) & (Plde & Hlde & _) & (O1 & Hbf) & (Pff & Hff) & Hnl).
  set (c := pr_context p) in *. set (t := ctx_trace_info c) in *. set (o := ctx_options c) in *.
  pose proof (elem_bytes_bounds (ap_field A) (po_field_extension o) HF) as Heb.
  pose proof (elem_bytes_bounds1 (ap_field A) HF) as Heb1.
  unfold channel_new. fold c. fold t. fold o. cbv zeta.
  vstep_check Hmod. vstep_check Hgkr.
  set (lde := ti_length t * po_blowup_factor o) in *.
  set (nl := num_fri_layers lde (po_fri_folding_factor o) (po_fri_remainder_max_degree o) (po_blowup_factor o)) in *.
  assert (Hseg : 1 <= ti_num_segments t <= 2) by (unfold ti_num_segments; destruct (ti_aux t >? 0); lia).
  eapply vsafe_bind.
  { apply vsafe_deser. apply Commitments_parse_safe; [exact Hcom | lia | unfold usize_max; lia]. }
  intros roots [Hr1 Hr2].
  vstep_assert. { apply Z.eqb_eq. exact Hlen. }
  destruct (pr_trace_queries p) as [|q0 qrest] eqn:Etq.
  { exfalso. unfold llen in Hlen. cbn in Hlen. lia. }
  inversion Htq as [|? ? Hq0 Hqrest]; subst.
  eapply vsafe_bind.
  { apply vsafe_deser. apply Queries_parse_safe; auto; lia. }
  intros mainq (M1 & M2 & M3).
  eapply (vsafe_bind (fun auxq => if ti_aux t >? 0 then exists a, auxq = Some a /\ qs_rows a = pr_num_unique_queries p /\ qs_cols a = ti_aux t else auxq = None)).
  { destruct (ti_aux t >? 0) eqn:Eaux.
    - destruct qrest as [|q1 qrest'].
      { exfalso. unfold llen, ti_num_segments in Hlen. fold t in Hlen. rewrite Eaux in Hlen. cbn in Hlen. lia. }
      inversion Hqrest as [|? ? Hq1 _]; subst.
      apply Z.gtb_lt in Eaux.
      eapply vsafe_bind.
      { apply vsafe_deser. apply (Queries_parse_safe _ _ _ q1); auto; lia. }
      intros a (A1 & A2 & _). cbn. exists a. auto.
    - cbn. reflexivity. }
  intros auxq Haux.
  eapply vsafe_bind.
  { apply vsafe_deser. apply Queries_parse_safe; auto; lia. }
  intros cq (C1 & C2 & _).
  vstep_check Hlayers.
  eapply (vsafe_bind (fun n => 1 <= n)).
  { destruct Hfri as (_ & _ & Hnp). destruct (Fri_num_partitions_ok _ Hnp) as (n & -> & Hn). exact Hn. }
  intros np Hnp.
  eapply vsafe_bind.
  { apply vsafe_deser. apply Fri_parse_remainder_safe; [exact Hfri | lia]. }
  intros rem Hrem.
  eapply vsafe_bind.
  { apply vsafe_deser. apply Fri_parse_layers_safe; auto; lia. }
  intros layers (L1 & L2 & L3).
  eapply vsafe_bind.
  { apply vsafe_deser. apply OodFrame_parse_safe; auto; lia. }
  intros ood (D1 & D2).
  vstep_check Hl. rewrite Hlag in Hl.
  destruct (os_lagrange ood) as [n|] eqn:El; [cbn in Hl; discriminate|].
  cbn. unfold chan_post. fold c. fold t. fold o. cbv zeta. fold lde. fold nl.
  cbn [ch_trace_roots ch_fri_roots ch_main ch_aux ch_constraint ch_nparts ch_remainder ch_layers ch_ood].
  apply Z.eqb_eq in Hlayers. unfold llen in Hlayers.
  assert (Hll : length (fri_layers (pr_fri_proof p)) = Z.to_nat nl) by lia.
  rewrite Hll in *.
  repeat split; auto; try lia.
Qed.

Lemma fri_new_loop_safe n depth nfr m ff : vsafe (fun _ => True) (fri_new_loop n depth nfr m ff).
Proof.
  revert depth m. induction n as [|n IH]; intros depth m; cbn [fri_new_loop]; [exact I|].
  destruct (negb (depth =? nfr - 1) && negb (m mod ff =? 0)); [exact I | apply IH].
Qed.

Lemma fri_layers_verify_safe n : forall i orc kf nfr ls d m ff np,
  length ls = n -> fold_chain n d ff -> Z.of_nat i + Z.of_nat n < nfr -> 1 <= np -> 1 < ff -> 0 < m ->
  vsafe (fun st => 0 < snd st) (fri_layers_verify n i orc kf nfr ls d m ff np).
Proof.
  induction n as [|n IH]; intros i orc kf nfr ls d m ff np Hlen Hch Hi Hnp Hff Hm; cbn [fri_layers_verify].
  - cbn. exact Hm.
  - destruct Hch as [Hd Hch].
    assert (0 < d / ff) by (apply Z.div_str_pos; lia).
    vstep_assert. { apply andb_true_intro; split; apply Z.ltb_lt; lia. }
    vstep_assert. { apply orb_true_intro; right. apply Z.ltb_lt. lia. }
    vstep_assert. { apply Z.ltb_lt. lia. }
    destruct ls as [|l rest]; [discriminate|].
    vstep_check H1. vstep_check H2. vstep_check H3.
    apply Z.eqb_eq in H3.
    apply IH; auto.
    + lia.
    + apply Z.mod_divide in H3; [|lia]. destruct H3 as [q Hq]. subst m.
      assert (Hq1 : 1 <= q).
      { destruct (Z_le_gt_dec q 0) as [Hq0|Hq0]; [|lia]. exfalso.
        pose proof (Z.mul_nonpos_nonneg q ff Hq0 ltac:(lia)). lia. }
      rewrite Z.div_mul by lia. lia.
Qed.

Lemma perform_verification_safe A p ch orc k kf :
  proof_inv p -> wfAir A -> chan_post A p ch ->
  vsafe (fun _ => True) (perform_verification A p ch orc k kf).
Proof.
  intros ((Hc & Hnuq & _) & _) (HF & Hnc & Hlag) Hpost.
  pose proof (context_arith _ Hc) as Hf. cbv zeta in Hf.
  destruct Hf as ((T1 & T2 & T3 & T4) & (T5 & _) & (Plde & Hlde & Hlogl) & (O1 & Hbf) & (Pff & Hff) & Hnl).
  destruct HF as (_ & _ & _ & _ & Had).
  unfold chan_post in Hpost. cbv zeta in Hpost.
  set (c := pr_context p) in *. set (t := ctx_trace_info c) in *. set (o := ctx_options c) in *.
  set (lde := ti_length t * po_blowup_factor o) in *.
  set (nl := num_fri_layers lde (po_fri_folding_factor o) (po_fri_remainder_max_degree o) (po_blowup_factor o)) in *.
  destruct Hpost as (P1 & P2 & P3 & P4 & P5 & P6 & P7 & P8 & P9 & P10 & P11 & P12 & P13 & P14 & P15).
  unfold perform_verification. fold c. fold t. fold o. cbv zeta. fold lde. fold nl.
  vstep_assert. { rewrite P1. unfold ti_num_segments. destruct (ti_aux t >? 0); reflexivity. }
  vstep_assert. { rewrite P1. unfold ti_num_segments. destruct (ti_aux t >? 0); reflexivity. }
  vstep_assert. { apply Z.leb_le. lia. }
  vstep_assert. { rewrite P14. destruct (ti_main t + ti_aux t >? ti_main t); [apply Z.leb_le; lia | reflexivity]. }
  vstep_assert. { rewrite P13. reflexivity. }
  vstep_assert. { rewrite P15. apply Z.leb_le. unfold usize_max. nia. }
  vstep_check Hood.
  vstep_assert.
  { repeat (apply andb_true_intro; split).
    - apply Z.ltb_lt. lia. - apply Z.leb_le. unfold usize_max. lia.
    - apply negb_true_iff, Z.eqb_neq. lia. - apply Z.leb_le. lia. }
  eapply vsafe_bind; [apply fri_new_loop_safe|]. intros _ _.
  vstep_check Hpow.
  eapply (vsafe_bind (fun _ => True)).
  { pose proof (draw_integers_safe (po_num_queries o) lde Plde) as Hdi.
    destruct (draw_integers_shape (po_num_queries o) lde); cbn in Hdi |- *; auto. }
  intros _ _.
  vstep_check Hk1. apply andb_prop in Hk1. destruct Hk1 as [Hk1 _]. apply Z.eqb_eq in Hk1.
  eapply (vsafe_bind (fun _ => True)).
  { destruct (ch_aux ch); [apply vsafe_check_any | exact I]. }
  intros _ _.
  vstep_check Hk2.
  eapply (vsafe_bind (fun _ => True)).
  { destruct (ti_aux t >? 0) eqn:Eaux.
    - destruct P6 as (a & -> & A1 & A2). apply vsafe_assert. rewrite P14, A2. apply Z.gtb_lt in Eaux.
      repeat (apply andb_true_intro; split); [apply Z.gtb_lt; lia | apply Z.leb_le; lia | apply Z.leb_le; lia].
    - rewrite P6. exact I. }
  intros _ _.
  vstep_assert.
  { rewrite P7, P8, P15, Hk1, P4, !Z.eqb_refl. cbn. apply Z.leb_le. lia. }
  vstep_check Hfold.
  eapply vsafe_bind.
  { apply fri_layers_verify_safe; auto; try lia; rewrite ?P2; cbn; lia. }
  intros st Hst. cbv beta in Hst.
  vstep_check Hrc.
  eapply (vsafe_bind (fun _ => True)).
  { destruct (ch_remainder ch >? snd st); [|exact I].
    eapply vsafe_bind; [apply vsafe_assert; apply Z.gtb_lt; lia|]. intros _ _. exact I. }
  intros _ _.
  apply vsafe_check_any.
Qed.

Theorem verify_safe A pol p orc k kf :
  proof_inv p -> wfAir A -> ~ Known A p -> vsafe (fun _ => True) (verify A pol p orc k kf).
Proof.
  intros Hinv HA Hk. pose proof Hinv as ((Hc & _) & Hmeta). pose proof HA as (HF & _).
  unfold verify. cbv zeta.
  vstep_check Hmod. apply bytes_eqb_eq in Hmod.
  vstep_check Hpol.
  vstep_assert.
  { apply to_elements_total; auto. }
  eapply vsafe_bind.
  { unfold Known in Hk. cbv zeta in Hk. apply air_new_safe; auto; try lia;
      match goal with |- ?a = ?b => destruct (Z.eq_dec a b); [assumption | exfalso; apply Hk; tauto] end. }
  intros _ _.
  vstep_check Hext.
  eapply vsafe_bind; [apply channel_new_safe; assumption|]. intros ch Hch.
  apply perform_verification_safe; assumption.
Qed.

(* verifying any parsed proof against any public inputs (any AIR of the supported shape, any acceptance policy), whatever
   the value-dependent checks answer and however many distinct positions are drawn, never panics *)
Theorem verify_total : forall A pol p orc k kf,
  proof_inv p -> wfAir A -> ~ Known A p -> forall w, verify A pol p orc k kf <> VPanic w.
Proof. intros. eapply vsafe_not_panic. now apply verify_safe. Qed.

(* bytes in, outcome out *)
Theorem parse_and_verify_total : forall A pol bs orc k kf,
  is_bytes bs -> wfAir A -> (forall p, parse bs = Ok p -> ~ Known A p) ->
  forall w, parse_and_verify A pol bs orc k kf <> O_Panic w.
Proof.
  intros A pol bs orc k kf Hbs HA Hk w. unfold parse_and_verify.
  pose proof (parse_total bs Hbs) as Hp. pose proof (parse_inv bs) as Hi.
  destruct (parse bs) as [p| |]; [|discriminate|congruence].
  pose proof (verify_total A pol p orc k kf (Hi p Hbs eq_refl) HA (Hk p eq_refl)) as Hv.
  destruct (verify A pol p orc k kf); try discriminate. intros E. inversion E; subst. now apply (Hv w0).
Qed.

(* every panic of verify() is one of the two assertions reached through Air::new, and its input is Known *)
Theorem verify_panics_only_in_air_new : forall A pol p orc k kf w,
  proof_inv p -> wfAir A -> verify A pol p orc k kf = VPanic w -> Known A p /\ (w = W_air_new_layout \/ w = W_air_new_blowup).
Proof.
  intros A pol p orc k kf w Hinv HA E.
  assert (HK : Known A p).
  { destruct (Z.eq_dec (ti_main (ctx_trace_info (pr_context p))) (ap_main A));
    destruct (Z.eq_dec (ti_aux (ctx_trace_info (pr_context p))) (ap_aux A));
    destruct (Z.eq_dec (ti_rands (ctx_trace_info (pr_context p))) (ap_rands A));
    destruct (Z.eq_dec (ti_length (ctx_trace_info (pr_context p))) (ap_length A));
    destruct (Z_lt_ge_dec (po_blowup_factor (ctx_options (pr_context p))) (ap_ceb A));
    try (unfold Known; cbv zeta; tauto).
    exfalso. refine (verify_total A pol p orc k kf Hinv HA _ w E). unfold Known. cbv zeta. lia. }
  split; [exact HK|].
  (* which site: the layout assertion comes first, the blowup assertion second; nothing else is reachable *)
  revert E. unfold verify. cbv zeta.
  destruct (vcheck _ E_InconsistentBaseField) eqn:E1; cbn [vbind]; try discriminate.
  2:{ unfold vcheck in E1. destruct (bytes_eqb _ _); discriminate. }
  destruct (vcheck _ E_UnacceptableProofOptions) eqn:E2; cbn [vbind]; try discriminate.
  2:{ unfold vcheck in E2. destruct (policy_ok _ _); discriminate. }
  destruct (vassert (to_elements_ok _ _ _) _) eqn:E3; cbn [vbind]; try discriminate.
  2:{ intros _. exfalso. unfold vcheck in E1. destruct (bytes_eqb _ _) eqn:Eb; [|discriminate]. apply bytes_eqb_eq in Eb.
      destruct Hinv as [_ Hmeta]. destruct HA as (HF & _).
      unfold vassert in E3. rewrite (to_elements_total _ _ HF Hmeta (eq_sym Eb)) in E3. discriminate. }
  unfold air_new.
  destruct (vassert _ W_air_new_layout) eqn:E4; cbn [vbind].
  2:{ unfold vassert in E4. destruct (_ && _); discriminate. }
  2:{ unfold vassert in E4. destruct (_ && _); [discriminate|]. inversion E4; subst. intros E; inversion E; auto. }
  destruct (vassert _ W_air_new_blowup) eqn:E5; cbn [vbind].
  2:{ unfold vassert in E5. destruct (_ >=? _); discriminate. }
  2:{ unfold vassert in E5. destruct (_ >=? _); [discriminate|]. inversion E5; subst. intros E; inversion E; auto. }
  (* both assertions passed: then ~Known, contradiction with HK *)
  intros _. exfalso.
  unfold vassert in E4, E5.
  destruct ((ti_main _ =? _) && _ && _ && _) eqn:L; [|discriminate].
  destruct (po_blowup_factor _ >=? _) eqn:Bf; [|discriminate].
  repeat (apply andb_prop in L; destruct L as [L ?]).
  rewrite Z.geb_le in Bf. rewrite Z.eqb_eq in *. unfold Known in HK. cbv zeta in HK. lia.
Qed.

(* ---------------------------------------------------------------------------------- witnesses (Known inputs) *)
(* a 59-byte proof of the smallest shape (1 column, 8 rows, f64) *)
Definition tiny_proof_bytes : bytes :=
  [1; 0; 0; 3; 0; 0] ++ [8] ++ to_le_bytes 8 M64 ++ [1; 2; 0; 1; 2; 0] ++ [0] ++ [0; 0] ++
  [0; 0; 0; 0; 0; 0; 0; 0] ++ [0; 0; 0; 0; 0; 0; 0; 0] ++ [0; 0; 0; 0; 0; 0] ++ [0; 0; 0; 0] ++ [0; 0; 0; 0; 0; 0; 0; 0] ++ [0].

Definition air_other_width : AirP := mkAP F64P 32 2 0 0 8 2 1 false.   (* an AIR with two columns *)
Definition air_needs_blowup4 : AirP := mkAP F64P 32 1 0 0 8 4 1 false. (* the right layout, constraint degree needing blowup 4 *)
Definition air_matching : AirP := mkAP F64P 32 1 0 0 8 2 1 false.

Lemma tiny_proof_is_bytes : is_bytes tiny_proof_bytes.
Proof. apply forallb_bytes. vm_compute. reflexivity. Qed.

Theorem air_new_refuted :
  exists p, parse tiny_proof_bytes = Ok p /\ proof_inv p /\
    Known air_other_width p /\ verify air_other_width Pol_All p (fun _ => true) 1 (fun _ => 1) = VPanic W_air_new_layout /\
    Known air_needs_blowup4 p /\ verify air_needs_blowup4 Pol_All p (fun _ => true) 1 (fun _ => 1) = VPanic W_air_new_blowup.
Proof.
  pose proof tiny_proof_is_bytes as Hb.
  destruct (parse tiny_proof_bytes) as [p| |] eqn:E; [| vm_compute in E; discriminate | vm_compute in E; discriminate].
  exists p. split; [reflexivity|]. split; [apply (parse_inv _ _ Hb E)|].
  vm_compute in E. inversion E; subst; clear E.
  repeat split; try (vm_compute; reflexivity); unfold Known; cbv zeta; cbn; lia.
Qed.

(* non-vacuity of verify_total: a parsed proof which is not Known for its AIR; the run ends with an error value *)
Example verify_total_nonvacuous :
  exists p, parse tiny_proof_bytes = Ok p /\ proof_inv p /\ wfAir air_matching /\ ~ Known air_matching p /\
            verify air_matching Pol_All p (fun _ => true) 1 (fun _ => 1) = VErr E_ProofDeserializationError.
Proof.
  pose proof tiny_proof_is_bytes as Hb.
  destruct (parse tiny_proof_bytes) as [p| |] eqn:E; [| vm_compute in E; discriminate | vm_compute in E; discriminate].
  exists p. split; [reflexivity|]. split; [apply (parse_inv _ _ Hb E)|].
  vm_compute in E. inversion E; subst; clear E.
  split; [|split].
  - unfold wfAir. split; [apply wfField_supported|]. cbn. lia.
  - unfold Known. cbv zeta. cbn. lia.
  - vm_compute. reflexivity.
Qed.
