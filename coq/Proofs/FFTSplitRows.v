(* C09/C14: the row ([[B; N]]) instance of the four-step FFT — prover/src/matrix/segments.rs mod concurrent — and the
   equality of the concurrent and serial branches of Segment::new_with_buffer.  split_radix_fft at the pointwise
   operations `rows_ops O N` acts on every column as the scalar split_radix_fft (column projection commutes with every
   stage: transposition by specification, strided row FFTs through fft_in_place_spec + brfft_col, outer twiddles, row
   FFTs); the scalar one equals fft_in_place (C09_split_radix_is_fft), and so does the serial row FFT, column by column. *)
From Coq Require Import List Arith Bool ZArith Lia.
From VBase Require Import FieldOps.
From VModel Require Import FFT FFTSplit.
From VProofs Require Import ListFacts Pow2Facts FFTSpec FFTRefine FFTEval FFTSegments FFTTranspose.
From VProofs Require FFTSplit.
Import ListNotations.

(* the two phases of the algorithm, named (transposition by specification) *)
Definition st12 {F} (O : FOps F) (I st Ou : nat) (tw x : list F) : list F :=
  concat (map (fun row => fft_in_place O (length row) row tw st st 0) (rows_of (transpose_spec O I st x) Ou)).

Definition st34 {F} (O : FOps F) (I st Ou : nat) (tw : list F) (g : F) (v2 : list F) : list F :=
  concat (map (fun ir =>
                 fft_in_place_top O
                   (if 0 <? fst ir then scale_row O (snd ir) (fpow_N O g (N.of_nat (permute_index I (fst ir)))) else snd ir) tw)
              (combine (seq 0 I) (rows_of (transpose_spec O I st v2) Ou))).

Lemma spec_tr_unfold {F} (O : FOps F) (x tw : list F) :
  split_radix_fft_spec_tr O x tw =
    let n := length x in
    let I := 2 ^ (Nat.log2 n / 2) in
    let Ou := n / I in
    let st := Ou / I in
    if length x =? I * I * st then
      if length (st12 O I st Ou tw x) =? I * I * st
      then Some (st34 O I st Ou tw (vget O tw (length tw / 2)) (st12 O I st Ou tw x))
      else None
    else None.
Proof.
  unfold split_radix_fft_spec_tr, split_radix_fft_with, st12, st34. cbv zeta.
  destruct (length x =? _); cbn [negb]; [|reflexivity].
  destruct (length (concat _) =? _); cbn [negb]; reflexivity.
Qed.

Section RowsSplit.
Context {F : Type} (O : FOps F) (L : FLaws O).
Variable N : nat.
Variable tw : list F.
Local Notation fz := (fzero O).
Local Notation OR := (rows_ops O N).
Local Notation rtw := (map (fun t => repeat t N) tw).
Local Notation zr := (fzero (rows_ops O N)).
Local Notation wf := (@wf_rows F N).
Local Notation col := (col O).

Lemma col_length t rows : length (col t rows) = length rows.
Proof. unfold FFTSegments.col. apply map_length. Qed.

Lemma wf_nth rows p : wf rows -> length (nth p rows zr) = N.
Proof.
  intros H. destruct (Nat.lt_ge_cases p (length rows)) as [Hp | Hp].
  - unfold wf_rows in H. rewrite Forall_forall in H. apply H. apply nth_In. exact Hp.
  - rewrite nth_overflow by exact Hp. cbn. apply repeat_length.
Qed.

Lemma wf_firstn n rows : wf rows -> wf (firstn n rows).
Proof. apply Forall_firstn. Qed.

Lemma wf_skipn n rows : wf rows -> wf (skipn n rows).
Proof. apply Forall_skipn. Qed.

Lemma wf_concat (ls : list (list (list F))) : (forall l, In l ls -> wf l) -> wf (concat ls).
Proof.
  induction ls; intros H; cbn; [constructor|]. apply Forall_app. split; [apply H; left; reflexivity|].
  apply IHls. intros; apply H; right; assumption.
Qed.

Lemma col_concat t (ls : list (list (list F))) : col t (concat ls) = concat (map (col t) ls).
Proof. unfold FFTSegments.col. apply concat_map. Qed.

Lemma eq_by_cols : forall a b : list (list F), wf a -> wf b -> length a = length b ->
  (forall t, t < N -> col t a = col t b) -> a = b.
Proof.
  induction a as [|r a IH]; destruct b as [|r' b]; cbn [length]; intros Ha Hb Hl Hc; try lia; [reflexivity|].
  inversion Ha as [|? ? Hr Ha']. inversion Hb as [|? ? Hr' Hb']. f_equal.
  - apply nth_ext with (d := fz) (d' := fz); [lia|]. intros t Ht. rewrite Hr in Ht.
    specialize (Hc t Ht). unfold FFTSegments.col in Hc. cbn [map] in Hc. injection Hc as E1 _. exact E1.
  - apply IH; [exact Ha' | exact Hb' | lia |]. intros t Ht.
    specialize (Hc t Ht). unfold FFTSegments.col in *. cbn [map] in Hc. injection Hc as _ E2. exact E2.
Qed.

(* ---------------------------------------------------------------- stages commute with the column projection *)
(* `col t A = b /\ wf A` row by row *)
Lemma col_by_rows t (A : list (list F)) (b : list F) : length A = length b ->
  (forall p, p < length A -> length (nth p A zr) = N /\ nth t (nth p A zr) fz = nth p b fz) ->
  col t A = b /\ wf A.
Proof.
  intros Hl H. split.
  - apply nth_ext with (d := fz) (d' := fz); [rewrite col_length; exact Hl|].
    rewrite col_length. intros p Hp. rewrite (col_nth O N). apply H, Hp.
  - unfold wf_rows. apply Forall_forall. intros r Hr. apply (In_nth _ _ zr) in Hr. destruct Hr as (p & Hp & <-).
    apply H, Hp.
Qed.

(* data movement (entry p of the result is entry h p of the argument) acts on every column alike *)
Lemma col_gather t (h : nat -> nat) l rows :
  col t (map (fun p => nth (h p) rows zr) l) = map (fun p => nth (h p) (col t rows) fz) l.
Proof.
  unfold FFTSegments.col at 1. rewrite map_map. apply map_ext. intros p. symmetry. apply (col_nth O N).
Qed.

Lemma wf_gather (h : nat -> nat) l rows : wf rows -> wf (map (fun p => nth (h p) rows zr) l).
Proof.
  intros H. unfold wf_rows. apply Forall_forall. intros r Hr. apply in_map_iff in Hr.
  destruct Hr as (p & <- & _). apply wf_nth, H.
Qed.

Lemma col_transpose_spec t I st rows : wf rows ->
  col t (transpose_spec OR I st rows) = transpose_spec O I st (col t rows) /\ wf (transpose_spec OR I st rows).
Proof.
  intros Hwf. unfold transpose_spec. rewrite col_length. split; [apply col_gather | apply wf_gather, Hwf].
Qed.

Lemma col_sub t rows j s m : col t (FFTRefine.sub OR rows j s m) = FFTRefine.sub O (col t rows) j s m.
Proof. apply col_gather. Qed.

Lemma wf_sub rows j s m : wf rows -> wf (FFTRefine.sub OR rows j s m).
Proof. apply wf_gather. Qed.

(* rows built block by block *)
Lemma col_concat_rows t (f : nat -> list (list F)) (g : nat -> list F) n m :
  (forall r, r < n -> col t (f r) = g r /\ wf (f r) /\ length (f r) = m) ->
  col t (concat (map f (seq 0 n))) = concat (map g (seq 0 n)) /\ wf (concat (map f (seq 0 n))) /\
  length (concat (map f (seq 0 n))) = n * m.
Proof.
  intros Hf. split; [|split].
  - rewrite col_concat, map_map. f_equal. apply map_ext_in. intros r Hr. apply in_seq in Hr. apply Hf. lia.
  - apply wf_concat. intros l Hl. apply in_map_iff in Hl. destruct Hl as (r & <- & Hr). apply in_seq in Hr. apply Hf. lia.
  - apply (concat_map_seq zr f n m). intros r Hr. apply Hf, Hr.
Qed.

Lemma fft_in_place_col t K' fuel rows count s offset :
  t < N -> wf rows -> K' <= fuel -> 0 < s -> length rows = 2 ^ S K' * s -> offset + count <= s ->
  col t (fft_in_place OR fuel rows rtw count s offset) = fft_in_place O fuel (col t rows) tw count s offset /\
  wf (fft_in_place OR fuel rows rtw count s offset).
Proof.
  intros Ht Hwf Hf Hs Hl Hoc.
  destruct (fft_in_place_spec OR rtw K' fuel rows count s offset Hf Hs Hl Hoc) as [La Na].
  destruct (fft_in_place_spec O tw K' fuel (col t rows) count s offset Hf Hs ltac:(rewrite col_length; exact Hl) Hoc) as [Lb Nb].
  apply col_by_rows; [rewrite La, Lb, col_length; reflexivity|].
  rewrite La. intros p Hp.
  destruct (idx_split p (2 ^ S K') s ltac:(rewrite <- Hl; exact Hp)) as (E & Hq & Hj).
  replace p with (p mod s + s * (p / s)) by lia.
  rewrite (Na _ _ Hj Hq), (Nb _ _ Hj Hq).
  (* a transformed subsequence (brfft_col) or an untouched entry *)
  destruct (in_rng offset count (p mod s)).
  - destruct (brfft_col O N tw t Ht (S K') _ (wf_sub rows (p mod s) s (2 ^ S K') Hwf)) as [E' W].
    split; [apply wf_nth, W|]. rewrite <- (col_nth O N), E', col_sub. reflexivity.
  - split; [apply wf_nth, Hwf | symmetry; apply (col_nth O N)].
Qed.

Lemma fft_in_place_top_col t K' rows : t < N -> wf rows -> length rows = 2 ^ S K' ->
  col t (fft_in_place_top OR rows rtw) = fft_in_place_top O (col t rows) tw /\ wf (fft_in_place_top OR rows rtw) /\
  length (fft_in_place_top OR rows rtw) = 2 ^ S K'.
Proof.
  intros Ht Hwf Hl.
  rewrite (fft_in_place_top_brfft OR rtw K' rows Hl).
  rewrite (fft_in_place_top_brfft O tw K' (col t rows)) by (rewrite col_length; exact Hl).
  destruct (brfft_col O N tw t Ht (S K') rows Hwf) as [E W]. split; [exact E|]. split; [exact W|].
  apply brfft_length. exact Hl.
Qed.

Lemma shift_by_series_col t : t < N -> forall v a c, wf v ->
  col t (shift_by_series OR v (repeat a N) (repeat c N)) = shift_by_series O (col t v) a c /\
  wf (shift_by_series OR v (repeat a N) (repeat c N)).
Proof.
  intros Ht. induction v as [|d v IH]; intros a c Hwf; [cbn; split; [reflexivity | constructor]|].
  inversion Hwf as [|? ? Hd Hv]. cbn [shift_by_series FFTSegments.col map rows_ops fmul].
  rewrite map2_repeat. destruct (IH (fmul O a c) c Hv) as [E W].
  fold (FFTSegments.col O t (shift_by_series OR v (repeat (fmul O a c) N) (repeat c N))). rewrite E.
  rewrite (map2_nth (fmul O) fz fz fz) by (rewrite ?repeat_length; lia). rewrite nth_repeat_lt by exact Ht.
  split; [reflexivity|]. constructor; [rewrite map2_length; rewrite ?repeat_length; lia | exact W].
Qed.

Lemma scale_row_col t row it : t < N -> wf row ->
  col t (scale_row OR row (repeat it N)) = scale_row O (col t row) it /\ wf (scale_row OR row (repeat it N)) /\
  length (scale_row OR row (repeat it N)) = length row.
Proof.
  intros Ht Hwf. destruct row as [|h r]; [cbn; repeat split; constructor|].
  inversion Hwf as [|? ? Hd Hv]. cbn [scale_row FFTSegments.col map].
  destruct (shift_by_series_col t Ht r it it Hv) as [E W].
  fold (FFTSegments.col O t (shift_by_series OR r (repeat it N) (repeat it N))). rewrite E.
  split; [reflexivity|]. split; [constructor; assumption|].
  cbn [length]. f_equal. apply (shift_by_series_length OR).
Qed.

Lemma fpow_pos_rows g e : fpow_pos OR (repeat g N) e = repeat (fpow_pos O g e) N.
Proof.
  induction e; cbn [fpow_pos]; rewrite ?IHe; cbn [rows_ops fmul]; rewrite ?map2_repeat; reflexivity.
Qed.

Lemma fpow_N_rows g e : fpow_N OR (repeat g N) e = repeat (fpow_N O g e) N.
Proof. destruct e; [reflexivity | apply fpow_pos_rows]. Qed.

Lemma vget_rtw i : vget OR rtw i = repeat (vget O tw i) N.
Proof.
  unfold vget. cbn [rows_ops fzero]. change (repeat fz N) with ((fun x => repeat x N) fz). apply map_nth.
Qed.

Lemma block_col t V Ou r : col t (firstn Ou (skipn (r * Ou) V)) = firstn Ou (skipn (r * Ou) (col t V)).
Proof. unfold FFTSegments.col. rewrite skipn_map, firstn_map. reflexivity. Qed.

(* ---------------------------------------------------------------- the two phases *)
Section Sizes.
Variables K s : nat.
Let I := 2 ^ S K.
Let st := 2 ^ s.
Let Ou := 2 ^ (S K + s).

Lemma Ou_eq : Ou = I * st.
Proof. unfold Ou, I, st. apply Nat.pow_add_r. Qed.

(* the rows of a transposed matrix, and their columns *)
Lemma transposed_rows t (I' st' Ou' : nat) rows : 0 < Ou' -> wf rows -> length rows = I' * Ou' ->
  let V := transpose_spec OR I' st' rows in
  rows_of V Ou' = map (fun r => firstn Ou' (skipn (r * Ou') V)) (seq 0 I') /\
  rows_of (transpose_spec O I' st' (col t rows)) Ou' = map (fun r => col t (firstn Ou' (skipn (r * Ou') V))) (seq 0 I') /\
  forall r, r < I' -> wf (firstn Ou' (skipn (r * Ou') V)) /\ length (firstn Ou' (skipn (r * Ou') V)) = Ou'.
Proof.
  intros HO Hwf Hl V.
  destruct (col_transpose_spec t I' st' rows Hwf) as [Et Wt]. fold V in Et, Wt.
  assert (LV : length V = I' * Ou') by (unfold V; rewrite VProofs.FFTSplit.transpose_spec_length; exact Hl).
  split; [exact (VProofs.FFTSplit.rows_of_eq V Ou' I' HO LV)|]. split.
  - rewrite <- Et, (VProofs.FFTSplit.rows_of_eq (col t V) Ou' I' HO) by (rewrite col_length; exact LV).
    apply map_ext. intros r. symmetry. apply block_col.
  - intros r Hr. split; [apply wf_firstn, wf_skipn, Wt | exact (VProofs.FFTSplit.row_length V Ou' I' r LV Hr)].
Qed.

Lemma st12_col t rows : t < N -> wf rows -> length rows = I * Ou ->
  col t (st12 OR I st Ou rtw rows) = st12 O I st Ou tw (col t rows) /\ wf (st12 OR I st Ou rtw rows) /\
  length (st12 OR I st Ou rtw rows) = I * Ou.
Proof.
  intros Ht Hwf Hl. unfold st12.
  destruct (transposed_rows t I st Ou rows (pow2_pos _) Hwf Hl) as (E1 & E2 & HB). rewrite E1, E2, !map_map.
  apply col_concat_rows. intros r Hr. cbv beta. destruct (HB r Hr) as [WB LB]. rewrite col_length, LB.
  assert (HK : K <= Ou) by (unfold Ou; pose proof (Nat.pow_gt_lin_r 2 (S K + s)); lia).
  assert (HLB : length (firstn Ou (skipn (r * Ou) (transpose_spec OR I st rows))) = 2 ^ S K * st) by (rewrite LB; apply Ou_eq).
  destruct (fft_in_place_col t K Ou _ st st 0 Ht WB HK (pow2_pos s) HLB (le_n _)) as [E W].
  split; [exact E|]. split; [exact W|].
  destruct (fft_in_place_spec OR rtw K Ou _ st st 0 HK (pow2_pos s) HLB (le_n _)) as [La _]. rewrite La. exact LB.
Qed.

Lemma st34_col t g v2 : t < N -> wf v2 -> length v2 = I * Ou ->
  col t (st34 OR I st Ou rtw (repeat g N) v2) = st34 O I st Ou tw g (col t v2) /\ wf (st34 OR I st Ou rtw (repeat g N) v2) /\
  length (st34 OR I st Ou rtw (repeat g N) v2) = I * Ou.
Proof.
  intros Ht Hwf Hl. unfold st34.
  destruct (transposed_rows t I st Ou v2 (pow2_pos _) Hwf Hl) as (E1 & E2 & HB).
  rewrite E1, E2, !combine_map_self, !map_map. cbn [fst snd].
  apply col_concat_rows. intros r Hr. cbv beta. destruct (HB r Hr) as [WB LB]. rewrite fpow_N_rows.
  set (B := firstn Ou (skipn (r * Ou) (transpose_spec OR I st v2))) in *.
  set (gr := fpow_N O g (N.of_nat (permute_index I r))).
  set (X := if 0 <? r then scale_row OR B (repeat gr N) else B).
  assert (HX : col t X = (if 0 <? r then scale_row O (col t B) gr else col t B) /\ wf X /\ length X = 2 ^ S (K + s)).
  { unfold X. destruct (0 <? r); [|auto]. destruct (scale_row_col t B gr Ht WB) as (Es & Ws & Ls). rewrite Ls. auto. }
  destruct HX as (EX & WX & LX). rewrite <- EX. exact (fft_in_place_top_col t (K + s) X Ht WX LX).
Qed.

(* ---------------------------------------------------------------- split_radix_fft on rows = fft_in_place on rows *)
Theorem split_radix_rows_is_fft w rows :
  0 < N -> s <= 1 -> wf rows -> length rows = 2 ^ (S K + S K + s) -> length tw = 2 ^ (S K + K + s) ->
  tw_ok O tw (S K + S K + s) w -> root_cond O (S K + S K + s) w ->
  split_radix_fft OR rows rtw = Some (fft_in_place_top OR rows rtw).
Proof.
  intros HN Hs Hwf Hl Hlt Htw Hw.
  apply (split_radix_tr_agree OR K s rows rtw _ Hs Hl).
  assert (Hn : 2 ^ (S K + S K + s) = I * Ou) by (unfold I, Ou; rewrite <- Nat.pow_add_r; f_equal; lia).
  pose proof (fun n0 => VProofs.FFTSplit.split_sizes K s n0 Hs) as Sz. fold I Ou st in Sz.
  assert (Hl' : length rows = I * Ou) by (rewrite Hl; exact Hn).
  rewrite spec_tr_unfold. cbv zeta. destruct (Sz (length rows) Hl) as (E1 & E2 & E3 & _). rewrite E1. fold I. rewrite E2, E3.
  assert (G1 : (length rows =? I * I * st) = true) by (apply Nat.eqb_eq; rewrite Hl', Ou_eq; lia).
  rewrite G1, map_length, vget_rtw.
  set (g := vget O tw (length tw / 2)).
  destruct (st12_col 0 rows HN Hwf Hl') as (_ & W12 & L12).
  assert (G2 : (length (st12 OR I st Ou rtw rows) =? I * I * st) = true) by (apply Nat.eqb_eq; rewrite L12, Ou_eq; lia).
  rewrite G2. f_equal.
  destruct (st34_col 0 g _ HN W12 L12) as (_ & W34 & L34).
  assert (Hlr : length rows = 2 ^ S (K + S K + s)) by (rewrite Hl; f_equal; lia).
  destruct (fft_in_place_top_col 0 (K + S K + s) rows HN Hwf Hlr) as (_ & Wf & Lf).
  apply eq_by_cols; [exact W34 | exact Wf | rewrite L34, Lf, <- Hn; f_equal; lia |].
  intros t Ht.
  destruct (st12_col t rows Ht Hwf Hl') as (C12 & _ & _).
  destruct (st34_col t g _ Ht W12 L12) as (C34 & _ & _).
  destruct (fft_in_place_top_col t (K + S K + s) rows Ht Hwf Hlr) as (Cf & _ & _).
  rewrite C34, C12, Cf.
  (* the scalar theorem on column t *)
  pose proof (VProofs.FFTSplit.split_radix_spec_tr_is_fft O L tw K s w (col t rows) Hs
                ltac:(rewrite col_length; exact Hl) Hlt Htw Hw) as Hsc.
  rewrite spec_tr_unfold in Hsc. cbv zeta in Hsc.
  destruct (Sz (length (col t rows)) ltac:(rewrite col_length; exact Hl)) as (F1 & F2 & F3 & _).
  rewrite F1 in Hsc. fold I in Hsc. rewrite F2, F3 in Hsc. fold g in Hsc.
  destruct (length (col t rows) =? I * I * st); [|discriminate].
  destruct (length (st12 O I st Ou tw (col t rows)) =? I * I * st); [|discriminate].
  inversion Hsc. reflexivity.
Qed.

End Sizes.
End RowsSplit.

(* ---------------------------------------------------------------- Segment::new_with_buffer: concurrent branch = serial branch *)
Theorem segment_concurrent_eq_serial {F : Type} (O : FOps F) (L : FLaws O) (N : nat) (polys : list (list F))
    (poly_offset : nat) (offsets tw : list F) (K s : nat) (w : F) :
  0 < N -> s <= 1 -> length (hd [] polys) = 2 ^ (S K + S K + s) -> length tw = 2 ^ (S K + K + s) ->
  tw_ok O tw (S K + S K + s) w -> root_cond O (S K + S K + s) w ->
  segment_new_concurrent O N polys poly_offset offsets tw = segment_new O N polys poly_offset offsets tw.
Proof.
  intros HN Hs Hp Hlt Htw Hw. unfold segment_new_concurrent, segment_new. cbv zeta.
  destruct (negb (is_pow2 (length offsets))); [reflexivity|].
  destruct (negb (length (hd [] polys) <? length offsets)); [reflexivity|].
  destruct (negb (length (hd [] polys) =? length tw * 2)); [reflexivity|].
  destruct (negb (poly_offset <? length polys)); [reflexivity|].
  set (np := if length polys - poly_offset <? N then length polys - poly_offset else N).
  assert (Hnp : np <= N) by (unfold np; destruct (Nat.ltb_spec (length polys - poly_offset) N); lia).
  set (dchunk := fun o_chunk : list F =>
        map (fun row_idx =>
               map (fun i => fmul O (nth row_idx (nth (poly_offset + i) polys []) (fzero O)) (nth row_idx o_chunk (fzero O)))
                   (seq 0 np) ++ repeat (fzero O) (N - np)) (seq 0 (length (hd [] polys)))).
  rewrite (sequence_some _ (fun oc => fft_in_place_top (rows_ops O N) (dchunk oc) (map (fun t => repeat t N) tw))).
  - reflexivity.
  - intros oc _. apply (split_radix_rows_is_fft O L N tw K s w (dchunk oc) HN Hs); try assumption.
    + apply (padded_rows_wf O), Hnp.
    + unfold dchunk. rewrite map_length, seq_length. exact Hp.
Qed.

(* RowMatrix::evaluate_polys_over in a `concurrent` build = the serial one (hence C09_segments_spec applies) *)
Theorem evaluate_polys_over_concurrent_eq {F : Type} (O : FOps F) (L : FLaws O) (root_of_unity : nat -> F) (N : nat)
    (polys : list (list F)) (tw : list F) (offset : F) (blowup K s : nat) (w : F) :
  s <= 1 -> length (hd [] polys) = 2 ^ (S K + S K + s) -> length tw = 2 ^ (S K + K + s) ->
  tw_ok O tw (S K + S K + s) w -> root_cond O (S K + S K + s) w ->
  evaluate_polys_over_concurrent O root_of_unity N polys tw offset blowup
    = evaluate_polys_over O root_of_unity N polys tw offset blowup.
Proof.
  intros Hs Hp Hlt Htw Hw. unfold evaluate_polys_over_concurrent, evaluate_polys_over.
  destruct (Nat.eqb_spec N 0) as [HN | HN]; [reflexivity|].
  destruct (negb (colmatrix_ok polys)); [reflexivity|].
  unfold build_segments_concurrent, build_segments.
  destruct (N =? 0); [reflexivity|].
  rewrite (map_ext _ _ (fun i => segment_concurrent_eq_serial O L N polys (i * N) _ tw K s w ltac:(lia) Hs Hp Hlt Htw Hw)).
  reflexivity.
Qed.
