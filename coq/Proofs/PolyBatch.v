(* C20 — interpolate_batch equals interpolate on every batch (any field, any N >= 1, any number of batches):
   both are the closed form PolyInterp.lag_acc. *)
From Coq Require Import List Arith Bool Lia Ring Field.
From VBase Require Import FieldOps.
From VModel Require Import Polynom.
From VProofs Require Import PolyBase PolyArith PolyUtils PolyDiv PolyRoots PolyInterp.
Import ListNotations.

Section Batch.
Context {F : Type} (O : FOps F) (L : FLaws O).
Local Notation zero := (fzero O).
Local Notation one := (fone O).
Local Notation "a +f b" := (fadd O a b) (at level 50, left associativity).
Local Notation "a -f b" := (fsub O a b) (at level 50, left associativity).
Local Notation "a *f b" := (fmul O a b) (at level 40, left associativity).
Local Notation peval := (peval O).
Local Notation pprod := (pprod O).
Local Notation roots_poly := (roots_poly O).

Add Field Ffield : (FLaws_field_theory O L).

(* ------------------------------------------------------------------ generic list helpers *)
Lemma get_app_mid' {A} (l1 l2 : list A) v k : length l1 = k -> get (l1 ++ v :: l2) k = Ok v.
Proof. intros <-. apply get_app_mid. Qed.

Lemma upd_app_mid' {A} (l1 l2 : list A) v w k : length l1 = k -> upd (l1 ++ v :: l2) k w = l1 ++ w :: l2.
Proof. intros <-. apply upd_app_mid. Qed.

Lemma get_concat_uniform {A} N : forall (rows : list (list A)) i j,
  (forall r, In r rows -> length r = N) -> i < length rows -> j < N ->
  get (concat rows) (i * N + j) = get (nth i rows []) j.
Proof.
  intros rows i j Hall Hi Hj.
  assert (Hr : length (nth i rows []) = N) by (apply Hall, nth_In, Hi).
  destruct (nth i rows []) as [|d t] eqn:E; [simpl in Hr; lia|]. rewrite <- E in *.
  rewrite (get_ok _ _ d), (get_ok _ _ d) by (rewrite ?(concat_length_rows rows N Hall); nia).
  f_equal. apply concat_nth_rows; assumption.
Qed.

Lemma concat_uniform_length {A} N : forall (rows : list (list A)),
  (forall r, In r rows -> length r = N) -> length (concat rows) = length rows * N.
Proof. intros rows. apply concat_length_rows. Qed.

Lemma skipn_repeat {A} (v : A) : forall m k, skipn k (repeat v m) = repeat v (m - k).
Proof.
  induction m; intros k; simpl. now rewrite skipn_nil. destruct k; simpl; auto.
Qed.

(* ------------------------------------------------------------------ the inline synthetic division *)
(* e_{last} = t_{last}; e_k = t_k + e_{k+1} * x   (t = roots[1..]) *)
Fixpoint hsyn (t : list F) (x : F) : list F :=
  match t with
  | [] => []
  | r1 :: t' => match hsyn t' x with [] => [r1] | e1 :: e' => (r1 +f e1 *f x) :: e1 :: e' end
  end.

Lemma hsyn_cons r1 t x :
  hsyn (r1 :: t) x = match hsyn t x with [] => [r1] | e1 :: e' => (r1 +f e1 *f x) :: e1 :: e' end.
Proof. reflexivity. Qed.

Lemma hsyn_length x : forall t, length (hsyn t x) = length t.
Proof.
  induction t as [|r1 t IH]. reflexivity. rewrite hsyn_cons. destruct (hsyn t x) eqn:E; simpl in *; lia.
Qed.

Lemma hsyn_syn_lin x : forall t t' c, t <> [] -> syn_lin O t x = (t', c) -> c :: t' = hsyn t x ++ [zero].
Proof.
  induction t as [|r1 t IH]; intros t' c Hne E; [congruence|].
  cbn [syn_lin] in E. destruct (syn_lin O t x) as [t2' c2] eqn:E2. inversion E; subst t' c. clear E.
  destruct t as [|r2 t].
  - simpl in E2. inversion E2; subst. simpl. f_equal. ring.
  - pose proof (IH t2' c2 ltac:(discriminate) eq_refl) as H.
    rewrite (hsyn_cons r1). destruct (hsyn (r2 :: t) x) as [|e1 e'] eqn:Eh.
    + exfalso. pose proof (hsyn_length x (r2 :: t)) as Hl. rewrite Eh in Hl. simpl in Hl. lia.
    + simpl in H. inversion H; subst. simpl. f_equal. ring.
Qed.

(* dividing the zero polynomial of a row by (x - x_k): exactly the coefficients of the product of the others *)
Lemma hsyn_roots_poly row k : k < length row ->
  hsyn (tl (roots_poly row)) (nth k row zero) = roots_poly (removek k row).
Proof.
  intros Hk. pose proof (roots_poly_length O row) as Hl.
  destruct (roots_poly row) as [|r0 t] eqn:ER; [simpl in Hl; lia|]. simpl in Hl. cbn [tl].
  assert (Ht : t <> []) by (destruct t; simpl in Hl; [lia|discriminate]).
  assert (E : syn_lin O (roots_poly row) (nth k row zero) = (roots_poly (removek k row) ++ [zero], zero)).
  { rewrite (split_nth O row k Hk) at 1. unfold removek. rewrite (roots_poly_split O L). apply (syn_lin_linmul O L). }
  rewrite ER in E. cbn [syn_lin] in E. destruct (syn_lin O t (nth k row zero)) as [t' c] eqn:Et.
  injection E as E1 E2. pose proof (hsyn_syn_lin _ t t' c Ht Et) as H. rewrite E1 in H.
  apply app_inv_tail in H. now symmetry.
Qed.

Definition eqn_body (roots : list F) (x : F) : nat -> list F -> Result (list F) :=
  fun k equation => rk1 <- get roots (k + 1);; ek1 <- get equation (k + 1);; set equation k (rk1 +f ek1 *f x).

Lemma eqn_loop r0 x : forall t1 t2 junk, t2 <> [] -> length junk = length t1 ->
  for_down (length t1) (eqn_body (r0 :: t1 ++ t2) x) (junk ++ hsyn t2 x) = Ok (hsyn (t1 ++ t2) x).
Proof.
  induction t1 as [|c t1 IH] using rev_ind; intros t2 junk Ht2 Hj.
  - destruct junk; [|discriminate]. reflexivity.
  - rewrite app_length in Hj. simpl in Hj. rewrite Nat.add_1_r in Hj.
    destruct (list_snoc_inv junk (length t1) Hj) as (junk' & jl & Ej & Hj'). subst junk.
    rewrite app_length. simpl length. rewrite Nat.add_1_r. cbn [for_down].
    rewrite <- !app_assoc. simpl ([c] ++ t2). simpl ([jl] ++ hsyn t2 x).
    destruct (hsyn t2 x) as [|e1 e'] eqn:Eh.
    { exfalso. pose proof (hsyn_length x t2) as Hl. rewrite Eh in Hl. destruct t2; simpl in Hl; [congruence|lia]. }
    unfold eqn_body at 1. rewrite Nat.add_1_r. change (get (r0 :: ?l) (S ?k)) with (get l k).
    rewrite get_app_mid. cbn [bind].
    rewrite <- Hj', <- Nat.add_1_r, (get_app_r junk' (jl :: e1 :: e') 1). cbn [get nth_error bind].
    rewrite set_ok by (rewrite app_length; simpl; lia). rewrite upd_app_mid.
    assert (Eh' : hsyn (c :: t2) x = (c +f e1 *f x) :: e1 :: e') by (rewrite hsyn_cons; now rewrite Eh).
    rewrite <- Eh'. rewrite Hj'. apply IH; [discriminate|exact Hj'].
Qed.

Lemma eqn_build r0 t x N1 equation0 : length t = S N1 -> length equation0 = S N1 ->
  (rN <- get (r0 :: t) (S N1);; equation <- set equation0 N1 rN;;
   for_down N1 (eqn_body (r0 :: t) x) equation) = Ok (hsyn t x).
Proof.
  intros Ht He.
  destruct (list_snoc_inv t N1 Ht) as (t1 & rN & Et & Ht1). subst t.
  destruct (list_snoc_inv equation0 N1 He) as (junk & jl & Ee & Hj). subst equation0.
  change (get (r0 :: ?l) (S ?k)) with (get l k). rewrite <- Ht1 at 1. rewrite get_app_mid. cbn [bind].
  rewrite set_ok by (rewrite app_length; simpl; lia). rewrite <- Hj at 1. rewrite upd_app_mid. cbn [bind].
  rewrite <- Ht1. change [rN] with (hsyn [rN] x) at 2.
  apply eqn_loop; [discriminate|congruence].
Qed.

(* ------------------------------------------------------------------ phase 1: equations and inverses *)
Definition p1_inner_body (N i : nat) (xs_i roots : list F) :
    nat -> list (list F) * list F -> Result (list (list F) * list F) :=
  fun j st' =>
    let '(equations, inverses) := st' in
    x <- get xs_i j;;
    equation <- get equations (i * N + j);;
    match N with 0 => Panic | S N1 =>
    rN <- get roots N;;
    equation <- set equation N1 rN;;
    equation <- for_down N1 (fun k equation =>
        rk1 <- get roots (k + 1);; ek1 <- get equation (k + 1);;
        set equation k (rk1 +f ek1 *f x)) equation;;
    equations <- set equations (i * N + j) equation;;
    inverses <- set inverses (i * N + j) (eval O equation x);;
    Ok (equations, inverses) end.

Definition p1_outer_body (N : nat) (xs : list (list F)) :
    nat -> list (list F) * list F * list F -> Result (list (list F) * list F * list F) :=
  fun i st =>
    let '(equations, inverses, roots) := st in
    xs_i <- get xs i;;
    roots <- fill_zero_roots O xs_i roots;;
    st' <- for_up 0 (length xs_i) (p1_inner_body N i xs_i roots) (equations, inverses);;
    Ok (fst st', snd st', roots).

Definition p2_inner_body (N i : nat) (ys : list (list F)) (equations : list (list F)) (inverses : list F) :
    nat -> list F -> Result (list F) :=
  fun j poly =>
    ys_i <- get ys i;; yij <- get ys_i j;;
    invij <- get inverses (i * N + j);;
    let inv_y := yij *f invij in
    eq <- get equations (i * N + j);;
    Ok (zip_with (fun res_coeff eq_coeff => res_coeff +f eq_coeff *f inv_y) poly eq).

Definition p2_outer_body (N : nat) (ys : list (list F)) (equations : list (list F)) (inverses : list F) :
    nat -> list (list F) -> Result (list (list F)) :=
  fun i result =>
    poly <- get result i;;
    poly <- for_up 0 N (p2_inner_body N i ys equations inverses) poly;;
    set result i poly.

Lemma interpolate_batch_unfold dbg N xs ys :
  interpolate_batch O dbg N xs ys =
  if dbg && negb (length xs =? length ys) then Panic else
  st <- for_up 0 (length xs) (p1_outer_body N xs)
          (repeat (repeat zero N) (length xs * N), repeat zero (length xs * N), repeat zero (N + 1));;
  let '(equations, inverses, _) := st in
  if N =? 0 then Panic else
  for_up 0 (length xs) (p2_outer_body N ys equations (batch_inversion O inverses)) (repeat (repeat zero N) (length xs)).
Proof. reflexivity. Qed.

Definition rowE (row : list F) : list (list F) := map (hsyn (tl (roots_poly row))) row.
Definition rowI (row : list F) : list F := map (fun x => eval O (hsyn (tl (roots_poly row)) x) x) row.

Lemma p1_inner N1 i r0 t xs_i : length t = S N1 ->
  forall xt xd PE PI m, xs_i = xd ++ xt ->
  length PE = i * S N1 + length xd -> length PI = i * S N1 + length xd -> length xt <= m ->
  for_up (length xd) (length xt) (p1_inner_body (S N1) i xs_i (r0 :: t))
    (PE ++ repeat (repeat zero (S N1)) m, PI ++ repeat zero m)
  = Ok (PE ++ map (hsyn t) xt ++ repeat (repeat zero (S N1)) (m - length xt),
        PI ++ map (fun x => eval O (hsyn t x) x) xt ++ repeat zero (m - length xt)).
Proof.
  intros Ht. induction xt as [|x xt IH]; intros xd PE PI m Hxs HE HI Hm.
  - simpl. now rewrite Nat.sub_0_r.
  - simpl in Hm. destruct m as [|m]; [lia|].
    cbn [length for_up]. unfold p1_inner_body at 1.
    assert (Hx : get xs_i (length xd) = Ok x) by (rewrite Hxs; apply get_app_mid).
    rewrite Hx. cbn [bind].
    change (repeat (repeat zero (S N1)) (S m)) with (repeat zero (S N1) :: repeat (repeat zero (S N1)) m).
    change (repeat zero (S m)) with (zero :: repeat zero m).
    rewrite <- HE, get_app_mid. cbn [bind].
    pose proof (eqn_build r0 t x N1 (repeat zero (S N1)) Ht (repeat_length _ _)) as Hb.
    unfold eqn_body in Hb. cbv beta in Hb.
    destruct (get (r0 :: t) (S N1)) as [rN|] eqn:EN; [|discriminate Hb]. cbn [bind] in Hb |- *.
    destruct (set (repeat zero (S N1)) N1 rN) as [eq1|] eqn:E1; [|discriminate Hb]. cbn [bind] in Hb |- *.
    rewrite Hb. cbn [bind].
    rewrite set_ok by (rewrite app_length; simpl; lia). rewrite upd_app_mid. cbn [bind].
    rewrite HE, <- HI. rewrite set_ok by (rewrite app_length; simpl; lia). rewrite upd_app_mid. cbn [bind].
    pose proof (IH (xd ++ [x]) (PE ++ [hsyn t x]) (PI ++ [eval O (hsyn t x) x]) m) as G.
    rewrite !last_length, <- !app_assoc in G. apply G; [exact Hxs|lia..].
Qed.

Lemma p1_outer N1 xs : (forall r, In r xs -> length r = S N1) ->
  forall xst xsd PE PI roots, xs = xsd ++ xst ->
  length PE = length xsd * S N1 -> length PI = length xsd * S N1 -> length roots = S (S N1) ->
  exists roots',
  for_up (length xsd) (length xst) (p1_outer_body (S N1) xs)
    (PE ++ repeat (repeat zero (S N1)) (length xst * S N1), PI ++ repeat zero (length xst * S N1), roots)
  = Ok (PE ++ concat (map rowE xst), PI ++ concat (map rowI xst), roots').
Proof.
  intros Hall. induction xst as [|row xst IH]; intros xsd PE PI roots Hxs HE HI Hr.
  - exists roots. simpl. now rewrite !app_nil_r.
  - assert (Hrow : length row = S N1) by (apply Hall; rewrite Hxs; apply in_or_app; right; now left).
    cbn [length for_up]. unfold p1_outer_body at 1.
    assert (Hg : get xs (length xsd) = Ok row) by (rewrite Hxs; apply get_app_mid). rewrite Hg. cbn [bind].
    rewrite (fill_zero_roots_spec O row roots) by (rewrite Hrow; exact Hr). cbn [bind].
    pose proof (roots_poly_length O row) as Hl.
    destruct (roots_poly row) as [|r0 t] eqn:ER; [simpl in Hl; lia|]. simpl in Hl.
    pose proof (p1_inner N1 (length xsd) r0 t row ltac:(lia) row [] PE PI (S (length xst) * S N1) eq_refl
                  ltac:(simpl; lia) ltac:(simpl; lia) ltac:(rewrite Hrow; simpl; lia)) as G.
    simpl (length []) in G. rewrite G. cbn [bind fst snd].
    replace (S (length xst) * S N1 - length row) with (length xst * S N1) by (rewrite Hrow; simpl; lia).
    destruct (IH (xsd ++ [row]) (PE ++ map (hsyn t) row) (PI ++ map (fun x => eval O (hsyn t x) x) row) (r0 :: t))
      as (roots' & Hroots').
    + rewrite Hxs, <- app_assoc. reflexivity.
    + rewrite !app_length, map_length, Hrow. simpl. lia.
    + rewrite !app_length, map_length, Hrow. simpl. lia.
    + simpl. lia.
    + exists roots'. rewrite app_length in Hroots'. cbn [length] in Hroots'. rewrite Nat.add_1_r in Hroots'.
      rewrite <- !app_assoc in Hroots'. rewrite Hroots'.
      cbn [map concat]. unfold rowE, rowI. rewrite ER. cbn [tl]. reflexivity.
Qed.

(* ------------------------------------------------------------------ phase 2: accumulation *)
Section Phase2.
Variables (N1 : nat) (xs ys : list (list F)).
Let N := S N1.
Hypothesis Hxs : forall r, In r xs -> length r = N.
Hypothesis Hys : forall r, In r ys -> length r = N.
Hypothesis Hlen : length xs = length ys.
Let equations := concat (map rowE xs).
Let inverses := batch_inversion O (concat (map rowI xs)).

Lemma rowE_length row : length (rowE row) = length row.
Proof. apply map_length. Qed.
Lemma rowI_length row : length (rowI row) = length row.
Proof. apply map_length. Qed.

Lemma get_equation i j : i < length xs -> j < N ->
  get equations (i * N + j) = Ok (roots_poly (removek j (nth i xs []))).
Proof.
  intros Hi Hj. unfold equations.
  assert (Hr : length (nth i xs []) = N) by (apply Hxs, nth_In, Hi).
  rewrite (get_concat_uniform N).
  - rewrite (nth_indep _ [] (rowE [])) by now rewrite map_length. rewrite map_nth.
    unfold rowE. rewrite (get_map _ _ j zero) by lia. now rewrite hsyn_roots_poly by lia.
  - intros r Hin. apply in_map_iff in Hin. destruct Hin as (row & <- & Hin). rewrite rowE_length. now apply Hxs.
  - now rewrite map_length.
  - exact Hj.
Qed.

Lemma get_inverse i j : i < length xs -> j < N ->
  get inverses (i * N + j) = Ok (nth j (dens O (nth i xs [])) zero).
Proof.
  intros Hi Hj. unfold inverses. rewrite (batch_inversion_spec O L).
  assert (Hr : length (nth i xs []) = N) by (apply Hxs, nth_In, Hi).
  assert (Hall : forall r, In r (map rowI xs) -> length r = N).
  { intros r Hin. apply in_map_iff in Hin. destruct Hin as (row & <- & Hin). rewrite rowI_length. now apply Hxs. }
  assert (Hg : get (concat (map rowI xs)) (i * N + j)
               = Ok (pprod (removek j (nth i xs [])) (nth j (nth i xs []) zero))).
  { rewrite (get_concat_uniform N); auto; [|now rewrite map_length].
    rewrite (nth_indep _ [] (rowI [])) by now rewrite map_length. rewrite map_nth.
    unfold rowI. rewrite (get_map _ _ j zero) by lia. rewrite hsyn_roots_poly by lia.
    rewrite (eval_horner O L). now rewrite (roots_poly_peval O L). }
  apply get_ok_inv in Hg. destruct Hg as (Hlt & Hnth).
  rewrite (get_map _ _ _ zero) by exact Hlt. rewrite Hnth. now rewrite (dens_nth O L) by lia.
Qed.

Lemma p2_inner i : i < length xs -> forall k, k <= N ->
  for_up 0 k (p2_inner_body N i ys equations inverses) (repeat zero N)
  = Ok (lag_acc O (nth i xs []) (nth i ys []) (dens O (nth i xs [])) k).
Proof.
  intros Hi.
  assert (Hr : length (nth i xs []) = N) by (apply Hxs, nth_In, Hi).
  assert (Hyr : length (nth i ys []) = N) by (apply Hys, nth_In; lia).
  induction k as [|k IH]; intros Hk.
  - simpl. now rewrite Hr.
  - rewrite for_up_snoc, IH by lia. cbn [bind]. simpl (0 + k).
    unfold p2_inner_body. rewrite (get_ok ys i []) by lia. cbn [bind].
    rewrite (get_ok (nth i ys []) k zero) by lia. cbn [bind].
    rewrite get_inverse by lia. cbn [bind]. rewrite get_equation by lia. cbn [bind].
    cbn [lag_acc]. f_equal. unfold Ng. rewrite zip_with_app_tail. reflexivity.
    rewrite (lag_acc_length O) by lia. rewrite (roots_poly_length O). unfold removek.
    rewrite app_length, firstn_length, skipn_length. lia.
Qed.

Definition lag_row (i : nat) : list F :=
  lag_acc O (nth i xs []) (nth i ys []) (dens O (nth i xs [])) N.

Lemma p2_outer : forall k, k <= length xs ->
  for_up 0 k (p2_outer_body N ys equations inverses) (repeat (repeat zero N) (length xs))
  = Ok (map lag_row (seq 0 k) ++ repeat (repeat zero N) (length xs - k)).
Proof.
  induction k as [|k IH]; intros Hk.
  - simpl. now rewrite Nat.sub_0_r.
  - rewrite for_up_snoc, IH by lia. cbn [bind]. simpl (0 + k).
    replace (length xs - k) with (S (length xs - S k)) by lia. cbn [repeat].
    unfold p2_outer_body.
    assert (Hlk : length (map lag_row (seq 0 k)) = k) by now rewrite map_length, seq_length.
    rewrite (get_app_mid' _ _ _ k Hlk). cbn [bind].
    rewrite (p2_inner k ltac:(lia) N (le_n _)). cbn [bind].
    rewrite set_ok by (rewrite app_length; simpl; lia).
    rewrite (upd_app_mid' _ _ _ _ k Hlk).
    rewrite seq_S, map_app, <- app_assoc. reflexivity.
Qed.
End Phase2.

Theorem interpolate_batch_eq dbg N xs ys : 1 <= N -> length xs = length ys ->
  (forall r, In r xs -> length r = N) -> (forall r, In r ys -> length r = N) ->
  interpolate_batch O dbg N xs ys
  = Ok (map (fun i => lag_acc O (nth i xs []) (nth i ys []) (dens O (nth i xs [])) N) (seq 0 (length xs))).
Proof.
  intros HN Hlen Hxs Hys. destruct N as [|N1]; [lia|].
  rewrite interpolate_batch_unfold. rewrite (proj2 (Nat.eqb_eq _ _) Hlen). rewrite andb_false_r.
  destruct (p1_outer N1 xs Hxs xs [] [] [] (repeat zero (S N1 + 1)) eq_refl eq_refl eq_refl
              ltac:(rewrite repeat_length; lia)) as (roots' & H1).
  cbn [app length] in H1. rewrite H1. cbn [bind].
  rewrite (p2_outer N1 xs ys Hxs Hys Hlen (length xs) (le_n _)).
  rewrite Nat.sub_diag. simpl. now rewrite app_nil_r.
Qed.

Theorem interpolate_batch_spec dbg N xs ys : 1 <= N -> length xs = length ys ->
  (forall r, In r xs -> length r = N) -> (forall r, In r ys -> length r = N) ->
  exists ps, interpolate_batch O dbg N xs ys = Ok ps /\ length ps = length xs /\
    forall i, i < length xs -> interpolate O dbg (nth i xs []) (nth i ys []) false = Ok (nth i ps []).
Proof.
  intros HN Hlen Hxs Hys.
  exists (map (fun i => lag_acc O (nth i xs []) (nth i ys []) (dens O (nth i xs [])) N) (seq 0 (length xs))).
  split. now apply interpolate_batch_eq.
  split. now rewrite map_length, seq_length.
  intros i Hi.
  assert (Hr : length (nth i xs []) = N) by (apply Hxs, nth_In, Hi).
  assert (Hyr : length (nth i ys []) = N) by (apply Hys, nth_In; lia).
  rewrite (interpolate_eq_lag O L) by (intros; lia). rewrite nth_map_seq by assumption. now rewrite Hr.
Qed.

Theorem interpolate_batch_evaluates dbg N xs ys ps : 1 <= N -> length xs = length ys ->
  (forall r, In r xs -> length r = N /\ NoDup r) -> (forall r, In r ys -> length r = N) ->
  interpolate_batch O dbg N xs ys = Ok ps ->
  forall i j, i < length xs -> j < N ->
    length (nth i ps []) = N /\ peval (nth i ps []) (nth j (nth i xs []) zero) = nth j (nth i ys []) zero.
Proof.
  intros HN Hlen Hxs Hys Hps i j Hi Hj.
  destruct (interpolate_batch_spec dbg N xs ys HN Hlen (fun r H => proj1 (Hxs r H)) Hys) as (ps' & H1 & _ & H3).
  rewrite Hps in H1. inversion H1; subst ps'. specialize (H3 i Hi).
  destruct (Hxs (nth i xs []) (nth_In xs [] Hi)) as (Hr & Hnd).
  assert (Hyr : length (nth i ys []) = length (nth i xs [])) by (rewrite Hr; apply Hys, nth_In; lia).
  destruct (interpolate_spec O L dbg _ _ Hnd Hyr) as (p & Hp & Hlp & _ & Hev).
  rewrite H3 in Hp. inversion Hp; subst p. split. lia. apply Hev. lia.
Qed.

End Batch.
