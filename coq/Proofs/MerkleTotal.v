(* C10 — totality: get_root / verify_batch / into_paths never panic, for ANY proof and index list. *)
From Coq Require Import ZArith List Bool Lia.
From VBase Require Import MachInt.
From VModel Require Import Merkle.
From VProofs Require Import MerkleBase MerkleIdx MerkleBatch.
Import ListNotations.
Open Scope Z_scope.

(* [safe r P]: r is not a panic, and if it is a value, the value satisfies P *)
Definition safe {A} (r : res A) (P : A -> Prop) : Prop :=
  match r with Ok a => P a | Err _ => True | Panic => False end.

Lemma safe_bind {A B} (r : res A) (f : A -> res B) P Q :
  safe r P -> (forall a, P a -> safe (f a) Q) -> safe (bind r f) Q.
Proof. destruct r; simpl; auto. Qed.

Lemma safe_mono {A} (r : res A) (P Q : A -> Prop) : safe r P -> (forall a, P a -> Q a) -> safe r Q.
Proof. destruct r; simpl; auto. Qed.

Lemma safe_not_Panic {A} (r : res A) P : safe r P -> r <> Panic.
Proof. destruct r; simpl; congruence. Qed.

Lemma safe_Ok {A} (r : res A) P a : safe r P -> r = Ok a -> P a.
Proof. intros H ->. exact H. Qed.

Lemma safe_idx {A} (l : list A) i : 0 <= i < zlen l -> safe (idx l i) (fun x => nth_error l (Z.to_nat i) = Some x).
Proof.
  intros H. destruct (idx l i) eqn:E; simpl.
  - apply idx_inv in E. tauto.
  - exact Logic.I.
  - exact (idx_not_Panic _ _ H E).
Qed.

Lemma safe_upd {A} (l : list A) i x : 0 <= i < zlen l ->
  safe (upd l i x) (fun l' => length l' = length l /\
                             forall j, nth_error l' j = if Nat.eqb j (Z.to_nat i) then Some x else nth_error l j).
Proof. intros H. destruct (upd_Ok l i x H) as (l' & E & P). rewrite E. exact P. Qed.

Lemma safe_uadd a b : a + b < usz -> safe (uadd a b) (fun s => s = a + b).
Proof. intros H. rewrite uadd_Ok by assumption. reflexivity. Qed.

Definition nonneg (l : list Z) : Prop := Forall (fun x => 0 <= x) l.

Section Total.
Variable D : Type.
Variable merge : D -> D -> D.

Notation gscan := (gscan D merge).
Notation glevels := (glevels D merge).
Notation gfirst := (gfirst D merge).
Notation gleaf := (gleaf D).
Notation gstep := (gstep D merge).
Notation gsib := (gsib D).
Notation gcore := (gcore D merge).
Notation get_root := (get_root D merge).
Notation into_paths := (into_paths D merge).

Lemma gstep_safe a s v ptm : safe (gstep a s v ptm) (fun _ => True).
Proof. unfold Merkle.gstep. destruct (bt_get a v); exact Logic.I. Qed.

Lemma gsib_safe pn ptrs i : 0 <= i < zlen ptrs -> zlen ptrs = zlen pn -> nonneg ptrs ->
  safe (gsib pn ptrs i) (fun r => length (snd r) = length ptrs /\ nonneg (snd r)).
Proof.
  intros Hi HL Hnn. unfold Merkle.gsib.
  eapply safe_bind; [apply safe_idx; assumption|]. intros pointer Ep. cbv beta.
  assert (Hp : 0 <= pointer). { apply nth_error_In in Ep. unfold nonneg in Hnn. rewrite Forall_forall in Hnn. auto. }
  eapply safe_bind; [apply safe_idx; lia|]. intros nd End. cbv beta.
  destruct (Z.leb_spec (zlen nd) pointer); [exact Logic.I|].
  eapply safe_bind; [apply safe_idx; lia|]. intros s Es. cbv beta.
  eapply safe_bind; [apply safe_upd; assumption|]. intros ptrs' [L Nn]. cbn [safe snd]. split; [assumption|].
  unfold nonneg in *. rewrite Forall_forall in *. intros x Hx. apply In_nth_error in Hx. destruct Hx as [j Hj].
  rewrite Nn in Hj. destruct (Nat.eqb j (Z.to_nat i)); [injection Hj as <-; lia|]. apply Hnn. eapply nth_error_In. eassumption.
Qed.

Lemma gscan_safe pn : forall I i v ptrs ptm,
  0 <= i -> i + zlen I <= zlen ptrs -> zlen ptrs = zlen pn -> nonneg ptrs ->
  safe (gscan pn I i v ptrs ptm)
       (fun r => let '(_, ptrs', _, next) := r in
                 length ptrs' = length ptrs /\ nonneg ptrs' /\ (length next <= length I)%nat).
Proof.
  induction I as [|a r IH|a r Em IH] using scan_ind; intros i v ptrs ptm Hi Hl HL Hnn.
  - cbn. auto.
  - rewrite gscan_unfold, merged_same. cbn [tl]. rewrite !zlen_cons in Hl.
    destruct (bt_get (Z.lxor a 1) v); [|exact Logic.I].
    eapply safe_bind; [apply gstep_safe|]. intros [[v1 ptm1] pi] _.
    eapply safe_bind; [apply (IH (i + 2) v1 ptrs ptm1); try assumption; lia|].
    intros [[[vF ptrsF] ptmF] next] (L & Nn & Ln). cbn [safe]. split; [assumption|]. split; [assumption|]. simpl. lia.
  - rewrite gscan_unfold, Em. rewrite zlen_cons in Hl. pose proof (zlen_nonneg r).
    eapply safe_bind; [apply gsib_safe; try assumption; lia|].
    intros [s ptrs1] [L1 N1]. cbn [snd] in *.
    eapply safe_bind; [apply gstep_safe|]. intros [[v1 ptm1] pi] _.
    eapply safe_bind; [apply (IH (i + 1) v1 ptrs1 ptm1); try assumption; unfold zlen in *; lia|].
    intros [[[vF ptrsF] ptmF] next] (L & Nn & Ln). cbn [safe]. split; [lia|]. split; [assumption|]. simpl. lia.
Qed.

Lemma glevels_safe pn : forall k I v ptrs ptm,
  zlen I <= zlen ptrs -> zlen ptrs = zlen pn -> nonneg ptrs ->
  safe (glevels k pn I v ptrs ptm) (fun _ => True).
Proof.
  induction k as [|k IH]; intros I v ptrs ptm Hl HL Hnn; [exact Logic.I|].
  cbn [Merkle.glevels]. eapply safe_bind; [apply (gscan_safe pn); try assumption; lia|].
  intros [[[v1 ptrs1] ptm1] next] (L & Nn & Ln). apply IH; [unfold zlen in *; lia|unfold zlen in *; lia|assumption].
Qed.

Section First.
Variable p : bproof D.
Variable imap : bmap Z.
Hypothesis imap_nonneg : forall k j, bt_get k imap = Some j -> 0 <= j.

Lemma gleafv_safe j : 0 <= j -> safe (gleafv D p j) (fun _ => True).
Proof.
  intros Hj. unfold Merkle.gleafv. destruct (Z.leb_spec (zlen (bp_leaves p)) j); [exact Logic.I|].
  eapply safe_mono; [apply safe_idx; lia|auto].
Qed.

Lemma gnode0_safe i : 0 <= i < zlen (bp_nodes p) -> safe (gnode0 D p i) (fun _ => True).
Proof.
  intros Hi. unfold Merkle.gnode0. eapply safe_bind; [apply safe_idx; assumption|]. intros [|x nd] _; exact Logic.I.
Qed.

Lemma gleaf_safe i index : 0 <= i < zlen (bp_nodes p) -> index + 1 < usz ->
  safe (gleaf p imap i index) (fun r => 0 <= snd r).
Proof.
  intros Hi Hx. unfold Merkle.gleaf. rewrite uadd_Ok by assumption. cbn [bind].
  destruct (bt_get index imap) as [j1|] eqn:E1; destruct (bt_get (index + 1) imap) as [j2|] eqn:E2.
  - eapply safe_bind; [apply gleafv_safe; eauto|]. intros b0 _.
    eapply safe_bind; [apply gleafv_safe; eauto|]. intros b1 _. cbn. lia.
  - eapply safe_bind; [apply gleafv_safe; eauto|]. intros b0 _.
    eapply safe_bind; [apply gnode0_safe; assumption|]. intros b1 _. cbn. lia.
  - eapply safe_bind; [apply gnode0_safe; assumption|]. intros b0 _.
    eapply safe_bind; [apply gleafv_safe; eauto|]. intros b1 _. cbn. lia.
  - eapply safe_bind; [apply gnode0_safe; assumption|]. intros b0 _. exact Logic.I.
Qed.

Lemma gfirst_safe offset : forall norm i v ptm,
  0 <= i -> i + zlen norm <= zlen (bp_nodes p) ->
  (forall e, In e norm -> e + 1 < usz /\ offset + e < usz) ->
  safe (gfirst p imap offset norm i v ptm)
       (fun r => let '(_, ptrs, _, next) := r in
                 length ptrs = length norm /\ nonneg ptrs /\ length next = length norm).
Proof.
  induction norm as [|e rest IH]; intros i v ptm Hi Hl Hr.
  - cbn. repeat split; auto. constructor.
  - rewrite zlen_cons in Hl. cbn [Merkle.gfirst]. destruct (Hr e (or_introl eq_refl)) as [H1 H2].
    eapply safe_bind; [apply gleaf_safe; [pose proof (zlen_nonneg rest); lia|assumption]|].
    intros [[b0 b1] ptr] Hp. cbn [snd] in Hp.
    rewrite uadd_Ok by assumption. cbn [bind].
    eapply safe_bind; [apply IH; [lia|lia|intros e' He'; apply Hr; right; assumption]|].
    intros [[[vF ptrs] ptmF] next] (L & Nn & Ln). cbn [safe]. split; [simpl; lia|]. split; [constructor; assumption|simpl; lia].
Qed.
End First.

Definition usize_list (l : list Z) : Prop := forall x, In x l -> 0 <= x.

Theorem gcore_safe : forall p indexes ptm0, 0 <= bp_depth p -> usize_list indexes ->
  safe (gcore p indexes ptm0) (fun _ => True).
Proof.
  intros p indexes ptm0 Hd Hu. unfold Merkle.gcore.
  destruct (map_indexes indexes (bp_depth p)) as [imap| |] eqn:Emi; cbn [bind]; [|exact Logic.I|exact (map_indexes_not_Panic _ _ Emi)].
  apply map_indexes_inv in Emi. destruct Emi as (Hd64 & ND & Hr & IM & _).
  destruct (Z.eqb_spec (zlen (normalize_indexes indexes)) (zlen (bp_nodes p))) as [HL|]; cbn [negb]; [|exact Logic.I].
  eapply safe_bind.
  { apply (gfirst_safe p imap).
    - intros k j E. apply IM in E. tauto.
    - lia.
    - lia.
    - intros e He. apply normalize_In in He. destruct He as (i & Hi & ->).
      pose proof (pow2_usz _ i Hd64 (Hr i Hi)). pose proof (Hr i Hi). pose proof (Hu i Hi). zmod i. lia. }
  intros [[[v ptrs] ptm] next] (L & Nn & Ln).
  eapply safe_bind; [apply glevels_safe; [unfold zlen in *; lia|unfold zlen in *; lia|assumption]|].
  intros [[v' ptrs'] ptm'] _. destruct (negb _); exact Logic.I.
Qed.

(* for EVERY batch proof (any leaves, node vectors, depth byte) and EVERY index list *)
Theorem get_root_total : forall p indexes, 0 <= bp_depth p -> usize_list indexes -> get_root p indexes <> Panic.
Proof.
  intros p indexes Hd Hu. unfold Merkle.get_root. destruct indexes as [|i0 ir] eqn:Ei; [discriminate|]. rewrite <- Ei in *.
  destruct (max_paths <? zlen indexes); [discriminate|]. destruct (negb _); [discriminate|].
  eapply safe_not_Panic. eapply safe_bind; [apply gcore_safe; assumption|].
  intros [v ptm] _. destruct (bt_get 1 v); exact Logic.I.
Qed.

(* success of the common core implies the guards of map_indexes and the node-vector count *)
Lemma gcore_Ok_guards p indexes ptm0 r : gcore p indexes ptm0 = Ok r ->
  NoDup indexes /\ (forall i, In i indexes -> i < 2 ^ bp_depth p) /\ bp_depth p < 64 /\
  zlen (normalize_indexes indexes) = zlen (bp_nodes p).
Proof.
  unfold Merkle.gcore. intros Eg. apply bind_Ok in Eg. destruct Eg as (imap & Emi & Eg).
  apply map_indexes_inv in Emi. destruct Emi as (Hd & ND & Hr & _).
  destruct (Z.eqb_spec (zlen (normalize_indexes indexes)) (zlen (bp_nodes p))); cbn [negb] in Eg; [|discriminate]. auto.
Qed.

(* acceptance implies every structural guard: an opening with an empty / too long / duplicated /
   out-of-range position list, a wrong number of leaves or of node vectors, or a depth >= 64 is
   never accepted (and, by get_root_total, never panics: it is an error) *)
Theorem get_root_Ok_guards : forall p indexes r, get_root p indexes = Ok r ->
  indexes <> [] /\ zlen indexes <= 255 /\ zlen indexes = zlen (bp_leaves p) /\ NoDup indexes /\
  (forall i, In i indexes -> i < 2 ^ bp_depth p) /\ bp_depth p < 64 /\
  zlen (normalize_indexes indexes) = zlen (bp_nodes p).
Proof.
  intros p indexes r E. apply get_root_Ok_inv in E. destruct E as (Hne & Hlen & HL & v & ptm & Eg & _).
  apply gcore_Ok_guards in Eg. tauto.
Qed.

Theorem verify_batch_total : forall D_eqb root p indexes, 0 <= bp_depth p -> usize_list indexes ->
  verify_batch D D_eqb merge root indexes p <> Panic.
Proof.
  intros D_eqb root p indexes Hd Hu. unfold Merkle.verify_batch.
  apply bind_not_Panic; [apply get_root_total; assumption|]. intros r _. destruct (D_eqb root r); discriminate.
Qed.

Lemma get_path_up_safe tree : forall fuel s, 0 <= s < 2 ^ Z.of_nat fuel -> safe (get_path_up D fuel tree s) (fun _ => True).
Proof.
  induction fuel as [|fuel IH]; intros s Hs.
  - cbn in Hs. cbn. destruct (Z.leb_spec s 1); [exact Logic.I|lia].
  - cbn [Merkle.get_path_up]. destruct (Z.leb_spec s 1); [exact Logic.I|].
    destruct (bt_get (Z.lxor s 1) tree); [|exact Logic.I].
    eapply safe_bind; [apply IH|intros; exact Logic.I].
    rewrite shiftr1. rewrite Nat2Z.inj_succ, Z.pow_succ_r in Hs by lia. zmod s. lia.
Qed.

Lemma mapM_safe {A B} (f : A -> res B) (l : list A) : (forall a, In a l -> safe (f a) (fun _ => True)) -> safe (mapM f l) (fun _ => True).
Proof.
  induction l as [|a r IH]; intros H; [exact Logic.I|]. cbn [mapM].
  eapply safe_bind; [apply H; left; reflexivity|]. intros b _.
  eapply safe_bind; [apply IH; intros; apply H; right; assumption|]. intros; exact Logic.I.
Qed.

Theorem into_paths_total : forall p indexes, 0 <= bp_depth p -> usize_list indexes -> into_paths p indexes <> Panic.
Proof.
  intros p indexes Hd Hu. unfold Merkle.into_paths. destruct indexes as [|i0 ir] eqn:Ei; [discriminate|]. rewrite <- Ei in *.
  destruct (max_paths <? zlen indexes); [discriminate|]. destruct (negb _); [discriminate|].
  eapply safe_not_Panic.
  destruct (gcore p indexes _) as [[v ptm]| |] eqn:Eg; cbn [bind].
  - apply gcore_Ok_guards in Eg. destruct Eg as (_ & Hr & Hd64 & _).
    apply mapM_safe. intros i Hi. unfold Merkle.get_path.
    destruct (Z.leb_spec 64 (bp_depth p)); [lia|].
    pose proof (Hr i Hi). pose proof (Hu i Hi). pose proof (pow2_usz (bp_depth p) i Hd64 ltac:(assumption)).
    rewrite uadd_pow2 by assumption. cbn [bind].
    destruct (bt_get _ ptm); [|exact Logic.I].
    eapply safe_bind; [apply get_path_up_safe|intros; exact Logic.I].
    change (Z.of_nat 64) with 64. rewrite <- usz_eq. pose proof (p2_pos (bp_depth p) Hd). lia.
  - exact Logic.I.
  - exfalso. pose proof (gcore_safe p indexes (ptm_leaves D (2 ^ bp_depth p) indexes (bp_leaves p) []) Hd Hu) as S.
    rewrite Eg in S. exact S.
Qed.

End Total.
