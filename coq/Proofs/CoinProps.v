(* C19 — corollaries of Proofs/Coin.v in the form quoted by Props/C19.v: the loop lemmas at the 1000 tries of
   coin_draw, the stored f64 word of a drawn element, and the same facts at any position of a run.  stdlib style. *)
From VBase Require Import MachInt.
From VGen Require Import F64.
From VModel Require Import ToyHash Coin.
From VProofs Require Import Coin F64Red F64Ops.
Open Scope Z_scope.

Section Hist.
  Variable D : Type.
  Variable merge : D -> D -> D.
  Variable merge_with_int : D -> Z -> D.
  Variable dbytes : D -> list Z.

  Local Notation draw := (coin_draw D merge_with_int dbytes).
  Local Notation draw_integers := (coin_draw_integers D merge_with_int dbytes).
  Local Notation step := (step D merge merge_with_int dbytes).
  Local Notation run := (run D merge merge_with_int dbytes).

  Theorem draw_valid k c c' e : draw k c = (c', Ok e) ->
    length e = fk_deg k /\ Forall (fun v => v < fk_M k) e.
  Proof. unfold coin_draw. intros H. eapply draw_loop_valid. exact H. Qed.

  Theorem draw_valid_nonneg k c c' e : (forall d, Forall (fun b => 0 <= b < 256) (dbytes d)) ->
    draw k c = (c', Ok e) -> length e = fk_deg k /\ Forall (fun v => 0 <= v < fk_M k) e.
  Proof.
    intros Hb H. destruct (draw_valid k c c' e H) as [Hl Hlt]. split; [assumption|].
    apply Forall_and; [|exact Hlt]. unfold coin_draw in H. eapply draw_loop_nonneg; [|eassumption].
    intros d. eapply Forall_impl; [|apply Hb]. intros b [Hb0 _]. exact Hb0.
  Qed.

  (* draw returns the FIRST admissible counter-mode output, and fails only if the next 1000 are all inadmissible *)
  Theorem draw_first_valid k c c' r : draw k c = (c', r) ->
    0 <= counter c -> counter c + 1000 < 2 ^ 64 -> (elem_bytes k <= 32)%nat ->
    seed c' = seed c /\
    match r with
    | Ok e => exists j, 1 <= j <= 1000 /\ counter c' = counter c + j /\
                from_random_bytes k (draw_bytes D merge_with_int dbytes k (seed c) (counter c) j) = Some e /\
                forall i, 1 <= i < j ->
                  from_random_bytes k (draw_bytes D merge_with_int dbytes k (seed c) (counter c) i) = None
    | Err => counter c' = counter c + 1000 /\
             forall i, 1 <= i <= 1000 ->
               from_random_bytes k (draw_bytes D merge_with_int dbytes k (seed c) (counter c) i) = None
    | Panic => False
    end.
  Proof.
    intros H Hc Hov Hsz. unfold coin_draw in H.
    apply (draw_loop_spec D merge_with_int dbytes) in H; [|change (Z.of_nat draw_tries) with 1000; lia|assumption].
    change (Z.of_nat draw_tries) with 1000 in H. exact H.
  Qed.

  (* f64: the value is stored as BaseElement::new(v); the internal Montgomery word is canonical and denotes v *)
  Theorem draw_f64_internal_canonical deg c c' e :
    (forall d, Forall (fun b => 0 <= b < 256) (dbytes d)) -> draw (fk_f64 deg) c = (c', Ok e) ->
    Forall (fun v => repr (f64_new v) /\ val (f64_new v) = v) e.
  Proof.
    intros Hb H. destruct (draw_valid_nonneg _ _ _ _ Hb H) as [_ Hr].
    eapply Forall_impl; [|exact Hr]. cbv beta. intros v Hv. change (fk_M (fk_f64 deg)) with M in Hv.
    destruct (f64_new_spec v) as [H1 H2]; [unfold M in *; lia|].
    split; [exact H1|]. etransitivity; [exact H2|]. apply Z.mod_small. exact Hv.
  Qed.

  Theorem draw_integers_ok_inv c c' n dom nonce vals : 1 <= n ->
    draw_integers c n dom nonce = (c', Ok vals) ->
    is_pow2 dom = true /\ n < dom /\ n <= 1000 /\ Z.of_nat (length vals) = n /\
    Forall (fun v => 0 <= v < dom) vals /\ c' = mkCoin (merge_with_int (seed c) nonce) n.
  Proof.
    intros Hn H. rewrite (draw_integers_spec D merge_with_int dbytes) in H by lia. cbv zeta in H.
    destruct (is_pow2 dom) eqn:Ep; cbn [negb] in H; [|discriminate].
    destruct (dom <=? n) eqn:El; [discriminate|]. apply Z.leb_gt in El.
    replace (n =? 0) with false in H by (symmetry; apply Z.eqb_neq; lia).
    destruct (n <=? 1000) eqn:E1; [|discriminate]. apply Z.leb_le in E1.
    injection H as <- <-. apply is_pow2_spec in Ep as Hk. destruct Hk as [k [Hk ->]].
    rewrite ints_vals_length. repeat split; try lia; try reflexivity.
    apply ints_vals_range. assumption.
  Qed.

  (* carries a fact about one operation in an arbitrary state to any position of any run *)
  Lemma run_nth c ops i o x : nth_error ops i = Some o -> nth_error (snd (run c ops)) i = Some x ->
    exists c', x = snd (step c' o).
  Proof.
    revert c i. induction ops as [|o' ops IH]; intros c i Ho Hx; [destruct i; discriminate|].
    cbn [Coin.run] in Hx. destruct (step c o') as [c1 x'] eqn:Es. destruct (run c1 ops) as [c2 xs] eqn:Er.
    cbn [snd] in Hx. destruct i as [|i]; cbn [nth_error] in *.
    - injection Ho as ->. injection Hx as ->. exists c. rewrite Es. reflexivity.
    - apply (IH c1 i Ho). rewrite Er. exact Hx.
  Qed.

  Theorem run_draws_valid c ops i k e :
    nth_error ops i = Some (OpDraw k) -> nth_error (snd (run c ops)) i = Some (OutElem (Ok e)) ->
    length e = fk_deg k /\ Forall (fun v => v < fk_M k) e.
  Proof.
    intros Ho Hx. destruct (run_nth c ops i _ _ Ho Hx) as [c' E]. cbn [Coin.step] in E.
    destruct (draw k c') as [c'' r] eqn:Ed. injection E as <-. eapply draw_valid; eassumption.
  Qed.

  Theorem run_ints_valid c ops i n dom nonce vals : 1 <= n ->
    nth_error ops i = Some (OpInts n dom nonce) -> nth_error (snd (run c ops)) i = Some (OutInts (Ok vals)) ->
    Z.of_nat (length vals) = n /\ Forall (fun v => 0 <= v < dom) vals.
  Proof.
    intros Hn Ho Hx. destruct (run_nth c ops i _ _ Ho Hx) as [c' E]. cbn [Coin.step] in E.
    destruct (draw_integers c' n dom nonce) as [c'' r] eqn:Ed. injection E as <-.
    apply draw_integers_ok_inv in Ed; [|assumption]. tauto.
  Qed.

  (* check_leading_zeros is transparent: deleting all its calls from a history changes neither the final state nor
     any other output *)
  Definition not_lz (o : op D) : bool := match o with OpLz _ => false | _ => true end.
  Definition not_lz_out (x : out) : bool := match x with OutLz _ => false | _ => true end.

  Theorem lz_transparent c ops :
    run c (filter not_lz ops) = (fst (run c ops), filter not_lz_out (snd (run c ops))).
  Proof.
    revert c. induction ops as [|o ops IH]; intros c; [reflexivity|].
    cbn [filter Coin.run]. destruct o as [d|k|n dom nonce|v]; cbn [not_lz].
    - cbn [Coin.run Coin.step]. rewrite IH. destruct (run (coin_reseed D merge c d) ops). reflexivity.
    - cbn [Coin.run Coin.step]. destruct (draw k c) as [c1 r]. rewrite IH. destruct (run c1 ops). reflexivity.
    - cbn [Coin.run Coin.step]. destruct (draw_integers c n dom nonce) as [c1 r]. rewrite IH. destruct (run c1 ops). reflexivity.
    - cbn [Coin.step]. rewrite IH. destruct (run c ops). reflexivity.
  Qed.
End Hist.
