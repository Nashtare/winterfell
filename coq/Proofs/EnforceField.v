(* Facts about an arbitrary field (FOps with FLaws) on which the divisor theorems rest: the model's power function
   `fpow`, products of linear factors, elements of exact multiplicative order n, and the factorisation
   x^(2^k) - 1 = prod_{i < 2^k} (x - g^i) for g of exact order 2^k. *)
From Coq Require Import ZArith List Bool Lia Ring Field Arith.
From VBase Require Import MachInt FieldOps.
From VModel Require Import Enforce.
From VProofs Require Import FieldFacts.
Import ListNotations.

Section FieldFacts.
  Context {F : Type} (Fo : FOps F) (L : FLaws Fo).

  Notation "0" := (fzero Fo).
  Notation "1" := (fone Fo).
  Infix "+" := (fadd Fo).
  Infix "*" := (fmul Fo).
  Infix "-" := (fsub Fo).
  Notation "- x" := (fneg Fo x).

  Add Field Ffield : (FLaws_field_theory Fo L).

  Lemma fmul_0_r a : a * 0 = 0. Proof. exact (FieldFacts.fmul_0_r Fo L a). Qed.

  Lemma fsub_eq_0 a b : a - b = 0 <-> a = b.
  Proof. split; [apply (fsub_eq_zero Fo L) | intros ->; apply (fsub_diag Fo L)]. Qed.

  Lemma fmul_cancel_l a b c : a <> 0 -> a * b = a * c -> b = c.
  Proof.
    intros Ha E. apply fsub_eq_0. destruct (fmul_integral Fo L a (b - c)) as [H|H]; [|contradiction|exact H].
    transitivity (a * b - a * c); [ring|]. rewrite E. ring.
  Qed.

  Lemma finv_1 : finv Fo 1 = 1.
  Proof. apply (fmul_cancel_l 1); [apply (fl_one_neq_zero Fo L)|]. rewrite (finv_r Fo L) by apply (fl_one_neq_zero Fo L). ring. Qed.

  Lemma fdiv_1_r a : fdiv Fo a 1 = a.
  Proof. rewrite (fl_div_def Fo L), finv_1. ring. Qed.

  Lemma fdiv_0_l a : fdiv Fo 0 a = 0.
  Proof. rewrite (fl_div_def Fo L). ring. Qed.

  (* the totalisation made explicit: x / 0 = 0 *)
  Lemma fdiv_0_r a : fdiv Fo a 0 = 0.
  Proof. rewrite (fl_div_def Fo L), (fl_inv_0 Fo L). ring. Qed.

  Lemma fdiv_mul_cancel a b : b <> 0 -> fdiv Fo (a * b) b = a.
  Proof. intros H. field. exact H. Qed.

  Lemma sq_eq_1 y : y * y = 1 -> y <> 1 -> y = fneg Fo 1.
  Proof.
    intros H Hn. destruct (fmul_integral Fo L (y - 1) (y + 1)) as [E|E].
    - transitivity (y * y - 1); [ring|]. rewrite H. ring.
    - apply (fsub_eq_zero Fo L) in E. contradiction.
    - transitivity (y + 1 - 1); [ring|]. rewrite E. ring.
  Qed.

  Fixpoint pown (x : F) (k : nat) : F :=
    match k with Datatypes.O => 1 | S k' => x * pown x k' end.

  (* `pown` is convertible with `FFT.fpow`, for which FieldFacts proves the laws of powers; they are restated on
     `pown` because `rewrite` matches the head constant syntactically *)
  Lemma pown_add x a b : pown x (a + b) = pown x a * pown x b.
  Proof. exact (fpow_add Fo L x a b). Qed.

  Lemma pown_1_l k : pown 1 k = 1.
  Proof. exact (fpow_one Fo L k). Qed.

  Lemma pown_mul x a b : pown x (a * b) = pown (pown x a) b.
  Proof. exact (fpow_mul Fo L x a b). Qed.

  Lemma pown_mul_base x y k : pown (x * y) k = pown x k * pown y k.
  Proof. exact (fpow_mul_base Fo L x y k). Qed.

  (* FieldElement::exp (square and multiply) computes the power *)
  Lemma fpow_pos_spec x p : fpow_pos Fo x p = pown x (Pos.to_nat p).
  Proof.
    induction p; cbn [fpow_pos]; rewrite ?IHp, ?Pos2Nat.inj_xI, ?Pos2Nat.inj_xO.
    - cbn [pown]. rewrite <- pown_add. do 2 f_equal. lia.
    - rewrite <- pown_add. f_equal. lia.
    - rewrite Pos2Nat.inj_1. cbn [pown]. ring.
  Qed.

  Lemma fpow_spec x e : fpow Fo x e = pown x (Z.to_nat e).
  Proof.
    destruct e; cbn [fpow Z.to_nat pown]; try reflexivity. apply fpow_pos_spec.
  Qed.

  Lemma fpow_of_nat x k : fpow Fo x (Z.of_nat k) = pown x k.
  Proof. rewrite fpow_spec, Nat2Z.id. reflexivity. Qed.

  (* the laws of exponents for the Z-indexed `fpow` of the model (a negative exponent gives 1) *)
  Lemma pw_add x a b : (0 <= a)%Z -> (0 <= b)%Z -> fpow Fo x (a + b)%Z = fpow Fo x a * fpow Fo x b.
  Proof. intros. rewrite !fpow_spec, Z2Nat.inj_add by lia. apply pown_add. Qed.

  Lemma pw_pw x a b : (0 <= a)%Z -> (0 <= b)%Z -> fpow Fo (fpow Fo x a) b = fpow Fo x (a * b)%Z.
  Proof. intros. rewrite !fpow_spec, Z2Nat.inj_mul by lia. symmetry. apply pown_mul. Qed.

  Lemma pw_mul_base x y a : fpow Fo (x * y) a = fpow Fo x a * fpow Fo y a.
  Proof. rewrite !fpow_spec. apply pown_mul_base. Qed.

  Lemma pw_one_l a : fpow Fo 1 a = 1.
  Proof. rewrite fpow_spec. apply pown_1_l. Qed.

  (* the loop of evaluate_exemptions_at, from an arbitrary accumulator *)
  Definition vanish_from (x : F) (l : list F) (acc : F) : F :=
    fold_left (fun r e => r * (x - e)) l acc.
  Definition vanish (x : F) (l : list F) : F := vanish_from x l 1.

  Lemma vanish_from_acc x l acc : vanish_from x l acc = acc * vanish x l.
  Proof.
    unfold vanish, vanish_from. revert acc. induction l as [|e l IH]; intros acc; cbn [fold_left].
    - ring.
    - rewrite IH, (IH (1 * (x - e))). ring.
  Qed.

  Lemma vanish_nil x : vanish x [] = 1. Proof. reflexivity. Qed.

  Lemma vanish_cons x e l : vanish x (e :: l) = (x - e) * vanish x l.
  Proof. unfold vanish at 1, vanish_from. cbn [fold_left]. fold (vanish_from x l (1 * (x - e))).
         rewrite vanish_from_acc. ring. Qed.

  Lemma vanish_app x l1 l2 : vanish x (l1 ++ l2) = vanish x l1 * vanish x l2.
  Proof.
    induction l1 as [|e l1 IH]; cbn [app].
    - rewrite vanish_nil. ring.
    - rewrite !vanish_cons, IH. ring.
  Qed.

  Lemma vanish_eq_0 x l : vanish x l = 0 <-> In x l.
  Proof.
    induction l as [|e l IH].
    - rewrite vanish_nil. split; [intros H; destruct (fl_one_neq_zero Fo L H)|intros []].
    - rewrite vanish_cons. cbn [In]. rewrite <- IH. split.
      + intros H. destruct (fmul_integral Fo L _ _ H) as [H1|H1]; [left; symmetry; apply fsub_eq_0; exact H1|right; exact H1].
      + intros [<-|H]; [rewrite (fsub_diag Fo L)|rewrite H]; ring.
  Qed.

  Fixpoint prodn (f : nat -> F) (m : nat) : F :=
    match m with Datatypes.O => 1 | S m' => prodn f m' * f m' end.

  Lemma prodn_ext f h m : (forall i, (i < m)%nat -> f i = h i) -> prodn f m = prodn h m.
  Proof.
    induction m; intros H; cbn [prodn]; [reflexivity|].
    rewrite IHm by (intros; apply H; lia). rewrite H by lia. reflexivity.
  Qed.

  Lemma prodn_mul f h m : prodn (fun i => f i * h i) m = prodn f m * prodn h m.
  Proof. induction m; cbn [prodn]; [ring|rewrite IHm; ring]. Qed.

  Lemma prodn_add f a b : prodn f (a + b) = prodn f a * prodn (fun i => f (a + i)%nat) b.
  Proof.
    induction b; cbn [prodn].
    - rewrite Nat.add_0_r. ring.
    - rewrite Nat.add_succ_r. cbn [prodn]. rewrite IHb. ring.
  Qed.

  Lemma vanish_map_seq x (h : nat -> F) lo m :
    vanish x (map h (seq lo m)) = prodn (fun i => x - h (lo + i)%nat) m.
  Proof.
    revert lo. induction m; intros lo.
    - reflexivity.
    - rewrite seq_S, map_app, vanish_app, IHm. cbn [map]. rewrite vanish_cons, vanish_nil.
      cbn [prodn]. ring.
  Qed.

  Lemma pow2_double k : (2 ^ S k = 2 ^ k + 2 ^ k)%nat.
  Proof. rewrite Nat.pow_succ_r'. lia. Qed.

  (* induction on k; for k+1: g^(2^k) = -1, so the factors i and 2^k + i pair up as (x - g^i)(x + g^i) = x^2 - (g^2)^i,
     and the induction hypothesis applies to g^2 and x^2 *)
  Theorem pow2_root_factorisation k : forall g,
    pown g (2 ^ k) = 1 -> (k <> Datatypes.O -> pown g (2 ^ (k - 1)) <> 1) ->
    forall x, pown x (2 ^ k) - 1 = prodn (fun i => x - pown g i) (2 ^ k).
  Proof.
    induction k as [|k IH]; intros g Hg Hh x.
    - cbn. ring.
    - assert (Hk : (S k - 1 = k)%nat) by lia. rewrite Hk in Hh.
      specialize (Hh ltac:(lia)).
      assert (Hm1 : pown g (2 ^ k) = fneg Fo 1).
      { apply sq_eq_1; [|exact Hh]. rewrite <- pown_add, <- pow2_double. exact Hg. }
      rewrite pow2_double, prodn_add.
      rewrite (prodn_ext (fun i => x - pown g (2 ^ k + i)) (fun i => x + pown g i)).
      2:{ intros i _. rewrite pown_add, Hm1. ring. }
      rewrite <- prodn_mul.
      rewrite (prodn_ext _ (fun i => x * x - pown (g * g) i)).
      2:{ intros i _. rewrite pown_mul_base. ring. }
      rewrite <- (IH (g * g)).
      + rewrite pown_add, pown_mul_base. reflexivity.
      + rewrite pown_mul_base, <- pown_add, <- pow2_double. exact Hg.
      + intros Hk0. rewrite pown_mul_base, <- pown_add.
        replace (2 ^ (k - 1) + 2 ^ (k - 1))%nat with (2 ^ k)%nat.
        * exact Hh.
        * destruct k; [lia|]. rewrite pow2_double. f_equal; f_equal; lia.
  Qed.

  Section Order.
    Variables (g : F) (n : nat).
    Hypothesis Hn0 : (0 < n)%nat.
    Hypothesis Hgn : pown g n = 1.
    Hypothesis Hord : forall i, (0 < i < n)%nat -> pown g i <> 1.

    Lemma g_neq_0 : g <> 0.
    Proof.
      intros H. apply (fl_one_neq_zero Fo L). rewrite <- Hgn, H. apply (fpow_zero Fo L). lia.
    Qed.

    Lemma pown_g_mod i : pown g i = pown g (i mod n).
    Proof.
      rewrite (Nat.div_mod i n) at 1 by lia.
      rewrite pown_add, pown_mul, Hgn, pown_1_l. ring.
    Qed.

    (* g^i = g^i * g^(j-i) with g^i <> 0 gives g^(j-i) = 1, hence j - i = 0 *)
    Lemma pown_g_inj i j : (i < n)%nat -> (j < n)%nat -> pown g i = pown g j -> i = j.
    Proof.
      assert (W : forall i j, (i <= j < n)%nat -> pown g i = pown g j -> i = j).
      { clear i j. intros i j Hij E. destruct (Nat.eq_dec (j - i) 0) as [Z|Z]; [lia|].
        destruct (Hord (j - i)%nat); [lia|]. apply (fmul_cancel_l (pown g i)); [apply (fpow_nonzero Fo L), g_neq_0|].
        rewrite <- pown_add. replace (i + (j - i))%nat with j by lia. rewrite <- E. ring. }
      intros Hi Hj E. destruct (Nat.le_ge_cases i j); [apply W; [lia|exact E]|].
      symmetry. apply W; [lia|]. symmetry. exact E.
    Qed.

    Lemma pown_g_eq_iff i j : pown g i = pown g j <-> (i mod n = j mod n)%nat.
    Proof.
      rewrite (pown_g_mod i), (pown_g_mod j). split.
      - apply pown_g_inj; apply Nat.mod_upper_bound; lia.
      - intros ->. reflexivity.
    Qed.

    (* when n is a power of two: x^n - 1 splits over the trace domain, so the n-th roots of unity are exactly the g^i *)
    Hypothesis Hpow2 : exists k, n = (2 ^ k)%nat.

    Lemma xn_minus_1_factor x : pown x n - 1 = vanish x (map (pown g) (seq 0 n)).
    Proof.
      destruct Hpow2 as (k & Ek). rewrite vanish_map_seq. cbn [Nat.add]. rewrite Ek.
      apply pow2_root_factorisation.
      - rewrite <- Ek. exact Hgn.
      - intros Hk. apply Hord. rewrite Ek. split; [apply Nat.neq_0_lt_0, Nat.pow_nonzero; lia|].
        apply Nat.pow_lt_mono_r; lia.
    Qed.

    Lemma root_of_unity_in_domain x : pown x n = 1 <-> exists i, (i < n)%nat /\ x = pown g i.
    Proof.
      split.
      - intros H. assert (E : In x (map (pown g) (seq 0 n))).
        { apply vanish_eq_0. rewrite <- xn_minus_1_factor, H. ring. }
        apply in_map_iff in E. destruct E as (i & <- & Hi). apply in_seq in Hi.
        exists i. split; [lia|reflexivity].
      - intros (i & _ & ->). rewrite <- pown_mul, Nat.mul_comm, pown_mul, Hgn. apply pown_1_l.
    Qed.
  End Order.
End FieldFacts.
