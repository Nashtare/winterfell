(* C13 — what all ByteReader implementations share.  [T_step]: a property of computations closed under bind / ret / fail that
   holds of the required methods holds of every provided (default) method; instances [sim_step] (two readers in simulation)
   and [safe_step] (an invariant is kept and nothing aborts).  [spec_reader]: the list semantics of a byte reader, which
   SliceReader implements on source[pos..]. *)
From VBase Require Import MachInt.
From VModel Require Import ReadAdapter.
From VProofs Require Import ListFacts.
Local Open Scope nat_scope.

Lemma tz_le : forall k b, tz k b <= k.
Proof. induction k; intros b; simpl; [lia|]. destruct (Z.odd b); [lia|]. specialize (IHk (b / 2)%Z). lia. Qed.

(* the length argument that reaches read_slice / read_array / check_eor.  The count of read_many does not: its elements are
   read one by one with the fixed sizes of [read_elt] *)
Definition op_arg (o : op) : nat :=
  match o with
  | ReadSlice n | ReadArray n | ReadVec n | ReadString n | CheckEor n => n
  | _ => 0
  end.

Definition is_eor (o : op) : bool := match o with CheckEor _ => true | _ => false end.

(* Every provided method is built from the required ones with bind / ret / fail (byte_reader.rs: the default methods only
   call required ones and `?`).  So a property [T] of pairs of computations that is closed under these three and holds of
   the required methods holds of every operation.  Both [sim] and [safe] below are instances. *)
Section Provided.
  Variables S1 S2 : Type.
  Variable R1 : reader S1.
  Variable R2 : reader S2.
  Variable utf8 : list byte -> bool.
  Variable B : nat.
  Variable T : forall A : Type, (S1 -> outcome A * S1) -> (S2 -> outcome A * S2) -> Prop.

  Hypothesis T_bind : forall (A C : Type) m1 m2 (f1 : A -> S1 -> outcome C * S1) f2,
    T A m1 m2 -> (forall a, T C (f1 a) (f2 a)) -> T C (bind m1 f1) (bind m2 f2).
  Hypothesis T_ret : forall (A : Type) (a : A), T A (ret a) (ret a).
  Hypothesis T_fail : forall (A : Type) e, T A (fail e) (fail e).

  (* the largest fixed-size read is the 16 bytes of read_u128 *)
  Hypothesis HB : 16 <= B.
  Hypothesis H_u8 : T _ (r_u8 R1) (r_u8 R2).
  Hypothesis H_peek : T _ (r_peek R1) (r_peek R2).
  Hypothesis H_slice : forall n, n <= B -> T _ (r_slice R1 n) (r_slice R2 n).
  Hypothesis H_array : forall n, n <= B -> T _ (r_array R1 n) (r_array R2 n).

  Lemma T_read_le : forall n, n <= B -> T _ (read_le S1 R1 n) (read_le S2 R2 n).
  Proof. intros n Hn. unfold read_le. apply T_bind; [now apply H_array|]. intros; apply T_ret. Qed.

  Lemma T_read_usize : T _ (read_usize S1 R1) (read_usize S2 R2).
  Proof.
    unfold read_usize. apply T_bind; [exact H_peek|]. intros first.
    pose proof (tz_le 8 first) as Htz.
    destruct (tz 8 first + 1 =? 9).
    - apply T_bind; [exact H_u8|]. intros _. apply T_bind; [apply H_array; lia|]. intros; apply T_ret.
    - apply T_bind; [apply H_slice; lia|]. intros; apply T_ret.
  Qed.

  Lemma T_read_elt : forall k, T _ (read_elt S1 R1 k) (read_elt S2 R2 k).
  Proof.
    destruct k; simpl; try exact H_u8; try exact T_read_usize;
      unfold read_u16, read_u32, read_u64, read_u128; apply T_read_le; lia.
  Qed.

  Lemma T_read_many_loop : forall k n acc, T _ (read_many_loop S1 R1 k n acc) (read_many_loop S2 R2 k n acc).
  Proof.
    intros k n. induction n as [|n IH]; intros acc; simpl.
    - apply T_ret.
    - apply T_bind; [apply T_read_elt|]. intros v. apply IH.
  Qed.

  Lemma T_vmap : forall (A : Type) (f : A -> value) m1 m2, T A m1 m2 -> T _ (vmap S1 f m1) (vmap S2 f m2).
  Proof. intros A f m1 m2 H. unfold vmap. apply T_bind; [exact H|]. intros; apply T_ret. Qed.

  (* check_eor and has_more_bytes are left to the caller: the first is a required method about which the two instances
     assume different things, the second is not written with bind *)
  Lemma T_step : forall o, op_arg o <= B ->
    (forall n, o = CheckEor n -> T _ (r_eor R1 n) (r_eor R2 n)) ->
    (o = HasMore -> T _ (step R1 utf8 HasMore) (step R2 utf8 HasMore)) ->
    T _ (step R1 utf8 o) (step R2 utf8 o).
  Proof.
    intros o Ho Heor Hmore. destruct o; simpl in Ho; unfold step.
    - apply T_vmap, H_u8.
    - apply T_vmap, H_peek.
    - apply T_vmap. unfold read_bool. apply T_bind; [exact H_u8|]. intros b.
      destruct (b =? 0)%Z; [apply T_ret|]. destruct (b =? 1)%Z; [apply T_ret|apply T_fail].
    - apply T_vmap, T_read_le; lia.
    - apply T_vmap, T_read_le; lia.
    - apply T_vmap, T_read_le; lia.
    - apply T_vmap, T_read_le; lia.
    - apply T_vmap, T_read_usize.
    - apply T_vmap, H_slice, Ho.
    - apply T_vmap, H_array, Ho.
    - apply T_vmap. unfold read_vec. apply H_slice, Ho.
    - apply T_vmap. unfold read_string, read_vec. apply T_bind; [apply H_slice, Ho|]. intros l.
      destruct (utf8 l); [apply T_ret|apply T_fail].
    - apply T_vmap. unfold read_many. apply T_read_many_loop.
    - apply T_vmap, (Heor n eq_refl).
    - exact (Hmore eq_refl).
  Qed.
End Provided.

Section Sim.
  Variables S1 S2 : Type.
  Variable R1 : reader S1.
  Variable R2 : reader S2.
  Variable rel : S1 -> S2 -> Prop.
  Variable utf8 : list byte -> bool.
  Variable B : nat.

  Definition sim {A : Type} (m1 : S1 -> outcome A * S1) (m2 : S2 -> outcome A * S2) : Prop :=
    forall s1 s2, rel s1 s2 -> fst (m1 s1) = fst (m2 s2) /\ rel (snd (m1 s1)) (snd (m2 s2)).

  Lemma sim_bind : forall (A C : Type) m1 m2 (f1 : A -> S1 -> outcome C * S1) f2,
    sim m1 m2 -> (forall a, sim (f1 a) (f2 a)) -> sim (bind m1 f1) (bind m2 f2).
  Proof.
    intros A C m1 m2 f1 f2 Hm Hf s1 s2 Hr. unfold bind.
    destruct (Hm s1 s2 Hr) as [He Hr'].
    destruct (m1 s1) as [r1 t1], (m2 s2) as [r2 t2]; simpl in *; subst r2.
    destruct r1; simpl; auto. apply Hf; assumption.
  Qed.

  Lemma sim_ret : forall (A : Type) (a : A), sim (ret a) (ret a).
  Proof. intros A a s1 s2 H; simpl; auto. Qed.
  Lemma sim_fail : forall (A : Type) e, sim (@fail S1 A e) (@fail S2 A e).
  Proof. intros A e s1 s2 H; simpl; auto. Qed.

  Lemma sim_run : forall Q : op -> Prop, (forall o, Q o -> sim (step R1 utf8 o) (step R2 utf8 o)) ->
    forall ops s1 s2, Forall Q ops -> rel s1 s2 -> run R1 utf8 ops s1 = run R2 utf8 ops s2.
  Proof.
    intros Q Hstep. induction ops as [|o ops IH]; intros s1 s2 Hops Hr; simpl; [reflexivity|].
    destruct (Hstep o (Forall_inv Hops) s1 s2 Hr) as [E Hr'].
    destruct (step R1 utf8 o s1) as [r1 t1], (step R2 utf8 o s2) as [r2 t2]; cbn [fst snd] in *.
    subst r2. destruct (aborts r1); [reflexivity|]. f_equal. exact (IH t1 t2 (Forall_inv_tail Hops) Hr').
  Qed.

  Hypothesis HB : 16 <= B.
  Hypothesis H_u8 : sim (r_u8 R1) (r_u8 R2).
  Hypothesis H_peek : sim (r_peek R1) (r_peek R2).
  Hypothesis H_slice : forall n, n <= B -> sim (r_slice R1 n) (r_slice R2 n).
  Hypothesis H_array : forall n, n <= B -> sim (r_array R1 n) (r_array R2 n).
  Hypothesis H_more : forall s1 s2, rel s1 s2 ->
    fst (r_more R1 s1) = fst (r_more R2 s2) /\ rel (snd (r_more R1 s1)) (snd (r_more R2 s2)).

  (* check_eor is excluded: ReadAdapter's is optimistic, so this required method need not be in simulation *)
  Lemma sim_step : forall o, op_arg o <= B -> is_eor o = false -> sim (step R1 utf8 o) (step R2 utf8 o).
  Proof.
    intros o Ho He. apply (T_step S1 S2 R1 R2 utf8 B (@sim) sim_bind sim_ret sim_fail HB H_u8 H_peek H_slice H_array o Ho).
    - intros n E. subst o. discriminate.
    - intros _ s1 s2 Hr. destruct (H_more s1 s2 Hr) as [E1 E2].
      simpl. destruct (r_more R1 s1), (r_more R2 s2); simpl in *; subst; auto.
  Qed.
End Sim.

Section Safe.
  Variable S : Type.
  Variable R : reader S.
  Variable P : S -> Prop.
  Variable utf8 : list byte -> bool.

  Definition safe {A : Type} (m : S -> outcome A * S) : Prop :=
    forall s, P s -> aborts (fst (m s)) = false /\ P (snd (m s)).

  Lemma safe_bind : forall (A C : Type) m (f : A -> S -> outcome C * S),
    safe m -> (forall a, safe (f a)) -> safe (bind m f).
  Proof.
    intros A C m f Hm Hf s Hs. unfold bind. destruct (Hm s Hs) as [Ha Hp].
    destruct (m s) as [r t]; simpl in *. destruct r; simpl in *; try discriminate; auto. apply Hf; assumption.
  Qed.
  Lemma safe_ret : forall (A : Type) (a : A), safe (ret a).
  Proof. intros A a s H; simpl; auto. Qed.
  Lemma safe_fail : forall (A : Type) e, safe (@fail S A e).
  Proof. intros A e s H; simpl; auto. Qed.

  Lemma safe_run : (forall o, safe (step R utf8 o)) ->
    forall ops s, P s -> Forall (fun r => aborts r = false) (run R utf8 ops s).
  Proof.
    intros Hstep. induction ops as [|o ops IH]; intros s Hs; simpl; [constructor|].
    destruct (Hstep o s Hs) as [Ha Hp]. destruct (step R utf8 o s) as [r s']; simpl in *.
    rewrite Ha. constructor; [exact Ha|]. apply IH, Hp.
  Qed.

  Hypothesis H_u8 : safe (r_u8 R).
  Hypothesis H_peek : safe (r_peek R).
  Hypothesis H_slice : forall n, safe (r_slice R n).
  Hypothesis H_array : forall n, safe (r_array R n).
  Hypothesis H_eor : forall n, safe (r_eor R n).
  Hypothesis H_more : forall s, P s -> P (snd (r_more R s)).

  Lemma safe_step : forall o, safe (step R utf8 o).
  Proof.
    intros o.
    apply (T_step S S R R utf8 (Nat.max 16 (op_arg o)) (fun A m _ => safe m)
             (fun A C m _ f _ => safe_bind A C m f) safe_ret safe_fail (Nat.le_max_l _ _)
             H_u8 H_peek (fun n _ => H_slice n) (fun n _ => H_array n) o (Nat.le_max_r _ _)).
    - intros n _. apply H_eor.
    - intros _ s Hs. specialize (H_more s Hs). simpl. destruct (r_more R s); simpl in *; auto.
  Qed.
End Safe.

(* the list semantics of a byte reader: the state is the list of bytes still to be read *)
Definition sp_u8 (u : list byte) : outcome byte * list byte :=
  match u with [] => (Err EOF, u) | b :: r => (Ok b, r) end.
Definition sp_peek (u : list byte) : outcome byte * list byte :=
  match u with [] => (Err EOF, u) | b :: _ => (Ok b, u) end.
Definition sp_take (n : nat) (u : list byte) : outcome (list byte) * list byte :=
  if n <=? length u then (Ok (firstn n u), skipn n u) else (Err EOF, u).
Definition sp_eor (n : nat) (u : list byte) : outcome unit * list byte :=
  (if n <=? length u then Ok tt else Err EOF, u).
Definition sp_more (u : list byte) : bool * list byte := (negb (is_nil u), u).
Definition spec_reader : reader (list byte) := mkReader _ sp_u8 sp_peek sp_take sp_take sp_eor sp_more.

Lemma sp_take_app : forall l u, sp_take (length l) (l ++ u) = (Ok l, u).
Proof.
  intros l u. unfold sp_take. rewrite app_length.
  destruct (Nat.leb_spec (length l) (length l + length u)); [|lia].
  destruct (firstn_skipn_app_le (length l) l u (le_n _)) as [Ef Es]. now rewrite Ef, Es, firstn_all, skipn_all.
Qed.

Lemma sp_take_short : forall n u, length u < n -> sp_take n u = (Err EOF, u).
Proof. intros n u H. unfold sp_take. destruct (Nat.leb_spec n (length u)); [lia|reflexivity]. Qed.

(* SliceReader is the list semantics on source[pos..] for length arguments up to [B]: the last conjunct keeps the `pos + n` of
   SliceReader::check_eor below 2^64 *)
Definition slice_rel (B : nat) (t : sstate) (u : list byte) : Prop :=
  s_pos t <= length (s_src t) /\ u = skipn (s_pos t) (s_src t) /\
  (Z.of_nat (length (s_src t)) + Z.of_nat B < 2 ^ 64)%Z.

Lemma s_check_spec : forall B n t u, slice_rel B t u -> n <= B ->
  s_check n t = if n <=? length u then Ok tt else Err EOF.
Proof.
  intros B n t u (Hp & Hu & Hb) Hn. unfold s_check.
  change (2 ^ 64)%Z with 18446744073709551616%Z in *.
  destruct (Z.leb_spec 18446744073709551616 (Z.of_nat (s_pos t) + Z.of_nat n)); [lia|].
  subst u. rewrite skipn_length.
  destruct (Nat.ltb_spec (length (s_src t)) (s_pos t + n)); destruct (Nat.leb_spec n (length (s_src t) - s_pos t)); try reflexivity; lia.
Qed.

Lemma slice_take_sim : forall B n, n <= B -> sim sstate (list byte) (slice_rel B) (s_take n) (sp_take n).
Proof.
  intros B n Hn t u Hr. unfold s_take, sp_take. rewrite (s_check_spec B n t u Hr Hn).
  destruct Hr as (Hp & Hu & Hb).
  assert (HL : length u = length (s_src t) - s_pos t) by (subst u; apply skipn_length).
  destruct (Nat.leb_spec n (length u)); simpl.
  - destruct (Nat.leb_spec (s_pos t + n) (length (s_src t))); [|lia]. simpl. subst u. split; [reflexivity|].
    repeat split; simpl; try lia. now rewrite <- skipn_add.
  - split; [reflexivity|]. repeat split; auto.
Qed.

Lemma slice_u8_sim : forall B, 1 <= B -> sim sstate (list byte) (slice_rel B) s_u8 sp_u8.
Proof.
  intros B HB t u Hr. unfold s_u8, sp_u8. rewrite (s_check_spec B 1 t u Hr HB).
  destruct Hr as (Hp & Hu & Hb). destruct u as [|b r]; simpl.
  - split; [reflexivity|]. repeat split; auto.
  - symmetry in Hu. destruct (skipn_cons_inv _ _ _ _ Hu) as (H1 & H2 & H3). rewrite H3. simpl.
    split; [reflexivity|]. repeat split; simpl; try lia. rewrite Nat.add_1_r. now rewrite H2.
Qed.

Lemma slice_peek_sim : forall B, 1 <= B -> sim sstate (list byte) (slice_rel B) s_peek sp_peek.
Proof.
  intros B HB t u Hr. unfold s_peek, sp_peek. rewrite (s_check_spec B 1 t u Hr HB).
  destruct Hr as (Hp & Hu & Hb). destruct u as [|b r]; simpl.
  - split; [reflexivity|]. repeat split; auto.
  - symmetry in Hu. destruct (skipn_cons_inv _ _ _ _ Hu) as (H1 & H2 & H3). rewrite H3. simpl.
    split; [reflexivity|]. repeat split; simpl; auto.
Qed.

Lemma slice_more_sim : forall B t u, slice_rel B t u ->
  fst (r_more slice_reader t) = fst (sp_more u) /\ slice_rel B (snd (r_more slice_reader t)) (snd (sp_more u)).
Proof.
  intros B t u Hr. simpl. split; [|exact Hr]. destruct Hr as (Hp & Hu & Hb).
  assert (HL : length u = length (s_src t) - s_pos t) by (subst u; apply skipn_length).
  destruct u; simpl in *; destruct (Nat.ltb_spec (s_pos t) (length (s_src t))); auto; lia.
Qed.

Lemma slice_eor_spec : forall B n t u, slice_rel B t u -> n <= B ->
  r_eor slice_reader n t = (fst (sp_eor n u), t).
Proof. intros B n t u Hr Hn. simpl. now rewrite (s_check_spec B n t u Hr Hn). Qed.

Lemma slice_step_spec : forall utf8 B o t u, 16 <= B -> op_arg o <= B -> slice_rel B t u ->
  fst (step slice_reader utf8 o t) = fst (step spec_reader utf8 o u) /\
  slice_rel B (snd (step slice_reader utf8 o t)) (snd (step spec_reader utf8 o u)).
Proof.
  intros utf8 B o t u HB Ho Hr. destruct (is_eor o) eqn:E.
  - destruct o; try discriminate. simpl in Ho. unfold step, vmap, bind, ret.
    rewrite (slice_eor_spec B n t u Hr Ho). simpl. destruct (n <=? length u); simpl; auto.
  - apply (sim_step sstate (list byte) slice_reader spec_reader (slice_rel B) utf8 B); auto.
    + apply slice_u8_sim; lia.
    + apply slice_peek_sim; lia.
    + intros n Hn. apply slice_take_sim, Hn.
    + intros n Hn. apply slice_take_sim, Hn.
    + apply slice_more_sim.
Qed.

Lemma run_spec_slice : forall utf8 B ops t u, 16 <= B -> Forall (fun o => op_arg o <= B) ops -> slice_rel B t u ->
  run slice_reader utf8 ops t = run spec_reader utf8 ops u.
Proof.
  intros utf8 B ops t u HB. apply (sim_run _ _ slice_reader spec_reader (slice_rel B) utf8 (fun o => op_arg o <= B)).
  intros o Ho t' u'. exact (slice_step_spec utf8 B o t' u' HB Ho).
Qed.
