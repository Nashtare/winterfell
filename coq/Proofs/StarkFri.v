(* C01 — discharging `fri_complete` from C15's end-to-end FRI completeness (Props/C15.v C15_fri_complete) by
   instantiating the FRI stage of Model/Stark.v with the prover/verifier of Model/Fri.v. *)
From Coq Require Import List Arith Bool ZArith Lia.
From VBase Require Import FieldOps.
From VModel Require Import Stark.
From VModel Require Fri Merkle Transcript FFT.
From VProofs Require Import ListFacts Pow2Facts StarkPoly StarkComplete StarkInst.
From VProofs Require FriCoset FriComplete FriMerkleInst FFTSpec FFTOffset.
From VProps Require C15.
Import ListNotations.

(* ================================================================================================ C10 for the FRI layers *)
(* the abstract tree interface of Model/Fri.v, instantiated with the Merkle model of C10 (the same instantiation as
   Model/FriMerkle.v); its two completeness hypotheses (FriComplete.v: merkle_new_ok, merkle_batch_complete) are those of
   Proofs/FriMerkleInst.v, from C10_new_ok / C10_build_nodes_spec / C10_batch_complete *)
Section MerkleNat.
Variable D : Type.
Variable D_eqb : D -> D -> bool.
Hypothesis D_eqb_spec : forall a b, D_eqb a b = true <-> a = b.
Variable d0 : D.
Variable merge : D -> D -> D.

Definition mt_new' (leaves : list D) : option (Merkle.mtree D) :=
  match Merkle.mt_new D d0 merge leaves with Merkle.Ok t => Some t | _ => None end.
Definition mt_root' (t : Merkle.mtree D) : D := match Merkle.mt_root D t with Merkle.Ok r => r | _ => d0 end.
Definition mt_prove_batch' (t : Merkle.mtree D) (indexes : list nat) : option (list (list D)) :=
  match Merkle.mt_prove_batch D d0 t (map Z.of_nat indexes) with Merkle.Ok p => Some (@Merkle.bp_nodes D p) | _ => None end.
Definition mt_verify_batch' (root : D) (indexes : list nat) (leaves : list D) (nodes : list (list D)) (d : nat) : Fri.auth_res :=
  match Merkle.verify_batch D D_eqb merge root (map Z.of_nat indexes) (@Merkle.Build_bproof D leaves nodes (Z.of_nat d)) with
  | Merkle.Ok _ => Fri.AuthOk | Merkle.Err _ => Fri.AuthErr | Merkle.Panic => Fri.AuthPanic end.

Lemma merkle_new_ok' : forall leaves d, 1 <= d -> length leaves = 2 ^ d -> exists t, mt_new' leaves = Some t.
Proof. exact (FriMerkleInst.cm_new_ok D d0 merge). Qed.

Lemma merkle_batch_complete' : forall leaves t d indexes dflt,
  mt_new' leaves = Some t -> length leaves = 2 ^ d -> 1 <= d <= 62 ->
  indexes <> [] -> length indexes <= 255 -> NoDup indexes -> (forall i, In i indexes -> i < length leaves) ->
  exists nodes, mt_prove_batch' t indexes = Some nodes /\
    mt_verify_batch' (mt_root' t) indexes (map (fun i => nth i leaves dflt) indexes) nodes d = Fri.AuthOk.
Proof. exact (FriMerkleInst.cm_batch_complete D D_eqb D_eqb_spec d0 merge). Qed.
End MerkleNat.

(* ================================================================================================ C15 *)
Section FriInst.
Context {F : Type} (O : FOps F) (L : FLaws O).
Local Notation zero := (fzero O).
Local Notation one := (fone O).
Local Notation "a *f b" := (fmul O a b) (at level 40, left associativity).

(* the parameters and externals of Proofs/FriComplete.v *)
Variable rou : nat -> F.
Variable K : nat.
Hypothesis K_pos : 1 <= K.
Hypothesis rou_sq : forall k, k < K -> rou (S k) *f rou (S k) = rou k.
Hypothesis rou_1 : rou 1 = fneg O one.
Hypothesis two_nz : fadd O one one <> zero.
Variable gen_offset : F.
Hypothesis offset_nz : gen_offset <> zero.
Variable dbg : bool.
Variable D : Type.
Variable D_eqb : D -> D -> bool.
Hypothesis D_eqb_spec : forall a b, D_eqb a b = true <-> a = b.
Variable hash_elements : list F -> D.
Variables MT MN : Type.
Variable mt_new : list D -> option MT.
Variable mt_root : MT -> D.
Variable mt_prove_batch : MT -> list nat -> option MN.
Variable mt_verify_batch : D -> list nat -> list D -> MN -> nat -> Fri.auth_res.
Variable CS : Type.
Variable cs_reseed : CS -> D -> CS.
Variable cs_draw : CS -> CS * Fri.draw_res F.
Hypothesis merkle_new_ok : forall leaves d, 1 <= d -> length leaves = 2 ^ d -> exists t, mt_new leaves = Some t.
Hypothesis merkle_batch_complete : forall leaves t d indexes dflt,
  mt_new leaves = Some t -> length leaves = 2 ^ d -> 1 <= d <= 62 ->
  indexes <> [] -> length indexes <= 255 -> NoDup indexes -> (forall i, In i indexes -> i < length leaves) ->
  exists nodes, mt_prove_batch t indexes = Some nodes /\
    mt_verify_batch (mt_root t) indexes (map (fun i => nth i leaves dflt) indexes) nodes d = Fri.AuthOk.
Hypothesis draw_total : forall c, exists c' a, cs_draw c = (c', Fri.DrawOk a).
Variables f b remmax : nat.
Hypothesis f_pos : 1 <= f.
Hypothesis f_supported : Fri.supported_folding (2 ^ f) = true.
(* LDE domain of size 2^a, schedule with k layers, coin state at the start of the FRI commit phase *)
Variables a k : nat.
Variable coin0 : CS.
Hypothesis Hlayers : Fri.num_fri_layers (Fri.mkOpts (2 ^ b) (2 ^ f) remmax) (2 ^ a) = Some k.
Hypothesis Hkf : k * f < a.
Hypothesis Hb : b <= a - k * f.
Hypothesis HaK : a <= K.
Hypothesis Ha62 : a <= 62.

Definition opts : Fri.fri_options := Fri.mkOpts (2 ^ b) (2 ^ f) remmax.
(* the LDE domain in position order *)
Definition lde_of : list F := map (fun j => gen_offset *f fpow O (rou a) j) (seq 0 (2 ^ a)).
Definition positions_of (xs : list F) : list nat := map (find O lde_of) xs.

Definition FriProof : Type := option (list D * @Fri.fri_proof F MN).
Definition fri_prove (d xs : list F) : FriProof :=
  match Fri.prove O rou K gen_offset D hash_elements MT MN mt_new mt_root mt_prove_batch CS cs_reseed cs_draw
          opts coin0 (FriCoset.coset_evals O d gen_offset (rou a) (2 ^ a)) (positions_of xs) with
  | Fri.Ok (cs, proof, _) => Some (cs, proof)
  | _ => None
  end.
(* FriVerifier::new + verify with max_poly_degree = deg + 1 (= trace_poly_degree = n - 1) *)
Definition fri_verify (pf : FriProof) (deg : nat) (xs evs : list F) : bool :=
  match pf with
  | Some (cs, proof) =>
      match Fri.run_verifier O rou K gen_offset dbg D D_eqb hash_elements MN mt_verify_batch CS cs_reseed cs_draw true
              opts coin0 proof cs (S deg) (2 ^ a) evs (positions_of xs) with
      | Fri.RunVerdict (Fri.Ok tt) => true
      | _ => false
      end
  | None => false
  end.

Lemma lde_of_length : length lde_of = 2 ^ a.
Proof. unfold lde_of. now rewrite map_length, seq_length. Qed.

Lemma evals_at_positions d xs : incl xs lde_of ->
  FriComplete.evals_at O (FriCoset.coset_evals O d gen_offset (rou a) (2 ^ a)) (positions_of xs) = map (peval O d) xs.
Proof.
  intros Hin. unfold FriComplete.evals_at, positions_of. rewrite map_map. apply map_ext_in. intros x Hx.
  destruct (find_spec O L lde_of x (Hin x Hx)) as [Hlt Hnth]. rewrite lde_of_length in Hlt.
  unfold FriCoset.coset_evals.
  rewrite (nth_map_seq _ _ _ _ Hlt).
  unfold lde_of in Hnth. rewrite nth_error_map in Hnth.
  rewrite (nth_error_nth' _ 0) in Hnth by (now rewrite seq_length). rewrite seq_nth in Hnth by exact Hlt.
  cbn [Nat.add option_map] in Hnth. injection Hnth as Hx'. rewrite <- Hx' at 2. reflexivity.
Qed.

(* fri_complete of the capstone, from C15's end-to-end theorem; n = 2^(a - b) >= 2 coefficients *)
Theorem fri_complete_inst : forall d xs, length d = 2 ^ (a - b) -> 2 <= 2 ^ (a - b) -> incl xs lde_of -> xs <> [] -> length xs <= 255 ->
  fri_verify (fri_prove d xs) (2 ^ (a - b) - 2) xs (map (peval O d) xs) = true.
Proof.
  intros d xs Hd Hn Hin Hne H255.
  assert (Hpos : FriComplete.pos_ok a (positions_of xs)).
  { unfold FriComplete.pos_ok, positions_of. split; [destruct xs; [congruence | discriminate]|].
    split; [now rewrite map_length|]. intros p Hp. apply in_map_iff in Hp. destruct Hp as (x & <- & Hx).
    destruct (find_spec O L lde_of x (Hin x Hx)) as [Hlt _]. now rewrite lde_of_length in Hlt. }
  destruct (C15.C15_fri_complete O L rou K K_pos rou_sq rou_1 two_nz gen_offset offset_nz dbg D D_eqb D_eqb_spec
              hash_elements MT MN mt_new mt_root mt_prove_batch mt_verify_batch CS cs_reseed cs_draw
              merkle_new_ok merkle_batch_complete draw_total f b remmax f_pos f_supported
              a k d (positions_of xs) coin0 Hlayers Hkf Hb HaK Ha62 Hd Hpos) as (cs & proof & p' & Hp & Hv).
  unfold fri_prove, fri_verify, opts. rewrite Hp.
  replace (S (2 ^ (a - b) - 2)) with (2 ^ (a - b) - 1) by lia.
  pose proof (evals_at_positions d xs Hin) as E. unfold FriComplete.evals_at in E. cbv zeta in Hv. rewrite E in Hv. rewrite Hv. reflexivity.
Qed.
End FriInst.

(* ================================================================================================ the capstone, all stages instantiated *)
Section FinalFri.
Context {F : Type} (O : FOps F) (L : FLaws O).
Local Notation zero := (fzero O).
Local Notation one := (fone O).
Local Notation "a *f b" := (fmul O a b) (at level 40, left associativity).

(* hashing / Merkle (C10): any digest type with decidable equality, any merge and element-hash functions *)
Variable D : Type.
Variable D_eqb : D -> D -> bool.
Hypothesis D_eqb_spec : forall a b, D_eqb a b = true <-> a = b.
Variables (d0 : D) (merge : D -> D -> D) (hash_elements : list F -> D).
(* the field's two-adic roots of unity and the domain offset (C15 / C09) *)
Variable rou : nat -> F.
Variable K : nat.
Hypothesis K_pos : 1 <= K.
Hypothesis rou_sq : forall k, k < K -> rou (S k) *f rou (S k) = rou k.
Hypothesis rou_1 : rou 1 = fneg O one.
Hypothesis two_nz : fadd O one one <> zero.
Variable gen_offset : F.
Hypothesis offset_nz : gen_offset <> zero.
(* the public coin as a state machine (FRI commit phase) and as a function of the symbolic challenge list (C04) *)
Variable CS : Type.
Variable cs_reseed : CS -> D -> CS.
Variable cs_draw : CS -> CS * Fri.draw_res F.
Hypothesis draw_total : forall c, exists c' a, cs_draw c = (c', Fri.DrawOk a).   (* no draw exhausts its 1000 tries: outside the claim *)
Variable coin0 : CS.
Variable sem : list (Transcript.chal * Transcript.cval) -> @Coin F.
(* FRI schedule: folding 2^f, blowup 2^b, LDE domain 2^a, k layers — the property's well-formedness condition *)
Variables f b remmax a k : nat.
Hypothesis f_pos : 1 <= f.
Hypothesis f_supported : Fri.supported_folding (2 ^ f) = true.
Hypothesis Hlayers : Fri.num_fri_layers (Fri.mkOpts (2 ^ b) (2 ^ f) remmax) (2 ^ a) = Some k.
Hypothesis Hkf : k * f < a.
Hypothesis Hb : b <= a - k * f.
Hypothesis HaK : a <= K.
Hypothesis Ha62 : a <= 62.
(* constraint evaluation domain 2^(S kc) (C09) *)
Variables (two_adicity : nat) (itw : list F) (kc : nat).
Hypothesis Hta : S kc <= two_adicity.
Hypothesis Hroot : FFTSpec.root_cond O (S kc) (rou (S kc)).
Hypothesis Hget : FFT.get_inv_twiddles O two_adicity rou (2 ^ S kc) = Some itw.
Hypothesis Hn_inv : FFTSpec.two_pow_f O (S kc) *f FFTOffset.n_inv O (S kc) = one.
Variable dbg_fri : bool.
Variable air_eval : F -> list F -> list F -> F.
Variables (cols ce_b : nat) (g : F).

Local Notation n := (2 ^ (a - b)).
Local Notation lde := (lde_of O rou gen_offset a).
Local Notation MT := (Merkle.mtree D).
Local Notation MN := (list (list D)).
Local Notation FriP := (FriProof D MN).
Local Notation fprove := (fri_prove O rou K gen_offset D hash_elements MT MN (mt_new' D d0 merge) (mt_root' D d0)
                                   (mt_prove_batch' D d0) CS cs_reseed cs_draw f b remmax a coin0).
Local Notation fverify := (fri_verify O rou K gen_offset dbg_fri D D_eqb hash_elements MN (mt_verify_batch' D D_eqb merge)
                                      CS cs_reseed cs_draw f b remmax a coin0).
Local Notation prove' := (prove O D (Opening D) FriP (commit O D d0 merge hash_elements lde) (open_prove O D d0 merge hash_elements lde)
                                 fprove air_eval (interp_ce O two_adicity itw kc (rou (S kc)) gen_offset)).
Local Notation verify' := (verify O D (Opening D) FriP (open_ok O D D_eqb merge hash_elements lde) fverify air_eval).

Theorem stark_complete_all_stages (dbg : bool) (s : Transcript.shape) (Ts : list (list F))
    (e : nat) (N : list F) (bs : list (list F * list F)) :
  let cP := coin_prover sem s in
  let cV := coin_verifier sem s in
  primitive_root O g n -> fpow O gen_offset (2 ^ S kc) <> one ->
  2 <= n -> 1 <= cols -> 2 ^ S kc = n * ce_b -> cols <= ce_b ->
  Ts <> [] -> Forall (fun p => length p = n) Ts -> e <= n ->
  (forall i, i < n - e -> peval O N (fpow O g i) = zero) ->
  length N - (n - e) <= n * cols ->
  Forall (fun br => NoDup (snd br) /\ incl (snd br) (domain O g n) /\
                    (forall r, In r (snd br) -> peval O (fst br) r = zero) /\ length (fst br) - length (snd br) <= n * cols) bs ->
  (forall x, ~ In x (domain O g n) -> air_eval x (evals O Ts x) (evals O Ts (x *f g)) = combined O g n e N bs x) ->
  ~ In (c_z cP) (domain O g n) -> c_z cP <> zero -> c_z cP *f g <> zero ->
  incl (c_xs cP) lde -> NoDup (c_xs cP) -> c_xs cP <> [] -> length (c_xs cP) <= 255 ->
  (forall x, In x (c_xs cP) -> x <> c_z cP /\ x <> c_z cP *f g) ->
  exists pf, prove' (mkParams n g cols false dbg) cP Ts = Done pf /\
             verify' (mkParams n g cols false dbg) cV pf = None.
Proof.
  intros cP cV Hg Hoce Hn Hcols Hsz Hcb HTs HTl He Hv HNl Hbs Hair Hz Hz0 Hzg0 Hxs Hnd Hne H255 Hxz.
  assert (Ha1 : 1 <= a <= 62) by lia.
  apply (stark_complete O L D D_eqb D_eqb_spec d0 merge hash_elements lde a Ha1 (lde_of_length O rou gen_offset a)
           two_adicity rou itw kc (rou (S kc)) gen_offset Hta eq_refl Hroot Hget offset_nz Hn_inv
           FriP fprove fverify air_eval sem n cols ce_b g) with (e := e) (N := N) (bs := bs); try assumption.
  intros d xs Hd _ Hin Hxne Hx255.
  apply (fri_complete_inst O L rou K K_pos rou_sq rou_1 two_nz gen_offset offset_nz dbg_fri D D_eqb D_eqb_spec hash_elements
           MT MN (mt_new' D d0 merge) (mt_root' D d0) (mt_prove_batch' D d0) (mt_verify_batch' D D_eqb merge) CS cs_reseed cs_draw
           (merkle_new_ok' D d0 merge) (merkle_batch_complete' D D_eqb D_eqb_spec d0 merge) draw_total
           f b remmax f_pos f_supported a k coin0 Hlayers Hkf Hb HaK Ha62); assumption.
Qed.
End FinalFri.
