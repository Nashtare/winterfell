(* C08 — the hypotheses of Proofs/ExtModel.v discharged for the sigma-type fields F64_ops / F62_ops / F128_ops of
   Proofs/ZpLaws.v.  Quadratic: the discriminant (-7 resp. 5) is a non-residue (Euler criterion).  Cubic: the Frobenius
   constants satisfy their equations, the fixed-point determinant is a unit, the first column of constants is phi^p
   (the second is then (phi^2)^p by ExtModel.c_exp_basis), and the cubic has no root in F_p (ExtTheory's `cs_res`);
   constants by vm_compute.  Then the transport to the executable instance `zp_ops p` and the five FLaws instances. *)
From Coq Require Import ZArith Znumtheory Zpow_facts Lia List Bool.
From VBase Require Import FieldOps ZpOps.
From VGen Require Import F64 F62 F128.
From VModel Require Import ExtField.
From VProofs Require Import NumTheoryFermat FastMod NumTheoryPrime ZpLaws ExtTheory ExtModel.
Open Scope Z_scope.

(* ------------------------------------------------------------------ Euler criterion, the direction needed:
   a square root s of d would give d^((p-1)/2) = s^(p-1) = 1 by Fermat *)
Lemma euler_nonsquare : forall p h d, prime p -> 2 * h = p - 1 -> d <> 0 ->
  zpow_mod p d h <> 1 -> forall s, 0 <= s < p -> (s * s) mod p <> d.
Proof.
  intros p h d Hp Hh Hd0 Hz s Hs E. apply Hz.
  pose proof (prime_gt1 p Hp) as H1.
  rewrite zpow_mod_spec by lia.
  rewrite <- E. rewrite <- Zpower_mod by lia.
  replace (s * s) with (s ^ 2) by ring. rewrite <- Z.pow_mul_r by lia. rewrite Hh.
  apply fermat_pm1; [exact Hp|].
  rewrite Z.mod_small by lia. intros ->. apply Hd0. rewrite <- E. apply Z.mod_0_l. lia.
Qed.

Lemma zp_nonsquare : forall p (Hp : prime p) (H1 : 1 < p) h (D : Zp p),
  2 * h = p - 1 -> zp_val D <> 0 -> zpow_mod p (zp_val D) h <> 1 ->
  forall s : Zp p, fmul (zpT_ops p H1) s s <> D.
Proof.
  intros p Hp H1 h D Hh HD Hz s E. apply (f_equal zp_val) in E.
  cbn [zp_val fmul zpT_ops zp_mk proj1_sig] in E.
  apply (euler_nonsquare p h (zp_val D) Hp Hh HD Hz (proj1_sig s)); [apply (zp_val_range p s)|exact E].
Qed.

(* the discriminants are what the documentation says, -7 and 5, and their Euler symbols are -1 *)
Lemma f64_disc_val : zp_val (qs_disc F64_ops (fneg2 F64_ops)) = P64 - 7
  /\ zpow_mod P64 (P64 - 7) ((P64 - 1) / 2) = P64 - 1.
Proof. rewrite (zpow_mod_rd P64 red64 red64_mod). split; vm_compute; reflexivity. Qed.
Lemma f62_disc_val : zp_val (qs_disc F62_ops (fone F62_ops)) = 5 /\ zpow_mod P62 5 ((P62 - 1) / 2) = P62 - 1.
Proof. rewrite (zpow_mod_rd P62 red62 red62_mod). split; vm_compute; reflexivity. Qed.
Lemma f128_disc_val : zp_val (qs_disc F128_ops (fone F128_ops)) = 5 /\ zpow_mod P128 5 ((P128 - 1) / 2) = P128 - 1.
Proof. rewrite (zpow_mod_rd P128 red128 red128_mod). split; vm_compute; reflexivity. Qed.

(* hence -7 is a non-residue mod P64, and 5 is one mod P62 and mod P128 *)
Theorem f64_disc_nonsquare : forall s, fmul F64_ops s s <> qs_disc F64_ops (fneg2 F64_ops).
Proof.
  destruct f64_disc_val as [V E].
  apply (zp_nonsquare P64 P64_prime _ ((P64 - 1) / 2)); rewrite ?V, ?E; [reflexivity | discriminate | discriminate].
Qed.
Theorem f62_disc_nonsquare : forall s, fmul F62_ops s s <> qs_disc F62_ops (fone F62_ops).
Proof.
  destruct f62_disc_val as [V E].
  apply (zp_nonsquare P62 P62_prime _ ((P62 - 1) / 2)); rewrite ?V, ?E; [reflexivity | discriminate | discriminate].
Qed.
Theorem f128_disc_nonsquare : forall s, fmul F128_ops s s <> qs_disc F128_ops (fone F128_ops).
Proof.
  destruct f128_disc_val as [V E].
  apply (zp_nonsquare P128 P128_prime _ ((P128 - 1) / 2)); rewrite ?V, ?E; [reflexivity | discriminate | discriminate].
Qed.

(* ------------------------------------------------------------------ values of tuples *)
Definition val2 {p} (a : Zp p * Zp p) : Z * Z := (zp_val (fst a), zp_val (snd a)).
Definition val3 {p} (a : Zp p * Zp p * Zp p) : Z * Z * Z := (zp_val (c0 a), zp_val (c1 a), zp_val (c2 a)).
Lemma val2_inj : forall p (a b : Zp p * Zp p), val2 a = val2 b -> a = b.
Proof.
  intros p [a0 a1] [b0 b1] H. unfold val2 in H; cbn [fst snd] in H. injection H as H0 H1.
  f_equal; apply zp_val_inj; assumption.
Qed.
Lemma val3_inj : forall p (a b : Zp p * Zp p * Zp p), val3 a = val3 b -> a = b.
Proof.
  intros p [[a0 a1] a2] [[b0 b1] b2] H. unfold val3, c0, c1, c2 in H; cbn [fst snd] in H. injection H as H0 H1 H2.
  f_equal; [f_equal|]; apply zp_val_inj; assumption.
Qed.

(* ------------------------------------------------------------------ powers in Zp and evaluation at a root *)
Section Pow.
Context {F : Type} (O : FOps F) (L : FLaws O).
(* the shape of FieldElement::exp_vartime in the base field *)
Fixpoint f_exp_loop (r b : F) (e : positive) : F :=
  match e with
  | xH => fmul O r b
  | xO e' => f_exp_loop r (fmul O b b) e'
  | xI e' => f_exp_loop (fmul O r b) (fmul O b b) e'
  end.

Variable I : Ext3Impl F.
Variables u v k01 k02 k11 k12 k21 k22 : F.
Hypothesis IC : Ext3Correct O I u v k01 k02 k11 k12 k21 k22.

Lemma cs_ev_exp_loop : forall t, cs_poly O u v t = fzero O ->
  forall e r b, cs_ev O t (c_exp_loop I r b e) = f_exp_loop (cs_ev O t r) (cs_ev O t b) e.
Proof.
  intros t Ht. induction e as [e IH|e IH|]; intros r b; cbn [c_exp_loop f_exp_loop].
  - rewrite IH. unfold c_mul, c_square. rewrite (x3c_square _ _ _ _ _ _ _ _ _ _ IC), (x3c_mul _ _ _ _ _ _ _ _ _ _ IC).
    rewrite !(cs_ev_mul O L u v t Ht). reflexivity.
  - rewrite IH. unfold c_square. rewrite (x3c_square _ _ _ _ _ _ _ _ _ _ IC).
    rewrite !(cs_ev_mul O L u v t Ht). reflexivity.
  - unfold c_mul. rewrite (x3c_mul _ _ _ _ _ _ _ _ _ _ IC). apply (cs_ev_mul O L u v t Ht).
Qed.
End Pow.

Section ZpCubic.
Variable p : Z.
Hypothesis Hp : prime p.
Hypothesis H2 : 2 < p.
Let H1 : 1 < p := prime_gt1 p Hp.
Let O : FOps (Zp p) := zpT_ops p H1.
Let L : FLaws O := zpT_laws p Hp H2.

Lemma zp_pow_val : forall (b : Zp p) n,
  zp_val (r_pow (e1 := fone O) (mul := fmul O) b n) = (zp_val b ^ Z.of_nat n) mod p.
Proof.
  intros b. induction n as [|n IH]; [reflexivity|].
  rewrite Nat2Z.inj_succ, Z.pow_succ_r, <- Z.mul_mod_idemp_r, <- IH by lia. reflexivity.
Qed.

(* Fermat in the shape of exp_vartime: 1 . r^p = r *)
Lemma zp_exp_loop_fermat : forall pp (r : Zp p), p = Zpos pp -> f_exp_loop O (fone O) r pp = r.
Proof.
  intros pp r E. pose proof (FLaws_ring_theory O L) as R.
  change (f_exp_loop O (fone O) r pp) with (r_exp_loop (mul := fmul O) (fun b => fmul O b b) (fone O) r pp).
  rewrite (r_exp_loop_spec R _ (fun _ => eq_refl)), (Rmul_1_l R).
  apply zp_val_inj. rewrite zp_pow_val, positive_nat_Z, <- E, fermat_little_Z by exact Hp.
  apply Z.mod_small, (zp_val_range p r).
Qed.

Variable I : Ext3Impl (Zp p).
Variables u v k01 k02 k11 k12 k21 k22 : Zp p.
Hypothesis IC : Ext3Correct O I u v k01 k02 k11 k12 k21 k22.

(* "the Frobenius constants are phi^p" + "cs_res <> 0"  =>  the cubic has no root in F_p *)
Theorem zp_cubic_no_root : forall pp, p = Zpos pp ->
  c_exp O I (phi O) (Zpos pp) = psi k01 k11 k21 ->
  cs_res O u v k01 k11 k21 <> fzero O ->
  cs_no_root O u v.
Proof.
  intros pp Ep Hpow Hres t Ht. apply Hres.
  apply (cs_common_root_res O L u v k01 k11 k21 t).
  - exact Ht.
  - unfold c_exp in Hpow.
    assert (Hne : c_eqb O (phi O) (c_zero O) = false).
    { destruct (c_eqb O (phi O) (c_zero O)) eqn:E; [|reflexivity].
      apply (c_eqb_spec O L) in E. apply (f_equal (@c1 _)) in E.
      exfalso. apply (fl_one_neq_zero O L). exact E. }
    rewrite Hne in Hpow.
    apply (f_equal (cs_ev O t)) in Hpow.
    rewrite (cs_ev_exp_loop O L I u v k01 k02 k11 k12 k21 k22 IC t Ht) in Hpow.
    rewrite (cs_ev_one O L), (cs_ev_phi O L) in Hpow.
    rewrite (zp_exp_loop_fermat pp t Ep) in Hpow.
    symmetry. exact Hpow.
Qed.
End ZpCubic.

(* ------------------------------------------------------------------ cubic constants: x^3 - x - 1 over P64, x^3 + 2x + 2 over P62 *)
Local Notation K64 := (Frob3Consts F64_ops (fone F64_ops) (fone F64_ops)
  (f64_k01 F64_ops) (f64_k02 F64_ops) (f64_k11 F64_ops) (f64_k12 F64_ops) (f64_k21 F64_ops) (f64_k22 F64_ops)).
Local Notation K62 := (Frob3Consts F62_ops (fneg2 F62_ops) (fneg2 F62_ops)
  (f62_k01 F62_ops) (f62_k02 F62_ops) (f62_k11 F62_ops) (f62_k12 F62_ops) (f62_k21 F62_ops) (f62_k22 F62_ops)).

Theorem f64_frob3_consts : K64.
Proof. constructor; apply val3_inj; vm_compute; reflexivity. Qed.
Theorem f62_frob3_consts : K62.
Proof. constructor; apply val3_inj; vm_compute; reflexivity. Qed.

Theorem f64_fix_det : cs_fix_det F64_ops (f64_k11 F64_ops) (f64_k12 F64_ops) (f64_k21 F64_ops) (f64_k22 F64_ops) <> fzero F64_ops.
Proof. intros E. apply (f_equal zp_val) in E. vm_compute in E. discriminate. Qed.
Theorem f62_fix_det : cs_fix_det F62_ops (f62_k11 F62_ops) (f62_k12 F62_ops) (f62_k21 F62_ops) (f62_k22 F62_ops) <> fzero F62_ops.
Proof. intros E. apply (f_equal zp_val) in E. vm_compute in E. discriminate. Qed.

(* ------------------------------------------------------------------ running exp_vartime *)
(* Every operation of zpT_ops computes on the underlying integers what zp_ops p computes (ZpLaws.zpT_*_val, all by
   reflexivity) and the generated terms only combine operations: unfolding them and the operations, not the integer
   arithmetic, leaves the same expression in the coefficients on both sides. *)
Ltac val_unfold :=
  cbv [val2 val3 c0 c1 c2 fst snd x2_mul x2_square x3_mul x3_square f64_x2 f62_x2 f128_x2 f64_x3 f62_x3
       f64_ext2_mul f64_ext2_square f64_ext2_frobenius f64_ext3_mul f64_ext3_square f64_ext3_frobenius
       f62_ext2_mul f62_ext2_frobenius f62_ext3_mul f62_ext3_frobenius f128_ext2_mul f128_ext2_frobenius
       zpT_ops zp_ops zp_ops_rd fzero fone fadd fsub fmul fneg fdouble fsquare fofz zp_mk zp_val proj1_sig].

(* The powers below take some 200 extension multiplications each.  They are run over FastMod.zp_ops_rd, the operations
   of zp_ops p with a division-free `rd` for `mod p`: a vtable of generated terms commutes with val2 / val3 into that
   instance as it does into zp_ops p, up to rd x = x mod p, and exp_vartime only multiplies and squares. *)
Section Fast.
Variables (p : Z) (H1 : 1 < p) (rd : Z -> Z).
Hypothesis rd_mod : forall x, rd x = x mod p.
Local Notation O := (zpT_ops p H1).
Local Notation R := (zp_ops_rd p rd).

Definition x2_val (I : Ext2Impl (Zp p)) (I' : Ext2Impl Z) : Prop :=
  (forall a b, val2 (x2_mul I a b) = x2_mul I' (val2 a) (val2 b)) /\ (forall a, val2 (x2_square I a) = x2_square I' (val2 a)).
Definition x3_val (I : Ext3Impl (Zp p)) (I' : Ext3Impl Z) : Prop :=
  (forall a b, val3 (x3_mul I a b) = x3_mul I' (val3 a) (val3 b)) /\ (forall a, val3 (x3_square I a) = x3_square I' (val3 a)).
Ltac val_rd := split; repeat intros [? ?]; val_unfold; rewrite ?rd_mod; reflexivity.
Lemma f64_x2_rd : x2_val (f64_x2 O) (f64_x2 R).   Proof. val_rd. Qed.
Lemma f62_x2_rd : x2_val (f62_x2 O) (f62_x2 R).   Proof. val_rd. Qed.
Lemma f128_x2_rd : x2_val (f128_x2 O) (f128_x2 R).   Proof. val_rd. Qed.
Lemma f64_x3_rd : x3_val (f64_x3 O) (f64_x3 R).   Proof. val_rd. Qed.
Lemma f62_x3_rd : x3_val (f62_x3 O) (f62_x3 R).   Proof. val_rd. Qed.

Lemma q_exp_val I I' : x2_val I I' -> forall a e, val2 (q_exp O I a e) = q_exp R I' (val2 a) e.
Proof.
  intros [Hm Hs] a e.
  assert (E1 : val2 (q_one O) = q_one R) by (unfold q_one; val_unfold; rewrite rd_mod; reflexivity).
  destruct e as [|e|e]; try exact E1. unfold q_exp.
  change (q_eqb R (val2 a) (q_zero R)) with (q_eqb O a (q_zero O)). destruct (q_eqb O a (q_zero O)); [reflexivity|].
  rewrite <- E1. generalize (q_one O). revert a.
  induction e as [e IH|e IH|]; intros a r; cbn [q_exp_loop]; unfold q_mul, q_square; rewrite ?IH, ?Hm, ?Hs; reflexivity.
Qed.
Lemma c_exp_val I I' : x3_val I I' -> forall a e, val3 (c_exp O I a e) = c_exp R I' (val3 a) e.
Proof.
  intros [Hm Hs] a e.
  assert (E1 : val3 (c_one O) = c_one R) by (unfold c_one; val_unfold; rewrite rd_mod; reflexivity).
  destruct e as [|e|e]; try exact E1. unfold c_exp.
  change (c_eqb R (val3 a) (c_zero R)) with (c_eqb O a (c_zero O)). destruct (c_eqb O a (c_zero O)); [reflexivity|].
  rewrite <- E1. generalize (c_one O). revert a.
  induction e as [e IH|e IH|]; intros a r; cbn [c_exp_loop]; unfold c_mul, c_square; rewrite ?IH, ?Hm, ?Hs; reflexivity.
Qed.
End Fast.

(* psi is phi^p, computed with the GENERATED multiplication/squaring through the model's exp_vartime
   (ExtModel.c_exp_basis then gives conjugation = x |-> x^p on the basis, hence, being F_p-linear, everywhere) *)
Lemma f64_phi_pow :
  c_exp F64_ops (f64_x3 F64_ops) (phi F64_ops) P64 = psi (f64_k01 F64_ops) (f64_k11 F64_ops) (f64_k21 F64_ops).
Proof.
  apply val3_inj. unfold F64_ops. rewrite (c_exp_val _ _ _ red64_mod _ _ (f64_x3_rd _ _ _ red64_mod)).
  vm_compute. reflexivity.
Qed.
Lemma f62_phi_pow :
  c_exp F62_ops (f62_x3 F62_ops) (phi F62_ops) P62 = psi (f62_k01 F62_ops) (f62_k11 F62_ops) (f62_k21 F62_ops).
Proof.
  apply val3_inj. unfold F62_ops. rewrite (c_exp_val _ _ _ red62_mod _ _ (f62_x3_rd _ _ _ red62_mod)).
  vm_compute. reflexivity.
Qed.
(* quadratic: phi^p = 1 - phi *)
Theorem f64_frob2_consts_spec :
  q_exp F64_ops (f64_x2 F64_ops) (fzero F64_ops, fone F64_ops) P64 = f64_ext2_frobenius F64_ops (fzero F64_ops, fone F64_ops).
Proof.
  apply val2_inj. unfold F64_ops. rewrite (q_exp_val _ _ _ red64_mod _ _ (f64_x2_rd _ _ _ red64_mod)).
  vm_compute. reflexivity.
Qed.
Theorem f62_frob2_consts_spec :
  q_exp F62_ops (f62_x2 F62_ops) (fzero F62_ops, fone F62_ops) P62 = f62_ext2_frobenius F62_ops (fzero F62_ops, fone F62_ops).
Proof.
  apply val2_inj. unfold F62_ops. rewrite (q_exp_val _ _ _ red62_mod _ _ (f62_x2_rd _ _ _ red62_mod)).
  vm_compute. reflexivity.
Qed.
Theorem f128_frob2_consts_spec :
  q_exp F128_ops (f128_x2 F128_ops) (fzero F128_ops, fone F128_ops) P128 = f128_ext2_frobenius F128_ops (fzero F128_ops, fone F128_ops).
Proof.
  apply val2_inj. unfold F128_ops. rewrite (q_exp_val _ _ _ red128_mod _ _ (f128_x2_rd _ _ _ red128_mod)).
  vm_compute. reflexivity.
Qed.

Theorem f64_cubic_no_root : cs_no_root F64_ops (fone F64_ops) (fone F64_ops).
Proof.
  apply (zp_cubic_no_root P64 P64_prime eq_refl (f64_x3 F64_ops) _ _ _ _ _ _ _ _ (f64_x3_correct F64_ops F64_laws) _ eq_refl).
  - exact f64_phi_pow.
  - intros E. apply (f_equal zp_val) in E. vm_compute in E. discriminate.
Qed.
Theorem f62_cubic_no_root : cs_no_root F62_ops (fneg2 F62_ops) (fneg2 F62_ops).
Proof.
  apply (zp_cubic_no_root P62 P62_prime eq_refl (f62_x3 F62_ops) _ _ _ _ _ _ _ _ (f62_x3_correct F62_ops F62_laws) _ eq_refl).
  - exact f62_phi_pow.
  - intros E. apply (f_equal zp_val) in E. vm_compute in E. discriminate.
Qed.

(* ------------------------------------------------------------------ the executable instance (zp_ops on Z) is the
   same function as the sigma-type instance, coefficient-wise: what the correspondence runs is what is proved *)
Definition oval2 {p} (o : option (Zp p * Zp p)) : option (Z * Z) := option_map val2 o.
Definition oval3 {p} (o : option (Zp p * Zp p * Zp p)) : option (Z * Z * Z) := option_map val3 o.
Definition mkzp (p x : Z) (H : 0 <= x < p) : Zp p := exist _ x (proj2 (zp_canon_iff p x) H).

Section Val.
Variable p : Z.
Hypothesis H1 : 1 < p.
Local Notation O := (zpT_ops p H1).
Local Notation O' := (zp_ops p).

Ltac val_eq := val_unfold; reflexivity.
Lemma f64_ext2_mul_val : forall a b, val2 (f64_ext2_mul O a b) = f64_ext2_mul O' (val2 a) (val2 b).
Proof. intros [a0 a1] [b0 b1]. val_eq. Qed.
Lemma f64_ext2_square_val : forall a, val2 (f64_ext2_square O a) = f64_ext2_square O' (val2 a).
Proof. intros [a0 a1]. val_eq. Qed.
Lemma f64_ext2_frob_val : forall a, val2 (f64_ext2_frobenius O a) = f64_ext2_frobenius O' (val2 a).
Proof. intros [a0 a1]. val_eq. Qed.
Lemma f64_ext3_mul_val : forall a b, val3 (f64_ext3_mul O a b) = f64_ext3_mul O' (val3 a) (val3 b).
Proof. intros [[a0 a1] a2] [[b0 b1] b2]. val_eq. Qed.
Lemma f64_ext3_square_val : forall a, val3 (f64_ext3_square O a) = f64_ext3_square O' (val3 a).
Proof. intros [[a0 a1] a2]. val_eq. Qed.
Lemma f64_ext3_frob_val : forall a, val3 (f64_ext3_frobenius O a) = f64_ext3_frobenius O' (val3 a).
Proof. intros [[a0 a1] a2]. val_eq. Qed.
Lemma f62_ext2_mul_val : forall a b, val2 (f62_ext2_mul O a b) = f62_ext2_mul O' (val2 a) (val2 b).
Proof. intros [a0 a1] [b0 b1]. val_eq. Qed.
Lemma f62_ext2_frob_val : forall a, val2 (f62_ext2_frobenius O a) = f62_ext2_frobenius O' (val2 a).
Proof. intros [a0 a1]. val_eq. Qed.
Lemma f62_ext3_mul_val : forall a b, val3 (f62_ext3_mul O a b) = f62_ext3_mul O' (val3 a) (val3 b).
Proof. intros [[a0 a1] a2] [[b0 b1] b2]. val_eq. Qed.
Lemma f62_ext3_frob_val : forall a, val3 (f62_ext3_frobenius O a) = f62_ext3_frobenius O' (val3 a).
Proof. intros [[a0 a1] a2]. val_eq. Qed.
Lemma f128_ext2_mul_val : forall a b, val2 (f128_ext2_mul O a b) = f128_ext2_mul O' (val2 a) (val2 b).
Proof. intros [a0 a1] [b0 b1]. val_eq. Qed.
Lemma f128_ext2_frob_val : forall a, val2 (f128_ext2_frobenius O a) = f128_ext2_frobenius O' (val2 a).
Proof. intros [a0 a1]. val_eq. Qed.

(* QuadExtension::inv only combines mul, frobenius and base-field operations: it commutes with val2 for any two
   vtables whose mul and frobenius do; likewise the theorem "a . inv a = 1" moves to the executable instance *)
Section QuadVal.
Variables (I : Ext2Impl (Zp p)) (I' : Ext2Impl Z).
Hypothesis Hmul : forall a b, val2 (x2_mul I a b) = x2_mul I' (val2 a) (val2 b).
Hypothesis Hfrob : forall a, val2 (x2_frob I a) = x2_frob I' (val2 a).

Lemma q_inv_val : forall dbg a, oval2 (q_inv O I dbg a) = q_inv O' I' dbg (val2 a).
Proof.
  intros dbg a. unfold q_inv, oval2. cbv zeta. rewrite <- Hfrob, <- Hmul.
  change (q_eqb O' (val2 a) (q_zero O')) with (q_eqb O a (q_zero O)).
  destruct (q_eqb O a (q_zero O)); [reflexivity|].
  set (n := x2_mul I a (x2_frob I a)).
  change (feqb O' (snd (val2 n)) (fzero O')) with (feqb O (snd n) (fzero O)).
  destruct (dbg && negb (feqb O (snd n) (fzero O))); reflexivity.
Qed.

Lemma q_inv_exec :
  (forall dbg a, a <> q_zero O -> exists ia, q_inv O I dbg a = Some ia /\ x2_mul I a ia = q_one O) ->
  forall dbg a0 a1, 0 <= a0 < p -> 0 <= a1 < p -> (a0, a1) <> (0, 0) ->
  exists ia, q_inv O' I' dbg (a0, a1) = Some ia /\ x2_mul I' (a0, a1) ia = (1, 0).
Proof.
  intros S dbg a0 a1 R0 R1 Hne. set (a := (mkzp p a0 R0, mkzp p a1 R1)).
  destruct (S dbg a) as (ia & E & M).
  { intros Ea. apply Hne. exact (f_equal val2 Ea). }
  exists (val2 ia). change (a0, a1) with (val2 a). rewrite <- q_inv_val, <- Hmul, E, M. split; [reflexivity|].
  unfold val2, q_one; cbn [fst snd zp_val fone fzero zpT_ops zp_mk proj1_sig]. rewrite Z.mod_small by lia. reflexivity.
Qed.
End QuadVal.

Section CubeVal.
Variables (I : Ext3Impl (Zp p)) (I' : Ext3Impl Z).
Hypothesis Hmul : forall a b, val3 (x3_mul I a b) = x3_mul I' (val3 a) (val3 b).
Hypothesis Hfrob : forall a, val3 (x3_frob I a) = x3_frob I' (val3 a).

Lemma c_inv_val : forall dbg a, oval3 (c_inv O I dbg a) = c_inv O' I' dbg (val3 a).
Proof.
  intros dbg a. unfold c_inv, oval3. cbv zeta. rewrite <- !Hfrob, <- !Hmul.
  change (c_eqb O' (val3 a) (c_zero O')) with (c_eqb O a (c_zero O)).
  destruct (c_eqb O a (c_zero O)); [reflexivity|].
  set (m := x3_mul I (x3_frob I a) (x3_frob I (x3_frob I a))). set (n := x3_mul I a m).
  change (feqb O' (c1 (val3 n)) (fzero O')) with (feqb O (c1 n) (fzero O)).
  change (feqb O' (c2 (val3 n)) (fzero O')) with (feqb O (c2 n) (fzero O)).
  destruct (dbg && negb (feqb O (c1 n) (fzero O))); [reflexivity|].
  destruct (dbg && negb (feqb O (c2 n) (fzero O))); reflexivity.
Qed.

Lemma c_inv_exec :
  (forall dbg a, a <> c_zero O -> exists ia, c_inv O I dbg a = Some ia /\ x3_mul I a ia = c_one O) ->
  forall dbg a0 a1 a2, 0 <= a0 < p -> 0 <= a1 < p -> 0 <= a2 < p -> (a0, a1, a2) <> (0, 0, 0) ->
  exists ia, c_inv O' I' dbg (a0, a1, a2) = Some ia /\ x3_mul I' (a0, a1, a2) ia = (1, 0, 0).
Proof.
  intros S dbg a0 a1 a2 R0 R1 R2 Hne. set (a := (mkzp p a0 R0, mkzp p a1 R1, mkzp p a2 R2)).
  destruct (S dbg a) as (ia & E & M).
  { intros Ea. apply Hne. exact (f_equal val3 Ea). }
  exists (val3 ia). change (a0, a1, a2) with (val3 a). rewrite <- c_inv_val, <- Hmul, E, M. split; [reflexivity|].
  unfold val3, c_one, c0, c1, c2; cbn [fst snd zp_val fone fzero zpT_ops zp_mk proj1_sig].
  rewrite Z.mod_small by lia. reflexivity.
Qed.
End CubeVal.
End Val.

(* ------------------------------------------------------------------ the five extension fields are fields (FLaws) *)
Theorem f64_quad_laws : FLaws (q_ops F64_ops (f64_x2 F64_ops)).
Proof. exact (q_laws F64_ops F64_laws _ _ (f64_x2_correct F64_ops F64_laws) f64_disc_nonsquare). Qed.
Theorem f62_quad_laws : FLaws (q_ops F62_ops (f62_x2 F62_ops)).
Proof. exact (q_laws F62_ops F62_laws _ _ (f62_x2_correct F62_ops F62_laws) f62_disc_nonsquare). Qed.
Theorem f128_quad_laws : FLaws (q_ops F128_ops (f128_x2 F128_ops)).
Proof. exact (q_laws F128_ops F128_laws _ _ (f128_x2_correct F128_ops F128_laws) f128_disc_nonsquare). Qed.
Theorem f64_cube_laws : FLaws (c_ops F64_ops (f64_x3 F64_ops)).
Proof.
  exact (c_laws F64_ops F64_laws _ _ _ _ _ _ _ _ _ (f64_x3_correct F64_ops F64_laws) f64_frob3_consts f64_fix_det f64_cubic_no_root).
Qed.
Theorem f62_cube_laws : FLaws (c_ops F62_ops (f62_x3 F62_ops)).
Proof.
  exact (c_laws F62_ops F62_laws _ _ _ _ _ _ _ _ _ (f62_x3_correct F62_ops F62_laws) f62_frob3_consts f62_fix_det f62_cubic_no_root).
Qed.
