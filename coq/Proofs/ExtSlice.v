(* C08 — slice reinterpretation (list model: flatten / group) and serialization round trips of the extension
   element models.  The `#[repr(C)]` memory layout behind the zero-copy casts is modelled, not verified. *)
From Coq Require Import ZArith List Bool Lia Arith.
From VBase Require Import MachInt FieldOps.
From VModel Require Import ExtField.
From VProofs Require Import BytesFacts.
Import ListNotations.

(* the `assert!(len % N == 0)` of slice_from_base_elements *)
Lemma assert_mod_none : forall {A : Type} m (x : A),
  (if Nat.eqb m 0 then Some x else None) = None <-> m <> 0%nat.
Proof.
  intros A m x. destruct (Nat.eqb m 0) eqn:E.
  - apply Nat.eqb_eq in E. split; [discriminate|intros H; contradiction].
  - apply Nat.eqb_neq in E. split; [intros _; exact E|reflexivity].
Qed.

Section Slices.
Context {F : Type}.

Lemma q_slice_as_base_length : forall l : list (F * F), length (q_slice_as_base l) = (2 * length l)%nat.
Proof. induction l as [|a l IH]; cbn [q_slice_as_base flat_map q_to_base_elements app length] in *; [reflexivity|]. unfold q_slice_as_base in IH. lia. Qed.

Lemma q_group_flatten : forall l : list (F * F), q_group (q_slice_as_base l) = l.
Proof.
  induction l as [|[a b] l IH]; [reflexivity|].
  cbn [q_slice_as_base flat_map q_to_base_elements app fst snd q_group]. f_equal. exact IH.
Qed.

Lemma q_flatten_group : forall n (l : list F), length l = (2 * n)%nat -> q_slice_as_base (q_group l) = l.
Proof.
  induction n as [|n IH]; intros l H.
  - destruct l; [reflexivity|cbn in H; lia].
  - destruct l as [|a [|b t]]; cbn [length] in H; try lia.
    cbn [q_group q_slice_as_base flat_map q_to_base_elements app fst snd]. f_equal. f_equal.
    apply IH. lia.
Qed.

Theorem q_slice_roundtrip_ext : forall l : list (F * F), q_slice_from_base (q_slice_as_base l) = Some l.
Proof.
  intros l. unfold q_slice_from_base. rewrite q_slice_as_base_length.
  replace ((2 * length l) mod 2)%nat with 0%nat.
  - cbn [Nat.eqb]. rewrite q_group_flatten. reflexivity.
  - symmetry. rewrite Nat.mul_comm. apply Nat.mod_mul. lia.
Qed.

Theorem q_slice_roundtrip_base : forall (l : list F) g, q_slice_from_base l = Some g -> q_slice_as_base g = l.
Proof.
  intros l g. unfold q_slice_from_base. destruct (Nat.eqb (length l mod 2) 0) eqn:E; [|discriminate].
  intros H. injection H as <-. apply Nat.eqb_eq in E.
  apply (q_flatten_group (length l / 2)). apply Nat.div_exact in E; lia.
Qed.

Theorem q_slice_from_base_panics_iff : forall l : list F,
  q_slice_from_base l = None <-> (length l mod 2 <> 0)%nat.
Proof. intros l. apply assert_mod_none. Qed.

Lemma c_slice_as_base_length : forall l : list (F * F * F), length (c_slice_as_base l) = (3 * length l)%nat.
Proof. induction l as [|a l IH]; cbn [c_slice_as_base flat_map c_to_base_elements app length] in *; [reflexivity|]. unfold c_slice_as_base in IH. lia. Qed.

Lemma c_group_flatten : forall l : list (F * F * F), c_group (c_slice_as_base l) = l.
Proof.
  induction l as [|[[a b] c] l IH]; [reflexivity|].
  cbn [c_slice_as_base flat_map c_to_base_elements app fst snd c0 c1 c2 c_group]. f_equal. exact IH.
Qed.

Lemma c_flatten_group : forall n (l : list F), length l = (3 * n)%nat -> c_slice_as_base (c_group l) = l.
Proof.
  induction n as [|n IH]; intros l H.
  - destruct l; [reflexivity|cbn in H; lia].
  - destruct l as [|a [|b [|c t]]]; cbn [length] in H; try lia.
    cbn [c_group c_slice_as_base flat_map c_to_base_elements app fst snd c0 c1 c2]. do 3 f_equal.
    apply IH. lia.
Qed.

Theorem c_slice_roundtrip_ext : forall l : list (F * F * F), c_slice_from_base (c_slice_as_base l) = Some l.
Proof.
  intros l. unfold c_slice_from_base. rewrite c_slice_as_base_length.
  replace ((3 * length l) mod 3)%nat with 0%nat.
  - cbn [Nat.eqb]. rewrite c_group_flatten. reflexivity.
  - symmetry. rewrite Nat.mul_comm. apply Nat.mod_mul. lia.
Qed.

Theorem c_slice_roundtrip_base : forall (l : list F) g, c_slice_from_base l = Some g -> c_slice_as_base g = l.
Proof.
  intros l g. unfold c_slice_from_base. destruct (Nat.eqb (length l mod 3) 0) eqn:E; [|discriminate].
  intros H. injection H as <-. apply Nat.eqb_eq in E.
  apply (c_flatten_group (length l / 3)). apply Nat.div_exact in E; lia.
Qed.

Theorem c_slice_from_base_panics_iff : forall l : list F,
  c_slice_from_base l = None <-> (length l mod 3 <> 0)%nat.
Proof. intros l. apply assert_mod_none. Qed.
End Slices.

Section Serde.
Variable p : Z.
Variable nb : nat.
Hypothesis Hp : 0 < p <= 256 ^ Z.of_nat nb.

Lemma base_read_write : forall v rest, 0 <= v < p ->
  base_read p nb (base_write nb v ++ rest) = Some (v, rest).
Proof.
  intros v rest Hv. unfold base_read, base_write.
  assert (Hl : length (to_le_bytes nb v) = nb) by apply to_le_bytes_length.
  replace (Nat.ltb (length (to_le_bytes nb v ++ rest)) nb) with false.
  2:{ symmetry. apply Nat.ltb_ge. rewrite app_length. lia. }
  rewrite firstn_app, Hl, Nat.sub_diag. rewrite firstn_all2 by lia. cbn [firstn]. rewrite app_nil_r.
  rewrite of_to_le_bytes by lia.
  replace (Z.leb p v) with false by (symmetry; apply Z.leb_gt; lia).
  rewrite skipn_app, Hl, Nat.sub_diag. rewrite skipn_all2 by lia. reflexivity.
Qed.

Theorem q_read_write : forall a rest, 0 <= fst a < p -> 0 <= snd a < p ->
  q_read p nb (q_write nb a ++ rest) = Some (a, rest).
Proof.
  intros [a0 a1] rest H0 H1. cbn [fst snd] in *. unfold q_read, q_write. cbn [fst snd].
  rewrite <- app_assoc, base_read_write by assumption. rewrite base_read_write by assumption. reflexivity.
Qed.

Theorem q_try_from_bytes_write : forall a, 0 <= fst a < p -> 0 <= snd a < p ->
  q_try_from_bytes p nb (q_write nb a) = Some a.
Proof.
  intros a H0 H1. unfold q_try_from_bytes.
  replace (Nat.eqb (length (q_write nb a)) (2 * nb)) with true.
  2:{ symmetry. apply Nat.eqb_eq. unfold q_write, base_write. rewrite app_length, !to_le_bytes_length. lia. }
  rewrite <- (app_nil_r (q_write nb a)). rewrite q_read_write by assumption. reflexivity.
Qed.

Theorem c_read_write : forall a rest, 0 <= c0 a < p -> 0 <= c1 a < p -> 0 <= c2 a < p ->
  c_read p nb (c_write nb a ++ rest) = Some (a, rest).
Proof.
  intros [[a0 a1] a2] rest H0 H1 H2. unfold c0, c1, c2 in *. cbn [fst snd] in *. unfold c_read, c_write. cbn [fst snd].
  rewrite <- !app_assoc, base_read_write by assumption. rewrite base_read_write by assumption.
  rewrite base_read_write by assumption. reflexivity.
Qed.

Theorem c_try_from_bytes_write : forall a, 0 <= c0 a < p -> 0 <= c1 a < p -> 0 <= c2 a < p ->
  c_try_from_bytes p nb (c_write nb a) = Some a.
Proof.
  intros a H0 H1 H2. unfold c_try_from_bytes.
  replace (Nat.eqb (length (c_write nb a)) (3 * nb)) with true.
  2:{ symmetry. apply Nat.eqb_eq. unfold c_write, base_write. rewrite !app_length, !to_le_bytes_length. lia. }
  rewrite <- (app_nil_r (c_write nb a)). rewrite c_read_write by assumption. reflexivity.
Qed.

(* a successful read returns canonical coefficients (non-canonical encodings are rejected) *)
Lemma base_read_canonical : forall bs v rest, (forall b, In b bs -> 0 <= b) ->
  base_read p nb bs = Some (v, rest) -> 0 <= v < p.
Proof.
  intros bs v rest Hb. unfold base_read. destruct (Nat.ltb (length bs) nb); [discriminate|].
  destruct (Z.leb p (of_le_bytes (firstn nb bs))) eqn:E; [discriminate|].
  intros H. injection H as <- _. apply Z.leb_gt in E. split; [|exact E].
  apply of_le_bytes_nonneg, Forall_forall. intros b Hin. apply Hb. rewrite <- (firstn_skipn nb bs). apply in_or_app. left. exact Hin.
Qed.
(* converse: a successful read consumed exactly the canonical encoding of what it returns *)
Lemma base_read_inv : forall bs v rest, (forall b, In b bs -> 0 <= b < 256) ->
  base_read p nb bs = Some (v, rest) -> bs = base_write nb v ++ rest /\ 0 <= v < p /\ (forall b, In b rest -> 0 <= b < 256).
Proof.
  intros bs v rest Hb. unfold base_read, base_write.
  destruct (Nat.ltb (length bs) nb) eqn:El; [discriminate|]. apply Nat.ltb_ge in El.
  destruct (Z.leb p (of_le_bytes (firstn nb bs))) eqn:E; [discriminate|].
  intros H. injection H as <- <-. apply Z.leb_gt in E.
  assert (Hf : forall b, In b (firstn nb bs) -> 0 <= b < 256).
  { intros b Hin. apply Hb. rewrite <- (firstn_skipn nb bs). apply in_or_app. left. exact Hin. }
  split; [|split].
  - rewrite <- (firstn_length_le bs El) at 1. rewrite to_of_le_bytes by (apply Forall_forall; exact Hf). symmetry. apply firstn_skipn.
  - split; [|exact E]. apply of_le_bytes_nonneg, Forall_forall. intros b Hin. apply Hf in Hin. lia.
  - intros b Hin. apply Hb. rewrite <- (firstn_skipn nb bs). apply in_or_app. right. exact Hin.
Qed.

Theorem q_read_inv : forall bs a rest, (forall b, In b bs -> 0 <= b < 256) ->
  q_read p nb bs = Some (a, rest) -> bs = q_write nb a ++ rest /\ 0 <= fst a < p /\ 0 <= snd a < p.
Proof.
  intros bs a rest Hb. unfold q_read, q_write.
  destruct (base_read p nb bs) as [[v0 r0]|] eqn:E0; [|discriminate].
  destruct (base_read p nb r0) as [[v1 r1]|] eqn:E1; [|discriminate].
  intros H. injection H as <- <-. cbn [fst snd].
  destruct (base_read_inv _ _ _ Hb E0) as (B0 & C0 & Hr0).
  destruct (base_read_inv _ _ _ Hr0 E1) as (B1 & C1 & _).
  split; [|split; assumption]. rewrite B0, B1, app_assoc. reflexivity.
Qed.

Theorem c_read_inv : forall bs a rest, (forall b, In b bs -> 0 <= b < 256) ->
  c_read p nb bs = Some (a, rest) -> bs = c_write nb a ++ rest /\ 0 <= c0 a < p /\ 0 <= c1 a < p /\ 0 <= c2 a < p.
Proof.
  intros bs a rest Hb. unfold c_read, c_write.
  destruct (base_read p nb bs) as [[v0 r0]|] eqn:E0; [|discriminate].
  destruct (base_read p nb r0) as [[v1 r1]|] eqn:E1; [|discriminate].
  destruct (base_read p nb r1) as [[v2 r2]|] eqn:E2; [|discriminate].
  intros H. injection H as <- <-. unfold c0, c1, c2. cbn [fst snd].
  destruct (base_read_inv _ _ _ Hb E0) as (B0 & C0 & Hr0).
  destruct (base_read_inv _ _ _ Hr0 E1) as (B1 & C1 & Hr1).
  destruct (base_read_inv _ _ _ Hr1 E2) as (B2 & C2 & _).
  split; [|split; [|split]; assumption]. rewrite B0, B1, B2, <- !app_assoc. reflexivity.
Qed.
End Serde.
