(* C15 — field-level lemmas about the FRI model: powers, polynomial evaluation, the N = 2 folding formula, primitive
   roots of unity and the inverse DFT of a row.  Any field with FLaws. *)
From Coq Require Import List Arith Bool Lia ZArith Ring Field.
From VBase Require Import FieldOps.
From VModel Require Import Fri.
From VProofs Require Import FieldFacts ListFacts.
Import ListNotations.

Section Field.
Context {F : Type} (O : FOps F) (L : FLaws O).
Add Field Ffield : (FLaws_field_theory O L).

Local Notation zero := (fzero O).
Local Notation one := (fone O).
Local Infix "+f" := (fadd O) (at level 50, left associativity).
Local Infix "-f" := (fsub O) (at level 50, left associativity).
Local Infix "*f" := (fmul O) (at level 40, left associativity).
Local Notation "-f x" := (fneg O x) (at level 35, right associativity).
Local Notation peval := (peval O).
Local Notation fpow := (fpow O).

Lemma feq_dec (a b : F) : {a = b} + {a <> b}.
Proof. exact (FieldFacts.feq_dec O L a b). Qed.

(* ---------------------------------------------------------------- powers and evaluation: the facts of FieldFacts.v,
   restated on the model's own copies of the two fixpoints so that `rewrite` finds them *)
Lemma fpow_add x a b : fpow x (a + b) = fpow x a *f fpow x b.
Proof. exact (FieldFacts.fpow_add O L x a b). Qed.

Lemma fpow_mul_base a b n : fpow (a *f b) n = fpow a n *f fpow b n.
Proof. exact (FieldFacts.fpow_mul_base O L a b n). Qed.

Lemma fpow_one n : fpow one n = one.
Proof. exact (FieldFacts.fpow_one O L n). Qed.

Lemma fpow_mul x a b : fpow x (a * b) = fpow (fpow x a) b.
Proof. exact (FieldFacts.fpow_mul O L x a b). Qed.

Lemma fpow_sq x n : fpow x (2 * n) = fpow (x *f x) n.
Proof. exact (FieldFacts.fpow_sq O L x n). Qed.

Lemma fpow_nonzero x n : x <> zero -> fpow x n <> zero.
Proof. exact (FieldFacts.fpow_nonzero O L x n). Qed.

Lemma fpow_inv x n : x <> zero -> fpow (finv O x) n *f fpow x n = one.
Proof. exact (FieldFacts.fpow_inv O L x n). Qed.

Lemma peval_app a b x : peval (a ++ b) x = peval a x +f fpow x (length a) *f peval b x.
Proof. exact (FieldFacts.peval_app O L a b x). Qed.

Lemma peval_repeat_zero n x : peval (repeat zero n) x = zero.
Proof. exact (FieldFacts.peval_repeat_zero O L n x). Qed.

Lemma fpow_pos_spec x p : fpow_pos O x p = fpow x (Pos.to_nat p).
Proof.
  induction p; cbn [fpow_pos].
  - rewrite IHp, Pos2Nat.inj_xI. cbn [Fri.fpow]. f_equal.
    replace (2 * Pos.to_nat p) with (Pos.to_nat p + Pos.to_nat p) by lia. now rewrite fpow_add.
  - rewrite IHp, Pos2Nat.inj_xO.
    replace (2 * Pos.to_nat p) with (Pos.to_nat p + Pos.to_nat p) by lia. now rewrite fpow_add.
  - change (Pos.to_nat 1) with 1. cbn [Fri.fpow]. ring.
Qed.

(* exp_vartime (square-and-multiply) computes the power *)
Lemma fexp_spec x n : fexp O x n = fpow x n.
Proof.
  unfold fexp. destruct (N.of_nat n) eqn:E.
  - assert (n = 0) by lia. subst. reflexivity.
  - rewrite fpow_pos_spec. f_equal. lia.
Qed.

(* ---------------------------------------------------------------- the prover's row polynomial *)

Lemma peval_scale_series : forall v off inc x,
  peval (scale_series O v off inc) x = off *f peval v (inc *f x).
Proof.
  induction v as [|c t IH]; intros off inc x; cbn [scale_series Fri.peval]; [ring|].
  rewrite IH. ring.
Qed.

Lemma scale_series_length : forall (v : list F) a b, length (scale_series O v a b) = length v.
Proof. induction v; intros; cbn [scale_series length]; auto. Qed.

Lemma power_series_from_map : forall n s b,
  power_series_from O s b n = map (fun i => s *f fpow b i) (seq 0 n).
Proof.
  induction n as [|n IH]; intros s b; cbn [power_series_from seq map]; [reflexivity|].
  f_equal; [cbn; ring|]. rewrite IH, <- seq_shift, map_map. apply map_ext. intros i. cbn [Fri.fpow]. ring.
Qed.

Lemma idft_map N w l : idft O N w l = map (fun i => peval l (fpow w i)) (seq 0 N).
Proof. unfold idft. rewrite power_series_from_map, map_map. apply map_ext. intros i. f_equal. ring. Qed.

Lemma idft_nth N winv row k : k < N -> nth k (idft O N winv row) zero = peval row (fpow winv k).
Proof. intros Hk. now rewrite idft_map, nth_map_seq. Qed.

Lemma idft_length N winv row : length (idft O N winv row) = N.
Proof. now rewrite idft_map, map_length, seq_length. Qed.

(* the value of one folded row: (1/N) * P(alpha / x) where P = unnormalised inverse DFT of the row *)
Lemma drp_row_eq N winv len_offset inv_offset alpha row :
  drp_row O N winv len_offset inv_offset alpha row = len_offset *f peval (idft O N winv row) (inv_offset *f alpha).
Proof. unfold drp_row. apply peval_scale_series. Qed.

(* ---------------------------------------------------------------- folding factor 2, explicit formula *)
(* with the inverse twiddle root -1 (the 2nd root of unity):  (f(x) + f(-x))/2 + alpha * (f(x) - f(-x))/(2x) *)
Theorem drp_row_2 : forall a b x alpha, x <> zero -> one +f one <> zero ->
  drp_row O 2 (-f one) (finv O (fnat O 2)) (finv O x) alpha [a; b]
  = fdiv O (a +f b) (one +f one) +f alpha *f fdiv O (a -f b) ((one +f one) *f x).
Proof.
  intros a b x alpha Hx H2. rewrite drp_row_eq. unfold idft. cbn [power_series_from map Fri.peval fnat].
  field. split; [assumption|]. replace (one +f (one +f zero)) with (one +f one) by ring. assumption.
Qed.

(* f(x) = f0(x^2) + x f1(x^2)  ==>  the folded value is f0(x^2) + alpha f1(x^2) *)
Theorem drp_identity_2 : forall f0 f1 x alpha, x <> zero -> one +f one <> zero ->
  let fx := f0 +f x *f f1 in
  let fmx := f0 -f x *f f1 in
  drp_row O 2 (-f one) (finv O (fnat O 2)) (finv O x) alpha [fx; fmx] = f0 +f alpha *f f1.
Proof.
  intros f0 f1 x alpha Hx H2 fx fmx. rewrite drp_row_2 by assumption. unfold fx, fmx.
  field. split; assumption.
Qed.

(* ---------------------------------------------------------------- finite sums *)
Fixpoint fsum (f : nat -> F) (n : nat) : F :=
  match n with 0 => zero | S n' => fsum f n' +f f n' end.

Lemma fsum_ext f g n : (forall i, i < n -> f i = g i) -> fsum f n = fsum g n.
Proof. induction n; intros H; cbn; [reflexivity | rewrite IHn, H; auto]. Qed.

Lemma fsum_add f g n : fsum (fun i => f i +f g i) n = fsum f n +f fsum g n.
Proof. induction n; cbn; [ring | rewrite IHn; ring]. Qed.

Lemma fsum_scale c f n : fsum (fun i => c *f f i) n = c *f fsum f n.
Proof. induction n; cbn; [ring | rewrite IHn; ring]. Qed.

Lemma fsum_zero n : fsum (fun _ => zero) n = zero.
Proof. induction n; cbn; [reflexivity | rewrite IHn; ring]. Qed.

Lemma fsum_swap (f : nat -> nat -> F) n m :
  fsum (fun i => fsum (fun j => f i j) m) n = fsum (fun j => fsum (fun i => f i j) n) m.
Proof.
  induction n; cbn.
  - now rewrite fsum_zero.
  - rewrite IHn, <- fsum_add. reflexivity.
Qed.

Lemma fsum_delta (c : F) k n : k < n -> fsum (fun i => if i =? k then c else zero) n = c.
Proof.
  induction n; intros H; [lia|]. cbn. destruct (Nat.eq_dec k n) as [->|Hne].
  - rewrite Nat.eqb_refl. rewrite (fsum_ext _ (fun _ => zero)).
    + rewrite fsum_zero. ring.
    + intros i Hi. destruct (i =? n) eqn:E; [apply Nat.eqb_eq in E; lia | reflexivity].
  - rewrite IHn by lia. destruct (n =? k) eqn:E; [apply Nat.eqb_eq in E; lia | ring].
Qed.

Lemma peval_fsum : forall l x, peval l x = fsum (fun i => nth i l zero *f fpow x i) (length l).
Proof.
  intros l x. induction l as [|c t IH] using rev_ind; [reflexivity|].
  rewrite peval_app, app_length, Nat.add_comm. cbn [length Nat.add fsum Fri.peval].
  rewrite nth_middle. rewrite IH.
  rewrite (fsum_ext (fun i => nth i (t ++ [c]) zero *f fpow x i) (fun i => nth i t zero *f fpow x i)); [ring|].
  intros i Hi. now rewrite app_nth1.
Qed.

(* geometric sums *)
Lemma geom_sum z n : (z -f one) *f fsum (fpow z) n = fpow z n -f one.
Proof. induction n; cbn [fsum Fri.fpow]; [ring|]. transitivity ((z -f one) *f fsum (fpow z) n +f (z -f one) *f fpow z n); [ring | rewrite IHn; ring]. Qed.

Lemma geom_sum_zero z n : fpow z n = one -> z <> one -> fsum (fpow z) n = zero.
Proof.
  intros Hn Hz. pose proof (geom_sum z n) as G. rewrite Hn in G.
  replace (one -f one) with zero in G by ring. apply (fmul_integral O L) in G. destruct G as [G|G]; [|assumption].
  apply (fsub_eq_zero O L) in G. contradiction.
Qed.

Lemma geom_sum_one n : fsum (fpow one) n = fnat O n.
Proof. induction n; cbn [fsum fnat]; [reflexivity | rewrite IHn, fpow_one; ring]. Qed.

(* ---------------------------------------------------------------- roots of unity *)
(* w is a primitive N-th root of unity and winv its inverse *)
Record root_of_unity (N : nat) (w winv : F) : Prop := {
  ru_pow : fpow w N = one;
  ru_prim : forall d, 0 < d < N -> fpow w d <> one;
  ru_inv : w *f winv = one }.

Section Roots.
Variable N : nat.
Variable w winv : F.
Hypothesis w_pow : fpow w N = one.
Hypothesis w_prim : forall d, 0 < d < N -> fpow w d <> one.
Hypothesis w_inv : w *f winv = one.

Lemma winv_pow : fpow winv N = one.
Proof.
  transitivity (fpow winv N *f fpow w N); [rewrite w_pow; ring|].
  rewrite <- fpow_mul_base. replace (winv *f w) with one by (rewrite <- w_inv; ring). apply fpow_one.
Qed.

Lemma w_winv_pow k : fpow w k *f fpow winv k = one.
Proof. rewrite <- fpow_mul_base, w_inv. apply fpow_one. Qed.

(* the powers w^0 .. w^(N-1) are distinct *)
Lemma w_pow_inj i j : i < N -> j < N -> fpow w i = fpow w j -> i = j.
Proof.
  assert (G : forall a b, a <= b -> b < N -> fpow w a = fpow w b -> a = b).
  { intros a b Hab Hb E. destruct (Nat.eq_dec a b) as [|Hne]; [assumption | exfalso].
    apply (w_prim (b - a)); [lia|].
    transitivity (fpow w (b - a + a) *f fpow winv a); [rewrite fpow_add, <- (fl_mul_assoc O L), w_winv_pow; ring|].
    replace (b - a + a) with b by lia. rewrite <- E. apply w_winv_pow. }
  intros Hi Hj E. destruct (le_ge_dec i j); [apply G | symmetry; apply G]; auto.
Qed.

(* z = w^m * winv^j is an N-th root of unity, equal to 1 iff m = j (for m, j < N) *)
Lemma orth_root_pow m j : fpow (fpow w m *f fpow winv j) N = one.
Proof.
  rewrite fpow_mul_base, <- !fpow_mul, (Nat.mul_comm m), (Nat.mul_comm j), !fpow_mul, w_pow, winv_pow, !fpow_one. ring.
Qed.

Lemma orth_root_neq m j : m < N -> j < N -> m <> j -> fpow w m *f fpow winv j <> one.
Proof.
  intros Hm Hj Hne H. apply Hne, w_pow_inj; [assumption | assumption |].
  transitivity (fpow w m *f fpow winv j *f fpow w j); [rewrite <- (fl_mul_assoc O L), (fl_mul_comm O L (fpow winv j)), w_winv_pow | rewrite H]; ring.
Qed.

Lemma orthogonality m j : m < N -> j < N ->
  fsum (fun k => fpow (fpow w m *f fpow winv j) k) N = if m =? j then fnat O N else zero.
Proof.
  intros Hm Hj. destruct (m =? j) eqn:E.
  - apply Nat.eqb_eq in E. subst j. rewrite w_winv_pow. apply geom_sum_one.
  - apply Nat.eqb_neq in E. apply geom_sum_zero; [apply orth_root_pow | now apply orth_root_neq].
Qed.

(* the coefficient list the prover builds for a row: scale_series (idft ..) (1/N) (1/x);
   evaluated at the row's own points x * w^m it gives back the row (inverse DFT is an interpolation) *)
Theorem row_poly_interpolates : forall x row m, x <> zero -> fnat O N <> zero -> length row = N -> m < N ->
  peval (scale_series O (idft O N winv row) (finv O (fnat O N)) (finv O x)) (x *f fpow w m) = nth m row zero.
Proof.
  intros x row m Hx HN Hlen Hm. rewrite peval_scale_series.
  replace (finv O x *f (x *f fpow w m)) with (fpow w m) by (field; assumption).
  rewrite peval_fsum, idft_length.
  rewrite (fsum_ext (fun k => nth k (idft O N winv row) zero *f fpow (fpow w m) k)
                    (fun k => fsum (fun j => nth j row zero *f fpow (fpow w m *f fpow winv j) k) N)).
  2:{ intros k Hk. rewrite idft_nth by assumption. rewrite peval_fsum, Hlen.
      rewrite (fl_mul_comm O L), <- fsum_scale.
      apply fsum_ext. intros j Hj. rewrite fpow_mul_base, <- (fpow_mul winv k j), <- (fpow_mul winv j k).
      rewrite (Nat.mul_comm k j). ring. }
  rewrite (fsum_swap (fun k j => nth j row zero *f fpow (fpow w m *f fpow winv j) k) N N).
  rewrite (fsum_ext (fun j => fsum (fun k => nth j row zero *f fpow (fpow w m *f fpow winv j) k) N)
                    (fun j => if j =? m then nth m row zero *f fnat O N else zero)).
  2:{ intros j Hj. rewrite fsum_scale, orthogonality by assumption.
      rewrite Nat.eqb_sym. destruct (j =? m) eqn:E; [apply Nat.eqb_eq in E; subst; reflexivity | ring]. }
  rewrite fsum_delta by assumption. field. assumption.
Qed.

End Roots.

End Field.
