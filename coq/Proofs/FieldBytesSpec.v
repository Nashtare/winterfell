(* C07: from_bytes_with_padding (hand model Model/FieldBytes.v) never fails on a short slice and yields new(LE value);
   a slice of ELEMENT_BYTES or more bytes hits the assert. *)
From VBase Require Import MachInt.
From VGen Require F64 F62 F128.
From VModel Require Import FieldBytes.
From VProofs Require F64Red F64Ops F62Ops F128Limbs F128Ops.
From VProofs Require Import BytesFacts.
Open Scope Z_scope.

Definition byte (b : Z) : Prop := 0 <= b < 256.

(* reading back the first chunk of a serialized sequence *)
Lemma chunk_step nb w rest : 0 <= w < 256 ^ Z.of_nat nb ->
  of_le_bytes (firstn nb (to_le_bytes nb w ++ rest)) = w /\ skipn nb (to_le_bytes nb w ++ rest) = rest.
Proof.
  intros Hw. pose proof (to_le_bytes_length nb w) as L.
  rewrite firstn_app, skipn_app, L, Nat.sub_diag.
  rewrite firstn_all2, skipn_all2 by lia. cbn [firstn skipn app]. rewrite app_nil_r.
  split; [apply of_to_le_bytes; exact Hw|reflexivity].
Qed.

Lemma resize0_length n l : (length l <= n)%nat -> length (resize0 n l) = n.
Proof. intros H. unfold resize0. rewrite app_length, repeat_length. lia. Qed.

Lemma resize0_value n l : of_le_bytes (resize0 n l) = of_le_bytes l.
Proof. apply of_le_bytes_app_zeros. Qed.

(* the padded value is below 256^(ELEMENT_BYTES-1), hence below every modulus *)
Lemma short_value n l : (length l < n)%nat -> Forall byte l ->
  0 <= of_le_bytes l < 256 ^ (Z.of_nat n - 1).
Proof.
  intros Hl Hb. pose proof (of_le_bytes_range l Hb) as H.
  assert (256 ^ Z.of_nat (length l) <= 256 ^ (Z.of_nat n - 1)) by (apply Z.pow_le_mono_r; lia).
  lia.
Qed.

(* the two branches of the assert, for any ELEMENT_BYTES and TryFrom impl *)
Lemma fbwp_long nb f bs : (nb <= length bs)%nat -> from_bytes_with_padding nb f bs = FbAssertLen.
Proof.
  intros H. unfold from_bytes_with_padding. destruct (Nat.ltb_spec (length bs) nb); [lia|reflexivity].
Qed.

Lemma fbwp_short nb f bs e : (length bs < nb)%nat -> f (resize0 nb bs) = Some e ->
  from_bytes_with_padding nb f bs = FbOk e.
Proof.
  intros H E. unfold from_bytes_with_padding. destruct (Nat.ltb_spec (length bs) nb); [|lia].
  rewrite E. reflexivity.
Qed.

Lemma moduli_above_padding :
  256 ^ (8 - 1) <= F64Red.M /\ 256 ^ (8 - 1) <= F62Ops.M62 /\ 256 ^ (16 - 1) <= F128Limbs.M.
Proof. repeat split; discriminate. Qed.

Theorem f64_from_bytes_with_padding_spec bs : (length bs < 8)%nat -> Forall byte bs ->
  f64_from_bytes_with_padding bs = FbOk (F64.f64_new (of_le_bytes bs)) /\
  0 <= of_le_bytes bs < 256 ^ (8 - 1) /\
  F64Ops.repr (F64.f64_new (of_le_bytes bs)) /\
  F64Ops.val (F64.f64_new (of_le_bytes bs)) = of_le_bytes bs.
Proof.
  intros Hl Hb. pose proof (short_value 8 bs Hl Hb) as Hv. change (Z.of_nat 8 - 1) with (8 - 1) in Hv.
  assert (HvM : of_le_bytes bs < F64Red.M) by (pose proof (proj1 moduli_above_padding); lia).
  split; [|split; [exact Hv|]].
  - apply fbwp_short; [exact Hl|].
    unfold f64_try_from_slice. rewrite resize0_length by lia. cbn [Nat.ltb Nat.leb].
    unfold F64.f64_try_from_bytes. cbv zeta. rewrite resize0_value.
    unfold F64.f64_try_from_u64. rewrite F64Red.M_eq, Z.geb_leb.
    destruct (Z.leb_spec F64Red.M (of_le_bytes bs)); [lia|reflexivity].
  - destruct (F64Ops.f64_new_spec (of_le_bytes bs)) as [R V]; [unfold F64Red.M in *; lia|].
    split; [exact R|]. rewrite V. apply Z.mod_small. lia.
Qed.

Theorem f64_from_bytes_with_padding_long bs : (8 <= length bs)%nat ->
  f64_from_bytes_with_padding bs = FbAssertLen.
Proof. exact (fbwp_long 8 f64_try_from_slice bs). Qed.

Theorem f62_from_bytes_with_padding_spec bs : (length bs < 8)%nat -> Forall byte bs ->
  f62_from_bytes_with_padding bs = FbOk (F62.f62_new (of_le_bytes bs)) /\
  0 <= of_le_bytes bs < 256 ^ (8 - 1) /\
  F62Ops.repr62 (F62.f62_new (of_le_bytes bs)) /\
  F62Ops.val62 (F62.f62_new (of_le_bytes bs)) = of_le_bytes bs.
Proof.
  intros Hl Hb. pose proof (short_value 8 bs Hl Hb) as Hv. change (Z.of_nat 8 - 1) with (8 - 1) in Hv.
  assert (HvM : of_le_bytes bs < F62Ops.M62) by (pose proof (proj1 (proj2 moduli_above_padding)); lia).
  split; [|split; [exact Hv|]].
  - apply fbwp_short; [exact Hl|].
    unfold f62_try_from_slice. rewrite resize0_length by lia. cbn [Nat.ltb Nat.leb].
    rewrite resize0_value.
    unfold F62.f62_try_from_u64. rewrite F62Ops.M62_eq, Z.geb_leb.
    destruct (Z.leb_spec F62Ops.M62 (of_le_bytes bs)); [lia|reflexivity].
  - pose proof (F62Ops.f62_new_spec (of_le_bytes bs) ltac:(unfold F62Ops.M62 in *; lia)) as Hn.
    destruct Hn as [R V]. split; [exact R|]. rewrite V. apply Z.mod_small. lia.
Qed.

Theorem f62_from_bytes_with_padding_long bs : (8 <= length bs)%nat ->
  f62_from_bytes_with_padding bs = FbAssertLen.
Proof. exact (fbwp_long 8 f62_try_from_slice bs). Qed.

Theorem f128_from_bytes_with_padding_spec bs : (length bs < 16)%nat -> Forall byte bs ->
  f128_from_bytes_with_padding bs = FbOk (F128.f128_new (of_le_bytes bs)) /\
  0 <= of_le_bytes bs < 256 ^ (16 - 1) /\
  F128Ops.repr128 (F128.f128_new (of_le_bytes bs)) /\
  F128.f128_new (of_le_bytes bs) = of_le_bytes bs.
Proof.
  intros Hl Hb. pose proof (short_value 16 bs Hl Hb) as Hv. change (Z.of_nat 16 - 1) with (16 - 1) in Hv.
  assert (HvM : of_le_bytes bs < F128Limbs.M) by (pose proof (proj2 (proj2 moduli_above_padding)); lia).
  assert (En : F128.f128_new (of_le_bytes bs) = of_le_bytes bs).
  { rewrite F128Ops.f128_new_spec by (unfold F128Limbs.M in *; lia). apply Z.mod_small. lia. }
  split; [|split; [exact Hv|split; [rewrite En; unfold F128Ops.repr128; lia|exact En]]].
  apply fbwp_short; [exact Hl|].
  unfold f128_try_from_slice. rewrite resize0_length by lia. cbn [Nat.eqb negb]. cbv zeta.
  rewrite resize0_value, En, F128Limbs.M_eq, Z.geb_leb.
  destruct (Z.leb_spec F128Limbs.M (of_le_bytes bs)); [lia|reflexivity].
Qed.

Theorem f128_from_bytes_with_padding_long bs : (16 <= length bs)%nat ->
  f128_from_bytes_with_padding bs = FbAssertLen.
Proof. exact (fbwp_long 16 f128_try_from_slice bs). Qed.

(* the Err branch of the inner try_from is unreachable: no byte list gives FbDeserFailed *)
Corollary from_bytes_with_padding_never_deser_failed bs : Forall byte bs ->
  f64_from_bytes_with_padding bs <> FbDeserFailed /\
  f62_from_bytes_with_padding bs <> FbDeserFailed /\
  f128_from_bytes_with_padding bs <> FbDeserFailed.
Proof.
  intros Hb. repeat split.
  - destruct (Nat.lt_ge_cases (length bs) 8) as [H|H].
    + rewrite (proj1 (f64_from_bytes_with_padding_spec bs H Hb)). discriminate.
    + rewrite (f64_from_bytes_with_padding_long bs H). discriminate.
  - destruct (Nat.lt_ge_cases (length bs) 8) as [H|H].
    + rewrite (proj1 (f62_from_bytes_with_padding_spec bs H Hb)). discriminate.
    + rewrite (f62_from_bytes_with_padding_long bs H). discriminate.
  - destruct (Nat.lt_ge_cases (length bs) 16) as [H|H].
    + rewrite (proj1 (f128_from_bytes_with_padding_spec bs H Hb)). discriminate.
    + rewrite (f128_from_bytes_with_padding_long bs H). discriminate.
Qed.
