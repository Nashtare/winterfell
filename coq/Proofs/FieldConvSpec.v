(* C07: integer / bool conversions, conjugate, compound assignments, base_element
   (generated terms of Gen/F64.v, Gen/F62.v, Gen/F128.v) and the zero-copy byte views
   (hand model Model/FieldBytes.v). *)
From VBase Require Import MachInt.
From VGen Require F64 F62 F128.
From VModel Require Import FieldBytes.
From VProofs Require F64Red F64Ops F62Ops F128Limbs F128Ops FieldBytesSpec.
From VProofs Require Import ListFacts BytesFacts.
Open Scope Z_scope.

Notation byte := FieldBytesSpec.byte.

(* ------------------------------------------------------------------ f64 *)
Module C64.
Import F64 F64Red F64Ops.

Lemma new_small x : 0 <= x < 2^32 -> repr (f64_new x) /\ val (f64_new x) = x /\ f64_new_ok x = true.
Proof.
  intros Hx. destruct (f64_new_spec x ltac:(lia)) as [R V]. split; [exact R|]. split.
  - rewrite V. apply Z.mod_small. unfold M. lia.
  - unfold f64_new_ok, in_u, f64_R2. apply andb_true_iff; split; lia.
Qed.

Theorem f64_from_u8_spec x : 0 <= x < 2^8 ->
  repr (f64_from_u8 x) /\ val (f64_from_u8 x) = x /\ f64_from_u8_ok x = true.
Proof. intros H. apply new_small. lia. Qed.
Theorem f64_from_u16_spec x : 0 <= x < 2^16 ->
  repr (f64_from_u16 x) /\ val (f64_from_u16 x) = x /\ f64_from_u16_ok x = true.
Proof. intros H. apply new_small. lia. Qed.
Theorem f64_from_u32_spec x : 0 <= x < 2^32 ->
  repr (f64_from_u32 x) /\ val (f64_from_u32 x) = x /\ f64_from_u32_ok x = true.
Proof. intros H. apply new_small. lia. Qed.
Theorem f64_from_bool_spec b :
  repr (f64_from_bool b) /\ val (f64_from_bool b) = b2z b /\ f64_from_bool_ok b = true.
Proof. apply new_small. destruct b; cbn; lia. Qed.

Theorem f64_try_from_u64_spec v : 0 <= v < 2^64 ->
  f64_try_from_u64 v = (if v <? M then Some (f64_new v) else None) /\
  (v < M -> repr (f64_new v) /\ val (f64_new v) = v) /\ f64_try_from_u64_ok v = true.
Proof.
  intros Hv. unfold f64_try_from_u64, f64_try_from_u64_ok. rewrite M_eq, Z.geb_leb.
  destruct (f64_new_spec v Hv) as [R V].
  assert (Hok : f64_new_ok v = true).
  { unfold f64_new_ok, in_u, f64_R2. apply andb_true_iff; split; lia. }
  destruct (Z.leb_spec M v); destruct (Z.ltb_spec v M); try lia; (split; [reflexivity|split; [|assumption || reflexivity]]).
  - intros; lia.
  - intros _. split; [exact R|]. rewrite V. apply Z.mod_small. lia.
Qed.

(* usize -> element: the value must fit in a u64 AND be below the modulus *)
Theorem f64_try_from_usize_spec v : 0 <= v ->
  f64_try_from_usize v = if v <? M then Some (f64_new v) else None.
Proof.
  intros Hv. unfold f64_try_from_usize, in_u.
  destruct (Z.leb_spec 0 v); [|lia]. cbn [andb].
  destruct (Z.ltb_spec v (2^64)) as [H64|H64].
  - exact (proj1 (f64_try_from_u64_spec v ltac:(lia))).
  - destruct (Z.ltb_spec v M); [unfold M in *; lia|reflexivity].
Qed.

(* element -> integers: Ok(val e) exactly when val e fits; never truncated *)
Lemma to_uN n e : repr e -> 0 < n ->
  (if in_u n (f64_as_int e) then Some (f64_as_int e) else None) = if val e <? 2^n then Some (val e) else None.
Proof.
  intros He Hn. rewrite f64_as_int_spec by (unfold repr, M in He; lia).
  pose proof (val_range e). unfold in_u.
  destruct (Z.leb_spec 0 (val e)); [|lia]. reflexivity.
Qed.

Theorem f64_to_u8_spec e : repr e -> f64_to_u8 e = if val e <? 2^8 then Some (val e) else None.
Proof. intros He. exact (to_uN 8 e He ltac:(lia)). Qed.
Theorem f64_to_u16_spec e : repr e -> f64_to_u16 e = if val e <? 2^16 then Some (val e) else None.
Proof. intros He. exact (to_uN 16 e He ltac:(lia)). Qed.
Theorem f64_to_u32_spec e : repr e -> f64_to_u32 e = if val e <? 2^32 then Some (val e) else None.
Proof. intros He. exact (to_uN 32 e He ltac:(lia)). Qed.

Theorem f64_to_bool_spec e : repr e ->
  f64_to_bool e = if val e =? 0 then Some false else if val e =? 1 then Some true else None.
Proof. intros He. unfold f64_to_bool. rewrite f64_as_int_spec by (unfold repr, M in He; lia). reflexivity. Qed.

Theorem f64_to_u64_spec e : repr e -> f64_to_u64 e = val e /\ f64_to_u128 e = val e /\ 0 <= val e < M.
Proof.
  intros He. unfold f64_to_u64, f64_to_u128. rewrite f64_as_int_spec by (unfold repr, M in He; lia).
  split; [reflexivity|]. split; [reflexivity|apply val_range].
Qed.

Theorem f64_sf_as_int_spec e : f64_sf_as_int e = f64_as_int e.
Proof. reflexivity. Qed.

Theorem f64_conjugate_spec e : f64_conjugate e = e.
Proof. reflexivity. Qed.

Theorem f64_assign_spec a b :
  f64_add_assign a b = f64_add a b /\ f64_sub_assign a b = f64_sub a b /\
  f64_mul_assign a b = f64_mul a b /\ f64_div_assign a b = f64_div a b.
Proof. repeat split. Qed.

Theorem f64_base_element_spec e i : f64_base_element e i = if i =? 0 then Some e else None.
Proof. reflexivity. Qed.

(* mont_red_var is private, #[allow(dead_code)] and has no caller.  Were it called in a debug build, its
   `y + (M as i64)` would overflow for this input; the wrapped (release) value agrees with mont_red_cst. *)
Example f64_mont_red_var_dead_code_overflow :
  let x := (2^64 - 1) * M - 2^127 in
  0 <= x < 2^64 * M /\ f64_mont_red_var_ok x = false /\ f64_mont_red_var x = f64_mont_red_cst x.
Proof. vm_compute. repeat split; discriminate. Qed.

(* the raw byte view of an f64 element is the LE image of its Montgomery word: since words are canonical
   ([0,M)), two elements have the same as_bytes exactly when they denote the same residue *)
Theorem f64_as_bytes_same_residue a b : repr a -> repr b ->
  (f64_as_bytes a = f64_as_bytes b <-> val a = val b).
Proof.
  intros Ha Hb. unfold f64_as_bytes, as_bytes. split.
  - intros E. f_equal. apply (to_le_bytes_inj 8); [| |exact E]; unfold repr, M in *; cbn; lia.
  - intros E. rewrite (val_inj a b Ha Hb E). reflexivity.
Qed.
End C64.

(* ------------------------------------------------------------------ f62 *)
Module C62.
Import F62 F62Ops.

Lemma new_small x : 0 <= x < 2^32 -> repr62 (f62_new x) /\ val62 (f62_new x) = x /\ f62_new_ok x = true.
Proof.
  intros Hx. destruct (f62_new_spec x ltac:(lia)) as [R V]. split; [exact R|]. split.
  - rewrite V. apply Z.mod_small. unfold M62. lia.
  - apply f62_new_ok_spec. lia.
Qed.

Theorem f62_from_u8_spec x : 0 <= x < 2^8 ->
  repr62 (f62_from_u8 x) /\ val62 (f62_from_u8 x) = x /\ f62_from_u8_ok x = true.
Proof. intros H. apply new_small. lia. Qed.
Theorem f62_from_u16_spec x : 0 <= x < 2^16 ->
  repr62 (f62_from_u16 x) /\ val62 (f62_from_u16 x) = x /\ f62_from_u16_ok x = true.
Proof. intros H. apply new_small. lia. Qed.
Theorem f62_from_u32_spec x : 0 <= x < 2^32 ->
  repr62 (f62_from_u32 x) /\ val62 (f62_from_u32 x) = x /\ f62_from_u32_ok x = true.
Proof. intros H. apply new_small. lia. Qed.

Theorem f62_to_u64_spec e : repr62 e ->
  f62_to_u64 e = val62 e /\ f62_to_u128 e = val62 e /\ 0 <= val62 e < M62 /\
  f62_to_u64_ok e = true /\ f62_to_u128_ok e = true.
Proof.
  intros He. unfold f62_to_u64, f62_to_u128, f62_to_u64_ok, f62_to_u128_ok.
  rewrite f62_as_int_spec by exact He. rewrite f62_as_int_ok_spec by exact He.
  repeat split; apply val62_range.
Qed.

Theorem f62_try_from_bytes_spec bs : length bs = 8%nat -> Forall byte bs ->
  match f62_try_from_bytes bs with
  | None => M62 <= of_le_bytes bs
  | Some e => of_le_bytes bs < M62 /\ repr62 e /\ val62 e = of_le_bytes bs
  end /\ f62_try_from_bytes_ok bs = true.
Proof.
  intros Hl Hb. unfold f62_try_from_bytes, f62_try_from_bytes_ok. cbv zeta.
  pose proof (of_le_bytes_range bs Hb) as Hr. rewrite Hl in Hr.
  apply f62_try_from_u64_spec. change (256 ^ Z.of_nat 8) with (2^64) in Hr. exact Hr.
Qed.

Theorem f62_conjugate_spec e : f62_conjugate e = e.
Proof. reflexivity. Qed.

Theorem f62_assign_spec fuel a b :
  f62_add_assign a b = f62_add a b /\ f62_sub_assign a b = f62_sub a b /\
  f62_mul_assign a b = f62_mul a b /\ f62_div_assign fuel a b = f62_div fuel a b.
Proof. repeat split. Qed.

Theorem f62_base_element_spec e i : f62_base_element e i = if i =? 0 then Some e else None.
Proof. reflexivity. Qed.

(* the raw byte view of an f62 element is the LE image of its LAZY word: injective on words, hence the two
   words x and x + M62 of one residue have different as_bytes (documented: IS_CANONICAL = false; hashing and
   Serializable go through as_int) *)
Theorem f62_as_bytes_word_inj a b : repr62 a -> repr62 b -> f62_as_bytes a = f62_as_bytes b -> a = b.
Proof.
  intros Ha Hb E. unfold f62_as_bytes, as_bytes in E.
  apply (to_le_bytes_inj 8); [| |exact E]; unfold repr62, M62 in *; cbn; lia.
Qed.

Theorem f62_as_bytes_not_canonical :
  exists a b, repr62 a /\ repr62 b /\ val62 a = val62 b /\ f62_as_bytes a <> f62_as_bytes b.
Proof.
  exists 0, M62. split; [apply repr62_0|]. split; [unfold repr62, M62; lia|]. split; [reflexivity|].
  vm_compute. discriminate.
Qed.
End C62.

(* ------------------------------------------------------------------ f128 *)
Module C128.
Import F128 F128Limbs F128Ops.

Theorem f128_from_uN_spec x : 0 <= x < 2^64 ->
  f128_from_u8 x = x /\ f128_from_u16 x = x /\ f128_from_u32 x = x /\ f128_from_u64 x = x /\ repr128 x /\ x mod M = x.
Proof.
  intros Hx. repeat split; try reflexivity; try (unfold M; lia).
  apply Z.mod_small. unfold M. lia.
Qed.

Theorem f128_conjugate_spec e : f128_conjugate e = e.
Proof. reflexivity. Qed.

Theorem f128_assign_spec fuel a b :
  f128_add_assign a b = f128_add a b /\ f128_sub_assign a b = f128_sub a b /\
  f128_mul_assign a b = f128_mul a b /\ f128_div_assign fuel a b = f128_div fuel a b.
Proof. repeat split. Qed.

Theorem f128_base_element_spec e i : f128_base_element e i = if i =? 0 then Some e else None.
Proof. reflexivity. Qed.

Theorem f128_as_bytes_same_residue a b : repr128 a -> repr128 b ->
  (f128_as_bytes a = f128_as_bytes b <-> a = b).
Proof.
  intros Ha Hb. unfold f128_as_bytes, as_bytes. split; [|intros ->; reflexivity].
  intros E. apply (to_le_bytes_inj 16); [| |exact E]; unfold repr128, M in *; cbn; lia.
Qed.
End C128.

(* ------------------------------------------------------------------ byte views, generic in ELEMENT_BYTES *)
Lemma to_le_bytes_bytes n x : Forall byte (to_le_bytes n x).
Proof. apply to_le_bytes_range. Qed.

Lemma elements_as_bytes_length nb ws : length (elements_as_bytes nb ws) = (length ws * nb)%nat.
Proof.
  induction ws as [|w ws IH]; cbn [elements_as_bytes flat_map length]; [reflexivity|].
  rewrite app_length, to_le_bytes_length. fold (elements_as_bytes nb ws). rewrite IH. lia.
Qed.

Lemma chunks_elements nb ws : Forall (fun w => 0 <= w < 256 ^ Z.of_nat nb) ws ->
  chunks_le nb (length ws) (elements_as_bytes nb ws) = ws.
Proof.
  induction 1 as [|w ws Hw _ IH]; cbn [length chunks_le elements_as_bytes flat_map]; [reflexivity|].
  fold (elements_as_bytes nb ws).
  destruct (FieldBytesSpec.chunk_step nb w (elements_as_bytes nb ws) Hw) as [E1 E2]. rewrite E1, E2, IH. reflexivity.
Qed.

Lemma elements_chunks nb k bs : Forall byte bs -> length bs = (k * nb)%nat ->
  elements_as_bytes nb (chunks_le nb k bs) = bs.
Proof.
  revert bs. induction k as [|k IH]; intros bs Hb Hl; cbn [chunks_le elements_as_bytes flat_map].
  - destruct bs; [reflexivity|discriminate].
  - fold (elements_as_bytes nb (chunks_le nb k (skipn nb bs))).
    assert (Hf : length (firstn nb bs) = nb) by (rewrite firstn_length; lia).
    pose proof (Forall_firstn byte nb bs Hb) as Hb1. pose proof (Forall_skipn byte nb bs Hb) as Hb2.
    rewrite IH.
    + rewrite <- Hf at 1. rewrite to_of_le_bytes by exact Hb1. apply firstn_skipn.
    + exact Hb2.
    + rewrite skipn_length. lia.
Qed.

(* ------------------------------------------------------------------ bytes_as_elements / elements_as_bytes *)
Section Views.
Variables (nb align : nat).
Hypothesis nb_pos : (0 < nb)%nat.

(* the two checks, in source order: length first, then the address *)
Theorem bytes_as_elements_len_err addr bs : (length bs mod nb <> 0)%nat ->
  bytes_as_elements nb align addr bs = None.
Proof.
  intros H. unfold bytes_as_elements.
  destruct (Nat.eqb_spec (length bs mod nb) 0); [contradiction|reflexivity].
Qed.

Theorem bytes_as_elements_misaligned addr bs : addr mod Z.of_nat align <> 0 ->
  bytes_as_elements nb align addr bs = None.
Proof.
  intros H. unfold bytes_as_elements.
  destruct (Nat.eqb_spec (length bs mod nb) 0); [|reflexivity]. cbn [negb].
  destruct (Z.eqb_spec (addr mod Z.of_nat align) 0); [contradiction|reflexivity].
Qed.

Theorem bytes_as_elements_ok addr bs : (length bs mod nb = 0)%nat -> addr mod Z.of_nat align = 0 ->
  Forall byte bs ->
  exists ws, bytes_as_elements nb align addr bs = Some ws /\
             length ws = (length bs / nb)%nat /\ elements_as_bytes nb ws = bs.
Proof.
  intros Hl Ha Hb. unfold bytes_as_elements.
  destruct (Nat.eqb_spec (length bs mod nb) 0); [|contradiction]. cbn [negb].
  destruct (Z.eqb_spec (addr mod Z.of_nat align) 0); [|contradiction]. cbn [negb].
  eexists. split; [reflexivity|].
  assert (Hk : length bs = (length bs / nb * nb)%nat).
  { pose proof (Nat.div_mod (length bs) nb ltac:(lia)). lia. }
  split.
  - assert (G : forall k l, length (chunks_le nb k l) = k).
    { induction k as [|k IHk]; intros l; cbn [chunks_le length]; [reflexivity|now rewrite IHk]. }
    apply G.
  - apply elements_chunks; assumption.
Qed.

(* round trip: the bytes of a slice of elements reinterpret to the same internal words *)
Theorem bytes_as_elements_roundtrip addr ws : addr mod Z.of_nat align = 0 ->
  Forall (fun w => 0 <= w < 256 ^ Z.of_nat nb) ws ->
  bytes_as_elements nb align addr (elements_as_bytes nb ws) = Some ws.
Proof.
  intros Ha Hw. unfold bytes_as_elements. rewrite elements_as_bytes_length.
  rewrite Nat.mod_mul by lia. cbn [Nat.eqb negb].
  destruct (Z.eqb_spec (addr mod Z.of_nat align) 0); [|contradiction]. cbn [negb].
  rewrite Nat.div_mul by lia. rewrite chunks_elements by exact Hw. reflexivity.
Qed.
End Views.

(* bytes_as_elements performs NO range check on the words (unsafe fn: the caller's obligation):
   the all-ones word, which is not a valid internal value of any of the three fields, is accepted *)
Theorem bytes_as_elements_no_range_check :
  f64_bytes_as_elements 0 (to_le_bytes 8 (2^64 - 1)) = Some [2^64 - 1] /\ ~ F64Ops.repr (2^64 - 1) /\
  f62_bytes_as_elements 0 (to_le_bytes 8 (2^64 - 1)) = Some [2^64 - 1] /\ ~ F62Ops.repr62 (2^64 - 1) /\
  f128_bytes_as_elements 0 (to_le_bytes 16 (2^128 - 1)) = Some [2^128 - 1] /\ ~ F128Ops.repr128 (2^128 - 1).
Proof.
  repeat split; try (vm_compute; reflexivity);
    unfold F64Ops.repr, F64Red.M, F62Ops.repr62, F62Ops.M62, F128Ops.repr128, F128Limbs.M; lia.
Qed.

(* TryFrom<&[u8]>: exactly ELEMENT_BYTES bytes are required (both length errors) *)
Theorem try_from_slice_length bs :
  (length bs <> 8%nat -> f64_try_from_slice bs = None /\ f62_try_from_slice bs = None) /\
  (length bs <> 16%nat -> f128_try_from_slice bs = None).
Proof.
  split; [intros H; split|intros H].
  - unfold f64_try_from_slice. destruct (Nat.ltb_spec (length bs) 8); [reflexivity|].
    destruct (Nat.ltb_spec 8 (length bs)); [reflexivity|lia].
  - unfold f62_try_from_slice. destruct (Nat.ltb_spec (length bs) 8); [reflexivity|].
    destruct (Nat.ltb_spec 8 (length bs)); [reflexivity|lia].
  - unfold f128_try_from_slice. destruct (Nat.eqb_spec (length bs) 16); [contradiction|reflexivity].
Qed.

Theorem try_from_slice_exact bs : Forall byte bs ->
  (length bs = 8%nat ->
     f64_try_from_slice bs = (if of_le_bytes bs <? F64Red.M then Some (F64.f64_new (of_le_bytes bs)) else None) /\
     f62_try_from_slice bs = F62.f62_try_from_u64 (of_le_bytes bs)) /\
  (length bs = 16%nat ->
     f128_try_from_slice bs = if of_le_bytes bs <? F128Limbs.M then Some (of_le_bytes bs) else None).
Proof.
  intros Hb. split; [intros Hl; split|intros Hl].
  - unfold f64_try_from_slice. rewrite Hl. cbn [Nat.ltb Nat.leb].
    unfold F64.f64_try_from_bytes. cbv zeta.
    pose proof (of_le_bytes_range bs Hb) as Hr. rewrite Hl in Hr.
    exact (proj1 (C64.f64_try_from_u64_spec _ Hr)).
  - unfold f62_try_from_slice. rewrite Hl. reflexivity.
  - unfold f128_try_from_slice. rewrite Hl. cbn [Nat.eqb negb]. cbv zeta.
    rewrite F128Limbs.M_eq, Z.geb_leb.
    destruct (Z.leb_spec F128Limbs.M (of_le_bytes bs)); destruct (Z.ltb_spec (of_le_bytes bs) F128Limbs.M); try lia; reflexivity.
Qed.
