(* C14 — the batch arithmetic of the `concurrent` code paths: for EVERY thread count T (power of two or not) and every
   length n the batches handed to rayon partition [0, n) exactly, and the batched utilities of math/src/utils/mod.rs and
   math/src/fft/concurrent.rs compute what the serial loop computes. *)
From Coq Require Import List Arith Bool Lia Ring Field ZArith.
From VBase Require Import FieldOps.
From VModel Require Import FFT Par.
From VProofs Require Import FieldFacts ListFacts Pow2Facts ParLists.
Import ListNotations.

(* ================================================================ next_power_of_two *)
Lemma npo2_ge T : T <= npo2 T.
Proof.
  unfold npo2. destruct T as [|[|T]].
  - apply Nat.le_0_l.
  - apply pow2_pos.
  - apply Nat.log2_up_spec. lia.
Qed.

Lemma npo2_pos T : 1 <= npo2 T.
Proof. unfold npo2. apply pow2_pos. Qed.

Lemma npo2_least T m : T <= 2 ^ m -> npo2 T <= 2 ^ m.
Proof.
  intros H. unfold npo2. destruct T as [|T].
  - change (Nat.log2_up 0) with 0. apply Nat.pow_le_mono_r; [discriminate|lia].
  - apply Nat.pow_le_mono_r; [discriminate|]. apply Nat.log2_up_le_pow2; [lia|exact H].
Qed.

Lemma npo2_le_64 T : T <= 64 -> npo2 T <= 64.
Proof. intros H. change 64 with (2 ^ 6). apply npo2_least. exact H. Qed.

Example npo2_values : map npo2 [0;1;2;3;5;6;7;8;12;16;24;33;64] = [1;1;2;4;8;8;8;8;16;16;32;64;64].
Proof. vm_compute. reflexivity. Qed.

(* ================================================================ chunk partitions *)
Fixpoint consecutive (off : nat) (cs : list (nat * nat)) : Prop :=
  match cs with [] => True | c :: t => fst c = off /\ consecutive (off + snd c) t end.
Definition covers (n : nat) (cs : list (nat * nat)) : Prop := consecutive 0 cs /\ list_sum (map snd cs) = n.

(* a batch [G off len] that is additive in its length: consecutive batches concatenate to one batch *)
Lemma consecutive_flat_map {A} (G : nat -> nat -> list A) :
  (forall off, G off 0 = []) -> (forall off a b, G off (a + b) = G off a ++ G (off + a) b) ->
  forall cs off, consecutive off cs -> flat_map (fun c => G (fst c) (snd c)) cs = G off (list_sum (map snd cs)).
Proof.
  intros G0 Gadd. induction cs as [|[o len] cs IH]; intros off Hc; [symmetry; apply G0|].
  destruct Hc as [Ho Hc]. cbn [fst snd] in Ho, Hc. subst o.
  cbn [flat_map map fst snd]. rewrite list_sum_cons, Gadd, (IH _ Hc). reflexivity.
Qed.

Lemma consecutive_slices {A} (l : list A) cs off : consecutive off cs ->
  flat_map (slice l) cs = firstn (list_sum (map snd cs)) (skipn off l).
Proof.
  apply (consecutive_flat_map (fun off n => firstn n (skipn off l))); [reflexivity|].
  intros o a b. rewrite skipn_add. apply firstn_add.
Qed.

Lemma covers_slices {A} n cs (l : list A) : covers n cs -> length l = n -> flat_map (slice l) cs = l.
Proof. intros [Hc Hs] Hl. rewrite (consecutive_slices l cs 0 Hc), Hs, <- Hl. apply firstn_all. Qed.

Lemma div_ceil_small n bs : 1 <= n -> n <= bs -> (n + bs - 1) / bs = 1.
Proof. intros H1 H2. symmetry. apply Nat.div_unique with (r := n - 1); lia. Qed.

Lemma div_ceil_step n bs : 1 <= bs -> bs <= n -> (n + bs - 1) / bs = S ((n - bs + bs - 1) / bs).
Proof.
  intros H1 H2. replace (n + bs - 1) with ((n - bs + bs - 1) + 1 * bs) by lia.
  rewrite Nat.div_add by lia. lia.
Qed.

Lemma chunks_from_spec bs : 1 <= bs -> forall fuel off n, n <= fuel ->
  let cs := chunks_from fuel off n bs in
  consecutive off cs /\ list_sum (map snd cs) = n /\
  Forall (fun c => 1 <= snd c <= bs) cs /\
  (forall k c, nth_error cs k = Some c -> fst c = off + k * bs) /\
  length cs = (n + bs - 1) / bs.
Proof.
  intros Hbs.
  assert (Hnil : forall off, consecutive off [] /\ list_sum (map snd (@nil (nat * nat))) = 0 /\
            Forall (fun c : nat * nat => 1 <= snd c <= bs) [] /\
            (forall k (c : nat * nat), nth_error [] k = Some c -> fst c = off + k * bs) /\
            @length (nat * nat) [] = (0 + bs - 1) / bs).
  { intros off. split; [exact I|]. split; [reflexivity|]. split; [constructor|]. split.
    - intros [|k] c E; discriminate.
    - rewrite Nat.div_small by lia. reflexivity. }
  induction fuel as [|f IH]; intros off n Hn; cbv zeta.
  - assert (n = 0) by lia. subst n. cbn [chunks_from]. apply Hnil.
  - cbn [chunks_from]. destruct (Nat.eqb_spec n 0) as [->|Hn0]; [apply Hnil|].
    destruct (Nat.leb_spec n bs) as [Hle|Hgt].
    + cbn [consecutive map length fst snd]. rewrite list_sum_cons. cbn [list_sum fold_right].
      split; [auto|]. split; [lia|]. split; [|split].
      * constructor; [cbn [snd]; lia|constructor].
      * intros [|[|k]] c E; cbn in E; try discriminate. inversion E; subst c. cbn [fst]. lia.
      * rewrite div_ceil_small by lia. reflexivity.
    + specialize (IH (off + bs) (n - bs)). cbv zeta in IH.
      destruct IH as (C & Sm & B & O & Len); [lia|].
      cbn [consecutive map length fst snd]. rewrite list_sum_cons.
      split; [auto|]. split; [lia|]. split; [|split].
      * constructor; [cbn [snd]; lia|exact B].
      * intros [|k] c E; cbn [nth_error] in E.
        -- inversion E; subst c. cbn [fst]. lia.
        -- rewrite (O k c E). lia.
      * rewrite Len. rewrite (div_ceil_step n bs) by lia. reflexivity.
Qed.

Theorem par_chunks_spec n bs : 1 <= bs -> exists cs, par_chunks n bs = Done cs /\ covers n cs /\
  Forall (fun c => 1 <= snd c <= bs) cs /\ (forall k c, nth_error cs k = Some c -> fst c = k * bs) /\
  length cs = (n + bs - 1) / bs.
Proof.
  intros Hbs. unfold par_chunks. destruct (Nat.eqb_spec bs 0) as [->|_]; [lia|].
  exists (chunks_from n 0 n bs). split; [reflexivity|].
  destruct (chunks_from_spec bs Hbs n 0 n (le_n n)) as (C & Sm & B & O & Len).
  repeat split; auto.
Qed.

Lemma par_chunks_zero n : par_chunks n 0 = Panic.
Proof. reflexivity. Qed.

(* when the chunk size divides the length: exactly m chunks of bs elements, chunk k at offset k * bs *)
Lemma chunks_from_exact bs : 1 <= bs -> forall m fuel off, m * bs <= fuel ->
  chunks_from fuel off (m * bs) bs = map (fun k => (off + k * bs, bs)) (seq 0 m).
Proof.
  intros Hbs. induction m as [|m IH]; intros fuel off Hf.
  - destruct fuel; reflexivity.
  - destruct fuel as [|f]; [cbn in Hf; lia|].
    cbn [chunks_from]. destruct (Nat.eqb_spec (S m * bs) 0) as [E|_]; [cbn in E; lia|].
    cbn [seq map]. rewrite (map_seq_shift _ 1).
    destruct m as [|m].
    + replace (1 * bs) with bs by lia. rewrite Nat.leb_refl. cbn [seq map]. repeat f_equal. lia.
    + destruct (Nat.leb_spec (S (S m) * bs) bs) as [Hle|_]; [cbn in Hle; lia|].
      replace (S (S m) * bs - bs) with (S m * bs) by lia.
      rewrite IH by (cbn in Hf |- *; lia).
      f_equal; [f_equal; lia|]. apply map_ext. intros k. f_equal. lia.
Qed.

Lemma par_chunks_exact m bs : 1 <= bs -> par_chunks (m * bs) bs = Done (map (fun k => (k * bs, bs)) (seq 0 m)).
Proof.
  intros Hbs. unfold par_chunks. destruct (Nat.eqb_spec bs 0) as [->|_]; [lia|].
  rewrite chunks_from_exact by lia. reflexivity.
Qed.

Lemma covers_single n : covers n [(0, n)].
Proof. unfold covers. cbn. split; [auto|lia]. Qed.

Theorem batch_sizes_cover conc n min T : 1 <= min ->
  exists cs, batch_iter_chunks conc n min T = Done cs /\ covers n cs.
Proof.
  intros Hmin. unfold batch_iter_chunks. destruct conc.
  - destruct (Nat.ltb_spec (n / npo2 T) min) as [_|Hge].
    + exists [(0, n)]. split; [reflexivity|apply covers_single].
    + destruct (par_chunks_spec n (n / npo2 T)) as (cs & E & C & _); [lia|].
      exists cs. split; assumption.
  - exists [(0, n)]. split; [reflexivity|apply covers_single].
Qed.

Theorem batch_iter_serial_below conc n min T : n / npo2 T < min -> batch_iter_chunks conc n min T = Done [(0, n)].
Proof.
  intros H. unfold batch_iter_chunks. destruct conc; [|reflexivity].
  destruct (Nat.ltb_spec (n / npo2 T) min); [reflexivity|lia].
Qed.

Theorem batch_iter_offsets n min T cs k c : min <= n / npo2 T -> 1 <= min ->
  batch_iter_chunks true n min T = Done cs -> nth_error cs k = Some c -> fst c = k * (n / npo2 T).
Proof.
  intros Hge Hmin E Hk. unfold batch_iter_chunks in E.
  destruct (Nat.ltb_spec (n / npo2 T) min) as [Hlt|_]; [lia|].
  destruct (par_chunks_spec n (n / npo2 T)) as (cs' & E' & _ & _ & O & _); [lia|].
  rewrite E' in E. inversion E; subst cs'. exact (O k c Hk).
Qed.

(* the batch size when the concurrent path is taken, and the number of batches for lengths divisible by npo2 T *)
Theorem batch_iter_exact m min T : 1 <= min -> min <= m ->
  batch_iter_chunks true (m * npo2 T) min T = Done (map (fun k => (k * m, m)) (seq 0 (npo2 T))).
Proof.
  intros Hmin Hm. unfold batch_iter_chunks. pose proof (npo2_pos T) as Hp.
  rewrite Nat.div_mul by lia. destruct (Nat.ltb_spec m min) as [Hlt|_]; [lia|].
  rewrite (Nat.mul_comm m). apply par_chunks_exact. lia.
Qed.

(* ================================================================ math/src/utils, fft/concurrent *)
Section Fld.
Context {F : Type} (O : FOps F) (L : FLaws O).
Add Field ParBatchField : (FLaws_field_theory O L).

Local Notation fz := (fzero O).
Local Notation f1 := (fone O).
Local Infix "*f" := (fmul O) (at level 40, left associativity).
Local Infix "+f" := (fadd O) (at level 50, left associativity).

Lemma fpow_nat_add b x y : fpow_nat O b (x + y) = fmul O (fpow_nat O b x) (fpow_nat O b y).
Proof.
  induction y as [|y IH].
  - rewrite Nat.add_0_r. cbn [fpow_nat]. ring.
  - rewrite Nat.add_succ_r. cbn [fpow_nat]. rewrite IH. ring.
Qed.

Lemma feqb_zero_spec v : (feqb O v fz = true /\ v = fz) \/ (feqb O v fz = false /\ v <> fz).
Proof.
  destruct (feqb O v fz) eqn:E.
  - left. split; [reflexivity|]. apply (fl_eqb_spec O L). exact E.
  - right. split; [reflexivity|]. intros H. apply (fl_eqb_spec O L) in H. congruence.
Qed.

Lemma fill_series_length s b n : length (fill_series O s b n) = n.
Proof. revert s; induction n as [|n IH]; intros s; cbn [fill_series length]; [reflexivity|]. rewrite IH. reflexivity. Qed.

Lemma fill_series_app s b l1 l2 :
  fill_series O s b (l1 + l2) = fill_series O s b l1 ++ fill_series O (fmul O s (fpow_nat O b l1)) b l2.
Proof.
  revert s; induction l1 as [|l1 IH]; intros s.
  - cbn [Nat.add fill_series app fpow_nat]. f_equal. ring.
  - cbn [Nat.add fill_series app]. f_equal. rewrite IH. f_equal. f_equal. cbn [fpow_nat]. ring.
Qed.

(* ---------------------------------------------------------------- get_power_series *)
Lemma power_series_consecutive b s cs off : consecutive off cs ->
  flat_map (fun c => fill_series O (s *f fpow_nat O b (fst c)) b (snd c)) cs =
  fill_series O (s *f fpow_nat O b off) b (list_sum (map snd cs)).
Proof.
  apply (consecutive_flat_map (fun off n => fill_series O (s *f fpow_nat O b off) b n)); [reflexivity|].
  intros o x y. rewrite fill_series_app. do 2 f_equal. rewrite fpow_nat_add. ring.
Qed.

Theorem power_series_with_offset_batched_spec b s n cs : covers n cs ->
  get_power_series_with_offset_batched O b s cs = get_power_series_with_offset_serial O b s n.
Proof.
  intros [Hc Hs]. unfold get_power_series_with_offset_batched, get_power_series_with_offset_serial.
  rewrite (power_series_consecutive b s cs 0 Hc), Hs. reflexivity.
Qed.

Theorem power_series_batched_spec b n cs : covers n cs ->
  get_power_series_batched O b cs = get_power_series_serial O b n.
Proof.
  intros [Hc Hs]. unfold get_power_series_batched, get_power_series_serial.
  rewrite <- Hs, <- (fl_mul_1_l O L (fpow_nat O b 0)), <- (power_series_consecutive b f1 cs 0 Hc).
  apply flat_map_ext. intros c. rewrite (fl_mul_1_l O L). reflexivity.
Qed.

Lemma one_le_1024 : 1 <= 1024.
Proof. apply le_n_S, Nat.le_0_l. Qed.

Corollary get_power_series_any_T conc T b n :
  get_power_series O conc T b n = Done (get_power_series_serial O b n).
Proof.
  unfold get_power_series. destruct (batch_sizes_cover conc n 1024 T one_le_1024) as (cs & -> & Hc).
  rewrite (power_series_batched_spec b n cs Hc). reflexivity.
Qed.

Corollary get_power_series_with_offset_any_T conc T b s n :
  get_power_series_with_offset O conc T b s n = Done (get_power_series_with_offset_serial O b s n).
Proof.
  unfold get_power_series_with_offset. destruct (batch_sizes_cover conc n 1024 T one_le_1024) as (cs & -> & Hc).
  rewrite (power_series_with_offset_batched_spec b s n cs Hc). reflexivity.
Qed.

(* ---------------------------------------------------------------- batch inversion (Montgomery's trick, zeros skipped) *)
Lemma binv_spec vals : forall p, p <> fz ->
  let '(res, last) := binv_fwd O vals p in
  last <> fz /\ binv_bwd O vals res (finv O last) = (map (finv O) vals, finv O p).
Proof.
  induction vals as [|v t IH]; intros p Hp.
  - cbn [binv_fwd binv_bwd map]. split; [exact Hp|reflexivity].
  - cbn [binv_fwd].
    set (p' := if feqb O v fz then p else p *f v).
    assert (Hp' : p' <> fz).
    { unfold p'. destruct (feqb_zero_spec v) as [[-> _]|[-> Hv]]; [exact Hp|apply (fmul_nonzero O L); assumption]. }
    specialize (IH p' Hp'). destruct (binv_fwd O t p') as [r l]. destruct IH as [Hl Hb].
    split; [exact Hl|]. cbn [binv_bwd map]. rewrite Hb. unfold p'.
    destruct (feqb_zero_spec v) as [[-> ->]|[-> Hv]].
    + rewrite (fl_inv_0 O L). reflexivity.
    + f_equal; [f_equal|]; field; auto.
Qed.

Theorem serial_batch_inversion_spec vals : serial_batch_inversion O vals = map (finv O) vals.
Proof.
  unfold serial_batch_inversion. pose proof (binv_spec vals f1 (fl_one_neq_zero O L)) as H.
  destruct (binv_fwd O vals f1) as [res last]. destruct H as [_ ->]. reflexivity.
Qed.

Theorem batch_inversion_batched_spec vals cs : covers (length vals) cs ->
  batch_inversion_batched O vals cs = serial_batch_inversion O vals.
Proof.
  intros Hc. unfold batch_inversion_batched. rewrite serial_batch_inversion_spec.
  rewrite (flat_map_ext _ (fun c => map (finv O) (slice vals c))) by (intros c; apply serial_batch_inversion_spec).
  rewrite flat_map_map_comm. rewrite (covers_slices (length vals) cs vals Hc eq_refl). reflexivity.
Qed.

Corollary batch_inversion_any_T conc T vals : batch_inversion O conc T vals = Done (map (finv O) vals).
Proof.
  unfold batch_inversion. destruct (batch_sizes_cover conc (length vals) 1024 T one_le_1024) as (cs & -> & Hc).
  rewrite (batch_inversion_batched_spec vals cs Hc), serial_batch_inversion_spec. reflexivity.
Qed.

(* ---------------------------------------------------------------- fft::concurrent scaling loops *)
Lemma scale_consecutive v offset k cs off : consecutive off cs ->
  scale_batched O v offset k cs =
  map2 (fun x y => x *f y) (firstn (list_sum (map snd cs)) (skipn off v))
       (fill_series O (fpow_nat O offset off *f k) offset (list_sum (map snd cs))).
Proof.
  apply (consecutive_flat_map (fun off n => map2 (fun x y => x *f y) (firstn n (skipn off v))
                                                 (fill_series O (fpow_nat O offset off *f k) offset n))); [reflexivity|].
  intros o a b. rewrite fill_series_app, map2_app_r, fill_series_length.
  rewrite firstn_firstn, Nat.min_l, <- firstn_skipn_comm, <- skipn_add by lia.
  do 3 f_equal. rewrite fpow_nat_add. ring.
Qed.

Theorem scale_batched_spec v offset k cs : covers (length v) cs ->
  scale_batched O v offset k cs = scale_serial O v offset k.
Proof.
  intros [Hc Hs]. rewrite (scale_consecutive v offset k cs 0 Hc), Hs.
  unfold scale_serial. cbn [skipn fpow_nat]. rewrite firstn_all, (fl_mul_1_l O L). reflexivity.
Qed.

Theorem scale_par_spec T v offset k : npo2 T <= length v ->
  scale_par O T v offset k = Done (scale_serial O v offset k).
Proof.
  intros H. unfold scale_par. pose proof (npo2_pos T) as Hp.
  destruct (par_chunks_spec (length v) (length v / npo2 T)) as (cs & -> & Hc & _).
  - apply Nat.div_str_pos. lia.
  - rewrite (scale_batched_spec v offset k cs Hc). reflexivity.
Qed.

(* par_chunks_mut(0): more (rounded-up) threads than elements panics inside rayon *)
Theorem scale_par_panics T v offset k : length v < npo2 T -> scale_par O T v offset k = Panic.
Proof. intros H. unfold scale_par. rewrite Nat.div_small by exact H. reflexivity. Qed.
End Fld.

(* ================================================================ non-vacuity *)
(* GF(2) on bool satisfies FLaws, so the hypotheses of the section are satisfiable *)
Definition gf2_ops : FOps bool :=
  mkFOps bool false true xorb xorb andb (fun x => x) (fun _ => false) (fun x => x) (fun x => x) andb Bool.eqb
         (fun z => Z.odd z).

Lemma gf2_laws : FLaws gf2_ops.
Proof.
  constructor; cbn; try (intros [] [] []; reflexivity); try (intros [] []; reflexivity); try (intros []; reflexivity);
    try discriminate; try reflexivity.
  - intros [] H; [reflexivity|congruence].
  - intros a b. apply Bool.eqb_true_iff.
Qed.

Example batch_inversion_gf2 conc T :
  batch_inversion gf2_ops conc T [false; true; true; false] = Done [false; true; true; false].
Proof. apply (batch_inversion_any_T gf2_ops gf2_laws). Qed.

(* Z mod 13 (operations only; inverse by Fermat), to run the Montgomery loops on zeros at the first/last positions *)
Definition z13_ops : FOps Z :=
  let m := fun x => Z.modulo x 13 in
  mkFOps Z 0%Z 1%Z (fun a b => m (a + b)%Z) (fun a b => m (a - b)%Z) (fun a b => m (a * b)%Z)
         (fun a => m (- a)%Z) (fun a => m (2 * a)%Z) (fun a => m (a * a)%Z)
         (fun a => m (a ^ 11)%Z) (fun a b => m (a * m (b ^ 11))%Z) Z.eqb m.

Example serial_batch_inversion_z13 :
  serial_batch_inversion z13_ops [0; 2; 3; 0; 5; 12; 0]%Z = [0; 7; 9; 0; 8; 12; 0]%Z /\
  map (finv z13_ops) [0; 2; 3; 0; 5; 12; 0]%Z = [0; 7; 9; 0; 8; 12; 0]%Z /\
  map2 (fmul z13_ops) [0; 2; 3; 0; 5; 12; 0]%Z [0; 7; 9; 0; 8; 12; 0]%Z = [0; 1; 1; 0; 1; 1; 0]%Z.
Proof. vm_compute. repeat split. Qed.

Example batch_inversion_batched_z13 :
  batch_inversion_batched z13_ops [0; 2; 3; 0; 5; 12; 0]%Z [(0, 3); (3, 3); (6, 1)] = [0; 7; 9; 0; 8; 12; 0]%Z.
Proof. vm_compute. reflexivity. Qed.

Example power_series_z13 :
  get_power_series_batched z13_ops 2%Z [(0, 2); (2, 2); (4, 1)] = get_power_series_serial z13_ops 2%Z 5 /\
  get_power_series_serial z13_ops 2%Z 5 = [1; 2; 4; 8; 3]%Z.
Proof. vm_compute. split; reflexivity. Qed.

Example batch_iter_5000 : batch_iter_chunks true 5000 1024 3 = Done [(0,1250);(1250,1250);(2500,1250);(3750,1250)].
Proof. vm_compute. reflexivity. Qed.
Example batch_iter_5001 :
  batch_iter_chunks true (5000 + 1) 1024 3 = Done [(0,1250);(1250,1250);(2500,1250);(3750,1250);(5000,1)].
Proof. vm_compute. reflexivity. Qed.
Example batch_iter_4000 : batch_iter_chunks true 4000 1024 3 = Done [(0,4000)].
Proof. vm_compute. reflexivity. Qed.
Example batch_iter_serial_5000 : batch_iter_chunks false 5000 1024 3 = Done [(0,5000)].
Proof. vm_compute. reflexivity. Qed.
Example par_chunks_10_4 : par_chunks 10 4 = Done [(0,4);(4,4);(8,2)].
Proof. vm_compute. reflexivity. Qed.
Example batch_iter_empty : batch_iter_chunks true 0 1 8 = Done [(0,0)].
Proof. vm_compute. reflexivity. Qed.
