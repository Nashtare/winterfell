(* Reduction modulo p = 2^k - a 2^s + 1 (the three field moduli have this form) without division: fold the part above
   bit k back in with 2^k = a 2^s - 1 (mod p).  `red` is equal to `mod p` on EVERY input, so closed terms full of
   modular multiplications can be rewritten to it before they are evaluated; the kernel's reducer pays for a long
   division what it pays for several multiplications. *)
From Coq Require Import ZArith Lia.
From VBase Require Import FieldOps ZpOps.
Open Scope Z_scope.

Section Red.
  Variables p k a s : Z.
  Hypothesis Hp : p = 2 ^ k - a * 2 ^ s + 1.
  Hypothesis Hk : 0 <= k.
  Hypothesis Hs : 0 <= s.

  (* n bounds the number of folding steps; x mod p when it is exhausted *)
  Fixpoint red (n : nat) (x : Z) : Z :=
    match Z.shiftr x k, n with
    | 0, _ => if x <? p then x else if x - p <? p then x - p else x mod p
    | hi, S n' => red n' (Z.land x (Z.ones k) + Z.shiftl (a * hi) s - hi)
    | _, O => x mod p
    end.

  Lemma red_mod n : forall x, red n x = x mod p.
  Proof.
    assert (fold : forall x, (Z.land x (Z.ones k) + Z.shiftl (a * Z.shiftr x k) s - Z.shiftr x k) mod p = x mod p).
    { intros x. rewrite Z.land_ones, Z.shiftr_div_pow2, Z.shiftl_mul_pow2 by assumption.
      rewrite (Z.div_mod x (2 ^ k)) at 4 by lia.
      replace (2 ^ k * (x / 2 ^ k) + x mod 2 ^ k) with (x mod 2 ^ k + a * (x / 2 ^ k) * 2 ^ s - x / 2 ^ k + (x / 2 ^ k) * p) by (rewrite Hp; ring).
      symmetry. apply Z_mod_plus_full. }
    induction n as [|n IH]; intros x; cbn [red]; destruct (Z.shiftr x k) eqn:E; try reflexivity; try (rewrite IH, <- E; apply fold).
    all: rewrite Z.shiftr_div_pow2 in E by assumption; apply Z.div_small_iff in E; [|lia].
    all: destruct (Z.ltb_spec x p); [symmetry; apply Z.mod_small; lia|].
    all: destruct (Z.ltb_spec (x - p) p); [|reflexivity]; apply (Z.mod_unique _ _ 1); lia.
  Qed.
End Red.

Definition red64 : Z -> Z := red P64 64 1 32 8.
Definition red62 : Z -> Z := red P62 62 111 39 8.
Definition red128 : Z -> Z := red P128 128 45 40 8.
Lemma red64_mod x : red64 x = x mod P64.
Proof. apply red_mod; [reflexivity | lia | lia]. Qed.
Lemma red62_mod x : red62 x = x mod P62.
Proof. apply red_mod; [reflexivity | lia | lia]. Qed.
Lemma red128_mod x : red128 x = x mod P128.
Proof. apply red_mod; [reflexivity | lia | lia]. Qed.

(* zpow_mod with `rd` for `mod p` *)
Section Pow.
  Variables (p : Z) (rd : Z -> Z).
  Hypothesis rd_mod : forall x, rd x = x mod p.

  Fixpoint pow_rd_pos (a : Z) (e : positive) : Z :=
    match e with
    | xH => rd a
    | xO e' => let r := pow_rd_pos a e' in rd (r * r)
    | xI e' => let r := pow_rd_pos a e' in rd (rd (r * r) * a)
    end.
  Definition pow_rd (a e : Z) : Z :=
    match e with Zpos q => pow_rd_pos a q | _ => rd 1 end.

  Lemma zpow_mod_rd a e : zpow_mod p a e = pow_rd a e.
  Proof.
    destruct e as [|e|e]; cbn [zpow_mod pow_rd]; rewrite ?rd_mod; try reflexivity.
    induction e as [e IH|e IH|]; cbn [zpow_mod_pos pow_rd_pos]; rewrite ?rd_mod, ?IH; reflexivity.
  Qed.
End Pow.

(* zp_ops p with `rd` for `mod p` *)
Definition zp_ops_rd (p : Z) (rd : Z -> Z) : FOps Z := {|
  fzero := 0; fone := rd 1;
  fadd := fun a b => rd (a + b);
  fsub := fun a b => rd (a - b);
  fmul := fun a b => rd (a * b);
  fneg := fun a => rd (- a);
  fdouble := fun a => rd (a + a);
  fsquare := fun a => rd (a * a);
  finv := zp_inv p;
  fdiv := fun a b => rd (a * zp_inv p b);
  feqb := Z.eqb;
  fofz := rd
|}.
