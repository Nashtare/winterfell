(* Reflective primality certificates over Z (Znumtheory.prime): trial_check q (trial division up to sqrt q, sound by
   trial_check_sound) and lucas_check n a qs (Lucas / Pocklington test with the complete factorisation of n-1 over qs,
   sound by lucas_check_sound), and with them the primality of the moduli P64, P62, P128 of Base/ZpOps.v.
   stdlib only, no axioms; all computation by vm_compute on Z / positive. *)
From Coq Require Import ZArith Znumtheory Zpow_facts Lia List Bool.
Import ListNotations.
From VBase Require Import FieldOps ZpOps.
From VProofs Require Import NumTheoryFermat FastMod.
Open Scope Z_scope.

(* ================= trial division ================= *)

(* no_div_range n d len = true  iff  none of d, d+1, ..., d+len-1 divides n.
   Structural recursion on the positive [len]: total work is len divisions, no nat anywhere. *)
Fixpoint no_div_range (n d : Z) (len : positive) : bool :=
  match len with
  | xH => negb (n mod d =? 0)
  | xO l => no_div_range n d l && no_div_range n (d + Zpos l) l
  | xI l => negb (n mod d =? 0) && (no_div_range n (d + 1) l && no_div_range n (d + 1 + Zpos l) l)
  end.

Lemma no_div_range_spec : forall n len d, 0 < d ->
  no_div_range n d len = true -> forall k, d <= k < d + Zpos len -> ~ (k | n).
Proof.
  intros n len. induction len as [l IH|l IH|]; intros d Hd H k Hk; cbn [no_div_range] in H.
  - apply andb_prop in H. destruct H as [H0 H]. apply andb_prop in H. destruct H as [H1 H2].
    rewrite Pos2Z.inj_xI in Hk.
    destruct (Z.eq_dec k d) as [->|Hne].
    + intros Hdiv. apply Z.mod_divide in Hdiv; [|lia].
      rewrite Hdiv in H0. discriminate.
    + destruct (Z_lt_le_dec k (d + 1 + Zpos l)).
      * apply (IH (d + 1)); [lia|exact H1|lia].
      * apply (IH (d + 1 + Zpos l)); [lia|exact H2|lia].
  - apply andb_prop in H. destruct H as [H1 H2].
    rewrite Pos2Z.inj_xO in Hk.
    destruct (Z_lt_le_dec k (d + Zpos l)).
    + apply (IH d); [lia|exact H1|lia].
    + apply (IH (d + Zpos l)); [lia|exact H2|lia].
  - assert (k = d) by lia. subst k.
    intros Hdiv. apply Z.mod_divide in Hdiv; [|lia].
    rewrite Hdiv in H. discriminate.
Qed.

Definition trial_check (q : Z) : bool :=
  (1 <? q) &&
  match Z.sqrt q - 1 with
  | Zpos len => no_div_range q 2 len      (* candidates 2 .. sqrt q *)
  | _ => true                             (* q = 2, 3 *)
  end.

Theorem trial_check_sound : forall q, trial_check q = true -> prime q.
Proof.
  intros q H. unfold trial_check in H. apply andb_prop in H. destruct H as [H1 H].
  apply Z.ltb_lt in H1.
  apply prime_alt. split; [exact H1|].
  intros d Hd Hdiv.
  assert (Hs := Z.sqrt_spec q ltac:(lia)). cbv zeta in Hs.
  set (s := Z.sqrt q) in *.
  (* a divisor <= sqrt q exists *)
  assert (Hsmall : exists e, 1 < e <= s /\ (e | q)).
  { destruct Hdiv as [c Hc].
    assert (1 < c) by nia.
    destruct (Z_le_gt_dec d s) as [Hle|Hgt].
    - exists d. split; [lia|]. exists c; exact Hc.
    - exists c. split.
      + split; [lia|]. destruct (Z_le_gt_dec c s); [assumption|]. nia.
      + exists d. lia. }
  destruct Hsmall as [e [He Hediv]].
  destruct (s - 1) as [|len|len] eqn:Hlen; try lia.
  revert Hediv. apply (no_div_range_spec q len 2); [lia|exact H|lia].
Qed.

(* ================= Lucas / Pocklington ================= *)

(* divide q out of m, at most fuel times *)
Fixpoint strip (fuel : nat) (m q : Z) : Z :=
  match fuel with
  | O => m
  | S f => if (1 <? q) && (m mod q =? 0) then strip f (m / q) q else m
  end.

Definition strip_all (fuel : nat) (m : Z) (qs : list Z) : Z :=
  fold_left (strip fuel) qs m.

Definition lucas_witness (n a q : Z) : bool :=
  Z.gcd (zpow_mod n a ((n - 1) / q) - 1) n =? 1.

Definition lucas_check (n a : Z) (qs : list Z) : bool :=
  (1 <? n)
  && (strip_all (Z.to_nat (Z.log2 n)) (n - 1) qs =? 1)
  && (zpow_mod n a (n - 1) =? 1)
  && forallb (lucas_witness n a) qs.

(* --- every prime divisor of n-1 is listed --- *)

Lemma strip_keeps : forall r q, prime r -> prime q -> r <> q ->
  forall fuel m, (r | m) -> (r | strip fuel m q).
Proof.
  intros r q Hr Hq Hne fuel. induction fuel as [|f IH]; intros m Hm; cbn [strip].
  - exact Hm.
  - destruct ((1 <? q) && (m mod q =? 0)) eqn:E; [|exact Hm].
    apply andb_prop in E. destruct E as [E1 E2].
    apply Z.ltb_lt in E1. apply Z.eqb_eq in E2.
    apply IH.
    assert (Hm' : m = q * (m / q)) by (apply Z_div_exact_full_2; lia).
    rewrite Hm' in Hm. apply prime_mult in Hm; [|exact Hr].
    destruct Hm as [Hm|Hm]; [|exact Hm].
    exfalso. apply Hne. apply prime_div_prime; assumption.
Qed.

Lemma strip_all_keeps : forall r fuel qs, prime r -> (forall q, In q qs -> prime q) ->
  ~ In r qs -> forall m, (r | m) -> (r | strip_all fuel m qs).
Proof.
  intros r fuel qs Hr. unfold strip_all.
  induction qs as [|q qs IH]; intros Hqs Hnin m Hm; cbn [fold_left].
  - exact Hm.
  - apply IH.
    + intros q' Hq'. apply Hqs. right; exact Hq'.
    + intros Hin. apply Hnin. right; exact Hin.
    + apply strip_keeps; [exact Hr|apply Hqs; left; reflexivity| |exact Hm].
      intros ->. apply Hnin. left; reflexivity.
Qed.

Lemma strip_all_complete : forall fuel m qs, (forall q, In q qs -> prime q) ->
  strip_all fuel m qs = 1 -> forall r, prime r -> (r | m) -> In r qs.
Proof.
  intros fuel m qs Hqs H1 r Hr Hm.
  destruct (in_dec Z.eq_dec r qs) as [Hin|Hnin]; [exact Hin|].
  exfalso. assert (Hd := strip_all_keeps r fuel qs Hr Hqs Hnin m Hm).
  rewrite H1 in Hd. apply prime_ge_2 in Hr.
  apply Z.divide_1_r_nonneg in Hd; lia.
Qed.

Lemma prime_divisor_exists : forall n, 1 < n -> exists p, prime p /\ (p | n).
Proof.
  intros n Hn. assert (H0 : 0 <= n) by lia. revert Hn. revert n H0.
  apply (Z_lt_induction (fun n => 1 < n -> exists p, prime p /\ (p | n))).
  intros n IH Hn.
  destruct (prime_dec n) as [Hp|Hnp].
  - exists n. split; [exact Hp|apply Z.divide_refl].
  - destruct (not_prime_divide n Hn Hnp) as [d [Hd Hdn]].
    destruct (IH d ltac:(lia) ltac:(lia)) as [p [Hp Hpd]].
    exists p. split; [exact Hp|]. eapply Z.divide_trans; eassumption.
Qed.

(* --- the exponents e with a^e = 1 (mod m) are closed under gcd --- *)

Lemma pow_one_mul : forall m a e k, 1 < m -> 0 <= e -> 0 <= k ->
  a ^ e mod m = 1 -> a ^ (e * k) mod m = 1.
Proof.
  intros m a e k Hm He Hk H.
  rewrite Z.pow_mul_r by lia. rewrite Zpower_mod by lia. rewrite H.
  rewrite Z.pow_1_l by lia. apply Z.mod_small. lia.
Qed.

Lemma pow_one_gcd : forall m a, 1 < m -> forall f, 0 <= f -> forall e, 0 <= e ->
  a ^ e mod m = 1 -> a ^ f mod m = 1 -> a ^ Z.gcd e f mod m = 1.
Proof.
  intros m a Hm.
  apply (Z_lt_induction (fun f => forall e, 0 <= e ->
    a ^ e mod m = 1 -> a ^ f mod m = 1 -> a ^ Z.gcd e f mod m = 1)).
  intros f IH e He H1 H2.
  destruct (Z.eq_dec f 0) as [->|Hf0].
  - rewrite Z.gcd_0_r, Z.abs_eq by lia. exact H1.
  - assert (Hf : 0 < f).
    { destruct (Z_lt_le_dec f 0) as [Hneg|]; [|lia].
      rewrite Z.pow_neg_r in H2 by lia. rewrite Z.mod_0_l in H2 by lia. discriminate. }
    assert (Hr := Z.mod_pos_bound e f Hf).
    replace (Z.gcd e f) with (Z.gcd f (e mod f))
      by (rewrite Z.gcd_comm, Z.gcd_mod by lia; apply Z.gcd_comm).
    apply IH; [lia|lia|exact H2|].
    (* a^(e mod f) = 1 *)
    assert (Hq : 0 <= e / f) by (apply Z.div_pos; lia).
    assert (Hsplit : a ^ e = a ^ (f * (e / f)) * a ^ (e mod f)).
    { rewrite <- Z.pow_add_r by (try apply Z.mul_nonneg_nonneg; lia).
      f_equal. apply Z_div_mod_eq_full. }
    rewrite Hsplit in H1.
    rewrite <- Z.mul_mod_idemp_l in H1 by lia.
    rewrite (pow_one_mul m a f (e / f)) in H1 by (assumption || lia).
    now rewrite Z.mul_1_l in H1.
Qed.

Lemma mod_of_mod_divisor : forall p n x, 0 < p -> 0 < n -> (p | n) -> (x mod n) mod p = x mod p.
Proof. intros. symmetry. apply Zmod_div_mod; assumption. Qed.

Theorem lucas_sound_prop : forall n a qs,
  1 < n ->
  (forall r, prime r -> (r | n - 1) -> In r qs) ->
  a ^ (n - 1) mod n = 1 ->
  (forall q, In q qs -> Z.gcd (a ^ ((n - 1) / q) mod n - 1) n = 1) ->
  prime n.
Proof.
  intros n a qs Hn Hcomplete Hone Hwit.
  destruct (prime_divisor_exists n Hn) as [p [Hp Hpn]].
  assert (Hp1 : 1 < p) by (apply prime_gt1; exact Hp).
  assert (Hple : p <= n) by (apply Z.divide_pos_le; [lia|exact Hpn]).
  (* everything transported mod p *)
  assert (Honep : a ^ (n - 1) mod p = 1).
  { rewrite <- (mod_of_mod_divisor p n) by (assumption || lia).
    rewrite Hone. apply Z.mod_small. lia. }
  assert (Hap : a mod p <> 0).
  { intros H0. rewrite Zpower_mod in Honep by lia. rewrite H0 in Honep.
    rewrite Z.pow_0_l in Honep by lia. rewrite Z.mod_0_l in Honep by lia. discriminate. }
  assert (Hferm : a ^ (p - 1) mod p = 1) by (apply fermat_pm1; assumption).
  set (g := Z.gcd (n - 1) (p - 1)).
  assert (Hg : a ^ g mod p = 1) by (apply pow_one_gcd; (assumption || lia)).
  assert (Hgn : (g | n - 1)) by apply Z.gcd_divide_l.
  assert (Hgp : (g | p - 1)) by apply Z.gcd_divide_r.
  assert (Hg0 : 0 <= g) by apply Z.gcd_nonneg.
  clearbody g.
  assert (Hgpos : 0 < g).
  { destruct (Z.eq_dec g 0) as [E|]; [|lia]. rewrite E in Hgn.
    apply Z.divide_0_l in Hgn. lia. }
  destruct (Z.eq_dec g (n - 1)) as [Heq|Hne].
  - (* n - 1 | p - 1, so p = n *)
    rewrite Heq in Hgp. apply Z.divide_pos_le in Hgp; [|lia].
    replace n with p by lia. exact Hp.
  - exfalso.
    destruct Hgn as [k Hk].
    assert (Hk1 : 1 < k).
    { assert (Hc : k <= 0 \/ k = 1 \/ 1 < k) by lia. destruct Hc as [Hc|[Hc|Hc]]; [nia|subst k; lia|exact Hc]. }
    destruct (prime_divisor_exists k Hk1) as [r [Hr Hrk]].
    assert (Hr1 : 1 < r) by (apply prime_gt1; exact Hr).
    destruct Hrk as [k' Hk'].
    assert (Hk'0 : 0 < k').
    { assert (Hc : k' <= 0 \/ 0 < k') by lia. destruct Hc as [Hc|Hc]; [nia|exact Hc]. }
    assert (Hin : In r qs).
    { apply Hcomplete; [exact Hr|]. exists (k' * g). rewrite Hk, Hk'. ring. }
    assert (Hquo : (n - 1) / r = g * k').
    { rewrite Hk, Hk'. replace (k' * r * g) with (g * k' * r) by ring.
      apply Z.div_mul. lia. }
    specialize (Hwit r Hin). rewrite Hquo in Hwit.
    assert (Hpow : a ^ (g * k') mod p = 1) by (apply pow_one_mul; (assumption || lia)).
    assert (Hdiv : (p | a ^ (g * k') mod n - 1)).
    { apply Z.mod_divide; [lia|].
      rewrite Zminus_mod. rewrite mod_of_mod_divisor by (assumption || lia).
      rewrite Hpow. rewrite (Z.mod_small 1 p) by lia. rewrite Z.sub_diag.
      apply Z.mod_0_l. lia. }
    assert (Hd1 : (p | 1)).
    { rewrite <- Hwit. apply Z.gcd_greatest; assumption. }
    apply Z.divide_1_r_nonneg in Hd1; lia.
Qed.

(* what the boolean checker has verified *)
Lemma lucas_check_inv n a qs : lucas_check n a qs = true ->
  1 < n /\ strip_all (Z.to_nat (Z.log2 n)) (n - 1) qs = 1 /\ zpow_mod n a (n - 1) = 1 /\
  forall q, In q qs -> Z.gcd (zpow_mod n a ((n - 1) / q) - 1) n = 1.
Proof.
  unfold lucas_check. rewrite !andb_true_iff, Z.ltb_lt, !Z.eqb_eq, forallb_forall.
  intros [[[Hn Hs] H1] Hw]. repeat split; try assumption.
  intros q Hq. apply Z.eqb_eq, Hw, Hq.
Qed.

Theorem lucas_check_sound : forall n a qs,
  lucas_check n a qs = true -> (forall q, In q qs -> prime q) -> prime n.
Proof.
  intros n a qs H Hqs. destruct (lucas_check_inv n a qs H) as (Hn & Hs & H1 & Hw).
  rewrite zpow_mod_spec in H1 by lia.
  apply (lucas_sound_prop n a qs Hn).
  - intros r Hr Hd. eapply strip_all_complete; eassumption.
  - exact H1.
  - intros q Hq. specialize (Hw q Hq).
    assert (Hq1 : 1 < q) by (apply prime_gt1, Hqs, Hq).
    rewrite zpow_mod_spec in Hw; [exact Hw|lia|]. apply Z.div_pos; lia.
Qed.

(* ================= certificates ================= *)

Lemma lucas_prime n a qs : Forall prime qs -> lucas_check n a qs = true -> prime n.
Proof. intros Hqs H. apply (lucas_check_sound n a qs H). apply Forall_forall, Hqs. Qed.

(* an accepted certificate also says that a has order n-1: in the form of the checker, and as powers in Z *)
Lemma lucas_check_order n a qs : lucas_check n a qs = true ->
  1 < n /\ zpow_mod n a (n - 1) = 1 /\
  forallb (fun q => negb (zpow_mod n a ((n - 1) / q) =? 1)) qs = true.
Proof.
  intros H. destruct (lucas_check_inv n a qs H) as (Hn & _ & H1 & Hw).
  split; [exact Hn|]. split; [exact H1|].
  apply forallb_forall. intros q Hq. apply negb_true_iff, Z.eqb_neq. intros E.
  specialize (Hw q Hq). rewrite E, Z.sub_diag, Z.gcd_0_l in Hw. lia.
Qed.

Lemma lucas_check_order_pow n a qs : lucas_check n a qs = true ->
  a ^ (n - 1) mod n = 1 /\ forall q, In q qs -> a ^ ((n - 1) / q) mod n <> 1.
Proof.
  intros H. destruct (lucas_check_order n a qs H) as (Hn & Hone & Hw).
  rewrite zpow_mod_spec in Hone by lia.
  split; [exact Hone|]. intros q Hq.
  rewrite forallb_forall in Hw. specialize (Hw q Hq).
  apply negb_true_iff, Z.eqb_neq in Hw.
  destruct (Z_lt_le_dec ((n - 1) / q) 0) as [Hneg|Hpos].
  - rewrite Z.pow_neg_r, Z.mod_0_l by lia. discriminate.
  - rewrite <- zpow_mod_spec by lia. exact Hw.
Qed.

Ltac by_trial := apply trial_check_sound; vm_compute; reflexivity.
(* Pratt: a Lucas certificate over prime factors already certified *)
Ltac by_lucas a qs := apply (lucas_prime _ a qs); [auto with primes|vm_compute; reflexivity].

Create HintDb primes.
#[local] Hint Resolve Forall_nil Forall_cons prime_2 : primes.

(* below 2^16 by trial division *)
Lemma prime_3 : prime 3.  Proof. by_trial. Qed.
Lemma prime_5 : prime 5.  Proof. by_trial. Qed.
Lemma prime_13 : prime 13.  Proof. by_trial. Qed.
Lemma prime_17 : prime 17.  Proof. by_trial. Qed.
Lemma prime_19 : prime 19.  Proof. by_trial. Qed.
Lemma prime_29 : prime 29.  Proof. by_trial. Qed.
Lemma prime_107 : prime 107.  Proof. by_trial. Qed.
Lemma prime_139 : prime 139.  Proof. by_trial. Qed.
Lemma prime_157 : prime 157.  Proof. by_trial. Qed.
Lemma prime_181 : prime 181.  Proof. by_trial. Qed.
Lemma prime_257 : prime 257.  Proof. by_trial. Qed.
Lemma prime_1031 : prime 1031.  Proof. by_trial. Qed.
Lemma prime_37957 : prime 37957.  Proof. by_trial. Qed.
Lemma prime_56039 : prime 56039.  Proof. by_trial. Qed.
#[local] Hint Resolve prime_3 prime_5 prime_13 prime_17 prime_19 prime_29 prime_107 prime_139 prime_157
  prime_181 prime_257 prime_1031 prime_37957 prime_56039 : primes.

Lemma prime_65537 : prime 65537.  Proof. by_lucas 3 [2]. Qed.
Lemma prime_105503 : prime 105503.  Proof. by_lucas 10 [2; 17; 29; 107]. Qed.
Lemma prime_286619 : prime 286619.  Proof. by_lucas 2 [2; 139; 1031]. Qed.
Lemma prime_19165339 : prime 19165339.  Proof. by_lucas 3 [2; 3; 19; 56039]. Qed.
#[local] Hint Resolve prime_65537 prime_105503 prime_286619 prime_19165339 : primes.
Lemma prime_211007 : prime 211007.  Proof. by_lucas 5 [2; 105503]. Qed.
#[local] Hint Resolve prime_211007 : primes.
Lemma prime_11394379 : prime 11394379.  Proof. by_lucas 2 [2; 3; 211007]. Qed.
Lemma prime_18053749339 : prime 18053749339.  Proof. by_lucas 3 [2; 3; 157; 19165339]. Qed.
#[local] Hint Resolve prime_11394379 prime_18053749339 : primes.

(* the powers are run with FastMod.pow_rd: vm_compute then does no long division *)

(* P64 - 1 = 2^32 * 3 * 5 * 17 * 257 * 65537, witness 7 *)
Lemma P64_lucas : lucas_check P64 7 [2; 3; 5; 17; 257; 65537] = true.
Proof.
  unfold lucas_check, lucas_witness. cbn [forallb].
  rewrite !(zpow_mod_rd P64 red64 red64_mod). vm_compute. reflexivity.
Qed.
Theorem P64_prime : Znumtheory.prime P64.
Proof. refine (lucas_prime _ _ _ _ P64_lucas). auto 8 with primes. Qed.

(* P62 - 1 = 2^39 * 13 * 17 * 37957, witness 3 *)
Lemma P62_lucas : lucas_check P62 3 [2; 13; 17; 37957] = true.
Proof.
  unfold lucas_check, lucas_witness. cbn [forallb].
  rewrite !(zpow_mod_rd P62 red62 red62_mod). vm_compute. reflexivity.
Qed.
Theorem P62_prime : Znumtheory.prime P62.
Proof. refine (lucas_prime _ _ _ _ P62_lucas). auto 8 with primes. Qed.

(* P128 - 1 = 2^40 * 29 * 181 * 286619 * 11394379 * 18053749339, witness 3 *)
Lemma P128_lucas : lucas_check P128 3 [2; 29; 181; 286619; 11394379; 18053749339] = true.
Proof.
  unfold lucas_check, lucas_witness. cbn [forallb].
  rewrite !(zpow_mod_rd P128 red128 red128_mod). vm_compute. reflexivity.
Qed.
Theorem P128_prime : Znumtheory.prime P128.
Proof. refine (lucas_prime _ _ _ _ P128_lucas). auto 8 with primes. Qed.

(* the checkers do reject composites (they are not constantly true) *)
Example trial_check_rejects : trial_check 18053749341 = false.   (* = 3 * 6017916447 *)
Proof. reflexivity. Qed.   (* lazily: the sweep stops at the divisor 3; under vm_compute && is strict *)
Example lucas_check_rejects : lucas_check (P64 + 2) 7 (2 :: 3 :: 5 :: 17 :: 257 :: 65537 :: nil) = false.
Proof. vm_compute. reflexivity. Qed.

Print Assumptions trial_check_sound.
Print Assumptions lucas_check_sound.
Print Assumptions P64_prime.
Print Assumptions P62_prime.
Print Assumptions P128_prime.
