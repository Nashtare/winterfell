(* f64: inv is the multiplicative inverse (x^(M-2) by F64Exp.v, Fermat, primality of M = P64). *)
From VBase Require Import MachInt ZpOps.
From VGen Require Import F64.
From VProofs Require Import F64Red F64Ops F64Exp NumTheoryFermat NumTheoryPrime.
Open Scope Z_scope.

Lemma M_is_P64 : M = P64. Proof. reflexivity. Qed.
Theorem M64_prime : Znumtheory.prime M.
Proof. rewrite M_is_P64. exact P64_prime. Qed.

Theorem f64_inv_spec a : repr a -> val a <> 0 ->
  repr (f64_inv a) /\ (val (f64_inv a) * val a) mod M = 1.
Proof.
  intros Ha Hnz. destruct (f64_inv_pow a Ha) as [R V]. split; [exact R|].
  rewrite V, Z.mul_mod_idemp_l by (unfold M; lia).
  rewrite Z.mul_comm. apply fermat_inv_Z; [exact M64_prime|].
  rewrite Z.mod_small by apply val_range. exact Hnz.
Qed.

Theorem f64_div_mul a b : repr a -> repr b -> val b <> 0 ->
  (val (f64_div a b) * val b) mod M = val a.
Proof.
  intros Ha Hb Hnz. destruct (f64_div_spec a b Ha Hb) as [_ V]. rewrite V.
  destruct (f64_inv_pow b Hb) as [_ Vi]. rewrite <- Vi.
  rewrite Z.mul_mod_idemp_l by (unfold M; lia).
  rewrite <- Z.mul_assoc, <- Z.mul_mod_idemp_r by (unfold M; lia).
  destruct (f64_inv_spec b Hb Hnz) as [_ E]. rewrite E, Z.mul_1_r.
  apply Z.mod_small, val_range.
Qed.
