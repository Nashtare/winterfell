(* C01 — admissibility arithmetic of Model/Stark.v (module Shape): the number of constraint composition columns
   vs the degree of the composition polynomial, for all trace lengths / degrees / exemption counts. *)
From Coq Require Import List Bool ZArith Lia.
From VModel Require Import Stark.
Import ListNotations.
Import Shape.
Open Scope Z_scope.

(* ------------------------------------------------------------------ highest evaluation degree *)
Lemma fold_max_ge {A} (f : A -> Z) : forall l a, a <= fold_left (fun r d => Z.max r (f d)) l a.
Proof. induction l as [|h t IH]; intros a; simpl; [lia|]. specialize (IH (Z.max a (f h))). lia. Qed.
Lemma fold_max_in {A} (f : A -> Z) : forall l a d, In d l -> f d <= fold_left (fun r d => Z.max r (f d)) l a.
Proof.
  induction l as [|h t IH]; intros a d H; [contradiction|]. destruct H as [->|H]; simpl.
  - pose proof (fold_max_ge f t (Z.max a (f d))). lia.
  - now apply IH.
Qed.
Lemma fold_max_bound {A} (f : A -> Z) B : forall l a, a <= B -> (forall d, In d l -> f d <= B) ->
  fold_left (fun r d => Z.max r (f d)) l a <= B.
Proof.
  induction l as [|h t IH]; intros a Ha H; simpl; [exact Ha|]. apply IH.
  - pose proof (H h (or_introl eq_refl)). lia.
  - intros d Hd. apply H. now right.
Qed.

Lemma highest_ge n degs d : In d degs -> eval_degree n d <= highest_degree n degs.
Proof. apply (fold_max_in (eval_degree n)). Qed.
Lemma highest_bound n degs B : 0 <= B -> (forall d, In d degs -> eval_degree n d <= B) -> highest_degree n degs <= B.
Proof. apply (fold_max_bound (eval_degree n)). Qed.

(* ------------------------------------------------------------------ the composition polynomial fits its columns *)
(* working tree: a polynomial of degree D = comp_degree >= 0 has D + 1 coefficients; num_comp_cols columns of n
   coefficients hold them, and no column is superfluous *)
Theorem comp_cols_fit n degs e : 0 < n -> 0 <= comp_degree n degs e ->
  comp_degree n degs e < num_comp_cols n degs e * n /\ (num_comp_cols n degs e - 1) * n <= comp_degree n degs e.
Proof.
  intros Hn HD. unfold num_comp_cols. fold (comp_degree n degs e). set (D := comp_degree n degs e) in *.
  pose proof (Z.div_mod (D + n) n ltac:(lia)) as E. pose proof (Z.mod_pos_bound (D + n) n Hn) as R.
  assert (1 <= (D + n) / n) by (apply Z.div_le_lower_bound; lia).
  rewrite Z.max_l by lia. nia.
Qed.

(* the columns never exceed the constraint evaluation domain: cols <= ce_blowup under the acceptance check of
   set_num_transition_exemptions *)
Theorem comp_cols_le_ce n ce degs e : 0 < n -> 1 <= ce -> exemptions_ok n ce degs e = true ->
  num_comp_cols n degs e <= ce.
Proof.
  intros Hn Hce Hok. unfold exemptions_ok in Hok. apply andb_prop in Hok. destruct Hok as [Hok Hall].
  apply andb_prop in Hok. destruct Hok as [He0 He1]. apply Z.ltb_lt in He0. apply Z.leb_le in He1.
  rewrite forallb_forall in Hall.
  assert (n / 2 <= n) by (apply Z.div_le_upper_bound; lia).
  assert (HB : highest_degree n degs <= ce * n - 1 + n - e).
  { assert (n <= ce * n) by nia. assert (n / 2 < n) by (apply Z.div_lt_upper_bound; lia).
    apply highest_bound; [lia|]. intros d Hd. specialize (Hall d Hd). apply Z.leb_le in Hall. lia. }
  unfold num_comp_cols. apply Z.max_lub; [|lia].
  apply Z.lt_succ_r. apply Z.div_lt_upper_bound; [lia|]. nia.
Qed.

(* ------------------------------------------------------------------ the snapshot's formula: exact characterisation *)
(* ceil(D / n) columns instead of ceil((D + 1) / n): one column short exactly when D is a positive multiple of n *)
Theorem snapshot_cols_exact n degs e : 0 < n -> 0 <= comp_degree n degs e ->
  num_comp_cols_snapshot n degs e =
  num_comp_cols n degs e - (if (comp_degree n degs e mod n =? 0) && (0 <? comp_degree n degs e) then 1 else 0).
Proof.
  intros Hn HD. unfold num_comp_cols_snapshot, num_comp_cols. fold (comp_degree n degs e).
  set (D := comp_degree n degs e) in *.
  replace (highest_degree n degs - (n - e) + n - 1) with (D + n - 1) by (unfold D, comp_degree; lia).
  pose proof (Z.div_mod D n ltac:(lia)) as E. pose proof (Z.mod_pos_bound D n Hn) as R.
  set (q := D / n) in *. set (r := D mod n) in *.
  assert (0 <= q) by (apply Z.div_pos; lia).
  assert (E1 : (D + n) / n = q + 1) by (symmetry; apply (Z.div_unique _ _ _ r); lia).
  rewrite E1. destruct (Z.eqb_spec r 0) as [Hr|Hr].
  - assert (E2 : (D + n - 1) / n = q) by (symmetry; apply (Z.div_unique _ _ _ (n - 1)); lia).
    rewrite E2. destruct (Z.ltb_spec 0 D); simpl; nia.
  - assert (E2 : (D + n - 1) / n = q + 1) by (symmetry; apply (Z.div_unique _ _ _ (r - 1)); lia).
    rewrite E2. simpl. lia.
Qed.

(* ... and then the composition polynomial does NOT fit: its leading coefficient is dropped *)
Corollary snapshot_cols_too_few n degs e : 0 < n -> 0 < comp_degree n degs e -> comp_degree n degs e mod n = 0 ->
  num_comp_cols_snapshot n degs e * n <= comp_degree n degs e.
Proof.
  intros Hn HD Hm. rewrite snapshot_cols_exact by lia. rewrite Hm. simpl.
  destruct (Z.ltb_spec 0 (comp_degree n degs e)); [|lia].
  pose proof (comp_cols_fit n degs e Hn ltac:(lia)). lia.
Qed.

(* for one constraint of degree d without periodic columns: the loss happens exactly when #exemptions = d >= 2 *)
Lemma eval_degree_plain n d : eval_degree n (d, []) = d * (n - 1).
Proof. reflexivity. Qed.
Lemma highest_single n d : 0 <= d -> 1 <= n -> highest_degree n [(d, [])] = d * (n - 1).
Proof. intros. unfold highest_degree. simpl. rewrite eval_degree_plain. nia. Qed.

Theorem snapshot_loss_iff_exemptions_eq_degree n d e : 2 <= n -> 1 <= d <= n -> 1 <= e <= n ->
  (num_comp_cols_snapshot n [(d, [])] e < num_comp_cols n [(d, [])] e <-> (e = d /\ 2 <= d)).
Proof.
  intros Hn Hd He.
  assert (HD : comp_degree n [(d, [])] e = (d - 1) * n + (e - d)) by (unfold comp_degree; rewrite highest_single by lia; lia).
  assert (HD0 : 0 <= comp_degree n [(d, [])] e) by (rewrite HD; nia).
  rewrite snapshot_cols_exact by lia.
  assert (Hmod : comp_degree n [(d, [])] e mod n = (e - d) mod n).
  { rewrite HD. rewrite Z.add_comm. apply Z.mod_add. lia. }
  rewrite Hmod. split.
  - intros Hlt. destruct (Z.eqb_spec ((e - d) mod n) 0) as [Hz|Hz]; [|simpl in Hlt; lia].
    destruct (Z.ltb_spec 0 (comp_degree n [(d, [])] e)) as [Hp|Hp]; [|simpl in Hlt; lia].
    apply Z.mod_divide in Hz; [|lia]. destruct Hz as [k Hk].
    assert (k = 0) by nia. subst k. split; [lia|]. rewrite HD in Hp. nia.
  - intros [-> H2]. rewrite Z.sub_diag, Z.mod_0_l by lia. simpl.
    destruct (Z.ltb_spec 0 (comp_degree n [(d, [])] d)) as [Hp|Hp]; [lia|]. rewrite HD in Hp. nia.
Qed.

(* the snapshot's constructors ACCEPT such parameter sets: degree 2, 2 exemptions, blowup 2, 8 rows (the smallest
   instance; `c01 replay` of fixes/c01-composition-columns-off-by-one.msg is its execution) *)
Theorem snapshot_cols_refuted :
  exists mw log_n blowup e md,
    ctx_model mw 0 0 log_n blowup 1 0 true (Some e) md [] <> None /\
    options_ok 1 blowup 0 2 0 = true /\
    0 < comp_degree (2 ^ log_n) md e /\
    num_comp_cols_snapshot (2 ^ log_n) md e * 2 ^ log_n <= comp_degree (2 ^ log_n) md e.
Proof. exists 1, 3, 2, 2, [(2, [])]. vm_compute. repeat split; congruence. Qed.

(* non-vacuity of comp_cols_fit / comp_cols_le_ce on an accepted parameter set with several columns *)
Example comp_cols_example :
  ctx_model 2 0 0 4 8 1 0 true (Some 5) [(9, []); (3, [4])] [] = Some (16 * 8, 8, 16 * 8, 5) /\
  exemptions_ok 16 8 [(9, []); (3, [4])] 5 = true /\ comp_degree 16 [(9, []); (3, [4])] 5 = 124.
Proof. vm_compute. repeat split. Qed.

(* ------------------------------------------------------------------ declared degrees vs the constraint evaluation domain *)
Lemma next_pow2_ge x : x <= next_pow2 x.
Proof.
  unfold next_pow2. destruct (Z.leb_spec x 1); [lia|].
  pose proof (Z.log2_up_spec x ltac:(lia)). lia.
Qed.

Lemma cycles_fold_bound n : 1 <= n -> forall cs r, (forall c, In c cs -> 2 <= c) ->
  fold_left (fun r c => r + (n / c) * (c - 1)) cs r <= r + Z.of_nat (length cs) * (n - 1).
Proof.
  intros Hn. induction cs as [|c cs IH]; intros r Hc; [simpl; lia|].
  cbn [fold_left length]. rewrite Nat2Z.inj_succ.
  assert (2 <= c) by (apply Hc; now left).
  assert ((n / c) * (c - 1) <= n - 1).
  { pose proof (Z.mul_div_le n c ltac:(lia)). assert (0 <= n / c) by (apply Z.div_pos; lia).
    destruct (Z.eq_dec (n / c) 0) as [E|E]; [rewrite E; lia | nia]. }
  specialize (IH (r + n / c * (c - 1)) (fun c' H' => Hc c' (or_intror H'))). lia.
Qed.

Lemma eval_degree_bound n d : 1 <= n -> degree_ok d = true ->
  eval_degree n d <= (fst d + Z.of_nat (length (snd d))) * (n - 1).
Proof.
  intros Hn Hok. unfold degree_ok in Hok. apply andb_prop in Hok. destruct Hok as [_ Hc].
  rewrite forallb_forall in Hc. unfold eval_degree.
  pose proof (cycles_fold_bound n Hn (snd d) (fst d * (n - 1))) as B.
  assert (forall c, In c (snd d) -> 2 <= c).
  { intros c Hin. specialize (Hc c Hin). apply andb_prop in Hc. destruct Hc as [Hc _]. now apply Z.leb_le. }
  specialize (B H). lia.
Qed.

Lemma ce_blowup_ge degs d : In d degs -> min_blowup d <= ce_blowup degs.
Proof. apply (fold_max_in min_blowup). Qed.

(* the bound that the default single exemption needs *)
Lemma eval_degree_ce_bound n degs d : 1 <= n -> In d degs -> degree_ok d = true ->
  eval_degree n d <= ce_blowup degs * n - 1 + n - 1.
Proof.
  intros Hn Hin Hok. pose proof (eval_degree_bound n d Hn Hok) as B.
  pose proof (ce_blowup_ge degs d Hin) as C. unfold min_blowup in C.
  pose proof (next_pow2_ge (fst d + Z.of_nat (length (snd d)) - 1)). nia.
Qed.

(* the subtraction `ce_size - 1 + n - eval_degree` of set_num_transition_exemptions never underflows in usize *)
Theorem exemptions_bound_no_underflow n degs d : 1 <= n -> In d degs -> degree_ok d = true ->
  eval_degree n d <= ce_blowup degs * n - 1 + n.
Proof. intros Hn Hin Hok. pose proof (eval_degree_ce_bound n degs d Hn Hin Hok). lia. Qed.

(* with the default single exemption (AirContext::new / new_multi_segment) every accepted context passes the exemption
   check, hence (comp_cols_le_ce) its composition polynomial fits num_comp_cols <= ce_blowup columns *)
Theorem default_exemption_ok n degs : 2 <= n -> forallb degree_ok degs = true ->
  exemptions_ok n (ce_blowup degs) degs 1 = true.
Proof.
  intros Hn Hok. rewrite forallb_forall in Hok. unfold exemptions_ok.
  assert (1 <= n / 2) by (apply Z.div_le_lower_bound; lia).
  replace (0 <? 1) with true by reflexivity. replace (1 <=? n / 2 + 1) with true by (symmetry; apply Z.leb_le; lia).
  cbn [andb]. apply forallb_forall. intros d Hd. apply Z.leb_le.
  pose proof (eval_degree_ce_bound n degs d ltac:(lia) Hd (Hok d Hd)). lia.
Qed.

(* ------------------------------------------------------------------ FRI schedules *)
(* what the property's well-formedness condition means: the layer loop of FriOptions::num_fri_layers terminates after
   k exact folds, lde = fold^k * rem_size, and the remainder domain rem_size holds between 1 and rem_max+1 coefficients *)
Lemma fri_wf_fuel_spec fold blowup maxrem : 2 <= fold -> 0 < blowup -> forall fuel d,
  fri_wf_fuel fuel d maxrem fold blowup = true ->
  exists k dk, fri_layers_fuel fuel d maxrem fold = Some k /\ 0 <= k /\ d = fold ^ k * dk /\ dk <= maxrem /\ blowup <= dk.
Proof.
  intros Hf Hb. induction fuel as [|fuel IH]; intros d H; [discriminate|].
  cbn [fri_wf_fuel fri_layers_fuel] in *. destruct (Z.gtb_spec d maxrem) as [Hgt|Hle].
  - apply andb_prop in H. destruct H as [H H3]. apply andb_prop in H. destruct H as [H1 H2].
    apply Z.eqb_eq in H1. apply Z.leb_le in H2.
    destruct (IH (d / fold) H3) as (k & dk & E & Hk & Ed & Hm & Hbl). rewrite E.
    exists (Z.succ k), dk. repeat split; try assumption; try lia.
    rewrite Z.pow_succ_r by lia. pose proof (Z.div_mod d fold ltac:(lia)). nia.
  - apply Z.leb_le in H. exists 0, d. repeat split; try lia.
    destruct (Z.lt_ge_cases d blowup) as [Hlt|]; [|assumption].
    assert (d / blowup <= 0); [|lia].
    destruct (Z.lt_ge_cases d 0); [apply Z.div_le_upper_bound; lia | rewrite Z.div_small; lia].
Qed.

Theorem fri_wellformed_spec lde blowup fold rem : 2 <= fold -> 0 < blowup ->
  fri_wellformed lde blowup fold rem = true ->
  exists k rem_size, num_fri_layers lde blowup fold rem = Some k /\ 0 <= k /\ lde = fold ^ k * rem_size /\
                     rem_size <= (rem + 1) * blowup /\ blowup <= rem_size.
Proof. intros Hf Hb. apply fri_wf_fuel_spec; assumption. Qed.

Example fri_wellformed_example :
  fri_wellformed 4096 8 4 31 = true /\ num_fri_layers 4096 8 4 31 = Some 2 /\
  fri_wellformed 16 2 16 0 = false /\ fri_wellformed 64 2 8 0 = false.
Proof. vm_compute. repeat split. Qed.
