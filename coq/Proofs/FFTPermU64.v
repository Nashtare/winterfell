(* C09: the machine-level formula of fft::permute_index — index.reverse_bits().wrapping_shr(64 - size.trailing_zeros())
   on 64-bit words — equals the bit reversal `rev_bits k` used by the rest of the model, for every size 2^k, k <= 63. *)
From Coq Require Import List Arith Bool ZArith NArith Lia.
From VModel Require Import FFT.
From VProofs Require Import Pow2Facts FFTEval.

Lemma of_nat_pow2 k : N.of_nat (2 ^ k) = (2 ^ N.of_nat k)%N.
Proof. rewrite Nat2N.inj_pow. reflexivity. Qed.

Lemma rev_bits_N_spec : forall w x acc,
  rev_bits_N w (N.of_nat x) acc = (acc * 2 ^ N.of_nat w + N.of_nat (rev_bits w x))%N.
Proof.
  induction w as [|w IH]; intros x acc.
  - cbn [rev_bits_N rev_bits]. change (N.of_nat 0) with 0%N. rewrite N.pow_0_r. lia.
  - cbn [rev_bits_N].
    assert (Hd : N.div2 (N.of_nat x) = N.of_nat (x / 2)).
    { rewrite <- Nat.div2_div. symmetry. apply Nat2N.inj_div2. }
    assert (Hb : N.b2n (N.odd (N.of_nat x)) = N.of_nat (x mod 2)).
    { pose proof (N.div2_odd (N.of_nat x)) as H1. rewrite Hd in H1.
      pose proof (Nat.div_mod x 2 ltac:(lia)) as H2.
      pose proof (Nat.mod_upper_bound x 2 ltac:(lia)) as H3.
      destruct (N.odd (N.of_nat x)); cbn [N.b2n] in *; lia. }
    rewrite Hd, Hb, IH.
    change (rev_bits (S w) x) with (2 ^ w * (x mod 2) + rev_bits w (x / 2)).
    rewrite Nat2N.inj_add, Nat2N.inj_mul, of_nat_pow2, Nat2N.inj_succ, N.pow_succ_r', N.double_spec.
    lia.
Qed.

Lemma rev_bits_pad : forall m k i, i < 2 ^ k -> rev_bits (m + k) i = 2 ^ m * rev_bits k i.
Proof.
  intros m k i Hi. pose proof (rev_bits_concat m k 0 i Hi) as E.
  rewrite rev_bits_0, (Nat.add_comm k) in E. exact E.
Qed.

Lemma pow2_pos_shape : forall k, exists p, N.of_nat (2 ^ k) = Npos p /\ ctz_pos p = N.of_nat k.
Proof.
  induction k as [|k (p & Hp & Hc)].
  - exists xH. split; reflexivity.
  - exists (xO p). split.
    + rewrite pow2_S, Nat2N.inj_add, Hp. cbn. rewrite Pos.add_diag. reflexivity.
    + cbn [ctz_pos]. rewrite Hc, Nat2N.inj_succ. reflexivity.
Qed.

Theorem permute_index_u64_spec : forall k i, k <= 63 -> i < 2 ^ k ->
  permute_index_u64 (N.of_nat (2 ^ k)) (N.of_nat i) = Some (N.of_nat (rev_bits k i)).
Proof.
  intros k i Hk Hi. unfold permute_index_u64.
  assert (E1 : (N.of_nat i <? N.of_nat (2 ^ k))%N = true) by (apply N.ltb_lt; lia).
  rewrite E1. cbn [negb].
  destruct (pow2_pos_shape k) as (p & Hp & Hc).
  assert (E2 : is_pow2_N (N.of_nat (2 ^ k)) = true).
  { rewrite Hp. unfold is_pow2_N. rewrite Hc, N.shiftl_1_l, <- of_nat_pow2, Hp. apply N.eqb_refl. }
  rewrite E2. cbn [negb]. f_equal.
  assert (E3 : trailing_zeros64 (N.of_nat (2 ^ k)) = N.of_nat k) by (rewrite Hp; exact Hc).
  rewrite E3, rev_bits_N_spec, N.mul_0_l, N.add_0_l, N.shiftr_div_pow2.
  replace 64 with ((64 - k) + k) at 1 by lia.
  rewrite rev_bits_pad by exact Hi.
  rewrite Nat2N.inj_mul, of_nat_pow2.
  destruct k as [|k].
  - cbn in Hi. assert (i = 0) by lia. subst i. cbn [rev_bits]. change (N.of_nat 0) with 0%N.
    rewrite N.mul_0_r. apply N.div_0_l. apply N.pow_nonzero. lia.
  - assert (Es : ((64 - N.of_nat (S k)) mod 64 = N.of_nat (64 - S k))%N).
    { rewrite N.mod_small by lia. lia. }
    rewrite Es, N.mul_comm. apply N.div_mul. apply N.pow_nonzero. lia.
Qed.
