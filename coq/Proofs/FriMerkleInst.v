(* C15 / C05 — discharging the Merkle hypotheses of C15_fri_complete (completeness) and C05_fri_binding (binding)
   with the theorems of C10 about the Merkle model (Model/Merkle.v), through the instantiation Model/FriMerkle.v:
   positions nat <-> Z, depth nat <-> Z, `res` <-> option / auth_res.  Any digest type with decidable equality,
   any default digest, any merge function. *)
From Coq Require Import List Arith Bool Lia ZArith.
From VBase Require Import FieldOps.
From VModel Require Import Merkle Fri FriMerkle.
From VProofs Require Import MerkleSingle MerkleBatch MerkleTotal MerkleBind.
From VProofs Require Import ListFacts FriBinding FriCoset FriComplete.
Import ListNotations.
Local Open Scope nat_scope.

Section Inst.
Variable D : Type.
Variable D_eqb : D -> D -> bool.
Hypothesis D_eqb_spec : forall a b, D_eqb a b = true <-> a = b.
Variable d0 : D.
Variable merge : D -> D -> D.

Local Notation cm_new := (cm_new D d0 merge).
Local Notation cm_root := (cm_root D d0).
Local Notation cm_prove_batch := (cm_prove_batch D d0).
Local Notation cm_verify_batch := (cm_verify_batch D D_eqb merge).

Lemma zlen_pow2 (l : list D) (d : nat) : length l = (2 ^ d)%nat -> zlen l = (2 ^ Z.of_nat d)%Z.
Proof. intros H. unfold zlen. rewrite H, Nat2Z.inj_pow. reflexivity. Qed.

(* C10_new_ok *)
Lemma cm_new_ok : forall leaves d, 1 <= d -> length leaves = 2 ^ d -> exists t, cm_new leaves = Some t.
Proof.
  intros leaves d Hd Hl. destruct (mt_new_ok D d0 merge leaves d Hd (zlen_pow2 _ _ Hl)) as [t Ht].
  exists t. unfold FriMerkle.cm_new. now rewrite Ht.
Qed.

Lemma NoDup_map_of_nat l : NoDup l -> NoDup (map Z.of_nat l).
Proof. apply NoDup_map_inj_in. intros x y _ _. apply Nat2Z.inj. Qed.

(* C10_batch_complete *)
Lemma cm_batch_complete : forall leaves t d indexes dflt,
  cm_new leaves = Some t -> length leaves = 2 ^ d -> 1 <= d <= 62 ->
  indexes <> [] -> length indexes <= 255 -> NoDup indexes -> (forall i, In i indexes -> i < length leaves) ->
  exists nodes, cm_prove_batch t indexes = Some nodes /\
    cm_verify_batch (cm_root t) indexes (map (fun i => nth i leaves dflt) indexes) nodes d = AuthOk.
Proof.
  intros leaves t d indexes dflt Hnew Hl Hd Hne Hlen Hnd Hin.
  unfold FriMerkle.cm_new in Hnew.
  destruct (mt_new D d0 merge leaves) as [t'| |] eqn:Ht; try discriminate. injection Hnew as ->.
  destruct (build_nodes_spec D d0 merge leaves t Ht) as [Hleaves [d' WF]].
  assert (Ed : d' = d).
  { pose proof (wf_leaves _ _ _ _ _ WF) as W. rewrite Hleaves, (zlen_pow2 _ _ Hl) in W.
    apply Z.pow_inj_r in W; lia. }
  subst d'.
  pose proof (root_hval D d0 merge t d WF ltac:(lia)) as Hroot.
  destruct (batch_complete D D_eqb D_eqb_spec d0 merge leaves t d (hval D d0 t 1) (map Z.of_nat indexes) Ht
              (zlen_pow2 _ _ Hl) ltac:(lia) Hroot) as [p [Hp [Hdp [Hlp [Hnth [_ Hv]]]]]].
  - destruct indexes; [contradiction | discriminate].
  - unfold zlen. rewrite map_length. lia.
  - now apply NoDup_map_of_nat.
  - intros i Hi. apply in_map_iff in Hi. destruct Hi as [j [<- Hj]]. specialize (Hin j Hj). unfold zlen. lia.
  - exists (bp_nodes p). unfold FriMerkle.cm_prove_batch. rewrite Hp. split; [reflexivity|].
    unfold FriMerkle.cm_verify_batch, FriMerkle.cm_root. rewrite Hroot.
    assert (Ep : cm_proof D (map (fun i => nth i leaves dflt) indexes) (bp_nodes p) d = p).
    { unfold cm_proof. destruct p as [pl pn pd]. cbn in *. f_equal; [|congruence].
      symmetry. apply nth_error_ext. intros j. rewrite map_length in Hlp.
      destruct (nth_error indexes j) as [i|] eqn:Ei.
      - rewrite (Hnth j (Z.of_nat i)) by now rewrite nth_error_map, Ei.
        rewrite Nat2Z.id, nth_error_map, Ei. cbn.
        apply nth_error_nth'. apply Hin. eapply nth_error_In; eassumption.
      - rewrite nth_error_map, Ei. cbn. apply nth_error_None. apply nth_error_None in Ei. lia. }
    rewrite Ep, Hv. reflexivity.
Qed.

(* C10_batch_binding_two *)
Definition cm_find_collision (root : D) (indexes : list nat) (a b : list D * list (list D) * nat) : option ((D * D) * (D * D)) :=
  let '(l1, n1, d1) := a in
  let '(l2, n2, d2) := b in
  find_batch_collision2 D D_eqb d0 merge (cm_proof D l1 n1 d1) (cm_proof D l2 n2 d2) (map Z.of_nat indexes).

Lemma cm_verify_get_root root indexes leaves nodes d :
  cm_verify_batch root indexes leaves nodes d = AuthOk ->
  get_root D merge (cm_proof D leaves nodes d) (map Z.of_nat indexes) = Merkle.Ok root.
Proof.
  unfold FriMerkle.cm_verify_batch, verify_batch.
  destruct (get_root D merge _ _) as [r| |]; cbn [Merkle.bind]; try discriminate.
  destruct (D_eqb root r) eqn:E; [|discriminate]. apply D_eqb_spec in E. now subst.
Qed.

Lemma cm_binding : forall root indexes l1 n1 l2 n2 d,
  1 <= d ->
  cm_verify_batch root indexes l1 n1 d = AuthOk -> cm_verify_batch root indexes l2 n2 d = AuthOk ->
  length l1 = length l2 ->
  l1 = l2 \/ exists c, cm_find_collision root indexes (l1, n1, d) (l2, n2, d) = Some c /\ is_collision D merge c.
Proof.
  intros root indexes l1 n1 l2 n2 d Hd V1 V2 _.
  apply cm_verify_get_root in V1, V2.
  assert (Hu : usize_list (map Z.of_nat indexes)).
  { intros x Hx. apply in_map_iff in Hx. destruct Hx as [j [<- _]]. lia. }
  destruct (batch_binding_two D D_eqb D_eqb_spec d0 merge (cm_proof D l1 n1 d) (cm_proof D l2 n2 d)
              (map Z.of_nat indexes) root d Hd eq_refl eq_refl Hu V1 V2) as [E|C].
  - left. exact E.
  - right. exact C.
Qed.

(* ---------------------------------------------------------------- C05_fri_binding, unconditional w.r.t. Merkle *)
Section Binding.
Context {F : Type} (O : FOps F) (L : FLaws O).
Variable hash_elements : list F -> D.

Theorem fri_binding_merkle : forall N ds pl1 pl2 q1 q2 l1 l2 n1 n2 d1 d2 commitment indexes,
  parse_layer D hash_elements (list (list D)) N ds pl1 = Some (Some (q1, (l1, n1, d1))) ->
  parse_layer D hash_elements (list (list D)) N ds pl2 = Some (Some (q2, (l2, n2, d2))) ->
  cm_verify_batch commitment indexes l1 n1 d1 = AuthOk ->
  cm_verify_batch commitment indexes l2 n2 d2 = AuthOk ->
  length l1 = length l2 ->
  exists rows1 rows2, group_slice N q1 = Ok rows1 /\ group_slice N q2 = Ok rows2 /\
    (rows1 = rows2 \/
     (exists r1 r2, find_row_collision O rows1 rows2 = Some (r1, r2) /\ r1 <> r2 /\ hash_elements r1 = hash_elements r2) \/
     (exists c, cm_find_collision commitment indexes (l1, n1, d1) (l2, n2, d2) = Some c /\ is_collision D merge c)).
Proof.
  exact (fri_binding O L D hash_elements (list (list D)) cm_verify_batch _ cm_find_collision (is_collision D merge) cm_binding).
Qed.
End Binding.

(* ---------------------------------------------------------------- C15_fri_complete with the Merkle model of C10 *)
Section Complete.
Context {F : Type} (O : FOps F) (L : FLaws O).
Variable rou : nat -> F.
Variable K : nat.
Hypothesis K_pos : 1 <= K.
Hypothesis rou_sq : forall k, k < K -> fmul O (rou (S k)) (rou (S k)) = rou k.
Hypothesis rou_1 : rou 1 = fneg O (fone O).
Hypothesis two_nz : fadd O (fone O) (fone O) <> fzero O.
Variable gen_offset : F.
Hypothesis offset_nz : gen_offset <> fzero O.
Variable dbg : bool.
Variable hash_elements : list F -> D.
Variable CS : Type.
Variable cs_reseed : CS -> D -> CS.
Variable cs_draw : CS -> CS * draw_res F.
Hypothesis draw_total : forall c, exists c' a, cs_draw c = (c', DrawOk a).

Theorem fri_complete_merkle : forall f b remmax, 1 <= f -> supported_folding (2 ^ f) = true ->
  forall a k P positions coin0,
  num_fri_layers (mkOpts (2 ^ b) (2 ^ f) remmax) (2 ^ a) = Some k -> k * f < a -> b <= a - k * f -> a <= K -> a <= 62 ->
  length P = 2 ^ (a - b) -> pos_ok a positions ->
  let evals := coset_evals O P gen_offset (rou a) (2 ^ a) in
  exists cs proof p',
    prove O rou K gen_offset D hash_elements (mtree D) (list (list D)) cm_new cm_root cm_prove_batch CS cs_reseed cs_draw
          (mkOpts (2 ^ b) (2 ^ f) remmax) coin0 evals positions = Ok (cs, proof, p') /\
    run_verifier O rou K gen_offset dbg D D_eqb hash_elements (list (list D)) cm_verify_batch CS cs_reseed cs_draw true
          (mkOpts (2 ^ b) (2 ^ f) remmax) coin0 proof cs (2 ^ (a - b) - 1) (2 ^ a) (evals_at O evals positions) positions
    = RunVerdict (Ok tt).
Proof.
  intros f b remmax Hf Hs.
  exact (fri_complete O L rou K K_pos rou_sq rou_1 two_nz gen_offset offset_nz dbg D D_eqb D_eqb_spec hash_elements
           (mtree D) (list (list D)) cm_new cm_root cm_prove_batch cm_verify_batch CS cs_reseed cs_draw
           cm_new_ok cm_batch_complete draw_total f b remmax Hf Hs).
Qed.
End Complete.

End Inst.
