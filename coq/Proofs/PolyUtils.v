(* C20 — math/src/utils: batch_inversion, get_power_series(_with_offset), add_in_place, mul_acc. *)
From Coq Require Import List Arith Bool Lia Ring Field.
From VBase Require Import FieldOps.
From VModel Require Import Polynom.
From VProofs Require Import PolyBase.
Import ListNotations.

Section Utils.
Context {F : Type} (O : FOps F) (L : FLaws O).
Local Notation zero := (fzero O).
Local Notation one := (fone O).
Local Notation "a +f b" := (fadd O a b) (at level 50, left associativity).
Local Notation "a -f b" := (fsub O a b) (at level 50, left associativity).
Local Notation "a *f b" := (fmul O a b) (at level 40, left associativity).
Local Notation peval := (peval O).
Local Notation fpow := (fpow O).

Add Field Ffield : (FLaws_field_theory O L).

(* ------------------------------------------------------------------ batch inversion *)
Definition inv0 (v : F) : F := if feqb O v zero then zero else finv O v.

Fixpoint nzprod (vs : list F) : F :=
  match vs with [] => one | v :: t => if feqb O v zero then nzprod t else v *f nzprod t end.

Lemma nzprod_nonzero vs : nzprod vs <> zero.
Proof.
  induction vs as [|v t IH]; simpl. apply (fl_one_neq_zero O L).
  destruct (feqb O v zero) eqn:E; auto. apply (feqb_false O L) in E. now apply (fmul_nonzero O L).
Qed.

Lemma binv_main : forall vs a r l, a <> zero -> binv_fwd O vs a = (r, l) ->
  l = a *f nzprod vs /\ length r = length vs /\
  binv_bwd O vs r (finv O (a *f nzprod vs)) = (map inv0 vs, finv O a).
Proof.
  induction vs as [|v t IH]; intros a r l Ha E.
  - simpl in E. inversion E; subst. simpl. replace (l *f one) with l by ring. repeat split.
  - cbn [binv_fwd] in E.
    destruct (binv_fwd O t (if feqb O v zero then a else a *f v)) as [r1 l1] eqn:E1.
    inversion E; subst r l. clear E.
    cbn [nzprod map binv_bwd length]. unfold inv0 at 1.
    destruct (feqb O v zero) eqn:Ev.
    + destruct (IH a r1 l1 Ha E1) as (H1 & H2 & H3). rewrite H3. repeat split; auto.
    + apply (feqb_false O L) in Ev.
      assert (Hav : a *f v <> zero) by now apply (fmul_nonzero O L).
      destruct (IH (a *f v) r1 l1 Hav E1) as (H1 & H2 & H3).
      replace (a *f (v *f nzprod t)) with (a *f v *f nzprod t) by ring.
      rewrite H3. split. { rewrite H1. ring. } split. { now rewrite H2. }
      f_equal.
      * f_equal. field. auto.
      * field. auto.
Qed.

Lemma batch_inversion_spec vs : batch_inversion O vs = map inv0 vs.
Proof.
  unfold batch_inversion. destruct (binv_fwd O vs one) as [r l] eqn:E.
  destruct (binv_main vs one r l (fl_one_neq_zero O L) E) as (H1 & _ & H3).
  subst l. rewrite H3. reflexivity.
Qed.

(* the form asked by the property: zeros are preserved, every other entry is inverted *)
Lemma batch_inversion_nth vs i : i < length vs ->
  nth i (batch_inversion O vs) zero = if feqb O (nth i vs zero) zero then zero else finv O (nth i vs zero).
Proof.
  intros H. rewrite batch_inversion_spec.
  rewrite (nth_indep _ zero (inv0 zero)) by now rewrite map_length.
  rewrite map_nth. reflexivity.
Qed.

Lemma batch_inversion_length vs : length (batch_inversion O vs) = length vs.
Proof. rewrite batch_inversion_spec. apply map_length. Qed.

Lemma batch_inversion_mul vs i : i < length vs -> nth i vs zero <> zero ->
  nth i vs zero *f nth i (batch_inversion O vs) zero = one.
Proof.
  intros H Hz. rewrite batch_inversion_nth by assumption.
  rewrite (feqb_neq O L) by assumption. now apply (finv_r O L).
Qed.

Lemma batch_inversion_eq_map_inv vs : batch_inversion O vs = map (finv O) vs.
Proof.
  rewrite batch_inversion_spec. apply map_ext. intros v. unfold inv0.
  destruct (feqb O v zero) eqn:E; auto. apply (feqb_true O L) in E. subst. symmetry. apply (fl_inv_0 O L).
Qed.

(* ------------------------------------------------------------------ power series *)
Fixpoint pows (s b : F) (n : nat) : list F :=
  match n with 0 => [] | S n' => s :: pows (s *f b) b n' end.

Lemma pows_length s b n : length (pows s b n) = n.
Proof. revert s; induction n; simpl; auto. Qed.

Lemma pows_snoc : forall n s b, pows s b (S n) = pows s b n ++ [s *f fpow b n].
Proof.
  induction n; intros s b. simpl. f_equal. ring.
  change (pows s b (S (S n))) with (s :: pows (s *f b) b (S n)). rewrite IHn. simpl. do 3 f_equal. ring.
Qed.

Lemma pows_nth : forall n s b i, i < n -> nth i (pows s b n) zero = s *f fpow b i.
Proof.
  induction n; intros s b i H. lia.
  destruct i; simpl. ring. rewrite IHn by lia. ring.
Qed.

Definition fps_body (base : F) : nat -> list F -> Result (list F) :=
  fun i r => prev <- get r (i - 1);; set r i (prev *f base).

Lemma fps_loop s b : forall rest m, 1 <= m ->
  for_up m (length rest) (fps_body b) (pows s b m ++ rest) = Ok (pows s b (m + length rest)).
Proof.
  induction rest as [|d rest IH]; intros m Hm.
  - simpl. now rewrite app_nil_r, Nat.add_0_r.
  - cbn [length for_up]. unfold fps_body at 1.
    rewrite (get_ok _ (m - 1) zero) by (rewrite app_length, pows_length; simpl; lia).
    rewrite app_nth1 by (rewrite pows_length; lia). rewrite pows_nth by lia. cbn [bind].
    rewrite set_ok by (rewrite app_length, pows_length; simpl; lia).
    assert (Hu : upd (pows s b m ++ d :: rest) m (s *f fpow b (m - 1) *f b) = pows s b (S m) ++ rest).
    { rewrite <- (pows_length s b m) at 2. rewrite upd_app_mid. rewrite pows_snoc, <- app_assoc. simpl.
      do 2 f_equal. destruct m; [lia|]. simpl. rewrite Nat.sub_0_r. ring. }
    rewrite Hu. rewrite IH by lia. f_equal. f_equal. lia.
Qed.

Lemma fill_power_series_spec n junk b s : length junk = n ->
  fill_power_series O junk b s = Ok (pows s b n).
Proof.
  intros H. unfold fill_power_series. destruct junk as [|d rest]; simpl in H; subst n. reflexivity.
  rewrite set_ok by (simpl; lia). cbn [upd bind length]. rewrite Nat.sub_succ, Nat.sub_0_r.
  change (s :: rest) with (pows s b 1 ++ rest).
  exact (fps_loop s b rest 1 (le_n 1)).
Qed.

Lemma get_power_series_spec b n :
  exists l, get_power_series O b n = Ok l /\ length l = n /\ forall i, i < n -> nth i l zero = fpow b i.
Proof.
  exists (pows one b n). split. apply fill_power_series_spec, repeat_length.
  split. apply pows_length. intros i Hi. rewrite pows_nth by assumption. ring.
Qed.

Lemma get_power_series_with_offset_spec b s n :
  exists l, get_power_series_with_offset O b s n = Ok l /\ length l = n /\
            forall i, i < n -> nth i l zero = s *f fpow b i.
Proof.
  exists (pows (s *f one) b n). split. apply fill_power_series_spec, repeat_length.
  split. apply pows_length. intros i Hi. rewrite pows_nth by assumption. ring.
Qed.

(* ------------------------------------------------------------------ add_in_place / mul_acc *)
Lemma add_in_place_spec a b :
  (length a = length b ->
     exists r, add_in_place O a b = Ok r /\ length r = length a /\
               forall i, i < length a -> nth i r zero = nth i a zero +f nth i b zero) /\
  (add_in_place O a b <> Panic <-> length a = length b).
Proof. exact (zip_checked_spec _ zero zero zero a b). Qed.

Lemma mul_acc_spec a b c :
  (length a = length b ->
     exists r, mul_acc O a b c = Ok r /\ length r = length a /\
               forall i, i < length a -> nth i r zero = nth i a zero +f nth i b zero *f c) /\
  (mul_acc O a b c <> Panic <-> length a = length b).
Proof.
  destruct (zip_checked_spec (fun x y => x +f c *f y) zero zero zero a b) as [Hok Hp]. split; [|exact Hp].
  intros H. destruct (Hok H) as (r & E & Hl & Hn). exists r. split; [exact E|]. split; [exact Hl|].
  intros i Hi. rewrite (Hn i Hi). ring.
Qed.

End Utils.
