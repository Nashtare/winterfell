(* C08 — ties of the GENERATED `impl ExtensibleField<N>` terms (coq/Gen/F64.v, F62.v, F128.v) to the reference
   multiplications of Proofs/ExtTheory.v, and the theorems about the hand model of QuadExtension / CubeExtension
   (Model/ExtField.v) for any vtable that satisfies the tie, over any field (`FLaws O`). *)
From Coq Require Import ZArith List Bool Ring Field.
From VBase Require Import FieldOps.
From VGen Require Import F64 F62 F128.
From VModel Require Import ExtField.
From VProofs Require Import FieldFacts ExtTheory.
Import ListNotations.

Section Ties.
Context {F : Type} (O : FOps F) (L : FLaws O).

Local Notation zero := (fzero O).
Local Notation one := (fone O).
Local Notation "a +f b" := (fadd O a b) (at level 50, left associativity).
Local Notation "a -f b" := (fsub O a b) (at level 50, left associativity).
Local Notation "a *f b" := (fmul O a b) (at level 40, left associativity).
Local Notation "-f a" := (fneg O a) (at level 35, right associativity).

Add Field Ffield : (FLaws_field_theory O L).

Definition ftwo : F := one +f one.
Definition fneg2 : F := -f (one +f one).

(* "vtable I implements F[x]/(x^2 - x - c)" *)
Record Ext2Correct (I : Ext2Impl F) (c : F) : Prop := {
  x2c_mul : forall a b, x2_mul I a b = qs_mul O c a b;
  x2c_square : forall a, x2_square I a = qs_mul O c a a;
  x2c_mul_base : forall a b, x2_mul_base I a b = qs_mul O c a (b, zero);
  x2c_frob : forall a, x2_frob I a = qs_frob O a
}.
(* "vtable I implements F[x]/(x^3 - u x - v) with Frobenius matrix columns (1,0,0), (k01,k11,k21), (k02,k12,k22)" *)
Record Ext3Correct (I : Ext3Impl F) (u v k01 k02 k11 k12 k21 k22 : F) : Prop := {
  x3c_mul : forall a b, x3_mul I a b = cs_mul O u v a b;
  x3c_square : forall a, x3_square I a = cs_mul O u v a a;
  x3c_mul_base : forall a b, x3_mul_base I a b = cs_mul O u v a (b, zero, zero);
  x3c_frob : forall a, x3_frob I a = cs_frob O k01 k02 k11 k12 k21 k22 a
}.

Ltac unf2 := intros;
  repeat match goal with a : (F * F)%type |- _ => destruct a end;
  unfold qs_mul, qs_frob, fneg2, ftwo; cbn [fst snd];
  try rewrite !(fl_double_def O L); try rewrite !(fl_square_def O L).
Ltac unf3 := intros;
  repeat match goal with a : (F * F * F)%type |- _ => destruct a as [[? ?] ?] end;
  unfold cs_mul, cs_frob, fneg2, ftwo, c0, c1, c2; cbn [fst snd];
  try rewrite !(fl_double_def O L); try rewrite !(fl_square_def O L).
Ltac r2 := f_equal; ring.
Ltac r3 := f_equal; [f_equal|]; ring.

(* Each vtable is tied to its reference multiplication by unfolding the generated terms and `ring`; everything
   else about the generated terms (square = mul a a, mul_base = mul by an embedded element, ...) is then an
   instance of the theorems of QuadModel / CubeModel below.  The `*_mul_spec` lemmas spell the reduced product out. *)

(* ---------------- f64, quadratic: x^2 = x - 2 ---------------- *)
Lemma f64_ext2_mul_spec : forall a0 a1 b0 b1,
  f64_ext2_mul O (a0, a1) (b0, b1) = (a0 *f b0 -f ftwo *f (a1 *f b1), a0 *f b1 +f a1 *f b0 +f a1 *f b1).
Proof. intros. unfold f64_ext2_mul. unf2. r2. Qed.
Theorem f64_x2_correct : Ext2Correct (f64_x2 O) fneg2.
Proof.
  constructor; cbn [f64_x2 x2_mul x2_square x2_mul_base x2_frob];
    unfold f64_ext2_mul, f64_ext2_square, f64_ext2_mul_base, f64_ext2_frobenius; unf2; r2.
Qed.

(* ---------------- f62, quadratic: x^2 = x + 1 ---------------- *)
Lemma f62_ext2_mul_spec : forall a0 a1 b0 b1,
  f62_ext2_mul O (a0, a1) (b0, b1) = (a0 *f b0 +f a1 *f b1, a0 *f b1 +f a1 *f b0 +f a1 *f b1).
Proof. intros. unfold f62_ext2_mul. unf2. r2. Qed.
Theorem f62_x2_correct : Ext2Correct (f62_x2 O) one.
Proof.
  constructor; cbn [f62_x2 x2_mul x2_square x2_mul_base x2_frob];
    unfold f62_ext2_mul, f62_ext2_mul_base, f62_ext2_frobenius; unf2; r2.
Qed.

(* ---------------- f128, quadratic: x^2 = x + 1 ---------------- *)
Lemma f128_ext2_mul_spec : forall a0 a1 b0 b1,
  f128_ext2_mul O (a0, a1) (b0, b1) = (a0 *f b0 +f a1 *f b1, a0 *f b1 +f a1 *f b0 +f a1 *f b1).
Proof. intros. unfold f128_ext2_mul. unf2. r2. Qed.
Theorem f128_x2_correct : Ext2Correct (f128_x2 O) one.
Proof.
  constructor; cbn [f128_x2 x2_mul x2_square x2_mul_base x2_frob];
    unfold f128_ext2_mul, f128_ext2_mul_base, f128_ext2_frobenius; unf2; r2.
Qed.

(* ---------------- f64, cubic: x^3 = x + 1 ---------------- *)
Lemma f64_ext3_mul_spec : forall a0 a1 a2 b0 b1 b2,
  f64_ext3_mul O (a0, a1, a2) (b0, b1, b2) =
  (a0 *f b0 +f (a1 *f b2 +f a2 *f b1),
   a0 *f b1 +f a1 *f b0 +f (a1 *f b2 +f a2 *f b1) +f a2 *f b2,
   a0 *f b2 +f a1 *f b1 +f a2 *f b0 +f a2 *f b2).
Proof. intros. unfold f64_ext3_mul. unf3. r3. Qed.

Definition f64_k01 := fofz O 10615703402128488253.
Definition f64_k02 := fofz O 6700183068485440220.
Definition f64_k11 := fofz O 10050274602728160328.
Definition f64_k12 := fofz O 14531223735771536287.
Definition f64_k21 := fofz O 11746561000929144102.
Definition f64_k22 := fofz O 8396469466686423992.
Theorem f64_x3_correct : Ext3Correct (f64_x3 O) one one f64_k01 f64_k02 f64_k11 f64_k12 f64_k21 f64_k22.
Proof.
  constructor; cbn [f64_x3 x3_mul x3_square x3_mul_base x3_frob]; [| | |reflexivity];
    unfold f64_ext3_mul, f64_ext3_square, f64_ext3_mul_base; unf3; r3.
Qed.

(* ---------------- f62, cubic: x^3 = -2x - 2 ---------------- *)
Lemma f62_ext3_mul_spec : forall a0 a1 a2 b0 b1 b2,
  f62_ext3_mul O (a0, a1, a2) (b0, b1, b2) =
  (a0 *f b0 -f ftwo *f (a1 *f b2 +f a2 *f b1),
   a0 *f b1 +f a1 *f b0 -f ftwo *f (a1 *f b2 +f a2 *f b1) -f ftwo *f (a2 *f b2),
   a0 *f b2 +f a1 *f b1 +f a2 *f b0 -f ftwo *f (a2 *f b2)).
Proof. intros. unfold f62_ext3_mul. unf3. r3. Qed.

Definition f62_k01 := fofz O 2061766055618274781.
Definition f62_k02 := fofz O 786836585661389001.
Definition f62_k11 := fofz O 2868591307402993000.
Definition f62_k12 := fofz O 3336695525575160559.
Definition f62_k21 := fofz O 2699230790596717670.
Definition f62_k22 := fofz O 1743033688129053336.
Theorem f62_x3_correct : Ext3Correct (f62_x3 O) fneg2 fneg2 f62_k01 f62_k02 f62_k11 f62_k12 f62_k21 f62_k22.
Proof.
  constructor; cbn [f62_x3 x3_mul x3_square x3_mul_base x3_frob]; [| | |reflexivity];
    unfold f62_ext3_mul, f62_ext3_mul_base; unf3; r3.
Qed.

(* ================================================================== QuadExtension<B> model *)
Section QuadModel.
Variable I : Ext2Impl F.
Variable c : F.
Hypothesis IC : Ext2Correct I c.

Local Notation qmul := (q_mul I).
Local Notation qadd := (q_add O).
Local Notation q0 := (q_zero O).
Local Notation q1 := (q_one O).

Lemma q_mul_eq : forall a b, qmul a b = qs_mul O c a b.
Proof. exact (x2c_mul _ _ IC). Qed.
Lemma q_conj_eq : forall a, q_conjugate I a = qs_frob O a.
Proof. exact (x2c_frob _ _ IC). Qed.

Theorem q_ring : @ring_theory (F * F)%type q0 q1 qadd qmul (q_sub O) (q_neg O) (@eq (F * F)).
Proof.
  pose proof (qs_ring O L c) as R. destruct R.
  constructor; intros; rewrite ?q_mul_eq; auto.
Qed.

Theorem q_square_spec : forall a, q_square I a = qmul a a.
Proof. intros. unfold q_square, q_mul. rewrite (x2c_square _ _ IC), (x2c_mul _ _ IC). reflexivity. Qed.
Theorem q_mul_base_spec : forall a b, q_mul_base I a b = qmul a (q_from_base O b).
Proof. intros. unfold q_mul_base, q_mul. rewrite (x2c_mul_base _ _ IC), (x2c_mul _ _ IC). reflexivity. Qed.
Theorem q_mul_base_coeff : forall a b, q_mul_base I a b = (fst a *f b, snd a *f b).
Proof. intros. unfold q_mul_base. rewrite (x2c_mul_base _ _ IC). apply (qs_mul_base O L). Qed.
Theorem q_double_spec : forall a, q_double O a = qadd a a.
Proof. apply (q_double_add O L). Qed.

Theorem q_embed_hom :
  q_from_base O zero = q0 /\ q_from_base O one = q1 /\
  (forall x y, q_from_base O (x +f y) = qadd (q_from_base O x) (q_from_base O y)) /\
  (forall x y, q_from_base O (x -f y) = q_sub O (q_from_base O x) (q_from_base O y)) /\
  (forall x, q_from_base O (-f x) = q_neg O (q_from_base O x)) /\
  (forall x y, q_from_base O (x *f y) = qmul (q_from_base O x) (q_from_base O y)) /\
  (forall x y, q_from_base O x = q_from_base O y -> x = y).
Proof.
  repeat split; intros; rewrite ?q_mul_eq, <- ?(qs_embed_mul O L);
    unfold q_from_base, q_add, q_sub, q_neg in *; cbn [fst snd]; try r2.
  injection H; auto.
Qed.

(* conjugation is a ring automorphism of order 2 that fixes exactly the base field *)
Theorem q_conj_automorphism :
  (forall a b, q_conjugate I (qadd a b) = qadd (q_conjugate I a) (q_conjugate I b)) /\
  (forall a b, q_conjugate I (qmul a b) = qmul (q_conjugate I a) (q_conjugate I b)) /\
  q_conjugate I q1 = q1 /\
  (forall a, q_conjugate I (q_conjugate I a) = a) /\
  (forall a, q_conjugate I a = a <-> snd a = zero).
Proof.
  split; [|split; [|split; [|split]]]; intros; rewrite ?q_conj_eq, ?q_mul_eq, ?q_conj_eq.
  - apply (qs_frob_add O L).
  - apply (qs_frob_mul O L).
  - apply (qs_frob_one O L).
  - apply (qs_frob_invol O L).
  - apply (qs_frob_fixes_exactly_base O L).
Qed.

(* norm: the debug_assert of inv never fires *)
Lemma q_norm_eq : forall a, q_norm I a = (qs_norm0 O c a, zero).
Proof. intros. unfold q_norm. rewrite q_conj_eq, q_mul_eq. apply (qs_norm_in_base O L). Qed.
Theorem q_norm_in_base : forall a, snd (q_norm I a) = zero.
Proof. intros. rewrite q_norm_eq. reflexivity. Qed.

Theorem q_eqb_spec : forall a b, q_eqb O a b = true <-> a = b.
Proof.
  intros [a0 a1] [b0 b1]. unfold q_eqb; cbn [fst snd]. rewrite andb_true_iff, !(fl_eqb_spec O L).
  split; [intros [-> ->]; reflexivity | intros H; injection H; auto].
Qed.

Theorem q_inv_zero : forall dbg, q_inv O I dbg q0 = Some q0.
Proof.
  intros. unfold q_inv. replace (q_eqb O q0 q0) with true; [reflexivity|].
  symmetry. apply q_eqb_spec. reflexivity.
Qed.

(* inv never panics, debug and release builds agree *)
Theorem q_inv_no_panic : forall dbg a, q_inv O I dbg a = q_inv O I false a /\ q_inv O I dbg a <> None.
Proof.
  intros dbg a. unfold q_inv. destruct (q_eqb O a q0); [split; [reflexivity|discriminate]|].
  fold (q_norm I a). rewrite q_norm_in_base, (feqb_refl O L). cbn [negb]. rewrite andb_false_r.
  split; [reflexivity|discriminate].
Qed.

(* full inverse, under "the discriminant 1 + 4c is not a square" (irreducibility of x^2 - x - c) *)
Theorem q_inv_spec : (forall s, s *f s <> qs_disc O c) ->
  forall dbg a, a <> q0 -> exists ia, q_inv O I dbg a = Some ia /\ qmul a ia = q1.
Proof.
  intros NS dbg a Ha. destruct (q_inv_no_panic dbg a) as [E _]. rewrite E. clear E.
  unfold q_inv. replace (q_eqb O a q0) with false.
  2:{ symmetry. destruct (q_eqb O a q0) eqn:E; [|reflexivity]. apply q_eqb_spec in E. contradiction. }
  cbn [andb]. eexists; split; [reflexivity|].
  fold (q_norm I a). rewrite q_norm_eq, q_conj_eq, q_mul_eq.
  apply (qs_inv_spec O L c a). apply (qs_norm_nonzero O L c NS a Ha).
Qed.

Theorem q_no_zero_div : (forall s, s *f s <> qs_disc O c) ->
  forall a b, qmul a b = q0 -> a = q0 \/ b = q0.
Proof. intros NS a b. rewrite q_mul_eq. apply (qs_no_zero_div O L c NS). Qed.

Theorem q_div_spec : (forall s, s *f s <> qs_disc O c) ->
  forall dbg a b, b <> q0 -> exists d, q_div O I dbg a b = Some d /\ qmul d b = a.
Proof. intros NS dbg a b Hb. exact (r_div_spec q_ring (q_inv O I dbg) a b (q_inv_spec NS dbg b Hb)). Qed.

(* exp_vartime = repeated multiplication.  q_pow, q_exp_loop and q_exp are, by unfolding, ExtTheory's r_pow,
   r_exp_loop and r_exp over this ring (likewise c_pow, c_exp_loop, c_exp below), so its lemmas apply as they stand. *)
Fixpoint q_pow (a : F * F) (n : nat) : F * F := match n with 0%nat => q1 | S n' => qmul a (q_pow a n') end.

Lemma q_pow_add : forall a n m, q_pow a (n + m) = qmul (q_pow a n) (q_pow a m).
Proof. exact (r_pow_add q_ring). Qed.
Theorem q_exp_spec : forall a e, q_exp O I a e = q_pow a (Z.to_nat e).
Proof. exact (r_exp_spec q_ring _ q_square_spec _ q_eqb_spec). Qed.

(* the extension packaged as a field in the sense of Base/FieldOps.v: every theorem stated "for every FOps with
   FLaws" (polynomials, FFT, ...) applies to the extension fields as well *)
Definition q_inv_total (a : F * F) : F * F := match q_inv O I false a with Some x => x | None => q0 end.
Definition q_ops : FOps (F * F) := {|
  fzero := q0; fone := q1; fadd := qadd; fsub := q_sub O; fmul := qmul; fneg := q_neg O;
  fdouble := q_double O; fsquare := q_square I; finv := q_inv_total;
  fdiv := fun a b => qmul a (q_inv_total b); feqb := q_eqb O; fofz := fun z => q_from_base O (fofz O z) |}.

Theorem q_laws : (forall s, s *f s <> qs_disc O c) -> FLaws q_ops.
Proof.
  intros NS. apply flaws_of_ring; cbn [q_ops fzero fone fadd fsub fmul fneg fdouble fsquare finv fdiv feqb].
  - exact q_ring.
  - apply q_double_spec.
  - apply q_square_spec.
  - unfold q_one, q_zero. intros E. injection E as E. apply (fl_one_neq_zero O L). exact E.
  - intros a H. unfold q_inv_total. destruct (q_inv_spec NS false a H) as (ia & E & M). rewrite E.
    rewrite (Rmul_comm q_ring). exact M.
  - unfold q_inv_total. rewrite q_inv_zero. reflexivity.
  - reflexivity.
  - apply q_eqb_spec.
Qed.

End QuadModel.

(* ================================================================== CubeExtension<B> model *)
Section CubeModel.
Variable I : Ext3Impl F.
Variables u v k01 k02 k11 k12 k21 k22 : F.
Hypothesis IC : Ext3Correct I u v k01 k02 k11 k12 k21 k22.

Local Notation cmul := (c_mul I).
Local Notation cadd := (c_add O).
Local Notation z3 := (c_zero O).
Local Notation o3 := (c_one O).
Local Notation frob := (cs_frob O k01 k02 k11 k12 k21 k22).
Local Notation Consts := (Frob3Consts O u v k01 k02 k11 k12 k21 k22).
Local Notation det := (cs_fix_det O k11 k12 k21 k22).

Lemma c_mul_eq : forall a b, cmul a b = cs_mul O u v a b.
Proof. exact (x3c_mul _ _ _ _ _ _ _ _ _ IC). Qed.
Lemma c_conj_eq : forall a, c_conjugate I a = frob a.
Proof. exact (x3c_frob _ _ _ _ _ _ _ _ _ IC). Qed.

Theorem c_ring : @ring_theory (F * F * F)%type z3 o3 cadd cmul (c_sub O) (c_neg O) (@eq (F * F * F)).
Proof.
  pose proof (cs_ring O L u v) as R. destruct R.
  constructor; intros; rewrite ?c_mul_eq; auto.
Qed.

Theorem c_square_spec : forall a, c_square I a = cmul a a.
Proof. intros. unfold c_square, c_mul. rewrite (x3c_square _ _ _ _ _ _ _ _ _ IC), (x3c_mul _ _ _ _ _ _ _ _ _ IC). reflexivity. Qed.
Theorem c_mul_base_spec : forall a b, c_mul_base I a b = cmul a (c_from_base O b).
Proof. intros. unfold c_mul_base, c_mul. rewrite (x3c_mul_base _ _ _ _ _ _ _ _ _ IC), (x3c_mul _ _ _ _ _ _ _ _ _ IC). reflexivity. Qed.
Theorem c_mul_base_coeff : forall a b, c_mul_base I a b = (c0 a *f b, c1 a *f b, c2 a *f b).
Proof. intros. unfold c_mul_base. rewrite (x3c_mul_base _ _ _ _ _ _ _ _ _ IC). apply (cs_mul_base O L). Qed.
Theorem c_double_spec : forall a, c_double O a = cadd a a.
Proof. apply (c_double_add O L). Qed.

Theorem c_embed_hom :
  c_from_base O zero = z3 /\ c_from_base O one = o3 /\
  (forall x y, c_from_base O (x +f y) = cadd (c_from_base O x) (c_from_base O y)) /\
  (forall x y, c_from_base O (x -f y) = c_sub O (c_from_base O x) (c_from_base O y)) /\
  (forall x, c_from_base O (-f x) = c_neg O (c_from_base O x)) /\
  (forall x y, c_from_base O (x *f y) = cmul (c_from_base O x) (c_from_base O y)) /\
  (forall x y, c_from_base O x = c_from_base O y -> x = y).
Proof.
  repeat split; intros; rewrite ?c_mul_eq, <- ?(cs_embed_mul O L);
    unfold c_from_base, c_add, c_sub, c_neg, c0, c1, c2 in *; cbn [fst snd]; try reflexivity; try r3.
  injection H; auto.
Qed.

(* conjugation: additive and fixing the base field unconditionally; multiplicative, of order 3 and fixing
   exactly the base field under the constant equations *)
Theorem c_conj_linear :
  (forall a b, c_conjugate I (cadd a b) = cadd (c_conjugate I a) (c_conjugate I b)) /\
  (forall x, c_conjugate I (c_from_base O x) = c_from_base O x) /\
  c_conjugate I o3 = o3.
Proof.
  repeat split; intros; rewrite ?c_conj_eq.
  - apply (cs_frob_add O L).
  - apply (cs_frob_base O L).
  - apply (cs_frob_one O L).
Qed.

Theorem c_conj_automorphism : Consts -> det <> zero ->
  (forall a b, c_conjugate I (cmul a b) = cmul (c_conjugate I a) (c_conjugate I b)) /\
  (forall a, c_conjugate I (c_conjugate I (c_conjugate I a)) = a) /\
  (forall a, c_conjugate I a = a <-> (c1 a = zero /\ c2 a = zero)).
Proof.
  intros K D. split; [|split]; intros; rewrite ?c_conj_eq, ?c_mul_eq, ?c_conj_eq.
  - apply (cs_frob_mul O L u v _ _ _ _ _ _ K).
  - apply (cs_frob_order3 O L u v _ _ _ _ _ _ K).
  - apply (cs_frob_fixes_exactly_base O L _ _ _ _ _ _ D a).
Qed.

Lemma c_norm_eq : forall a, c_norm I a = cs_norm O u v k01 k02 k11 k12 k21 k22 a.
Proof.
  intros. unfold c_norm, c_numerator, cs_norm, cs_numerator.
  rewrite !(x3c_frob _ _ _ _ _ _ _ _ _ IC), !(x3c_mul _ _ _ _ _ _ _ _ _ IC). reflexivity.
Qed.
Lemma c_numerator_eq : forall a, c_numerator I a = cs_numerator O u v k01 k02 k11 k12 k21 k22 a.
Proof.
  intros. unfold c_numerator, cs_numerator.
  rewrite !(x3c_frob _ _ _ _ _ _ _ _ _ IC), !(x3c_mul _ _ _ _ _ _ _ _ _ IC). reflexivity.
Qed.

(* norm: the two debug_asserts of inv never fire *)
Theorem c_norm_in_base : Consts -> det <> zero -> forall a, c1 (c_norm I a) = zero /\ c2 (c_norm I a) = zero.
Proof.
  intros K D a. rewrite c_norm_eq, (cs_norm_in_base O L u v _ _ _ _ _ _ K D a). split; reflexivity.
Qed.

Theorem c_eqb_spec : forall a b, c_eqb O a b = true <-> a = b.
Proof.
  intros [[a0 a1] a2] [[b0 b1] b2]. unfold c_eqb, c0, c1, c2; cbn [fst snd].
  rewrite !andb_true_iff, !(fl_eqb_spec O L).
  split; [intros [[-> ->] ->]; reflexivity | intros H; injection H; auto].
Qed.

Theorem c_inv_zero : forall dbg, c_inv O I dbg z3 = Some z3.
Proof.
  intros. unfold c_inv. replace (c_eqb O z3 z3) with true; [reflexivity|].
  symmetry. apply c_eqb_spec. reflexivity.
Qed.

Theorem c_inv_no_panic : Consts -> det <> zero ->
  forall dbg a, c_inv O I dbg a = c_inv O I false a /\ c_inv O I dbg a <> None.
Proof.
  intros K D dbg a. unfold c_inv. destruct (c_eqb O a z3); [split; [reflexivity|discriminate]|].
  fold (c_numerator I a). fold (c_norm I a).
  destruct (c_norm_in_base K D a) as [E1 E2]. rewrite E1, E2, (feqb_refl O L). cbn [negb].
  rewrite andb_false_r. split; [reflexivity|discriminate].
Qed.

(* a . inv a = 1 whenever the norm is non-zero *)
Theorem c_inv_spec_partial : Consts -> det <> zero ->
  forall dbg a, a <> z3 -> c0 (c_norm I a) <> zero ->
  exists ia, c_inv O I dbg a = Some ia /\ cmul a ia = o3.
Proof.
  intros K D dbg a Ha N. destruct (c_inv_no_panic K D dbg a) as [E _]. rewrite E. clear E.
  unfold c_inv. replace (c_eqb O a z3) with false.
  2:{ symmetry. destruct (c_eqb O a z3) eqn:E; [|reflexivity]. apply c_eqb_spec in E. contradiction. }
  cbn [andb]. eexists; split; [reflexivity|].
  fold (c_numerator I a). fold (c_norm I a). rewrite c_mul_eq, c_norm_eq, c_numerator_eq.
  rewrite c_norm_eq in N.
  apply (cs_inv_spec_partial O L u v _ _ _ _ _ _ K D a N).
Qed.

(* full inverse: the cubic has no root in the base field *)
Theorem c_norm_nonzero : Consts -> det <> zero -> cs_no_root O u v ->
  forall a, a <> z3 -> c0 (c_norm I a) <> zero.
Proof.
  intros K D NR a Ha. rewrite c_norm_eq.
  destruct (cs_all_units O L u v NR a Ha) as [b Hb].
  apply (cs_unit_norm O L u v _ _ _ _ _ _ K D a b Hb).
Qed.

Theorem c_inv_spec : Consts -> det <> zero -> cs_no_root O u v ->
  forall dbg a, a <> z3 -> exists ia, c_inv O I dbg a = Some ia /\ cmul a ia = o3.
Proof.
  intros K D NR dbg a Ha. apply (c_inv_spec_partial K D dbg a Ha). apply (c_norm_nonzero K D NR a Ha).
Qed.

Theorem c_no_zero_div : cs_no_root O u v -> forall a b, cmul a b = z3 -> a = z3 \/ b = z3.
Proof. intros NR a b. rewrite c_mul_eq. apply (cs_no_zero_div O L u v NR). Qed.

Theorem c_div_spec : Consts -> det <> zero -> cs_no_root O u v ->
  forall dbg a b, b <> z3 -> exists d, c_div O I dbg a b = Some d /\ cmul d b = a.
Proof. intros K D NR dbg a b Hb. exact (r_div_spec c_ring (c_inv O I dbg) a b (c_inv_spec K D NR dbg b Hb)). Qed.

Fixpoint c_pow (a : F * F * F) (n : nat) : F * F * F := match n with 0%nat => o3 | S n' => cmul a (c_pow a n') end.

Theorem c_exp_spec : forall a e, c_exp O I a e = c_pow a (Z.to_nat e).
Proof. exact (r_exp_spec c_ring _ c_square_spec _ c_eqb_spec). Qed.

(* On the basis 1, phi, phi^2 a single power decides whether conjugation is x |-> x^e: phi2 = phi^2 gives
   phi2^e = (phi^e)^2 = psi^2, which is chi by the constant equations. *)
Lemma c_exp_basis : Consts -> forall e, c_exp O I (phi O) e = psi k01 k11 k21 ->
  c_exp O I (phi O) e = c_conjugate I (phi O) /\ c_exp O I (phi2 O) e = c_conjugate I (phi2 O).
Proof.
  intros K e E. destruct (cs_frob_phi O L k01 k02 k11 k12 k21 k22) as [F1 F2].
  rewrite !c_conj_eq, F1, F2. split; [exact E|].
  rewrite <- (cs_phi_sq O L u v), <- c_mul_eq, c_exp_spec.
  rewrite (r_pow_sq c_ring), (r_pow_add c_ring), <- c_exp_spec, E, c_mul_eq.
  exact (fc_sq _ _ _ _ _ _ _ _ _ K).
Qed.

Definition c_inv_total (a : F * F * F) : F * F * F := match c_inv O I false a with Some x => x | None => z3 end.
Definition c_ops : FOps (F * F * F) := {|
  fzero := z3; fone := o3; fadd := cadd; fsub := c_sub O; fmul := cmul; fneg := c_neg O;
  fdouble := c_double O; fsquare := c_square I; finv := c_inv_total;
  fdiv := fun a b => cmul a (c_inv_total b); feqb := c_eqb O; fofz := fun z => c_from_base O (fofz O z) |}.

Theorem c_laws : Consts -> det <> zero -> cs_no_root O u v -> FLaws c_ops.
Proof.
  intros K D NR. apply flaws_of_ring; cbn [c_ops fzero fone fadd fsub fmul fneg fdouble fsquare finv fdiv feqb].
  - exact c_ring.
  - apply c_double_spec.
  - apply c_square_spec.
  - unfold c_one, c_zero. intros E. injection E as E. apply (fl_one_neq_zero O L). exact E.
  - intros a H. unfold c_inv_total. destruct (c_inv_spec K D NR false a H) as (ia & E & M). rewrite E.
    rewrite (Rmul_comm c_ring). exact M.
  - unfold c_inv_total. rewrite c_inv_zero. reflexivity.
  - reflexivity.
  - apply c_eqb_spec.
Qed.

End CubeModel.
End Ties.
