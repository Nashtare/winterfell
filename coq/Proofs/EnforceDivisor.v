(* The zero sets of the transition divisor and of the assertion divisors of Model/Enforce.v, for every n = 2^k < 2^64,
   every field (FOps with FLaws) and every g of exact order n (the hypotheses of the section). *)
From Coq Require Import ZArith List Bool Lia Ring Field Arith.
From VBase Require Import MachInt FieldOps.
From VModel Require Import Enforce.
From VProofs Require Import FieldFacts EnforceSteps EnforceField.
Import ListNotations.
Open Scope Z_scope.

Declare Scope F_scope.

Section Divisors.
  Context {F : Type} (Fo : FOps F) (L : FLaws Fo).
  Variables (g : F) (n : Z).
  Hypothesis Hpow2 : exists k, 0 <= k /\ n = 2 ^ k.
  Hypothesis Hn64 : n < 2 ^ 64.          (* trace lengths are usize values: evaluate_at takes the degree `as u64` *)
  Hypothesis Hgn : fpow Fo g n = fone Fo.
  Hypothesis Hord : forall i, 0 < i < n -> fpow Fo g i <> fone Fo.

  Notation "0" := (fzero Fo) : F_scope.
  Notation "1" := (fone Fo) : F_scope.
  Infix "+" := (fadd Fo) : F_scope.
  Infix "*" := (fmul Fo) : F_scope.
  Infix "-" := (fsub Fo) : F_scope.
  Delimit Scope F_scope with F.

  Add Field Ffield2 : (FLaws_field_theory Fo L).

  Notation pw := (fpow Fo).
  Notation pn := (pown Fo).

  Lemma n_pos : 0 < n.
  Proof. destruct Hpow2 as (k & Hk & ->). apply Z.pow_pos_nonneg; lia. Qed.

  Let N := Z.to_nat n.

  Lemma N_pos : (0 < N)%nat. Proof. pose proof n_pos. unfold N. lia. Qed.

  Lemma HgN : pn g N = fone Fo.
  Proof. unfold N. rewrite <- (fpow_spec Fo L). exact Hgn. Qed.

  Lemma HordN : forall i, (0 < i < N)%nat -> pn g i <> fone Fo.
  Proof.
    intros i Hi. rewrite <- (fpow_of_nat Fo L). apply Hord. unfold N in Hi. lia.
  Qed.

  Lemma Npow2 : exists k, N = (2 ^ k)%nat.
  Proof.
    destruct Hpow2 as (k & Hk & E). exists (Z.to_nat k). unfold N. rewrite E.
    rewrite Z2Nat.inj_pow by lia. reflexivity.
  Qed.

  (* the facts of EnforceField.v, Z-indexed *)
  Lemma gpow_eq_iff a b : 0 <= a -> 0 <= b -> (pw g a = pw g b <-> a mod n = b mod n).
  Proof.
    intros Ha Hb. pose proof n_pos. rewrite !(fpow_spec Fo L).
    rewrite (pown_g_eq_iff Fo L g N N_pos HgN HordN). unfold N.
    rewrite <- !Z2Nat.inj_mod by lia. split.
    - intros E. apply Z2Nat.inj in E; [exact E| |]; apply Z.mod_pos_bound; lia.
    - intros ->. reflexivity.
  Qed.

  Lemma gpow_inj a b : 0 <= a < n -> 0 <= b < n -> pw g a = pw g b -> a = b.
  Proof.
    intros Ha Hb E. apply gpow_eq_iff in E; try lia. rewrite !Z.mod_small in E by lia. exact E.
  Qed.

  Lemma pw_0 x : pw x 0 = fone Fo. Proof. reflexivity. Qed.

  Lemma gpow_n_mul a : 0 <= a -> pw g (n * a) = fone Fo.
  Proof.
    intros Ha. pose proof n_pos. rewrite <- (pw_pw Fo L) by lia. rewrite Hgn. apply (pw_one_l Fo L).
  Qed.

  Lemma map_pw_zrange lo hi : 0 <= lo -> lo <= hi ->
    map (pw g) (zrange lo hi) = map (pn g) (seq (Z.to_nat lo) (Z.to_nat (hi - lo))).
  Proof.
    intros Hlo Hle. unfold zrange. rewrite map_map.
    rewrite (map_seq_shift _ (Z.to_nat lo)). apply map_ext. intros i.
    rewrite (fpow_spec Fo L). f_equal. lia.
  Qed.

  Lemma root_in_domain x : pw x n = fone Fo <-> exists i, 0 <= i < n /\ x = pw g i.
  Proof.
    rewrite (fpow_spec Fo L). fold N.
    rewrite (root_of_unity_in_domain Fo L g N N_pos HgN HordN Npow2). split.
    - intros (i & Hi & ->). exists (Z.of_nat i). unfold N in Hi. split; [lia|].
      rewrite (fpow_of_nat Fo L). reflexivity.
    - intros (i & Hi & ->). exists (Z.to_nat i). unfold N. split; [lia|]. apply (fpow_spec Fo L).
  Qed.

  Lemma xn_minus_1_splits x :
    (pw x n - 1)%F = vanish Fo x (map (pw g) (zrange 0 n)).
  Proof.
    pose proof n_pos. rewrite map_pw_zrange by lia. rewrite Z.sub_0_r. cbn [Z.to_nat]. fold N.
    rewrite (fpow_spec Fo L). fold N.
    apply (xn_minus_1_factor Fo L g N N_pos HgN HordN Npow2).
  Qed.

  Lemma in_gpow_zrange lo hi x : In x (map (pw g) (zrange lo hi)) <-> exists i, lo <= i < hi /\ x = pw g i.
  Proof.
    rewrite in_map_iff. split; intros (i & H1 & H2); exists i.
    - apply In_zrange in H2. auto.
    - split; [symmetry; exact H2|apply In_zrange; exact H1].
  Qed.

  Lemma eval_exemptions_vanish d x : eval_exemptions Fo d x = vanish Fo x (d_ex d).
  Proof. reflexivity. Qed.

  Lemma eval_numerator_single m c x ex : 0 <= m <= n ->
    eval_numerator Fo (mkD [(m, c)] ex) x = (pw x m - c)%F.
  Proof.
    intros Hm. unfold eval_numerator. cbn [d_num fold_left fst snd].
    rewrite Z.mod_small by lia. ring.
  Qed.

  (* ---------------------------------------------------------------- the transition divisor *)
  (* the polynomial that vanishes exactly on the enforced steps 0 .. n-k-1 *)
  Definition Zt (k : Z) (x : F) : F := vanish Fo x (map (pw g) (zrange 0 (n - k))).

  Lemma from_transition_spec k : 0 <= k <= n ->
    from_transition Fo g n k = Some (mkD [(n, fone Fo)] (map (pw g) (zrange (n - k) n))).
  Proof.
    intros Hk. unfold from_transition, checked_sub.
    replace (n <? k) with false by (symmetry; apply Z.ltb_ge; lia). reflexivity.
  Qed.

  Lemma from_transition_refuses k : n < k -> from_transition Fo g n k = None.
  Proof.
    intros Hk. unfold from_transition, checked_sub.
    replace (n <? k) with true by (symmetry; apply Z.ltb_lt; lia). reflexivity.
  Qed.

  (* the debug_assert of get_trace_domain_value_at cannot fire inside from_transition *)
  Lemma from_transition_steps_in_domain k s : 0 <= k <= n -> In s (zrange (n - k) n) -> 0 <= s < n.
  Proof. intros Hk Hin. apply In_zrange in Hin. lia. Qed.

  Lemma transition_degree k d : 0 <= k <= n -> from_transition Fo g n k = Some d -> d_degree d = Some (n - k).
  Proof.
    intros Hk E. rewrite from_transition_spec in E by lia. injection E as <-.
    unfold d_degree, checked_sub. cbn [d_num d_ex fold_left fst]. rewrite map_length, zrange_length.
    replace (0 + n <? Z.of_nat (Z.to_nat (n - (n - k)))) with false by (symmetry; apply Z.ltb_ge; lia).
    f_equal. lia.
  Qed.

  Theorem transition_divisor_zero_set k d i : 0 <= k <= n -> from_transition Fo g n k = Some d -> 0 <= i < n ->
    eval_numerator Fo d (pw g i) = fzero Fo /\
    (eval_exemptions Fo d (pw g i) = fzero Fo <-> n - k <= i).
  Proof.
    intros Hk E Hi. pose proof n_pos. rewrite from_transition_spec in E by lia. injection E as <-. split.
    - rewrite eval_numerator_single by lia. rewrite (pw_pw Fo L) by lia. rewrite Z.mul_comm, gpow_n_mul by lia. ring.
    - rewrite eval_exemptions_vanish. cbn [d_ex]. rewrite (vanish_eq_0 Fo L), in_gpow_zrange. split.
      + intros (s & Hs & He). apply gpow_inj in He; lia.
      + intros Hle. exists i. split; [lia|reflexivity].
  Qed.

  (* numerator = Zt * denominator, for every x: the quotient is the polynomial Zt *)
  Theorem transition_divisor_quotient k d x : 0 <= k <= n -> from_transition Fo g n k = Some d ->
    eval_numerator Fo d x = (Zt k x * eval_exemptions Fo d x)%F.
  Proof.
    intros Hk E. pose proof n_pos. rewrite from_transition_spec in E by lia. injection E as <-.
    rewrite eval_numerator_single by lia. rewrite eval_exemptions_vanish. cbn [d_ex]. unfold Zt.
    rewrite xn_minus_1_splits. rewrite (zrange_split 0 (n - k) n) by lia.
    rewrite map_app. apply (vanish_app Fo L).
  Qed.

  Theorem transition_evaluate_at_agrees k d x : 0 <= k <= n -> from_transition Fo g n k = Some d ->
    eval_exemptions Fo d x <> fzero Fo -> evaluate_at Fo d x = Zt k x.
  Proof.
    intros Hk E Hx. unfold evaluate_at. rewrite (transition_divisor_quotient k d x Hk E).
    apply (fdiv_mul_cancel Fo L). exact Hx.
  Qed.

  (* Zt vanishes exactly on the enforced steps, over the whole field *)
  Theorem Zt_zero_set k x : 0 <= k <= n -> (Zt k x = fzero Fo <-> exists i, 0 <= i < n - k /\ x = pw g i).
  Proof.
    intros Hk. unfold Zt. rewrite (vanish_eq_0 Fo L). apply in_gpow_zrange.
  Qed.

  Corollary Zt_on_domain k i : 0 <= k <= n -> 0 <= i < n -> (Zt k (pw g i) = fzero Fo <-> i < n - k).
  Proof.
    intros Hk Hi. rewrite Zt_zero_set by lia. split.
    - intros (j & Hj & E). apply gpow_inj in E; lia.
    - intros Hlt. exists i. split; [lia|reflexivity].
  Qed.

  (* what the code's evaluate_at returns on the trace domain: 0 everywhere -- on the enforced steps because the
     quotient vanishes, on the k exempt steps because 0/0 is totalised to 0 (there the quotient Zt is NOT zero) *)
  Theorem transition_evaluate_at_on_domain k d i : 0 <= k <= n -> from_transition Fo g n k = Some d -> 0 <= i < n ->
    evaluate_at Fo d (pw g i) = fzero Fo /\
    (n - k <= i -> eval_exemptions Fo d (pw g i) = fzero Fo /\ Zt k (pw g i) <> fzero Fo).
  Proof.
    intros Hk E Hi. destruct (transition_divisor_zero_set k d i Hk E Hi) as [Hnum Hden]. split.
    - unfold evaluate_at. rewrite Hnum. apply (fdiv_0_l Fo L).
    - intros Hle. split; [apply Hden; exact Hle|]. rewrite Zt_on_domain by lia. lia.
  Qed.

  (* ---------------------------------------------------------------- the assertion divisors *)
  (* the divisor of a valid assertion is x^m - g^(m * first), m the number of named steps, n = m * period *)
  Lemma from_assertion_spec a : valid a n ->
    exists m, 0 < m /\ n = m * period a n /\ 0 <= a_first a < period a n /\ get_num_steps a n = Some m /\
      from_assertion Fo g a n = Some (mkD [(m, pw g (m * a_first a))] []).
  Proof.
    intros Hv. destruct (valid_period a n Hv) as (_ & Hf & m & Hm & En & Eg).
    exists m. split; [exact Hm|]. split; [exact En|]. split; [exact Hf|]. split; [exact Eg|].
    unfold from_assertion. rewrite Eg. destruct (Z.eqb_spec (a_first a) 0) as [E0|E0].
    - rewrite E0, Z.mul_0_r. reflexivity.
    - unfold trace_domain_value_at. replace (m * a_first a <? n) with true by (symmetry; apply Z.ltb_lt; nia).
      reflexivity.
  Qed.

  Lemma assertion_evaluate_at m c x : 0 <= m <= n ->
    evaluate_at Fo (mkD [(m, c)] []) x = (pw x m - c)%F.
  Proof.
    intros Hm. unfold evaluate_at. rewrite eval_numerator_single by lia.
    rewrite eval_exemptions_vanish. cbn [d_ex]. rewrite (vanish_nil Fo). apply (fdiv_1_r Fo L).
  Qed.

  (* D_a(g^i) = 0 <-> i is a step the assertion names:
     g^(i m) = g^(first m) <-> i m = first m (mod p m) <-> i = first (mod p) *)
  Theorem assertion_divisor_zero_set a d i : valid a n -> from_assertion Fo g a n = Some d -> 0 <= i < n ->
    (evaluate_at Fo d (pw g i) = fzero Fo <-> In i (steps a n)).
  Proof.
    intros Hv E Hi. destruct (from_assertion_spec a Hv) as (m & Hm & En & Hf & _ & E'). rewrite E' in E. injection E as <-.
    rewrite assertion_evaluate_at by nia. rewrite (fsub_eq_0 Fo L), (pw_pw Fo L) by lia.
    rewrite gpow_eq_iff by nia. rewrite (steps_period a n i Hv). set (p := period a n) in *.
    assert (R : forall y, (y * m) mod n = (y mod p) * m)
      by (intros y; rewrite En, (Z.mul_comm m p); apply Z.mul_mod_distr_r; lia).
    rewrite (Z.mul_comm m (a_first a)), !R, (Z.mod_small (a_first a) p) by lia.
    split; [intros H1; split; [lia|nia]|intros [_ ->]; reflexivity].
  Qed.

  (* over the whole field: the divisor vanishes at x iff x is a named point of the trace domain; a zero x has
     x^n = (x^m)^p = g^(m first p) = 1, so it is a point of the trace domain *)
  Theorem assertion_divisor_zero_set_all a d x : valid a n -> from_assertion Fo g a n = Some d ->
    (evaluate_at Fo d x = fzero Fo <-> exists s, In s (steps a n) /\ x = pw g s).
  Proof.
    intros Hv E. split.
    - intros H0. assert (Hdom : pw x n = fone Fo).
      { destruct (from_assertion_spec a Hv) as (m & Hm & En & Hf & _ & E'). rewrite E' in E. injection E as <-.
        rewrite assertion_evaluate_at in H0 by nia. apply (fsub_eq_zero Fo L) in H0.
        rewrite En, <- (pw_pw Fo L), H0, (pw_pw Fo L) by nia.
        replace (m * a_first a * period a n) with (n * a_first a) by nia. apply gpow_n_mul. lia. }
      apply root_in_domain in Hdom. destruct Hdom as (i & Hi & ->). exists i. split; [|reflexivity].
      apply (assertion_divisor_zero_set a d i Hv E Hi). exact H0.
    - intros (s & Hin & ->). apply (assertion_divisor_zero_set a d s Hv E); [|exact Hin].
      apply (steps_in_domain a n s Hv Hin).
  Qed.

  Lemma assertion_degree a d : valid a n -> from_assertion Fo g a n = Some d ->
    d_degree d = get_num_steps a n /\ d_degree d = Some (Z.of_nat (length (steps a n))).
  Proof.
    intros Hv E. destruct (from_assertion_spec a Hv) as (m & Hm & _ & _ & Eg & E'). rewrite E' in E. injection E as <-.
    assert (Ed : d_degree (mkD [(m, pw g (m * a_first a))] []) = Some m).
    { unfold d_degree, checked_sub. cbn [d_num d_ex fold_left fst length].
      replace (0 + m <? Z.of_nat 0) with false by (symmetry; apply Z.ltb_ge; lia). f_equal. cbn. lia. }
    split; [congruence|]. rewrite Ed, <- Eg. apply steps_length. exact Hv.
  Qed.

  (* assertions that group_constraints files under one key share their divisor.  The proof uses none of the section's
     hypotheses; `Proof using` makes them premises all the same *)
  Theorem group_key_sound a b : valid a n -> valid b n -> group_key a = group_key b ->
    from_assertion Fo g a n = from_assertion Fo g b n.
  Proof using Hpow2 Hn64 Hgn Hord.
    intros Ha Hb K. unfold group_key in K. injection K as Ks Kf.
    destruct (from_assertion_spec a Ha) as (ma & Hma & Ena & Hfa & _ & Ea).
    destruct (from_assertion_spec b Hb) as (mb & Hmb & Enb & _ & _ & Eb).
    assert (Ep : period a n = period b n) by (unfold period, is_single; rewrite Ks; reflexivity).
    rewrite Ea, Eb, Kf. replace mb with ma by nia. reflexivity.
  Qed.
End Divisors.
