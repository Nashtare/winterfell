(* C05 — tie of the counting predicate (Proofs/FriCount.v) to the verifier model, layer by layer: for a state whose
   channel head opens a committed layer function E at the folded positions (authentication passing, no degree
   truncation), the model's layer_step returns Ok IFF the values carried into the layer equal E at every current
   position — i.e. iff [layer_compare_forallb]'s comparison is true — and the values carried out are [foldval] of E
   at the folded positions (duplicates: positions are de-duplicated by fold_positions exactly as in the code). *)
From Coq Require Import List Arith Bool Lia.
From VBase Require Import FieldOps.
From VModel Require Import Fri.
From VProofs Require Import Pow2Facts FriIdx FriAccept FriCount.
Import ListNotations.

Local Arguments vc_proofs {F D MN}.
Local Arguments vc_queries {F D MN}.
Local Arguments mkVS {F D MN}.
Local Arguments vs_gen {F D MN}.
Local Arguments vs_size {F D MN}.
Local Arguments vs_mdp1 {F D MN}.
Local Arguments vs_positions {F D MN}.
Local Arguments vs_evals {F D MN}.
Local Arguments vs_chan {F D MN}.
Local Arguments v_commitments {F D}.
Local Arguments v_alphas {F D}.
Local Arguments v_options {F D}.
Local Arguments v_partitions {F D}.

Section Query.
Context {F : Type} (O : FOps F) (L : FLaws O).
Variable gen_offset : F.
Variable dbg : bool.
Variable D : Type.
Variable hash_elements : list F -> D.
Variable MN : Type.
Variable mt_verify_batch : D -> list nat -> list D -> MN -> nat -> auth_res.
Local Notation zero := (fzero O).

Theorem layer_step_opened_iff : forall N (v : @verifier F D) roots depth (s s' : @vstate F D MN) E rl alpha commitment nodes d proofs' queries',
  N <> 0 -> rl <> 0 -> vs_size s = rl * N -> (forall p, In p (vs_positions s) -> p < rl * N) ->
  fo_folding (v_options v) = N -> v_partitions v = 1 ->
  nth_error (v_commitments v) depth = Some commitment -> nth_error (v_alphas v) depth = Some alpha ->
  let folded := fold_positions_core (vs_positions s) rl in
  let rows := map (row_of zero N rl E) folded in
  vc_proofs (vs_chan s) = (map hash_elements rows, nodes, d) :: proofs' ->
  vc_queries (vs_chan s) = concat rows :: queries' ->
  mt_verify_batch commitment folded (map hash_elements rows) nodes d = AuthOk ->
  vs_mdp1 s mod N = 0 ->
  (layer_step O gen_offset dbg D MN mt_verify_batch N v roots depth s = Ok s' <->
   vs_evals s = map (fun p => nth p E zero) (vs_positions s) /\
   s' = mkVS (fexp O (vs_gen s) N) rl (vs_mdp1 s / N) folded
             (map (foldval O gen_offset roots N (vs_gen s) E rl alpha) folded) (chan_tail D MN (vs_chan s))).
Proof.
  intros N v roots depth s s' E rl alpha commitment nodes d proofs' queries' HN Hrl Hsz Hpos Hff Hpart Hc Ha folded rows
         Hproofs Hqueries Hauth Hmod.
  assert (Hfold : fold_positions (vs_positions s) (vs_size s) N = Ok folded).
  { unfold fold_positions. rewrite (eqb0_false N) by assumption.
    rewrite Hsz, Nat.div_mul by assumption. rewrite (eqb0_false rl) by assumption. reflexivity. }
  assert (Hrows : forall r, In r rows -> length r = N).
  { intros r Hr. unfold rows in Hr. apply in_map_iff in Hr. destruct Hr as [q [<- _]]. apply row_of_length. }
  assert (Hlay : get_query_values N rows (vs_positions s) folded (vs_size s) = Ok (map (fun p => nth p E zero) (vs_positions s))).
  { rewrite Hsz. apply get_query_values_layout; assumption. }
  assert (Hcarry : map2 (fun x r => interp_eval O x r alpha) (map (row_xs O gen_offset roots (vs_gen s)) folded) rows
                   = map (foldval O gen_offset roots N (vs_gen s) E rl alpha) folded).
  { unfold rows. rewrite map2_map_same. reflexivity. }
  rewrite (layer_step_accepts O L gen_offset dbg D MN mt_verify_batch). unfold layer_accepts. rewrite Hff, Hpart. split.
  - intros [folded0 [indexes [c0 [leaves [nodes0 [d1 [q [rows0 [alpha0 H]]]]]]]]].
    destruct H as [H1 [H2 [H3 [H4 [H5 [H6 [H7 [H8 [H9 [H10 [H11 H12]]]]]]]]]]].
    rewrite Hfold in H1. injection H1 as <-. rewrite Hqueries in H6. cbn in H6. injection H6 as <-.
    rewrite (group_slice_concat rows N HN Hrows) in H7. injection H7 as <-.
    rewrite Hlay in H8. injection H8 as H8. rewrite Ha in H10. injection H10 as <-.
    split; [now symmetry|]. rewrite H12, Hcarry, Hsz, Nat.div_mul by assumption. reflexivity.
  - intros [Hev ->]. exists folded, folded, commitment, (map hash_elements rows), nodes, d, (concat rows), rows, alpha.
    rewrite Hproofs, Hqueries. cbn [hd_error].
    repeat split; try assumption; try reflexivity.
    + apply (group_slice_concat rows N HN Hrows).
    + now rewrite Hlay, Hev.
    + unfold rows. rewrite map_length. destruct dbg; lia.
    + rewrite Hcarry, Hsz, Nat.div_mul by assumption. reflexivity.
Qed.

End Query.
