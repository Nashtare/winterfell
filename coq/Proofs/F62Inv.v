(* f62 inversion: the binary extended Euclid of math/src/field/f62/mod.rs (fn inv), generated as
   f62_fn_inv with fuelled while loops.  Partial correctness for every fuel by loop invariants;
   termination within fuel 66 whenever x is a unit modulo M (always, M being prime). *)
From Coq Require Import ZArith Lia Bool Znumtheory.
From VBase Require Import MachInt.
From VGen Require Import F62.
From VProofs Require WhileLoop.
From VProofs Require Import MachIntFacts F62Ops.
Open Scope Z_scope.

(* ---------- the loop rules of WhileLoop.v in the form used below ---------- *)
Lemma while_loop_inv {S : Type} (Inv : S -> Prop) (cond : S -> bool) (body : S -> S) :
  (forall s, Inv s -> cond s = true -> Inv (body s)) ->
  forall fuel s s', Inv s -> while_loop fuel cond body s = Some s' -> Inv s' /\ cond s' = false.
Proof. exact (WhileLoop.while_loop_inv Inv cond body). Qed.

(* termination: an invariant indexed by a budget that strictly decreases and stays >= 0 *)
Lemma while_loop_term {S : Type} (I : Z -> S -> Prop) (cond : S -> bool) (body : S -> S) :
  (forall k s, I k s -> cond s = true -> exists k', 0 <= k' < k /\ I k' (body s)) ->
  forall fuel k s, I k s -> k <= Z.of_nat fuel -> exists s', while_loop fuel cond body s = Some s'.
Proof. exact (WhileLoop.while_loop_term_budget I cond body). Qed.

(* ---------- the structure of the generated term ---------- *)
Definition hcond (p : Z * Z) : bool := let '(d, u) := p in Z.land u 1 =? 0.
Definition hbody (p : Z * Z) : Z * Z :=
  let '(d, u) := p in
  let d := if Z.land d 1 =? 1 then (let d := wrap 128 (d + f62_M) in d) else d in
  let u := shr u 1 in
  let d := shr d 1 in
  (d, u).

Definition ucond (v : Z) (p : Z * Z) : bool := let '(u, d) := p in v <? u.
Definition ustep (fuel : nat) (v a : Z) (p : Z * Z) : option (Z * Z) :=
  let '(u, d) := p in
  let u := wrap 128 (u - v) in
  let d := wrap 128 (d + a) in
  match while_loop fuel hcond hbody (d, u) with
  | None => None
  | Some (d, u) => Some (u, d)
  end.

Definition ocond (p : Z * Z * Z * Z) : bool := let '(u, d, v, a) := p in negb (v =? 1).
Definition ostep (fuel : nat) (p : Z * Z * Z * Z) : option (Z * Z * Z * Z) :=
  let '(u, d, v, a) := p in
  match while_loop_o fuel (ucond v) (ustep fuel v a) (u, d) with
  | None => None
  | Some (u, d) =>
    let v := wrap 128 (v - u) in
    let a := wrap 128 (a + d) in
    match while_loop fuel hcond hbody (a, v) with
    | None => None
    | Some (a, v) => Some (u, d, v, a)
    end
  end.

Definition inv_u0 (x : Z) : Z := if Z.land x 1 =? 1 then x else wrap 128 (x + f62_M).

Definition inv_struct (fuel : nat) (x : Z) : option Z :=
  if (x =? 0) || (x =? f62_M) then Some 0 else
  match while_loop_o fuel ocond (ostep fuel) (inv_u0 x, wrap 128 (f62_M - 1), f62_M, 0) with
  | None => None
  | Some (u, d, v, a) =>
    match while_loop fuel (fun a => a >? f62_M) (fun a => wrap 128 (a - f62_M)) a with
    | None => None
    | Some a => Some (f62_fn_mul (wrap 64 a) f62_R3)
    end
  end.

(* fails (and with it the whole check) if the shape of the Rust function changes *)
Lemma fn_inv_struct fuel x : f62_fn_inv fuel x = inv_struct fuel x.
Proof. reflexivity. Qed.

(* ---------- halving loops ---------- *)
Lemma eqm_divide a b : a ==m b <-> (M62 | a - b).
Proof. rewrite eqM62_iff. apply cong_iff_divide. discriminate. Qed.

(* make d even by adding M if necessary, then halve both *)
Lemma hbody_eq d u : 0 <= d < 2^127 ->
  exists d' e, hbody (d, u) = (d', u / 2) /\ 0 <= e <= 1 /\ 2 * d' = d + e * M62.
Proof.
  intros Hd. cbv beta iota zeta delta [hbody]. rewrite land1. unfold shr.
  change (2 ^ 1) with 2. rewrite M62_eq.
  destruct (Z.eqb_spec (d mod 2) 1) as [E|E].
  - rewrite wrap_small by (unfold M62; lia).
    exists ((d + M62) / 2), 1. split; [reflexivity|]. split; [lia|].
    pose proof (Z.div_mod (d + M62) 2 ltac:(lia)) as E2.
    rewrite Z.add_mod, E in E2 by lia. change ((1 + M62 mod 2) mod 2) with 0 in E2. lia.
  - exists (d / 2), 0. split; [reflexivity|]. split; [lia|].
    pose proof (Z.div_mod d 2 ltac:(lia)). pose proof (Z.mod_pos_bound d 2 ltac:(lia)). lia.
Qed.

Lemma hcond_eq d u : hcond (d, u) = (u mod 2 =? 0).
Proof. cbv beta iota delta [hcond]. now rewrite land1. Qed.

(* one pass of "make even, halve" keeps  d*x == s*u  and the bound B on d.  The first iteration (u0 is even)
   takes d from [0, 2B - M] into [0, B]; the later ones keep it there. *)
Lemma halve_loop_spec x s B fuel d0 u0 d1 u1 :
  M62 <= B < 2^126 -> 0 <= d0 <= 2 * B - M62 -> 0 <= u0 -> u0 mod 2 = 0 -> d0 * x ==m s * u0 ->
  while_loop fuel hcond hbody (d0, u0) = Some (d1, u1) ->
  0 <= d1 <= B /\ 0 < u1 /\ 2 * u1 <= u0 /\ u1 mod 2 = 1 /\ (u1 | u0) /\ d1 * x ==m s * u1.
Proof.
  intros HB Hd0 Hu0 Hev Hc H. pose proof M62_pos as HMp.
  pose (Inv := fun p : Z * Z => 0 <= snd p /\ (snd p | u0) /\ fst p * x ==m s * snd p /\
                                0 <= fst p <= 2 * B - M62 /\ (snd p = u0 \/ 2 * snd p <= u0 /\ fst p <= B)).
  assert (Hstep : forall p, Inv p -> hcond p = true -> Inv (hbody p)).
  { intros [d u] (Hu & Hdv & Hcg & Hd & Hor) Hcond. cbn [fst snd] in *.
    rewrite hcond_eq in Hcond. apply Z.eqb_eq in Hcond.
    destruct (hbody_eq d u ltac:(lia)) as (d' & e & -> & He & Ed). unfold Inv. cbn [fst snd].
    assert (Eu : u = 2 * (u / 2)) by (pose proof (Z.div_mod u 2 ltac:(lia)); lia).
    split; [lia|]. split; [apply Z.divide_trans with u; [exists 2; lia|exact Hdv]|]. split.
    { apply eqm_divide, (cong_halve M62 x d (s * u) d' (s * (u / 2)) e); [reflexivity|exact Ed| |].
      - rewrite Eu at 2. ring.
      - apply eqm_divide. exact Hcg. }
    split; [unfold M62 in *; lia|]. right. unfold M62 in *. lia. }
  assert (Hinit : Inv (d0, u0)).
  { unfold Inv. cbn [fst snd]. split; [exact Hu0|]. split; [apply Z.divide_refl|]. auto. }
  destruct (while_loop_inv Inv hcond hbody Hstep fuel _ _ Hinit H) as [(Hu & Hdv & Hcg & Hd & Hor) Hex].
  cbn [fst snd] in *. rewrite hcond_eq in Hex. apply Z.eqb_neq in Hex.
  pose proof (Z.mod_pos_bound u1 2 ltac:(lia)).
  destruct Hor as [->|[Hu2 Hd1]]; [contradiction|].
  assert (Hnz : u1 <> 0) by (intros ->; apply Hex; reflexivity).
  split; [lia|]. split; [lia|]. split; [exact Hu2|]. split; [lia|]. split; [exact Hdv|exact Hcg].
Qed.

Lemma halve_loop_term fuel d0 u0 : 0 < u0 < 2^64 -> (64 <= fuel)%nat ->
  exists s1, while_loop fuel hcond hbody (d0, u0) = Some s1.
Proof.
  intros Hu Hf.
  apply (WhileLoop.while_loop_term_halving snd (fun p => 0 < snd p)); [|cbn [snd]; lia|].
  - intros [d u] Hpos Hc. cbn [snd] in Hpos. rewrite hcond_eq in Hc. apply Z.eqb_eq in Hc.
    assert (Es : snd (hbody (d, u)) = u / 2) by reflexivity.
    rewrite Es. cbn [snd]. pose proof (Z.div_mod u 2 ltac:(lia)). lia.
  - cbn [snd]. apply Z.lt_le_trans with (2^64); [lia|]. apply Z.pow_le_mono_r; lia.
Qed.

(* ---------- the main invariant ---------- *)
(* a*x == v, d*x == -u (mod M); u, v odd and positive; u + v <= 2^k; the coefficients are bounded
   by M*(66-k) (each subtraction adds at most M/2 to them and halves u+v); common divisors of
   u and v divide x and M. *)
Definition J (x k u d v a : Z) : Prop :=
  0 <= k <= 64 /\ 0 < u /\ 0 < v /\ u mod 2 = 1 /\ v mod 2 = 1 /\ u + v <= 2 ^ k /\
  0 <= a <= M62 * (66 - k) /\ 0 <= d <= M62 * (66 - k) /\
  a * x ==m 1 * v /\ d * x ==m (-1) * u /\
  (forall t, (t | u) -> (t | v) -> (t | x) /\ (t | M62)).

Ltac Jsplit :=
  unfold J;
  (split; [|split; [|split; [|split; [|split; [|split; [|split; [|split; [|split; [|split]]]]]]]]]).

Lemma J_k_pos x k u d v a : J x k u d v a -> 1 <= k /\ 2 ^ k = 2 * 2 ^ (k - 1) /\ 2 ^ k <= 2 ^ 64.
Proof.
  intros (Hk & Hu & Hv & _ & _ & Hs & _).
  assert (Hk1 : 1 <= k).
  { destruct (Z.eq_dec k 0) as [->|]; [|lia]. change (2 ^ 0) with 1 in Hs. lia. }
  split; [exact Hk1|]. split.
  - replace k with (Z.succ (k - 1)) at 1 by lia. apply Z.pow_succ_r. lia.
  - apply Z.pow_le_mono_r; lia.
Qed.

Lemma ustep_spec x k fuel u d v a u1 d1 :
  J x k u d v a -> v < u -> ustep fuel v a (u, d) = Some (u1, d1) -> J x (k - 1) u1 d1 v a.
Proof.
  intros HJ Hlt H. destruct (J_k_pos _ _ _ _ _ _ HJ) as (Hk1 & E2 & Hp64).
  destruct HJ as (Hk & Hu & Hv & Huo & Hvo & Hs & Ha & Hd & Hca & Hcd & Hdiv).
  cbv beta iota zeta delta [ustep] in H.
  rewrite (wrap_small 128 (u - v)) in H by lia.
  rewrite (wrap_small 128 (d + a)) in H by (unfold M62 in *; lia).
  destruct (while_loop fuel hcond hbody (d + a, u - v)) as [[d2 u2]|] eqn:E; [|discriminate].
  injection H as <- <-.
  apply (halve_loop_spec x (-1) (M62 * (67 - k))) in E; try (unfold M62 in *; lia).
  2: exact (odd_sub_odd u v Huo Hvo).
  2:{ rewrite Z.mul_add_distr_r, Hca, Hcd. apply eqm_refl_eq. ring. }
  destruct E as (Hd2 & Hu2 & Hu2' & Hu2o & Hu2d & Hc2).
  replace (66 - (k - 1)) with (67 - k) by ring.
  Jsplit; try assumption; try (unfold M62 in *; lia).
  intros t Ht1 Ht2. apply Hdiv; [|assumption].
  replace u with ((u - v) + v) by ring. apply Z.divide_add_r; [|assumption].
  apply Z.divide_trans with u2; assumption.
Qed.

Lemma ustep_term x k fuel u d v a :
  J x k u d v a -> v < u -> (64 <= fuel)%nat -> exists s1, ustep fuel v a (u, d) = Some s1.
Proof.
  intros HJ Hlt Hf. destruct (J_k_pos _ _ _ _ _ _ HJ) as (Hk1 & E2 & Hp64).
  destruct HJ as (Hk & Hu & Hv & Huo & Hvo & Hs & Ha & Hd & Hca & Hcd & Hdiv).
  cbv beta iota zeta delta [ustep].
  rewrite (wrap_small 128 (u - v)) by lia.
  destruct (halve_loop_term fuel (wrap 128 (d + a)) (u - v) ltac:(lia) Hf) as [[d2 u2] E].
  rewrite E. eexists; reflexivity.
Qed.

Lemma uloop_spec x k fuel u d v a u1 d1 :
  J x k u d v a -> while_loop_o fuel (ucond v) (ustep fuel v a) (u, d) = Some (u1, d1) ->
  exists k1, k1 <= k /\ J x k1 u1 d1 v a /\ u1 <= v.
Proof.
  intros HJ H.
  pose (Inv := fun p : Z * Z => exists k1, k1 <= k /\ J x k1 (fst p) (snd p) v a).
  assert (Hstep : forall s s1, Inv s -> ucond v s = true -> ustep fuel v a s = Some s1 -> Inv s1).
  { intros [u' d'] [u2 d2] (k1 & Hk1 & HJ1) Hc Hs. cbn [fst snd] in *.
    cbv beta iota delta [ucond] in Hc. apply Z.ltb_lt in Hc.
    exists (k1 - 1). split; [lia|]. cbn [fst snd]. eapply ustep_spec; eassumption. }
  assert (Hinit : Inv (u, d)) by (exists k; split; [lia|exact HJ]).
  destruct (WhileLoop.while_loop_o_inv Inv _ _ Hstep fuel _ _ Hinit H) as [(k1 & Hk1 & HJ1) Hex].
  cbn [fst snd] in *. cbv beta iota delta [ucond] in Hex. apply Z.ltb_ge in Hex.
  exists k1. auto.
Qed.

Lemma uloop_term x k fuel u d v a :
  J x k u d v a -> (64 <= fuel)%nat ->
  exists s1, while_loop_o fuel (ucond v) (ustep fuel v a) (u, d) = Some s1.
Proof.
  intros HJ Hf.
  pose (I := fun (k1 : Z) (p : Z * Z) => J x k1 (fst p) (snd p) v a).
  apply (WhileLoop.while_loop_o_term_budget I) with (k := k); [|exact HJ|destruct HJ; lia].
  intros k1 [u' d'] HJ1 Hc. unfold I in HJ1. cbn [fst snd] in HJ1.
  cbv beta iota delta [ucond] in Hc. apply Z.ltb_lt in Hc.
  destruct (ustep_term _ _ fuel _ _ _ _ HJ1 Hc Hf) as [[u2 d2] E].
  exists (k1 - 1), (u2, d2). split; [exact E|].
  pose proof (ustep_spec _ _ _ _ _ _ _ _ _ HJ1 Hc E) as HJ2.
  split; [destruct HJ2; lia|exact HJ2].
Qed.

Lemma ostep_spec x k fuel u d v a u' d' v' a' :
  J x k u d v a -> ostep fuel (u, d, v, a) = Some (u', d', v', a') ->
  exists k', 0 <= k' < k /\ J x k' u' d' v' a'.
Proof.
  intros HJ H. cbv beta iota zeta delta [ostep] in H.
  destruct (while_loop_o fuel (ucond v) (ustep fuel v a) (u, d)) as [[u1 d1]|] eqn:E1; [|discriminate].
  destruct (uloop_spec _ _ _ _ _ _ _ _ _ HJ E1) as (k1 & Hk1 & HJ1 & Hle).
  destruct (J_k_pos _ _ _ _ _ _ HJ1) as (Hk11 & E2 & Hp64).
  destruct HJ1 as (Hk & Hu & Hv & Huo & Hvo & Hs & Ha & Hd & Hca & Hcd & Hdiv).
  rewrite (wrap_small 128 (v - u1)) in H by lia.
  rewrite (wrap_small 128 (a + d1)) in H by (unfold M62 in *; lia).
  destruct (while_loop fuel hcond hbody (a + d1, v - u1)) as [[a2 v2]|] eqn:E; [|discriminate].
  injection H as <- <- <- <-.
  apply (halve_loop_spec x 1 (M62 * (67 - k1))) in E; try (unfold M62 in *; lia).
  2: exact (odd_sub_odd v u1 Hvo Huo).
  2:{ rewrite Z.mul_add_distr_r, Hca, Hcd. apply eqm_refl_eq. ring. }
  destruct E as (Ha2 & Hv2 & Hv2' & Hv2o & Hv2d & Hc2).
  exists (k1 - 1). split; [lia|].
  replace (66 - (k1 - 1)) with (67 - k1) by ring.
  Jsplit; try assumption; try (unfold M62 in *; lia).
  intros t Ht1 Ht2. apply Hdiv; [assumption|].
  replace v with ((v - u1) + u1) by ring. apply Z.divide_add_r; [|assumption].
  apply Z.divide_trans with v2; assumption.
Qed.

Lemma ostep_term x k fuel u d v a :
  J x k u d v a -> v <> 1 -> rel_prime x M62 -> (64 <= fuel)%nat ->
  exists s1, ostep fuel (u, d, v, a) = Some s1.
Proof.
  intros HJ Hv1 Hrp Hf. cbv beta iota zeta delta [ostep].
  destruct (uloop_term _ _ fuel _ _ _ _ HJ Hf) as [[u1 d1] E1]. rewrite E1.
  destruct (uloop_spec _ _ _ _ _ _ _ _ _ HJ E1) as (k1 & Hk1 & HJ1 & Hle).
  destruct (J_k_pos _ _ _ _ _ _ HJ1) as (Hk11 & E2 & Hp64).
  destruct HJ1 as (Hk & Hu & Hv & Huo & Hvo & Hs & Ha & Hd & Hca & Hcd & Hdiv).
  (* u1 = v would make v a common divisor of x and M *)
  assert (Hne : u1 <> v).
  { intros ->. destruct (Hdiv v (Z.divide_refl v) (Z.divide_refl v)) as [Hx HM].
    destruct Hrp as [_ _ Hg]. specialize (Hg v Hx HM).
    apply Z.divide_1_r_nonneg in Hg; lia. }
  rewrite (wrap_small 128 (v - u1)) by lia.
  destruct (halve_loop_term fuel (wrap 128 (a + d1)) (v - u1) ltac:(lia) Hf) as [[a2 v2] E].
  rewrite E. eexists; reflexivity.
Qed.

(* ---------- the whole function ---------- *)
Definition Jst (x k : Z) (p : Z * Z * Z * Z) : Prop :=
  let '(u, d, v, a) := p in J x k u d v a.

Lemma J_init x : repr62 x -> x <> 0 -> x <> M62 ->
  Jst x 64 (inv_u0 x, wrap 128 (f62_M - 1), f62_M, 0).
Proof.
  unfold repr62. intros Hx H0 HM. unfold Jst, inv_u0. rewrite land1, M62_eq.
  rewrite (wrap_small 128 (M62 - 1)) by (unfold M62; lia).
  assert (HMo : M62 mod 2 = 1) by reflexivity.
  assert (Hcd : (M62 - 1) * x ==m -1 * x).
  { rewrite Z.mul_sub_distr_r, eqm_M_0. apply eqm_refl_eq. ring. }
  assert (Hca : 0 * x ==m 1 * M62) by (rewrite eqm_M_0; reflexivity).
  destruct (Z.eqb_spec (x mod 2) 1) as [E|E].
  - Jsplit; try assumption; try (unfold M62 in *; lia). auto.
  - rewrite (wrap_small 128 (x + M62)) by (unfold M62 in *; lia).
    assert (Hdx : forall t, (t | x + M62) -> (t | M62) -> (t | x)).
    { intros t H1 H2. replace x with ((x + M62) - M62) by ring. apply Z.divide_sub_r; assumption. }
    assert (Hxo : (x + M62) mod 2 = 1).
    { pose proof (Z.mod_pos_bound x 2 ltac:(lia)). rewrite Z.add_mod, HMo by lia.
      replace (x mod 2) with 0 by lia. reflexivity. }
    Jsplit; try assumption; try (unfold M62 in *; lia); auto.
    rewrite Hcd, Z.mul_add_distr_l, eqm_M_0. apply eqm_refl_eq. ring.
Qed.

Lemma outer_spec x fuel s s' k : Jst x k s ->
  while_loop_o fuel ocond (ostep fuel) s = Some s' ->
  let '(u, d, v, a) := s' in exists k', J x k' u d v a /\ v = 1.
Proof.
  intros HJ H.
  pose (Inv := fun p => exists k1, Jst x k1 p).
  assert (Hstep : forall s s1, Inv s -> ocond s = true -> ostep fuel s = Some s1 -> Inv s1).
  { intros [[[u d] v] a] [[[u1 d1] v1] a1] (k1 & HJ1) _ Hs. unfold Jst in HJ1.
    destruct (ostep_spec _ _ _ _ _ _ _ _ _ _ _ HJ1 Hs) as (k2 & _ & HJ2). exists k2. exact HJ2. }
  destruct (WhileLoop.while_loop_o_inv Inv _ _ Hstep fuel _ _ (ex_intro _ k HJ) H) as [(k1 & HJ1) Hex].
  destruct s' as [[[u d] v] a]. exists k1. split; [exact HJ1|].
  cbv beta iota delta [ocond] in Hex. apply negb_false_iff, Z.eqb_eq in Hex. exact Hex.
Qed.

Lemma outer_term x fuel s : Jst x 64 s -> rel_prime x M62 -> (64 <= fuel)%nat ->
  exists s', while_loop_o fuel ocond (ostep fuel) s = Some s'.
Proof.
  intros HJ Hrp Hf.
  apply (WhileLoop.while_loop_o_term_budget (Jst x)) with (k := 64); [|exact HJ|lia].
  intros k [[[u d] v] a] HJ1 Hc. unfold Jst in HJ1.
  cbv beta iota delta [ocond] in Hc. apply negb_true_iff, Z.eqb_neq in Hc.
  destruct (ostep_term _ _ fuel _ _ _ _ HJ1 Hc Hrp Hf) as [[[[u1 d1] v1] a1] E].
  destruct (ostep_spec _ _ _ _ _ _ _ _ _ _ _ HJ1 E) as (k2 & Hk2 & HJ2).
  exists k2, (u1, d1, v1, a1). split; [exact E|]. split; [exact Hk2|exact HJ2].
Qed.

(* final "while a > M: a -= M" *)
Lemma final_spec x fuel a a' : 0 <= a <= 66 * M62 -> a * x ==m 1 ->
  while_loop fuel (fun a => a >? f62_M) (fun a => wrap 128 (a - f62_M)) a = Some a' ->
  0 <= a' <= M62 /\ a' * x ==m 1.
Proof.
  intros Ha Hc H.
  pose (Inv := fun a : Z => 0 <= a <= 66 * M62 /\ a * x ==m 1).
  assert (Hstep : forall s, Inv s -> (s >? f62_M) = true -> Inv (wrap 128 (s - f62_M))).
  { intros s [Hs Hcs] Hgt. rewrite M62_eq in *. apply Z.gtb_lt in Hgt.
    rewrite wrap_small by (unfold M62 in *; lia). split; [lia|].
    rewrite Z.mul_sub_distr_r, eqm_M_0, Hcs. apply eqm_refl_eq. ring. }
  destruct (while_loop_inv Inv _ _ Hstep fuel _ _ (conj Ha Hc) H) as [[Ha' Hc'] Hex].
  rewrite M62_eq in Hex. split; [|exact Hc'].
  destruct (Z.gtb_spec a' M62); [discriminate|lia].
Qed.

Lemma final_term fuel a : 0 <= a <= 66 * M62 -> (66 <= fuel)%nat ->
  exists a', while_loop fuel (fun a => a >? f62_M) (fun a => wrap 128 (a - f62_M)) a = Some a'.
Proof.
  intros Ha Hf.
  pose (I := fun (k a : Z) => 0 <= k <= 66 /\ 0 <= a <= k * M62).
  apply (while_loop_term I) with (k := 66); [|unfold I; lia|lia].
  intros k s [Hk Hs] Hgt. rewrite M62_eq in *. apply Z.gtb_lt in Hgt.
  exists (k - 1). rewrite wrap_small by (unfold M62 in *; lia).
  unfold I, M62 in *. lia.
Qed.

Lemma val62_zero_words x : repr62 x -> (val62 x = 0 <-> x = 0 \/ x = M62).
Proof.
  unfold repr62. intros Hx. rewrite val62_zero_iff. split.
  - intros H. apply Z.mod_divide in H; [|unfold M62; lia]. destruct H as [q H].
    assert (q = 0 \/ q = 1) by (unfold M62 in *; lia). lia.
  - intros [->| ->]; [reflexivity|apply Z.mod_same; unfold M62; lia].
Qed.

Theorem f62_fn_inv_zero fuel : f62_fn_inv fuel 0 = Some 0 /\ f62_fn_inv fuel M62 = Some 0.
Proof. split; reflexivity. Qed.

(* what the outer loop leaves behind when it exits: a is an inverse of x, still far below 2^128 *)
Lemma outer_run x fuel u d v a : repr62 x -> x <> 0 -> x <> M62 ->
  while_loop_o fuel ocond (ostep fuel) (inv_u0 x, wrap 128 (f62_M - 1), f62_M, 0) = Some (u, d, v, a) ->
  0 <= a <= 66 * M62 /\ a * x ==m 1.
Proof.
  intros Hx E0 EM E1.
  pose proof (outer_spec x fuel _ _ 64 (J_init x Hx E0 EM) E1) as (k' & HJ & Hv1). subst v.
  destruct (J_k_pos _ _ _ _ _ _ HJ) as (Hk1 & _).
  destruct HJ as (Hk & _ & _ & _ & _ & _ & Ha & _ & Hca & _).
  split; [unfold M62 in *; lia|]. rewrite Hca. reflexivity.
Qed.

(* a word r with  r * 2^64 == x  denotes the residue  x * 2^-128 *)
Lemma val62_of_mont r x : r * 2^64 ==m x -> val62 r ==m x * Rinv62 * Rinv62.
Proof.
  intros H. rewrite eqm_val, <- H.
  replace (r * 2^64 * Rinv62 * Rinv62) with (r * Rinv62 * (2^64 * Rinv62)) by ring.
  rewrite eqm_R_Rinv. now rewrite Z.mul_1_r.
Qed.

(* partial correctness, for every fuel and every word of the lazy range *)
Theorem f62_inv_sound_partial fuel x r : repr62 x -> f62_fn_inv fuel x = Some r ->
  repr62 r /\ (val62 r * val62 x) mod M62 = (if val62 x =? 0 then 0 else 1).
Proof.
  intros Hx H. rewrite fn_inv_struct in H. unfold inv_struct in H. rewrite M62_eq in H.
  destruct (Z.eqb_spec x 0) as [E0|E0].
  { cbn [orb] in H. injection H as <-. split; [exact repr62_0|].
    subst x. reflexivity. }
  destruct (Z.eqb_spec x M62) as [EM|EM].
  { cbn [orb] in H. injection H as <-. split; [exact repr62_0|].
    subst x. reflexivity. }
  cbn [orb] in H. rewrite <- M62_eq in H.
  destruct (while_loop_o fuel ocond (ostep fuel) _) as [[[[u d] v] a]|] eqn:E1; [|discriminate].
  destruct (outer_run x fuel u d v a Hx E0 EM E1) as [Ha Hca].
  destruct (while_loop fuel _ _ a) as [a'|] eqn:E2; [|discriminate].
  injection H as <-.
  apply (final_spec x) in E2; [|exact Ha|exact Hca].
  destruct E2 as [Ha' Hca'].
  rewrite (wrap_small 64 a') by (unfold M62 in *; lia).
  assert (Hab : a' * f62_R3 < 2^64 * M62) by (unfold f62_R3, M62 in *; nia).
  destruct (fn_mul_spec a' f62_R3 ltac:(lia) ltac:(unfold f62_R3; lia) Hab) as [Hr Hc].
  split; [exact Hr|].
  set (r := f62_fn_mul a' f62_R3) in *.
  (* r = a' * R^3 * R^-1 as a word, so r and x denote a' * R and x * R^-1 *)
  assert (Hone : val62 r * val62 x ==m 1).
  { rewrite (val62_of_mont r _ Hc), eqm_val.
    replace (a' * f62_R3 * Rinv62 * Rinv62 * (x * Rinv62))
      with (a' * x * (f62_R3 * Rinv62 * Rinv62 * Rinv62)) by ring.
    rewrite Hca'.
    assert (E3 : f62_R3 * Rinv62 * Rinv62 * Rinv62 ==m 1) by (apply eqM62_iff; reflexivity).
    rewrite E3. reflexivity. }
  assert (Hm : (val62 r * val62 x) mod M62 = 1) by (apply eqm_to_mod; [unfold M62; lia|exact Hone]).
  rewrite Hm.
  destruct (Z.eqb_spec (val62 x) 0) as [Ez|Ez]; [|reflexivity].
  rewrite Ez, Z.mul_0_r in Hm. discriminate.
Qed.

(* termination: fuel 66 is enough whenever x is invertible modulo M (or zero) *)
Theorem f62_inv_terminates_unit fuel x : repr62 x -> (x mod M62 <> 0 -> rel_prime x M62) ->
  (66 <= fuel)%nat -> exists r, f62_fn_inv fuel x = Some r.
Proof.
  intros Hx Hrp Hf. rewrite fn_inv_struct. unfold inv_struct. rewrite M62_eq.
  destruct (Z.eqb_spec x 0) as [E0|E0]; [eexists; reflexivity|].
  destruct (Z.eqb_spec x M62) as [EM|EM]; [eexists; reflexivity|].
  cbn [orb]. rewrite <- M62_eq.
  assert (Hnz : x mod M62 <> 0).
  { intros Hz. apply val62_zero_iff, (val62_zero_words x Hx) in Hz. tauto. }
  specialize (Hrp Hnz).
  destruct (outer_term x fuel _ (J_init x Hx E0 EM) Hrp ltac:(lia)) as [[[[u d] v] a] E1].
  rewrite E1.
  destruct (outer_run x fuel u d v a Hx E0 EM E1) as [Ha _].
  destruct (final_term fuel a Ha Hf) as [a' E2].
  rewrite E2. eexists; reflexivity.
Qed.

Theorem f62_inv_terminates x : prime M62 -> repr62 x -> exists r, f62_fn_inv 400 x = Some r.
Proof.
  intros Hp Hx. apply f62_inv_terminates_unit; [exact Hx| |lia].
  intros Hnz. apply rel_prime_sym, prime_rel_prime; [exact Hp|].
  intros Hd. apply Hnz. apply Z.mod_divide; [unfold M62; lia|exact Hd].
Qed.

(* total correctness under primality of M (proved separately as P62_prime) *)
Theorem f62_inv_total x : prime M62 -> repr62 x ->
  exists r, f62_fn_inv 400 x = Some r /\ repr62 r /\
            (val62 r * val62 x) mod M62 = (if val62 x =? 0 then 0 else 1).
Proof.
  intros Hp Hx. destruct (f62_inv_terminates x Hp Hx) as [r E].
  exists r. split; [exact E|]. exact (f62_inv_sound_partial _ _ _ Hx E).
Qed.

(* ---------- the public wrappers ---------- *)
Lemma f62_inv_eq fuel x : f62_inv fuel x = f62_fn_inv fuel x.
Proof. unfold f62_inv. destruct (f62_fn_inv fuel x); reflexivity. Qed.

Theorem f62_inv_pub_sound_partial fuel x r : repr62 x -> f62_inv fuel x = Some r ->
  repr62 r /\ (val62 r * val62 x) mod M62 = (if val62 x =? 0 then 0 else 1).
Proof. rewrite f62_inv_eq. apply f62_inv_sound_partial. Qed.

Theorem f62_div_sound_partial fuel a b q : repr62 a -> repr62 b -> f62_div fuel a b = Some q ->
  repr62 q /\ (val62 q * val62 b) mod M62 = (if val62 b =? 0 then 0 else val62 a).
Proof.
  intros Ha Hb H. unfold f62_div in H.
  destruct (f62_fn_inv fuel b) as [r|] eqn:E; [|discriminate]. injection H as <-.
  destruct (f62_inv_sound_partial _ _ _ Hb E) as [Hr Hv].
  destruct (f62_mul_spec a r Ha Hr) as [Hq Hvq]. unfold f62_mul in *.
  split; [exact Hq|]. rewrite Hvq.
  rewrite Z.mul_mod_idemp_l by (unfold M62; lia).
  rewrite <- Z.mul_assoc, <- Z.mul_mod_idemp_r, Hv by (unfold M62; lia).
  destruct (val62 b =? 0).
  - rewrite Z.mul_0_r. reflexivity.
  - rewrite Z.mul_1_r. apply Z.mod_small, val62_range.
Qed.

(* ---------- non-vacuity / sanity by evaluation ---------- *)
Example f62_inv_example :
  f62_fn_inv 66 (f62_new 3) = Some 3074498027548486314 /\
  (f62_as_int 3074498027548486314 * 3) mod M62 = 1.
Proof. split; vm_compute; reflexivity. Qed.
Example f62_inv_example_lazy :   (* a word >= M, and an even word *)
  f62_fn_inv 66 (f62_new 3 + M62) = Some 3074498027548486314 /\
  f62_fn_inv 66 2 = Some 315222280642146850 /\
  (val62 315222280642146850 * val62 2) mod M62 = 1.
Proof. split; [|split]; vm_compute; reflexivity. Qed.
Example rel_prime_hyp_nonempty : rel_prime 2 M62.
Proof.
  apply Zis_gcd_intro; [apply Z.divide_1_l|apply Z.divide_1_l|].
  intros t H2 HM.
  replace 1 with (M62 - 2305812497766023168 * 2) by reflexivity.
  apply Z.divide_sub_r; [exact HM|]. apply Z.divide_mul_r. exact H2.
Qed.
