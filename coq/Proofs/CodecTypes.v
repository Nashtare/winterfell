(* Round trips of field elements, digests and the air/fri structures.  For ProofOptions, TraceInfo and Context,
   wf_T is the image of the modelled Rust constructor on arguments of its parameter types, so rt_T reads: every
   value the constructor accepts is decoded back.  narrow_T: the narrowing casts on the way to the bytes lose
   nothing under wf_T.  safeP r: the reader r does not panic on a byte string.  Property C12. *)
From VBase Require Import MachInt.
From VModel Require Import Codec.
From VProofs Require MachIntFacts.
From VProofs Require Import CodecPrim.
Open Scope Z_scope.

(* ----------------------------------------------------------------------------- field elements, digests *)
Definition wf_felt (M v : Z) : Prop := 0 <= v < M.

Lemma rt_felt k M : 0 < M <= 256 ^ Z.of_nat k -> RT (write_felt k) (read_felt k M) (wf_felt M).
Proof.
  intros HM v rest Hv. unfold wf_felt in Hv. unfold write_felt, read_felt.
  erewrite bind_ok by (apply rt_uint; lia).
  destruct (Z.geb_spec v M); [lia | reflexivity].
Qed.

Lemma rt_f64 : RT write_f64 read_f64 (wf_felt M64).
Proof. apply rt_felt. vm_compute. split; [reflexivity | discriminate]. Qed.
Lemma rt_f62 : RT write_f62 read_f62 (wf_felt M62).
Proof. apply rt_felt. vm_compute. split; [reflexivity | discriminate]. Qed.
Lemma rt_f128 : RT write_f128 read_f128 (wf_felt M128).
Proof. apply rt_felt. vm_compute. split; [reflexivity | discriminate]. Qed.

(* the reader rejects exactly the non-canonical encodings *)
Lemma read_felt_rejects k M v rest : 0 <= v < 256 ^ Z.of_nat k -> M <= v ->
  read_felt k M (write_uint k v ++ rest) = Err Invalid.
Proof.
  intros Hv HM. unfold read_felt. erewrite bind_ok by (apply rt_uint; lia).
  destruct (Z.geb_spec v M); [reflexivity | lia].
Qed.

Lemma rt_quad w r M : RT w r (wf_felt M) -> RT (write_quad w) (read_quad r) (fun p => wf_felt M (fst p) /\ wf_felt M (snd p)).
Proof. intros H. apply rt_pair; exact H. Qed.
Lemma rt_cube w r M : RT w r (wf_felt M) ->
  RT (write_cube w) (read_cube r) (fun t => wf_felt M (fst (fst t)) /\ wf_felt M (snd (fst t)) /\ wf_felt M (snd t)).
Proof. intros H. apply rt_triple; exact H. Qed.

Lemma rt_digest n : RT write_digest (read_digest n) (fun d => length d = n).
Proof. intros d rest <-. apply read_array_app. Qed.

Definition wf_edigest (d : list Z) : Prop :=
  exists a b c e, d = [a; b; c; e] /\ wf_felt M64 a /\ wf_felt M64 b /\ wf_felt M64 c /\ wf_felt M64 e.

Lemma rt_edigest : RT write_edigest read_edigest wf_edigest.
Proof.
  intros d rest (a & b & c & e & -> & Ha & Hb & Hc & He). unfold wf_felt, M64 in *.
  unfold write_edigest, read_edigest. rewrite !write_many_cons. cbn [write_many flat_map]. rewrite app_nil_r.
  rt_next_by rt_u64 ltac:(cbv beta; lia). rt_next_by rt_u64 ltac:(cbv beta; lia).
  rt_next_by rt_u64 ltac:(cbv beta; lia). rt_next_by rt_u64 ltac:(cbv beta; lia).
  unfold ret, M64. rewrite !Z.mod_small by lia. reflexivity.
Qed.

Lemma rt_FieldExtension : RT write_FieldExtension read_FieldExtension (fun _ => True).
Proof. intros [| |] rest _; reflexivity. Qed.

(* ---------------------------------------------------------------------------------------- is_pow2 *)
Lemma is_pow2_pos x : is_pow2 x = true -> 0 < x.
Proof. unfold is_pow2. intros H. apply andb_prop in H. destruct H as [H _]. now apply Z.ltb_lt. Qed.

Lemma is_pow2_log x : is_pow2 x = true -> x = 2 ^ Z.log2 x.
Proof. unfold is_pow2. intros H. apply andb_prop in H. destruct H as [_ H]. now apply Z.eqb_eq. Qed.

Lemma is_pow2_pow k : 0 <= k -> is_pow2 (2 ^ k) = true.
Proof.
  intros Hk. apply MachIntFacts.is_pow2_iff. exists k. split; [exact Hk | reflexivity].
Qed.

(* powers of two up to 256 *)
Lemma is_pow2_small x : 0 < x <= 256 -> is_pow2 x = true ->
  x = 1 \/ x = 2 \/ x = 4 \/ x = 8 \/ x = 16 \/ x = 32 \/ x = 64 \/ x = 128 \/ x = 256.
Proof.
  intros Hx Hp. apply MachIntFacts.is_pow2_iff in Hp as (k & Hk & ->).
  assert (k < 9) by (apply (Z.pow_lt_mono_r_iff 2); lia).
  assert (Ek : k = 0 \/ k = 1 \/ k = 2 \/ k = 3 \/ k = 4 \/ k = 5 \/ k = 6 \/ k = 7 \/ k = 8) by lia.
  repeat destruct Ek as [-> | Ek]; try subst k; cbn; auto 10.
Qed.

(* ---------------------------------------------------------------------------------------- ProofOptions *)
(* exactly the values ProofOptions::new returns, for arguments of the Rust parameter types *)
Definition wf_ProofOptions (o : ProofOptions) : Prop :=
  exists nq bf gf fe ff rd,
    0 <= nq < 2 ^ 64 /\ 0 <= bf < 2 ^ 64 /\ 0 <= gf < 2 ^ 32 /\ 0 <= ff < 2 ^ 64 /\ 0 <= rd < 2 ^ 64 /\
    ProofOptions_new nq bf gf fe ff rd = Ok o.

Ltac inv_asserts H :=
  unfold assert_ in H;
  repeat match type of H with
         | (if ?c then _ else Panic) = Ok _ => let E := fresh "A" in destruct c eqn:E; [|discriminate H]
         end.

Lemma ProofOptions_new_inv nq bf gf fe ff rd o :
  ProofOptions_new nq bf gf fe ff rd = Ok o ->
  0 < nq <= 255 /\ is_pow2 bf = true /\ 2 <= bf <= 128 /\ gf <= 32 /\ is_pow2 ff = true /\ 2 <= ff <= 16 /\
  is_pow2 (rd + 1) = true /\ rd <= 255 /\
  o = mkPO (wrap 8 nq) (wrap 8 bf) (wrap 8 gf) fe (wrap 8 ff) (wrap 8 rd).
Proof.
  intros H. unfold ProofOptions_new in H. inv_asserts H. inversion H; subst; clear H.
  rewrite ?Z.gtb_lt, ?Z.leb_le, ?Z.geb_le in *. repeat split; auto; lia.
Qed.

(* the five [as u8] casts of the constructor are lossless for every accepted argument *)
Lemma narrow_ProofOptions nq bf gf fe ff rd o :
  0 <= gf -> 0 <= rd -> ProofOptions_new nq bf gf fe ff rd = Ok o -> o = mkPO nq bf gf fe ff rd.
Proof.
  intros Hg Hr H. apply ProofOptions_new_inv in H.
  destruct H as (H1 & _ & H2 & H3 & _ & H4 & _ & H5 & ->).
  rewrite !wrap_small by lia. reflexivity.
Qed.

Lemma ProofOptions_new_ok nq bf gf fe ff rd :
  0 < nq <= 255 -> is_pow2 bf = true -> 2 <= bf <= 128 -> gf <= 32 -> is_pow2 ff = true -> 2 <= ff <= 16 ->
  is_pow2 (rd + 1) = true -> rd <= 255 ->
  ProofOptions_new nq bf gf fe ff rd = Ok (mkPO (wrap 8 nq) (wrap 8 bf) (wrap 8 gf) fe (wrap 8 ff) (wrap 8 rd)).
Proof.
  intros H1 H2 H3 H4 H5 H6 H7 H8. unfold ProofOptions_new, assert_, usize_max.
  rewrite H2, H5, H7.
  repeat match goal with
         | |- context [?a >? ?b] => destruct (Z.gtb_spec a b); [|lia]
         | |- context [?a <=? ?b] => destruct (Z.leb_spec a b); [|lia]
         | |- context [?a >=? ?b] => destruct (Z.geb_spec a b); [|lia]
         end.
  reflexivity.
Qed.

Theorem rt_ProofOptions : RT write_ProofOptions read_ProofOptions wf_ProofOptions.
Proof.
  intros o rest (nq & bf & gf & fe & ff & rd & Hnq & Hbf & Hgf & Hff & Hrd & Hnew).
  pose proof (narrow_ProofOptions nq bf gf fe ff rd o (proj1 Hgf) (proj1 Hrd) Hnew) as ->.
  pose proof (ProofOptions_new_inv _ _ _ _ _ _ _ Hnew) as (H1 & H2 & H3 & H4 & H5 & H6 & H7 & H8 & _).
  unfold write_ProofOptions, read_ProofOptions. cbn [po_num_queries po_blowup_factor po_grinding_factor
    po_field_extension po_fri_folding_factor po_fri_remainder_max_degree].
  rt_next rt_u8. rt_next rt_u8. rt_next rt_u8. rt_next rt_FieldExtension. rt_next rt_u8.
  rt_next rt_u8.
  rewrite H2, H5, H7. cbn [negb orb].
  repeat match goal with
         | |- context [?a =? ?b] => destruct (Z.eqb_spec a b); [lia|]
         | |- context [?a >? ?b] => destruct (Z.gtb_spec a b); [lia|]
         | |- context [?a <? ?b] => destruct (Z.ltb_spec a b); [lia|]
         end.
  cbn [orb]. unfold lift. now rewrite Hnew.
Qed.

Lemma In_forallb {A} (f : A -> bool) l x : In x l -> forallb f l = true -> f x = true.
Proof. intros Hx H. exact (proj1 (forallb_forall f l) H x Hx). Qed.

Theorem wf_ProofOptions_explicit o : wf_ProofOptions o <->
  1 <= po_num_queries o <= 255 /\
  In (po_blowup_factor o) [2; 4; 8; 16; 32; 64; 128] /\
  0 <= po_grinding_factor o <= 32 /\
  In (po_fri_folding_factor o) [2; 4; 8; 16] /\
  In (po_fri_remainder_max_degree o) [0; 1; 3; 7; 15; 31; 63; 127; 255].
Proof.
  split.
  - intros (nq & bf & gf & fe & ff & rd & Hnq & Hbf & Hgf & Hff & Hrd & Hnew).
    pose proof (narrow_ProofOptions nq bf gf fe ff rd o (proj1 Hgf) (proj1 Hrd) Hnew) as ->.
    pose proof (ProofOptions_new_inv _ _ _ _ _ _ _ Hnew) as (H1 & H2 & H3 & H4 & H5 & H6 & H7 & H8 & _).
    cbn [po_num_queries po_blowup_factor po_grinding_factor po_fri_folding_factor po_fri_remainder_max_degree In].
    (* one power of two at a time: each is one of nine values *)
    split; [lia|]. split; [|split; [lia|split]].
    + pose proof (is_pow2_small bf ltac:(lia) H2). lia.
    + pose proof (is_pow2_small ff ltac:(lia) H5). lia.
    + pose proof (is_pow2_small (rd + 1) ltac:(lia) H7). lia.
  - destruct o as [nq bf gf fe ff rd]. cbn [po_num_queries po_blowup_factor po_grinding_factor
      po_fri_folding_factor po_fri_remainder_max_degree].
    intros (H1 & H2 & H3 & H4 & H5).
    exists nq, bf, gf, fe, ff, rd.
    pose proof (In_forallb is_pow2 _ _ H2 eq_refl) as Pb.
    pose proof (In_forallb is_pow2 _ _ H4 eq_refl) as Pf.
    pose proof (In_forallb (fun r => is_pow2 (r + 1)) _ _ H5 eq_refl) as Pr. cbv beta in Pr.
    assert (B2 : 2 <= bf <= 128) by (cbn [In] in H2; lia).
    assert (B4 : 2 <= ff <= 16) by (cbn [In] in H4; lia).
    assert (B5 : 0 <= rd <= 255) by (cbn [In] in H5; lia).
    repeat split; try lia.
    rewrite ProofOptions_new_ok by (auto; lia). rewrite !wrap_small by lia. reflexivity.
Qed.

(* --------------------------------------------------------------------------------------- TraceInfo *)
Definition wf_TraceInfo (t : TraceInfo) : Prop :=
  exists main aux rands length_ meta,
    0 <= main < 2 ^ 64 /\ 0 <= aux < 2 ^ 64 /\ 0 <= rands < 2 ^ 64 /\ 0 <= length_ < 2 ^ 64 /\
    TraceInfo_new_multi_segment main aux rands length_ meta = Ok t.

Lemma TraceInfo_new_inv main aux rands length_ meta t :
  TraceInfo_new_multi_segment main aux rands length_ meta = Ok t ->
  8 <= length_ /\ is_pow2 length_ = true /\ len meta <= 65535 /\ 0 < main /\ main + aux <= 255 /\
  (aux = 0 -> rands = 0) /\ rands <= 255 /\ t = mkTI main aux rands length_ meta.
Proof.
  intros H. unfold TraceInfo_new_multi_segment in H. inv_asserts H. inversion H; subst; clear H.
  rewrite ?Z.gtb_lt, ?Z.leb_le, ?Z.geb_le in *. unfold usize_max in *. repeat split; auto; try lia.
  intros ->. cbn in A4. now apply Z.eqb_eq.
Qed.

(* TraceInfo::new / with_meta produce well-formed values (they are special cases of new_multi_segment) *)
Lemma wf_TraceInfo_with_meta width length_ meta t :
  0 <= width < 2 ^ 64 -> 0 <= length_ < 2 ^ 64 -> TraceInfo_with_meta width length_ meta = Ok t -> wf_TraceInfo t.
Proof.
  intros Hw Hl H. unfold TraceInfo_with_meta, assert_ in H. destruct (width >? 0); [|discriminate].
  exists width, 0, 0, length_, meta. repeat split; try lia. exact H.
Qed.

Lemma log2_bounds x : 8 <= x < 2 ^ 64 -> 3 <= Z.log2 x < 64.
Proof.
  intros H. split.
  - apply Z.log2_le_pow2; [lia|]. change (2 ^ 3) with 8. lia.
  - apply Z.log2_lt_pow2; lia.
Qed.

(* every narrowing cast of the writer is lossless on accepted values, and its debug asserts hold *)
Lemma narrow_TraceInfo t : wf_TraceInfo t ->
  wrap 8 (ti_main t) = ti_main t /\ wrap 8 (ti_aux t) = ti_aux t /\ wrap 8 (ti_rands t) = ti_rands t /\
  wrap 8 (Z.log2 (ti_length t)) = Z.log2 (ti_length t) /\ wrap 16 (len (ti_meta t)) = len (ti_meta t) /\
  write_TraceInfo_ok t = true.
Proof.
  intros (main & aux & rands & length_ & meta & Hm & Ha & Hr & Hl & Hnew).
  apply TraceInfo_new_inv in Hnew. destruct Hnew as (H1 & H2 & H3 & H4 & H5 & H6 & H7 & ->).
  cbn [ti_main ti_aux ti_rands ti_length ti_meta].
  pose proof (log2_bounds length_ ltac:(lia)). pose proof (len_nonneg meta).
  rewrite !wrap_small by lia. repeat split; auto.
  unfold write_TraceInfo_ok. cbn [ti_aux ti_rands ti_length].
  destruct (Z.leb_spec aux 255); [|lia]. destruct (Z.leb_spec rands 255); [|lia].
  destruct (Z.ltb_spec 0 length_); [reflexivity | lia].
Qed.

Theorem rt_TraceInfo : RT write_TraceInfo read_TraceInfo wf_TraceInfo.
Proof.
  intros t rest Hwf.
  destruct (narrow_TraceInfo t Hwf) as (N1 & N2 & N3 & N4 & N5 & _).
  destruct Hwf as (main & aux & rands & length_ & meta & Hm & Ha & Hr & Hl & Hnew).
  pose proof (TraceInfo_new_inv _ _ _ _ _ _ Hnew) as (H1 & H2 & H3 & H4 & H5 & H6 & H7 & ->).
  cbn [ti_main ti_aux ti_rands ti_length ti_meta] in *.
  pose proof (log2_bounds length_ ltac:(lia)) as Hlog. pose proof (len_nonneg meta) as Hmeta.
  unfold write_TraceInfo, read_TraceInfo. cbn [ti_main ti_aux ti_rands ti_length ti_meta].
  rewrite N1, N2, N3, N4, N5.
  rt_next rt_u8. destruct (Z.eqb_spec main 0); [lia|].
  rt_next rt_u8. destruct (Z.gtb_spec (main + aux) 255); [lia|].
  rt_next rt_u8.
  assert (C1 : (aux =? 0) && negb (rands =? 0) = false).
  { destruct (Z.eqb_spec aux 0) as [E|]; [|reflexivity]. rewrite (H6 E). reflexivity. }
  rewrite C1. destruct (Z.gtb_spec rands 255); [lia|].
  rt_next rt_u8. destruct (Z.ltb_spec (Z.log2 length_) 3); [lia|]. destruct (Z.geb_spec (Z.log2 length_) 64); [lia|].
  rewrite <- (is_pow2_log _ H2).
  rt_next_by rt_u16 ltac:(cbv beta; lia).
  unfold write_bytes.
  destruct meta as [|b meta].
  - cbn [len length Z.of_nat Z.eqb negb]. unfold bind at 1, ret at 1. cbn [app]. unfold lift. now rewrite Hnew.
  - destruct (Z.eqb_spec (len (b :: meta)) 0) as [E|NE]; [unfold len in E; cbn [length] in E; lia|].
    cbn [negb]. unfold read_vec. erewrite bind_ok by apply read_slice_app.
    unfold lift. now rewrite Hnew.
Qed.

(* members at the boundary of the accepted set: 255 columns, an aux segment without random elements, length 2^63 *)
Example wf_TraceInfo_255_columns : wf_TraceInfo (mkTI 255 0 0 8 []).
Proof. exists 255, 0, 0, 8, []. repeat split; try lia. Qed.
Example wf_TraceInfo_aux_without_rands : wf_TraceInfo (mkTI 3 2 0 8 []).
Proof. exists 3, 2, 0, 8, []. repeat split; try lia. Qed.
Example wf_TraceInfo_max_length : wf_TraceInfo (mkTI 1 254 255 (2 ^ 63) []).
Proof. exists 1, 254, 255, (2 ^ 63), []. repeat split; try lia; vm_compute; try reflexivity; discriminate. Qed.

(* ------------------------------------------------------------------------------------------ Context *)
(* Context::new::<B>(trace_info, options) with |B::get_modulus_le_bytes()| in [1, 254] (8 or 16 for the three
   fields of the crate; the writer asserts < 255, the reader rejects 0) *)
Definition wf_Context (c : Context) : Prop :=
  exists modulus t o,
    wf_TraceInfo t /\ wf_ProofOptions o /\ 1 <= len modulus < 255 /\ Context_new modulus t o = Ok c.

Lemma Context_new_inv modulus t o c : Context_new modulus t o = Ok c ->
  ti_length t <= 2 ^ 32 - 1 /\ ti_length t * po_blowup_factor o <= 2 ^ 32 - 1 /\ c = mkCtx t modulus o.
Proof.
  intros H. unfold Context_new in H. inv_asserts H. inversion H; subst.
  rewrite ?Z.leb_le in *. auto.
Qed.

Lemma narrow_Context c : wf_Context c ->
  wrap 8 (len (ctx_modulus c)) = len (ctx_modulus c) /\ write_Context_ok c = true.
Proof.
  intros (modulus & t & o & Ht & Ho & Hm & Hnew). apply Context_new_inv in Hnew. destruct Hnew as (_ & _ & ->).
  cbn [ctx_modulus]. rewrite wrap_small by lia. split; [reflexivity|].
  unfold write_Context_ok. cbn [ctx_trace_info ctx_modulus].
  destruct (narrow_TraceInfo t Ht) as (_ & _ & _ & _ & _ & ->).
  destruct (Z.ltb_spec (len modulus) 255); [reflexivity | lia].
Qed.

Theorem rt_Context : RT write_Context read_Context wf_Context.
Proof.
  intros c rest Hwf. destruct (narrow_Context c Hwf) as [N _].
  destruct Hwf as (modulus & t & o & Ht & Ho & Hm & Hnew).
  apply Context_new_inv in Hnew. destruct Hnew as (L1 & L2 & ->).
  unfold write_Context, read_Context. cbn [ctx_trace_info ctx_modulus ctx_options] in *. rewrite N.
  rt_next rt_TraceInfo. rt_next rt_u8.
  destruct (Z.eqb_spec (len modulus) 0); [lia|].
  unfold write_bytes, read_vec. erewrite bind_ok by apply read_slice_app.
  rewrite <- (app_nil_r (write_ProofOptions o)), <- app_assoc. cbn [app].
  rt_next rt_ProofOptions.
  unfold usize_max.
  destruct (Z.gtb_spec (ti_length t) (2 ^ 32 - 1)); [lia|].
  destruct (Z.leb_spec (ti_length t * po_blowup_factor o) (2 ^ 64 - 1)); [|lia].
  destruct (Z.leb_spec (ti_length t * po_blowup_factor o) (2 ^ 32 - 1)); [|lia].
  reflexivity.
Qed.

(* ------------------------------------------------------------------------ Commitments, Queries, OodFrame *)
Definition wf_Commitments (c : Commitments) : Prop := len c < 65535.       (* the writer's assert *)
Definition wf_Queries (q : Queries) : Prop := len (q_values q) < 2 ^ 32 /\ len (q_paths q) < 2 ^ 32.
Definition wf_OodFrame (f : OodFrame) : Prop :=
  len (ood_trace_states f) < 2 ^ 16 /\ len (ood_lagrange f) < 2 ^ 16 /\ len (ood_evaluations f) < 2 ^ 16.

Theorem rt_Commitments : RT write_Commitments read_Commitments wf_Commitments.
Proof. intros c rest H. apply rt_blob. unfold wf_Commitments in H. change (256 ^ Z.of_nat 2) with 65536. lia. Qed.

Lemma wf_Commitments_ok c : wf_Commitments c -> write_Commitments_ok c = true.
Proof. unfold wf_Commitments, write_Commitments_ok. intros H. destruct (Z.ltb_spec (len c) 65535); [reflexivity | lia]. Qed.

Theorem rt_Queries : RT write_Queries read_Queries wf_Queries.
Proof.
  intros [p v] rest [Hv Hp]. cbn [q_values q_paths] in *. unfold write_Queries, read_Queries. cbn [q_values q_paths].
  rt_next (rt_blob 4). rt_next (rt_blob 4). reflexivity.
Qed.

Theorem rt_OodFrame : RT write_OodFrame read_OodFrame wf_OodFrame.
Proof.
  intros [t l e] rest (Ht & Hl & He). cbn [ood_trace_states ood_lagrange ood_evaluations] in *.
  unfold write_OodFrame, read_OodFrame. cbn [ood_trace_states ood_lagrange ood_evaluations].
  rt_next (rt_blob 2). rt_next (rt_blob 2). rt_next (rt_blob 2). reflexivity.
Qed.

(* the u16 length prefixes cannot overflow for frames whose sizes come from an accepted TraceInfo:
   trace_states = 1 + 2*width*elem_bytes with width <= 255 and elem_bytes <= 48 (largest extension element),
   the Lagrange frame has log2(trace_length)+1 <= 64 elements; for the number of constraint composition columns
   the crate states no bound, 2^10 is an assumption *)
Lemma narrow_OodFrame width elem_bytes lagrange_elems num_evaluations :
  0 <= width <= 255 -> 0 <= elem_bytes <= 48 -> 0 <= lagrange_elems <= 64 -> 0 <= num_evaluations <= 1024 ->
  1 + 2 * width * elem_bytes < 2 ^ 16 /\ 1 + lagrange_elems * elem_bytes < 2 ^ 16 /\ num_evaluations * elem_bytes < 2 ^ 16.
Proof. intros. change (2 ^ 16) with 65536. nia. Qed.

(* ... but the setters themselves put no bound: a frame with 65536 evaluation bytes is not decoded back *)
Lemma narrow_OodFrame_refuted :
  exists f, len (ood_evaluations f) = 2 ^ 16 /\ read_OodFrame (write_OodFrame f) <> Ok (f, []).
Proof.
  exists (mkOod [] [] (repeat 0 (Z.to_nat 65536))).
  assert (Hlen : len (repeat 0 (Z.to_nat 65536)) = 65536)
    by (unfold len; rewrite repeat_length, Z2Nat.id by lia; reflexivity).
  split; [exact Hlen|].
  (* only the length of the evaluation bytes matters: the u16 prefix wraps to 0 and the reader takes no byte *)
  set (ev := repeat 0 (Z.to_nat 65536)) in *. clearbody ev. destruct ev as [|b ev]; [discriminate Hlen|].
  unfold write_OodFrame, write_blob. cbn [ood_trace_states ood_lagrange ood_evaluations]. rewrite Hlen.
  intros H.
  apply (f_equal (fun r => match r with Ok (f', _) => len (ood_evaluations f') | _ => -1 end)) in H.
  vm_compute in H. discriminate H.
Qed.

(* --------------------------------------------------------------------------------- FriProofLayer, FriProof *)
Definition wf_FriProofLayer (l : FriProofLayer) : Prop :=
  0 < len (fl_values l) < 2 ^ 32 /\ len (fl_paths l) < 2 ^ 32.
Definition wf_FriProof (p : FriProof) : Prop :=
  Z.of_nat (length (fri_layers p)) <= 255 /\ Forall wf_FriProofLayer (fri_layers p) /\
  len (fri_remainder p) < 2 ^ 16 /\ 0 <= fri_num_partitions p < 64.

Theorem rt_FriProofLayer : RT write_FriProofLayer read_FriProofLayer wf_FriProofLayer.
Proof.
  intros [v p] rest [Hv Hp]. cbn [fl_values fl_paths] in *.
  unfold write_FriProofLayer, read_FriProofLayer. cbn [fl_values fl_paths].
  unfold write_blob at 1. rewrite wrap_small by (change (8 * Z.of_nat 4) with 32; lia).
  rt_next_by rt_u32 ltac:(cbv beta; lia).
  destruct (Z.eqb_spec (len v) 0); [lia|].
  unfold write_bytes, read_vec. erewrite bind_ok by apply read_slice_app.
  rt_next (rt_blob 4). reflexivity.
Qed.

Theorem rt_FriProof : RT write_FriProof read_FriProof wf_FriProof.
Proof.
  intros [layers r np] rest (Hn & Hl & Hr & Hnp). cbn [fri_layers fri_remainder fri_num_partitions] in *.
  unfold write_FriProof, read_FriProof. cbn [fri_layers fri_remainder fri_num_partitions].
  rewrite wrap_small by lia.
  rt_next rt_u8.
  erewrite bind_ok by (apply (rt_many _ _ _ rt_FriProofLayer); exact Hl).
  rt_next (rt_blob 2).
  rt_next rt_u8. destruct (Z.geb_spec np 64); [lia | reflexivity].
Qed.

(* at most log2(2^32) layers (domains have at most 2^32 points), a remainder of at most 256 elements (degree <= 255)
   of at most 48 bytes *)
Lemma narrow_FriProof num_layers rem_elems elem_bytes :
  0 <= num_layers <= 32 -> 0 <= rem_elems <= 256 -> 0 <= elem_bytes <= 48 ->
  wrap 8 num_layers = num_layers /\ wrap 16 (rem_elems * elem_bytes) = rem_elems * elem_bytes.
Proof. intros. split; apply wrap_small; [lia | change (2 ^ 16) with 65536; nia]. Qed.

Lemma narrow_FriProof_refuted :
  exists p, length (fri_layers p) = 256%nat /\ Forall wf_FriProofLayer (fri_layers p) /\
            read_FriProof (write_FriProof p) <> Ok (p, []).
Proof.
  exists (mkFri (repeat (mkFL [7] []) 256) [] 0). split; [|split].
  - cbn [fri_layers]. apply repeat_length.
  - cbn [fri_layers]. apply Forall_forall. intros x Hx. apply repeat_spec in Hx. subst.
    unfold wf_FriProofLayer, len. cbn [fl_values fl_paths length Z.of_nat Pos.of_succ_nat]. lia.
  - intros H.
    apply (f_equal (fun r => match r with Ok (p', _) => Z.of_nat (length (fri_layers p')) | _ => -1 end)) in H.
    vm_compute in H. discriminate H.
Qed.

(* ---------------------------------------------------------------------------------------------- Proof *)
(* Proof is a plain struct with public fields: the invariants are those of its components plus the one the
   writer relies on (one Queries per trace segment: the count is not written, the reader derives it from
   the context). *)
Definition wf_gkr (g : option bytes) : Prop :=
  match g with Some b => Z.of_nat (length b) < 2 ^ 64 /\ Forall (fun _ => True) b | None => True end.

Definition wf_Proof (p : Proof) : Prop :=
  wf_Context (pr_context p) /\ 0 <= pr_num_unique_queries p < 256 /\ wf_Commitments (pr_commitments p) /\
  Z.of_nat (length (pr_trace_queries p)) = ti_num_segments (ctx_trace_info (pr_context p)) /\
  Forall wf_Queries (pr_trace_queries p) /\ wf_Queries (pr_constraint_queries p) /\
  wf_OodFrame (pr_ood_frame p) /\ wf_FriProof (pr_fri_proof p) /\ 0 <= pr_pow_nonce p < 2 ^ 64 /\
  wf_gkr (pr_gkr_proof p).

Theorem rt_Proof : RT write_Proof read_Proof wf_Proof.
Proof.
  intros [c nuq com tq cq ood fri nonce gkr] rest.
  unfold wf_Proof. cbn [pr_context pr_num_unique_queries pr_commitments pr_trace_queries pr_constraint_queries
    pr_ood_frame pr_fri_proof pr_pow_nonce pr_gkr_proof].
  intros (Hc & Hnuq & Hcom & Hn & Htq & Hcq & Hood & Hfri & Hnonce & Hgkr).
  unfold write_Proof, read_Proof. cbn [pr_context pr_num_unique_queries pr_commitments pr_trace_queries
    pr_constraint_queries pr_ood_frame pr_fri_proof pr_pow_nonce pr_gkr_proof].
  rt_next rt_Context. rt_next rt_u8. rt_next rt_Commitments.
  rewrite <- Hn. erewrite bind_ok by (apply (rt_many _ _ _ rt_Queries); exact Htq).
  rt_next rt_Queries. rt_next rt_OodFrame. rt_next rt_FriProof.
  rt_next_by rt_u64 ltac:(cbv beta; lia).
  erewrite bind_ok.
  2:{ apply (rt_option _ _ _ (rt_vec _ _ _ rt_u8)). exact Hgkr. }
  reflexivity.
Qed.

Lemma wf_Proof_ok p : wf_Proof p -> write_Proof_ok p = true.
Proof.
  intros (Hc & _ & Hcom & _). unfold write_Proof_ok.
  destruct (narrow_Context _ Hc) as [_ ->]. now rewrite wf_Commitments_ok.
Qed.

(* -------------------------------------------------------------------------------- readers never panic *)
Definition is_bytes (bs : bytes) : Prop := Forall (fun b => 0 <= b < 256) bs.

(* [safeP P r]: on well-formed byte input the reader does not panic; a successful read yields a value in P and
   leaves well-formed bytes *)
Definition safeP {A} (P : A -> Prop) (r : Rd A) : Prop :=
  forall bs, is_bytes bs ->
    match r bs with Ok (a, rest) => P a /\ is_bytes rest | Err _ => True | Panic => False end.

Lemma safe_bind {A B} (P : A -> Prop) (Q : B -> Prop) (r : Rd A) (f : A -> Rd B) :
  safeP P r -> (forall a, P a -> safeP Q (f a)) -> safeP Q (bind r f).
Proof.
  intros Hr Hf bs Hbs. unfold bind. specialize (Hr bs Hbs).
  destruct (r bs) as [[a rest]| |]; auto. destruct Hr as [Pa Hrest]. exact (Hf a Pa rest Hrest).
Qed.

Lemma safe_ret {A} (P : A -> Prop) a : P a -> safeP P (ret a).
Proof. intros Pa bs Hbs. cbn. auto. Qed.

Lemma safe_fail {A} (P : A -> Prop) e : safeP P (@fail A e).
Proof. intros bs _. exact I. Qed.

Lemma safe_weaken {A} (P Q : A -> Prop) r : (forall a, P a -> Q a) -> safeP P r -> safeP Q r.
Proof.
  intros H Hr bs Hbs. specialize (Hr bs Hbs). destruct (r bs) as [[a rest]| |]; auto.
  destruct Hr; split; auto.
Qed.

Lemma safe_read_u8 : safeP (fun b => 0 <= b < 256) read_u8.
Proof. intros [|b r] H; cbn; auto. inversion H; subst. auto. Qed.

Lemma take_is_bytes n bs h t : take n bs = Some (h, t) -> is_bytes bs -> is_bytes h /\ is_bytes t.
Proof.
  intros E H. destruct (take_length _ _ _ _ E) as [-> _]. unfold is_bytes in *. now apply Forall_app in H.
Qed.

Lemma safe_read_array n : safeP is_bytes (read_array n).
Proof.
  intros bs H. unfold read_array. destruct (take n bs) as [[h t]|] eqn:E; auto.
  exact (take_is_bytes _ _ _ _ E H).
Qed.

Lemma safe_read_slice n : safeP is_bytes (read_slice n).
Proof.
  intros bs H. unfold read_slice. destruct (n <=? len bs); [|exact I]. now apply safe_read_array.
Qed.

Lemma safe_read_slice_len n : 0 <= n -> safeP (fun m => is_bytes m /\ len m = n) (read_slice n).
Proof.
  intros Hn bs Hbs. unfold read_slice. destruct (n <=? len bs); [|exact I].
  unfold read_array. destruct (take (Z.to_nat n) bs) as [[h t]|] eqn:E; [|exact I].
  destruct (take_is_bytes _ _ _ _ E Hbs). destruct (take_length _ _ _ _ E) as [_ Hl].
  repeat split; auto. unfold len. rewrite Hl. apply Z2Nat.id, Hn.
Qed.

Lemma safe_read_uint k : safeP (fun x => 0 <= x < 256 ^ Z.of_nat k) (read_uint k).
Proof.
  intros bs H. unfold read_uint, bind, read_array.
  destruct (take k bs) as [[h t]|] eqn:E; [|exact I].
  destruct (take_is_bytes _ _ _ _ E H) as [Hh Ht]. destruct (take_length _ _ _ _ E) as [_ <-].
  cbn. split; [now apply of_le_bytes_range | exact Ht].
Qed.

Lemma safe_lift {A} (P : A -> Prop) (x : Result A) : x <> Panic -> (forall a, x = Ok a -> P a) -> safeP P (lift x).
Proof. intros Hx HP bs Hbs. unfold lift. destruct x; auto. Qed.

Ltac norm_bools :=
  cbv beta in *;
  repeat match goal with H : negb _ = false |- _ => apply negb_false_iff in H end;
  repeat match goal with
         | H : (_ =? _) = false |- _ => apply Z.eqb_neq in H
         | H : (_ >? _) = false |- _ => rewrite Z.gtb_ltb in H; apply Z.ltb_ge in H
         | H : (_ <? _) = false |- _ => apply Z.ltb_ge in H
         | H : (_ >=? _) = false |- _ => rewrite Z.geb_leb in H; apply Z.leb_gt in H
         end.

Lemma safe_read_FieldExtension : safeP (fun _ => True) read_FieldExtension.
Proof.
  unfold read_FieldExtension. eapply safe_bind; [apply safe_read_u8|]. intros b _.
  repeat match goal with |- context [if ?c then _ else _] => destruct c end;
    try (apply safe_ret; exact I); apply safe_fail.
Qed.

(* ProofOptions::read_from: the validation in the reader covers every assert of ProofOptions::new *)
Theorem read_ProofOptions_no_panic : safeP wf_ProofOptions read_ProofOptions.
Proof.
  unfold read_ProofOptions.
  eapply safe_bind; [apply safe_read_u8|]. intros nq Hnq.
  eapply safe_bind; [apply safe_read_u8|]. intros bf Hbf.
  eapply safe_bind; [apply safe_read_u8|]. intros gf Hgf.
  eapply safe_bind; [apply safe_read_FieldExtension|]. intros fe _.
  eapply safe_bind; [apply safe_read_u8|]. intros ff Hff.
  eapply safe_bind; [apply safe_read_u8|]. intros rd Hrd.
  destruct ((nq =? 0) || (nq >? 255)) eqn:C1; [apply safe_fail|].
  destruct (negb (is_pow2 bf) || (bf <? 2) || (bf >? 128)) eqn:C2; [apply safe_fail|].
  destruct (gf >? 32) eqn:C3; [apply safe_fail|].
  destruct (negb (is_pow2 ff) || (ff <? 2) || (ff >? 16)) eqn:C4; [apply safe_fail|].
  destruct (negb (is_pow2 (rd + 1)) || (rd >? 255)) eqn:C5; [apply safe_fail|].
  repeat match goal with H : orb _ _ = false |- _ => apply orb_false_elim in H; destruct H end.
  norm_bools.
  assert (E : ProofOptions_new nq bf gf fe ff rd =
              Ok (mkPO (wrap 8 nq) (wrap 8 bf) (wrap 8 gf) fe (wrap 8 ff) (wrap 8 rd)))
    by (apply ProofOptions_new_ok; auto; lia).
  apply safe_lift; rewrite E; [discriminate|].
  intros a Ha. inversion Ha; subst. exists nq, bf, gf, fe, ff, rd. repeat split; try lia. exact E.
Qed.

(* TraceInfo::read_from: the validation in the reader covers every assert of new_multi_segment; the metadata is copied
   from the input, so it is a byte string *)
Lemma read_TraceInfo_safe : safeP (fun t => wf_TraceInfo t /\ is_bytes (ti_meta t)) read_TraceInfo.
Proof.
  unfold read_TraceInfo.
  eapply safe_bind; [apply safe_read_u8|]. intros main Hmain.
  destruct (main =? 0) eqn:C1; [apply safe_fail|].
  eapply safe_bind; [apply safe_read_u8|]. intros aux Haux.
  destruct (main + aux >? 255) eqn:C2; [apply safe_fail|].
  eapply safe_bind; [apply safe_read_u8|]. intros rands Hrands.
  destruct ((aux =? 0) && negb (rands =? 0)) eqn:C3; [apply safe_fail|].
  destruct (rands >? 255) eqn:C4; [apply safe_fail|].
  eapply safe_bind; [apply safe_read_u8|]. intros e He.
  destruct (e <? 3) eqn:C5; [apply safe_fail|].
  destruct (e >=? 64) eqn:C6; [apply safe_fail|].
  eapply safe_bind; [apply (safe_read_uint 2)|]. intros n Hn.
  eapply (safe_bind (fun m => is_bytes m /\ len m <= 65535)).
  { cbv beta in Hn. change (256 ^ Z.of_nat 2) with 65536 in Hn.
    destruct (negb (n =? 0)); [|apply safe_ret; split; [constructor | cbn; lia]].
    eapply safe_weaken; [|apply (safe_read_slice_len n); lia]. cbv beta. intros m [Hm Hl]. split; [exact Hm | lia]. }
  intros meta [Hmeta Hlen].
  norm_bools.
  assert (Hp : 2 ^ 3 <= 2 ^ e < 2 ^ 64).
  { split; [apply Z.pow_le_mono_r; lia | apply Z.pow_lt_mono_r; lia]. }
  change (2 ^ 3) with 8 in Hp.
  assert (E : TraceInfo_new_multi_segment main aux rands (2 ^ e) meta = Ok (mkTI main aux rands (2 ^ e) meta)).
  { unfold TraceInfo_new_multi_segment, assert_, usize_max.
    rewrite is_pow2_pow by lia.
    destruct (Z.geb_spec (2 ^ e) 8); [|lia]. destruct (Z.leb_spec (len meta) 65535); [|lia].
    destruct (Z.gtb_spec main 0); [|lia].
    destruct (Z.leb_spec (Z.min (main + aux) (2 ^ 64 - 1)) 255); [|lia].
    assert (C : (if aux =? 0 then rands =? 0 else true) = true).
    { destruct (Z.eqb_spec aux 0); [|reflexivity]. cbn [andb] in C3. now apply negb_false_iff in C3. }
    rewrite C. destruct (Z.leb_spec rands 255); [reflexivity | lia]. }
  apply safe_lift; rewrite E; [discriminate|].
  intros a Ha. inversion Ha; subst. split; [|exact Hmeta].
  exists main, aux, rands, (2 ^ e), meta. repeat split; try lia. exact E.
Qed.

Theorem read_TraceInfo_no_panic : safeP wf_TraceInfo read_TraceInfo.
Proof. exact (safe_weaken _ _ _ (fun t H => proj1 H) read_TraceInfo_safe). Qed.
