(* C15 / C05 — the hand model Model/Fri.v computes the integer terms that rs2v GENERATES from fri/src on every run
   (Gen/FriInt.v): FriOptions::new asserts, num_fri_layers, the guard/division of FriProof::parse_layers, the domain size
   and running degree bound of FriVerifier::new / verify_generic, the index arithmetic of map_positions_to_indexes /
   fold_positions / get_query_values.  The model works on nat, the generated terms on Z with explicit 64-bit wrap: the
   equalities hold in the usize range ([u64]), with the generated *_ok side condition where the Rust arithmetic is checked. *)
From Coq Require Import List Arith Bool Lia ZArith.
From VBase Require Import MachInt.
From VGen Require Import FriInt.
From VModel Require Import Fri.
From VProofs Require Import Pow2Facts.
Import ListNotations.
Local Open Scope nat_scope.

Definition u64 (n : nat) : Prop := (Z.of_nat n < 2 ^ 64)%Z.
Definition gopts (o : fri_options) : GFriOptions :=
  mkGFriOptions (Z.of_nat (fo_folding o)) (Z.of_nat (fo_remmax o)) (Z.of_nat (fo_blowup o)).

Lemma wrap_small x : (0 <= x < 2 ^ 64)%Z -> wrap 64 x = x.
Proof. intros H. unfold wrap. now apply Z.mod_small. Qed.

Lemma log2_Z n : Z.log2 (Z.of_nat n) = Z.of_nat (Nat.log2 n).
Proof.
  destruct n as [|n]; [reflexivity|].
  pose proof (Nat.log2_spec (S n) ltac:(lia)) as [A B].
  apply Z.log2_unique.
  - apply Nat2Z.is_nonneg.
  - change 2%Z with (Z.of_nat 2). rewrite <- Nat2Z.inj_succ, <- !Nat2Z.inj_pow. split; apply Nat2Z.inj_le || apply Nat2Z.inj_lt; assumption.
Qed.

Lemma is_pow2_Z n : FriInt.is_pow2 (Z.of_nat n) = Fri.is_pow2 n.
Proof.
  unfold FriInt.is_pow2, Fri.is_pow2. f_equal.
  - destruct (0 <? n) eqn:E; [apply Nat.ltb_lt in E; apply Z.ltb_lt; lia | apply Nat.ltb_ge in E; apply Z.ltb_ge; lia].
  - rewrite log2_Z. change 2%Z with (Z.of_nat 2). rewrite <- Nat2Z.inj_pow.
    destruct (2 ^ Nat.log2 n =? n) eqn:E.
    + apply Nat.eqb_eq in E. apply Z.eqb_eq. lia.
    + apply Nat.eqb_neq in E. apply Z.eqb_neq. lia.
Qed.

Lemma eqb_Z a b : (Z.of_nat a =? Z.of_nat b)%Z = (a =? b).
Proof. destruct (a =? b) eqn:E; [apply Nat.eqb_eq in E; apply Z.eqb_eq; lia | apply Nat.eqb_neq in E; apply Z.eqb_neq; lia]. Qed.

Lemma gtb_Z a b : (Z.of_nat a >? Z.of_nat b)%Z = negb (a <=? b).
Proof.
  rewrite Z.gtb_ltb. destruct (a <=? b) eqn:E; cbn.
  - apply Nat.leb_le in E. apply Z.ltb_ge. lia.
  - apply Nat.leb_gt in E. apply Z.ltb_lt. lia.
Qed.
Lemma ltb_Z a b : (Z.of_nat a <? Z.of_nat b)%Z = (a <? b).
Proof. destruct (a <? b) eqn:E; [apply Nat.ltb_lt in E; apply Z.ltb_lt; lia | apply Nat.ltb_ge in E; apply Z.ltb_ge; lia]. Qed.
Lemma leb_Z a b : (Z.of_nat a <=? Z.of_nat b)%Z = (a <=? b).
Proof. destruct (a <=? b) eqn:E; [apply Nat.leb_le in E; apply Z.leb_le; lia | apply Nat.leb_gt in E; apply Z.leb_gt; lia]. Qed.

(* ---------------------------------------------------------------- FriOptions::new *)
Theorem options_new_gen : forall b n r,
  options_new b n r = if fri_options_new_checks_ok (Z.of_nat b) (Z.of_nat n) (Z.of_nat r) then Ok (mkOpts b n r) else Panic.
Proof.
  intros b n r. unfold options_new, fri_options_new_checks_ok, supported_folding.
  rewrite is_pow2_Z. change 2%Z with (Z.of_nat 2). change 4%Z with (Z.of_nat 4). change 8%Z with (Z.of_nat 8).
  change 16%Z with (Z.of_nat 16). rewrite !eqb_Z.
  destruct (Fri.is_pow2 b); cbn [negb andb]; [|reflexivity].
  destruct ((n =? 2) || (n =? 4) || (n =? 8) || (n =? 16)); reflexivity.
Qed.

(* ---------------------------------------------------------------- num_fri_layers *)
(* stated for ANY condition / body that are extensionally the loop's test and step, so that the tie survives `a > b` written
   as `b < a` or the two statements of the body exchanged *)
Lemma nfl_loop_gen : forall (c : Z * Z -> bool) (b : Z * Z -> Z * Z) m ff,
  (forall ds r, c (ds, r) = Z.ltb (Z.of_nat m) ds) ->
  (forall ds r, b (ds, r) = (Z.div ds (Z.of_nat ff), wrap 64 (Z.add r 1))) ->
  forall fuel d acc, ff <> 0 -> (Z.of_nat acc + Z.of_nat fuel < 2 ^ 64)%Z ->
  option_map Z.of_nat (nfl_loop fuel d m ff acc)
  = option_map snd (while_loop fuel c b (Z.of_nat d, Z.of_nat acc)).
Proof.
  intros c b m ff Hc Hbd.
  induction fuel as [|fuel IH]; intros d acc Hff Hb; cbn [nfl_loop while_loop]; rewrite Hc, <- Z.gtb_ltb, gtb_Z.
  - destruct (d <=? m); reflexivity.
  - destruct (d <=? m); cbn [negb]; [reflexivity|].
    rewrite (eqb0_false ff) by assumption.
    rewrite Hbd, <- Nat2Z.inj_div.
    rewrite wrap_small by lia. replace (Z.of_nat acc + 1)%Z with (Z.of_nat (S acc)) by lia.
    rewrite IH by (try assumption; lia). reflexivity.
Qed.

Theorem num_fri_layers_gen : forall o d, fo_folding o <> 0 ->
  (Z.of_nat d + 1 < 2 ^ 64)%Z -> (Z.of_nat ((fo_remmax o + 1) * fo_blowup o) < 2 ^ 64)%Z -> u64 (fo_remmax o + 1) ->
  option_map Z.of_nat (num_fri_layers o d) = fri_num_fri_layers (S d) (gopts o) (Z.of_nat d).
Proof.
  intros o d Hff Hd Hm Hr. unfold num_fri_layers, fri_num_fri_layers, max_remainder_size, gopts, u64 in *.
  cbn [go_remainder_max_degree go_blowup_factor go_folding_factor]. cbv zeta.
  replace (wrap 64 (wrap 64 (Z.of_nat (fo_remmax o) + 1) * Z.of_nat (fo_blowup o)))
    with (Z.of_nat ((fo_remmax o + 1) * fo_blowup o)).
  2:{ rewrite (wrap_small (Z.of_nat (fo_remmax o) + 1)) by lia. rewrite wrap_small by lia. lia. }
  match goal with |- _ = match while_loop _ ?c ?b _ with _ => _ end =>
    rewrite (nfl_loop_gen c b ((fo_remmax o + 1) * fo_blowup o) (fo_folding o))
  end.
  - change (Z.of_nat 0) with 0%Z. destruct (while_loop _ _ _ _) as [[ds res]|]; reflexivity.
  - intros ds r. rewrite ?Z.gtb_ltb. reflexivity.
  - intros ds r. reflexivity.
  - exact Hff.
  - lia.
Qed.

(* ---------------------------------------------------------------- FriProof::parse_layers: guard and division *)
Theorem parse_layers_step_gen : forall d N i, N <> 0 ->
  fri_parse_layers_step (Z.of_nat d) (Z.of_nat N) i = if d <? N then None else Some (Z.of_nat (d / N)).
Proof.
  intros d N i HN. unfold fri_parse_layers_step. rewrite ltb_Z.
  destruct (d <? N); [reflexivity|]. now rewrite Nat2Z.inj_div.
Qed.

(* the model's parse_layers takes exactly this step for every layer *)
Theorem parse_layers_unfold_gen : forall F D (h : list F -> D) MN N d pl rest, N <> 0 ->
  parse_layers D h MN N d (pl :: rest) =
  match fri_parse_layers_step (Z.of_nat d) (Z.of_nat N) 0 with
  | None => Some None
  | Some ds =>
    match parse_layer D h MN N (Z.to_nat ds) pl with
    | None => None
    | Some None => Some None
    | Some (Some (q, mp)) =>
      match parse_layers D h MN N (Z.to_nat ds) rest with
      | None => None
      | Some None => Some None
      | Some (Some (qs, mps)) => Some (Some (q :: qs, mp :: mps))
      end
    end
  end.
Proof.
  intros F D h MN N d pl rest HN. rewrite parse_layers_step_gen by assumption. cbn [parse_layers].
  destruct (d <? N); [reflexivity|]. now rewrite Nat2Z.id.
Qed.

(* ---------------------------------------------------------------- FriVerifier::new *)
Lemma next_pow2_Z n : FriInt.next_pow2 (Z.of_nat n) = Z.of_nat (Fri.next_pow2 n).
Proof.
  unfold FriInt.next_pow2, Fri.next_pow2. change 1%Z with (Z.of_nat 1) at 1. rewrite leb_Z.
  destruct (n <=? 1) eqn:E; [reflexivity|]. apply Nat.leb_gt in E.
  rewrite Nat2Z.inj_pow. f_equal. unfold Z.log2_up.
  replace (1 ?= Z.of_nat n)%Z with Lt by (symmetry; apply Z.compare_lt_iff; lia).
  rewrite Nat2Z.inj_succ, <- log2_Z. do 2 f_equal. lia.
Qed.

Theorem verifier_new_domain_gen : forall m o,
  fri_verifier_new_domain_ok (Z.of_nat m) (gopts o) = true ->
  fri_verifier_new_domain (Z.of_nat m) (gopts o) = Z.of_nat (Fri.next_pow2 (m + 1) * fo_blowup o).
Proof.
  intros m o H. unfold fri_verifier_new_domain_ok, fri_verifier_new_domain, gopts, in_u in *.
  cbn [go_blowup_factor] in *.
  replace (Z.of_nat m + 1)%Z with (Z.of_nat (m + 1)) in * by lia.
  apply andb_true_iff in H. destruct H as [H H3]. apply andb_true_iff in H. destruct H as [H1 H2].
  apply andb_true_iff in H1, H2, H3. destruct H1 as [_ H1], H2 as [_ H2], H3 as [_ H3].
  apply Z.ltb_lt in H1. rewrite (wrap_small (Z.of_nat (m + 1))) in * by lia.
  rewrite next_pow2_Z in *. apply Z.ltb_lt in H2. rewrite (wrap_small (Z.of_nat (Fri.next_pow2 (m + 1)))) in * by lia.
  apply Z.ltb_lt in H3. rewrite wrap_small by lia. lia.
Qed.

(* one iteration of the commitment loop: the degree-truncation test and the division of the running bound,
   exactly the test of the model's draw_alphas (last = number of commitments - 1) *)
Lemma mod_eqb_Z a b : b <> 0 -> (Z.of_nat a mod Z.of_nat b =? 0)%Z = (a mod b =? 0).
Proof. intros Hb. rewrite <- Nat2Z.inj_mod. change 0%Z with (Z.of_nat 0). apply eqb_Z. Qed.

Theorem verifier_new_step_gen : forall depth len o mdp1, 1 <= len -> u64 len -> fo_folding o <> 0 ->
  fri_verifier_new_step (Z.of_nat depth) (Z.of_nat len) (gopts o) (Z.of_nat mdp1)
  = if negb (depth =? len - 1) && negb (mdp1 mod fo_folding o =? 0) then None
    else Some (Z.of_nat (mdp1 / fo_folding o)).
Proof.
  intros depth len o mdp1 Hl Hu Hff. unfold fri_verifier_new_step, gopts, fri_vec_len, u64 in *. cbn [go_folding_factor].
  replace (Z.of_nat len - 1)%Z with (Z.of_nat (len - 1)) by lia.
  rewrite wrap_small by lia. rewrite eqb_Z, mod_eqb_Z by assumption.
  destruct (negb (depth =? len - 1) && negb (mdp1 mod fo_folding o =? 0)); [reflexivity|].
  now rewrite Nat2Z.inj_div.
Qed.

(* the same test inside the model function: the head of draw_alphas *)
Theorem draw_alphas_head_gen : forall F D CS (reseed : CS -> D -> CS) (draw : CS -> CS * draw_res F)
  coin c rest depth o mdp1 coin2 alpha, fo_folding o <> 0 -> u64 (S (length rest)) ->
  draw (reseed coin c) = (coin2, DrawOk alpha) ->
  draw_alphas D CS reseed draw coin (c :: rest) depth (length (c :: rest) - 1) mdp1 (fo_folding o)
  = match fri_verifier_new_step (Z.of_nat depth) (Z.of_nat (length (c :: rest))) (gopts o) (Z.of_nat mdp1) with
    | None => Err (DegreeTruncation (mdp1 - 1) (fo_folding o) depth)
    | Some m =>
      bind (draw_alphas D CS reseed draw coin2 rest (S depth) (length (c :: rest) - 1) (Z.to_nat m) (fo_folding o))
           (fun r => let (cF, al) := r in Ok (cF, alpha :: al))
    end.
Proof.
  intros F D CS reseed draw coin c rest depth o mdp1 coin2 alpha Hff Hu Hd.
  rewrite verifier_new_step_gen by (try assumption; cbn; lia).
  cbn [draw_alphas]. rewrite Hd. rewrite (eqb0_false (fo_folding o)) by assumption.
  destruct (negb (depth =? length (c :: rest) - 1) && negb (mdp1 mod fo_folding o =? 0)); [reflexivity|].
  rewrite Nat2Z.id. reflexivity.
Qed.

(* ---------------------------------------------------------------- verify_generic: running bound, remainder bound *)
Theorem verify_layer_bound_gen : forall mdp1 N depth, N <> 0 ->
  fri_verify_layer_bound (Z.of_nat mdp1) (Z.of_nat N) depth = if negb (mdp1 mod N =? 0) then None else Some true.
Proof. intros. unfold fri_verify_layer_bound. now rewrite mod_eqb_Z. Qed.

Theorem verify_layer_updates_gen : forall x N, N <> 0 ->
  fri_verify_layer_degree_update (Z.of_nat x) (Z.of_nat N) = Z.of_nat (x / N) /\
  fri_verify_layer_domain_update (Z.of_nat x) (Z.of_nat N) = Z.of_nat (x / N) /\
  fri_query_row_length (Z.of_nat x) (Z.of_nat N) = Z.of_nat (x / N) /\
  fri_fold_target_size (Z.of_nat x) (Z.of_nat N) = Z.of_nat (x / N).
Proof.
  intros. unfold fri_verify_layer_degree_update, fri_verify_layer_domain_update, fri_query_row_length, fri_fold_target_size.
  now rewrite <- Nat2Z.inj_div.
Qed.

Theorem verify_remainder_bound_gen : forall len mdp1,
  fri_verify_remainder_bound (Z.of_nat len) (Z.of_nat mdp1) = if mdp1 <? len then None else Some true.
Proof.
  intros. unfold fri_verify_remainder_bound, fri_vec_len. rewrite gtb_Z.
  replace (len <=? mdp1) with (negb (mdp1 <? len)) by (rewrite Nat.ltb_antisym; now rewrite negb_involutive).
  rewrite negb_involutive. reflexivity.
Qed.

(* ---------------------------------------------------------------- fold_positions / map_positions_to_indexes *)
Theorem fold_positions_gen : forall ps d ff, ff <> 0 -> (d / ff <> 0 \/ ps = []) ->
  fold_positions ps d ff = Ok (fold_positions_core ps (Z.to_nat (fri_fold_target_size (Z.of_nat d) (Z.of_nat ff)))).
Proof.
  intros ps d ff Hff Ht. destruct (verify_layer_updates_gen d ff Hff) as [_ [_ [_ E]]]. rewrite E, Nat2Z.id.
  unfold fold_positions. rewrite (eqb0_false ff) by assumption.
  assert (G : (d / ff =? 0) && negb (is_nil ps) = false).
  { destruct Ht as [Ht|Ht]; [apply Nat.eqb_neq in Ht; now rewrite Ht | subst; cbn; apply andb_false_r]. }
  now rewrite G.
Qed.

Theorem map_position_index_gen : forall p np psize, np <> 0 ->
  fri_map_position_index_ok (Z.of_nat p) (Z.of_nat np) (Z.of_nat psize) = true ->
  fri_map_position_index (Z.of_nat p) (Z.of_nat np) (Z.of_nat psize)
  = Z.of_nat (p mod np * psize + (p - p mod np) / np).
Proof.
  intros p np psize Hnp H. unfold fri_map_position_index_ok, fri_map_position_index, in_u in *.
  rewrite <- Nat2Z.inj_mod in *.
  assert (Hle : p mod np <= p) by (apply Nat.mod_le; assumption).
  replace (Z.of_nat p - Z.of_nat (p mod np))%Z with (Z.of_nat (p - p mod np)) in * by lia.
  apply andb_true_iff in H. destruct H as [_ H]. apply andb_true_iff in H. destruct H as [H1 H].
  apply andb_true_iff in H1. destruct H1 as [H1 _]. apply andb_true_iff in H1. destruct H1 as [_ H1]. apply Z.ltb_lt in H1.
  rewrite (wrap_small (Z.of_nat (p - p mod np))) in * by lia. rewrite <- Nat2Z.inj_div in *.
  rewrite <- Nat2Z.inj_mul in *.
  apply andb_true_iff in H. destruct H as [H2 H3]. apply andb_true_iff in H2, H3. destruct H2 as [_ H2], H3 as [_ H3].
  apply Z.ltb_lt in H2. rewrite (wrap_small (Z.of_nat (p mod np * psize))) in * by lia.
  rewrite <- Nat2Z.inj_add in *. apply Z.ltb_lt in H3. now rewrite wrap_small by lia.
Qed.

Theorem map_positions_to_indexes_gen : forall ps d ff np, np <> 1 -> np <> 0 -> ff <> 0 ->
  (forall p, In p ps -> fri_map_position_index_ok (Z.of_nat p) (Z.of_nat np)
                          (fri_map_positions_sizes (Z.of_nat d) (Z.of_nat ff) (Z.of_nat np)) = true) ->
  map_positions_to_indexes ps d ff np
  = Ok (map (fun p => Z.to_nat (fri_map_position_index (Z.of_nat p) (Z.of_nat np)
                                  (fri_map_positions_sizes (Z.of_nat d) (Z.of_nat ff) (Z.of_nat np)))) ps).
Proof.
  intros ps d ff np H1 H0 Hff Hok. unfold map_positions_to_indexes.
  destruct (np =? 1) eqn:E1; [apply Nat.eqb_eq in E1; contradiction|].
  rewrite (eqb0_false ff) by assumption.
  rewrite (eqb0_false np) by assumption.
  f_equal. apply map_ext_in. intros p Hp. specialize (Hok p Hp).
  unfold fri_map_positions_sizes in *. rewrite <- !Nat2Z.inj_div in *.
  rewrite map_position_index_gen by assumption. now rewrite Nat2Z.id.
Qed.
