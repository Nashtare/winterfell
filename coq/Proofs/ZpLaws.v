(* Field laws of the executable prime field of Base/ZpOps.v.  `FLaws (zp_ops p)` quantifies over ALL of Z and is false
   (fadd 0 a = a fails for a >= p: zp_ops_laws_refuted), so the field is packaged on canonical residues:
   Zp p := { x : Z | (0 <=? x) && (x <? p) = true } (a boolean: proofs are unique without an axiom), zpT_ops with the
   operations of zp_ops p on the underlying Z (zpT_*_val), and zpT_laws : prime p -> 2 < p -> FLaws (zpT_ops p _).
   2 < p is necessary: zp_inv 2 0 = 0^0 mod 2 = 1 breaks fl_inv_0 (zpT_laws_2_refuted).  stdlib only, no axioms. *)
From Coq Require Import ZArith Lia Bool Eqdep_dec.
From VBase Require Import FieldOps ZpOps.
From VProofs Require Import NumTheoryFermat NumTheoryPrime.
Open Scope Z_scope.

(* ---------- canonical residues ---------- *)

Definition zp_canon (p x : Z) : bool := (0 <=? x) && (x <? p).

Definition Zp (p : Z) : Type := { x : Z | zp_canon p x = true }.

Definition zp_val {p} (a : Zp p) : Z := proj1_sig a.

Lemma zp_canon_iff : forall p x, zp_canon p x = true <-> 0 <= x < p.
Proof. intros. unfold zp_canon. rewrite andb_true_iff, Z.leb_le, Z.ltb_lt. tauto. Qed.

Lemma zp_val_range : forall p (a : Zp p), 0 <= zp_val a < p.
Proof. intros p [x Hx]. apply zp_canon_iff. exact Hx. Qed.

Lemma zp_val_inj : forall p (a b : Zp p), zp_val a = zp_val b -> a = b.
Proof.
  intros p [x Hx] [y Hy]. cbn [zp_val proj1_sig]. intros ->.
  f_equal. apply UIP_dec. apply bool_dec.
Qed.

Lemma zp_canon_mod : forall p x, 1 < p -> zp_canon p (x mod p) = true.
Proof. intros. apply zp_canon_iff. apply Z.mod_pos_bound. lia. Qed.

Lemma zp_canon_0 : forall p, 1 < p -> zp_canon p 0 = true.
Proof. intros. apply zp_canon_iff. lia. Qed.

Lemma zp_canon_inv : forall p x, 1 < p -> zp_canon p (zp_inv p x) = true.
Proof. intros. apply zp_canon_iff. apply zp_inv_range. lia. Qed.

(* ---------- the operations on Zp p ---------- *)

Section Ops.
  Variable p : Z.
  Hypothesis Hp : 1 < p.

  (* reduce an integer into Zp p *)
  Definition zp_mk (x : Z) : Zp p := exist _ (x mod p) (zp_canon_mod p x Hp).

  Definition zpT_ops : FOps (Zp p) := {|
    fzero := exist _ 0 (zp_canon_0 p Hp);
    fone := zp_mk 1;
    fadd := fun a b => zp_mk (zp_val a + zp_val b);
    fsub := fun a b => zp_mk (zp_val a - zp_val b);
    fmul := fun a b => zp_mk (zp_val a * zp_val b);
    fneg := fun a => zp_mk (- zp_val a);
    fdouble := fun a => zp_mk (zp_val a + zp_val a);
    fsquare := fun a => zp_mk (zp_val a * zp_val a);
    finv := fun a => exist _ (zp_inv p (zp_val a)) (zp_canon_inv p (zp_val a) Hp);
    fdiv := fun a b => zp_mk (zp_val a * zp_inv p (zp_val b));
    feqb := fun a b => Z.eqb (zp_val a) (zp_val b);
    fofz := fun v => zp_mk v
  |}.

  (* every operation of zpT_ops is the operation of zp_ops p on the underlying integers *)
  Lemma zpT_zero_val : proj1_sig (fzero zpT_ops) = fzero (zp_ops p).
  Proof. reflexivity. Qed.
  Lemma zpT_one_val : proj1_sig (fone zpT_ops) = fone (zp_ops p).
  Proof. reflexivity. Qed.
  Lemma zpT_add_val : forall a b,
    proj1_sig (fadd zpT_ops a b) = fadd (zp_ops p) (proj1_sig a) (proj1_sig b).
  Proof. reflexivity. Qed.
  Lemma zpT_sub_val : forall a b,
    proj1_sig (fsub zpT_ops a b) = fsub (zp_ops p) (proj1_sig a) (proj1_sig b).
  Proof. reflexivity. Qed.
  Lemma zpT_mul_val : forall a b,
    proj1_sig (fmul zpT_ops a b) = fmul (zp_ops p) (proj1_sig a) (proj1_sig b).
  Proof. reflexivity. Qed.
  Lemma zpT_neg_val : forall a,
    proj1_sig (fneg zpT_ops a) = fneg (zp_ops p) (proj1_sig a).
  Proof. reflexivity. Qed.
  Lemma zpT_double_val : forall a,
    proj1_sig (fdouble zpT_ops a) = fdouble (zp_ops p) (proj1_sig a).
  Proof. reflexivity. Qed.
  Lemma zpT_square_val : forall a,
    proj1_sig (fsquare zpT_ops a) = fsquare (zp_ops p) (proj1_sig a).
  Proof. reflexivity. Qed.
  Lemma zpT_inv_val : forall a,
    proj1_sig (finv zpT_ops a) = finv (zp_ops p) (proj1_sig a).
  Proof. reflexivity. Qed.
  Lemma zpT_div_val : forall a b,
    proj1_sig (fdiv zpT_ops a b) = fdiv (zp_ops p) (proj1_sig a) (proj1_sig b).
  Proof. reflexivity. Qed.
  Lemma zpT_eqb_val : forall a b,
    feqb zpT_ops a b = feqb (zp_ops p) (proj1_sig a) (proj1_sig b).
  Proof. reflexivity. Qed.
  Lemma zpT_ofz_val : forall v,
    proj1_sig (fofz zpT_ops v) = fofz (zp_ops p) v.
  Proof. reflexivity. Qed.

  (* fofz is onto, and is the identity on canonical representatives *)
  Lemma zpT_ofz_of_val : forall a : Zp p, fofz zpT_ops (proj1_sig a) = a.
  Proof.
    intros a. apply zp_val_inj. cbn [zp_val fofz zpT_ops zp_mk proj1_sig].
    apply Z.mod_small. apply (zp_val_range p a).
  Qed.
End Ops.

Theorem zpT_laws : forall p (Hp : Znumtheory.prime p) (H2 : 2 < p),
  FLaws (zpT_ops p (prime_gt1 p Hp)).
Proof.
  intros p Hp H2.
  set (H1 := prime_gt1 p Hp). clearbody H1.
  assert (R : forall a : Zp p, 0 <= zp_val a < p) by apply zp_val_range.
  constructor;
    try (intros a b c; pose proof (R a); pose proof (R b); pose proof (R c));
    try (intros a b; pose proof (R a); pose proof (R b));
    try (intros a; pose proof (R a));
    try (apply zp_val_inj; cbn [zp_val fzero fone fadd fsub fmul fneg fdouble fsquare finv fdiv
                                zpT_ops zp_mk proj1_sig]).
  - (* add_comm *) f_equal; ring.
  - (* add_assoc *)
    rewrite Z.add_mod_idemp_r, Z.add_mod_idemp_l by lia. f_equal; ring.
  - (* add_0_l *) apply Z.mod_small. lia.
  - (* mul_comm *) f_equal; ring.
  - (* mul_assoc *)
    rewrite Z.mul_mod_idemp_r, Z.mul_mod_idemp_l by lia. f_equal; ring.
  - (* mul_1_l *)
    rewrite Z.mul_mod_idemp_l by lia. rewrite Z.mul_1_l. apply Z.mod_small. lia.
  - (* distr_l *)
    rewrite Z.mul_mod_idemp_l by lia. rewrite <- Z.add_mod by lia. f_equal; ring.
  - (* sub_def *)
    rewrite Z.add_mod_idemp_r by lia. f_equal; ring.
  - (* neg_def *)
    rewrite Z.add_mod_idemp_r by lia. rewrite Z.add_opp_diag_r. apply Z.mod_0_l. lia.
  - (* double_def *) reflexivity.
  - (* square_def *) reflexivity.
  - (* one_neq_zero *)
    intros E. apply (f_equal zp_val) in E. cbn [zp_val fone fzero zpT_ops zp_mk proj1_sig] in E.
    rewrite Z.mod_small in E by lia. discriminate.
  - (* inv_l *)
    intros Hne. apply zp_val_inj.
    cbn [zp_val fzero fone fadd fsub fmul fneg fdouble fsquare finv fdiv
         zpT_ops zp_mk proj1_sig].
    rewrite (Z.mod_small 1 p) by lia.
    apply zp_inv_spec; [exact Hp|lia|].
    intros E. apply Hne. apply zp_val_inj. exact E.
  - (* inv_0 *)
    apply zp_inv_0. exact H2.
  - (* div_def *)
    reflexivity.
  - (* eqb_spec *)
    cbn [feqb zpT_ops]. rewrite Z.eqb_eq. split; [apply zp_val_inj|intros ->; reflexivity].
Qed.

Definition F64_ops : FOps (Zp P64) := zpT_ops P64 (prime_gt1 P64 P64_prime).
Definition F62_ops : FOps (Zp P62) := zpT_ops P62 (prime_gt1 P62 P62_prime).
Definition F128_ops : FOps (Zp P128) := zpT_ops P128 (prime_gt1 P128 P128_prime).

Definition F64_laws : FLaws F64_ops := zpT_laws P64 P64_prime eq_refl.
Definition F62_laws : FLaws F62_ops := zpT_laws P62 P62_prime eq_refl.
Definition F128_laws : FLaws F128_ops := zpT_laws P128 P128_prime eq_refl.

(* ---------- plain-Z closure facts (operations of zp_ops p stay canonical) ---------- *)

Lemma zp_ops_closed : forall p, 1 < p ->
  let O := zp_ops p in let C x := 0 <= x < p in
  C (fzero O) /\ C (fone O) /\
  (forall a b, C (fadd O a b)) /\ (forall a b, C (fsub O a b)) /\ (forall a b, C (fmul O a b)) /\
  (forall a, C (fneg O a)) /\ (forall a, C (fdouble O a)) /\ (forall a, C (fsquare O a)) /\
  (forall a, C (finv O a)) /\ (forall a b, C (fdiv O a b)) /\ (forall v, C (fofz O v)).
Proof.
  intros p Hp. cbv zeta. cbn [zp_ops fzero fone fadd fsub fmul fneg fdouble fsquare finv fdiv fofz].
  repeat split; intros; try (apply Z.mod_pos_bound; lia); try (apply zp_inv_range; lia); lia.
Qed.

(* ---------- why the statements have the shape they have ---------- *)

(* FLaws over all of Z is false for every modulus p > 0: fl_add_0_l fails at a = p. *)
Lemma zp_ops_laws_refuted : forall p, 0 < p -> ~ FLaws (zp_ops p).
Proof.
  intros p Hp L. assert (E := fl_add_0_l _ L p).
  cbn [zp_ops fadd fzero] in E. rewrite Z.add_0_l, Z.mod_same in E by lia. lia.
Qed.

(* At p = 2 the law fl_inv_0 fails (zp_inv 2 0 = 1): the hypothesis 2 < p of zpT_laws is needed. *)
Lemma zpT_laws_2_refuted : forall H : 1 < 2, ~ FLaws (zpT_ops 2 H).
Proof.
  intros H L. assert (E := fl_inv_0 _ L). apply (f_equal (@proj1_sig _ _)) in E.
  cbn [zpT_ops finv fzero proj1_sig zp_val] in E. vm_compute in E. discriminate.
Qed.

Print Assumptions zpT_laws.
Print Assumptions F64_laws.
Print Assumptions F62_laws.
Print Assumptions F128_laws.
