(* C14 — crypto/src/merkle/concurrent.rs build_merkle_nodes: every schedule of the three phases (leaf row in
   parallel, one spawned task per subtree, the tip on the calling thread) produces the vector of the serial
   crypto/src/merkle/mod.rs build_merkle_nodes, for every content of the un-initialised vector. *)
From Coq Require Import List Arith Bool Lia Permutation.
From VModel Require Import FFT Par.
From VProofs Require Import ListFacts Pow2Facts ParLists ParCommute.
Import ListNotations.

(* ---------------------------------------------------------------- helpers *)
Lemma pm_in_desc_range s l c : In c (desc_range s l) <-> s <= c < s + l.
Proof. unfold desc_range. rewrite <- in_rev, in_seq. reflexivity. Qed.

Lemma pm_desc_range_S s l : desc_range s (S l) = (s + l) :: desc_range s l.
Proof. unfold desc_range. rewrite seq_S, rev_app_distr. reflexivity. Qed.

Lemma pm_NoDup_desc_range s l : NoDup (desc_range s l).
Proof. unfold desc_range. apply NoDup_rev, seq_NoDup. Qed.

Lemma pm_sequence_opt_some {A B} (g : A -> B) (l : list A) :
  sequence_opt (map (fun i => Some (g i)) l) = Some (map g l).
Proof. induction l as [|a l IH]; [reflexivity|]. cbn [map sequence_opt]. rewrite IH. reflexivity. Qed.

Section MerkleSpec.
Context {D : Type} (d0 : D) (merge : D -> D -> D).
Notation node_task := (node_task d0 merge).
Notation leaf_task := (leaf_task d0 merge).
Notation task_ok := (task_ok d0).

(* ================================================================ A. atomic steps are well-formed *)
Lemma node_task_ok k : task_ok (node_task k).
Proof.
  unfold Par.node_task. apply cell_task_ok. intros s s' _ H.
  rewrite (H (2 * k)), (H (2 * k + 1)); [reflexivity|right; left; reflexivity|left; reflexivity].
Qed.

Lemma leaf_task_ok leaves n i : task_ok (leaf_task leaves n i).
Proof. unfold Par.leaf_task. apply cell_task_ok. intros; reflexivity. Qed.

Lemma pm_node_run k s : t_run (node_task k) s = lupd s k (merge (nth (2 * k) s d0) (nth (2 * k + 1) s d0)).
Proof. reflexivity. Qed.

Lemma pm_leaf_run leaves n i s :
  t_run (leaf_task leaves n i) s = lupd s (n + i) (merge (nth (2 * i) leaves d0) (nth (2 * i + 1) leaves d0)).
Proof. reflexivity. Qed.

Lemma pm_writes_nodes ks : flat_map t_writes (map node_task ks) = ks.
Proof. induction ks as [|x ks IH]; [reflexivity|]. cbn [map flat_map]. rewrite IH. reflexivity. Qed.

Lemma pm_writes_leaves leaves n l : flat_map t_writes (map (leaf_task leaves n) l) = map (fun i => n + i) l.
Proof. induction l as [|x l IH]; [reflexivity|]. cbn [map flat_map]. rewrite IH. reflexivity. Qed.

Lemma pm_nodes_ok ks : Forall task_ok (map node_task ks).
Proof. apply Forall_forall. intros t Ht. apply in_map_iff in Ht. destruct Ht as (x & <- & _). apply node_task_ok. Qed.

(* ================================================================ read-closure of a step list *)
(* every step reads only cells of [lo, hi) or cells written by an EARLIER step of the list *)
Definition reads_closed (lo hi : nat) (steps : list (task D)) : Prop :=
  forall pre x post, steps = pre ++ x :: post ->
  forall c, In c (t_reads x) -> (lo <= c < hi) \/ In c (flat_map t_writes pre).

(* recursive form, relative to a set W of already written cells *)
Fixpoint rc (lo hi : nat) (W : list nat) (steps : list (task D)) : Prop :=
  match steps with
  | [] => True
  | x :: t => (forall c, In c (t_reads x) -> lo <= c < hi \/ In c W) /\ rc lo hi (W ++ t_writes x) t
  end.

Lemma rc_mono lo hi steps : forall W W', (forall c, In c W -> In c W') -> rc lo hi W steps -> rc lo hi W' steps.
Proof.
  induction steps as [|x t IH]; intros W W' Hs H; [exact I|]. destruct H as [H1 H2]. split.
  - intros c Hc. destruct (H1 c Hc); auto.
  - apply (IH (W ++ t_writes x)); [|exact H2]. intros c. rewrite !in_app_iff. intros [H|H]; auto.
Qed.

Lemma rc_app lo hi A B : forall W, rc lo hi W A -> rc lo hi (W ++ flat_map t_writes A) B -> rc lo hi W (A ++ B).
Proof.
  induction A as [|x A IH]; intros W HA HB.
  - cbn [flat_map] in HB. rewrite app_nil_r in HB. exact HB.
  - destruct HA as [H1 H2]. cbn [app]. split; [exact H1|]. apply IH; [exact H2|].
    cbn [flat_map] in HB. rewrite app_assoc in HB. exact HB.
Qed.

Lemma rc_flat lo hi steps W :
  (forall x, In x steps -> forall c, In c (t_reads x) -> lo <= c < hi \/ In c W) -> rc lo hi W steps.
Proof.
  revert W. induction steps as [|x t IH]; intros W H; [exact I|]. split.
  - apply H. left. reflexivity.
  - apply IH. intros y Hy c Hc. destruct (H y (or_intror Hy) c Hc); auto. right. apply in_app_iff. auto.
Qed.

Lemma rc_concat lo hi tss : forall W, Forall (rc lo hi []) tss -> rc lo hi W (concat tss).
Proof.
  induction tss as [|l tss IH]; intros W H; [exact I|]. inversion H; subst. cbn [concat]. apply rc_app.
  - eapply rc_mono; [|eassumption]. intros c [].
  - apply IH. assumption.
Qed.

Lemma rc_closed_gen lo hi pre x post : forall W, rc lo hi W (pre ++ x :: post) ->
  forall c, In c (t_reads x) -> lo <= c < hi \/ In c (W ++ flat_map t_writes pre).
Proof.
  induction pre as [|y pre IH]; intros W [H1 H2] c Hc.
  - rewrite app_nil_r. exact (H1 c Hc).
  - cbn [flat_map]. rewrite app_assoc. exact (IH _ H2 c Hc).
Qed.

Lemma rc_reads_closed lo hi steps : rc lo hi [] steps -> reads_closed lo hi steps.
Proof. intros H pre x post -> c Hc. exact (rc_closed_gen lo hi pre x post [] H c Hc). Qed.

(* ================================================================ B. the serial code *)
Lemma exec_leaf_phase leaves n : forall j s, j <= n -> length s = 2 * n ->
  length (exec (map (leaf_task leaves n) (seq 0 j)) s) = 2 * n /\
  (forall c, c < n \/ n + j <= c -> nth c (exec (map (leaf_task leaves n) (seq 0 j)) s) d0 = nth c s d0) /\
  (forall i, i < j -> nth (n + i) (exec (map (leaf_task leaves n) (seq 0 j)) s) d0
                      = merge (nth (2 * i) leaves d0) (nth (2 * i + 1) leaves d0)).
Proof.
  induction j as [|j IH]; intros s Hj Hl.
  - cbn [seq map]. repeat split; auto. intros i Hi. lia.
  - destruct (IH s ltac:(lia) Hl) as (L & U & V).
    rewrite seq_S, map_app, exec_app. cbn [map plus]. rewrite exec_cons. cbn [exec fold_left].
    rewrite pm_leaf_run. split; [|split].
    + rewrite lupd_length. exact L.
    + intros c Hc. rewrite nth_lupd_other by lia. apply U. lia.
    + intros i Hi. destruct (Nat.eq_dec i j) as [->|Hne].
      * apply nth_lupd_same. lia.
      * rewrite nth_lupd_other by lia. apply V. lia.
Qed.

(* the defining equations of the node vector *)
Definition merkle_eqs (n : nat) (leaves F : list D) : Prop :=
  length F = 2 * n /\ nth 0 F d0 = d0 /\
  (forall i, i < n -> nth (n + i) F d0 = merge (nth (2 * i) leaves d0) (nth (2 * i + 1) leaves d0)) /\
  (forall c, 1 <= c < n -> nth c F d0 = merge (nth (2 * c) F d0) (nth (2 * c + 1) F d0)).

Lemma in_node_reads k c : In c (t_reads (node_task k)) -> c = 2 * k \/ c = 2 * k + 1.
Proof. cbn [t_reads Par.node_task cell_task In]. intuition lia. Qed.

Lemma rc_tip lo hi : forall b W,
  (forall c, b < c <= 2 * b + 1 -> lo <= c < hi \/ In c W) -> rc lo hi W (map node_task (desc_range 1 b)).
Proof.
  induction b as [|b IH]; intros W H; [exact I|].
  rewrite pm_desc_range_S. cbn [map]. split.
  - intros c Hc. apply in_node_reads in Hc. apply H. lia.
  - apply IH. intros c Hc. destruct (Nat.eq_dec c (1 + b)) as [->|Hne].
    + right. apply in_app_iff. right. left. reflexivity.
    + destruct (H c ltac:(lia)); auto. right. apply in_app_iff. auto.
Qed.

(* single assignment: node steps that write pairwise different cells of [1, n), none of them in W, and read only the leaf
   row, W or cells written earlier.  A cell read is never written afterwards, so in the final store every cell written
   satisfies its node equation. *)
Lemma exec_nodes_eqs n : forall ks W s, length s = 2 * n -> NoDup ks ->
  (forall x, In x ks -> 1 <= x < n /\ ~ In x W) -> rc n (2 * n) W (map node_task ks) ->
  length (exec (map node_task ks) s) = 2 * n /\
  (forall c, ~ In c ks -> nth c (exec (map node_task ks) s) d0 = nth c s d0) /\
  (forall x, In x ks -> nth x (exec (map node_task ks) s) d0
                        = merge (nth (2 * x) (exec (map node_task ks) s) d0) (nth (2 * x + 1) (exec (map node_task ks) s) d0)).
Proof.
  induction ks as [|x ks IH]; intros W s Hl Hnd Hb Hrc.
  - repeat split; auto. intros x [].
  - cbn [map] in *. destruct Hrc as [Hrd Hrc]. inversion Hnd as [|? ? Hx Hnd']; subst. rewrite exec_cons, pm_node_run.
    destruct (Hb x (or_introl eq_refl)) as [Hx1 Hx2].
    set (s1 := lupd s x _).
    destruct (IH (W ++ [x]) s1) as (L & U & V); [unfold s1; rewrite lupd_length; exact Hl|exact Hnd'| |exact Hrc|].
    { intros y Hy. destruct (Hb y (or_intror Hy)) as [Hy1 Hy2]. split; [exact Hy1|].
      rewrite in_app_iff. intros [H|[->|[]]]; [exact (Hy2 H)|exact (Hx Hy)]. }
    assert (Hr : forall c, c = 2 * x \/ c = 2 * x + 1 -> ~ In c ks).
    { intros c Hc Hin. destruct (Hb c (or_intror Hin)) as [Hc1 Hc2].
      destruct (Hrd c) as [H|H]; [cbn; lia|lia|exact (Hc2 H)]. }
    split; [exact L|split].
    + intros c Hc. rewrite U by (intro; apply Hc; right; assumption). apply nth_lupd_other. intros ->. apply Hc. left. reflexivity.
    + intros y [<-|Hy]; [|apply V; exact Hy].
      rewrite !U by auto. unfold s1. rewrite nth_lupd_same, !nth_lupd_other by lia. reflexivity.
Qed.

(* the leaf row, then node steps that write every cell of [1, n) once and read only what is there already *)
Lemma leaves_then_nodes_eqs n leaves junk ks : 1 <= n -> length junk = 2 * n ->
  NoDup ks -> (forall c, In c ks <-> 1 <= c < n) -> rc n (2 * n) [] (map node_task ks) ->
  merkle_eqs n leaves (exec (map node_task ks) (exec (map (leaf_task leaves n) (seq 0 n)) (merkle_init d0 junk))).
Proof.
  intros Hn Hj Hnd Hks Hrc.
  assert (L0 : length (merkle_init d0 junk) = 2 * n) by (unfold merkle_init; rewrite lupd_length; exact Hj).
  destruct (exec_leaf_phase leaves n n _ (le_n _) L0) as (L1 & U1 & V1).
  destruct (exec_nodes_eqs n ks [] _ L1 Hnd) as (L & U & V); [intros x Hx; split; [apply Hks; exact Hx|intros []]|exact Hrc|].
  split; [exact L|split; [|split]].
  - rewrite U by (rewrite Hks; lia). rewrite U1 by lia. apply nth_lupd_same. lia.
  - intros i Hi. rewrite U by (rewrite Hks; lia). apply V1. exact Hi.
  - intros c Hc. apply V, Hks. exact Hc.
Qed.

Lemma merkle_serial_eqs_gen n leaves junk : 1 <= n -> length leaves = 2 * n -> length junk = 2 * n ->
  merkle_eqs n leaves (merkle_serial d0 merge leaves junk).
Proof.
  intros Hn Hl Hj. unfold merkle_serial, merkle_serial_steps. rewrite Hl, div2_double, exec_app.
  apply leaves_then_nodes_eqs; [exact Hn|exact Hj|apply pm_NoDup_desc_range| |].
  - intros c. rewrite pm_in_desc_range. lia.
  - apply rc_tip. intros c Hc. left. lia.
Qed.

Theorem merkle_serial_eqs k leaves junk : let n := 2 ^ k in
  length leaves = 2 * n -> length junk = 2 * n ->
  let F := merkle_serial d0 merge leaves junk in
  length F = 2 * n /\ nth 0 F d0 = d0 /\
  (forall i, i < n -> nth (n + i) F d0 = merge (nth (2 * i) leaves d0) (nth (2 * i + 1) leaves d0)) /\
  (forall c, 1 <= c < n -> nth c F d0 = merge (nth (2 * c) F d0) (nth (2 * c + 1) F d0)).
Proof. intros n Hl Hj F. apply merkle_serial_eqs_gen; [apply pow2_pos|exact Hl|exact Hj]. Qed.

(* a solution of the equations is the closed form [tree_node] of the model, for every sufficient fuel; hence it is unique *)
Lemma merkle_eqs_tree_node n leaves F : merkle_eqs n leaves F ->
  forall fuel c, 1 <= c < 2 * n -> n <= c * 2 ^ fuel -> nth c F d0 = tree_node d0 merge fuel leaves n c.
Proof.
  intros (LF & ZF & EF & NF). induction fuel as [|fuel IH]; intros c Hc Hf; cbn [tree_node];
    (destruct (Nat.leb_spec n c); [replace c with (n + (c - n)) at 1 by lia; apply EF; lia|]).
  - rewrite Nat.pow_0_r in Hf. lia.
  - rewrite Nat.pow_succ_r' in Hf. rewrite NF by lia. rewrite !IH by lia. reflexivity.
Qed.

Lemma merkle_eqs_unique n leaves F G : merkle_eqs n leaves F -> merkle_eqs n leaves G -> F = G.
Proof.
  intros HF HG. pose proof HF as (LF & ZF & _). pose proof HG as (LG & ZG & _).
  apply nth_ext with (d := d0) (d' := d0); [congruence|]. intros c Hc.
  destruct c as [|c]; [congruence|].
  assert (Hf : n <= S c * 2 ^ n) by (pose proof (Nat.pow_gt_lin_r 2 n); nia).
  rewrite (merkle_eqs_tree_node n leaves F HF n), (merkle_eqs_tree_node n leaves G HG n) by lia. reflexivity.
Qed.

Corollary merkle_serial_junk_independent k leaves junk junk' : let n := 2 ^ k in
  length leaves = 2 * n -> length junk = 2 * n -> length junk' = 2 * n ->
  merkle_serial d0 merge leaves junk = merkle_serial d0 merge leaves junk'.
Proof.
  intros n Hl Hj Hj'. apply (merkle_eqs_unique n leaves); apply merkle_serial_eqs_gen; auto; apply pow2_pos.
Qed.

(* ================================================================ C. the plan *)
(* node indices of the subtree rooted at q, [a] levels, bottom-up: level a' is [2^a' * q, 2^a' * (q + 1)) *)
Fixpoint sub_ks (a q : nat) : list nat :=
  match a with
  | 0 => []
  | S a' => desc_range (2 ^ a' * q) (2 ^ a') ++ sub_ks a' q
  end.

Lemma in_sub_ks a q c : In c (sub_ks a q) <-> exists a', a' < a /\ 2 ^ a' * q <= c < 2 ^ a' * (q + 1).
Proof.
  induction a as [|a IH]; cbn [sub_ks].
  - split; [intros []|intros (a' & H & _); lia].
  - rewrite in_app_iff, pm_in_desc_range, IH. split.
    + intros [H|(a' & H1 & H2)]; [exists a; split; [lia|lia]|exists a'; split; [lia|exact H2]].
    + intros (a' & H1 & H2). destruct (Nat.eq_dec a' a) as [->|Hne]; [left; lia|right; exists a'; split; [lia|exact H2]].
Qed.

Lemma subtree_steps_lt fuel ns start bs : start < ns -> subtree_steps d0 merge fuel ns start bs = Some [].
Proof. intros H. apply Nat.ltb_lt in H. destruct fuel; cbn [subtree_steps]; rewrite H; reflexivity. Qed.

Lemma subtree_steps_S f ns start bs : ns <= start ->
  subtree_steps d0 merge (S f) ns start bs =
  match subtree_steps d0 merge f ns (start / 2) (bs / 2) with
  | None => None
  | Some r => Some (map node_task (desc_range start bs) ++ r)
  end.
Proof. intros H. apply Nat.ltb_ge in H. cbn [subtree_steps]. rewrite H. reflexivity. Qed.

Lemma subtree_steps_levels ns q : 1 <= ns -> ns <= q < 2 * ns ->
  forall a fuel, 2 ^ a * q < fuel ->
  subtree_steps d0 merge fuel ns (2 ^ a * q) (2 ^ a) = Some (map node_task (sub_ks (S a) q)).
Proof.
  intros Hns Hq. induction a as [|a IH]; intros fuel Hf.
  - rewrite Nat.pow_0_r, Nat.mul_1_l in *. destruct fuel as [|f]; [lia|].
    rewrite subtree_steps_S by lia. rewrite subtree_steps_lt by (apply Nat.div_lt_upper_bound; lia).
    cbn [sub_ks]. rewrite Nat.pow_0_r, Nat.mul_1_l, !app_nil_r. reflexivity.
  - pose proof (pow2_pos a) as Hp. rewrite Nat.pow_succ_r' in *.
    destruct fuel as [|f]; [lia|].
    rewrite subtree_steps_S by nia.
    rewrite <- Nat.mul_assoc, !div2_double.
    rewrite IH by nia.
    cbn [sub_ks]. rewrite !map_app. rewrite Nat.pow_succ_r', <- Nat.mul_assoc. reflexivity.
Qed.

(* the plan in closed form: n = 2^(m+a) leaf parents, 2^m subtrees of [a] levels each *)
Definition plan_form (leaves : list D) (m a : nat) : merkle_plan :=
  {| mp_leaf := map (fun i => [leaf_task leaves (2 ^ (m + a)) i]) (seq 0 (2 ^ (m + a)));
     mp_sub := map (fun i => map node_task (sub_ks a (2 ^ m + i))) (seq 0 (2 ^ m));
     mp_top := map node_task (desc_range 1 (2 ^ m - 1)) |}.

Lemma merkle_plan_form m a T leaves : Nat.log2_up T = m -> length leaves = 2 * 2 ^ (m + a) ->
  merkle_par_plan d0 merge leaves T = Done (plan_form leaves m a).
Proof.
  intros Hm Hl. unfold merkle_par_plan, npo2. rewrite Hm, Hl, div2_double.
  pose proof (pow2_pos m) as Pm. pose proof (pow2_pos a) as Pa. pose proof (pow2_pos (m + a)) as Pn.
  assert (En : 2 ^ (m + a) = 2 ^ m * 2 ^ a) by apply Nat.pow_add_r.
  destruct (Nat.eqb_spec (2 ^ (m + a)) 0) as [E0|_]; [lia|].
  assert (Eb : 2 ^ (m + a) / 2 ^ m = 2 ^ a).
  { rewrite En, Nat.mul_comm. apply Nat.div_mul. lia. }
  rewrite Eb.
  rewrite (map_ext_in _ (fun i => Some (map node_task (sub_ks a (2 ^ m + i))))).
  - rewrite pm_sequence_opt_some.
    destruct (Nat.ltb_spec (2 ^ (m + a)) (2 ^ m)) as [Hlt|_]; [nia|]. reflexivity.
  - intros i Hi. apply in_seq in Hi. destruct a as [|a'].
    + rewrite (Nat.pow_0_r 2). replace (1 / 2) with 0 by reflexivity.
      apply subtree_steps_lt. rewrite Nat.mul_0_l, !Nat.add_0_r.
      apply Nat.div_lt_upper_bound; lia.
    + assert (Es : 2 ^ (m + S a') / 2 + 2 ^ S a' / 2 * i = 2 ^ a' * (2 ^ m + i)).
      { rewrite Nat.add_succ_r, !Nat.pow_succ_r', !div2_double, Nat.pow_add_r. lia. }
      rewrite Es. rewrite Nat.pow_succ_r', div2_double.
      apply subtree_steps_levels; lia.
Qed.

(* n = 2^k and npo2 T <= n: k = log2_up T + a and the plan has the closed form *)
Lemma plan_of_pow2 k T leaves : length leaves = 2 * 2 ^ k -> npo2 T <= 2 ^ k ->
  exists a, k = Nat.log2_up T + a /\ merkle_par_plan d0 merge leaves T = Done (plan_form leaves (Nat.log2_up T) a).
Proof.
  intros Hl Hns. exists (k - Nat.log2_up T).
  assert (Ek : k = Nat.log2_up T + (k - Nat.log2_up T)) by (apply Nat.pow_le_mono_r_iff in Hns; lia).
  split; [exact Ek|]. apply merkle_plan_form; [reflexivity|]. rewrite <- Ek. exact Hl.
Qed.

Theorem merkle_plan_exists k T leaves : let n := 2 ^ k in
  length leaves = 2 * n -> npo2 T <= n ->
  exists p, merkle_par_plan d0 merge leaves T = Done p /\ length (mp_leaf p) = n /\ length (mp_sub p) = npo2 T.
Proof.
  intros n Hl Hns. destruct (plan_of_pow2 k T leaves Hl Hns) as (a & Ek & Hp).
  eexists. split; [exact Hp|]. cbn [plan_form mp_leaf mp_sub]. rewrite !map_length, !seq_length, <- Ek. split; reflexivity.
Qed.

Theorem merkle_plan_panics k T leaves : let n := 2 ^ k in
  length leaves = 2 * n -> n < npo2 T -> merkle_par_plan d0 merge leaves T = Panic.
Proof.
  intros n Hl Hns. unfold merkle_par_plan. rewrite Hl, div2_double.
  destruct (n =? 0); [reflexivity|].
  destruct (sequence_opt _); [|reflexivity].
  apply Nat.ltb_lt in Hns. fold n. rewrite Hns. reflexivity.
Qed.

(* ================================================================ D. footprints *)
(* c is in the (infinite) heap subtree rooted at q *)
Definition lvl (q c : nat) : Prop := exists a', 2 ^ a' * q <= c < 2 ^ a' * (q + 1).

Lemma lvl_child q c : lvl q c -> lvl q (2 * c) /\ lvl q (2 * c + 1).
Proof. intros (a' & H). split; exists (S a'); rewrite Nat.pow_succ_r'; lia. Qed.

Lemma in_sub_lvl a q c : In c (sub_ks a q) -> lvl q c.
Proof. intros H. apply in_sub_ks in H. destruct H as (a' & _ & H). exists a'. exact H. Qed.

(* two subtree roots of the same row ns <= q < 2 ns: a level of one lies entirely below every deeper level of the other *)
Lemma lvl_below ns q1 q2 a1 a2 c : ns <= q2 -> q1 < 2 * ns -> a1 < a2 ->
  c < 2 ^ a1 * (q1 + 1) -> 2 ^ a2 * q2 <= c -> False.
Proof.
  (* c < 2^a1 (q1 + 1) <= 2^a1 (2 ns) <= 2^a2 ns <= 2^a2 q2 <= c *)
  intros H2 H1 Ha L1 L2. pose proof (pow2_double_le a1 a2 Ha). nia.
Qed.

Lemma lvl_unique ns q1 q2 c : ns <= q1 < 2 * ns -> ns <= q2 < 2 * ns -> lvl q1 c -> lvl q2 c -> q1 = q2.
Proof.
  intros H1 H2 (a1 & L1) (a2 & L2).
  destruct (Nat.lt_trichotomy a1 a2) as [H|[H|H]].
  - exfalso. apply (lvl_below ns q1 q2 a1 a2 c); lia.
  - subst a2. pose proof (pow2_pos a1). nia.
  - exfalso. apply (lvl_below ns q2 q1 a2 a1 c); lia.
Qed.

Lemma in_sub_bounds m a q c : 2 ^ m <= q < 2 * 2 ^ m -> In c (sub_ks a q) -> 2 ^ m <= c < 2 ^ (m + a).
Proof.
  intros Hq H. apply in_sub_ks in H. destruct H as (a' & Ha & H).
  pose proof (pow2_pos a'). pose proof (pow2_double_le a' a Ha). rewrite Nat.pow_add_r. nia.
Qed.

Lemma NoDup_sub_ks a q : 1 <= q -> NoDup (sub_ks a q).
Proof.
  intros Hq. induction a as [|a IH]; [constructor|]. cbn [sub_ks]. apply NoDup_app.
  - apply pm_NoDup_desc_range.
  - exact IH.
  - intros c Hc Hc'. apply pm_in_desc_range in Hc. apply in_sub_ks in Hc'. destruct Hc' as (a' & Ha & H).
    pose proof (pow2_double_le a' a Ha). nia.
Qed.

(* the cells written by the subtree phase, per task *)
Definition sub_cells (m a : nat) : list (list nat) := map (fun i => sub_ks a (2 ^ m + i)) (seq 0 (2 ^ m)).

Lemma in_sub_cells m a c :
  In c (concat (sub_cells m a)) <-> exists i, i < 2 ^ m /\ In c (sub_ks a (2 ^ m + i)).
Proof.
  unfold sub_cells. rewrite <- flat_map_concat_map. apply (in_flat_map_seq (fun i => sub_ks a (2 ^ m + i)) c (2 ^ m) 0).
Qed.

Lemma sub_cells_cover m : forall a c, 2 ^ m <= c < 2 ^ (m + a) -> In c (concat (sub_cells m a)).
Proof.
  induction a as [|a IH]; intros c Hc.
  - rewrite Nat.add_0_r in Hc. lia.
  - rewrite Nat.add_succ_r, Nat.pow_succ_r' in Hc. apply in_sub_cells.
    destruct (Nat.lt_ge_cases c (2 ^ (m + a))) as [Hlt|Hge].
    + specialize (IH c ltac:(lia)). apply in_sub_cells in IH. destruct IH as (i & Hi & H).
      exists i. split; [exact Hi|]. apply in_sub_ks in H. destruct H as (a' & Ha & H).
      apply in_sub_ks. exists a'. split; [lia|exact H].
    + pose proof (pow2_pos a) as P. rewrite Nat.pow_add_r in *.
      assert (Q1 : 2 ^ m <= c / 2 ^ a) by (apply Nat.div_le_lower_bound; lia).
      assert (Q2 : c / 2 ^ a < 2 * 2 ^ m) by (apply Nat.div_lt_upper_bound; lia).
      exists (c / 2 ^ a - 2 ^ m). split; [lia|].
      replace (2 ^ m + (c / 2 ^ a - 2 ^ m)) with (c / 2 ^ a) by lia.
      apply in_sub_ks. exists a. split; [lia|]. split.
      * apply Nat.mul_div_le. lia.
      * rewrite Nat.add_1_r. apply Nat.mul_succ_div_gt. lia.
Qed.

Lemma sub_concat leaves m a : concat (mp_sub (plan_form leaves m a)) = map node_task (concat (sub_cells m a)).
Proof. cbn [plan_form mp_sub]. unfold sub_cells. rewrite concat_map, map_map. reflexivity. Qed.

Lemma leaf_concat leaves m a :
  concat (mp_leaf (plan_form leaves m a)) = map (leaf_task leaves (2 ^ (m + a))) (seq 0 (2 ^ (m + a))).
Proof. cbn [plan_form mp_leaf]. apply concat_singletons. Qed.

Lemma node_footprint_lvl q k c : lvl q k -> In c (t_reads (node_task k) ++ t_writes (node_task k)) -> lvl q c.
Proof. intros H [<-|[<-|[<-|[]]]]; [apply lvl_child| apply lvl_child|]; exact H. Qed.

Lemma leaf_independent leaves n a b : a <> b -> independent (leaf_task leaves n a) (leaf_task leaves n b).
Proof.
  intros. unfold independent, disjoint. cbn [t_writes t_reads Par.leaf_task cell_task In].
  repeat split; intros i H4 H5; intuition lia.
Qed.

Lemma rc_sub_ks lo hi q : forall a W,
  (forall c, 2 ^ a * q <= c < 2 ^ a * (q + 1) -> lo <= c < hi \/ In c W) ->
  rc lo hi W (map node_task (sub_ks a q)).
Proof.
  induction a as [|a IH]; intros W H; [exact I|].
  cbn [sub_ks]. rewrite map_app. rewrite Nat.pow_succ_r' in H. apply rc_app.
  - apply rc_flat. intros x Hx c Hc. apply in_map_iff in Hx. destruct Hx as (kx & <- & Hk).
    apply pm_in_desc_range in Hk. apply in_node_reads in Hc. apply H. lia.
  - apply IH. intros c Hc. right. apply in_app_iff. right. rewrite pm_writes_nodes. apply pm_in_desc_range. lia.
Qed.

Lemma rc_sub_task m a i : i < 2 ^ m ->
  rc (2 ^ (m + a)) (2 * 2 ^ (m + a)) [] (map node_task (sub_ks a (2 ^ m + i))).
Proof.
  intros Hi. apply rc_sub_ks. intros c Hc. left. rewrite Nat.pow_add_r. nia.
Qed.

Lemma rc_sub_top leaves m a :
  rc (2 ^ (m + a)) (2 * 2 ^ (m + a)) []
     (concat (mp_sub (plan_form leaves m a)) ++ mp_top (plan_form leaves m a)).
Proof.
  pose proof (pow2_pos m) as Pm.
  apply rc_app.
  - apply rc_concat. cbn [plan_form mp_sub]. apply Forall_forall. intros l Hl.
    apply in_map_iff in Hl. destruct Hl as (i & <- & Hi). apply in_seq in Hi. apply rc_sub_task. lia.
  - cbn [app]. rewrite sub_concat, pm_writes_nodes. cbn [plan_form mp_top]. apply rc_tip.
    intros c Hc. destruct a as [|a].
    + left. rewrite Nat.add_0_r. lia.
    + right. apply in_sub_cells. exists (c - 2 ^ m). split; [lia|].
      replace (2 ^ m + (c - 2 ^ m)) with c by lia. apply in_sub_ks. exists 0. split; [lia|].
      rewrite Nat.pow_0_r. lia.
Qed.

(* the node cells of the plan (subtrees, then the tip): every cell of [1, n), once *)
Definition plan_nodes (m a : nat) : list nat := concat (sub_cells m a) ++ desc_range 1 (2 ^ m - 1).

Lemma in_plan_nodes m a c : In c (plan_nodes m a) <-> 1 <= c < 2 ^ (m + a).
Proof.
  pose proof (pow2_pos m) as Pm. pose proof (pow2_pos a) as Pa.
  assert (En : 2 ^ (m + a) = 2 ^ m * 2 ^ a) by apply Nat.pow_add_r.
  unfold plan_nodes. rewrite in_app_iff, pm_in_desc_range. split.
  - intros [H|H]; [|nia]. apply in_sub_cells in H. destruct H as (i & Hi & H).
    apply (in_sub_bounds m a) in H; lia.
  - intros H. destruct (Nat.lt_ge_cases c (2 ^ m)); [right; lia|]. left. apply sub_cells_cover. lia.
Qed.

Lemma NoDup_plan_nodes m a : NoDup (plan_nodes m a).
Proof.
  pose proof (pow2_pos m) as Pm.
  apply NoDup_app; [|apply pm_NoDup_desc_range|].
  - unfold sub_cells. rewrite <- flat_map_concat_map. apply NoDup_flat_map.
    + apply seq_NoDup.
    + intros i _. apply NoDup_sub_ks. lia.
    + intros x y c Hx Hy Hcx Hcy. apply in_seq in Hx. apply in_seq in Hy.
      assert (2 ^ m + x = 2 ^ m + y); [|lia].
      apply (lvl_unique (2 ^ m) _ _ c); try lia; eapply in_sub_lvl; eassumption.
  - intros c Hc Hc'. apply in_sub_cells in Hc. destruct Hc as (i & Hi & Hc).
    apply (in_sub_bounds m a) in Hc; [|lia]. apply pm_in_desc_range in Hc'. lia.
Qed.

(* all writes of the three phases, in canonical order *)
Lemma plan_writes leaves m a :
  flat_map t_writes (concat (mp_leaf (plan_form leaves m a)) ++ concat (mp_sub (plan_form leaves m a))
                     ++ mp_top (plan_form leaves m a))
  = seq (2 ^ (m + a)) (2 ^ (m + a)) ++ plan_nodes m a.
Proof.
  rewrite !flat_map_app, leaf_concat, sub_concat, pm_writes_leaves, pm_writes_nodes, <- seq_shift_add, Nat.add_0_r.
  cbn [plan_form mp_top]. rewrite pm_writes_nodes. reflexivity.
Qed.

Lemma plan_writes_perm m a :
  Permutation (seq (2 ^ (m + a)) (2 ^ (m + a)) ++ plan_nodes m a) (seq 1 (2 * 2 ^ (m + a) - 1)).
Proof.
  pose proof (pow2_pos (m + a)) as Pn.
  apply NoDup_Permutation.
  - apply NoDup_app; [apply seq_NoDup|apply NoDup_plan_nodes|].
    intros c Hc Hc'. apply in_seq in Hc. apply in_plan_nodes in Hc'. lia.
  - apply seq_NoDup.
  - intros c. rewrite in_app_iff, in_plan_nodes, !in_seq. lia.
Qed.

Theorem merkle_par_footprints k T leaves p : let n := 2 ^ k in
  length leaves = 2 * n -> npo2 T <= n -> merkle_par_plan d0 merge leaves T = Done p ->
  Forall (Forall task_ok) (mp_leaf p) /\ cross_independent (mp_leaf p) /\
  Forall (Forall task_ok) (mp_sub p) /\ cross_independent (mp_sub p) /\
  Forall (reads_closed n (2 * n)) (mp_sub p) /\
  reads_closed n (2 * n) (concat (mp_sub p) ++ mp_top p) /\
  Permutation (flat_map t_writes (concat (mp_leaf p) ++ concat (mp_sub p) ++ mp_top p)) (seq 1 (2 * n - 1)).
Proof.
  intros n Hlen Hns Hp. destruct (plan_of_pow2 k T leaves Hlen Hns) as (a & -> & Hp'). rewrite Hp' in Hp. injection Hp as <-.
  set (m := Nat.log2_up T) in *. pose proof (pow2_pos m) as Pm. subst n. repeat apply conj.
  - cbn [plan_form mp_leaf]. apply Forall_forall. intros l Hl. apply in_map_iff in Hl. destruct Hl as (i & <- & _).
    constructor; [apply leaf_task_ok|constructor].
  - cbn [plan_form mp_leaf]. intros i j Hij x y Hx Hy.
    apply in_nth_map_seq in Hx. apply in_nth_map_seq in Hy.
    destruct Hx as [_ [<-|[]]]. destruct Hy as [_ [<-|[]]]. apply leaf_independent. exact Hij.
  - cbn [plan_form mp_sub]. apply Forall_forall. intros l Hl. apply in_map_iff in Hl. destruct Hl as (i & <- & _).
    apply pm_nodes_ok.
  - cbn [plan_form mp_sub]. intros i j Hij x y Hx Hy.
    apply in_nth_map_seq in Hx. apply in_nth_map_seq in Hy.
    destruct Hx as [Hi Hx]. destruct Hy as [Hj Hy].
    apply in_map_iff in Hx. destruct Hx as (kx & <- & Hkx). apply in_map_iff in Hy. destruct Hy as (ky & <- & Hky).
    apply in_sub_lvl in Hkx. apply in_sub_lvl in Hky.
    apply (independent_separated (lvl (2 ^ m + i)) (lvl (2 ^ m + j))).
    + intros c H1 H2. assert (2 ^ m + i = 2 ^ m + j); [|lia]. apply (lvl_unique (2 ^ m) _ _ c); auto; lia.
    + intros c. apply node_footprint_lvl. exact Hkx.
    + intros c. apply node_footprint_lvl. exact Hky.
  - cbn [plan_form mp_sub]. apply Forall_forall. intros l Hl. apply in_map_iff in Hl. destruct Hl as (i & <- & Hi).
    apply in_seq in Hi. apply rc_reads_closed. apply rc_sub_task. lia.
  - apply rc_reads_closed. apply rc_sub_top.
  - rewrite plan_writes. apply plan_writes_perm.
Qed.

(* ================================================================ E. every schedule gives the serial vector *)
(* the canonical order of the plan satisfies the tree equations, like the serial code *)
Lemma plan_canonical leaves junk m a : let p := plan_form leaves m a in
  length leaves = 2 * 2 ^ (m + a) -> length junk = 2 * 2 ^ (m + a) ->
  exec (mp_top p) (exec (concat (mp_sub p)) (exec (concat (mp_leaf p)) (merkle_init d0 junk)))
  = merkle_serial d0 merge leaves junk.
Proof.
  intros p Hl Hj. pose proof (rc_sub_top leaves m a) as Hrc. revert Hrc.
  unfold p. rewrite leaf_concat, <- exec_app, sub_concat. cbn [plan_form mp_top]. rewrite <- map_app.
  fold (plan_nodes m a). intros Hrc.
  apply (merkle_eqs_unique (2 ^ (m + a)) leaves); [|apply merkle_serial_eqs_gen; [apply pow2_pos|exact Hl|exact Hj]].
  apply leaves_then_nodes_eqs; [apply pow2_pos|exact Hj|apply NoDup_plan_nodes|apply in_plan_nodes|exact Hrc].
Qed.

Theorem merkle_par_spec k T leaves junk : let n := 2 ^ k in
  length leaves = 2 * n -> length junk = 2 * n -> npo2 T <= n ->
  (forall s1 s2, Permutation s1 (seq 0 n) -> Permutation s2 (seq 0 (npo2 T)) ->
     merkle_par d0 merge leaves junk T s1 s2 = Done (merkle_serial d0 merge leaves junk)) /\
  (forall ch1 ch2 r, merkle_par_interleaved d0 merge leaves junk T ch1 ch2 = Done (r, true) ->
     r = merkle_serial d0 merge leaves junk).
Proof.
  intros n Hl Hj Hns. destruct (plan_of_pow2 k T leaves Hl Hns) as (a & Ek & Hp).
  destruct (merkle_par_footprints k T leaves _ Hl Hns Hp) as (Ok1 & Ci1 & Ok2 & Ci2 & _).
  destruct (phase_schedule_independent d0 _ Ok1 Ci1) as [S1 I1].
  destruct (phase_schedule_independent d0 _ Ok2 Ci2) as [S2 I2].
  subst n k. split.
  - intros s1 s2 P1 P2. unfold merkle_par. rewrite Hp. cbn [exec_phases fold_left]. f_equal.
    rewrite S1 by (cbn [plan_form mp_leaf]; rewrite map_length, seq_length; exact P1).
    rewrite S2 by (cbn [plan_form mp_sub]; rewrite map_length, seq_length; exact P2).
    apply plan_canonical; assumption.
  - intros ch1 ch2 r. unfold merkle_par_interleaved. rewrite Hp.
    destruct (merge_by ch1 _) as [o1 l1] eqn:E1. destruct (merge_by ch2 _) as [o2 l2] eqn:E2.
    intros H. injection H as Hr Hb. apply andb_prop in Hb. destruct Hb as [B1 B2]. subst r.
    cbn [exec_phases fold_left].
    rewrite (I1 _ _ _ _ E1 B1), (I2 _ _ _ _ E2 B2).
    apply plan_canonical; assumption.
Qed.

(* ================================================================ F. MerkleTree::new dispatch *)
Theorem merkle_dispatch_spec k T leaves junk conc s1 s2 : let n := 2 ^ k in
  length leaves = 2 * n -> length junk = 2 * n -> npo2 T <= n ->
  Permutation s1 (seq 0 n) -> Permutation s2 (seq 0 (npo2 T)) ->
  merkle_nodes_dispatch d0 merge conc leaves junk T s1 s2 = Done (merkle_serial d0 merge leaves junk).
Proof.
  intros n Hl Hj Hns P1 P2. unfold merkle_nodes_dispatch.
  destruct (conc && negb (length leaves <=? 1024)).
  - apply (merkle_par_spec k T leaves junk Hl Hj Hns); assumption.
  - rewrite Hl, div2_double. pose proof (pow2_pos k) as Pk. fold n in Pk.
    destruct (Nat.eqb_spec n 0); [lia|reflexivity].
Qed.

(* ================================================================ G. the vector holds the tree *)
Theorem merkle_serial_tree_node k leaves junk c : let n := 2 ^ k in
  length leaves = 2 * n -> length junk = 2 * n -> 1 <= c < 2 * n ->
  nth c (merkle_serial d0 merge leaves junk) d0 = tree_node d0 merge k leaves n c.
Proof.
  intros n Hl Hj Hc. pose proof (pow2_pos k) as Pk. fold n in Pk.
  apply (merkle_eqs_tree_node n leaves); [apply merkle_serial_eqs_gen; assumption|exact Hc|].
  fold n. nia.
Qed.

End MerkleSpec.

(* ================================================================ non-vacuity *)
(* a non-commutative "hash" on nat (reduced mod 101 to keep unary numerals small) *)
Definition pm_mg (a b : nat) : nat := (1 + 3 * a + 7 * b) mod 101.

Example pm_mg_noncomm : pm_mg 1 0 <> pm_mg 0 1.
Proof. vm_compute. discriminate. Qed.

(* 32 leaves, n = 16, T = 3 -> 4 subtrees of 2 levels, tip of 3 nodes *)
Example merkle_par_ex_plan :
  match merkle_par_plan 0 pm_mg (seq 10 32) 3 with
  | Done p => (map (flat_map t_writes) (mp_sub p), flat_map t_writes (mp_top p))
              = ([[9; 8; 4]; [11; 10; 5]; [13; 12; 6]; [15; 14; 7]], [3; 2; 1])
  | Panic => False
  end.
Proof. vm_compute. reflexivity. Qed.

Example merkle_par_ex1 :
  merkle_par 0 pm_mg (seq 10 32) (repeat 99 32) 3 [5;2;7;0;1;15;3;4;6;8;9;10;11;12;13;14] [3;1;0;2]
  = Done (merkle_serial 0 pm_mg (seq 10 32) (repeat 99 32)).
Proof. vm_compute. reflexivity. Qed.

Example merkle_par_ex2 :
  merkle_par_interleaved 0 pm_mg (seq 10 32) (repeat 99 32) 3 (rev (seq 0 16))
    [0;1;2;3;3;2;1;0;0;0;1;1;2;3;3;2;0;1;2;3]
  = Done (merkle_serial 0 pm_mg (seq 10 32) (repeat 99 32), true).
Proof. vm_compute. reflexivity. Qed.

(* an incomplete interleaving is flagged *)
Example merkle_par_ex2_incomplete :
  match merkle_par_interleaved 0 pm_mg (seq 10 32) (repeat 99 32) 3 (rev (seq 0 16)) [0;1;2;3;3;2;1;0] with
  | Done (_, b) => b = false
  | Panic => False
  end.
Proof. vm_compute. reflexivity. Qed.

(* npo2 T = n: the subtree tasks are empty and the tip computes the whole tree *)
Example merkle_par_ex_T_eq_n :
  merkle_par 0 pm_mg (seq 10 8) (repeat 99 8) 4 [3;1;0;2] [2;0;3;1]
  = Done (merkle_serial 0 pm_mg (seq 10 8) (repeat 99 8)).
Proof. vm_compute. reflexivity. Qed.

(* n = 4 < npo2 5 = 8: two_nodes[num_subtrees - 1] is out of bounds *)
Example merkle_par_ex_panic : merkle_par_plan 0 pm_mg (seq 10 8) 5 = Panic.
Proof. vm_compute. reflexivity. Qed.

(* the junk really is overwritten: two different un-initialised vectors, same result *)
Example merkle_par_ex_junk :
  merkle_serial 0 pm_mg (seq 10 8) (repeat 99 8) = merkle_serial 0 pm_mg (seq 10 8) (seq 40 8).
Proof. vm_compute. reflexivity. Qed.

(* the hypothesis of merkle_par_spec holds at the real threshold: 2048 leaves, 64 threads *)
Example merkle_hyp_sat : npo2 64 <= 2 ^ 10.
Proof. apply Nat.leb_le. vm_compute. reflexivity. Qed.
