(* C13 — the ReadAdapter state machine.  [unread] = buf[pos..] ++ BufReader buffer ++ remaining chunks is what is still to be
   read; each required method is shown to be the list semantics of ReadAdapterSim on it.  [wf] (pos <= len buf <= capacity)
   holds for every source.  [SI] is what needs a source whose end-of-stream is sticky (no empty read is followed by data):
   once an empty read has been returned (the ghost `seen`) nothing is left, and guaranteed_eof implies seen. *)
From VBase Require Import MachInt.
From VModel Require Import ReadAdapter.
From VProofs Require Import ListFacts ReadAdapterSim.
Local Open Scope nat_scope.

Definition unread (s : astate) : list byte := buffer s ++ a_rbuf s ++ concat (a_chunks s).

Definition wf (s : astate) : Prop := a_pos s <= length (a_buf s) /\ length (a_buf s) <= a_cap s.

Fixpoint sticky (cs : list (list byte)) : Prop :=
  match cs with
  | [] => True
  | c :: r => (c = [] -> concat r = []) /\ sticky r
  end.

Definition SI (s : astate) : Prop :=
  sticky (a_chunks s) /\
  (a_seen s = true -> a_rbuf s = [] /\ concat (a_chunks s) = []) /\
  (a_geof s = true -> a_seen s = true).

Lemma cap_pos : 0 < BUFREADER_CAP.
Proof. unfold BUFREADER_CAP. lia. Qed.
Local Opaque BUFREADER_CAP.

Lemma buffer_length : forall s, length (buffer s) = length (a_buf s) - a_pos s.
Proof. intros s. unfold buffer. apply skipn_length. Qed.

(* ---------------------------------------------------------------- BufReader::fill_buf *)
Lemma fill_frame : forall s,
  a_buf (fill s) = a_buf s /\ a_pos (fill s) = a_pos s /\ a_cap (fill s) = a_cap s /\ a_geof (fill s) = a_geof s.
Proof.
  intros s. unfold fill. destruct (a_rbuf s); [|auto].
  destruct (a_chunks s); [simpl; auto|]. destruct (length l <=? BUFREADER_CAP); simpl; auto.
Qed.

Lemma fill_buffer : forall s, buffer (fill s) = buffer s.
Proof. intros s. unfold buffer. destruct (fill_frame s) as (E1 & E2 & _). now rewrite E1, E2. Qed.

Lemma fill_wf : forall s, wf s -> wf (fill s).
Proof. intros s H. unfold wf in *. destruct (fill_frame s) as (E1 & E2 & E3 & _). now rewrite E1, E2, E3. Qed.

Lemma fill_unread : forall s, unread (fill s) = unread s.
Proof.
  intros s. unfold unread. rewrite fill_buffer. f_equal.
  unfold fill. destruct (a_rbuf s) eqn:Er; [|now rewrite Er].
  destruct (a_chunks s) as [|c rest] eqn:Ec; [simpl; reflexivity|].
  destruct (length c <=? BUFREADER_CAP); simpl.
  - reflexivity.
  - rewrite app_assoc. now rewrite firstn_skipn.
Qed.

Lemma fill_SI : forall s, SI s ->
  SI (fill s) /\ (a_rbuf (fill s) = [] -> a_seen (fill s) = true /\ concat (a_chunks (fill s)) = []).
Proof.
  intros s (Hs & Hseen & Hg). unfold fill.
  destruct (a_rbuf s) eqn:Er.
  - destruct (a_chunks s) as [|c rest] eqn:Ec.
    + split; [|simpl; auto]. repeat split; simpl; auto.
    + simpl in Hs. destruct Hs as [Hc Hrest].
      destruct (Nat.leb_spec (length c) BUFREADER_CAP).
      * assert (Hkey : a_seen s || is_nil c = true -> c = [] /\ concat rest = []).
        { intros Hor. apply orb_true_iff in Hor. destruct Hor as [Hse|Hn].
          - destruct (Hseen Hse) as [_ Hcc]. simpl in Hcc. apply app_eq_nil in Hcc. destruct Hcc; auto.
          - destruct c; [auto|discriminate]. }
        split.
        -- split; [exact Hrest|]. split; simpl.
           ++ exact Hkey.
           ++ intros Hge. rewrite (Hg Hge). reflexivity.
        -- simpl. intros Hc0. subst c. simpl. rewrite orb_true_r. auto.
      * assert (Hne : skipn BUFREADER_CAP c <> []).
        { intros E. apply skipn_nil_inv in E. lia. }
        assert (Hns : a_seen s = true -> False).
        { intros Hse. destruct (Hseen Hse) as [_ Hcc]. simpl in Hcc. apply app_eq_nil in Hcc.
          destruct Hcc as [Hc0 _]. subst c. simpl in H. lia. }
        split.
        -- split; [simpl; split; [intros E; contradiction|exact Hrest]|]. split; simpl.
           ++ intros Hse. exfalso. auto.
           ++ exact Hg.
        -- simpl. intros E. pose proof cap_pos. pose proof (firstn_length_le c (n := BUFREADER_CAP)) as HL.
           rewrite E in HL. simpl in HL. lia.
  - rewrite <- Er in Hseen. split; [exact (conj Hs (conj Hseen Hg))|]. rewrite Er. discriminate.
Qed.

Lemma SI_frame : forall s s', a_chunks s' = a_chunks s -> a_rbuf s' = a_rbuf s -> a_seen s' = a_seen s ->
  (a_geof s' = true -> a_geof s = true) -> SI s -> SI s'.
Proof.
  intros s s' E1 E2 E3 E4 (Hs & Hseen & Hg). unfold SI. rewrite E1, E2, E3. repeat split; auto.
  - apply Hseen; assumption.
  - apply Hseen; assumption.
Qed.

Lemma SI_consume : forall n s, SI s -> SI (consume n s).
Proof.
  intros n s (Hs & Hseen & Hg). unfold SI, consume; simpl. repeat split; auto.
  - destruct (Hseen H) as [E _]. rewrite E. apply skipn_nil.
  - apply Hseen; assumption.
Qed.

Lemma SI_set_geof : forall s, SI s -> a_seen s = true -> SI (set_geof s).
Proof. intros s (Hs & Hseen & Hg) H. unfold SI, set_geof; simpl. repeat split; auto; apply Hseen; assumption. Qed.

Lemma SI_rbuf_seen : forall s b r, SI s -> a_rbuf s = b :: r -> a_seen s = false.
Proof.
  intros s b r (_ & Hseen & _) E. destruct (a_seen s); [|reflexivity].
  destruct (Hseen eq_refl) as [E' _]. rewrite E' in E. discriminate.
Qed.

(* what the end-of-stream answer of [fill] means under SI *)
Lemma fill_eof : forall s, SI s -> a_rbuf (fill s) = [] ->
  SI (set_geof (fill s)) /\ SI (fill s) /\ unread s = buffer s.
Proof.
  intros s HS Er. destruct (fill_SI s HS) as [HS1 Hnil]. destruct (Hnil Er) as [Hse Hcc].
  split; [now apply SI_set_geof|]. split; [exact HS1|].
  rewrite <- fill_unread. unfold unread. rewrite Er, Hcc, fill_buffer. apply app_nil_r.
Qed.

(* [s'] is reached from [s] by handing out the bytes [l].  [SI] is not assumed, only carried along: the fact holds for every
   source *)
Definition delivers (l : list byte) (s s' : astate) : Prop :=
  wf s' /\ (SI s -> SI s') /\ unread s = l ++ unread s'.

Lemma delivers_refl : forall s, wf s -> delivers [] s s.
Proof. intros s H. split; [exact H|]. split; [auto|reflexivity]. Qed.

Lemma delivers_trans : forall l1 l2 s s1 s2, delivers l1 s s1 -> delivers l2 s1 s2 -> delivers (l1 ++ l2) s s2.
Proof.
  intros l1 l2 s s1 s2 (_ & HS1 & Hu1) (Hw & HS2 & Hu2). split; [exact Hw|]. split; [auto|].
  now rewrite Hu1, Hu2, app_assoc.
Qed.

Lemma fill_delivers : forall s, wf s -> delivers [] s (fill s).
Proof.
  intros s H. split; [now apply fill_wf|]. split; [intros HS; now apply fill_SI|]. symmetry. apply fill_unread.
Qed.

Lemma take_local : forall n s, wf s -> n <= length (buffer s) ->
  delivers (firstn n (buffer s)) s (set_pos (a_pos s + n) s).
Proof.
  intros n s [H1 H2] Hn. pose proof (buffer_length s) as HL. split; [|split].
  - unfold wf, set_pos; simpl. lia.
  - apply SI_frame; auto.
  - unfold unread, buffer, set_pos; simpl. rewrite skipn_add, (app_assoc (firstn n _)). now rewrite firstn_skipn.
Qed.

Lemma take_rbuf : forall n s, wf s -> buffer s = [] -> delivers (firstn n (a_rbuf s)) s (consume n s).
Proof.
  intros n s Hwf Eb. split; [exact Hwf|]. split; [apply SI_consume|].
  unfold unread, consume, buffer; simpl. fold (buffer s). rewrite Eb. simpl.
  rewrite (app_assoc (firstn n _)). now rewrite firstn_skipn.
Qed.

Lemma reset_delivers : forall s, wf s -> delivers [] s (reset s).
Proof.
  intros s Hwf. unfold reset. destruct (is_nil (buffer s)) eqn:En; simpl; [|now apply delivers_refl].
  destruct (0 <? a_pos s); [|now apply delivers_refl]. destruct Hwf as [H1 H2].
  split; [split; simpl; lia|]. split; [apply SI_frame; auto|].
  unfold unread, buffer; simpl. unfold buffer in En. destruct (skipn (a_pos s) (a_buf s)); [reflexivity|discriminate].
Qed.

(* The statement proved of read_u8, peek_u8, read_slice and read_array.  For EVERY source the call does not abort and keeps
   [wf]; either it succeeds, and then its value and the bytes left are those of the list semantics [sp] on the unread bytes,
   or it reports end-of-stream and consumes nothing.  With a sticky end-of-stream [SI] is kept and the failure is that of the
   list semantics too. *)
Definition answers {A : Type} (sp : list byte -> outcome A * list byte) (s : astate) (p : outcome A * astate) : Prop :=
  wf (snd p) /\ (SI s -> SI (snd p)) /\
  ((exists a, fst p = Ok a /\ sp (unread s) = (Ok a, unread (snd p))) \/
   (fst p = Err EOF /\ unread (snd p) = unread s /\ (SI s -> sp (unread s) = (Err EOF, unread s)))).

Definition method_ok {A : Type} (m : astate -> outcome A * astate) (sp : list byte -> outcome A * list byte) : Prop :=
  forall s, wf s -> answers sp s (m s).

Lemma answers_ok : forall (A : Type) sp s (a : A) s', wf s' -> (SI s -> SI s') ->
  sp (unread s) = (Ok a, unread s') -> answers sp s (Ok a, s').
Proof. intros A sp s a s' Hw HS H. split; [exact Hw|]. split; [exact HS|]. left. exists a. split; [reflexivity|exact H]. Qed.

(* [fill] returned nothing and the local buffer alone does not satisfy the request.  Both end states occur: pop, read_exact
   and buffer_at_least record guaranteed_eof, peek_u8 does not *)
Lemma answers_fill_eof : forall (A : Type) (sp : list byte -> outcome A * list byte) s, wf s -> a_rbuf (fill s) = [] ->
  sp (buffer s) = (Err EOF, buffer s) ->
  answers sp s (Err EOF, set_geof (fill s)) /\ answers sp s (Err EOF, fill s).
Proof.
  intros A sp s Hwf Er Hsp.
  assert (H : forall s', unread s' = unread (fill s) -> wf s' -> (SI s -> SI s') -> answers sp s (Err EOF, s')).
  { intros s' Hu Hw HS. split; [exact Hw|]. split; [exact HS|]. right. cbn [fst snd]. split; [reflexivity|].
    split; [now rewrite Hu, fill_unread|]. intros H. destruct (fill_eof s H Er) as (_ & _ & E). now rewrite E. }
  split; apply H; try reflexivity; try exact (fill_wf s Hwf); intros HS; apply (fill_eof s HS Er).
Qed.

Lemma answers_after : forall (A : Type) sp s s1 (p : outcome A * astate), delivers [] s s1 -> answers sp s1 p -> answers sp s p.
Proof.
  intros A sp s s1 p (_ & HS & Hu) (Hw & HS' & H). simpl in Hu. rewrite <- Hu in H.
  split; [exact Hw|]. split; [auto|]. destruct H as [H|(E & Hu' & Hsp)]; [left; exact H|right]. auto.
Qed.

Lemma answers_then : forall (A : Type) sp s (r : outcome A) s' s'', answers sp s (r, s') -> delivers [] s' s'' ->
  answers sp s (r, s'').
Proof.
  intros A sp s r s' s'' (Hw & HS & H) (Hw' & HS' & Hu). cbn [fst snd] in *. simpl in Hu. rewrite Hu in H.
  split; [exact Hw'|]. split; [auto|exact H].
Qed.

Lemma answers_reset : forall (A : Type) sp s (p : outcome A * astate), answers sp s p -> answers sp s (with_reset p).
Proof.
  intros A sp s [r s'] H. destruct r; try exact H. apply (answers_then _ _ _ _ s' _ H), reset_delivers, (proj1 H).
Qed.

Lemma answers_u8 : forall b s s', delivers [b] s s' -> answers sp_u8 s (Ok b, s').
Proof. intros b s s' (Hw & HS & Hu). apply answers_ok; [exact Hw|exact HS|]. now rewrite Hu. Qed.

Lemma answers_take : forall n s l s', delivers l s s' -> length l = n -> answers (sp_take n) s (Ok l, s').
Proof.
  intros n s l s' (Hw & HS & Hu) Hl. apply answers_ok; [exact Hw|exact HS|]. rewrite Hu. subst n. apply sp_take_app.
Qed.

Section AdapterProofs.
  Variable grow : nat -> nat -> nat.
  Variable dbg : bool.

  Lemma new_cap_ge : forall cap need, need <= new_cap grow cap need /\ cap <= new_cap grow cap need.
  Proof. intros cap need. unfold new_cap. destruct (Nat.leb_spec need cap); lia. Qed.

  Lemma absorb_buffer : forall s, wf s -> buffer (absorb grow s) = buffer s ++ a_rbuf s.
  Proof.
    intros s [H1 H2]. unfold buffer, absorb; simpl. rewrite skipn_app.
    replace (a_pos s - length (a_buf s)) with 0 by lia. reflexivity.
  Qed.

  Lemma absorb_delivers : forall s, wf s -> delivers [] s (absorb grow s).
  Proof.
    intros s H. split; [|split].
    - destruct H as [H1 H2]. unfold wf, absorb; simpl. rewrite app_length. split; [lia|]. apply new_cap_ge.
    - intros (Hs & Hseen & Hg). unfold SI, absorb; simpl. repeat split; auto. apply Hseen; assumption.
    - unfold unread. rewrite (absorb_buffer s H). simpl. now rewrite <- app_assoc.
  Qed.

  (* ---------------------------------------------------------------- buffer_at_least *)
  Lemma bal_spec : forall fuel count s r s', wf s -> count <= fuel + length (buffer s) ->
    bal grow fuel count s = (r, s') ->
    wf s' /\ unread s' = unread s /\ a_pos s' = a_pos s /\
    ((r = Ok tt /\ count <= length (buffer s')) \/ r = Err EOF) /\
    (SI s -> SI s' /\ (r = Err EOF -> length (unread s) < count)).
  Proof.
    induction fuel as [|f IH]; intros count s r s' Hwf Hfuel Hb; simpl in Hb;
      destruct (Nat.leb_spec count (length (buffer s))) as [Hle|Hgt].
    1, 3: inversion Hb; subst; split; [exact Hwf|]; split; [reflexivity|]; split; [reflexivity|];
      split; [left; split; [reflexivity|exact Hle]|]; intros HS; split; [exact HS|discriminate].
    - lia.
    - destruct (fill_delivers s Hwf) as (Hwf1 & HS1 & Hu1). simpl in Hu1. pose proof (fill_buffer s) as Hb1.
      destruct (fill_frame s) as (_ & Hp1 & _).
      destruct (a_rbuf (fill s)) as [|b rb] eqn:Er.
      + inversion Hb; subst.
        split; [exact Hwf1|]. split; [now rewrite Hu1|]. split; [exact Hp1|]. split; [right; reflexivity|].
        intros HS. destruct (fill_eof s HS Er) as (G1 & _ & G3). split; [exact G1|]. intros _. now rewrite G3.
      + destruct (absorb_delivers _ Hwf1) as (Hwf2 & HS2 & Hu2). simpl in Hu2.
        assert (Hf2 : count <= f + length (buffer (absorb grow (fill s)))).
        { rewrite (absorb_buffer _ Hwf1), Er, Hb1, app_length. simpl. lia. }
        destruct (IH count _ r s' Hwf2 Hf2 Hb) as (Hw & Hu & Hp & Hr & HS').
        split; [exact Hw|]. split; [now rewrite Hu, Hu1, Hu2|]. split; [rewrite Hp; exact Hp1|]. split; [exact Hr|].
        intros HS. rewrite Hu1, Hu2. auto.
  Qed.

  (* buffer_at_least(n) followed by the delivery of n bytes of the local buffer: the common tail of read_slice and of the
     fall-back of read_exact *)
  Lemma bal_take : forall n (k : unit -> astate -> outcome (list byte) * astate) s, wf s ->
    (forall s2, wf s2 -> n <= length (buffer s2) -> k tt s2 = (Ok (firstn n (buffer s2)), set_pos (a_pos s2 + n) s2)) ->
    answers (sp_take n) s (bind (buffer_at_least grow n) k s).
  Proof.
    intros n k s Hwf Hk. unfold bind. destruct (buffer_at_least grow n s) as [r s2] eqn:Eb.
    destruct (bal_spec n n s r s2 Hwf (Nat.le_add_r n _) Eb) as (Hw & Hu & _ & Hr & HS).
    destruct Hr as [[E Hn]|E]; subst r.
    - rewrite (Hk s2 Hw Hn). apply (answers_after _ _ s s2).
      + split; [exact Hw|]. split; [intros H; apply (HS H)|now rewrite Hu].
      + apply answers_take; [now apply take_local|now apply firstn_length_le].
    - split; [exact Hw|]. split; [intros H; apply (HS H)|]. right. split; [reflexivity|]. split; [exact Hu|].
      intros H. apply sp_take_short. now apply (HS H).
  Qed.

  (* ---------------------------------------------------------------- pop / peek *)
  Lemma a_u8_ok : method_ok a_u8 sp_u8.
  Proof.
    intros s Hwf. unfold a_u8. destruct (buffer s) as [|b t] eqn:Eb.
    - destruct (a_rbuf (fill s)) as [|b rb] eqn:Er.
      + apply answers_fill_eof; [exact Hwf|exact Er|now rewrite Eb].
      + apply (answers_after _ _ s (fill s) _ (fill_delivers s Hwf)), answers_u8.
        pose proof (take_rbuf 1 (fill s) (fill_wf s Hwf)) as H. rewrite fill_buffer, Er in H. now apply H.
    - apply answers_u8. pose proof (take_local 1 s Hwf) as H. rewrite Eb in H. apply H. simpl. lia.
  Qed.

  Lemma a_peek_ok : method_ok a_peek sp_peek.
  Proof.
    assert (Hpeek : forall s b t, wf s -> unread s = b :: t -> answers sp_peek s (Ok b, s)).
    { intros s b t Hwf E. apply answers_ok; [exact Hwf|auto|]. now rewrite E. }
    intros s Hwf. unfold a_peek. destruct (buffer s) as [|b t] eqn:Eb.
    - destruct (a_rbuf (fill s)) as [|b rb] eqn:Er.
      + apply answers_fill_eof; [exact Hwf|exact Er|now rewrite Eb].
      + apply (answers_after _ _ s (fill s) _ (fill_delivers s Hwf)), (Hpeek _ b (rb ++ concat (a_chunks (fill s)))).
        * now apply fill_wf.
        * unfold unread. now rewrite fill_buffer, Eb, Er.
    - apply (Hpeek s b (t ++ a_rbuf s ++ concat (a_chunks s)) Hwf). unfold unread. now rewrite Eb.
  Qed.

  (* ---------------------------------------------------------------- read_slice *)
  Lemma compact_spec : forall len s, wf s -> exists s1, compact len s = (Ok tt, s1) /\ delivers [] s s1.
  Proof.
    intros len s Hwf. unfold compact. pose proof (buffer_length s) as HL.
    destruct (16 <=? a_pos s); [|exists s; split; [reflexivity|now apply delivers_refl]].
    destruct Hwf as [H1 H2].
    destruct (Nat.ltb_spec (a_cap s) (length (buffer s))); [lia|].
    destruct (len <=? a_cap s - length (buffer s)); [exists s; split; [reflexivity|now apply delivers_refl]|].
    eexists; split; [reflexivity|]. split; [split; simpl; lia|]. split; [apply SI_frame; auto|reflexivity].
  Qed.

  Lemma a_slice_ok : forall len, method_ok (a_slice grow len) (sp_take len).
  Proof.
    intros len s Hwf. unfold a_slice. destruct (Nat.eqb_spec len 0) as [E0|N0].
    - subst len. apply answers_take; [now apply delivers_refl|reflexivity].
    - destruct (compact_spec len s Hwf) as (s1 & Ec & Hd).
      unfold bind at 1. rewrite Ec. cbn beta iota. apply (answers_after _ _ s s1 _ Hd), bal_take; [apply Hd|].
      (* the slice index is in range *)
      intros s2 [Hw1 Hw2] Hn. pose proof (buffer_length s2).
      destruct (Nat.leb_spec (a_pos s2 + len) (length (a_buf s2))); [reflexivity|lia].
  Qed.

  (* ---------------------------------------------------------------- read_exact *)
  Lemma copy_from_ok : forall n src, n <= length src -> copy_from n src = Ok (firstn n src).
  Proof. intros n src H. unfold copy_from. destruct (Nat.ltb_spec (length src) n); [lia|reflexivity]. Qed.

  Lemma exact_fallback_ok : forall N, method_ok (exact_fallback grow dbg N) (sp_take N).
  Proof.
    intros N s Hwf. unfold exact_fallback. apply bal_take; [exact Hwf|]. intros s2 _ Hn.
    destruct (Nat.ltb_spec (length (buffer s2)) N); [lia|]. now rewrite andb_false_r, (copy_from_ok N (buffer s2) Hn).
  Qed.

  Lemma a_array_ok : forall N, method_ok (a_array grow dbg N) (sp_take N).
  Proof.
    intros N s Hwf. unfold a_array. destruct (Nat.eqb_spec N 0) as [E0|N0].
    { subst N. apply answers_take; [now apply delivers_refl|reflexivity]. }
    pose proof (fill_delivers s Hwf) as Hfill. pose proof (fill_wf s Hwf) as Hwf1. pose proof (fill_buffer s) as Hb1.
    assert (Heof : a_rbuf (fill s) = [] -> length (buffer s) < N -> answers (sp_take N) s (Err EOF, set_geof (fill s))).
    { intros Er Hlt. apply answers_fill_eof; [exact Hwf|exact Er|now apply sp_take_short]. }
    destruct (Nat.eqb_spec (length (buffer s)) 0) as [En|En].
    - (* local buffer empty *)
      destruct (a_rbuf (fill s)) as [|b rb] eqn:Er; [apply Heof; [reflexivity|lia]|].
      apply (answers_after _ _ s (fill s) _ Hfill).
      destruct (Nat.ltb_spec (length (b :: rb)) N) as [Hlt|Hge].
      + now apply answers_reset, exact_fallback_ok.
      + rewrite (copy_from_ok N (b :: rb) Hge). apply (answers_reset _ _ _ (Ok _, _)).
        pose proof (take_rbuf N (fill s) Hwf1) as H. rewrite Hb1, Er in H.
        apply answers_take; [now apply H, length_zero_iff_nil|now apply firstn_length_le].
    - destruct (Nat.leb_spec N (length (buffer s))) as [Hle|Hgt].
      + (* enough in the local buffer *)
        rewrite (copy_from_ok N (buffer s) Hle). apply (answers_reset _ _ _ (Ok _, _)).
        apply answers_take; [now apply take_local|now apply firstn_length_le].
      + (* 0 < n < N: local and reader buffers *)
        destruct (a_rbuf (fill s)) as [|b rb] eqn:Er; [apply Heof; [reflexivity|lia]|].
        apply (answers_after _ _ s (fill s) _ Hfill).
        destruct (Nat.leb_spec N (length (b :: rb) + length (buffer s))) as [Hle2|Hgt2]; [|now apply exact_fallback_ok].
        (* two copies: all of the local buffer, then N - n bytes of the reader's *)
        rewrite Hb1, (copy_from_ok (length (buffer s)) (buffer s)), (copy_from_ok (N - length (buffer s)) (b :: rb)) by lia.
        apply (answers_reset _ _ _ (Ok _, _)).
        pose proof (take_local (length (buffer s)) (fill s) Hwf1) as H1. rewrite Hb1 in H1. specialize (H1 (le_n _)).
        pose proof (take_rbuf (N - length (buffer s)) _ (proj1 H1)) as H2. cbn [a_rbuf set_pos] in H2. rewrite Er in H2.
        apply answers_take; [apply (delivers_trans _ _ _ _ _ H1), H2|].
        * unfold buffer; simpl. fold (buffer (fill s)). rewrite skipn_add. fold (buffer (fill s)).
          rewrite Hb1. apply skipn_all.
        * rewrite app_length, firstn_all, firstn_length_le; simpl in *; lia.
  Qed.

  (* ---------------------------------------------------------------- check_eor / has_more_bytes *)
  (* check_eor never aborts and never consumes; with a sticky end-of-stream its answer is the exact one, or an optimistic
     Ok while no empty read has been observed *)
  Lemma a_eor_spec : forall num s, wf s ->
    wf (snd (a_eor num s)) /\ aborts (fst (a_eor num s)) = false /\ unread (snd (a_eor num s)) = unread s /\
    (SI s -> SI (snd (a_eor num s)) /\
      (fst (a_eor num s) = fst (sp_eor num (unread s)) \/
       (fst (a_eor num s) = Ok tt /\ fst (sp_eor num (unread s)) = Err EOF /\ a_seen (snd (a_eor num s)) = false))).
  Proof.
    intros num s Hwf. unfold a_eor, sp_eor. cbn [fst].
    destruct (Nat.leb_spec num (length (buffer s))) as [Hle|Hgt].
    - cbn [fst snd]. split; [exact Hwf|]. split; [reflexivity|]. split; [reflexivity|]. intros HS. split; [exact HS|]. left.
      unfold unread. rewrite app_length.
      destruct (Nat.leb_spec num (length (buffer s) + length (a_rbuf s ++ concat (a_chunks s)))); [reflexivity|lia].
    - pose proof (fill_unread s) as Hu1.
      assert (HlenU : length (unread s) = length (buffer s) + (length (a_rbuf (fill s)) + length (concat (a_chunks (fill s))))).
      { rewrite <- Hu1. unfold unread. now rewrite fill_buffer, !app_length. }
      (* in every case the state is [fill s] and the answer Ok or EOF *)
      destruct (a_rbuf (fill s)) as [|b rb] eqn:Er;
        [|destruct (Nat.leb_spec num (length (buffer s) + length (b :: rb))) as [Hle2|Hgt2];
          [|destruct (a_geof (fill s)) eqn:Eg]];
        cbn [fst snd]; (split; [exact (fill_wf s Hwf)|]); (split; [reflexivity|]); (split; [exact Hu1|]); intros HS;
        destruct (fill_SI s HS) as [HS1 _]; (split; [exact HS1|]).
      + left. destruct (fill_eof s HS Er) as (_ & _ & G3). rewrite G3.
        destruct (Nat.leb_spec num (length (buffer s))); [lia|reflexivity].
      + left. destruct (Nat.leb_spec num (length (unread s))); [reflexivity|lia].
      + exfalso. destruct HS1 as (_ & Hseen & Hg). destruct (Hseen (Hg Eg)) as [E _]. rewrite E in Er. discriminate.
      + destruct (Nat.leb_spec num (length (unread s))); [left; reflexivity|right].
        split; [reflexivity|]. split; [reflexivity|]. eapply SI_rbuf_seen; eauto.
  Qed.

  Lemma a_more_spec : forall s, wf s ->
    wf (snd (a_more s)) /\ unread (snd (a_more s)) = unread s /\
    (SI s -> SI (snd (a_more s)) /\ fst (a_more s) = fst (sp_more (unread s))).
  Proof.
    intros s Hwf. unfold a_more, sp_more. cbn [fst].
    destruct (buffer s) as [|b t] eqn:Eb; cbn [is_nil negb fst snd].
    - pose proof (fill_unread s) as Hu1.
      split; [now apply fill_wf|]. split; [exact Hu1|]. intros HS. split; [now apply fill_SI|].
      destruct (a_rbuf (fill s)) as [|b rb] eqn:Er.
      + destruct (fill_eof s HS Er) as (_ & _ & G3). rewrite G3, Eb. reflexivity.
      + rewrite <- Hu1. unfold unread. now rewrite Er, fill_buffer, Eb.
    - split; [exact Hwf|]. split; [reflexivity|]. intros HS. split; [exact HS|]. unfold unread. now rewrite Eb.
  Qed.
End AdapterProofs.
