(* C15 — index functions of the FRI model: fold_positions, num_fri_layers, the transposed layer layout
   (prover's query_layer vs verifier's get_query_values). *)
From Coq Require Import List Arith Bool Lia ZArith.
From VBase Require Import FieldOps.
From VModel Require Import Fri.
From VProofs Require Import ListFacts Pow2Facts.
Import ListNotations.

(* ---------------------------------------------------------------- map2, is_pow2, next_pow2 of Model/Fri.v *)
Lemma map2_map_same {A B C D} (h : B -> C -> D) (f : A -> B) (g : A -> C) (l : list A) :
  map2 h (map f l) (map g l) = map (fun i => h (f i) (g i)) l.
Proof. induction l; cbn [map map2]; [reflexivity | now rewrite IHl]. Qed.

Lemma is_pow2_pow2 k : is_pow2 (2 ^ k) = true.
Proof.
  unfold is_pow2. rewrite log2_pow2, Nat.eqb_refl, andb_true_r. apply Nat.ltb_lt.
  pose proof (pow2_nonzero k). lia.
Qed.

Lemma next_pow2_pow2 e : next_pow2 (2 ^ e) = 2 ^ e.
Proof.
  unfold next_pow2. destruct e as [|e]; [reflexivity|].
  pose proof (pow2_ge_2 (S e) ltac:(lia)) as H.
  destruct (2 ^ S e <=? 1) eqn:E; [apply Nat.leb_le in E; lia|].
  replace (2 ^ S e - 1) with (Nat.pred (2 ^ S e)) by lia. rewrite Nat.log2_pred_pow2 by lia. reflexivity.
Qed.

(* ---------------------------------------------------------------- fold_positions *)
(* order-preserving de-duplication: keep the first occurrence of every value *)
Fixpoint dedup (l : list nat) : list nat :=
  match l with
  | [] => []
  | x :: t => x :: filter (fun y => negb (y =? x)) (dedup t)
  end.

Definition memb (x : nat) (l : list nat) : bool := existsb (Nat.eqb x) l.

Lemma memb_In x l : memb x l = true <-> In x l.
Proof.
  unfold memb. rewrite existsb_exists. split.
  - intros [y [Hy E]]. apply Nat.eqb_eq in E. now subst.
  - intros H. exists x. split; [assumption | apply Nat.eqb_refl].
Qed.

Lemma memb_app x a b : memb x (a ++ b) = memb x a || memb x b.
Proof. unfold memb. apply existsb_app. Qed.

Lemma fold_push_new : forall l acc,
  fold_left push_new l acc = acc ++ filter (fun y => negb (memb y acc)) (dedup l).
Proof.
  induction l as [|x t IH]; intros acc; cbn [fold_left dedup filter].
  - now rewrite app_nil_r.
  - unfold push_new at 2. fold (memb x acc). destruct (memb x acc) eqn:Hm; cbn [negb].
    + rewrite IH. f_equal. rewrite filter_filter. apply filter_ext_in. intros y _.
      destruct (y =? x) eqn:E; cbn; [|reflexivity].
      apply Nat.eqb_eq in E; subst. now rewrite Hm.
    + rewrite IH, <- app_assoc. cbn [app]. do 2 f_equal.
      rewrite filter_filter. apply filter_ext_in. intros y _.
      rewrite memb_app. unfold memb at 2. cbn [existsb]. rewrite orb_false_r, negb_orb.
      now rewrite andb_comm.
Qed.

Lemma fold_positions_core_dedup ps t :
  fold_positions_core ps t = dedup (map (fun p => p mod t) ps).
Proof.
  unfold fold_positions_core.
  assert (G : forall l acc, fold_left (fun a p => push_new a (p mod t)) l acc
                            = fold_left push_new (map (fun p => p mod t) l) acc).
  { induction l as [|a l IH]; intros acc; cbn; [reflexivity | apply IH]. }
  rewrite G, fold_push_new. cbn [app]. rewrite (filter_ext_in _ (fun _ => true)).
  - clear. induction (dedup _) as [|a l IH]; cbn; [reflexivity | now rewrite IH].
  - reflexivity.
Qed.

Lemma dedup_In x l : In x (dedup l) <-> In x l.
Proof.
  induction l as [|a l IH]; cbn; [tauto|].
  rewrite filter_In, IH, negb_true_iff, Nat.eqb_neq. split.
  - intros [H|[H _]]; auto.
  - intros [H|H]; auto. destruct (Nat.eq_dec x a); [left; congruence | right; auto].
Qed.

Lemma dedup_NoDup l : NoDup (dedup l).
Proof.
  induction l as [|a l IH]; cbn; constructor.
  - rewrite filter_In, negb_true_iff, Nat.eqb_neq. tauto.
  - now apply NoDup_filter.
Qed.

(* the spec: for the inputs on which the Rust code does not panic (folding_factor <> 0, and the target domain
   non-empty unless there is no position), the result is the ordered de-duplication of the positions reduced
   modulo the target domain size; it has no duplicates, every element is in range, and it contains exactly the
   reductions of the input positions *)
Theorem fold_positions_spec : forall ps d n,
  n <> 0 -> (d / n <> 0 \/ ps = []) ->
  exists l, fold_positions ps d n = Ok l /\
    l = dedup (map (fun p => p mod (d / n)) ps) /\
    NoDup l /\
    (d / n <> 0 -> forall x, In x l -> x < d / n) /\
    (forall x, In x l <-> exists p, In p ps /\ x = p mod (d / n)).
Proof.
  intros ps d n Hn Ht. unfold fold_positions.
  rewrite (eqb0_false n) by assumption.
  assert (G : (d / n =? 0) && negb (is_nil ps) = false).
  { destruct Ht as [Ht|Ht]; [apply Nat.eqb_neq in Ht; now rewrite Ht | subst; cbn; apply andb_false_r]. }
  rewrite G. eexists; split; [reflexivity|]. rewrite fold_positions_core_dedup.
  split; [reflexivity|]. split; [apply dedup_NoDup|]. split.
  - intros Hz x Hx. apply dedup_In, in_map_iff in Hx. destruct Hx as [p [<- _]]. now apply Nat.mod_upper_bound.
  - intros x. rewrite dedup_In, in_map_iff. split; intros [p [A B]]; exists p; auto.
Qed.

(* exactly when the Rust code panics *)
Theorem fold_positions_panics : forall ps d n,
  fold_positions ps d n = Panic <-> (n = 0 \/ (d / n = 0 /\ ps <> [])).
Proof.
  intros. unfold fold_positions. destruct (n =? 0) eqn:E.
  - apply Nat.eqb_eq in E. split; auto.
  - apply Nat.eqb_neq in E. destruct (d / n =? 0) eqn:E2; cbn [andb].
    + apply Nat.eqb_eq in E2. destruct ps; cbn; split; try discriminate; auto.
      * intros [H|[_ H]]; congruence.
      * intros _. right. split; [assumption | discriminate].
    + apply Nat.eqb_neq in E2. split; [discriminate | intros [H|[H _]]; contradiction].
Qed.

Lemma find_index_spec v l : In v l -> exists i, find_index v l = Some i /\ nth_error l i = Some v.
Proof.
  induction l as [|x t IH]; cbn; [tauto|]. intros H.
  destruct (x =? v) eqn:E.
  - apply Nat.eqb_eq in E; subst. exists 0. auto.
  - apply Nat.eqb_neq in E. destruct H as [H|H]; [contradiction|].
    destruct (IH H) as [i [A B]]. rewrite A. exists (S i). auto.
Qed.

(* ---------------------------------------------------------------- num_fri_layers *)
Lemma folded_size_S k d ff : folded_size (S k) d ff = folded_size k d ff / ff.
Proof.
  revert d. induction k as [|k IH]; intros d; [reflexivity|].
  change (folded_size (S (S k)) d ff) with (folded_size (S k) (d / ff) ff). rewrite IH. reflexivity.
Qed.

(* the loop started with counter acc stops after k - acc further foldings *)
Lemma nfl_loop_spec : forall fuel d m ff acc k,
  nfl_loop fuel d m ff acc = Some k ->
  acc <= k /\ folded_size (k - acc) d ff <= m /\ forall j, j < k - acc -> m < folded_size j d ff.
Proof.
  induction fuel as [|fuel IH]; intros d m ff acc k; cbn [nfl_loop]; destruct (d <=? m) eqn:E.
  1, 3: apply Nat.leb_le in E; intros [= <-]; rewrite Nat.sub_diag; repeat split; [lia | exact E | lia].
  - discriminate.
  - apply Nat.leb_gt in E. destruct (ff =? 0); [discriminate|]. intros H.
    destruct (IH _ _ _ _ _ H) as [A [B C]]. replace (k - acc) with (S (k - S acc)) by lia.
    repeat split; [lia | exact B |]. intros [|j] Hj; [exact E | apply C; lia].
Qed.

Lemma nfl_loop_total : forall fuel d m ff acc, 2 <= ff -> d < fuel -> exists k, nfl_loop fuel d m ff acc = Some k.
Proof.
  induction fuel as [|f IH]; intros d m ff acc Hff Hd; [lia|]. cbn.
  destruct (d <=? m) eqn:E0; [eauto|]. apply Nat.leb_gt in E0.
  rewrite (eqb0_false ff) by lia.
  apply IH; [assumption|]. assert (d / ff < d) by (apply Nat.div_lt; lia). lia.
Qed.

(* num_fri_layers: terminates for every supported folding factor (>= 2), returns the least k such that the
   domain folded k times is not larger than (remainder_max_degree + 1) * blowup *)
Theorem num_fri_layers_spec : forall o d, 2 <= fo_folding o ->
  exists k, num_fri_layers o d = Some k /\
    folded_size k d (fo_folding o) <= (fo_remmax o + 1) * fo_blowup o /\
    (forall j, j < k -> (fo_remmax o + 1) * fo_blowup o < folded_size j d (fo_folding o)).
Proof.
  intros o d Hff. unfold num_fri_layers, max_remainder_size.
  destruct (nfl_loop_total (S d) d ((fo_remmax o + 1) * fo_blowup o) (fo_folding o) 0 Hff (Nat.lt_succ_diag_r d)) as [k Hk].
  exists k. split; [exact Hk|]. apply nfl_loop_spec in Hk. now rewrite Nat.sub_0_r in Hk.
Qed.

Theorem num_fri_layers_valid_options : forall b n r o d, options_new b n r = Ok o ->
  exists k, num_fri_layers o d = Some k.
Proof.
  intros b n r o d H. unfold options_new in H.
  destruct (negb (is_pow2 b)); [discriminate|].
  destruct (supported_folding n) eqn:E; cbn in H; [|discriminate]. injection H as <-.
  destruct (num_fri_layers_spec (mkOpts b n r) d) as [k [Hk _]].
  - cbn. unfold supported_folding in E.
    repeat (apply orb_true_iff in E; destruct E as [E|E]); apply Nat.eqb_eq in E; subst; lia.
  - eauto.
Qed.

(* the "well-formed schedule": every layer has at least two rows, the remainder domain at least two points
   (get_inv_twiddles) and the remainder polynomial at least one coefficient *)
Definition well_formed_schedule (o : fri_options) (d : nat) : Prop :=
  exists k, num_fri_layers o d = Some k /\
    (forall j, j < k -> 2 <= folded_size (S j) d (fo_folding o)) /\
    2 <= folded_size k d (fo_folding o) /\
    fo_blowup o <= folded_size k d (fo_folding o).

Lemma folded_size_pow2 : forall k a f, k * f <= a -> folded_size k (2 ^ a) (2 ^ f) = 2 ^ (a - k * f).
Proof.
  induction k as [|k IH]; intros a f H; cbn [folded_size].
  - now rewrite Nat.sub_0_r.
  - rewrite pow2_div_pow2 by lia. rewrite IH by lia. f_equal. lia.
Qed.

Lemma folded_size_le : forall k j d ff, ff <> 0 -> j <= k -> folded_size k d ff <= folded_size j d ff.
Proof.
  induction k as [|k IH]; intros j d ff Hff Hj.
  - replace j with 0 by lia. lia.
  - destruct (Nat.eq_dec j (S k)) as [->|Hne]; [lia|].
    rewrite folded_size_S. etransitivity; [|apply (IH j); [assumption | lia]].
    apply Nat.div_le_upper_bound; [assumption|]. nia.
Qed.

(* for power-of-two parameters (domain 2^a, folding 2^f with f >= 1, blowup 2^b): the schedule is well formed
   iff, with k the layer count, k*f < a (the last domain has at least two points; this also gives every layer
   two rows) and b <= a - k*f (the remainder has at least one coefficient) *)
Theorem well_formed_pow2 : forall a f b r, 1 <= f ->
  let o := mkOpts (2 ^ b) (2 ^ f) r in
  well_formed_schedule o (2 ^ a) <->
  exists k, num_fri_layers o (2 ^ a) = Some k /\ k * f < a /\ b <= a - k * f.
Proof.
  intros a f b r Hf o. unfold well_formed_schedule. split.
  - intros [k [Hk [H1 [H2 H3]]]]. exists k. split; [exact Hk|].
    assert (Hkf : k * f < a).
    { destruct (le_lt_dec a (k * f)) as [Hge|]; [|assumption]. exfalso.
      clear H1 H3. cbn [fo_folding o] in *.
      assert (Hj : a / f * f <= a) by (rewrite Nat.mul_comm; apply Nat.mul_div_le; lia).
      assert (Hj2 : a < S (a / f) * f) by (rewrite Nat.mul_comm; apply Nat.mul_succ_div_gt; lia).
      set (j := a / f) in *.
      assert (Hjk : j <= k) by nia.
      destruct (Nat.eq_dec j k) as [->|Hne].
      - rewrite folded_size_pow2 in H2 by lia. replace (a - k * f) with 0 in H2 by lia. cbn in H2. lia.
      - assert (Hle : folded_size k (2 ^ a) (2 ^ f) <= folded_size (S j) (2 ^ a) (2 ^ f)).
        { apply folded_size_le; [apply Nat.pow_nonzero; lia | lia]. }
        rewrite folded_size_S, (folded_size_pow2 j) in Hle by lia.
        rewrite Nat.div_small in Hle; [lia|]. apply Nat.pow_lt_mono_r; lia. }
    split; [assumption|]. cbn [fo_folding fo_blowup o] in H3. rewrite folded_size_pow2 in H3 by lia.
    apply Nat.pow_le_mono_r_iff in H3; lia.
  - intros [k [Hk [H1 H2]]]. exists k. split; [exact Hk|]. cbn [fo_folding fo_blowup o].
    split; [|split].
    + intros j Hj. rewrite folded_size_pow2 by nia. apply pow2_ge_2. nia.
    + rewrite folded_size_pow2 by lia. apply pow2_ge_2. lia.
    + rewrite folded_size_pow2 by lia. apply Nat.pow_le_mono_r; lia.
Qed.

(* ---------------------------------------------------------------- layer layout *)
Section Layout.
Context {A : Type} (d0 : A).

(* row q of the transposed layer: [evals[q], evals[q + rl], ..., evals[q + (N-1) rl]] *)
Definition row_of (N rl : nat) (evals : list A) (q : nat) : list A :=
  map (fun j => nth (q + j * rl) evals d0) (seq 0 N).

Lemma row_of_length N rl evals q : length (row_of N rl evals q) = N.
Proof. unfold row_of. now rewrite map_length, seq_length. Qed.

Lemma transpose_slice_rows N evals rl : N <> 0 -> length evals = rl * N ->
  transpose_slice d0 N evals = Ok (map (row_of N rl evals) (seq 0 rl)).
Proof.
  intros HN Hl. unfold transpose_slice.
  rewrite (eqb0_false N) by assumption.
  rewrite Hl, Nat.div_mul by assumption. rewrite Nat.eqb_refl. reflexivity.
Qed.

Lemma chunks_app_row : forall fuel N (r : list A) rest, N <> 0 -> length r = N ->
  chunks (S fuel) N (r ++ rest) = r :: chunks fuel N rest.
Proof.
  intros fuel N r rest HN Hr. subst N. cbn [chunks].
  assert (F2 : skipn (length r) (r ++ rest) = rest).
  { rewrite skipn_app, Nat.sub_diag, skipn_all. reflexivity. }
  pose proof (firstn_app_exact r rest) as F1.
  destruct (r ++ rest) eqn:E.
  - destruct r; [cbn in HN; lia | discriminate].
  - rewrite F1, F2. reflexivity.
Qed.

Lemma chunks_concat : forall (rows : list (list A)) N fuel, N <> 0 ->
  (forall r, In r rows -> length r = N) -> length (concat rows) <= fuel ->
  chunks fuel N (concat rows) = rows.
Proof.
  induction rows as [|r rows IH]; intros N fuel HN Hall Hf.
  - destruct fuel; reflexivity.
  - cbn [concat] in *. rewrite app_length in Hf.
    assert (Hr : length r = N) by (apply Hall; now left).
    destruct fuel as [|fuel]; [lia|].
    rewrite chunks_app_row by lia. f_equal. apply IH; [assumption | intros; apply Hall; now right | lia].
Qed.

Lemma group_slice_concat (rows : list (list A)) N : N <> 0 ->
  (forall r, In r rows -> length r = N) -> group_slice N (concat rows) = Ok rows.
Proof.
  intros HN Hall. unfold group_slice.
  rewrite (eqb0_false N) by assumption.
  rewrite (concat_length_rows rows N Hall), Nat.mod_mul by assumption. cbn.
  f_equal. apply chunks_concat; auto. now rewrite (concat_length_rows rows N Hall).
Qed.

Lemma mapM_idx_map (rows : list (list A)) (f : nat -> list A) (qs : list nat) :
  (forall q, In q qs -> nth_error rows q = Some (f q)) ->
  mapM (fun q => idx rows q) qs = Ok (map f qs).
Proof.
  induction qs as [|q qs IH]; intros H; [reflexivity|]. cbn [mapM map].
  unfold idx at 1. rewrite (H q) by now left. cbn. rewrite IH by (intros; apply H; now right). reflexivity.
Qed.

(* the verifier's lookup: for EVERY queried position p (duplicates and positions that collide after folding
   included) get_query_values finds, in the rows opened by the prover for the folded positions, the
   evaluation at p itself *)
Theorem get_query_values_layout : forall N rl evals ps,
  N <> 0 -> rl <> 0 -> (forall p, In p ps -> p < rl * N) ->
  get_query_values N (map (row_of N rl evals) (fold_positions_core ps rl)) ps (fold_positions_core ps rl) (rl * N)
  = Ok (map (fun p => nth p evals d0) ps).
Proof.
  intros N rl evals ps HN Hrl Hps. unfold get_query_values.
  rewrite (eqb0_false N) by assumption.
  rewrite Nat.div_mul by assumption.
  set (folded := fold_positions_core ps rl).
  assert (Hall : forall p, In p ps -> In (p mod rl) folded).
  { intros p Hp. unfold folded. rewrite fold_positions_core_dedup, dedup_In, in_map_iff. eauto. }
  clearbody folded. revert Hps Hall.
  rewrite (eqb0_false rl) by assumption.
  induction ps as [|p ps IH]; intros Hps Hall; [reflexivity|]. cbn [mapM map].
  destruct (find_index_spec (p mod rl) folded (Hall p (or_introl eq_refl))) as [i [Hi Hn]].
  rewrite Hi. cbn [of_option bind]. unfold idx at 1. rewrite nth_error_map, Hn. cbn [option_map of_option bind].
  assert (Hq : p / rl < N).
  { apply Nat.div_lt_upper_bound; [assumption|]. specialize (Hps p (or_introl eq_refl)). lia. }
  unfold row_of in *. unfold idx at 1. rewrite nth_error_map.
  rewrite (nth_error_nth' (seq 0 N) 0) by now rewrite seq_length.
  rewrite seq_nth by assumption. cbn [option_map of_option bind Nat.add].
  replace (p mod rl + p / rl * rl) with p by (rewrite (Nat.div_mod p rl) at 1 by assumption; lia).
  rewrite IH; [reflexivity | intros; apply Hps; now right | intros; apply Hall; now right].
Qed.

End Layout.
