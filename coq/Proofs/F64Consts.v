(* f64: published constants satisfy their defining equations. *)
From VBase Require Import MachInt ZpOps.
From VGen Require Import F64.
From VProofs Require Import FastMod NumTheoryPrime F64Red F64Ops.
Open Scope Z_scope.

Lemma f64_modulus : f64_MODULUS = 2^64 - 2^32 + 1. Proof. reflexivity. Qed.
Lemma f64_R2_def : f64_R2 = 2^128 mod M. Proof. reflexivity. Qed.
Lemma f64_generator_val : val f64_GENERATOR = 7. Proof. reflexivity. Qed.
Lemma f64_generator_repr : repr f64_GENERATOR. Proof. unfold repr, M; vm_compute; split; [discriminate|reflexivity]. Qed.

Lemma f64_Mm1_factored : M - 1 = 2^32 * 3 * 5 * 17 * 257 * 65537. Proof. reflexivity. Qed.

(* 7 is a primitive root: 7^((M-1)/q) <> 1 for every prime q | M-1, and 7^(M-1) = 1 *)
Lemma f64_generator_order :
  zpow_mod M 7 (M - 1) = 1 /\
  forallb (fun q => negb (zpow_mod M 7 ((M - 1) / q) =? 1)) [2; 3; 5; 17; 257; 65537] = true.
Proof. exact (proj2 (lucas_check_order _ _ _ P64_lucas)). Qed.

Lemma f64_two_adicity : f64_TWO_ADICITY = 32 /\ (M - 1) mod 2^32 = 0 /\ Z.odd ((M - 1) / 2^32) = true.
Proof. repeat split. Qed.

Lemma f64_root_def : val f64_TWO_ADIC_ROOT_OF_UNITY = 7277203076849721926 /\ repr f64_TWO_ADIC_ROOT_OF_UNITY.
Proof. split; [reflexivity|]. unfold repr, M; vm_compute; split; [discriminate|reflexivity]. Qed.

(* the root has order exactly 2^32: w^(2^32) = 1 and w^(2^31) = -1 *)
Lemma f64_root_order :
  zpow_mod M 7277203076849721926 (2^32) = 1 /\ zpow_mod M 7277203076849721926 (2^31) = M - 1.
Proof. change M with P64. rewrite !(zpow_mod_rd P64 red64 red64_mod). split; vm_compute; reflexivity. Qed.

Lemma f64_root_is_2_32th_root_of_unity_in_generated_group :
  zpow_mod M (zpow_mod M 7 ((M - 1) / 2^32)) (2^31) = M - 1.
Proof. change M with P64. rewrite !(zpow_mod_rd P64 red64 red64_mod). vm_compute. reflexivity. Qed.
