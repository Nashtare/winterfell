(* C11 — non-vacuity examples: the hypotheses of the C11 theorems are satisfiable, and the models compute the digests
   the repaired implementation produces on concrete inputs (values replayed from `c11 probe`). *)
From VBase Require Import MachInt.
From VGen Require Import Mds12 Mds8.
From VModel Require Import RescueConsts Rescue ByteHash.
From VProofs Require Import ListFacts RescueSponge RescueSbox RescueMds FastMod RescueFastEval.
Open Scope Z_scope.

Lemma ex_bytes : bytes [] /\ bytes [0; 255; 7] /\ bytes (repeat 171 70).
Proof. split; [constructor|]. split; [repeat constructor | apply Forall_repeat]; unfold is_byte; lia. Qed.

(* a goal `hash_bytes_with p (he p S) b = Some d` where the permutation of S is apply_permutation p P: the elements of b are
   computed, then the permutation is rewritten to perm_memo with the table computed here, and that is evaluated.
   `ext` is the extensionality lemma of `he`, `rd_mod` says that rd is `mod p`, `sbox_eq` that the S-box over `rd` is that
   of P, `inv_sbox` that the inverse S-box of P undoes it, and e is its exponent (used for the table only). *)
Ltac known_answer ext rd_mod sbox_eq inv_sbox e :=
  unfold hash_bytes_with;
  lazymatch goal with |- context [bytes_to_elems ?p ?b] =>
    let es := eval vm_compute in (bytes_to_elems p b) in change (bytes_to_elems p b) with es; cbv beta iota
  end;
  lazymatch goal with |- Some (?he ?p (mkSponge ?w ?rs ?rw ?ci ?ds (apply_permutation ?p ?P)) ?es) = _ =>
    lazymatch type of sbox_eq with forall x, ?sbox x = _ =>
    lazymatch type of rd_mod with forall x, ?rd x = _ =>
    let u := eval cbv beta zeta delta [hash_elements_cnt hash_elements_jive] in (he p (mkSponge w rs rw ci ds (apply_permutation p P)) es) in
    lazymatch u with context [absorb _ ?S ?st0 _ _] =>
      let fastP := constr:(mkRP sbox (Pos.iter_op (mul_rd rd) (Z.to_pos e)) (rp_mds P) (rp_ark1 P) (rp_ark2 P)) in
      let tab := eval vm_compute in (absorb_pairs p rd fastP S st0 0%nat es) in
      rewrite (ext p w rs rw ci ds _ _ (perm_memo_eq p rd rd_mod P sbox tab sbox_eq inv_sbox))
    end end end
  end;
  vm_compute; reflexivity.

(* hash of the empty string: no permutation, the zero digest; 57 bytes (9 chunks, partial last chunk) panic in the
   unrepaired hash(); 70 bytes = [0xAB; 70]: digest of the repaired Rp64_256::hash, 88c702f2b384aeae e7c54270a0654995 .. *)
Lemma ex_hash_values :
  rp64_hash [] = Some [0; 0; 0; 0] /\ rp64_hash (repeat 171 57) <> None /\
  rp64_hash (repeat 171 70) = Some [9855849550940778158; 16700827844668115349; 2206747521949972729; 1808440846046674605].
Proof.
  split; [reflexivity|]. split; [apply hash_total_rp64, Forall_repeat; unfold is_byte; lia|].
  unfold rp64_hash, rp64_sponge, rp64_permutation.
  known_answer hash_elements_cnt_ext red64_mod (exp7_rd M64 red64 red64_mod) sbox_inv_sbox_64 rp64_INV_ALPHA.
Qed.

(* known answers of the other two hashers on [0xAB; 70] (replayed from `c11 probe` on the repaired tree); together with
   ex_hash_values these pin the round-constant tables of the three hashers: a changed constant breaks these Examples *)
Lemma ex_hash_pins :
  rp62_hash (repeat 171 70) = Some [718269490133229630; 1272527191177799928; 39996384440040100; 4287254455493316955] /\
  jive_hash (repeat 171 70) = Some [7310329737796519830; 1779878501739986078; 9442396403217558804; 2621743351511437720].
Proof.
  split.
  - unfold rp62_hash, rp62_sponge, rp62_permutation.
    known_answer hash_elements_cnt_ext red62_mod (cube_rd M62 red62 red62_mod) sbox_inv_sbox_62 rp62_INV_ALPHA.
  - unfold jive_hash, jive_sponge, jive_permutation.
    known_answer hash_elements_jive_ext red64_mod (exp7_rd M64 red64 red64_mod) sbox_inv_sbox_64 jive_INV_ALPHA.
Qed.

(* length and trailing zeros are separated by the encoding *)
Lemma ex_encoding_separates :
  bytes_to_elems M64 [1] = Some [257] /\ bytes_to_elems M64 [1; 0] = Some [65537] /\ bytes_to_elems M64 [] = Some [] /\
  bytes_to_elems M64 [1; 2; 3; 4; 5; 6; 7] = Some [1 + 2 * 2^8 + 3 * 2^16 + 4 * 2^24 + 5 * 2^32 + 6 * 2^40 + 7 * 2^48 + 2^56] /\
  bytes_to_elems M64 [1; 2; 3; 4; 5; 6; 7; 0] = Some [1 + 2 * 2^8 + 3 * 2^16 + 4 * 2^24 + 5 * 2^32 + 6 * 2^40 + 7 * 2^48; 256].
Proof. vm_compute. repeat split; reflexivity. Qed.

Lemma ex_digest_ok : digest_ok M64 [0; 1; 2; M64 - 1] /\ digest_ok M62 [0; 1; 2; M62 - 1].
Proof. split; (split; [reflexivity|]); repeat constructor; unfold M64, M62; lia. Qed.

(* merge_with_int: below / at / above the modulus give pairwise different absorbed states *)
Lemma ex_mwi_states :
  let st v := mwi_state_cnt M64 rp64_sponge [1; 2; 3; 4] v in
  st (M64 - 1) = [5; 0; 0; 0; 1; 2; 3; 4; M64 - 1; 0; 0; 0] /\ st M64 = [6; 0; 0; 0; 1; 2; 3; 4; 0; 1; 0; 0] /\
  st (M64 + 1) = [6; 0; 0; 0; 1; 2; 3; 4; 1; 1; 0; 0] /\ st 0 = [5; 0; 0; 0; 1; 2; 3; 4; 0; 0; 0; 0] /\
  mwi_state_cnt M62 rp62_sponge [1; 2; 3; 4] (2 ^ 64 - 1) = [1; 2; 3; 4; (2 ^ 64 - 1) mod M62; 4; 0; 0; 0; 0; 0; 6].
Proof. vm_compute. repeat split; reflexivity. Qed.

(* extreme limbs: all 2^32 - 1 and all 2^32 satisfy the hypotheses of freq12_exact; extreme words those of mds12_multiply_list *)
Lemma ex_limbs : L32 0 /\ L32 (2 ^ 32 - 1) /\ L32 (2 ^ 32) /\ word 0 /\ word (2 ^ 64 - 1) /\ word (M64 - 1).
Proof. unfold L32, word, M64. lia. Qed.
Lemma ex_freq_extreme :
  mds12_freq_list (repeat (2 ^ 32) 12) = repeat (160 * 2 ^ 32) 12 /\ mds12_freq_list_ok (repeat (2 ^ 32) 12) = true /\
  mds8_freq_list (repeat (2 ^ 32) 8) = repeat (96 * 2 ^ 32) 8 /\ mds8_freq_list_ok (repeat (2 ^ 32) 8) = true.
Proof.
  assert (H : L32 (2 ^ 32)) by (unfold L32; lia).
  destruct (freq12_exact _ _ _ _ _ _ _ _ _ _ _ _ H H H H H H H H H H H H) as (E12 & O12).
  destruct (freq8_exact _ _ _ _ _ _ _ _ H H H H H H H H) as (E8 & O8).
  unfold mds12_freq_list, mds12_freq_list_ok, mds8_freq_list, mds8_freq_list_ok. cbn [repeat].
  rewrite E12, O12, E8, O8. repeat split; reflexivity.
Qed.
(* the state on which the unrepaired fold returned the internal word M + 1: the repaired one returns 1 *)
Lemma ex_mds_canonical : nth 0 (mds12_multiply ((M64 + 1) / 7 :: repeat 0 11)) 0 = 1.
Proof. vm_compute. reflexivity. Qed.

Lemma ex_sbox : exp7 M64 (inv_sbox64 M64 (M64 - 1)) = M64 - 1 /\ exp7 M64 (inv_sbox64 M64 0) = 0 /\ cube M62 (inv_sbox62 M62 5) = 5.
Proof. split; [|split]; [apply inv_sbox_spec_64 | apply inv_sbox_spec_64 | apply inv_sbox_spec_62]; unfold M64, M62; lia. Qed.

Lemma ex_msg_mwi : length (msg_merge_with_int (repeat 0 32) (2 ^ 64 - 1)) = 40%nat /\ length (msg_merge_with_int (repeat 0 24) 0) = 32%nat /\
  msg_merge_with_int [9] 258 = [9; 2; 1; 0; 0; 0; 0; 0; 0].
Proof. vm_compute. repeat split; reflexivity. Qed.
