(* C20 — expansion from roots (fill_zero_roots / poly_from_roots) and the algebra of multiplying / dividing a
   coefficient list by a linear factor (x - r). *)
From Coq Require Import List Arith Bool Lia Ring Field.
From VBase Require Import FieldOps.
From VModel Require Import Polynom.
From VProofs Require Import PolyBase PolyDiv.
Import ListNotations.

Section Roots.
Context {F : Type} (O : FOps F) (L : FLaws O).
Local Notation zero := (fzero O).
Local Notation one := (fone O).
Local Notation "a +f b" := (fadd O a b) (at level 50, left associativity).
Local Notation "a -f b" := (fsub O a b) (at level 50, left associativity).
Local Notation "a *f b" := (fmul O a b) (at level 40, left associativity).
Local Notation peval := (peval O).
Local Notation fpow := (fpow O).
Local Notation pprod := (pprod O).

Add Field Ffield : (FLaws_field_theory O L).

(* coefficients of (x - r) * q + prev :  d_0 = prev - q_0 r, d_k = q_{k-1} - q_k r, d_len = q_{len-1} *)
Fixpoint linmul_aux (prev : F) (q : list F) (r : F) : list F :=
  match q with
  | [] => [prev]
  | c :: t => (prev -f c *f r) :: linmul_aux c t r
  end.
Definition linmul (q : list F) (r : F) : list F := linmul_aux zero q r.

(* the specification of poly_from_roots: multiply 1 by (x - xs_0), (x - xs_1), ... in this order *)
Definition roots_poly (xs : list F) : list F := fold_left linmul xs [one].

Lemma linmul_aux_length : forall q prev r, length (linmul_aux prev q r) = S (length q).
Proof. induction q; simpl; intros; auto. Qed.

Lemma linmul_aux_peval x : forall q prev r, peval (linmul_aux prev q r) x = prev +f (x -f r) *f peval q x.
Proof. induction q as [|c t IH]; intros prev r; simpl. ring. rewrite IH. ring. Qed.

Lemma linmul_peval q r x : peval (linmul q r) x = (x -f r) *f peval q x.
Proof. unfold linmul. rewrite linmul_aux_peval. ring. Qed.

Lemma linmul_length q r : length (linmul q r) = S (length q).
Proof. apply linmul_aux_length. Qed.

Lemma linmul_aux_nth : forall q prev r k,
  nth k (linmul_aux prev q r) zero = (match k with 0 => prev | S k' => nth k' q zero end) -f r *f nth k q zero.
Proof.
  induction q as [|c t IH]; intros prev r k.
  - destruct k as [|k]; simpl. ring. destruct k; simpl; ring.
  - destruct k as [|k]. simpl. ring.
    cbn [linmul_aux nth]. rewrite IH. destruct k; simpl; ring.
Qed.

Lemma linmul_comm q a b : linmul (linmul q a) b = linmul (linmul q b) a.
Proof.
  apply (nth_ext _ _ zero zero). now rewrite !linmul_length.
  intros k _. unfold linmul. rewrite !linmul_aux_nth.
  destruct k as [|[|k]]; rewrite ?linmul_aux_nth; ring.
Qed.

(* exact division undoes the multiplication *)
Lemma syn_lin_linmul_aux r : forall q prev, syn_lin O (linmul_aux prev q r) r = (q ++ [zero], prev).
Proof.
  induction q as [|c t IH]; intros prev.
  - simpl. f_equal. ring.
  - cbn [linmul_aux syn_lin]. rewrite IH. simpl. f_equal. ring.
Qed.

Lemma syn_lin_linmul q r : syn_lin O (linmul q r) r = (q ++ [zero], zero).
Proof. apply syn_lin_linmul_aux. Qed.

Lemma fold_linmul_comm : forall xs q r, fold_left linmul xs (linmul q r) = linmul (fold_left linmul xs q) r.
Proof.
  induction xs as [|h t IH]; intros q r; simpl. reflexivity.
  rewrite linmul_comm. apply IH.
Qed.

Lemma fold_linmul_peval x : forall xs q, peval (fold_left linmul xs q) x = peval q x *f pprod xs x.
Proof.
  induction xs as [|h t IH]; intros q; simpl. ring.
  rewrite IH, linmul_peval. ring.
Qed.

Lemma fold_linmul_length : forall xs q, length (fold_left linmul xs q) = length q + length xs.
Proof.
  induction xs as [|h t IH]; intros q; simpl. lia. rewrite IH, linmul_length. lia.
Qed.

Lemma roots_poly_peval xs x : peval (roots_poly xs) x = pprod xs x.
Proof. unfold roots_poly. rewrite fold_linmul_peval. simpl. ring. Qed.

Lemma roots_poly_length xs : length (roots_poly xs) = S (length xs).
Proof. unfold roots_poly. rewrite fold_linmul_length. reflexivity. Qed.

(* removing the k-th root: the product factors as (x - xs_k) * (the rest), as coefficient lists *)
Lemma roots_poly_split xs1 r xs2 : roots_poly (xs1 ++ r :: xs2) = linmul (roots_poly (xs1 ++ xs2)) r.
Proof.
  unfold roots_poly. rewrite !fold_left_app. simpl. apply fold_linmul_comm.
Qed.

Lemma linmul_aux_last : forall q prev r, q <> [] -> last (linmul_aux prev q r) zero = last q zero.
Proof.
  induction q as [|c [|c' t'] IH]; intros prev r H; [congruence|reflexivity|].
  exact (IH c r ltac:(discriminate)).
Qed.

Lemma roots_poly_monic xs : last (roots_poly xs) zero = one.
Proof.
  unfold roots_poly. assert (G : forall q, q <> [] -> last (fold_left linmul xs q) zero = last q zero).
  { induction xs as [|h t IH]; intros q Hq; simpl. reflexivity.
    rewrite IH. now apply linmul_aux_last. unfold linmul. destruct q; simpl; discriminate. }
  rewrite G by discriminate. reflexivity.
Qed.

Lemma pprod_root : forall xs r, In r xs -> pprod xs r = zero.
Proof.
  induction xs as [|h t IH]; intros r H; simpl in *. tauto.
  destruct H as [H|H]. subst. ring. rewrite IH by assumption. ring.
Qed.

Lemma pprod_nonroot : forall xs r, ~ In r xs -> pprod xs r <> zero.
Proof.
  induction xs as [|h t IH]; intros r H; simpl in *. apply (fl_one_neq_zero O L).
  apply (fmul_nonzero O L). intros E. apply H. left. symmetry. now apply (fsub_eq_zero O L).
  apply IH. tauto.
Qed.

Lemma pprod_app xs ys x : pprod (xs ++ ys) x = pprod xs x *f pprod ys x.
Proof. induction xs; simpl. ring. rewrite IHxs. ring. Qed.

(* ------------------------------------------------------------------ fill_zero_roots *)
Definition fzr_inner_body (xi : F) : nat -> list F -> Result (list F) :=
  fun j r => rj <- get r j;; rj1 <- get r (j + 1);; set r j (rj -f rj1 *f xi).

Definition fzr_outer_body (xs : list F) : nat -> list F * nat -> Result (list F * nat) :=
  fun i st =>
    let '(r, n) := st in
    match n with
    | 0 => Panic
    | S n' =>
      r <- set r n' zero;;
      xi <- get xs i;;
      r <- for_up n' (length xs - n') (fzr_inner_body xi) r;;
      Ok (r, n')
    end.

Lemma fill_zero_roots_unfold xs result :
  fill_zero_roots O xs result =
  match length result with
  | 0 => Panic
  | S n0 => r <- set result n0 one;; st <- for_up 0 (length xs) (fzr_outer_body xs) (r, n0);; Ok (fst st)
  end.
Proof. reflexivity. Qed.

Lemma fzr_inner xi : forall rest pre cur,
  for_up (length pre) (length rest) (fzr_inner_body xi) (pre ++ cur :: rest) = Ok (pre ++ linmul_aux cur rest xi).
Proof.
  induction rest as [|c t IH]; intros pre cur. reflexivity.
  cbn [length for_up]. unfold fzr_inner_body at 1.
  rewrite get_app_mid, (get_app_r pre (cur :: c :: t) 1). cbn [get nth_error bind].
  rewrite set_ok by (rewrite app_length; simpl; lia). rewrite upd_app_mid.
  pose proof (IH (pre ++ [cur -f c *f xi]) c) as G. rewrite last_length, <- !app_assoc in G. exact G.
Qed.

Lemma fzr_outer xs : forall xs2 xs1 junk q, xs = xs1 ++ xs2 -> length junk = length xs2 -> length q = S (length xs1) ->
  for_up (length xs1) (length xs2) (fzr_outer_body xs) (junk ++ q, length junk) = Ok (fold_left linmul xs2 q, 0).
Proof.
  induction xs2 as [|xi xs2 IH]; intros xs1 junk q Hxs Hj Hq.
  - destruct junk; [|discriminate]. reflexivity.
  - destruct (list_snoc_inv junk (length xs2) Hj) as (junk' & jl & Ej & Hj').
    assert (Hstep : fzr_outer_body xs (length xs1) (junk ++ q, length junk) = Ok (junk' ++ linmul q xi, length junk')).
    { unfold fzr_outer_body. rewrite Hj. cbn [length]. subst junk. rewrite <- Hj'.
      rewrite set_ok by (rewrite !app_length; simpl; lia).
      rewrite <- app_assoc. simpl ([jl] ++ q). rewrite upd_app_mid. cbn [bind].
      assert (Hg : get xs (length xs1) = Ok xi) by (rewrite Hxs; apply get_app_mid). rewrite Hg. cbn [bind].
      replace (length xs - length junk') with (length q)
        by (rewrite Hxs, app_length; simpl; lia).
      unfold linmul. rewrite (fzr_inner xi q junk' zero). reflexivity. }
    cbn [length for_up]. rewrite Hstep, <- (last_length xs1 xi).
    apply (IH (xs1 ++ [xi]) junk' (linmul q xi)).
    + rewrite Hxs, <- app_assoc. reflexivity.
    + exact Hj'.
    + rewrite linmul_length, last_length. lia.
Qed.

(* whatever the initial content of the (uninitialised) vector of length n+1 *)
Lemma fill_zero_roots_spec xs init : length init = S (length xs) -> fill_zero_roots O xs init = Ok (roots_poly xs).
Proof.
  intros H. rewrite fill_zero_roots_unfold. rewrite H.
  destruct (list_snoc_inv init (length xs) H) as (junk & jl & E & Hj). subst init.
  rewrite set_ok by (rewrite app_length; simpl; lia). rewrite <- Hj, upd_app_mid. cbn [bind].
  pose proof (fzr_outer xs xs [] junk [one] eq_refl Hj eq_refl) as G. simpl in G.
  rewrite Hj in *. rewrite G. reflexivity.
Qed.

Lemma poly_from_roots_spec xs : poly_from_roots O xs = Ok (roots_poly xs).
Proof.
  unfold poly_from_roots, poly_from_roots_init. apply fill_zero_roots_spec. rewrite repeat_length. lia.
Qed.

End Roots.
