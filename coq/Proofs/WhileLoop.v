(* Proof rules for the fuelled loops `while_loop` / `while_loop_o` of Base/MachInt.v:
   invariants (partial correctness, any fuel) and three ways of bounding the number of iterations.
   Each rule is proved for `while_loop_o`; `while_loop` is the case of a body that never fails.
   Section ExpLoop applies them to the square-and-multiply loop of the trait-default `exp_vartime`
   (f64 and f62 as generated; it is also f128's `exp`); Section HalveWhileEven to "halve while even";
   the last part gives induction rules for the bounded `for_up` / `for_down` loops. *)
From Coq Require Import ZArith Lia List.
Import ListNotations.
From VBase Require Import MachInt.
From VProofs Require Import MachIntFacts.
Open Scope Z_scope.

Section Rules.
Context {S : Type}.

Lemma while_loop_as_o (cond : S -> bool) (body : S -> S) fuel s :
  while_loop fuel cond body s = while_loop_o fuel cond (fun s => Some (body s)) s.
Proof.
  revert s. induction fuel as [|f IH]; intros s; cbn [while_loop while_loop_o];
    destruct (cond s); [reflexivity|reflexivity|apply IH|reflexivity].
Qed.

(* partial correctness: an invariant preserved by the body holds at exit, where the condition is false *)
Lemma while_loop_o_inv (I : S -> Prop) (cond : S -> bool) (body : S -> option S) :
  (forall s s', I s -> cond s = true -> body s = Some s' -> I s') ->
  forall fuel s r, I s -> while_loop_o fuel cond body s = Some r -> I r /\ cond r = false.
Proof.
  intros Hstep fuel. induction fuel as [|f IH]; intros s r Hs; cbn [while_loop_o];
    destruct (cond s) eqn:E; intros Hr.
  - discriminate.
  - injection Hr as <-. split; assumption.
  - destruct (body s) as [s'|] eqn:Eb; [|discriminate].
    apply (IH s'); [eapply Hstep; eassumption|exact Hr].
  - injection Hr as <-. split; assumption.
Qed.

Lemma while_loop_inv (I : S -> Prop) (cond : S -> bool) (body : S -> S) :
  (forall s, I s -> cond s = true -> I (body s)) ->
  forall fuel s r, I s -> while_loop fuel cond body s = Some r -> I r /\ cond r = false.
Proof.
  intros Hstep fuel s r Hs. rewrite while_loop_as_o. apply while_loop_o_inv; [|exact Hs].
  intros t t' Ht Hc [= <-]. apply Hstep; assumption.
Qed.

(* termination: a ranked invariant R n ("at most n more iterations") *)
Lemma while_loop_o_term (R : nat -> S -> Prop) (cond : S -> bool) (body : S -> option S) :
  (forall s, R O s -> cond s = false) ->
  (forall n s, R (Datatypes.S n) s -> cond s = true -> exists s', body s = Some s' /\ R n s') ->
  forall n s, R n s -> exists r, while_loop_o n cond body s = Some r.
Proof.
  intros H0 HS n. induction n as [|n IH]; intros s Hs; cbn [while_loop_o].
  - rewrite (H0 s Hs). eauto.
  - destruct (cond s) eqn:E; [|eauto].
    destruct (HS n s Hs E) as (s' & -> & Hs'). apply IH. exact Hs'.
Qed.

Lemma while_loop_term (R : nat -> S -> Prop) (cond : S -> bool) (body : S -> S) :
  (forall s, R O s -> cond s = false) ->
  (forall n s, R (Datatypes.S n) s -> cond s = true -> R n (body s)) ->
  forall n s, R n s -> exists r, while_loop n cond body s = Some r.
Proof.
  intros H0 HS n s Hs. rewrite while_loop_as_o. apply (while_loop_o_term R); [exact H0| |exact Hs].
  intros k t Ht Hc. exists (body t). split; [reflexivity|apply HS; assumption].
Qed.

(* the same with an integer budget k that strictly decreases and stays >= 0: the rank is "budget <= n" *)
Lemma while_loop_o_term_budget (I : Z -> S -> Prop) (cond : S -> bool) (body : S -> option S) :
  (forall k s, I k s -> cond s = true -> exists k' s1, body s = Some s1 /\ 0 <= k' < k /\ I k' s1) ->
  forall fuel k s, I k s -> k <= Z.of_nat fuel -> exists s', while_loop_o fuel cond body s = Some s'.
Proof.
  intros Hs fuel k s Hi Hk.
  apply (while_loop_o_term (fun n s => exists k, I k s /\ k <= Z.of_nat n)); [| |eauto].
  - intros t (k0 & Hi0 & Hk0). destruct (cond t) eqn:E; [|reflexivity].
    destruct (Hs k0 t Hi0 E) as (k' & s1 & _ & Hk' & _). lia.
  - intros n t (k0 & Hi0 & Hk0) E. destruct (Hs k0 t Hi0 E) as (k' & s1 & Eb & Hk' & Hi').
    exists s1. split; [exact Eb|]. exists k'. split; [exact Hi'|lia].
Qed.

Lemma while_loop_term_budget (I : Z -> S -> Prop) (cond : S -> bool) (body : S -> S) :
  (forall k s, I k s -> cond s = true -> exists k', 0 <= k' < k /\ I k' (body s)) ->
  forall fuel k s, I k s -> k <= Z.of_nat fuel -> exists s', while_loop fuel cond body s = Some s'.
Proof.
  intros Hs fuel k s Hi Hk. rewrite while_loop_as_o. apply (while_loop_o_term_budget I) with k; [|exact Hi|exact Hk].
  intros k0 t Ht Hc. destruct (Hs k0 t Ht Hc) as (k' & Hk' & Hi'). exists k', (body t). auto.
Qed.

(* a positive measure that every iteration at least halves: below 2^fuel, fuel iterations suffice *)
Lemma while_loop_o_term_halving (mu : S -> Z) (I : S -> Prop) (cond : S -> bool) (body : S -> option S) :
  (forall s, I s -> cond s = true -> 0 < mu s) ->
  (forall s s', I s -> cond s = true -> body s = Some s' -> I s' /\ 2 * mu s' <= mu s) ->
  (forall s, I s -> cond s = true -> exists s', body s = Some s') ->
  forall fuel s, I s -> mu s < 2 ^ Z.of_nat fuel -> exists r, while_loop_o fuel cond body s = Some r.
Proof.
  intros Hpos Hstep Htot fuel s Hi Hm.
  apply (while_loop_o_term (fun n s => I s /\ mu s < 2 ^ Z.of_nat n)); [| |split; assumption].
  - intros t [Ht Hlt]. destruct (cond t) eqn:E; [|reflexivity].
    pose proof (Hpos t Ht E). change (2 ^ Z.of_nat 0) with 1 in Hlt. lia.
  - intros n t [Ht Hlt] E. destruct (Htot t Ht E) as [s' Eb]. destruct (Hstep t s' Ht E Eb) as [Ht' Hh].
    exists s'. split; [exact Eb|]. split; [exact Ht'|].
    rewrite Nat2Z.inj_succ, Z.pow_succ_r in Hlt by lia. lia.
Qed.

Lemma while_loop_term_halving (mu : S -> Z) (I : S -> Prop) (cond : S -> bool) (body : S -> S) :
  (forall s, I s -> cond s = true -> 0 < mu s /\ I (body s) /\ 2 * mu (body s) <= mu s) ->
  forall fuel s, I s -> mu s < 2 ^ Z.of_nat fuel -> exists r, while_loop fuel cond body s = Some r.
Proof.
  intros Hs fuel s Hi Hm. rewrite while_loop_as_o. apply (while_loop_o_term_halving mu I); [| | |exact Hi|exact Hm].
  - intros t Ht Hc. exact (proj1 (Hs t Ht Hc)).
  - intros t t' Ht Hc [= <-]. exact (proj2 (Hs t Ht Hc)).
  - intros t _ _. exists (body t). reflexivity.
Qed.

(* a loop that runs while mu is even and halves it exactly *)
Section HalveWhileEven.
Variables (mu : S -> Z) (I : S -> Prop) (cond : S -> bool) (body : S -> S).
Hypothesis exit_odd : forall s, cond s = false -> mu s mod 2 <> 0.
Hypothesis step : forall s, I s -> cond s = true -> 0 <= mu s /\ I (body s) /\ 2 * mu (body s) = mu s.

(* partial correctness: mu is odd at exit, and has at least halved if it was even at entry *)
Lemma halve_even_inv fuel s r : I s -> while_loop fuel cond body s = Some r ->
  I r /\ mu r mod 2 <> 0 /\ (mu s mod 2 = 0 -> 2 * mu r <= mu s).
Proof.
  intros Hi W.
  enough (I r /\ cond r = false /\ mu r <= mu s /\ (cond s = true -> 2 * mu r <= mu s)) as (Hr & Hc & _ & Hh).
  { split; [exact Hr|]. split; [exact (exit_odd r Hc)|]. intros Hev. apply Hh.
    destruct (cond s) eqn:E; [reflexivity|]. destruct (exit_odd s E Hev). }
  revert s Hi W. induction fuel as [|f IH]; intros s Hi; cbn [while_loop]; destruct (cond s) eqn:E; intros W.
  - discriminate.
  - injection W as <-. repeat split; try assumption; [lia|discriminate].
  - destruct (step s Hi E) as (Hpos & Hi' & Hh). destruct (IH _ Hi' W) as (Hr & Hc & Hle & _).
    repeat split; try assumption; lia.
  - injection W as <-. repeat split; try assumption; [lia|discriminate].
Qed.

Lemma halve_even_term k fuel s : I s -> 0 < mu s < 2 ^ k -> 0 <= k <= Z.of_nat fuel ->
  exists r, while_loop fuel cond body s = Some r.
Proof.
  intros Hi Hm Hk.
  apply (while_loop_term_halving mu (fun t => I t /\ 0 < mu t)); [|split; [exact Hi|lia]|].
  - intros t [Ht Hp] Hc. destruct (step t Ht Hc) as (_ & Ht' & E).
    split; [exact Hp|]. split; [split; [exact Ht'|lia]|lia].
  - apply Z.lt_le_trans with (2 ^ k); [lia|]. apply Z.pow_le_mono_r; lia.
Qed.
End HalveWhileEven.
End Rules.

(* ------------------------------------------------------------------ for loops *)
Lemma zrange_snoc lo hi : lo <= hi -> zrange lo (hi + 1) = zrange lo hi ++ [hi].
Proof.
  intros H. unfold zrange. replace (Z.to_nat (hi + 1 - lo)) with (Datatypes.S (Z.to_nat (hi - lo))) by lia.
  rewrite seq_S, map_app. cbn [map Nat.add]. do 2 f_equal. lia.
Qed.

(* invariant rules for `for_up` / `for_down`: P i holds between the iterations with indices i - 1 and i *)
Lemma for_up_ind {S} (P : Z -> S -> Prop) (body : Z -> S -> S) lo hi s : lo <= hi -> P lo s ->
  (forall i s, lo <= i < hi -> P i s -> P (i + 1) (body i s)) -> P hi (for_up lo hi body s).
Proof.
  intros Hle H0. pattern hi. apply Z.le_ind with (n := lo); [intros ? ? ->; reflexivity| | |exact Hle].
  - intros _. unfold for_up, zrange. rewrite Z.sub_diag. exact H0.
  - intros m Hm IH Hstep. rewrite <- Z.add_1_r in *. unfold for_up. rewrite zrange_snoc, fold_left_app by exact Hm.
    apply Hstep; [lia|]. apply IH. intros i t Hi. apply Hstep. lia.
Qed.

Lemma for_down_ind {S} (P : Z -> S -> Prop) (body : Z -> S -> S) lo hi s : lo <= hi -> P hi s ->
  (forall i s, lo <= i < hi -> P (i + 1) s -> P i (body i s)) -> P lo (for_down lo hi body s).
Proof.
  intros Hle. revert s. pattern hi. apply Z.le_ind with (n := lo); [intros ? ? ->; reflexivity| | |exact Hle].
  - intros s H0 _. unfold for_down, zrange. rewrite Z.sub_diag. exact H0.
  - intros m Hm IH s H0 Hstep. rewrite <- Z.add_1_r in *. unfold for_down. rewrite zrange_snoc, rev_app_distr by exact Hm.
    apply IH; [apply Hstep; [lia|exact H0]|]. intros i t Hi. apply Hstep. lia.
Qed.

(* ------------------------------------------------------------------ square-and-multiply *)
(* The loop of `exp` / `exp_vartime` (math/src/field/traits.rs), over any multiplication that is a product
   modulo m on the values of represented words: soundness by an invariant, termination by halving. *)
Section ExpLoop.
Variables (m : Z) (repr : Z -> Prop) (val : Z -> Z) (mul : Z -> Z -> Z).
Hypothesis m_pos : 0 < m.
Hypothesis val_range : forall x, repr x -> 0 <= val x < m.
Hypothesis mul_spec : forall a b, repr a -> repr b ->
  repr (mul a b) /\ val (mul a b) = (val a * val b) mod m.

Definition expv_cond : Z * Z * Z -> bool := fun '(r, p, b) => (p >? 0).
Definition expv_body : Z * Z * Z -> Z * Z * Z := fun '(r, p, b) =>
  let r := if Z.land p 1 =? 1 then (let r := mul r b in r) else r in
  let p := shr p 1 in
  let b := mul b b in
  (r, p, b).

(* r * b^q stays congruent to the power A that is being computed *)
Definition expv_inv (A : Z) (s : Z * Z * Z) : Prop :=
  let '(r, q, b) := s in
  repr r /\ repr b /\ 0 <= q /\ (val r * val b ^ q) mod m = A mod m.

Lemma expv_inv_step A s : expv_inv A s -> expv_cond s = true -> expv_inv A (expv_body s).
Proof.
  destruct s as [[r q] b]. unfold expv_inv, expv_cond, expv_body. cbv zeta.
  intros (Hr & Hb & Hq & E) Hc.
  assert (Hq0 : 0 < q) by lia.
  destruct (half_range q Hq0) as (Hq2 & _ & _ & Hm).
  unfold shr. rewrite Z.pow_1_r, land1.
  destruct (mul_spec b b Hb Hb) as [Rbb Vbb]. destruct (mul_spec r b Hr Hb) as [Rrb Vrb].
  split; [destruct (q mod 2 =? 1); assumption|]. split; [exact Rbb|]. split; [exact Hq2|].
  rewrite <- E, (pow_halve (val b) q Hq0), Vbb.
  rewrite <- Z.mul_mod_idemp_r, pow_mod_l, Z.mul_mod_idemp_r by lia.
  destruct (Z.eqb_spec (q mod 2) 1) as [E1|E1].
  - rewrite Vrb, Z.mul_mod_idemp_l, E1, Z.pow_1_r by lia. f_equal. ring.
  - replace (q mod 2) with 0 by lia. rewrite Z.pow_0_r. f_equal. ring.
Qed.

Lemma expv_sound fuel one a p r q b : repr one -> val one = 1 -> repr a -> 0 <= p ->
  while_loop fuel expv_cond expv_body (one, p, a) = Some (r, q, b) ->
  repr r /\ val r = val a ^ p mod m.
Proof.
  intros R1 V1 Ha Hp W.
  assert (I0 : expv_inv (val a ^ p) (one, p, a)).
  { unfold expv_inv. split; [exact R1|split; [exact Ha|split; [exact Hp|]]]. rewrite V1, Z.mul_1_l. reflexivity. }
  destruct (while_loop_inv (expv_inv (val a ^ p)) expv_cond expv_body (expv_inv_step _) fuel _ _ I0 W)
    as ((Hr & Hb & Hq & E) & Hc).
  unfold expv_cond in Hc. assert (q = 0) by lia. subst q.
  split; [exact Hr|].
  rewrite Z.pow_0_r, Z.mul_1_r, Z.mod_small in E by exact (val_range r Hr). exact E.
Qed.

(* the exponent is halved in every iteration (no hypothesis on mul is needed for this) *)
Lemma expv_terminates (fuel : nat) r p b : 0 <= p < 2 ^ Z.of_nat fuel ->
  exists s, while_loop fuel expv_cond expv_body (r, p, b) = Some s.
Proof.
  intros Hp.
  apply (while_loop_term_halving (fun '(_, q, _) => q) (fun _ => True)); [|exact I|lia].
  intros [[r' q] b'] _ Hc. unfold expv_cond in Hc. assert (Hq0 : 0 < q) by lia.
  destruct (half_range q Hq0) as (_ & Hh & _). unfold expv_body. cbv zeta. unfold shr. rewrite Z.pow_1_r.
  split; [exact Hq0|]. split; [exact I|exact Hh].
Qed.
End ExpLoop.
