(* C15 — uniqueness of polynomial interpolation, exactness of the Lagrange form used by the model verifier
   ([interp_eval] = polynom::interpolate_batch + eval), and the folding identity for every folding factor:
   the value the prover computes for a row (inverse DFT, scaling, Horner at alpha) is the value at alpha of THE
   polynomial of degree < N through the row, which is also what the verifier computes.  Any field with FLaws. *)
From Coq Require Import List Arith Bool Lia Ring Field.
From VBase Require Import FieldOps.
From VModel Require Import Fri.
From VProofs Require PolyUnique.
From VProofs Require Import FieldFacts ListFacts FriField.
Import ListNotations.

Section Interp.
Context {F : Type} (O : FOps F) (L : FLaws O).
Add Field Ffield2 : (FLaws_field_theory O L).

Local Notation zero := (fzero O).
Local Notation one := (fone O).
Local Infix "+f" := (fadd O) (at level 50, left associativity).
Local Infix "-f" := (fsub O) (at level 50, left associativity).
Local Infix "*f" := (fmul O) (at level 40, left associativity).
Local Notation "-f x" := (fneg O x) (at level 35, right associativity).
Local Notation peval := (peval O).
Local Notation fpow := (fpow O).

(* ---------------------------------------------------------------- coefficient-list arithmetic (proof side only) *)
Fixpoint padd (a b : list F) : list F :=
  match a, b with
  | [], _ => b
  | _, [] => a
  | x :: a', y :: b' => (x +f y) :: padd a' b'
  end.
Definition pscale (c : F) (a : list F) : list F := map (fun x => c *f x) a.

Lemma peval_padd : forall a b x, peval (padd a b) x = peval a x +f peval b x.
Proof.
  induction a as [|c a IH]; intros [|d b] x; cbn [padd Fri.peval]; try ring. rewrite IH. ring.
Qed.
Lemma padd_length : forall a b, length (padd a b) = Nat.max (length a) (length b).
Proof. induction a as [|c a IH]; intros [|d b]; cbn [padd length Nat.max]; auto. Qed.
Lemma peval_pscale c a x : peval (pscale c a) x = c *f peval a x.
Proof. induction a as [|d a IH]; cbn [pscale map Fri.peval]; [ring | unfold pscale in IH; rewrite IH; ring]. Qed.
Lemma pscale_length c a : length (pscale c a) = length a.
Proof. apply map_length. Qed.

(* (X - r) * p *)
Definition lin_mul (p : list F) (r : F) : list F := padd (zero :: p) (pscale (-f r) p).
Lemma peval_lin_mul p r x : peval (lin_mul p r) x = (x -f r) *f peval p x.
Proof. unfold lin_mul. rewrite peval_padd, peval_pscale. cbn [Fri.peval]. ring. Qed.
Lemma lin_mul_length p r : length (lin_mul p r) = S (length p).
Proof. unfold lin_mul. rewrite padd_length, pscale_length. cbn [length]. lia. Qed.

(* ---------------------------------------------------------------- uniqueness of interpolation *)
(* coefficient by coefficient; the root bound behind it is PolyUnique.agree_coeffs *)
Theorem interp_unique_coeffs : forall xs p q, length p <= length xs -> length q <= length p -> NoDup xs ->
  (forall x, In x xs -> peval p x = peval q x) -> p = q ++ repeat zero (length p - length q).
Proof.
  intros xs p q Hp Hq Hnd Hag. apply (nth_ext _ _ zero zero).
  - rewrite app_length, repeat_length. lia.
  - intros i _. rewrite (PolyUnique.agree_coeffs O L xs p q Hnd Hp ltac:(lia) Hag i).
    destruct (lt_dec i (length q)) as [Hi|Hi]; [now rewrite app_nth1|].
    rewrite app_nth2, nth_overflow by lia. symmetry. apply nth_repeat.
Qed.

(* two coefficient lists of length <= n that agree on n distinct points agree everywhere *)
Theorem interp_unique : forall xs p q, length p <= length xs -> length q <= length xs -> NoDup xs ->
  (forall x, In x xs -> peval p x = peval q x) -> forall a, peval p a = peval q a.
Proof.
  intros xs p q Hp Hq Hnd Hag a.
  assert (G : forall p q, length p <= length xs -> length q <= length p ->
              (forall x, In x xs -> peval p x = peval q x) -> peval p a = peval q a).
  { intros p' q' H1 H2 H3.
    rewrite (interp_unique_coeffs xs p' q' H1 H2 Hnd H3), (peval_app O L), (peval_repeat_zero O L). ring. }
  destruct (le_ge_dec (length q) (length p)); [apply G | symmetry; apply G]; auto.
  intros x Hx. symmetry. auto.
Qed.

(* ---------------------------------------------------------------- the Lagrange form *)
Lemma prod_diff_root : forall l a, In a l -> prod_diff O a l = zero.
Proof.
  induction l as [|x t IH]; intros a; cbn [In prod_diff]; [tauto|].
  intros [->|H]; [ring | rewrite (IH a H); ring].
Qed.

Lemma prod_diff_nonzero : forall l a, ~ In a l -> prod_diff O a l <> zero.
Proof.
  induction l as [|x t IH]; intros a Hn; cbn [prod_diff]; [apply (fl_one_neq_zero O L)|].
  apply (fmul_nonzero O L).
  - intros H. apply (fsub_eq_zero O L) in H. subst. apply Hn. now left.
  - apply IH. intros Hi. apply Hn. now right.
Qed.

Fixpoint prod_poly (l : list F) : list F :=
  match l with [] => [one] | x :: t => lin_mul (prod_poly t) x end.
Lemma peval_prod_poly : forall l a, peval (prod_poly l) a = prod_diff O a l.
Proof.
  induction l as [|x t IH]; intros a; cbn [prod_poly prod_diff]; [cbn; ring|].
  rewrite peval_lin_mul, IH. reflexivity.
Qed.
Lemma prod_poly_length l : length (prod_poly l) = S (length l).
Proof. induction l; cbn [prod_poly length]; [reflexivity | now rewrite lin_mul_length, IHl]. Qed.

Fixpoint lagrange_poly_from (pre post ys : list F) : list F :=
  match post, ys with
  | x :: post', y :: ys' =>
      let others := pre ++ post' in
      padd (pscale (y *f finv O (prod_diff O x others)) (prod_poly others)) (lagrange_poly_from (pre ++ [x]) post' ys')
  | _, _ => []
  end.

Lemma peval_lagrange_poly : forall post pre ys a,
  peval (lagrange_poly_from pre post ys) a = lagrange_from O pre post ys a.
Proof.
  induction post as [|x post IH]; intros pre [|y ys] a; cbn [lagrange_poly_from lagrange_from]; try reflexivity.
  rewrite peval_padd, peval_pscale, peval_prod_poly, IH. reflexivity.
Qed.

Lemma lagrange_poly_length : forall post pre ys,
  length (lagrange_poly_from pre post ys) <= length pre + length post.
Proof.
  induction post as [|x post IH]; intros pre [|y ys]; cbn [lagrange_poly_from length]; try lia.
  rewrite padd_length, pscale_length, prod_poly_length, app_length.
  specialize (IH (pre ++ [x]) ys). rewrite app_length in IH. cbn [length] in IH. lia.
Qed.

(* the Lagrange form vanishes on the nodes already passed and takes the prescribed values on the others *)
Lemma lagrange_from_nodes : forall post pre ys, NoDup (pre ++ post) -> length ys = length post ->
  (forall a, In a pre -> lagrange_from O pre post ys a = zero) /\
  (forall i x y, nth_error post i = Some x -> nth_error ys i = Some y -> lagrange_from O pre post ys x = y).
Proof.
  induction post as [|x post IH]; intros pre ys Hnd Hlen.
  - split; [reflexivity | intros [|i] ? ? H; discriminate].
  - destruct ys as [|y ys]; [discriminate|]. injection Hlen as Hlen.
    assert (Hnd' : NoDup ((pre ++ [x]) ++ post)) by (rewrite <- app_assoc; exact Hnd).
    destruct (IH (pre ++ [x]) ys Hnd' Hlen) as [IH1 IH2].
    assert (Hx : ~ In x (pre ++ post)) by (apply NoDup_remove_2 in Hnd; exact Hnd).
    cbn [lagrange_from]. split.
    + intros a Ha. rewrite (prod_diff_root (pre ++ post) a) by (apply in_or_app; now left).
      rewrite IH1 by (apply in_or_app; now left). ring.
    + intros [|i] x0 y0 Hp Hy; cbn in Hp, Hy.
      * injection Hp as <-. injection Hy as <-.
        rewrite IH1 by (apply in_or_app; right; now left).
        pose proof (prod_diff_nonzero _ _ Hx). field. assumption.
      * assert (Hin : In x0 post) by (eapply nth_error_In; eassumption).
        rewrite (prod_diff_root (pre ++ post) x0) by (apply in_or_app; now right).
        rewrite (IH2 i x0 y0 Hp Hy). ring.
Qed.

(* exactness: on distinct nodes the Lagrange form reproduces every polynomial with at most |nodes| coefficients *)
Theorem lagrange_exact : forall xs p a, NoDup xs -> length p <= length xs ->
  interp_eval O xs (map (peval p) xs) a = peval p a.
Proof.
  intros xs p a Hnd Hlen. unfold interp_eval. rewrite <- peval_lagrange_poly.
  apply (interp_unique xs); [apply (lagrange_poly_length xs []) | assumption | assumption |].
  intros x Hx. rewrite peval_lagrange_poly.
  destruct (In_nth_error xs x Hx) as [i Hi].
  destruct (lagrange_from_nodes xs [] (map (peval p) xs) Hnd (map_length _ _)) as [_ H].
  apply (H i); [assumption | now rewrite nth_error_map, Hi].
Qed.

(* ---------------------------------------------------------------- rows: nodes x * w^j *)
Section Rows.
Variable N : nat.
Variable w winv : F.
Hypothesis w_pow : fpow w N = one.
Hypothesis w_prim : forall d, 0 < d < N -> fpow w d <> one.
Hypothesis w_inv : w *f winv = one.
Hypothesis N_nonzero : fnat O N <> zero.

Definition row_nodes (x : F) : list F := map (fun j => x *f fpow w j) (seq 0 N).

Lemma row_nodes_NoDup x : x <> zero -> NoDup (row_nodes x).
Proof.
  intros Hx. unfold row_nodes. apply NoDup_map_inj_in; [|apply seq_NoDup].
  intros i j Hi Hj E. apply in_seq in Hi, Hj. apply (w_pow_inj O L N w winv w_prim w_inv); [lia | lia |].
  transitivity (finv O x *f (x *f fpow w i)); [field; assumption | rewrite E; field; assumption].
Qed.

Lemma row_nodes_length x : length (row_nodes x) = N.
Proof. unfold row_nodes. now rewrite map_length, seq_length. Qed.

Local Notation row_poly x row := (scale_series O (idft O N winv row) (finv O (fnat O N)) (finv O x)).

Lemma row_poly_length x row : length (row_poly x row) = N.
Proof.
  rewrite scale_series_length. apply (idft_length O L).
Qed.

Lemma row_poly_values x row : x <> zero -> length row = N -> map (peval (row_poly x row)) (row_nodes x) = row.
Proof.
  intros Hx Hlen. unfold row_nodes. rewrite map_map.
  apply (nth_ext _ _ zero zero); [now rewrite map_length, seq_length|].
  intros m Hm. rewrite map_length, seq_length in Hm. rewrite nth_map_seq by assumption.
  apply (row_poly_interpolates O L N w winv w_pow w_prim w_inv); assumption.
Qed.

(* per-layer consistency of prover and verifier: for EVERY row (low degree or not) the verifier's interpolant of
   the opened row at alpha equals the value the prover's apply_drp computes for that row *)
Theorem verifier_row_eq_prover_row : forall x row alpha, x <> zero -> length row = N ->
  interp_eval O (row_nodes x) row alpha = drp_row O N winv (finv O (fnat O N)) (finv O x) alpha row.
Proof.
  intros x row alpha Hx Hlen. unfold drp_row.
  rewrite <- (row_poly_values x row Hx Hlen) at 1.
  apply lagrange_exact; [now apply row_nodes_NoDup | rewrite row_poly_length, row_nodes_length; lia].
Qed.

(* the folding identity for folding factor N: if the row holds the values, at the row's points x * w^j, of a
   polynomial with coefficient list A of length <= N (for f(X) = sum_j X^j f_j(X^N): A_j = f_j(x^N)), then the
   folded value is A evaluated at alpha, i.e. sum_j alpha^j f_j(x^N) *)
Theorem drp_row_identity : forall x A alpha, x <> zero -> length A <= N ->
  drp_row O N winv (finv O (fnat O N)) (finv O x) alpha (map (peval A) (row_nodes x)) = peval A alpha.
Proof.
  intros x A alpha Hx HA. rewrite <- verifier_row_eq_prover_row; [|assumption | now rewrite map_length, row_nodes_length].
  apply lagrange_exact; [now apply row_nodes_NoDup | now rewrite row_nodes_length].
Qed.

(* the folding identity in the form of the property text: f(y) = sum_{j<N} y^j f_j(y^N), given by its N
   coefficient slices fs = [f_0; ...; f_{N-1}] *)
Definition fval (fs : list (list F)) (y : F) : F := peval (map (fun fj => peval fj (fpow y N)) fs) y.

(* sum_j alpha^j f_j as a coefficient list *)
Fixpoint fold_slices (alpha : F) (fs : list (list F)) : list F :=
  match fs with [] => [] | fj :: t => padd fj (pscale alpha (fold_slices alpha t)) end.

Lemma peval_fold_slices : forall fs alpha y,
  peval (fold_slices alpha fs) y = peval (map (fun fj => peval fj y) fs) alpha.
Proof.
  induction fs as [|fj t IH]; intros alpha y; cbn [fold_slices map Fri.peval]; [reflexivity|].
  rewrite peval_padd, peval_pscale, IH. reflexivity.
Qed.

(* degree propagation: the folded polynomial has no more coefficients than the longest slice
   (for deg f <= d the slices have at most floor(d/N) + 1 coefficients) *)
Lemma fold_slices_length : forall fs alpha k, (forall fj, In fj fs -> length fj <= k) ->
  length (fold_slices alpha fs) <= k.
Proof.
  induction fs as [|fj t IH]; intros alpha k H; cbn [fold_slices length]; [lia|].
  rewrite padd_length, pscale_length.
  specialize (IH alpha k (fun f Hf => H f (or_intror Hf))). specialize (H fj (or_introl eq_refl)). lia.
Qed.

Lemma row_point_pow x m : fpow (x *f fpow w m) N = fpow x N.
Proof.
  rewrite (fpow_mul_base O L), <- (fpow_mul O L), Nat.mul_comm, (fpow_mul O L), w_pow, (fpow_one O L). ring.
Qed.

Theorem drp_identity : forall x fs alpha, x <> zero -> length fs = N ->
  drp_row O N winv (finv O (fnat O N)) (finv O x) alpha (map (fval fs) (row_nodes x))
  = peval (fold_slices alpha fs) (fpow x N).
Proof.
  intros x fs alpha Hx Hlen.
  set (A := map (fun fj => peval fj (fpow x N)) fs).
  assert (E : map (fval fs) (row_nodes x) = map (peval A) (row_nodes x)).
  { unfold row_nodes. rewrite !map_map. apply map_ext. intros m. unfold fval, A. now rewrite row_point_pow. }
  rewrite E, drp_row_identity by (try assumption; unfold A; rewrite map_length; lia).
  unfold A. now rewrite peval_fold_slices.
Qed.

End Rows.

End Interp.
