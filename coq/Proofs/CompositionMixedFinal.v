(* C17 — the `_ext` capstone (single-segment path) with BOTH extension-field premises instantiated: the interpolation is
   C09's FFT model over the extension field, the polynomial form of comp_def over E comes from validity through C01
   (comp_def_is_poly at F := E).  It is composition_is_definition_valid_main at F := E (all its hypotheses are stated on the
   embedded data) rewritten with evaluate_mixed_embeds.  The numerators have extension-field coefficients (the composition
   coefficients are in E), so the validity hypotheses are extension-field statements by nature. *)
From Coq Require Import List Arith Bool ZArith.
From VBase Require Import FieldOps.
From VModel Require Import Composition CompositionMixed CompositionMixedWhole.
From VModel Require Stark FFT.
From VProofs Require StarkPoly StarkComplete FFTSpec FFTEval FFTOffset.
From VProofs Require Import CompositionBase CompositionIndex CompositionVerifier CompositionTable CompositionFFT CompositionValid
  CompositionMixed CompositionMixedWhole.
Import ListNotations.

Section ExtFinal.
Context {B F : Type} (OB : FOps B) (O : FOps F) (LB : FLaws OB) (L : FLaws O).
Variable emb : B -> F.
Variable mul_base : F -> B -> F.
Hypothesis H : Emb OB O emb mul_base.

(* base-field data of the computation *)
Variable offsetB : B.
Variable rouB : nat -> B.
Variable tmainB : list B -> list B -> list B -> list B.
Variable tmain : list F -> list F -> list F -> list F.
Hypothesis tmain_commutes : forall cur nxt pv, tmain (map emb cur) (map emb nxt) (map emb pv) = map emb (tmainB cur nxt pv).
Variable ppolysB : list (list B).
Variable groupsB : list (@BGm B F).
Variable lde_mainB : list (list B).
Variable tpolysB : list (list B).
(* ... embedded *)
Local Notation offset := (emb offsetB).
Local Notation rou := (fun m => emb (rouB m)).
Local Notation ppolys := (map (map emb) ppolysB).
Local Notation main_groups := (map (embG emb) groupsB).
Local Notation aux_groups := (@nil (@BGroup F)).
Local Notation lde_main := (map (map emb) lde_mainB).
Local Notation tpolys := (map (map emb) tpolysB).

Variable n ceb ldeb r : nat.
Variable wlde ginv : F.
Local Notation ce_size := (ce_size n ceb).
Local Notation g := (gtrace n rou).
Hypothesis setting : CeSetting O n ceb ldeb r rou wlde.
Hypothesis ginv_spec : fmul O ginv g = fone O.

Variable num_main : nat.
Variable taux : list F -> list F -> list F -> list F -> list F -> list F -> list F.
Variable exemptions : nat.
Variable tcoef : list F.
Variable rands : list F.
Variable apolys lde_aux : list (list F).
Hypothesis tmain_len : forall cur nxt pv, length (tmain cur nxt pv) = num_main.
Hypothesis exemptions_le : exemptions <= n.
Hypothesis periodic_ok : PeriodicOk O n ceb rou ppolys.
Hypothesis main_ok : forall gr, In gr main_groups ->
  div_ok n ceb (bg_div gr) /\ forall c, In c (bg_cs gr) -> bc_ok O n ceb ginv tpolys c.
Hypothesis lde_main_ok : lde_rows_of O n ldeb offset wlde lde_main tpolys.

Variable two_adicity K : nat.
Variable rouk : nat -> F.
Variable itw : list F.
Hypothesis fft_setting : FftSetting O n ceb offset rou two_adicity K rouk itw.

Hypothesis ce_off_domain : forall i, i < ce_size -> ~ In (ce_x O n ceb offset rou i) (Stark.domain O g n).
Variable num_cols m : nat.
Hypothesis m_le_ce : m <= ce_size.
Hypothesis m_le_cols : m <= num_cols * n.
Hypothesis n_lt_ce : n < ce_size.

Variable N : list F.
Variable Bm Rm Ba Ra : @BGroup F -> list F.
Hypothesis valid :
  ValidNumer O n rou tmain taux ppolys exemptions tcoef main_groups aux_groups rands false tpolys apolys N Bm Rm Ba Ra m.

Theorem composition_is_definition_ext_closed :
  exists Q evals cols,
    length Q <= m
    /\ evaluate_mixed OB O mul_base n ceb ldeb offsetB rouB num_main tmainB ppolysB exemptions tcoef groupsB lde_mainB = Some evals
    /\ composition_poly_new n (interp_fft O two_adicity itw offset) evals num_cols = Some cols
    /\ (forall z, recombine O n (cp_evaluate_at O cols z) z = peval O Q z)
    /\ (forall z, ~ In z (Stark.domain O g n) -> recombine O n (cp_evaluate_at O cols z) z
          = Composition.comp_def O n rou tmain taux ppolys exemptions tcoef main_groups aux_groups rands false tpolys apolys z).
Proof.
  rewrite (evaluate_mixed_embeds OB O LB L emb mul_base H n ceb ldeb offsetB rouB num_main tmainB tmain taux tmain_commutes
             ppolysB exemptions tcoef groupsB rands lde_mainB lde_aux).
  destruct setting, periodic_ok, fft_setting, valid.
  apply (composition_is_definition_valid_main O L n ceb ldeb r offset rou wlde ginv)
    with (K := K) (rouk := rouk) (N := N) (Bm := Bm) (Rm := Rm) (Ba := Ba) (Ra := Ra); (assumption || reflexivity).
Qed.
End ExtFinal.
