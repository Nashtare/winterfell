(* C14 — the concurrent bit-reversal permutation (math/src/fft/concurrent.rs `permute`, mult = 1, and
   prover/src/matrix/segments.rs concurrent::permute, mult = 2) against the serial loop: when num_batches <= n (both
   powers of two) the batches tile [0, n) and steps of different tasks touch disjoint cells for every thread count, so
   every task-level schedule and every complete step-level interleaving equals the serial permutation; when
   num_batches > n the batch size is 0 and the permutation is silently skipped. *)
From Coq Require Import List Arith Bool Lia Permutation.
From VBase Require Import FieldOps.
From VModel Require Import FFT Par.
From VProofs Require Import ListFacts Pow2Facts ParLists ParCommute.
Import ListNotations.

(* ---------------------------------------------------------------- tiling of [0, nb*bs) by the batches *)
Lemma pp_seq_tiles nb bs : seq 0 (nb * bs) = concat (map (fun b => seq (b * bs) bs) (seq 0 nb)).
Proof. rewrite seq_tiles. apply flat_map_concat_map. Qed.

Lemma npo2_is_pow2 T : npo2 T = 2 ^ Nat.log2_up T.
Proof. reflexivity. Qed.

Lemma pp_num_batches_pow2 T mult : mult = 1 \/ mult = 2 -> exists m, permute_num_batches T mult = 2 ^ m.
Proof.
  unfold permute_num_batches, npo2. intros [-> | ->].
  - exists (Nat.log2_up T). lia.
  - exists (S (Nat.log2_up T)). rewrite Nat.pow_succ_r'. lia.
Qed.

Lemma permute_batches_cover k T mult : (mult = 1 \/ mult = 2) -> permute_num_batches T mult <= 2 ^ k ->
  permute_num_batches T mult * (2 ^ k / permute_num_batches T mult) = 2 ^ k.
Proof.
  intros Hm Hle. destruct (pp_num_batches_pow2 T mult Hm) as (m & E). rewrite E in *.
  apply Nat.pow_le_mono_r_iff in Hle; [|lia]. rewrite pow2_div_pow2 by exact Hle. symmetry. apply pow2_split. exact Hle.
Qed.

Section PermuteSpec.
Context {V : Type} (dflt : V).
Notation task := (task V).

Lemma swap_task_ok i j : task_ok dflt (swap_task dflt i j).
Proof.
  unfold task_ok, swap_task; cbn [t_run t_reads t_writes]. repeat split.
  - intros s. rewrite !lupd_length. reflexivity.
  - intros s x Hn. rewrite !nth_lupd_other; [reflexivity| |]; intros ->; apply Hn; cbn; auto.
  - intros s s' Hl Hag x Hx.
    assert (Ei : nth i s dflt = nth i s' dflt) by (apply Hag; cbn; auto).
    assert (Ej : nth j s dflt = nth j s' dflt) by (apply Hag; cbn; auto).
    rewrite !nth_lupd, !lupd_length, Hl, Ei, Ej.
    destruct ((j =? x) && (j <? length s')); [reflexivity|].
    destruct ((i =? x) && (i <? length s')) eqn:Eb; [reflexivity|].
    destruct Hx as [<-|[<-|[]]].
    + rewrite Nat.eqb_refl in Eb. cbn [andb] in Eb. apply Nat.ltb_ge in Eb.
      rewrite !nth_overflow; auto; lia.
    + exact Ej.
Qed.

Theorem permute_steps_ok n T mult : Forall (Forall (task_ok dflt)) (permute_par_steps dflt n T mult).
Proof.
  unfold permute_par_steps. apply Forall_forall. intros l Hl. apply in_map_iff in Hl. destruct Hl as (b & <- & _).
  apply Forall_flat_map, Forall_forall. intros i _. unfold permute_body.
  destruct (i <? permute_index n i); constructor; [apply swap_task_ok|constructor].
Qed.

Lemma permute_par_steps_length n T mult : length (permute_par_steps dflt n T mult) = permute_num_batches T mult.
Proof. unfold permute_par_steps. rewrite map_length, seq_length. reflexivity. Qed.

Theorem permute_steps_concat k T mult : (mult = 1 \/ mult = 2) -> permute_num_batches T mult <= 2 ^ k ->
  concat (permute_par_steps dflt (2 ^ k) T mult) = serial_permute_steps dflt (2 ^ k).
Proof.
  intros Hm Hle. unfold permute_par_steps, serial_permute_steps, permute_batch_steps.
  rewrite <- flat_map_concat_map, <- flat_map_tiles, permute_batches_cover by assumption. reflexivity.
Qed.

Theorem permute_transposition_unique k T mult i : (mult = 1 \/ mult = 2) -> permute_num_batches T mult <= 2 ^ k ->
  i < 2 ^ k ->
  let bs := 2 ^ k / permute_num_batches T mult in
  exists b, b < permute_num_batches T mult /\ b * bs <= i < b * bs + bs /\
            (forall b', b' * bs <= i < b' * bs + bs -> b' = b).
Proof.
  intros Hm Hle Hi bs. pose proof (permute_batches_cover k T mult Hm Hle) as Hc. fold bs in Hc.
  set (nb := permute_num_batches T mult) in *.
  assert (Hbs : 0 < bs).
  { destruct bs; [|lia]. rewrite Nat.mul_0_r in Hc. pose proof (pow2_pos k). lia. }
  exists (i / bs).
  pose proof (Nat.div_mod i bs ltac:(lia)) as Hdm.
  pose proof (Nat.mod_upper_bound i bs ltac:(lia)) as Hmod.
  repeat split.
  - apply Nat.div_lt_upper_bound; [lia|]. rewrite Nat.mul_comm. lia.
  - rewrite Nat.mul_comm. lia.
  - rewrite (Nat.mul_comm (i / bs)). lia.
  - intros b' [H1 H2]. apply Nat.div_unique with (i - b' * bs); lia.
Qed.

(* ---------------------------------------------------------------- steps of different tasks are independent *)
Lemma pp_in_batch n bs b x : In x (permute_batch_steps dflt n bs b) ->
  exists i, b * bs <= i < b * bs + bs /\ i < permute_index n i /\ x = swap_task dflt i (permute_index n i).
Proof.
  unfold permute_batch_steps. intros H. apply in_flat_map in H. destruct H as (i & Hi & Hx).
  apply in_seq in Hi. exists i. split; [lia|].
  unfold permute_body in Hx. cbv zeta in Hx.
  destruct (Nat.ltb_spec i (permute_index n i)) as [Hlt|Hge]; [|destruct Hx].
  destruct Hx as [<-|[]]. split; [exact Hlt|reflexivity].
Qed.

Lemma pp_swap_independent i j i' j' : i <> i' -> i <> j' -> j <> i' -> j <> j' ->
  independent (swap_task dflt i j) (swap_task dflt i' j').
Proof.
  intros. unfold independent, disjoint, swap_task; cbn [t_reads t_writes]. repeat split; intros x H3 H4; cbn in H3, H4; lia.
Qed.

Theorem permute_cross_independent k T mult : cross_independent (permute_par_steps dflt (2 ^ k) T mult).
Proof.
  intros a b Hab x y Hx Hy. unfold permute_par_steps in Hx, Hy. cbv zeta in Hx, Hy.
  set (nb := permute_num_batches T mult) in *. set (bs := 2 ^ k / nb) in *.
  apply in_nth_map_seq in Hx, Hy. destruct Hx as [Ha Hx], Hy as [Hb Hy].
  apply pp_in_batch in Hx. destruct Hx as (i & Hir & Hij & ->).
  apply pp_in_batch in Hy. destruct Hy as (i' & Hir' & Hij' & ->).
  rewrite !pp_permute_index_spec in *.
  assert (Hnb : nb * bs <= 2 ^ k) by (apply Nat.mul_div_le; lia).
  assert (Hi : i < 2 ^ k) by nia.
  assert (Hi' : i' < 2 ^ k) by nia.
  pose proof (pp_rev_bits_involutive k i Hi) as Ri.
  pose proof (pp_rev_bits_involutive k i' Hi') as Ri'.
  assert (Hne : i <> i').
  { intros <-. apply Hab. assert (a < b \/ a = b \/ b < a) as [H|[H|H]] by lia; [nia|exact H|nia]. }
  apply pp_swap_independent.
  - exact Hne.
  - intros E. rewrite E, Ri' in Hij. rewrite <- E in Hij'. lia.
  - intros E. rewrite <- E, Ri in Hij'. rewrite E in Hij. lia.
  - intros E. apply Hne. rewrite <- Ri, <- Ri', E. reflexivity.
Qed.

Theorem permute_par_spec k T mult : (mult = 1 \/ mult = 2) -> permute_num_batches T mult <= 2 ^ k ->
  ForallOrdPairs (independent) (permute_par_tasks dflt (2 ^ k) T mult) /\
  (forall v sched, length v = 2 ^ k -> Permutation sched (seq 0 (permute_num_batches T mult)) ->
      permute_par dflt T mult sched v = serial_permute dflt v) /\
  (forall v choices, length v = 2 ^ k -> snd (permute_par_interleaved dflt T mult choices v) = true ->
      fst (permute_par_interleaved dflt T mult choices v) = serial_permute dflt v).
Proof.
  intros Hm Hle.
  pose proof (permute_cross_independent k T mult) as Hci.
  pose proof (permute_steps_ok (2 ^ k) T mult) as Hok.
  destruct (phase_schedule_independent dflt _ Hok Hci) as [S1 S2].
  split; [|split].
  - unfold permute_par_tasks. apply cross_independent_pairs. exact Hci.
  - intros v sched Hl P. unfold permute_par, permute_par_tasks, serial_permute. rewrite Hl.
    rewrite S1 by (rewrite permute_par_steps_length; exact P).
    rewrite permute_steps_concat by assumption. reflexivity.
  - intros v choices Hl. unfold permute_par_interleaved, serial_permute. rewrite Hl.
    destruct (merge_by choices (permute_par_steps dflt (2 ^ k) T mult)) as [out rest] eqn:E.
    cbn [fst snd]. intros He. rewrite (S2 choices out rest v E He).
    rewrite permute_steps_concat by assumption. reflexivity.
Qed.

(* ---------------------------------------------------------------- more batches than elements: nothing happens *)
Lemma pp_exec_id (ts : list task) : Forall (fun t => forall s, t_run t s = s) ts -> forall s, exec ts s = s.
Proof.
  induction 1 as [|t ts Ht _ IH]; intros s; [reflexivity|]. rewrite exec_cons, Ht. apply IH.
Qed.

Theorem permute_par_noop_oversubscribed n T mult v sched : n < permute_num_batches T mult -> length v = n ->
  permute_par dflt T mult sched v = v.
Proof.
  intros Hlt Hl. unfold permute_par. rewrite Hl. apply pp_exec_id.
  unfold reorder. apply Forall_forall. intros t Ht. apply in_map_iff in Ht. destruct Ht as (c & <- & _).
  set (ts := permute_par_tasks dflt n T mult).
  destruct (Nat.ltb_spec c (length ts)) as [Hc|Hc].
  - assert (Hin : In (nth c ts idle) ts) by (apply nth_In; exact Hc).
    remember (nth c ts idle) as t eqn:Et. clear Et.
    unfold ts, permute_par_tasks, permute_par_steps in Hin.
    rewrite Nat.div_small in Hin by exact Hlt.
    apply in_map_iff in Hin. destruct Hin as (l & <- & Hin).
    apply in_map_iff in Hin. destruct Hin as (b & <- & _).
    intros s. reflexivity.
  - rewrite nth_overflow by exact Hc. intros s. reflexivity.
Qed.

End PermuteSpec.

(* ---------------------------------------------------------------- bridge to the C09 model of the serial code *)
Lemma pp_exec_body_fold {F} (O : FOps F) n (l : list nat) : forall v : list F,
  exec (flat_map (permute_body (fzero O) n) l) v =
  fold_left (fun v i => let j := permute_index n i in if i <? j then FFT.swap O v i j else v) l v.
Proof.
  induction l as [|i l IH]; intros v; [reflexivity|].
  cbn [flat_map fold_left]. rewrite exec_app, IH. f_equal.
  unfold permute_body. cbv zeta. destruct (i <? permute_index n i); reflexivity.
Qed.

Lemma serial_permute_eq_FFT_permute {F} (O : FOps F) (v : list F) :
  serial_permute (fzero O) v = FFT.permute O v.
Proof. unfold serial_permute, serial_permute_steps, FFT.permute. apply pp_exec_body_fold. Qed.

(* ---------------------------------------------------------------- concrete instances (non-vacuity) *)
(* T = 3 threads -> 4 batches of 4; schedule [2;0;3;1] *)
Example permute_par_ex1 : permute_par 0 3 1 [2;0;3;1] (seq 0 16) = serial_permute 0 (seq 0 16).
Proof. vm_compute. reflexivity. Qed.

Example permute_par_ex2 : serial_permute 0 (seq 0 8) = [0;4;2;6;1;5;3;7].
Proof. vm_compute. reflexivity. Qed.

(* T = 9 threads -> 16 batches > 8 elements: batch_size = 0, the permutation is skipped *)
Example permute_oversubscribed_refuted : permute_par 0 9 1 (seq 0 16) (seq 0 8) <> serial_permute 0 (seq 0 8).
Proof. vm_compute. discriminate. Qed.

(* the hypothesis of permute_par_spec at the real threshold: 64 threads, mult = 2, n = 1024 *)
Example permute_hyp_sat : permute_num_batches 64 2 <= 2 ^ 10.
Proof. apply Nat.leb_le. vm_compute. reflexivity. Qed.
