(* A concrete field with FLaws and an element of exact order 16: the hypotheses of the field-level theorems are
   satisfiable (non-vacuity), and the models can be run inside Coq on it.
   The field is Z/97 on canonical residues, packaged as a subset type so that equality is Leibniz. *)
From Coq Require Import ZArith List Bool Lia Eqdep_dec.
From VBase Require Import MachInt FieldOps ZpOps.
From VModel Require Import Enforce.
From VProofs Require Import EnforceSteps EnforceValue.
Import ListNotations.
Open Scope Z_scope.

Definition p97 : Z := 97.
Definition canon (x : Z) : bool := (0 <=? x) && (x <? p97).
Definition F97 : Type := { x : Z | canon x = true }.
Definition val (a : F97) : Z := proj1_sig a.

Lemma canon_mod x : canon (x mod p97) = true.
Proof.
  unfold canon. pose proof (Z.mod_pos_bound x p97 eq_refl).
  apply andb_true_iff. split; [apply Z.leb_le|apply Z.ltb_lt]; lia.
Qed.
Definition mk (x : Z) : F97 := exist _ (x mod p97) (canon_mod x).

Lemma F97_eq (a b : F97) : val a = val b -> a = b.
Proof.
  destruct a as [x Hx], b as [y Hy]. cbn. intros ->. f_equal. apply UIP_dec. apply bool_dec.
Qed.

Lemma val_range (a : F97) : 0 <= val a < p97.
Proof.
  destruct a as [x Hx]. cbn. unfold canon in Hx. apply andb_true_iff in Hx. destruct Hx as [H1 H2].
  apply Z.leb_le in H1. apply Z.ltb_lt in H2. lia.
Qed.

Lemma val_mk x : val (mk x) = x mod p97. Proof. reflexivity. Qed.

Definition f97_ops : FOps F97 := {|
  fzero := mk 0; fone := mk 1;
  fadd := fun a b => mk (val a + val b);
  fsub := fun a b => mk (val a - val b);
  fmul := fun a b => mk (val a * val b);
  fneg := fun a => mk (- val a);
  fdouble := fun a => mk (val a + val a);
  fsquare := fun a => mk (val a * val a);
  finv := fun a => mk (zp_inv p97 (val a));
  fdiv := fun a b => mk (val a * zp_inv p97 (val b));
  feqb := fun a b => val a =? val b;
  fofz := mk
|}.

Lemma inv_table : forallb (fun a => (zp_inv p97 a mod p97 * a) mod p97 =? 1) (zrange 1 p97) = true.
Proof. vm_compute. reflexivity. Qed.

Lemma f97_laws : FLaws f97_ops.
Proof.
  constructor; cbn [f97_ops fadd fsub fmul fneg fdouble fsquare finv fdiv feqb fofz fzero fone]; intros.
  - apply F97_eq. rewrite !val_mk. f_equal; lia.
  - apply F97_eq. rewrite !val_mk. rewrite Zplus_mod_idemp_r, Zplus_mod_idemp_l. f_equal; lia.
  - apply F97_eq. rewrite !val_mk. rewrite Zplus_mod_idemp_l. cbn [Z.add]. apply Z.mod_small, val_range.
  - apply F97_eq. rewrite !val_mk. f_equal; lia.
  - apply F97_eq. rewrite !val_mk. rewrite Zmult_mod_idemp_r, Zmult_mod_idemp_l. f_equal; lia.
  - apply F97_eq. rewrite !val_mk. rewrite Zmult_mod_idemp_l, Z.mul_1_l. apply Z.mod_small, val_range.
  - apply F97_eq. rewrite !val_mk. rewrite Zmult_mod_idemp_l, <- Zplus_mod. f_equal; lia.
  - apply F97_eq. rewrite !val_mk. rewrite Zplus_mod_idemp_r. f_equal; lia.
  - apply F97_eq. rewrite !val_mk. rewrite Zplus_mod_idemp_r. rewrite Z.add_opp_diag_r. reflexivity.
  - reflexivity.
  - reflexivity.
  - intros H. apply (f_equal val) in H. vm_compute in H. discriminate.
  - apply F97_eq. rewrite !val_mk.
    assert (Hv : In (val a) (zrange 1 p97)).
    { apply In_zrange. pose proof (val_range a). assert (val a <> 0); [|lia].
      intros E. apply H. apply F97_eq. rewrite E. reflexivity. }
    pose proof (proj1 (forallb_forall _ _) inv_table _ Hv) as T. cbn beta in T. apply Z.eqb_eq in T.
    rewrite T. reflexivity.
  - apply F97_eq. reflexivity.
  - apply F97_eq. rewrite !val_mk. rewrite Zmult_mod_idemp_r. reflexivity.
  - split; [intros H; apply F97_eq, Z.eqb_eq, H|intros ->; apply Z.eqb_refl].
Qed.

(* 8 has exact order 16 modulo 97 *)
Definition g16 : F97 := mk 8.

Lemma g16_pow_16 : fpow f97_ops g16 16 = fone f97_ops.
Proof. apply F97_eq. vm_compute. reflexivity. Qed.

(* exact order read off a table: none of g^1 .. g^(n-1) is 1 *)
Lemma order_by_table (g : F97) n :
  forallb (fun i => negb (val (fpow f97_ops g i) =? val (fone f97_ops))) (zrange 1 n) = true ->
  forall i, 0 < i < n -> fpow f97_ops g i <> fone f97_ops.
Proof.
  intros T i Hi E. apply (f_equal val) in E.
  pose proof (proj1 (forallb_forall _ _) T i ltac:(apply In_zrange; lia)) as Ti. cbn beta in Ti.
  rewrite E, Z.eqb_refl in Ti. discriminate.
Qed.

Lemma g16_order : forall i, 0 < i < 16 -> fpow f97_ops g16 i <> fone f97_ops.
Proof. apply order_by_table. vm_compute. reflexivity. Qed.

Lemma sixteen_pow2 : exists k, 0 <= k /\ 16 = 2 ^ k.
Proof. exists 4. split; [lia|reflexivity]. Qed.

(* the extra hypothesis Hofz of EnforceValue.assertion_value_spec *)
Lemma f97_fofz : forall k : nat, fofz f97_ops (Z.of_nat k) = fnat f97_ops k.
Proof.
  induction k.
  - apply F97_eq. reflexivity.
  - cbn [fnat]. rewrite <- IHk. apply F97_eq.
    cbn [f97_ops fofz fadd fone]. rewrite !val_mk. rewrite Nat2Z.inj_succ.
    rewrite <- Zplus_mod. f_equal; lia.
Qed.

Lemma g16_inv : fmul f97_ops g16 (finv f97_ops g16) = fone f97_ops.
Proof. apply F97_eq. vm_compute. reflexivity. Qed.

(* for running the models inside Coq: where over the trace domain evaluate_at, resp. the denominator, is zero *)
Definition zero_pattern (d : Divisor (F:=F97)) : list bool :=
  map (fun i => val (evaluate_at f97_ops d (fpow f97_ops g16 i)) =? 0) (zrange 0 16).
Definition exemption_pattern (d : Divisor (F:=F97)) : list bool :=
  map (fun i => val (eval_exemptions f97_ops d (fpow f97_ops g16 i)) =? 0) (zrange 0 16).
