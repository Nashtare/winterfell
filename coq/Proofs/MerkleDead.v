(* C10 — the fourteen defensive `return Err(InvalidProof)` of get_root / into_paths / get_path are dead code:
   the twin model Model/MerkleStrict.v, in which those branches return an arbitrary outcome, computes the
   same function as Model/Merkle.v.  Also: the shape guards an accepted opening must have passed, and their
   contrapositive (an ill-shaped opening is an error: neither accepted nor a panic). *)
From Coq Require Import ZArith List Bool Lia.
From VBase Require Import MachInt.
From VModel Require Import Merkle MerkleStrict.
From VProofs Require Import MerkleBase MerkleIdx MerkleBatch MerkleTotal MerkleBind MerkleExamples.
Import ListNotations.
Open Scope Z_scope.

Section Dead.
Variable D : Type.
Variable merge : D -> D -> D.
Variable dead : forall A : Type, res A.

Notation bproof := (bproof D).
Notation gleafv_s := (gleafv_s D dead).
Notation gleaf_s := (gleaf_s D dead).
Notation gfirst_s := (gfirst_s D merge dead).
Notation gstep_s := (gstep_s D merge dead).
Notation gscan_s := (gscan_s D merge dead).
Notation glevels_s := (glevels_s D merge dead).
Notation gcore_s := (gcore_s D merge dead).
Notation get_root_s := (get_root_s D merge dead).
Notation into_paths_s := (into_paths_s D merge dead).
Notation get_path_s := (get_path_s D dead).
Notation get_path_up_s := (get_path_up_s D dead).
Notation gscan := (gscan D merge).
Notation glevels := (glevels D merge).
Notation gfirst := (gfirst D merge).
Notation gleaf := (gleaf D).
Notation gstep := (gstep D merge).
Notation gcore := (gcore D merge).
Notation get_root := (get_root D merge).
Notation into_paths := (into_paths D merge).

(* every element of I is a key of v *)
Definition kin (v : bmap D) (I : list Z) : Prop := forall a, In a I -> bt_get a v <> None.
Definition kmono (v v' : bmap D) : Prop := forall k, bt_get k v <> None -> bt_get k v' <> None.

Lemma kmono_refl v : kmono v v.
Proof. intros k H. exact H. Qed.

Lemma kmono_trans a b c : kmono a b -> kmono b c -> kmono a c.
Proof. intros H1 H2 k H. auto. Qed.

Lemma kmono_insert k x (v : bmap D) : kmono v (bt_insert k x v).
Proof. intros k2 H. rewrite bt_get_insert. destruct (k2 =? k); [discriminate|assumption]. Qed.

Lemma kin_mono v v' I : kmono v v' -> kin v I -> kin v' I.
Proof. intros M K a Ha. apply M, K, Ha. Qed.

(* ---------------------------------------------------------------- first loop: 154/160/182/186, 310/316/338/342 *)
Lemma gleafv_dead (p : bproof) j : 0 <= j < zlen (bp_leaves p) -> gleafv_s p j = gleafv D p j.
Proof.
  intros Hj. unfold MerkleStrict.gleafv_s, Merkle.gleafv. destruct (Z.leb_spec (zlen (bp_leaves p)) j); [lia|reflexivity].
Qed.

Lemma gleaf_dead (p : bproof) imap i index :
  (forall k j, bt_get k imap = Some j -> 0 <= j < zlen (bp_leaves p)) ->
  (bt_get index imap <> None \/ bt_get (index + 1) imap <> None) ->
  gleaf_s p imap i index = gleaf p imap i index.
Proof.
  intros Hr Hin. unfold MerkleStrict.gleaf_s, Merkle.gleaf.
  destruct (uadd index 1) as [i1| |] eqn:Eu; cbn [bind]; [|reflexivity|reflexivity].
  apply uadd_inv in Eu. destruct Eu as [-> _].
  destruct (bt_get index imap) as [j1|] eqn:E1; destruct (bt_get (index + 1) imap) as [j2|] eqn:E2.
  - rewrite !gleafv_dead by eauto. reflexivity.
  - rewrite !gleafv_dead by eauto. reflexivity.
  - rewrite !gleafv_dead by eauto. reflexivity.
  - exfalso. destruct Hin; congruence.
Qed.

Lemma gfirst_dead (p : bproof) imap offset :
  (forall k j, bt_get k imap = Some j -> 0 <= j < zlen (bp_leaves p)) ->
  forall norm i v ptm,
  (forall e, In e norm -> bt_get e imap <> None \/ bt_get (e + 1) imap <> None) ->
  gfirst_s p imap offset norm i v ptm = gfirst p imap offset norm i v ptm.
Proof.
  intros Hr. induction norm as [|e rest IH]; intros i v ptm Hin; [reflexivity|].
  cbn [MerkleStrict.gfirst_s Merkle.gfirst]. rewrite gleaf_dead by (try assumption; apply Hin; left; reflexivity).
  destruct (gleaf p imap i e) as [[[b0 b1] ptr]| |]; cbn [bind]; [|reflexivity|reflexivity].
  destruct (uadd offset e) as [oi| |]; cbn [bind]; [|reflexivity|reflexivity].
  rewrite IH by (intros e' He'; apply Hin; right; assumption). reflexivity.
Qed.

Lemma gfirst_kin (p : bproof) imap offset : forall norm i v ptm vF ptrs ptmF next,
  gfirst p imap offset norm i v ptm = Ok (vF, ptrs, ptmF, next) ->
  kmono v vF /\ kin vF next /\ kmono ptm ptmF.
Proof.
  induction norm as [|e rest IH]; intros i v ptm vF ptrs ptmF next E.
  - cbn in E. injection E as <- <- <- <-. split; [apply kmono_refl|]. split; [intros ? []|apply kmono_refl].
  - apply gfirst_cons_inv in E. destruct E as (b0 & b1 & ptr & ptrs' & next' & _ & -> & -> & Er).
    apply IH in Er. destruct Er as (M & K & MP).
    split; [eapply kmono_trans; [apply kmono_insert|exact M]|]. split.
    + intros a [<-|Ha]; [|apply K; assumption]. apply M. rewrite bt_get_insert_same. discriminate.
    + eapply kmono_trans; [|exact MP]. eapply kmono_trans; [apply kmono_insert|].
      eapply kmono_trans; [apply kmono_insert|apply kmono_insert].
Qed.

(* ---------------------------------------------------------------- level loops: 215/230, 373/387 *)
Lemma gstep_dead a s v ptm : bt_get a v <> None -> gstep_s a s v ptm = gstep a s v ptm.
Proof. intros H. unfold MerkleStrict.gstep_s, Merkle.gstep. destruct (bt_get a v); [reflexivity|congruence]. Qed.

Lemma gstep_kmono a s v ptm v1 ptm1 pi : gstep a s v ptm = Ok (v1, ptm1, pi) -> kmono v v1 /\ bt_get pi v1 <> None.
Proof.
  intros E. apply gstep_inv in E. destruct E as (node & _ & -> & -> & _).
  split; [apply kmono_insert|]. rewrite bt_get_insert_same. discriminate.
Qed.

Lemma gscan_s_unfold pn a rest i v ptrs ptm :
  gscan_s pn (a :: rest) i v ptrs ptm =
  if merged a rest then
    match bt_get (Z.lxor a 1) v with
    | None => dead _
    | Some s =>
      '(v1, ptm1, pi) <- gstep_s a s v ptm ;;
      '(vF, ptrsF, ptmF, next) <- gscan_s pn (tl rest) (i + 2) v1 ptrs ptm1 ;;
      Ok (vF, ptrsF, ptmF, pi :: next)
    end
  else
    '(s, ptrs1) <- gsib D pn ptrs i ;;
    '(v1, ptm1, pi) <- gstep_s a s v ptm ;;
    '(vF, ptrsF, ptmF, next) <- gscan_s pn rest (i + 1) v1 ptrs1 ptm1 ;;
    Ok (vF, ptrsF, ptmF, pi :: next).
Proof. destruct rest as [|b rest']; [reflexivity|]. cbn [MerkleStrict.gscan_s merged tl]. destruct (b =? Z.lxor a 1); reflexivity. Qed.

Lemma gscan_kin pn : forall I i v ptrs ptm vF ptrsF ptmF next,
  gscan pn I i v ptrs ptm = Ok (vF, ptrsF, ptmF, next) -> kmono v vF /\ kin vF next.
Proof.
  assert (step : forall a x (v vF : bmap D) next', kmono (bt_insert (a / 2) x v) vF /\ kin vF next' ->
                   kmono v vF /\ kin vF (a / 2 :: next')).
  { intros a x v vF next' [M K]. split; [eapply kmono_trans; [apply kmono_insert|exact M]|].
    intros b [<-|Hb]; [apply M; rewrite bt_get_insert_same; discriminate|apply K; assumption]. }
  induction I as [|a r IH|a r Em IH] using scan_ind; intros i v ptrs ptm vF ptrsF ptmF next E.
  - cbn in E. injection E as <- <- <- <-. split; [apply kmono_refl|intros ? []].
  - apply gscan_merged_inv in E. destruct E as (node & s & next' & _ & _ & -> & Er). eapply step, IH, Er.
  - apply (gscan_single_inv _ _ _ _ _ _ _ _ _ _ _ _ _ Em) in E. destruct E as (node & s & ptrs1 & next' & _ & _ & -> & Er).
    eapply step, IH, Er.
Qed.

Lemma gscan_dead pn : forall I i v ptrs ptm, kin v I ->
  gscan_s pn I i v ptrs ptm = gscan pn I i v ptrs ptm.
Proof.
  induction I as [|a r IH|a r Em IH] using scan_ind; intros i v ptrs ptm K; [reflexivity| |].
  - rewrite gscan_s_unfold, gscan_unfold, merged_same. cbn [tl].
    destruct (bt_get (Z.lxor a 1) v) as [s|] eqn:Es; [|exfalso; apply (K (Z.lxor a 1)); [right; left; reflexivity|assumption]].
    rewrite gstep_dead by (apply K; left; reflexivity).
    destruct (gstep a s v ptm) as [[[v1 ptm1] pi]| |] eqn:Eg; cbn [bind]; [|reflexivity|reflexivity].
    apply gstep_kmono in Eg. destruct Eg as [M1 _].
    rewrite IH; [reflexivity|]. apply (kin_mono v); [assumption|]. intros b Hb. apply K. right. right. assumption.
  - rewrite gscan_s_unfold, gscan_unfold, Em.
    destruct (gsib D pn ptrs i) as [[s ptrs1]| |]; cbn [bind]; [|reflexivity|reflexivity].
    rewrite gstep_dead by (apply K; left; reflexivity).
    destruct (gstep a s v ptm) as [[[v1 ptm1] pi]| |] eqn:Eg; cbn [bind]; [|reflexivity|reflexivity].
    apply gstep_kmono in Eg. destruct Eg as [M1 _].
    rewrite IH; [reflexivity|]. apply (kin_mono v); [assumption|]. intros b Hb. apply K. right. assumption.
Qed.

Lemma glevels_dead pn : forall k I v ptrs ptm, kin v I -> glevels_s k pn I v ptrs ptm = glevels k pn I v ptrs ptm.
Proof.
  induction k as [|k IH]; intros I v ptrs ptm K; [reflexivity|].
  cbn [MerkleStrict.glevels_s Merkle.glevels]. rewrite gscan_dead by assumption.
  destruct (gscan pn I 0 v ptrs ptm) as [[[[v1 ptrs1] ptm1] next]| |] eqn:Es; cbn [bind]; [|reflexivity|reflexivity].
  apply gscan_kin in Es. destruct Es as [_ K1]. apply IH. assumption.
Qed.

(* ---------------------------------------------------------------- the common core *)
Lemma gcore_dead (p : bproof) indexes ptm0 : zlen indexes = zlen (bp_leaves p) ->
  gcore_s p indexes ptm0 = gcore p indexes ptm0.
Proof.
  intros HL. unfold MerkleStrict.gcore_s, Merkle.gcore.
  destruct (map_indexes indexes (bp_depth p)) as [imap| |] eqn:Emi; cbn [bind]; [|reflexivity|reflexivity].
  apply map_indexes_inv in Emi. destruct Emi as (_ & ND & _ & IM & _).
  destruct (negb _); [reflexivity|].
  rewrite gfirst_dead.
  - destruct (gfirst p imap (2 ^ bp_depth p) (normalize_indexes indexes) 0 [] ptm0) as [[[[v ptrs] ptm] next]| |] eqn:Ef;
      cbn [bind]; [|reflexivity|reflexivity].
    apply gfirst_kin in Ef. destruct Ef as (_ & K & _). rewrite glevels_dead by assumption. reflexivity.
  - intros k j E. rewrite <- HL. eapply imap_ok_range; eassumption.
  - intros e He. eapply normalize_imap; eassumption.
Qed.

(* get_root: lines 154, 160, 182, 186, 215, 230 are dead — for EVERY proof value and index list *)
Theorem get_root_dead : forall (p : bproof) indexes, get_root_s p indexes = get_root p indexes.
Proof.
  intros p indexes. unfold MerkleStrict.get_root_s, Merkle.get_root. destruct indexes as [|i0 ir] eqn:Ei; [reflexivity|]. rewrite <- Ei.
  destruct (max_paths <? zlen indexes); [reflexivity|].
  destruct (Z.eqb_spec (zlen indexes) (zlen (bp_leaves p))) as [HL|]; cbn [negb]; [|reflexivity].
  rewrite gcore_dead by assumption. reflexivity.
Qed.

Theorem verify_batch_dead : forall D_eqb root (p : bproof) indexes,
  verify_batch_s D D_eqb merge dead root indexes p = verify_batch D D_eqb merge root indexes p.
Proof. intros. unfold MerkleStrict.verify_batch_s, Merkle.verify_batch. rewrite get_root_dead. reflexivity. Qed.

(* ---------------------------------------------------------------- get_path: 520, 528 *)
Lemma get_path_up_Ok tree : forall fuel s ps, get_path_up D fuel tree s = Ok ps -> get_path_up_s fuel tree s = Ok ps.
Proof.
  induction fuel as [|fuel IH]; intros s ps E.
  - cbn in *. destruct (s <=? 1); [assumption|discriminate].
  - cbn [Merkle.get_path_up MerkleStrict.get_path_up_s] in *. destruct (s <=? 1); [assumption|].
    destruct (bt_get (Z.lxor s 1) tree) as [x|]; [|discriminate].
    apply bind_Ok in E. destruct E as (r & Er & E). rewrite (IH _ _ Er). exact E.
Qed.

Lemma get_path_Ok i tree depth path : get_path D i tree depth = Ok path -> get_path_s i tree depth = Ok path.
Proof.
  unfold Merkle.get_path, MerkleStrict.get_path_s. destruct (64 <=? depth); [discriminate|].
  destruct (uadd i (2 ^ depth)) as [s| |]; cbn [bind]; try discriminate.
  destruct (bt_get s tree) as [leaf|]; [|discriminate].
  intros E. apply bind_Ok in E. destruct E as (r & Er & E). rewrite (get_path_up_Ok _ _ _ _ Er). exact E.
Qed.

(* after a successful run of the common core of into_paths (tree depth >= 1) every queried position has its leaf
   and the sibling of each of its ancestors in the partial tree; moreover the run has produced the root, i.e. the
   final `v.remove(&1).ok_or(InvalidProof)` of get_root can only fail for a proof of depth 0 *)
Lemma gcore_paths (p : bproof) idx (d : nat) v2 ptm2 :
  (1 <= d)%nat -> bp_depth p = Z.of_nat d -> usize_list idx -> idx <> [] -> zlen idx = zlen (bp_leaves p) ->
  gcore p idx (ptm_leaves D (2 ^ bp_depth p) idx (bp_leaves p) []) = Ok (v2, ptm2) ->
  (exists r, bt_get 1 v2 = Some r) /\
  forall i, In i idx -> exists path, get_path D i ptm2 (bp_depth p) = Ok path.
Proof.
  intros Hd1 Hdep Hu Hne HL Ec.
  destruct (bp_leaves p) as [|d0 lr] eqn:El; [destruct idx; [congruence|]; unfold zlen in HL; simpl in HL; lia|].
  rewrite <- El in *.
  destruct (gcore_ptm_spec D d0 merge p idx d v2 ptm2 Hd1 Hdep Hu Hne HL Ec) as (r & Er & Hpos).
  split; [eauto|]. intros i Hi. destruct (In_nth_error _ _ Hi) as (j0 & Ej0).
  destruct (Hpos j0 i Ej0) as (x & ps & _ & Ep & _). eauto.
Qed.

(* depth 0: the only admissible position is 0, whose "path" is the leaf alone *)
Lemma gcore_paths0 (p : bproof) idx v2 ptm2 :
  bp_depth p = 0 -> usize_list idx -> zlen idx = zlen (bp_leaves p) ->
  gcore p idx (ptm_leaves D (2 ^ bp_depth p) idx (bp_leaves p) []) = Ok (v2, ptm2) ->
  forall i, In i idx -> exists path, get_path D i ptm2 (bp_depth p) = Ok path.
Proof.
  intros Hd0 Hu HLl Ec i Hi. rewrite Hd0 in *. change (2 ^ 0) with 1 in *.
  set (ptm0 := ptm_leaves D 1 idx (bp_leaves p) []) in *.
  unfold Merkle.gcore in Ec. apply bind_Ok in Ec. destruct Ec as (imap & Emi & Ec). rewrite Hd0 in Emi.
  apply map_indexes_inv in Emi. destruct Emi as (_ & ND & Hr & _ & _).
  destruct (negb _); [discriminate|]. rewrite Hd0 in Ec. change (2 ^ 0) with 1 in Ec.
  apply bind_Ok in Ec. destruct Ec as ([[[v1 ptrs1] ptm1] next1] & Ef & Ec).
  change (Z.to_nat (0 - 1)) with 0%nat in Ec. cbn [Merkle.glevels bind] in Ec.
  destruct (negb _); [discriminate|]. injection Ec as <- <-.
  apply gfirst_kin in Ef. destruct Ef as (_ & _ & MP).
  assert (HL' : length idx = length (bp_leaves p)) by (unfold zlen in *; lia).
  destruct (ptm_leaves_spec D 1 idx (bp_leaves p) [] ND HL' ltac:(intros; reflexivity)) as (_ & PG & _). fold ptm0 in PG.
  pose proof (Hr i Hi) as Hi1. change (2 ^ 0) with 1 in Hi1. pose proof (Hu i Hi) as Hi0. assert (i = 0) by lia. subst i.
  destruct (In_nth_error _ _ Hi) as (j0 & Ej0).
  assert (Hj0 : (j0 < length (bp_leaves p))%nat) by (rewrite <- HL'; apply nth_error_Some; congruence).
  destruct (nth_error (bp_leaves p) j0) as [x|] eqn:Ex0; [|apply nth_error_None in Ex0; lia].
  pose proof (PG j0 0 x Ej0 Ex0) as E1. cbn in E1.
  unfold Merkle.get_path. cbn [Z.leb Z.compare]. change (2 ^ 0) with 1.
  rewrite uadd_Ok by (rewrite usz_eq; lia). cbn [bind]. change (0 + 1) with 1.
  destruct (bt_get 1 ptm1) as [leaf|] eqn:E2; [|exfalso; apply (MP 1); [congruence|assumption]].
  exists [leaf]. reflexivity.
Qed.

(* into_paths / get_path: lines 310, 316, 338, 342, 373, 387, 520, 528 are dead *)
Theorem into_paths_dead : forall (p : bproof) indexes, 0 <= bp_depth p -> usize_list indexes ->
  into_paths_s p indexes = into_paths p indexes.
Proof.
  intros p indexes Hd Hu. unfold MerkleStrict.into_paths_s, Merkle.into_paths.
  destruct indexes as [|i0 ir] eqn:Ei; [reflexivity|]. rewrite <- Ei in *.
  assert (Hne : indexes <> []) by (rewrite Ei; discriminate).
  destruct (max_paths <? zlen indexes); [reflexivity|].
  destruct (Z.eqb_spec (zlen indexes) (zlen (bp_leaves p))) as [HL|]; cbn [negb]; [|reflexivity].
  rewrite gcore_dead by assumption.
  destruct (gcore p indexes _) as [[v ptm]| |] eqn:Ec; cbn [bind]; [|reflexivity|reflexivity].
  apply mapM_ext_Ok. intros i Hi.
  assert (Hp : exists path, get_path D i ptm (bp_depth p) = Ok path).
  { destruct (Z.eq_dec (bp_depth p) 0) as [H0|H0].
    - eapply gcore_paths0; eassumption.
    - eapply (gcore_paths p indexes (Z.to_nat (bp_depth p))); try eassumption; lia. }
  destruct Hp as (path & Ep). exists path. split; [assumption|apply get_path_Ok; assumption].
Qed.

(* with depth >= 1 the common core, once through, has computed the root: the last error of get_root
   (`v.remove(&1).ok_or(InvalidProof)`, line 257) is reachable only for a proof of depth 0 *)
Theorem gcore_root : forall (p : bproof) idx v ptm, 1 <= bp_depth p -> usize_list idx -> idx <> [] ->
  zlen idx = zlen (bp_leaves p) -> gcore p idx [] = Ok (v, ptm) -> bt_get 1 v <> None.
Proof.
  intros p idx v ptm Hd Hu Hne HL Ec.
  destruct (gcore_irrel D merge p idx [] (ptm_leaves D (2 ^ bp_depth p) idx (bp_leaves p) []) v ptm Ec) as (ptm' & Ec').
  destruct (gcore_paths p idx (Z.to_nat (bp_depth p)) v ptm') as [(r & Er) _]; try assumption; try lia.
  congruence.
Qed.

End Dead.

(* ================================================================ ill-shaped openings are errors *)
Section Shape.
Variable D : Type.
Variable merge : D -> D -> D.

Notation bproof := (bproof D).
Notation gscan := (gscan D merge).
Notation glevels := (glevels D merge).
Notation gfirst := (gfirst D merge).
Notation gleaf := (gleaf D).
Notation gstep := (gstep D merge).
Notation gsib := (gsib D).
Notation gcore := (gcore D merge).
Notation get_root := (get_root D merge).
Notation into_paths := (into_paths D merge).

(* the guards on the position list and on the counts of leaves and node vectors *)
Definition shape_guards (p : bproof) (indexes : list Z) : Prop :=
  indexes <> [] /\ zlen indexes <= 255 /\ zlen indexes = zlen (bp_leaves p) /\ NoDup indexes /\
  (forall i, In i indexes -> i < 2 ^ bp_depth p) /\ bp_depth p < 64 /\
  zlen (normalize_indexes indexes) = zlen (bp_nodes p).

Theorem into_paths_Ok_guards : forall p indexes paths, into_paths p indexes = Ok paths -> shape_guards p indexes.
Proof.
  intros p indexes paths E. apply into_paths_Ok_inv in E. destruct E as (Hne & Hlen & HL & v & ptm & Eg & _).
  apply gcore_Ok_guards in Eg. unfold shape_guards. tauto.
Qed.

(* an opening violating any guard is an error of get_root / verify_batch / into_paths: not accepted, no panic *)
Theorem get_root_ill_shaped : forall p indexes, 0 <= bp_depth p -> usize_list indexes ->
  ~ shape_guards p indexes -> exists e, get_root p indexes = Err e.
Proof.
  intros p indexes Hd Hu Hn. destruct (get_root p indexes) as [r|e|] eqn:E.
  - exfalso. apply Hn. exact (get_root_Ok_guards D merge p indexes r E).
  - eauto.
  - exfalso. exact (get_root_total D merge p indexes Hd Hu E).
Qed.

Theorem verify_batch_ill_shaped : forall D_eqb root p indexes, 0 <= bp_depth p -> usize_list indexes ->
  ~ shape_guards p indexes -> exists e, verify_batch D D_eqb merge root indexes p = Err e.
Proof.
  intros D_eqb root p indexes Hd Hu Hn. destruct (get_root_ill_shaped p indexes Hd Hu Hn) as (e & E).
  exists e. unfold Merkle.verify_batch. rewrite E. reflexivity.
Qed.

Theorem into_paths_ill_shaped : forall p indexes, 0 <= bp_depth p -> usize_list indexes ->
  ~ shape_guards p indexes -> exists e, into_paths p indexes = Err e.
Proof.
  intros p indexes Hd Hu Hn. destruct (into_paths p indexes) as [r|e|] eqn:E.
  - exfalso. apply Hn. exact (into_paths_Ok_guards p indexes r E).
  - eauto.
  - exfalso. exact (into_paths_total D merge p indexes Hd Hu E).
Qed.

(* ---------------------------------------------------------------- the accepted shape is unique
   The proof pointers (how many nodes of each vector are consumed) depend on the position list and the depth
   only, and acceptance requires every vector to be consumed exactly: two openings of the same positions and
   depth that both pass the structural checks have node vectors of the same lengths. *)
Lemma gleaf_shape (p1 p2 : bproof) imap i e b0 b1 ptr c0 c1 ptr' :
  gleaf p1 imap i e = Ok (b0, b1, ptr) -> gleaf p2 imap i e = Ok (c0, c1, ptr') -> ptr = ptr'.
Proof.
  unfold Merkle.gleaf. destruct (uadd e 1) as [i1| |]; cbn [bind]; try discriminate.
  destruct (bt_get e imap); destruct (bt_get i1 imap); intros E1 E2;
    apply bind_Ok in E1; destruct E1 as (x0 & _ & E1); apply bind_Ok in E2; destruct E2 as (y0 & _ & E2);
    try discriminate;
    apply bind_Ok in E1; destruct E1 as (x1 & _ & E1); apply bind_Ok in E2; destruct E2 as (y1 & _ & E2); congruence.
Qed.

Lemma gfirst_shape (p1 p2 : bproof) imap offset : forall norm i v1 ptm1 v2 ptm2 vF1 ptrs1 ptmF1 next1 vF2 ptrs2 ptmF2 next2,
  gfirst p1 imap offset norm i v1 ptm1 = Ok (vF1, ptrs1, ptmF1, next1) ->
  gfirst p2 imap offset norm i v2 ptm2 = Ok (vF2, ptrs2, ptmF2, next2) ->
  ptrs1 = ptrs2 /\ next1 = next2 /\ length ptrs1 = length norm.
Proof.
  induction norm as [|e rest IH]; intros i v1 ptm1 v2 ptm2 vF1 ptrs1 ptmF1 next1 vF2 ptrs2 ptmF2 next2 E1 E2.
  - cbn in E1, E2. injection E1 as <- <- <- <-. injection E2 as <- <- <- <-. auto.
  - apply gfirst_cons_inv in E1. destruct E1 as (b0 & b1 & ptr & q1 & n1 & Eg1 & -> & -> & Er1).
    apply gfirst_cons_inv in E2. destruct E2 as (c0 & c1 & ptr' & q2 & n2 & Eg2 & -> & -> & Er2).
    pose proof (gleaf_shape _ _ _ _ _ _ _ _ _ _ _ Eg1 Eg2) as <-.
    destruct (IH _ _ _ _ _ _ _ _ _ _ _ _ _ Er1 Er2) as (-> & -> & L). repeat split. simpl. lia.
Qed.

Lemma gsib_shape pn1 pn2 ptrs i s1 ptrsA s2 ptrsB :
  gsib pn1 ptrs i = Ok (s1, ptrsA) -> gsib pn2 ptrs i = Ok (s2, ptrsB) -> ptrsA = ptrsB /\ length ptrsA = length ptrs.
Proof.
  unfold Merkle.gsib. destruct (idx ptrs i) as [pointer| |]; cbn [bind]; try discriminate. intros E1 E2.
  apply bind_Ok in E1. destruct E1 as (nd1 & _ & E1). apply bind_Ok in E2. destruct E2 as (nd2 & _ & E2).
  destruct (zlen nd1 <=? pointer); [discriminate|]. destruct (zlen nd2 <=? pointer); [discriminate|].
  apply bind_Ok in E1. destruct E1 as (x1 & _ & E1). apply bind_Ok in E2. destruct E2 as (x2 & _ & E2).
  apply bind_Ok in E1. destruct E1 as (q1 & U1 & E1). apply bind_Ok in E2. destruct E2 as (q2 & U2 & E2).
  injection E1 as <- <-. injection E2 as <- <-. rewrite U1 in U2. injection U2 as <-.
  apply upd_inv in U1. split; [reflexivity|tauto].
Qed.

Lemma gscan_shape pn1 pn2 : forall I i ptrs v1 ptm1 v2 ptm2 vF1 ptrsF1 ptmF1 next1 vF2 ptrsF2 ptmF2 next2,
  gscan pn1 I i v1 ptrs ptm1 = Ok (vF1, ptrsF1, ptmF1, next1) ->
  gscan pn2 I i v2 ptrs ptm2 = Ok (vF2, ptrsF2, ptmF2, next2) ->
  ptrsF1 = ptrsF2 /\ next1 = next2 /\ length ptrsF1 = length ptrs.
Proof.
  induction I as [|a r IH|a r Em IH] using scan_ind;
    intros i ptrs v1 ptm1 v2 ptm2 vF1 ptrsF1 ptmF1 next1 vF2 ptrsF2 ptmF2 next2 E1 E2.
  - cbn in E1, E2. injection E1 as <- <- <- <-. injection E2 as <- <- <- <-. auto.
  - apply gscan_merged_inv in E1. destruct E1 as (? & ? & n1 & _ & _ & -> & Er1).
    apply gscan_merged_inv in E2. destruct E2 as (? & ? & n2 & _ & _ & -> & Er2).
    destruct (IH _ _ _ _ _ _ _ _ _ _ _ _ _ _ Er1 Er2) as (-> & -> & L). auto.
  - apply (gscan_single_inv _ _ _ _ _ _ _ _ _ _ _ _ _ Em) in E1. destruct E1 as (? & s1 & ptrsA & n1 & _ & Es1 & -> & Er1).
    apply (gscan_single_inv _ _ _ _ _ _ _ _ _ _ _ _ _ Em) in E2. destruct E2 as (? & s2 & ptrsB & n2 & _ & Es2 & -> & Er2).
    destruct (gsib_shape _ _ _ _ _ _ _ _ Es1 Es2) as [<- LA].
    destruct (IH _ _ _ _ _ _ _ _ _ _ _ _ _ _ Er1 Er2) as (-> & -> & L). repeat split. lia.
Qed.

Lemma glevels_shape pn1 pn2 : forall k I ptrs v1 ptm1 v2 ptm2 vF1 ptrsF1 ptmF1 vF2 ptrsF2 ptmF2,
  glevels k pn1 I v1 ptrs ptm1 = Ok (vF1, ptrsF1, ptmF1) ->
  glevels k pn2 I v2 ptrs ptm2 = Ok (vF2, ptrsF2, ptmF2) ->
  ptrsF1 = ptrsF2 /\ length ptrsF1 = length ptrs.
Proof.
  induction k as [|k IH]; intros I ptrs v1 ptm1 v2 ptm2 vF1 ptrsF1 ptmF1 vF2 ptrsF2 ptmF2 E1 E2.
  - cbn in E1, E2. injection E1 as <- <- <-. injection E2 as <- <- <-. auto.
  - cbn [Merkle.glevels] in E1, E2.
    apply bind_Ok in E1. destruct E1 as ([[[w1 q1] m1] nx1] & Es1 & E1). apply bind_Ok in E2. destruct E2 as ([[[w2 q2] m2] nx2] & Es2 & E2).
    destruct (gscan_shape pn1 pn2 _ _ _ _ _ _ _ _ _ _ _ _ _ _ _ Es1 Es2) as (<- & <- & L).
    destruct (IH _ _ _ _ _ _ _ _ _ _ _ _ E1 E2) as (-> & L2). split; [reflexivity|lia].
Qed.

Lemma all_consumed_lengths : forall (ptrs : list Z) (nodes : list (list D)),
  length ptrs = length nodes -> all_consumed D ptrs nodes = true -> map (@zlen D) nodes = ptrs.
Proof.
  induction ptrs as [|q ptrs IH]; intros [|nd nodes] HL H; try discriminate; [reflexivity|].
  cbn [Merkle.all_consumed] in H. apply andb_true_iff in H. destruct H as [H1 H2]. apply Z.eqb_eq in H1.
  cbn [map]. rewrite IH by (try assumption; simpl in HL; lia). congruence.
Qed.

Theorem gcore_shape_unique : forall (p1 p2 : bproof) indexes ptmA ptmB r1 r2, bp_depth p1 = bp_depth p2 ->
  gcore p1 indexes ptmA = Ok r1 -> gcore p2 indexes ptmB = Ok r2 ->
  map (@zlen D) (bp_nodes p1) = map (@zlen D) (bp_nodes p2).
Proof.
  intros p1 p2 indexes ptmA ptmB r1 r2 Hd E1 E2. unfold Merkle.gcore in E1, E2. rewrite <- Hd in E2.
  destruct (map_indexes indexes (bp_depth p1)) as [imap| |]; cbn [bind] in E1, E2; try discriminate.
  destruct (Z.eqb_spec (zlen (normalize_indexes indexes)) (zlen (bp_nodes p1))) as [L1|]; cbn [negb] in E1; [|discriminate].
  destruct (Z.eqb_spec (zlen (normalize_indexes indexes)) (zlen (bp_nodes p2))) as [L2|]; cbn [negb] in E2; [|discriminate].
  apply bind_Ok in E1. destruct E1 as ([[[v1 ptrs1] ptm1] next1] & Ef1 & E1).
  apply bind_Ok in E2. destruct E2 as ([[[v2 ptrs2] ptm2] next2] & Ef2 & E2).
  destruct (gfirst_shape _ _ _ _ _ _ _ _ _ _ _ _ _ _ _ _ _ _ Ef1 Ef2) as (<- & <- & LF).
  apply bind_Ok in E1. destruct E1 as ([[w1 q1] m1] & El1 & E1). apply bind_Ok in E2. destruct E2 as ([[w2 q2] m2] & El2 & E2).
  destruct (glevels_shape _ _ _ _ _ _ _ _ _ _ _ _ _ _ _ El1 El2) as (<- & LL).
  destruct (all_consumed D q1 (bp_nodes p1)) eqn:A1; cbn [negb] in E1; [|discriminate].
  destruct (all_consumed D q1 (bp_nodes p2)) eqn:A2; cbn [negb] in E2; [|discriminate].
  rewrite (all_consumed_lengths q1 (bp_nodes p1)) by (try assumption; unfold zlen in *; lia).
  rewrite (all_consumed_lengths q1 (bp_nodes p2)) by (try assumption; unfold zlen in *; lia). reflexivity.
Qed.

Theorem get_root_shape_unique : forall (p1 p2 : bproof) indexes r1 r2, bp_depth p1 = bp_depth p2 ->
  get_root p1 indexes = Ok r1 -> get_root p2 indexes = Ok r2 ->
  length (bp_leaves p1) = length (bp_leaves p2) /\ map (@zlen D) (bp_nodes p1) = map (@zlen D) (bp_nodes p2).
Proof.
  intros p1 p2 indexes r1 r2 Hd E1 E2.
  apply get_root_Ok_inv in E1. destruct E1 as (_ & _ & HL1 & v1 & m1 & Ec1 & _).
  apply get_root_Ok_inv in E2. destruct E2 as (_ & _ & HL2 & v2 & m2 & Ec2 & _).
  split; [unfold zlen in *; lia|eapply gcore_shape_unique; eassumption].
Qed.

Theorem into_paths_shape_unique : forall (p1 p2 : bproof) indexes r1 r2, bp_depth p1 = bp_depth p2 ->
  into_paths p1 indexes = Ok r1 -> into_paths p2 indexes = Ok r2 ->
  length (bp_leaves p1) = length (bp_leaves p2) /\ map (@zlen D) (bp_nodes p1) = map (@zlen D) (bp_nodes p2).
Proof.
  intros p1 p2 indexes r1 r2 Hd E1 E2.
  apply into_paths_Ok_inv in E1. destruct E1 as (_ & _ & HL1 & v1 & m1 & Ec1 & _).
  apply into_paths_Ok_inv in E2. destruct E2 as (_ & _ & HL2 & v2 & m2 & Ec2 & _).
  split; [unfold zlen in *; lia|eapply gcore_shape_unique; eassumption].
Qed.

End Shape.

(* an opening of a tree's depth that get_root accepts (for any root) has exactly the shape of the honest opening
   prove_batch produces for the same position list: a missing or surplus leaf, node vector, or node at ANY level
   is an error *)
Theorem accepted_has_honest_shape : forall (D : Type) (D_eqb : D -> D -> bool),
  (forall a b, D_eqb a b = true <-> a = b) -> forall (d0 : D) (merge : D -> D -> D)
  leaves t (d : nat) root indexes (p : bproof D) r,
  mt_new D d0 merge leaves = Ok t -> zlen leaves = 2 ^ Z.of_nat d -> (d <= 62)%nat -> mt_root D t = Ok root ->
  (forall i, In i indexes -> 0 <= i) -> bp_depth p = Z.of_nat d -> get_root D merge p indexes = Ok r ->
  exists hp, mt_prove_batch D d0 t indexes = Ok hp /\
    length (bp_leaves p) = length (bp_leaves hp) /\ map (@zlen D) (bp_nodes p) = map (@zlen D) (bp_nodes hp).
Proof.
  intros D D_eqb Hspec d0 merge leaves t d root indexes p r En HL Hd Er Hnn Hdep Eg.
  pose proof (get_root_Ok_guards D merge _ _ _ Eg) as (Hne & Hlen & _ & ND & Hr & _ & _).
  destruct (batch_complete D D_eqb Hspec d0 merge leaves t d root indexes En HL Hd Er Hne Hlen ND) as (hp & Ep & Hdp & _ & _ & Eh & _).
  { intros i Hi. split; [apply Hnn; assumption|]. rewrite HL, <- Hdep. apply Hr. assumption. }
  exists hp. split; [assumption|]. eapply get_root_shape_unique; [|eassumption|eassumption]. congruence.
Qed.

(* ================================================================ non-vacuity *)
Definition ex_honest : bproof Z := {| bp_leaves := [60; 10; 50]; bp_nodes := [[20; 131]; [291]]; bp_depth := 3 |}.

(* hypotheses of the ill_shaped theorems: each guard can be violated alone *)
Example ex_ill_shaped_hyps :
  ~ shape_guards Z {| bp_leaves := [60; 10]; bp_nodes := [[20; 131]; [291]]; bp_depth := 3 |} [5; 0; 4] /\
  ~ shape_guards Z {| bp_leaves := [60; 10; 50]; bp_nodes := [[20; 131]]; bp_depth := 3 |} [5; 0; 4] /\
  ~ shape_guards Z ex_honest [5; 0; 8] /\ ~ shape_guards Z ex_honest [5; 0; 5] /\
  0 <= bp_depth ex_honest /\ usize_list [5; 0; 8].
Proof.
  repeat split.
  - intros (_ & _ & H & _). vm_compute in H. discriminate.
  - intros (_ & _ & _ & _ & _ & _ & H). vm_compute in H. discriminate.
  - intros (_ & _ & _ & _ & H & _). specialize (H 8 ltac:(simpl; tauto)). vm_compute in H. discriminate.
  - intros (_ & _ & _ & H & _). inversion H as [|? ? Hn5 _]. apply Hn5. simpl. tauto.
  - vm_compute. congruence.
  - intros x [<-|[<-|[<-|[]]]]; lia.
Qed.

(* hypotheses of shape_unique: two accepted openings of the same positions with different digests *)
Example ex_shape_unique_hyps :
  get_root Z mg ex_honest [5; 0; 4] = Ok 1781 /\
  get_root Z mg {| bp_leaves := [61; 10; 50]; bp_nodes := [[20; 131]; [291]]; bp_depth := 3 |} [5; 0; 4] = Ok 1784.
Proof. split; vm_compute; reflexivity. Qed.

(* the strict twin with dead := Panic on openings aimed at the dead branches: the neighbouring live guard answers *)
Definition dpanic : forall A : Type, res A := fun _ => Panic.
Example ex_strict_runs :
  (* fewer leaves than positions (aimed at 154/160/182): the leaf-count check answers *)
  get_root_s Z mg dpanic {| bp_leaves := [60; 10]; bp_nodes := [[20; 131]; [291]]; bp_depth := 3 |} [5; 0; 4] = Err InvalidProof /\
  (* a node vector per pair although a pair is missing (aimed at 186) *)
  get_root_s Z mg dpanic {| bp_leaves := [60; 10; 50]; bp_nodes := [[20; 131]; [291]; [7]]; bp_depth := 3 |} [5; 0; 4] = Err InvalidProof /\
  (* depth too small for the level structure (aimed at 215/230) *)
  get_root_s Z mg dpanic {| bp_leaves := [60; 10; 50]; bp_nodes := [[20; 131]; [291]]; bp_depth := 2 |} [5; 0; 4] = Err (LeafIndexOutOfBounds 4 5) /\
  (* depth larger than the node vectors provide for (aimed at 520/528) *)
  into_paths_s Z mg dpanic {| bp_leaves := [60; 10; 50]; bp_nodes := [[20; 131]; [291]]; bp_depth := 4 |} [5; 0; 4] = Err InvalidProof /\
  into_paths_s Z mg dpanic ex_honest [5; 0; 4] = into_paths Z mg ex_honest [5; 0; 4].
Proof. repeat split; vm_compute; reflexivity. Qed.

(* depth byte 0: get_root reports the missing root (line 257), into_paths returns the bare leaf as a "path" of
   length 1, which MerkleTree::verify rejects (C10_verify_short) *)
Example ex_depth0 :
  get_root Z mg {| bp_leaves := [60]; bp_nodes := [[7]]; bp_depth := 0 |} [0] = Err InvalidProof /\
  into_paths Z mg {| bp_leaves := [60]; bp_nodes := [[7]]; bp_depth := 0 |} [0] = Ok [[60]].
Proof. split; vm_compute; reflexivity. Qed.
