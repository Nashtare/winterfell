(* C11 — raw-to-value composition for the sponges (hash, hash_elements, merge, merge_with_int) of the three Rescue
   hashers and for the Rp62_248 permutation: the generic code of Model/Rescue.v (Section Generic) instantiated with
   operations on internal words simulates the value-level models through any relation `Rel raw value` that is
   preserved by mul / add / new / ZERO / ONE (Section Sim); instances: f64 (canonical Montgomery words, C07) with the
   raw permutations of RescueRaw.v, and f62 (lazy Montgomery words in [0, 2M), C07_f62). *)
From VBase Require Import MachInt.
From VGen Require Import Mds12 Mds8 F64.
From VGen Require F62.
From VModel Require Import RescueConsts Rescue.
From VProofs Require Import BytesFacts F64Red F64Ops RescueMds RescueSbox RescueSponge RescueRaw.
From VProofs Require F62Ops.
Open Scope Z_scope.

(* ------------------------------------------------------------------------------------------------ list lemmas *)
Lemma upd_length i f (s : list Z) : length (upd i f s) = length s.
Proof. revert i. induction s as [|x r IH]; intros [|i]; cbn; auto. Qed.

Lemma set_range_fold_length : forall (l : list (nat * Z)) start st,
  length (fold_left (fun st iv => upd (start + fst iv) (fun _ => snd iv) st) l st) = length st.
Proof. induction l as [|a l IH]; intros; cbn [fold_left]; [reflexivity|]. rewrite IH. apply upd_length. Qed.
Lemma set_range_length start vs st : length (set_range start vs st) = length st.
Proof. apply set_range_fold_length. Qed.

(* ------------------------------------------------------------------------------------------------ bytes -> u64 integers *)
Lemma chunk_ints_cons2 c c' r : chunk_ints_of (c :: c' :: r) =
  if Nat.eqb (length c) 7 then match chunk_ints_of (c' :: r) with Some es => Some (of_le_bytes c :: es) | None => None end else None.
Proof. reflexivity. Qed.

Lemma encode_chunks_ints p : forall cs,
  encode_chunks p cs = match chunk_ints_of cs with Some l => Some (map (fun v => v mod p) l) | None => None end.
Proof.
  induction cs as [|c r IH]; [reflexivity|].
  destruct r as [|c' r']; [reflexivity|].
  rewrite encode_cons2, chunk_ints_cons2, IH. destruct (Nat.eqb (length c) 7); [|reflexivity]. destruct (chunk_ints_of (c' :: r')); reflexivity.
Qed.

Lemma chunk_ints_of_range : forall cs l, wf_chunks cs -> chunk_ints_of cs = Some l -> Forall (fun v => 0 <= v < 2 ^ 64) l.
Proof.
  induction cs as [|c r IH]; intros l W E.
  - injection E as <-. constructor.
  - destruct r as [|c' r'].
    + cbn [chunk_ints_of] in E. injection E as <-. cbn [wf_chunks] in W. destruct W as (L & B).
      constructor; [|constructor].
      pose proof (of_le_bytes_range (c ++ [1]) (bytes_app1 c B)) as H. rewrite app_length in H. simpl length in H.
      assert (256 ^ Z.of_nat (length c + 1) <= 256 ^ 8) by (apply Z.pow_le_mono_r; lia).
      change (256 ^ 8) with (2 ^ 64) in *. lia.
    + rewrite wf_cons2 in W. destruct W as (L & B & W).
      rewrite chunk_ints_cons2, L in E. cbn [Nat.eqb] in E. destruct (chunk_ints_of (c' :: r')) as [es|] eqn:Er; [|discriminate].
      injection E as <-. constructor; [|apply IH; auto].
      pose proof (of_le_bytes_range c B) as H. rewrite L in H. change (256 ^ Z.of_nat 7) with (2 ^ 56) in H. lia.
Qed.

Lemma chunk_ints_range b l : bytes b -> chunk_ints b = Some l -> Forall (fun v => 0 <= v < 2 ^ 64) l.
Proof. intros B. apply chunk_ints_of_range. apply chunks7_wf; auto. Qed.

Lemma bytes_to_elems_ints p b :
  bytes_to_elems p b = match chunk_ints b with Some l => Some (map (fun v => v mod p) l) | None => None end.
Proof. apply encode_chunks_ints. Qed.

(* ------------------------------------------------------------------------------------------------ simulation *)
Section Sim.
  Variable p : Z.
  Variables mulR addR : Z -> Z -> Z.
  Variable newR : Z -> Z.
  Variables zeroR oneR : Z.
  Variable Rel : Z -> Z -> Prop.
  Hypothesis Hp : 1 < p.
  Hypothesis Hp64 : p <= 2 ^ 64.
  Hypothesis Rel_mul : forall a x b y, Rel a x -> Rel b y -> Rel (mulR a b) (fmul p x y).
  Hypothesis Rel_add : forall a x b y, Rel a x -> Rel b y -> Rel (addR a b) (fadd p x y).
  Hypothesis Rel_new : forall v, 0 <= v < 2 ^ 64 -> Rel (newR v) (v mod p).
  Hypothesis Rel_zero : Rel zeroR 0.
  Hypothesis Rel_one : Rel oneR (1 mod p).

  Local Notation RLg := (Forall2 Rel).

  Lemma Rel_eq a x y : Rel a x -> x = y -> Rel a y.
  Proof. intros H <-. exact H. Qed.

  Lemma RLg_length ws vs : RLg ws vs -> length ws = length vs.
  Proof. intros H. induction H; cbn; congruence. Qed.
  Lemma RLg_upd f g : (forall a x, Rel a x -> Rel (f a) (g x)) -> forall ws vs, RLg ws vs -> forall i, RLg (upd i f ws) (upd i g vs).
  Proof.
    intros Hf ws vs H. induction H as [|w v ws vs Hwv Hrest IH]; intros [|i]; cbn [upd].
    - constructor.
    - constructor.
    - constructor; [apply Hf; exact Hwv | exact Hrest].
    - constructor; [exact Hwv | apply IH].
  Qed.
  Lemma RLg_zeros n : RLg (g_zeros zeroR n) (zeros n).
  Proof. unfold g_zeros, zeros. induction n; cbn; constructor; auto. Qed.
  Lemma RLg_firstn ws vs : RLg ws vs -> forall n, RLg (firstn n ws) (firstn n vs).
  Proof. intros H. induction H; intros [|n]; cbn; constructor; auto. Qed.
  Lemma RLg_skipn ws vs : RLg ws vs -> forall n, RLg (skipn n ws) (skipn n vs).
  Proof. intros H. induction H; intros [|n]; cbn; try constructor; auto. Qed.
  Lemma RLg_nth ws vs : RLg ws vs -> forall i, Rel (nth i ws zeroR) (nth i vs 0).
  Proof. intros H. induction H; intros [|i]; cbn; auto. Qed.
  Lemma RLg_map_new l : Forall (fun v => 0 <= v < 2 ^ 64) l -> RLg (map newR l) (map (fun v => v mod p) l).
  Proof. intros H. induction H; cbn; constructor; auto. Qed.

  Lemma RLg_set_range_fold : forall vals vvals, RLg vals vvals -> forall k start st sv, RLg st sv ->
    RLg (fold_left (fun st iv => upd (start + fst iv) (fun _ => snd iv) st) (combine (seq k (length vals)) vals) st)
        (fold_left (fun st iv => upd (start + fst iv) (fun _ => snd iv) st) (combine (seq k (length vvals)) vvals) sv).
  Proof.
    intros vals vvals H. induction H as [|w v ws vs Hwv _ IH]; intros k start st sv Hs; [exact Hs|].
    cbn [length seq combine fold_left fst snd]. apply IH. apply RLg_upd; auto.
  Qed.
  Lemma RLg_set_range start vals vvals st sv : RLg vals vvals -> RLg st sv -> RLg (set_range start vals st) (set_range start vvals sv).
  Proof. intros H Hs. unfold set_range. apply RLg_set_range_fold; auto. Qed.

  (* ---------------------------------------------------------------- Rp62_248-style permutation (plain code) *)
  Lemma Rel_sq a x : Rel a x -> Rel (g_sq mulR a) (fsq p x).
  Proof. intros H. exact (Rel_mul _ _ _ _ H H). Qed.
  Lemma Rel_sqn n : forall a x, Rel a x -> Rel (g_sqn mulR n a) (sqn p n x).
  Proof. induction n as [|n IH]; intros a x H; [exact H|]. cbn [g_sqn sqn]. apply IH, Rel_sq, H. Qed.
  Lemma Rel_exp_acc n a x b y : Rel a x -> Rel b y -> Rel (g_exp_acc mulR n a b) (exp_acc p n x y).
  Proof. intros Ha Hb. apply Rel_mul; [apply Rel_sqn; exact Ha | exact Hb]. Qed.
  Lemma Rel_cube a x : Rel a x -> Rel (g_cube mulR a) (cube p x).
  Proof. intros H. exact (Rel_mul _ _ _ _ (Rel_mul _ _ _ _ H H) H). Qed.
  Lemma Rel_inv_sbox62 a x : Rel a x -> Rel (g_inv_sbox62 mulR a) (inv_sbox62 p x).
  Proof.
    intros H. unfold g_inv_sbox62, inv_sbox62.
    pose proof (Rel_sq _ _ H) as H1.
    pose proof (Rel_exp_acc 2 _ _ _ _ H1 H1) as H2.
    pose proof (Rel_exp_acc 4 _ _ _ _ H2 H2) as H4.
    pose proof (Rel_exp_acc 8 _ _ _ _ H4 H4) as H8.
    pose proof (Rel_exp_acc 7 _ _ _ _ H8 H2) as A1.
    pose proof (Rel_exp_acc 15 _ _ _ _ A1 H8) as A2.
    pose proof (Rel_exp_acc 16 _ _ _ _ A2 H8) as A3.
    pose proof (Rel_exp_acc 8 _ _ _ _ A3 H4) as A4.
    cbv zeta. exact (Rel_mul _ _ _ _ H A4).
  Qed.

  Lemma RLg_map f g : (forall a x, Rel a x -> Rel (f a) (g x)) -> forall ws vs, RLg ws vs -> RLg (map f ws) (map g vs).
  Proof. intros Hf ws vs H. induction H; cbn; constructor; auto. Qed.

  Definition canon (c : Z) : Prop := 0 <= c < p.

  (* the `*r += m * s` loop computes the dot product mod p *)
  Lemma Rel_dot_loop : forall row ws vs, Forall canon row -> RLg ws vs -> forall acc accv, Rel acc accv -> 0 <= accv < p ->
    Rel (fold_left (fun r ms => addR r (mulR (fst ms) (snd ms))) (combine (map newR row) ws) acc) ((accv + dotZ row vs) mod p).
  Proof.
    induction row as [|m row IH]; intros ws vs Hc H acc accv Ha Hr.
    - cbn. unfold dotZ. cbn. rewrite Z.add_0_r. rewrite Z.mod_small by exact Hr. exact Ha.
    - inversion Hc as [|? ? Hm Hrow]; subst.
      destruct H as [|w v ws vs Hwv Hrest].
      + cbn. unfold dotZ. cbn. rewrite Z.add_0_r. rewrite Z.mod_small by exact Hr. exact Ha.
      + cbn [map combine fold_left fst snd].
        assert (Hm' : Rel (newR m) (m mod p)) by (apply Rel_new; unfold canon in Hm; lia).
        pose proof (Rel_add _ _ _ _ Ha (Rel_mul _ _ _ _ Hm' Hwv)) as Hacc.
        eapply Rel_eq; [apply (IH ws vs Hrow Hrest _ _ Hacc); unfold fadd; apply Z.mod_pos_bound; lia|].
        unfold dotZ. cbn [combine map fold_right fst snd]. unfold fadd, fmul.
        rewrite Z.mul_mod_idemp_l by lia. rewrite Z.add_mod_idemp_r by lia.
        rewrite Z.add_mod_idemp_l by lia. f_equal. ring.
  Qed.

  Lemma Rel_g_dot_loop row ws vs : Forall canon row -> RLg ws vs ->
    Rel (g_dot_loop mulR addR zeroR (map newR row) ws) (dotZ row vs mod p).
  Proof. intros Hc H. unfold g_dot_loop. eapply Rel_eq; [apply (Rel_dot_loop row ws vs Hc H _ _ Rel_zero); lia|]. reflexivity. Qed.

  Lemma Forall2_apply_mds mds ws vs : Forall (Forall canon) mds -> RLg ws vs ->
    RLg (g_apply_mds mulR addR zeroR (g_consts newR mds) ws) (mat_vec p mds vs).
  Proof.
    intros Hc H. unfold g_apply_mds, g_consts, mat_vec. induction Hc as [|row mds Hrow _ IH]; cbn [map]; constructor; auto.
    apply Rel_g_dot_loop; auto.
  Qed.

  Lemma RLg_add_constants ws vs k : RLg ws vs -> Forall canon k ->
    RLg (g_add_constants addR ws (map newR k)) (add_constants p vs k).
  Proof.
    intros H. revert k. induction H as [|w v ws vs Hwv _ IH]; intros k Hk; [constructor|].
    destruct k as [|c k]; [constructor|]. inversion Hk as [|? ? Hc Hk']; subst.
    unfold g_add_constants, add_constants. cbn [map combine fst snd]. constructor.
    - eapply Rel_eq; [apply Rel_add; [exact Hwv | apply Rel_new; unfold canon in Hc; lia]|].
      unfold fadd. rewrite Z.add_mod_idemp_r by lia. reflexivity.
    - apply IH. exact Hk'.
  Qed.

  Lemma nth_consts t r : nth r (g_consts newR t) [] = map newR (nth r t []).
  Proof. unfold g_consts. change [] with (map newR []) at 1. apply map_nth. Qed.

  Section Perm62.
    Variables mds ark1 ark2 : list (list Z).
    Hypothesis Hmds : Forall (Forall canon) mds.
    Hypothesis Hark1 : forall r, Forall canon (nth r ark1 []).
    Hypothesis Hark2 : forall r, Forall canon (nth r ark2 []).

    Lemma RLg_round62 ws vs r : RLg ws vs ->
      RLg (g_round62 mulR addR newR zeroR mds ark1 ark2 ws r) (apply_round p (mkRP (cube p) (inv_sbox62 p) mds ark1 ark2) vs r).
    Proof.
      intros H. unfold g_round62, apply_round. cbv zeta. cbn [rp_sbox rp_inv_sbox rp_mds rp_ark1 rp_ark2].
      rewrite !nth_consts.
      apply RLg_add_constants; [|apply Hark2]. apply Forall2_apply_mds; [exact Hmds|].
      apply (RLg_map _ _ Rel_inv_sbox62).
      apply RLg_add_constants; [|apply Hark1]. apply Forall2_apply_mds; [exact Hmds|].
      apply (RLg_map _ _ Rel_cube). exact H.
    Qed.

    Lemma RLg_permutation62 ws vs : RLg ws vs ->
      RLg (g_permutation62 mulR addR newR zeroR mds ark1 ark2 ws) (apply_permutation p (mkRP (cube p) (inv_sbox62 p) mds ark1 ark2) vs).
    Proof.
      unfold g_permutation62, apply_permutation. generalize (seq 0 7). intros l. revert ws vs.
      induction l as [|r l IH]; intros ws vs H; [exact H|]. cbn [fold_left]. apply IH. apply RLg_round62. exact H.
    Qed.
  End Perm62.

  (* ---------------------------------------------------------------- sponges *)
  Section Sponge.
    Variables w rs rw ci ds : nat.
    Variables permR permV : list Z -> list Z.
    Hypothesis Hperm : forall ws vs, RLg ws vs -> length ws = w -> RLg (permR ws) (permV vs) /\ length (permR ws) = w.
    Let SR := mkSponge w rs rw ci ds permR.
    Let SV := mkSponge w rs rw ci ds permV.

    Lemma RLg_digest st sv : RLg st sv -> RLg (digest_of SR st) (digest_of SV sv).
    Proof. intros H. unfold digest_of. cbn [sp_digest_start SR SV]. apply RLg_firstn, RLg_skipn, H. Qed.

    Lemma absorb_sim : forall xs ys, RLg xs ys -> forall st sv i, RLg st sv -> length st = w ->
      RLg (fst (g_absorb addR SR st i xs)) (fst (absorb p SV sv i ys)) /\
      snd (g_absorb addR SR st i xs) = snd (absorb p SV sv i ys) /\ length (fst (g_absorb addR SR st i xs)) = w.
    Proof.
      intros xs ys H. induction H as [|x y xs ys Hxy _ IH]; intros st sv i Hs Hl.
      - cbn. auto.
      - cbn [g_absorb absorb]. cbn [sp_rate_start sp_rate_width sp_perm SR SV].
        assert (Hs' : RLg (upd (rs + i) (fun a => addR a x) st) (upd (rs + i) (fun a => fadd p a y) sv)).
        { apply RLg_upd; auto. }
        assert (Hl' : length (upd (rs + i) (fun a => addR a x) st) = w) by (rewrite upd_length; exact Hl).
        destruct (Nat.eqb (S i mod rw) 0).
        + destruct (Hperm _ _ Hs' Hl') as (Hp1 & Hp2). apply IH; auto.
        + apply IH; auto.
    Qed.

    Lemma hash_elements_cnt_sim xs ys : RLg xs ys -> Z.of_nat (length xs) < 2 ^ 64 ->
      RLg (g_hash_elements_cnt addR newR zeroR SR xs) (hash_elements_cnt p SV ys).
    Proof.
      intros H Hlen. unfold g_hash_elements_cnt, hash_elements_cnt. cbn [sp_cap_idx sp_width sp_perm SR SV].
      assert (H0 : RLg (upd ci (fun _ => newR (Z.of_nat (length xs))) (g_zeros zeroR w)) (upd ci (fun _ => Z.of_nat (length ys) mod p) (zeros w))).
      { apply RLg_upd; [|apply RLg_zeros]. intros _ _ _. rewrite <- (RLg_length _ _ H). apply Rel_new. lia. }
      assert (L0 : length (upd ci (fun _ => newR (Z.of_nat (length xs))) (g_zeros zeroR w)) = w).
      { rewrite upd_length. unfold g_zeros. apply repeat_length. }
      destruct (absorb_sim xs ys H _ _ 0%nat H0 L0) as (A & B & C).
      fold SR SV. destruct (g_absorb addR SR _ 0 xs) as (st, i). destruct (absorb p SV _ 0 ys) as (sv, j).
      cbn [fst snd] in A, B, C. subst j.
      apply RLg_digest. destruct (0 <? i)%nat; [|exact A]. apply (Hperm _ _ A C).
    Qed.

    Lemma jive_pad_fold_sim : forall l st sv, RLg st sv ->
      RLg (fold_left (fun st j => upd (rs + j) (fun _ => zeroR) st) l st) (fold_left (fun st j => upd (rs + j) (fun _ => 0) st) l sv).
    Proof. induction l as [|j l IH]; intros st sv H; [exact H|]. cbn [fold_left]. apply IH. apply RLg_upd; auto. Qed.
    Lemma jive_pad_fold_length : forall l st, length (fold_left (fun st j => upd (rs + j) (fun _ => zeroR) st) l st) = length st.
    Proof. induction l as [|j l IH]; intros st; [reflexivity|]. cbn [fold_left]. rewrite IH. apply upd_length. Qed.

    Lemma hash_elements_jive_sim xs ys : RLg xs ys ->
      RLg (g_hash_elements_jive addR zeroR oneR SR xs) (hash_elements_jive p SV ys).
    Proof.
      intros H. unfold g_hash_elements_jive, hash_elements_jive. cbn [sp_cap_idx sp_width sp_perm sp_rate_width SR SV].
      rewrite <- (RLg_length _ _ H).
      assert (H0 : RLg (if Nat.eqb (length xs mod rw) 0 then g_zeros zeroR w else upd ci (fun _ => oneR) (g_zeros zeroR w))
                       (if Nat.eqb (length xs mod rw) 0 then zeros w else upd ci (fun _ => 1 mod p) (zeros w))).
      { destruct (Nat.eqb (length xs mod rw) 0); [apply RLg_zeros|]. apply RLg_upd; [auto | apply RLg_zeros]. }
      assert (L0 : length (if Nat.eqb (length xs mod rw) 0 then g_zeros zeroR w else upd ci (fun _ => oneR) (g_zeros zeroR w)) = w).
      { destruct (Nat.eqb (length xs mod rw) 0); [|rewrite upd_length]; unfold g_zeros; apply repeat_length. }
      destruct (absorb_sim xs ys H _ _ 0%nat H0 L0) as (A & B & C).
      fold SR SV. destruct (g_absorb addR SR _ 0 xs) as (st, i). destruct (absorb p SV _ 0 ys) as (sv, j).
      cbn [fst snd] in A, B, C. subst j.
      apply RLg_digest. destruct (0 <? i)%nat; [|exact A].
      apply Hperm.
      - unfold g_jive_pad, jive_pad. cbn [sp_rate_start sp_rate_width SR SV]. apply jive_pad_fold_sim. apply RLg_upd; auto.
      - unfold g_jive_pad. cbn [sp_rate_start sp_rate_width SR]. rewrite jive_pad_fold_length, upd_length. exact C.
    Qed.

    Lemma hash_bytes_sim heR heV b : bytes b -> Z.of_nat (length b) < 2 ^ 64 ->
      (forall xs ys, RLg xs ys -> Z.of_nat (length xs) < 2 ^ 64 -> RLg (heR xs) (heV ys)) ->
      exists r v, g_hash_bytes_with newR heR b = Some r /\ hash_bytes_with p heV b = Some v /\ RLg r v.
    Proof.
      intros B Hb Hhe. unfold g_hash_bytes_with, hash_bytes_with, bytes_to_elems, chunk_ints.
      destruct (encode_wf_total p _ (chunks7_wf (length b) b (le_n _) B)) as (es & Ee & Hlen).
      rewrite Ee. rewrite encode_chunks_ints in Ee. destruct (chunk_ints_of _) as [l|] eqn:E; [|discriminate]. injection Ee as <-.
      eexists _, _. split; [reflexivity|]. split; [reflexivity|].
      apply Hhe; [apply RLg_map_new; eapply chunk_ints_range; eauto|].
      rewrite map_length in *. rewrite Hlen.
      (* at most one chunk per input byte *)
      assert (G : forall fuel b0, (length (chunks7 fuel b0) <= length b0)%nat).
      { induction fuel as [|f IHf]; intros b0; [cbn; lia|]. destruct b0 as [|x r]; [cbn; lia|].
        cbn [chunks7 length]. specialize (IHf (skipn 7 (x :: r))). rewrite skipn_length in IHf. cbn [length] in IHf. lia. }
      specialize (G (length b) b). lia.
    Qed.

    Lemma zeros_length n : length (g_zeros zeroR n) = n.
    Proof. apply repeat_length. Qed.

    Lemma merge_cnt_sim a va b vb : RLg a va -> RLg b vb ->
      RLg (g_merge_cnt newR zeroR SR a b) (merge_cnt p SV va vb).
    Proof.
      intros Ha Hb. unfold g_merge_cnt, merge_cnt, g_merge_state_cnt, merge_state_cnt.
      cbn [sp_cap_idx sp_width sp_perm sp_rate_start SR SV]. apply RLg_digest. apply Hperm.
      - apply RLg_upd; [intros _ _ _; apply Rel_new; lia|]. apply RLg_set_range; [apply Forall2_app; auto | apply RLg_zeros].
      - rewrite upd_length, set_range_length. apply zeros_length.
    Qed.

    Lemma div_range v : 0 <= v < 2 ^ 64 -> 0 <= v / p < 2 ^ 64.
    Proof. intros Hv. split; [apply Z.div_pos; lia|]. apply Z.div_lt_upper_bound; nia. Qed.

    Lemma merge_with_int_cnt_sim seed vseed v : RLg seed vseed -> 0 <= v < 2 ^ 64 ->
      RLg (g_merge_with_int_cnt newR zeroR p SR seed v) (merge_with_int_cnt p SV vseed v).
    Proof.
      intros Hs Hv. unfold g_merge_with_int_cnt, merge_with_int_cnt, g_mwi_state_cnt, mwi_state_cnt.
      cbn [sp_cap_idx sp_width sp_perm sp_rate_start SR SV]. apply RLg_digest.
      assert (B : RLg (upd (rs + 4) (fun _ => newR v) (set_range rs seed (g_zeros zeroR w)))
                      (upd (rs + 4) (fun _ => v mod p) (set_range rs vseed (zeros w)))).
      { apply RLg_upd; [intros _ _ _; apply Rel_new; lia|]. apply RLg_set_range; [auto | apply RLg_zeros]. }
      destruct (v <? p); apply Hperm.
      - apply RLg_upd; [intros _ _ _; apply Rel_new; lia | exact B].
      - rewrite !upd_length, set_range_length. apply zeros_length.
      - apply RLg_upd; [intros _ _ _; apply Rel_new; lia|]. apply RLg_upd; [intros _ _ _; apply Rel_new; apply div_range; exact Hv | exact B].
      - rewrite !upd_length, set_range_length. apply zeros_length.
    Qed.

    Lemma jive_sum_sim i vi f vf : RLg i vi -> RLg f vf -> RLg (g_jive_sum addR zeroR i f) (jive_sum p vi vf).
    Proof.
      intros Hi Hf. unfold g_jive_sum, jive_sum. cbv [map seq].
      repeat constructor; repeat apply Rel_add; apply RLg_nth; assumption.
    Qed.

    Lemma merge_jive_sim a va b vb : RLg a va -> RLg b vb -> length (a ++ b) = w ->
      RLg (g_merge_jive addR zeroR permR a b) (merge_jive p permV va vb).
    Proof.
      intros Ha Hb Hl. unfold g_merge_jive, merge_jive. cbv zeta.
      apply jive_sum_sim; [apply Forall2_app; auto|]. apply Hperm; [apply Forall2_app; auto | exact Hl].
    Qed.

    Lemma merge_with_int_jive_sim seed vseed v : w = 8%nat -> RLg seed vseed -> 0 <= v < 2 ^ 64 ->
      RLg (g_merge_with_int_jive addR newR zeroR p permR seed v) (merge_with_int_jive p permV vseed v).
    Proof.
      intros Hw Hs Hv. unfold g_merge_with_int_jive, merge_with_int_jive. cbv zeta.
      assert (B : RLg (g_mwi_state_jive newR zeroR p seed v) (mwi_state_jive p vseed v) /\ length (g_mwi_state_jive newR zeroR p seed v) = w).
      { unfold g_mwi_state_jive, mwi_state_jive.
        assert (B0 : RLg (upd 4 (fun _ => newR v) (set_range 0 seed (g_zeros zeroR 8))) (upd 4 (fun _ => v mod p) (set_range 0 vseed (zeros 8)))).
        { apply RLg_upd; [intros _ _ _; apply Rel_new; lia|]. apply RLg_set_range; [auto | apply RLg_zeros]. }
        destruct (v <? p); split.
        - apply RLg_upd; [intros _ _ _; apply Rel_new; lia | exact B0].
        - rewrite !upd_length, set_range_length, Hw. apply zeros_length.
        - apply RLg_upd; [intros _ _ _; apply Rel_new; lia|]. apply RLg_upd; [intros _ _ _; apply Rel_new; apply div_range; exact Hv | exact B0].
        - rewrite !upd_length, set_range_length, Hw. apply zeros_length. }
      destruct B as (B1 & B2). apply jive_sum_sim; [exact B1|]. apply Hperm; assumption.
    Qed.
  End Sponge.
End Sim.

(* ================================================================================================ f64 instances *)
Lemma R_add a x b y : R a x -> R b y -> R (f64_add a b) (fadd M64 x y).
Proof. intros (Ha & <-) (Hb & <-). destruct (val_add a b Ha Hb) as (H1 & H2). split; [exact H1 | exact H2]. Qed.
Lemma R_new v : 0 <= v < 2 ^ 64 -> R (f64_new v) (v mod M64).
Proof. intros Hv. destruct (f64_new_spec v Hv) as (H1 & H2). split; [exact H1 | exact H2]. Qed.
Lemma R_zero : R f64_ZERO 0.
Proof. exact (R_new 0 ltac:(lia)). Qed.
Lemma R_one : R f64_ONE (1 mod M64).
Proof. exact (R_new 1 ltac:(lia)). Qed.

Definition RLL (Rel : Z -> Z -> Prop) : list (list Z) -> list (list Z) -> Prop := Forall2 (Forall2 Rel).
Lemma RLL_flatten Rel xs vs : RLL Rel xs vs -> Forall2 Rel (flatten xs) (flatten vs).
Proof. intros H. unfold flatten. induction H as [|x v xs vs Hxv _ IH]; cbn; [constructor|]. apply Forall2_app; assumption. Qed.

Lemma rp64_perm_hyp : forall ws vs, Forall2 R ws vs -> length ws = 12%nat ->
  Forall2 R (rp64_raw_permutation ws) (rp64_permutation vs) /\ length (rp64_raw_permutation ws) = 12%nat.
Proof. intros ws vs H L. apply rp64_raw_permutation_RL; assumption. Qed.
Lemma jive_perm_hyp : forall ws vs, Forall2 R ws vs -> length ws = 8%nat ->
  Forall2 R (jive_raw_permutation ws) (jive_permutation vs) /\ length (jive_raw_permutation ws) = 8%nat.
Proof. intros ws vs H L. apply jive_raw_permutation_RL; assumption. Qed.

(* raw sponge = value sponge through R (canonical internal word + residue), Rp64_256 *)
Definition f64_cnt_sim := hash_elements_cnt_sim M64 f64_add f64_new f64_ZERO R R_add R_new R_zero 12 4 8 0 4 _ _ rp64_perm_hyp.
Theorem rp64_raw_hash_elements_spec : forall xs vs, RLL R xs vs -> Z.of_nat (length (flatten xs)) < 2 ^ 64 ->
  Forall2 R (rp64_raw_hash_elements xs) (rp64_hash_elements vs).
Proof. exact (fun xs vs H => f64_cnt_sim _ _ (RLL_flatten R xs vs H)). Qed.
Theorem rp64_raw_hash_spec : forall b, bytes b -> Z.of_nat (length b) < 2 ^ 64 ->
  exists r v, rp64_raw_hash b = Some r /\ rp64_hash b = Some v /\ Forall2 R r v.
Proof. exact (fun b B L => hash_bytes_sim M64 f64_new R R_new _ _ b B L f64_cnt_sim). Qed.
Theorem rp64_raw_merge_spec : forall a va b vb, Forall2 R a va -> Forall2 R b vb ->
  Forall2 R (rp64_raw_merge a b) (rp64_merge va vb).
Proof. exact (merge_cnt_sim M64 f64_new f64_ZERO R R_new R_zero 12 4 8 0 4 _ _ rp64_perm_hyp). Qed.
Theorem rp64_raw_merge_with_int_spec : forall seed vseed v, Forall2 R seed vseed -> 0 <= v < 2 ^ 64 ->
  Forall2 R (rp64_raw_merge_with_int seed v) (rp64_merge_with_int vseed v).
Proof. exact (merge_with_int_cnt_sim M64 f64_new f64_ZERO R ltac:(unfold M64; lia) R_new R_zero 12 4 8 0 4 _ _ rp64_perm_hyp). Qed.

(* RpJive64_256 *)
Definition f64_jive_sim := hash_elements_jive_sim M64 f64_add f64_ZERO f64_ONE R R_add R_zero R_one 8 4 4 0 4 _ _ jive_perm_hyp.
Theorem jive_raw_hash_elements_spec : forall xs vs, RLL R xs vs ->
  Forall2 R (jive_raw_hash_elements xs) (jive_hash_elements vs).
Proof. exact (fun xs vs H => f64_jive_sim _ _ (RLL_flatten R xs vs H)). Qed.
Theorem jive_raw_hash_spec : forall b, bytes b -> Z.of_nat (length b) < 2 ^ 64 ->
  exists r v, jive_raw_hash b = Some r /\ jive_hash b = Some v /\ Forall2 R r v.
Proof. exact (fun b B L => hash_bytes_sim M64 f64_new R R_new _ _ b B L (fun xs ys Hx _ => f64_jive_sim xs ys Hx)). Qed.
Theorem jive_raw_merge_spec : forall a va b vb, Forall2 R a va -> Forall2 R b vb -> length a = 4%nat -> length b = 4%nat ->
  Forall2 R (jive_raw_merge a b) (jive_merge va vb).
Proof.
  intros a va b vb Ha Hb La Lb. unfold jive_raw_merge, jive_merge.
  apply (merge_jive_sim M64 f64_add f64_ZERO R R_add R_zero 8 _ _ jive_perm_hyp); auto. rewrite app_length, La, Lb. reflexivity.
Qed.
Theorem jive_raw_merge_with_int_spec : forall seed vseed v, Forall2 R seed vseed -> 0 <= v < 2 ^ 64 ->
  Forall2 R (jive_raw_merge_with_int seed v) (jive_merge_with_int vseed v).
Proof. exact (fun seed vseed v => merge_with_int_jive_sim M64 f64_add f64_new f64_ZERO R ltac:(unfold M64; lia) R_add R_new R_zero 8 _ _ jive_perm_hyp seed vseed v eq_refl). Qed.

(* what a digest's bytes are: Digest::as_bytes serialises as_int of each word; under R, as_int = the residue *)
Lemma R_as_int ws vs : Forall2 R ws vs -> map f64_as_int ws = vs /\ Forall (fun w => 0 <= w < M64) ws.
Proof.
  intros H. induction H as [|w v ws vs (Hr & Hv) _ (IH1 & IH2)]; [split; constructor|].
  split.
  - cbn [map]. rewrite f64_as_int_spec by (unfold repr, M in Hr; lia). congruence.
  - constructor; [exact Hr | exact IH2].
Qed.

(* ================================================================================================ f62 instance *)
Definition R62 (w v : Z) : Prop := F62Ops.repr62 w /\ F62Ops.val62 w = v.

Lemma R62_mul a x b y : R62 a x -> R62 b y -> R62 (F62.f62_mul a b) (fmul M62 x y).
Proof. intros (Ha & <-) (Hb & <-). destruct (F62Ops.f62_mul_spec a b Ha Hb) as (H1 & H2). split; [exact H1 | exact H2]. Qed.
Lemma R62_add a x b y : R62 a x -> R62 b y -> R62 (F62.f62_add a b) (fadd M62 x y).
Proof. intros (Ha & <-) (Hb & <-). destruct (F62Ops.f62_add_spec a b Ha Hb) as (H1 & H2). split; [exact H1 | exact H2]. Qed.
Lemma R62_new v : 0 <= v < 2 ^ 64 -> R62 (F62.f62_new v) (v mod M62).
Proof. intros Hv. destruct (F62Ops.f62_new_spec v Hv) as (H1 & H2). split; [exact H1 | exact H2]. Qed.
Lemma R62_zero : R62 F62.f62_ZERO 0.
Proof. exact (R62_new 0 ltac:(lia)). Qed.

Lemma nth_Forall {A} (P : list A -> Prop) (t : list (list A)) r : P [] -> Forall P t -> P (nth r t []).
Proof. intros H0 H. destruct (nth_in_or_default r t []) as [Hin| ->]; [|exact H0]. rewrite Forall_forall in H. auto. Qed.

Lemma rp62_tables : Forall (Forall (canon M62)) rp62_MDS /\ (forall r, Forall (canon M62) (nth r rp62_ARK1 [])) /\
  (forall r, Forall (canon M62) (nth r rp62_ARK2 [])).
Proof.
  destruct tables_wellformed as (_ & _ & _ & _ & Hm & H1 & H2 & _).
  destruct (table_ok_canon _ _ _ _ Hm) as (Cm & _). destruct (table_ok_canon _ _ _ _ H1) as (C1 & _). destruct (table_ok_canon _ _ _ _ H2) as (C2 & _).
  repeat split; [exact Cm | |]; intros r; apply nth_Forall; auto.
Qed.

(* lengths through the value-level round (both sides have the same length under Forall2) *)
Lemma apply_round_length p P s r n : length (rp_mds P) = n -> length (nth r (rp_ark2 P) []) = n -> length (apply_round p P s r) = n.
Proof.
  intros Hm Ha. unfold apply_round. cbv zeta. unfold add_constants at 1. rewrite map_length, combine_length.
  unfold mat_vec at 1. rewrite map_length, Hm, Ha. apply Nat.min_id.
Qed.

Lemma rp62_perm_hyp : forall ws vs, Forall2 R62 ws vs -> length ws = 12%nat ->
  Forall2 R62 (rp62_raw_permutation ws) (rp62_permutation vs) /\ length (rp62_raw_permutation ws) = 12%nat.
Proof.
  intros ws vs H L. destruct rp62_tables as (Cm & C1 & C2).
  assert (G : Forall2 R62 (rp62_raw_permutation ws) (rp62_permutation vs)).
  { unfold rp62_raw_permutation, rp62_permutation, rp62_params.
    apply (RLg_permutation62 M62 F62.f62_mul F62.f62_add F62.f62_new F62.f62_ZERO R62 ltac:(unfold M62; lia) ltac:(unfold M62; lia)
             R62_mul R62_add R62_new R62_zero rp62_MDS rp62_ARK1 rp62_ARK2 Cm C1 C2). exact H. }
  split; [exact G|]. rewrite (RLg_length R62 _ _ G).
  (* length of the value-level permutation output: the last round ends with add_constants over 12-wide tables *)
  unfold rp62_permutation, apply_permutation. change (seq 0 7) with ([0; 1; 2; 3; 4; 5] ++ [6])%nat.
  rewrite fold_left_app. cbn [fold_left]. apply apply_round_length; reflexivity.
Qed.

Theorem rp62_raw_permutation_spec : forall ws, length ws = 12%nat -> Forall F62Ops.repr62 ws ->
  Forall F62Ops.repr62 (rp62_raw_permutation ws) /\ map F62Ops.val62 (rp62_raw_permutation ws) = rp62_permutation (map F62Ops.val62 ws).
Proof.
  intros ws L Hr.
  assert (H0 : Forall2 R62 ws (map F62Ops.val62 ws)).
  { clear L. induction Hr; cbn; [constructor|]. constructor; [split; auto | auto]. }
  destruct (rp62_perm_hyp _ _ H0 L) as (H & _). clear H0.
  split; induction H as [|w v ws' vs' (A & B) _ IH]; cbn; try constructor; auto; try congruence.
Qed.

Definition f62_cnt_sim :=
  hash_elements_cnt_sim M62 F62.f62_add F62.f62_new F62.f62_ZERO R62 R62_add R62_new R62_zero 12 0 8 11 0 _ _ rp62_perm_hyp.
Theorem rp62_raw_hash_elements_spec : forall xs vs, RLL R62 xs vs -> Z.of_nat (length (flatten xs)) < 2 ^ 64 ->
  Forall2 R62 (rp62_raw_hash_elements xs) (rp62_hash_elements vs).
Proof. exact (fun xs vs H => f62_cnt_sim _ _ (RLL_flatten R62 xs vs H)). Qed.
Theorem rp62_raw_hash_spec : forall b, bytes b -> Z.of_nat (length b) < 2 ^ 64 ->
  exists r v, rp62_raw_hash b = Some r /\ rp62_hash b = Some v /\ Forall2 R62 r v.
Proof. exact (fun b B L => hash_bytes_sim M62 F62.f62_new R62 R62_new _ _ b B L f62_cnt_sim). Qed.
Theorem rp62_raw_merge_spec : forall a va b vb, Forall2 R62 a va -> Forall2 R62 b vb ->
  Forall2 R62 (rp62_raw_merge a b) (rp62_merge va vb).
Proof. exact (merge_cnt_sim M62 F62.f62_new F62.f62_ZERO R62 R62_new R62_zero 12 0 8 11 0 _ _ rp62_perm_hyp). Qed.
Theorem rp62_raw_merge_with_int_spec : forall seed vseed v, Forall2 R62 seed vseed -> 0 <= v < 2 ^ 64 ->
  Forall2 R62 (rp62_raw_merge_with_int seed v) (rp62_merge_with_int vseed v).
Proof. exact (merge_with_int_cnt_sim M62 F62.f62_new F62.f62_ZERO R62 ltac:(unfold M62; lia) R62_new R62_zero 12 0 8 11 0 _ _ rp62_perm_hyp). Qed.

(* f62 digests: the internal words are only in [0, 2M) (two words per residue); Digest::as_bytes and `==` go through
   as_int / normalisation: as_int of the raw digest words = the value-level digest, canonical *)
Lemma R62_as_int ws vs : Forall2 R62 ws vs -> map F62.f62_as_int ws = vs /\ Forall (fun v => 0 <= v < M62) vs.
Proof.
  intros H. induction H as [|w v ws vs (Hr & Hv) _ (IH1 & IH2)]; [split; constructor|].
  split.
  - cbn [map]. rewrite (F62Ops.f62_as_int_spec w Hr). congruence.
  - constructor; [rewrite <- Hv; apply F62Ops.val62_range | exact IH2].
Qed.

Lemma ex_R62_nonvacuous : R62 0 0 /\ R62 M62 0 /\ Forall2 R62 [1; M62 + 1] [F62Ops.val62 1; F62Ops.val62 1].
Proof.
  assert (H := F62Ops.val62_two_words). destruct H as (E & _).
  repeat split; try (unfold F62Ops.repr62, F62Ops.M62, M62; lia); try reflexivity.
  constructor; [split; [unfold F62Ops.repr62, F62Ops.M62; lia | reflexivity]|].
  constructor; [split; [unfold F62Ops.repr62, F62Ops.M62, M62; lia | symmetry; exact E]|constructor].
Qed.
