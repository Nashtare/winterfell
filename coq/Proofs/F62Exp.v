(* f62 exponentiation (square-and-multiply over the bits of a u64 exponent, generated term
   f62_exp of Gen/F62.v) equals the integer power modulo M for every exponent. *)
From Coq Require Import ZArith Lia Bool List.
From VBase Require Import MachInt.
From VGen Require Import F62.
From VProofs Require WhileLoop.
From VProofs Require Import MachIntFacts F62Ops.
Open Scope Z_scope.

(* r represents a^e *)
Definition is_pow62 (a r e : Z) : Prop := repr62 r /\ val62 r = (val62 a ^ e) mod M62.

Lemma is_pow62_mul a r1 r2 e1 e2 : 0 <= e1 -> 0 <= e2 ->
  is_pow62 a r1 e1 -> is_pow62 a r2 e2 -> is_pow62 a (f62_mul r1 r2) (e1 + e2).
Proof.
  intros H1 H2 [R1 V1] [R2 V2]. destruct (f62_mul_spec r1 r2 R1 R2) as [R V].
  split; [exact R|]. rewrite V, V1, V2, Z.pow_add_r by assumption.
  rewrite <- Z.mul_mod by (unfold M62; lia). reflexivity.
Qed.

Lemma mod_pow2_succ p i : 0 <= i -> p mod 2 ^ (i + 1) = p mod 2 ^ i + 2 ^ i * ((p / 2 ^ i) mod 2).
Proof.
  intros Hi. rewrite Z.pow_add_r, Z.pow_1_r by lia.
  apply Z.rem_mul_r; [apply Z.pow_nonzero; lia|lia].
Qed.

Theorem f62_exp_spec a p : repr62 a -> 0 <= p < 2^64 ->
  repr62 (f62_exp a p) /\ val62 (f62_exp a p) = (val62 a ^ p) mod M62.
Proof.
  intros Ha Hp. change (is_pow62 a (f62_exp a p) p). unfold f62_exp. cbv zeta.
  assert (P0 : is_pow62 a f62_ONE 0) by (split; [exact repr62_ONE|rewrite val62_ONE; reflexivity]).
  destruct (Z.eqb_spec p 0) as [->|Hp0]; [exact P0|].
  rewrite f62_eq_spec by (exact Ha || exact repr62_ZERO). rewrite val62_ZERO.
  destruct (Z.eqb_spec (val62 a) 0) as [Hz|Hnz].
  { split; [exact repr62_ZERO|]. rewrite val62_ZERO, Hz, Z.pow_0_l by lia. reflexivity. }
  assert (P1 : is_pow62 a a 1).
  { split; [exact Ha|]. rewrite Z.pow_1_r. symmetry. apply Z.mod_small, val62_range. }
  (* the loop bound *)
  assert (Hlog : 0 <= Z.log2 p < 64).
  { split; [apply Z.log2_nonneg|]. apply Z.log2_lt_pow2; lia. }
  assert (Hhi : wrap 32 (64 - clz 64 p) = Z.log2 p + 1).
  { unfold clz. destruct (Z.leb_spec p 0) as [H|H]; [lia|].
    replace (64 - (64 - (Z.log2 p + 1))) with (Z.log2 p + 1) by ring.
    apply wrap_small. lia. }
  rewrite Hhi. set (L := for_up 1 _ _ _).
  (* before the iteration that looks at bit i, b = a^(2^(i-1)) and r = a^(the i low bits of p) *)
  pose (P := fun (i : Z) '(b, r) => is_pow62 a b (2 ^ (i - 1)) /\ is_pow62 a r (p mod 2 ^ i)).
  assert (HP : P (Z.log2 p + 1) L).
  { apply WhileLoop.for_up_ind; [lia| |].
    - split; [exact P1|]. rewrite land1. change (2 ^ 1) with 2.
      destruct (mod2_cases p) as [Hm|Hm]; rewrite Hm; [exact P0|exact P1].
    - intros i [b r] Hi [Hb Hr]. unfold P. cbv beta iota zeta.
      assert (E : 2 ^ i = 2 ^ (i - 1) + 2 ^ (i - 1)).
      { replace i with (i - 1 + 1) at 1 by ring. rewrite p2_succ by lia. ring. }
      assert (Hb2 : is_pow62 a (f62_mul b b) (2 ^ i)).
      { rewrite E. apply is_pow62_mul; (assumption || apply Z.pow_nonneg; lia). }
      split; [replace (i + 1 - 1) with i by ring; exact Hb2|].
      rewrite land1. unfold shr. rewrite (mod_pow2_succ p i) by lia.
      destruct (mod2_cases (p / 2 ^ i)) as [Hm|Hm]; rewrite Hm; cbn [Z.eqb Pos.eqb].
      + rewrite Z.mul_0_r, Z.add_0_r. exact Hr.
      + rewrite Z.mul_1_r.
        apply is_pow62_mul; [apply Z.mod_pos_bound, p2_pos; lia|apply Z.pow_nonneg; lia|exact Hr|exact Hb2]. }
  destruct L as [b r]. destruct HP as [_ Hr].
  rewrite Z.mod_small in Hr; [exact Hr|]. split; [lia|].
  replace (Z.log2 p + 1) with (Z.succ (Z.log2 p)) by lia. apply Z.log2_spec. lia.
Qed.
