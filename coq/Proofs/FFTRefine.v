(* C09 stage (c), structural half: the faithful index-level `fft_in_place` (both strategies of the
   `stride == count && count < MAX_LOOP` switch, every count/stride/offset) computes, on every stride-`stride`
   subsequence starting at j in [offset, offset+count), the list-level bit-reversed FFT `brfft`, and leaves every
   other position untouched.  No field law is used here: the refinement is purely about indices. *)
From Coq Require Import List Arith Bool ZArith Lia.
From VBase Require Import FieldOps.
From VModel Require Import FFT.
From VProofs Require Import ListFacts Pow2Facts FFTSpec.
Import ListNotations.

Definition in_rng (a n p : nat) : bool := (a <=? p) && (p <? a + n).

Lemma in_rng_spec a n p : in_rng a n p = true <-> a <= p < a + n.
Proof.
  unfold in_rng. rewrite andb_true_iff, Nat.leb_le, Nat.ltb_lt. tauto.
Qed.

Lemma in_rng_reflect a n p : reflect (a <= p < a + n) (in_rng a n p).
Proof. apply iff_reflect. symmetry. apply in_rng_spec. Qed.

(* decide every interval test `in_rng a n p` of the goal, dropping the cases that contradict the context *)
Ltac case_rng :=
  repeat match goal with
  | |- context [in_rng ?a ?n ?p] => destruct (in_rng_reflect a n p); try lia; cbv iota
  end.

Section Refine.
Context {F : Type} (O : FOps F).
Local Notation fz := (fzero O).
Local Infix "+f" := (fadd O) (at level 50, left associativity).
Local Infix "-f" := (fsub O) (at level 50, left associativity).
Local Infix "*f" := (fmul O) (at level 40, left associativity).
Local Notation vget := (vget O).

Variable tw : list F.

(* the factor applied to the odd half in pair i: none at i = 0 (plain butterfly), twiddles[i] otherwise *)
Definition tmul (i : nat) (y : F) : F := if i =? 0 then y else y *f vget tw i.

Definition bfly (i : nat) (v : list F) (a s : nat) : list F :=
  if i =? 0 then butterfly O v a s else butterfly_twiddle O v (vget tw i) a s.

Lemma bfly_length i v a s : length (bfly i v a s) = length v.
Proof.
  unfold bfly, butterfly, butterfly_twiddle. destruct (i =? 0); rewrite !lupd_length; reflexivity.
Qed.

Lemma bfly_nth i v a s p : 0 < s -> a + s < length v ->
  nth p (bfly i v a s) fz =
    if p =? a then nth a v fz +f tmul i (nth (a + s) v fz)
    else if p =? a + s then nth a v fz -f tmul i (nth (a + s) v fz)
    else nth p v fz.
Proof.
  intros Hs Hl. unfold bfly, tmul, butterfly, butterfly_twiddle, FFT.vget.
  destruct (i =? 0); rewrite !nth_lupd, !lupd_length;
    repeat match goal with
    | |- context [?x =? ?y] => destruct (Nat.eqb_spec x y); try lia
    | |- context [?x <? ?y] => destruct (Nat.ltb_spec x y); try lia
    end; cbn [andb]; subst; reflexivity.
Qed.

(* ---------------------------------------------------------------- inner loop: for j in off..off+count *)
Definition inner (i : nat) (v : list F) (off s count : nat) : list F :=
  fold_left (fun v j => bfly i v j s) (seq off count) v.

Lemma inner_spec i s off : forall count v,
  0 < s -> count <= s -> off + s + count <= length v ->
  length (inner i v off s count) = length v /\
  forall p, nth p (inner i v off s count) fz =
    if in_rng off count p then nth p v fz +f tmul i (nth (p + s) v fz)
    else if in_rng (off + s) count p then nth (p - s) v fz -f tmul i (nth p v fz)
    else nth p v fz.
Proof.
  induction count as [|c IH]; intros v Hs Hc Hl.
  - split; [reflexivity|]. intros p. case_rng. reflexivity.
  - unfold inner. rewrite seq_S, fold_left_app. cbn [fold_left].
    fold (inner i v off s c).
    destruct (IH v Hs ltac:(lia) ltac:(lia)) as [IHl IHn].
    split; [rewrite bfly_length; exact IHl|].
    intros p. rewrite bfly_nth by (rewrite ?IHl; lia).
    rewrite !IHn.
    (* the butterfly reads and writes off+c and off+c+s, which the first c steps left alone;
       any other p is in an interval of length S c iff it is in the one of length c *)
    destruct (Nat.eqb_spec p (off + c)) as [->|Hp1]; [|destruct (Nat.eqb_spec p (off + c + s)) as [->|Hp2]].
    + case_rng. reflexivity.
    + case_rng. replace (off + c + s - s) with (off + c) by lia. reflexivity.
    + case_rng; reflexivity.
Qed.

(* ---------------------------------------------------------------- outer loop: blocks i = 0 .. m-1 of width 2*stride *)
Definition outer (v : list F) (offset s count m : nat) : list F :=
  fold_left (fun v i => inner i v (offset + i * (2 * s)) s count) (seq 0 m) v.

Lemma outer_spec offset s count M : forall m v,
  0 < s -> offset + count <= s -> length v = (2 * s) * M -> m <= M ->
  length (outer v offset s count m) = length v /\
  (forall p, (2 * s) * m <= p -> nth p (outer v offset s count m) fz = nth p v fz) /\
  (forall i j, i < m -> j < s ->
     nth (j + (2 * s) * i) (outer v offset s count m) fz =
       (if in_rng offset count j
        then nth (j + (2 * s) * i) v fz +f tmul i (nth (j + (2 * s) * i + s) v fz)
        else nth (j + (2 * s) * i) v fz) /\
     nth (j + (2 * s) * i + s) (outer v offset s count m) fz =
       (if in_rng offset count j
        then nth (j + (2 * s) * i) v fz -f tmul i (nth (j + (2 * s) * i + s) v fz)
        else nth (j + (2 * s) * i + s) v fz)).
Proof.
  induction m as [|m IH]; intros v Hs Hoc Hl Hm.
  - cbn. split; [reflexivity|]. split; [reflexivity|]. intros; lia.
  - unfold outer. rewrite seq_S, fold_left_app. cbn [fold_left Nat.add].
    fold (outer v offset s count m).
    destruct (IH v Hs Hoc Hl ltac:(lia)) as (IHl & IHhi & IHlo).
    set (v' := outer v offset s count m) in *.
    set (D := 2 * s) in *.
    assert (HDm : D * m + D <= D * M).
    { replace (D * m + D) with (D * S m) by lia. apply Nat.mul_le_mono_l. lia. }
    replace (m * D) with (D * m) by lia.
    destruct (inner_spec m s (offset + D * m) count v' Hs ltac:(lia) ltac:(rewrite IHl, Hl; lia)) as [Il In].
    split; [rewrite Il; exact IHl|].
    split.
    + (* at or above block m+1 the new inner loop does nothing *)
      intros p Hp. rewrite In. case_rng. apply IHhi. lia.
    + intros i j Hi Hj.
      assert (Hi' : i < m \/ i = m) by lia. destruct Hi' as [Hi'| ->].
      * (* an earlier block ends at or before D * m, below both intervals of the new inner loop *)
        assert (HDi : D * i + D <= D * m).
        { replace (D * i + D) with (D * S i) by lia. apply Nat.mul_le_mono_l. lia. }
        assert (Low : forall p, p < D * m -> nth p (inner m v' (offset + D * m) s count) fz = nth p v' fz).
        { intros p Hp. rewrite In. case_rng. reflexivity. }
        rewrite !Low by lia. apply IHlo; assumption.
      * (* block m still holds v; j + D*m is in the lower interval, and j + D*m + s in the upper one,
           exactly when j is in [offset, offset+count) *)
        rewrite !In.
        replace (j + D * m + s - s) with (j + D * m) by lia.
        rewrite !(IHhi (j + D * m)), !(IHhi (j + D * m + s)) by lia.
        case_rng; split; reflexivity.
Qed.

(* ---------------------------------------------------------------- list-level bit-reversed FFT with the code's formulas *)
Fixpoint bf_list (c : nat) (E Od : list F) : list F :=
  match E, Od with
  | e :: E', o :: O' => (e +f tmul c o) :: (e -f tmul c o) :: bf_list (S c) E' O'
  | _, _ => []
  end.

Fixpoint brfft (k : nat) (l : list F) : list F :=
  match k with
  | 0 => l
  | S k' => bf_list 0 (brfft k' (fst (split_eo l))) (brfft k' (snd (split_eo l)))
  end.

Lemma bf_list_length : forall E Od c, length E = length Od -> length (bf_list c E Od) = 2 * length E.
Proof.
  induction E as [|e E IH]; destruct Od; cbn [bf_list length]; intros; try lia.
  rewrite (IH Od (S c)) by lia. lia.
Qed.

Lemma bf_list_nth : forall E Od c i, length E = length Od -> i < length E ->
  nth (2 * i) (bf_list c E Od) fz = nth i E fz +f tmul (c + i) (nth i Od fz) /\
  nth (2 * i + 1) (bf_list c E Od) fz = nth i E fz -f tmul (c + i) (nth i Od fz).
Proof.
  induction E as [|e E IH]; destruct Od as [|o Od]; cbn [length]; intros c i Hl Hi; try lia.
  destruct i as [|i].
  - cbn. rewrite Nat.add_0_r. auto.
  - replace (2 * S i) with (S (S (2 * i))) by lia.
    replace (S (S (2 * i)) + 1) with (S (S (2 * i + 1))) by lia.
    cbn [bf_list nth]. replace (c + S i) with (S c + i) by lia.
    apply IH; lia.
Qed.

Lemma brfft_length : forall k l, length l = 2 ^ k -> length (brfft k l) = 2 ^ k.
Proof.
  induction k as [|k IH]; intros l Hl; [exact Hl|].
  cbn [brfft]. destruct (split_eo_pow2 k l Hl) as [He Ho].
  rewrite bf_list_length by (rewrite !IH; auto).
  rewrite IH by exact He. cbn. lia.
Qed.

(* strided subsequence *)
Definition sub (v : list F) (j s m : nat) : list F := map (fun q => nth (j + s * q) v fz) (seq 0 m).

Lemma sub_length v j s m : length (sub v j s m) = m.
Proof. unfold sub. rewrite map_length, seq_length. reflexivity. Qed.

Lemma sub_nth v j s m q : q < m -> nth q (sub v j s m) fz = nth (j + s * q) v fz.
Proof. exact (nth_map_seq (fun q => nth (j + s * q) v fz) m q fz). Qed.

Lemma split_eo_sub v j s m :
  fst (split_eo (sub v j s (2 * m))) = sub v j (2 * s) m /\
  snd (split_eo (sub v j s (2 * m))) = sub v (j + s) (2 * s) m.
Proof.
  destruct (split_eo_length m (sub v j s (2 * m))) as [He Ho]; [apply sub_length|].
  split; apply nth_ext with (d := fz) (d' := fz); rewrite ?He, ?Ho, ?sub_length; auto; intros i Hi.
  - destruct (split_eo_nth fz (sub v j s (2 * m)) i) as [H1 _]. rewrite H1.
    rewrite !sub_nth by lia. f_equal. lia.
  - destruct (split_eo_nth fz (sub v j s (2 * m)) i) as [_ H2]. rewrite H2.
    rewrite !sub_nth by lia. f_equal. lia.
Qed.

(* postcondition of a call with stride s: every subsequence j in [offset, offset+count) transformed, rest untouched *)
Definition post (K : nat) (v v' : list F) (offset count s : nat) : Prop :=
  length v' = length v /\
  forall j q, j < s -> q < 2 ^ K ->
    nth (j + s * q) v' fz =
      if in_rng offset count j then nth q (brfft K (sub v j s (2 ^ K))) fz else nth (j + s * q) v fz.

(* state after the recursive call(s): stride 2s, the even (j) and odd (j+s) subsequences are transformed *)
Definition post1 (K : nat) (v v1 : list F) (offset count s : nat) : Prop :=
  length v1 = length v /\
  forall j q, j < 2 * s -> q < 2 ^ K ->
    nth (j + (2 * s) * q) v1 fz =
      if in_rng offset count j || in_rng (offset + s) count j
      then nth q (brfft K (sub v j (2 * s) (2 ^ K))) fz else nth (j + (2 * s) * q) v fz.

Lemma phase2 K v v1 offset count s :
  0 < s -> offset + count <= s -> length v = 2 ^ S K * s ->
  post1 K v v1 offset count s ->
  post (S K) v (outer v1 offset s count (2 ^ K)) offset count s.
Proof.
  intros Hs Hoc Hl [L1 N1].
  assert (Hl1 : length v1 = (2 * s) * 2 ^ K) by (rewrite L1, Hl, pow2_S; lia).
  destruct (outer_spec offset s count (2 ^ K) (2 ^ K) v1 Hs Hoc Hl1 (le_n _)) as (Lo & _ & No).
  split; [rewrite Lo; exact L1|].
  intros j q Hj Hq.
  (* outputs 2i and 2i+1 of subsequence j sit at j + 2s*i and j + 2s*i + s: butterfly i of the last layer, fed by
     output i of the transforms of the even (j) and odd (j+s) subsequences of stride 2s *)
  assert (P : forall i, i < 2 ^ K ->
    nth (j + (2 * s) * i) (outer v1 offset s count (2 ^ K)) fz =
      (if in_rng offset count j then nth (2 * i) (brfft (S K) (sub v j s (2 ^ S K))) fz
       else nth (j + (2 * s) * i) v fz) /\
    nth (j + (2 * s) * i + s) (outer v1 offset s count (2 ^ K)) fz =
      (if in_rng offset count j then nth (2 * i + 1) (brfft (S K) (sub v j s (2 ^ S K))) fz
       else nth (j + (2 * s) * i + s) v fz)).
  { intros i Hi. destruct (No i j Hi Hj) as [Na Nb]. rewrite Na, Nb.
    replace (j + (2 * s) * i + s) with ((j + s) + (2 * s) * i) by lia.
    rewrite (N1 j i), (N1 (j + s) i) by lia.
    (* as j < s, the tests at offset+s on j and at offset on j+s fail, and the one at offset+s on j+s agrees with
       the one at offset on j *)
    case_rng; cbn [orb]; [|split; reflexivity].
    assert (Hsub := split_eo_sub v j s (2 ^ K)).
    change (2 * 2 ^ K) with (2 ^ S K) in Hsub. destruct Hsub as [Hse Hso].
    cbn [brfft]. rewrite Hse, Hso.
    assert (Hlen : forall j', length (brfft K (sub v j' (2 * s) (2 ^ K))) = 2 ^ K)
      by (intros; apply brfft_length, sub_length).
    destruct (bf_list_nth _ _ 0 i (eq_trans (Hlen j) (eq_sym (Hlen (j + s)))) ltac:(rewrite Hlen; exact Hi))
      as [Be Bo].
    rewrite Be, Bo. split; reflexivity. }
  rewrite pow2_S in Hq.
  destruct (Nat.Even_or_Odd q) as [[i ->]|[i ->]].
  - replace (j + s * (2 * i)) with (j + (2 * s) * i) by lia. apply P. lia.
  - replace (j + s * (2 * i + 1)) with (j + (2 * s) * i + s) by lia. apply P. lia.
Qed.

(* the two loops of the code are `outer` *)
Lemma phase2_code v1 offset s count n : 0 < n ->
  fold_left
    (fun v i => fold_left (fun v j => butterfly_twiddle O v (vget tw i) j s)
                          (seq (offset + i * (2 * s)) count) v)
    (seq 1 (n - 1))
    (fold_left (fun v o => butterfly O v o s) (seq offset count) v1)
  = outer v1 offset s count n.
Proof.
  intros Hn. unfold outer. destruct n as [|n]; [lia|].
  replace (S n - 1) with n by lia. cbn [seq fold_left].
  assert (HA : fold_left (fun v o => butterfly O v o s) (seq offset count) v1
               = inner 0 v1 (offset + 0 * (2 * s)) s count).
  { unfold inner, bfly. rewrite Nat.mul_0_l, Nat.add_0_r. reflexivity. }
  rewrite HA. apply fold_left_ext_in. intros a i Hi. apply in_seq in Hi.
  unfold inner. apply fold_left_ext_in. intros a' j _. unfold bfly.
  destruct (Nat.eqb_spec i 0); [lia | reflexivity].
Qed.

Lemma fft_in_place_eq fuel v count s offset :
  fft_in_place O fuel v tw count s offset =
    let size := length v / s in
    let v1 :=
      if 2 <? size then
        match fuel with
        | 0 => v
        | S f => if (s =? count) && (count <? MAX_LOOP)
                 then fft_in_place O f v tw (2 * count) (2 * s) offset
                 else fft_in_place O f (fft_in_place O f v tw count (2 * s) offset) tw count (2 * s) (offset + s)
        end
      else v in
    fold_left
      (fun v i => fold_left (fun v j => butterfly_twiddle O v (vget tw i) j s)
                            (seq (offset + i * (2 * s)) count) v)
      (seq 1 ((size + 1) / 2 - 1))
      (fold_left (fun v o => butterfly O v o s) (seq offset count) v1).
Proof. destruct fuel; reflexivity. Qed.

(* ---------------------------------------------------------------- (c) the invariant of fft_in_place, every K *)
Theorem fft_in_place_spec : forall K fuel v count s offset,
  K <= fuel -> 0 < s -> length v = 2 ^ S K * s -> offset + count <= s ->
  post (S K) v (fft_in_place O fuel v tw count s offset) offset count s.
Proof.
  induction K as [|K IH]; intros fuel v count s offset Hf Hs Hl Hoc;
    rewrite fft_in_place_eq; cbv zeta; rewrite Hl, Nat.div_mul by lia; rewrite half_pow2_up, phase2_code by apply pow2_pos.
  - change (2 <? 2 ^ 1) with false. cbv iota.
    apply phase2; auto. split; [reflexivity|].
    intros j q Hj Hq. cbn in Hq. assert (q = 0) by lia. subst q.
    destruct (in_rng offset count j || in_rng (offset + s) count j); [|reflexivity].
    cbn [brfft]. rewrite sub_nth by (cbn; lia). reflexivity.
  - assert (H2 : 2 <? 2 ^ S (S K) = true).
    { apply Nat.ltb_lt. pose proof (pow2_pos K). cbn. lia. }
    rewrite H2. destruct fuel as [|f]; [lia|].
    assert (Hl2 : length v = 2 ^ S K * (2 * s)) by (rewrite Hl, (pow2_S (S K)); lia).
    apply phase2; auto.
    destruct ((s =? count) && (count <? MAX_LOOP)) eqn:Estr.
    + (* first strategy: one call on 2*count interleaved sub-transforms *)
      apply andb_prop in Estr. destruct Estr as [Esc _]. apply Nat.eqb_eq in Esc. subst count.
      assert (offset = 0) by lia. subst offset.
      destruct (IH f v (2 * s) (2 * s) 0 ltac:(lia) ltac:(lia) Hl2 ltac:(lia)) as [La Na].
      split; [exact La|]. intros j q Hj Hq. rewrite (Na j q Hj Hq).
      (* [0, 2s) is [0, s) followed by [s, 2s) *)
      case_rng; reflexivity.
    + (* second strategy: two calls, offsets offset and offset + stride *)
      destruct (IH f v count (2 * s) offset ltac:(lia) ltac:(lia) Hl2 ltac:(lia)) as [La Na].
      set (va := fft_in_place O f v tw count (2 * s) offset) in *.
      destruct (IH f va count (2 * s) (offset + s) ltac:(lia) ltac:(lia) ltac:(rewrite La; exact Hl2) ltac:(lia))
        as [Lb Nb].
      split; [rewrite Lb; exact La|]. intros j q Hj Hq. rewrite (Nb j q Hj Hq).
      destruct (in_rng_reflect (offset + s) count j) as [E2|E2].
      * (* j is outside [offset, offset+count), so the first call left subsequence j as it was *)
        assert (Ea : sub va j (2 * s) (2 ^ S K) = sub v j (2 * s) (2 ^ S K)).
        { unfold sub. apply map_ext_in. intros q' Hq'. apply in_seq in Hq'.
          rewrite (Na j q') by lia. case_rng. reflexivity. }
        rewrite Ea. case_rng. reflexivity.
      * rewrite orb_false_r. apply Na; assumption.
Qed.

Lemma sub_whole v n : length v = n -> sub v 0 1 n = v.
Proof.
  intros Hn. apply nth_ext with (d := fz) (d' := fz); [rewrite sub_length; auto|].
  rewrite sub_length. intros i Hi. rewrite sub_nth by exact Hi. f_equal. lia.
Qed.

(* FftInputs::fft_in_place(values, twiddles) = the list-level bit-reversed FFT, every K *)
Theorem fft_in_place_top_brfft : forall K v, length v = 2 ^ S K -> fft_in_place_top O v tw = brfft (S K) v.
Proof.
  intros K v Hl. unfold fft_in_place_top.
  assert (HK : K <= length v).
  { rewrite Hl. pose proof (Nat.pow_gt_lin_r 2 (S K)). lia. }
  destruct (fft_in_place_spec K (length v) v 1 1 0 HK ltac:(lia) ltac:(lia) ltac:(lia)) as [L N].
  apply nth_ext with (d := fz) (d' := fz).
  - rewrite L, brfft_length; auto.
  - rewrite L. intros q Hq. rewrite Hl in Hq. specialize (N 0 q ltac:(lia) Hq).
    replace (0 + 1 * q) with q in N by lia. rewrite N.
    assert (E : in_rng 0 1 0 = true) by reflexivity. rewrite E, sub_whole by exact Hl. reflexivity.
Qed.

Lemma fft_in_place_top_length K v : length v = 2 ^ S K -> length (fft_in_place_top O v tw) = 2 ^ S K.
Proof. intros Hl. rewrite (fft_in_place_top_brfft K v Hl). apply brfft_length, Hl. Qed.

End Refine.
