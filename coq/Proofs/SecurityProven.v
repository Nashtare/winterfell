(* C18: the proven security estimate is non-decreasing in queries / grinding / extension degree / collision
   resistance, for ANY float type whose operations are monotone in the arguments listed below (Section
   hypotheses; they become explicit premises of the theorems once the Section is closed).  Order-theoretic proof
   through the saturating casts, min, `x - 1 or 0`, and the max_by_key over the proximity parameter m. *)
From VBase Require Import MachInt.
From VGen Require Import Security.
From VModel Require Import SecurityModel.
Open Scope Z_scope.

Section ProvenMono.
  Variable F : Type.
  Variables fadd fsub fmul fdiv fpow : F -> F -> F.
  Variables fneg fsqrt fceil flog2 : F -> F.
  Variable of_Z : Z -> F.
  Variable to_u64 : F -> Z.
  Variables c_half c_quarter c_1_5 : F.

  Variable fle : F -> F -> Prop.          (* the order on floats *)
  Variable unit_base : F -> Prop.         (* "0 < b <= 1": the bases for which b^x does not grow with x *)

  Hypothesis fle_refl : forall x, fle x x.
  (* u32/u64/usize -> f64 conversion is monotone *)
  Hypothesis of_Z_mono : forall a b, a <= b -> fle (of_Z a) (of_Z b).
  (* the saturating cast `as u64` is monotone *)
  Hypothesis to_u64_mono : forall x y, fle x y -> to_u64 x <= to_u64 y.
  (* x - c is monotone in x, antitone in c;  c + x is monotone in x *)
  Hypothesis fsub_mono_l : forall a a' c, fle a a' -> fle (fsub a c) (fsub a' c).
  Hypothesis fsub_anti_r : forall a c c', fle c c' -> fle (fsub a c') (fsub a c).
  Hypothesis fadd_mono_r : forall a c c', fle c c' -> fle (fadd a c) (fadd a c').
  (* for a base b in the unit range, q |-> log2 (b ^ q) is antitone over the integer exponents the code can use
     (num_queries is 1..255): this is log2 monotone + b^x antitone in x, stated exactly on the range where it is used
     (and checked exhaustively on binary64 for every reachable base by checks/c18.py) *)
  Hypothesis query_chain_anti : forall b q q', unit_base b -> 1 <= q -> q <= q' -> q' <= 255 ->
    fle (flog2 (fpow b (of_Z q'))) (flog2 (fpow b (of_Z q))).

  Local Notation psm_core := (psm_core F fadd fsub fmul fdiv fpow fneg fsqrt fceil flog2 of_Z to_u64 c_half c_1_5).
  Local Notation psm := (proven_security_protocol_for_m F fadd fsub fmul fdiv fpow fneg fsqrt fceil flog2 of_Z to_u64 c_half c_1_5).
  Local Notation query_base := (psm_query_base F fadd fsub fmul fdiv fsqrt fceil of_Z c_half).
  Local Notation upper_m := (compute_upper_m F fadd fmul fdiv fsqrt fceil of_Z to_u64 c_quarter).
  Local Notation gps := (get_proven_security F fadd fsub fmul fdiv fpow fneg fsqrt fceil flog2 of_Z to_u64 c_half c_quarter c_1_5).

  Lemma dec_or_zero_mono x y : x <= y -> dec_or_zero x <= dec_or_zero y.
  Proof. unfold dec_or_zero. intros H. destruct (Z.ltb_spec x 1), (Z.ltb_spec y 1); lia. Qed.

  Lemma dec_or_zero_nonneg x : 0 <= dec_or_zero x.
  Proof. unfold dec_or_zero. destruct (Z.ltb_spec x 1); lia. Qed.

  Lemma int_shape_mono a1 a2 a3 a4 b1 b2 b3 b4 :
    a1 <= b1 -> a2 <= b2 -> a3 <= b3 -> a4 <= b4 ->
    (if Z.min a1 a2 <? 1 then 0 else dec_or_zero (Z.min (Z.min (Z.min a1 a2 - 1) a3) a4)) <=
    (if Z.min b1 b2 <? 1 then 0 else dec_or_zero (Z.min (Z.min (Z.min b1 b2 - 1) b3) b4)).
  Proof.
    intros H1 H2 H3 H4. pose proof (Z.min_le_compat _ _ _ _ H1 H2) as Hm.
    destruct (Z.ltb_spec (Z.min a1 a2) 1), (Z.ltb_spec (Z.min b1 b2) 1); try lia.
    - apply dec_or_zero_nonneg.
    - apply dec_or_zero_mono. repeat apply Z.min_le_compat; try assumption. lia.
  Qed.

  (* the per-m estimate is monotone in (E, G) and, given the power inequality, in Q *)
  Lemma psm_core_mono E E' Q Q' G G' b tl m :
    fle E E' -> fle G G' ->
    fle (flog2 (fpow (query_base b tl m) Q')) (flog2 (fpow (query_base b tl m) Q)) ->
    psm_core E Q G b tl m <= psm_core E' Q' G' b tl m.
  Proof.
    intros HE HG HP.
    unfold SecurityModel.psm_core, psm_query_base, psm_theta_plus in *. cbv zeta in *.
    apply int_shape_mono.
    - apply to_u64_mono, fsub_mono_l, HE.
    - eapply Z.le_trans.
      + apply to_u64_mono, fsub_mono_l, HG.
      + apply to_u64_mono, fsub_anti_r, HP.
    - apply to_u64_mono, fadd_mono_r, HE.
    - apply to_u64_mono, fadd_mono_r, HE.
  Qed.

  Lemma psm_core_nonneg E Q G b tl m : 0 <= psm_core E Q G b tl m.
  Proof.
    unfold SecurityModel.psm_core. cbv zeta.
    match goal with |- 0 <= (if ?c then _ else _) => destruct c end; [lia | apply dec_or_zero_nonneg].
  Qed.

  Lemma max_by_key_aux (key : Z -> Z) : forall l best,
    match fold_left (fun best a => match best with
                                   | None => Some a
                                   | Some b => if key a <? key b then Some b else Some a
                                   end) l best with
    | None => best = None /\ l = []
    | Some m => (best = Some m \/ In m l) /\ (forall a, In a l -> key a <= key m) /\
                (forall b, best = Some b -> key b <= key m)
    end.
  Proof.
    induction l as [|a l IH]; intros best; cbn [fold_left].
    - destruct best as [b|].
      + split; [left; reflexivity | split; [intros a [] | intros b' E; inversion E; lia]].
      + split; reflexivity.
    - set (best' := match best with None => Some a | Some b => if key a <? key b then Some b else Some a end).
      specialize (IH best').
      destruct (fold_left _ l best') as [m|] eqn:R.
      + destruct IH as [Hin [Hall Hbest]].
        assert (Ka : key a <= key m).
        { subst best'. destruct best as [b|].
          - destruct (Z.ltb_spec (key a) (key b)).
            + specialize (Hbest b eq_refl). lia.
            + apply (Hbest a eq_refl).
          - apply (Hbest a eq_refl). }
        split; [ | split].
        * destruct Hin as [Hin | Hin]; [ | right; right; exact Hin].
          subst best'. destruct best as [b|].
          -- destruct (key a <? key b); inversion Hin; subst; [left; reflexivity | right; left; reflexivity].
          -- inversion Hin. right. left. reflexivity.
        * intros x [<- | Hx]; [exact Ka | apply Hall, Hx].
        * intros b Eb. subst best. subst best'. cbn in Hbest.
          destruct (Z.ltb_spec (key a) (key b)).
          -- apply (Hbest b eq_refl).
          -- specialize (Hbest a eq_refl). lia.
      + destruct IH as [Hb _]. subst best'. destruct best as [b|]; [destruct (key a <? key b) | ]; discriminate.
  Qed.

  Lemma max_by_key_spec key l m : max_by_key key l = Some m ->
    In m l /\ forall a, In a l -> key a <= key m.
  Proof.
    unfold max_by_key. intros H. pose proof (max_by_key_aux key l None) as A. rewrite H in A.
    destruct A as [[C | Hin] [Hall _]]; [discriminate | split; assumption].
  Qed.

  Lemma max_by_key_none key l : max_by_key key l = None <-> l = [].
  Proof.
    unfold max_by_key. split.
    - intros H. pose proof (max_by_key_aux key l None) as A. rewrite H in A. apply A.
    - intros ->. reflexivity.
  Qed.

  Lemma max_by_key_mono key key' l m m' :
    (forall a, In a l -> key a <= key' a) ->
    max_by_key key l = Some m -> max_by_key key' l = Some m' -> key m <= key' m'.
  Proof.
    intros Hle H H'. apply max_by_key_spec in H. apply max_by_key_spec in H'.
    destruct H as [Hin _], H' as [_ Hall']. specialize (Hall' m Hin). specialize (Hle m Hin). lia.
  Qed.

  Lemma gps_mono o o' bits tl cr cr' v v' :
    0 <= cr <= cr' -> cr' < 2 ^ 32 ->
    (forall m, In m (zrange 3 (upper_m tl)) -> psm o bits tl m <= psm o' bits tl m) ->
    gps o bits tl cr = Some v -> gps o' bits tl cr' = Some v' -> v <= v'.
  Proof.
    intros Hcr Hcr' Hle. unfold SecurityModel.get_proven_security. cbv zeta.
    destruct (max_by_key (psm o bits tl) _) as [m|] eqn:M; [ | discriminate].
    destruct (max_by_key (psm o' bits tl) _) as [m'|] eqn:M'; [ | discriminate].
    intros E E'. inversion E. inversion E'. subst v v'.
    pose proof (max_by_key_mono _ _ _ _ _ Hle M M') as K.
    assert (N : 0 <= psm o bits tl m) by apply psm_core_nonneg.
    assert (N' : 0 <= psm o' bits tl m') by apply psm_core_nonneg.
    rewrite !wrap_small; lia.
  Qed.

  (* the estimate is defined for o iff it is for o': the range of m depends on the trace length only *)
  Lemma gps_defined_same o o' bits bits' tl cr cr' :
    gps o bits tl cr = None <-> gps o' bits' tl cr' = None.
  Proof.
    unfold SecurityModel.get_proven_security. cbv zeta.
    destruct (max_by_key (psm o bits tl) _) as [m|] eqn:M;
      destruct (max_by_key (psm o' bits' tl) _) as [m'|] eqn:M'; split; intros H; try discriminate; try reflexivity.
    - apply max_by_key_none in M'. rewrite M' in M. discriminate.
    - apply max_by_key_none in M. rewrite M in M'. discriminate.
  Qed.

  Definition bits_ok (bits : Z) : Prop := 0 <= bits /\ bits * 3 < 2 ^ 32.

  Lemma ext_bits_mono bits e e' : bits_ok bits -> fe_degree e <= fe_degree e' ->
    fle (of_Z (wrap 32 (bits * fe_degree e))) (of_Z (wrap 32 (bits * fe_degree e'))).
  Proof.
    intros [H0 H3] Hd. apply of_Z_mono.
    assert (1 <= fe_degree e <= 3) by (destruct e; cbn; lia).
    assert (1 <= fe_degree e' <= 3) by (destruct e'; cbn; lia).
    rewrite !wrap_small; nia.
  Qed.

  Theorem proven_monotone_queries o o' bits tl cr v v' :
    0 <= cr < 2 ^ 32 ->
    po_blowup_factor o' = po_blowup_factor o -> po_grinding_factor o' = po_grinding_factor o ->
    po_field_extension o' = po_field_extension o ->
    1 <= po_num_queries o -> po_num_queries o <= po_num_queries o' -> po_num_queries o' <= 255 ->
    (forall m, In m (zrange 3 (upper_m tl)) -> unit_base (query_base (po_blowup_factor o) tl m)) ->
    gps o bits tl cr = Some v -> gps o' bits tl cr = Some v' -> v <= v'.
  Proof.
    intros Hcr Eb Eg Ee Hq1 Hq Hq2 Hu. apply gps_mono; try lia.
    intros m Hm. unfold SecurityModel.proven_security_protocol_for_m. rewrite Eb, Eg, Ee.
    apply psm_core_mono; try apply fle_refl.
    apply query_chain_anti; [apply Hu, Hm | assumption ..].
  Qed.

  Theorem proven_monotone_grinding o o' bits tl cr v v' :
    0 <= cr < 2 ^ 32 ->
    po_blowup_factor o' = po_blowup_factor o -> po_num_queries o' = po_num_queries o ->
    po_field_extension o' = po_field_extension o ->
    po_grinding_factor o <= po_grinding_factor o' ->
    gps o bits tl cr = Some v -> gps o' bits tl cr = Some v' -> v <= v'.
  Proof.
    intros Hcr Eb Eq Ee Hg. apply gps_mono; try lia.
    intros m Hm. unfold SecurityModel.proven_security_protocol_for_m. rewrite Eb, Eq, Ee.
    apply psm_core_mono; try apply fle_refl. apply of_Z_mono, Hg.
  Qed.

  Theorem proven_monotone_degree o o' bits tl cr v v' :
    0 <= cr < 2 ^ 32 -> bits_ok bits ->
    po_blowup_factor o' = po_blowup_factor o -> po_num_queries o' = po_num_queries o ->
    po_grinding_factor o' = po_grinding_factor o ->
    fe_degree (po_field_extension o) <= fe_degree (po_field_extension o') ->
    gps o bits tl cr = Some v -> gps o' bits tl cr = Some v' -> v <= v'.
  Proof.
    intros Hcr Hb Eb Eq Eg Hd. apply gps_mono; try lia.
    intros m Hm. unfold SecurityModel.proven_security_protocol_for_m. rewrite Eb, Eq, Eg.
    apply psm_core_mono; try apply fle_refl. apply ext_bits_mono; assumption.
  Qed.

  Theorem proven_monotone_cr o bits tl cr cr' v v' :
    0 <= cr <= cr' -> cr' < 2 ^ 32 ->
    gps o bits tl cr = Some v -> gps o bits tl cr' = Some v' -> v <= v'.
  Proof. intros Hcr Hcr'. apply gps_mono; try lia. Qed.

  Theorem proven_le_cr o bits tl cr v : 0 <= cr < 2 ^ 32 -> gps o bits tl cr = Some v -> 0 <= v <= cr.
  Proof.
    intros Hcr. unfold SecurityModel.get_proven_security. cbv zeta.
    destruct (max_by_key _ _) as [m|]; [ | discriminate]. intros E. inversion E.
    assert (N : 0 <= psm o bits tl m) by apply psm_core_nonneg.
    rewrite wrap_small; lia.
  Qed.
End ProvenMono.

(* Non-vacuity: the hypotheses are satisfiable together (F := Z with integer stand-ins for the operations), the
   estimate is defined there, and it moves. *)
Module ZInst.
  Definition zpow (b x : Z) : Z := if x <=? 0 then 1 else b ^ x.
  Definition zgps := get_proven_security Z Z.add Z.sub Z.mul Z.div zpow Z.opp Z.sqrt (fun x => x) Z.log2
                       (fun x => x) (fun x => Z.max 0 (Z.min x (2 ^ 64 - 1))) 0 1 1.
  Definition unit_base (b : Z) : Prop := 0 <= b <= 1.

  Lemma zpow_anti b x y : unit_base b -> x <= y -> zpow b y <= zpow b x.
  Proof.
    unfold unit_base, zpow. intros Hb Hxy.
    destruct (Z.leb_spec x 0), (Z.leb_spec y 0); try lia.
    - assert (b = 0 \/ b = 1) as [-> | ->] by lia.
      + rewrite Z.pow_0_l by lia. lia.
      + rewrite Z.pow_1_l by lia. lia.
    - assert (b = 0 \/ b = 1) as [-> | ->] by lia.
      + rewrite !Z.pow_0_l by lia. lia.
      + rewrite !Z.pow_1_l by lia. lia.
  Qed.

  Lemma hyps_satisfiable :
    (forall x : Z, x <= x) /\
    (forall a b : Z, a <= b -> (fun x => x) a <= (fun x => x) b) /\
    (forall x y : Z, x <= y -> Z.max 0 (Z.min x (2 ^ 64 - 1)) <= Z.max 0 (Z.min y (2 ^ 64 - 1))) /\
    (forall x : Z, 0 <= Z.max 0 (Z.min x (2 ^ 64 - 1)) < 2 ^ 64) /\
    (forall a a' c : Z, a <= a' -> a - c <= a' - c) /\
    (forall a c c' : Z, c <= c' -> a - c' <= a - c) /\
    (forall a c c' : Z, c <= c' -> a + c <= a + c') /\
    (forall b q q' : Z, unit_base b -> 1 <= q -> q <= q' -> q' <= 255 ->
       Z.log2 (zpow b ((fun x => x) q')) <= Z.log2 (zpow b ((fun x => x) q))).
  Proof.
    repeat split; intros; try lia.
    apply Z.log2_le_mono. apply zpow_anti; assumption.
  Qed.

  Example zgps_defined_and_moves :
    zgps (mkProofOptions 30 8 0 FeCubic 8 127) 64 1024 100 = Some 0 /\
    zgps (mkProofOptions 30 8 20 FeCubic 8 127) 64 1024 100 = Some 18 /\
    zgps (mkProofOptions 30 8 20 FeCubic 8 127) 64 1024 10 = Some 10.
  Proof.
    split; [vm_compute; reflexivity|].
    (* the last two options differ in the cap only: one sweep over m for both *)
    unfold zgps, get_proven_security.
    match goal with |- context [max_by_key ?k ?l] =>
      let m := eval vm_compute in (max_by_key k l) in
      replace (max_by_key k l) with m by (vm_compute; reflexivity) end.
    split; vm_compute; reflexivity.
  Qed.
End ZInst.
