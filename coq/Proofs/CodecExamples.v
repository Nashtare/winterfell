(* Non-vacuity witnesses for the hypotheses of the C12 theorems, and concrete boundary round trips evaluated by
   vm_compute.  Property C12. *)
From VBase Require Import MachInt.
From VModel Require Import Codec.
From VProofs Require Import CodecTypes.
Open Scope Z_scope.

Definition po_max : ProofOptions := mkPO 255 128 32 FE_Cubic 16 255.
Definition po_min : ProofOptions := mkPO 1 2 0 FE_None 2 0.

Lemma wf_po_max : wf_ProofOptions po_max.
Proof. apply wf_ProofOptions_explicit. cbn. repeat split; try lia; tauto. Qed.
Lemma wf_po_min : wf_ProofOptions po_min.
Proof. apply wf_ProofOptions_explicit. cbn. repeat split; try lia; tauto. Qed.

Definition ti_255 : TraceInfo := mkTI 255 0 0 8 [].
Definition ti_aux0 : TraceInfo := mkTI 3 2 0 8 [].
Definition ti_small : TraceInfo := mkTI 1 0 0 8 [].

Lemma wf_ti_small : wf_TraceInfo ti_small.
Proof. exists 1, 0, 0, 8, []. repeat split; try lia. Qed.

(* 65535 metadata bytes are accepted *)
Definition ti_meta_max : TraceInfo := mkTI 200 55 255 (2 ^ 20) (repeat 171 (Z.to_nat 65535)).
Lemma wf_ti_meta_max : wf_TraceInfo ti_meta_max.
Proof.
  exists 200, 55, 255, (2 ^ 20), (repeat 171 (Z.to_nat 65535)). repeat (split; [lia|]).
  unfold TraceInfo_new_multi_segment, assert_, len. rewrite repeat_length, Z2Nat.id by lia. reflexivity.
Qed.
(* ... while 65536 are rejected by the constructor *)
Lemma ti_meta_too_long : TraceInfo_new_multi_segment 1 0 0 8 (repeat 0 (Z.to_nat 65536)) = Panic.
Proof. unfold TraceInfo_new_multi_segment, assert_, len. rewrite repeat_length, Z2Nat.id by lia. reflexivity. Qed.
Lemma ti_256_columns : TraceInfo_new_multi_segment 255 1 1 8 [] = Panic.
Proof. reflexivity. Qed.

Definition f64_modulus_bytes : bytes := to_le_bytes 8 M64.
Definition f128_modulus_bytes : bytes := to_le_bytes 16 M128.

Definition ctx_small : Context := mkCtx ti_small f64_modulus_bytes po_min.
Lemma wf_ctx_small : wf_Context ctx_small.
Proof.
  exists f64_modulus_bytes, ti_small, po_min. split; [exact wf_ti_small|]. split; [exact wf_po_min|].
  split; [vm_compute; split; [discriminate | reflexivity] | reflexivity].
Qed.

(* largest LDE domain accepted by Context::new: 2^24 * 128 = 2^31; 2^32 is refused (ctx_lde_too_big) *)
Definition ctx_big : Context := mkCtx (mkTI 255 0 0 (2 ^ 24) []) f128_modulus_bytes po_max.
Lemma wf_ctx_big : wf_Context ctx_big.
Proof.
  exists f128_modulus_bytes, (mkTI 255 0 0 (2 ^ 24) []), po_max. split.
  - exists 255, 0, 0, (2 ^ 24), []. repeat split; try lia.
  - split; [exact wf_po_max|]. split; [vm_compute; split; [discriminate | reflexivity] | reflexivity].
Qed.
Lemma ctx_lde_too_big : Context_new f64_modulus_bytes (mkTI 1 0 0 (2 ^ 31) []) po_min = Panic.
Proof. reflexivity. Qed.

Definition q_ex : Queries := mkQ [0] [1; 0; 0; 0; 0; 0; 0; 0].
Definition fri_ex : FriProof := mkFri [mkFL [1; 2; 3; 4] [5; 6]; mkFL [9] []] [7; 7; 7; 7; 7; 7; 7; 7] 0.

Lemma wf_fri_ex : wf_FriProof fri_ex.
Proof.
  unfold wf_FriProof, fri_ex, len. cbn [fri_layers fri_remainder fri_num_partitions length Z.of_nat Pos.of_succ_nat Pos.succ].
  repeat split; try lia.
  repeat constructor; unfold len; cbn [fl_values fl_paths length Z.of_nat Pos.of_succ_nat Pos.succ]; lia.
Qed.

Definition proof_ex : Proof :=
  mkProof ctx_small 1 [1; 2; 3] [q_ex] q_ex (mkOod [2; 1; 1] [0] [4; 4]) fri_ex 12345 (Some [1; 2]).

Lemma wf_proof_ex : wf_Proof proof_ex.
Proof.
  unfold wf_Proof, proof_ex. cbn [pr_context pr_num_unique_queries pr_commitments pr_trace_queries
    pr_constraint_queries pr_ood_frame pr_fri_proof pr_pow_nonce pr_gkr_proof].
  assert (Hq : wf_Queries q_ex) by (unfold wf_Queries, q_ex, len; cbn [q_values q_paths length Z.of_nat Pos.of_succ_nat Pos.succ]; lia).
  split; [exact wf_ctx_small|]. split; [lia|].
  split; [unfold wf_Commitments, len; cbn [length Z.of_nat Pos.of_succ_nat Pos.succ]; lia|].
  split; [reflexivity|]. split; [repeat constructor; exact Hq|]. split; [exact Hq|].
  split; [unfold wf_OodFrame, len; cbn [ood_trace_states ood_lagrange ood_evaluations length Z.of_nat Pos.of_succ_nat Pos.succ]; lia|].
  split; [exact wf_fri_ex|]. split; [lia|].
  cbn [wf_gkr length Z.of_nat Pos.of_succ_nat Pos.succ]. split; [lia | repeat constructor].
Qed.

Example rt_proof_ex_computed : read_Proof (write_Proof proof_ex ++ [99]) = Ok (proof_ex, [99]).
Proof. vm_compute. reflexivity. Qed.

Example rt_ti_255_computed : read_TraceInfo (write_TraceInfo ti_255) = Ok (ti_255, []).
Proof. vm_compute. reflexivity. Qed.
Example rt_ti_aux0_computed : read_TraceInfo (write_TraceInfo ti_aux0) = Ok (ti_aux0, []).
Proof. vm_compute. reflexivity. Qed.

(* hostile inputs are errors, not panics: a length exponent of 200, zero queries, a count of 2^60 elements *)
Example ti_hostile_length : read_TraceInfo [1; 0; 0; 200; 0; 0] = Err Invalid.
Proof. vm_compute. reflexivity. Qed.
Example po_hostile_queries : read_ProofOptions [0; 8; 0; 1; 4; 31] = Err Invalid.
Proof. vm_compute. reflexivity. Qed.
Example vec_hostile_length : read_vec_of (read_vec_of read_u8) (write_usize (2 ^ 60)) = Err Eof.
Proof. vm_compute. reflexivity. Qed.

Example vint64_boundaries :
  map write_usize [0; 127; 128; 16383; 16384; 2 ^ 56 - 1; 2 ^ 56; 2 ^ 64 - 1] =
  [[1]; [255]; [2; 2]; [254; 255]; [4; 0; 2]; [128; 255; 255; 255; 255; 255; 255; 255];
   [0; 0; 0; 0; 0; 0; 0; 0; 1]; [0; 255; 255; 255; 255; 255; 255; 255; 255]].
Proof. vm_compute. reflexivity. Qed.

(* the decoder is not injective: non-canonical (over-long) encodings of a size are accepted *)
Example vint64_noncanonical_accepted :
  read_usize [3] = Ok (1, []) /\ read_usize [6; 0] = Ok (1, []) /\ read_usize [0; 1; 0; 0; 0; 0; 0; 0; 0] = Ok (1, []).
Proof. vm_compute. auto. Qed.

(* BTreeMap: keys must be strictly increasing for the round trip; a duplicate key collapses (last wins) *)
Example map_from_iter_dedup : map_from_iter Z.ltb [(3, 30); (1, 10); (3, 31)] = [(1, 10); (3, 31)].
Proof. reflexivity. Qed.
