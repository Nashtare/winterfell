(* C11 — the permutation on RAW internal (Montgomery) words, as the implementation computes it (generated f64
   operations + frequency-domain mds_multiply), equals the VALUE-level permutation through `val`, and its output words
   are canonical.  Uses the C07 theorems about the generated f64 code and C11_mds*_multiply. *)
From VBase Require Import MachInt.
From VGen Require Import Mds12 Mds8 F64.
From VModel Require Import RescueConsts Rescue.
From VProofs Require Import F64Red F64Ops RescueMds RescueSbox.
Open Scope Z_scope.

Lemma M_is_M64 : M = M64. Proof. reflexivity. Qed.

(* w represents the residue v *)
Definition R (w v : Z) : Prop := repr w /\ val w = v.

Lemma R_mul a x b y : R a x -> R b y -> R (f64_mul a b) (fmul M64 x y).
Proof. intros (Ha & <-) (Hb & <-). destruct (f64_mul_spec a b Ha Hb) as (Hr & Hv). split; [exact Hr | exact Hv]. Qed.
Lemma R_sq a x : R a x -> R (raw_sq a) (fsq M64 x).
Proof. intros H. apply R_mul; exact H. Qed.
Lemma R_sqn n : forall a x, R a x -> R (raw_sqn n a) (sqn M64 n x).
Proof. induction n as [|n IH]; intros a x H; [exact H|]. cbn [raw_sqn sqn]. apply IH, R_sq, H. Qed.
Lemma R_exp_acc n a x b y : R a x -> R b y -> R (raw_exp_acc n a b) (exp_acc M64 n x y).
Proof. intros Ha Hb. apply R_mul; [apply R_sqn; exact Ha | exact Hb]. Qed.

Lemma R_exp7 a x : R a x -> R (f64_exp7 a) (exp7 M64 x).
Proof.
  intros H. unfold f64_exp7, exp7, fsq. cbv zeta.
  pose proof (R_mul _ _ _ _ H H) as H2. pose proof (R_mul _ _ _ _ H2 H2) as H4. pose proof (R_mul _ _ _ _ H2 H) as H3.
  exact (R_mul _ _ _ _ H3 H4).
Qed.

Lemma R_inv_sbox a x : R a x -> R (raw_inv_sbox64 a) (inv_sbox64 M64 x).
Proof.
  intros H. unfold raw_inv_sbox64, inv_sbox64.
  pose proof (R_sq _ _ H) as H1.
  pose proof (R_sq _ _ H1) as H2.
  pose proof (R_exp_acc 3 _ _ _ _ H2 H2) as H3.
  pose proof (R_exp_acc 6 _ _ _ _ H3 H3) as H4.
  pose proof (R_exp_acc 12 _ _ _ _ H4 H4) as H5.
  pose proof (R_exp_acc 6 _ _ _ _ H5 H3) as H6.
  pose proof (R_exp_acc 31 _ _ _ _ H6 H6) as H7.
  pose proof (R_sq _ _ (R_sq _ _ (R_mul _ _ _ _ (R_sq _ _ H7) H6))) as Ha.
  pose proof (R_mul _ _ _ _ (R_mul _ _ _ _ H1 H2) H) as Hb.
  cbv zeta. exact (R_mul _ _ _ _ Ha Hb).
Qed.

Lemma val_add a b : repr a -> repr b -> repr (f64_add a b) /\ val (f64_add a b) = (val a + val b) mod M.
Proof.
  intros Ha Hb. rewrite (f64_add_eq a b Ha Hb). split.
  - apply Z.mod_pos_bound. reflexivity.
  - unfold val. rewrite Z.mul_mod_idemp_l by (unfold M; lia).
    rewrite <- Z.add_mod by (unfold M; lia). f_equal. ring.
Qed.

Lemma R_add_const a x k : R a x -> 0 <= k < M64 -> R (f64_add a (f64_new k)) (fadd M64 x k).
Proof.
  intros (Ha & <-) Hk.
  destruct (f64_new_spec k) as (Hr & Hv); [unfold M64 in Hk; lia|].
  destruct (val_add a (f64_new k) Ha Hr) as (Hr' & Hv'). split; [exact Hr'|].
  rewrite Hv', Hv. unfold fadd. rewrite M_is_M64. rewrite (Z.mod_small k M64) by exact Hk. reflexivity.
Qed.

(* list level *)
Definition RL (ws vs : list Z) : Prop := Forall2 R ws vs.

Lemma RL_map f g ws vs : (forall a x, R a x -> R (f a) (g x)) -> RL ws vs -> RL (map f ws) (map g vs).
Proof. intros H HL. induction HL; cbn; constructor; auto. Qed.

Lemma RL_length ws vs : RL ws vs -> length ws = length vs.
Proof. intros H. induction H; cbn; congruence. Qed.
Lemma RL_repr ws vs : RL ws vs -> Forall repr ws.
Proof. intros H. induction H as [|w v ws vs (Hr & _) _ IH]; constructor; auto. Qed.
Lemma RL_val ws vs : RL ws vs -> map val ws = vs.
Proof. intros H. induction H as [|w v ws vs (_ & Hv) _ IH]; cbn; congruence. Qed.
Lemma RL_intro ws : Forall repr ws -> RL ws (map val ws).
Proof. intros H. induction H; cbn; constructor; auto. split; auto. Qed.

Lemma RL_add_constants ws vs k : RL ws vs -> Forall (fun c => 0 <= c < M64) k ->
  RL (raw_add_constants ws k) (add_constants M64 vs k).
Proof.
  intros H. revert k. induction H as [|w v ws vs Hwv _ IH]; intros k Hk; [constructor|].
  destruct k as [|c k]; [constructor|]. inversion Hk; subst.
  unfold raw_add_constants, add_constants. cbn [combine map fst snd]. constructor.
  - apply R_add_const; assumption.
  - apply IH. assumption.
Qed.

(* val is linear: it commutes with the matrix product mod M *)
Lemma val_dot r ws : val (dotZ r ws mod M64) = dotZ r (map val ws) mod M64.
Proof.
  unfold val. rewrite M_is_M64. rewrite Z.mul_mod_idemp_l by (unfold M64; lia).
  revert ws. induction r as [|m r IH]; intros ws; [reflexivity|].
  destruct ws as [|w ws]; [reflexivity|].
  unfold dotZ in *. cbn [combine map fold_right fst snd].
  rewrite Z.mul_add_distr_r. rewrite Z.add_mod by (unfold M64; lia). rewrite IH.
  rewrite <- Z.mul_assoc. rewrite <- (Z.mul_mod_idemp_r m) by (unfold M64; lia).
  rewrite <- Z.add_mod by (unfold M64; lia). reflexivity.
Qed.

Lemma RL_mat_vec mds ws vs : RL ws vs -> RL (mat_vec M64 mds ws) (mat_vec M64 mds vs).
Proof.
  intros H. rewrite <- (RL_val _ _ H). unfold mat_vec. clear H.
  induction mds as [|r mds IH]; cbn [map]; constructor; auto.
  split; [apply Z.mod_pos_bound; reflexivity | apply val_dot].
Qed.

Section Perm.
  Variable n : nat.
  Variable mdsf : list Z -> list Z.
  Variables mds ark1 ark2 : list (list Z).
  Hypothesis Hmds : forall st, length st = n -> Forall word st -> mdsf st = mat_vec M64 mds st.
  Hypothesis Hmds_len : length mds = n.
  Hypothesis Hark1 : forall r, (r < 7)%nat -> length (nth r ark1 []) = n /\ Forall (fun c => 0 <= c < M64) (nth r ark1 []).
  Hypothesis Hark2 : forall r, (r < 7)%nat -> length (nth r ark2 []) = n /\ Forall (fun c => 0 <= c < M64) (nth r ark2 []).

  Lemma repr_word ws : Forall repr ws -> Forall word ws.
  Proof. apply Forall_impl. unfold repr, word, M. lia. Qed.

  Lemma RL_mdsf ws vs : length ws = n -> RL ws vs -> RL (mdsf ws) (mat_vec M64 mds vs) /\ length (mdsf ws) = n.
  Proof.
    intros Hl H. rewrite Hmds; [|exact Hl | apply repr_word, (RL_repr _ _ H)].
    split; [apply RL_mat_vec; exact H|]. unfold mat_vec. rewrite map_length. exact Hmds_len.
  Qed.

  Lemma add_constants_length ws k : length ws = n -> length k = n -> length (raw_add_constants ws k) = n.
  Proof. intros H1 H2. unfold raw_add_constants. rewrite map_length, combine_length, H1, H2. apply Nat.min_id. Qed.

  Lemma raw_round_spec P ws vs r : (r < 7)%nat -> length ws = n -> RL ws vs ->
    rp_sbox P = exp7 M64 -> rp_inv_sbox P = inv_sbox64 M64 -> rp_mds P = mds -> rp_ark1 P = ark1 -> rp_ark2 P = ark2 ->
    RL (raw_round mdsf ark1 ark2 ws r) (apply_round M64 P vs r) /\ length (raw_round mdsf ark1 ark2 ws r) = n.
  Proof.
    intros Hr Hl H E1 E2 E3 E4 E5. unfold raw_round, apply_round. cbv zeta. rewrite E1, E2, E3, E4, E5.
    destruct (Hark1 r Hr) as (L1 & C1). destruct (Hark2 r Hr) as (L2 & C2).
    assert (S1 := RL_map _ _ _ _ R_exp7 H).
    assert (N1 : length (map f64_exp7 ws) = n) by (rewrite map_length; exact Hl).
    destruct (RL_mdsf _ _ N1 S1) as (S2 & N2).
    assert (S3 := RL_add_constants _ _ _ S2 C1).
    assert (N3 := add_constants_length _ _ N2 L1).
    assert (S4 := RL_map _ _ _ _ R_inv_sbox S3).
    assert (N4 : length (map raw_inv_sbox64 (raw_add_constants (mdsf (map f64_exp7 ws)) (nth r ark1 []))) = n) by (rewrite map_length; exact N3).
    destruct (RL_mdsf _ _ N4 S4) as (S5 & N5).
    split; [apply RL_add_constants; assumption | apply add_constants_length; assumption].
  Qed.

  Lemma raw_perm_spec P : rp_sbox P = exp7 M64 -> rp_inv_sbox P = inv_sbox64 M64 -> rp_mds P = mds -> rp_ark1 P = ark1 -> rp_ark2 P = ark2 ->
    forall ws vs, length ws = n -> RL ws vs ->
    RL (fold_left (raw_round mdsf ark1 ark2) (seq 0 7) ws) (apply_permutation M64 P vs) /\
    length (fold_left (raw_round mdsf ark1 ark2) (seq 0 7) ws) = n.
  Proof.
    intros E1 E2 E3 E4 E5. unfold apply_permutation.
    assert (G : forall l, Forall (fun r => (r < 7)%nat) l -> forall ws vs, length ws = n -> RL ws vs ->
                RL (fold_left (raw_round mdsf ark1 ark2) l ws) (fold_left (apply_round M64 P) l vs) /\
                length (fold_left (raw_round mdsf ark1 ark2) l ws) = n).
    { induction l as [|r l IH]; intros Hl ws vs Hn H; [split; assumption|].
      inversion Hl as [|r' l' Hr7 Hl' Eq]. cbn [fold_left].
      destruct (raw_round_spec P ws vs r) as (S & N); auto. }
    apply G. apply Forall_forall. intros r Hr. apply in_seq in Hr. lia.
  Qed.
End Perm.

Lemma ark_rows_ok (t : list (list Z)) (n : nat) : table_ok M64 7 n t = true ->
  forall r, (r < 7)%nat -> length (nth r t []) = n /\ Forall (fun c => 0 <= c < M64) (nth r t []).
Proof.
  intros H r Hr. destruct (table_ok_canon _ _ _ _ H) as (C & L & N). rewrite Forall_forall in C, L.
  assert (Hin : In (nth r t []) t) by (apply nth_In; lia). auto.
Qed.

Lemma rp64_raw_permutation_RL : forall ws vs, length ws = 12%nat -> RL ws vs ->
  RL (rp64_raw_permutation ws) (rp64_permutation vs) /\ length (rp64_raw_permutation ws) = 12%nat.
Proof.
  intros ws vs Hl H. unfold rp64_raw_permutation, rp64_permutation.
  apply (raw_perm_spec 12 mds12_multiply rp64_MDS rp64_ARK1 rp64_ARK2); try reflexivity; auto.
  - intros st L W. apply (mds12_multiply_list st L W).
  - apply ark_rows_ok. apply tables_wellformed.
  - apply ark_rows_ok. apply tables_wellformed.
Qed.
Lemma jive_raw_permutation_RL : forall ws vs, length ws = 8%nat -> RL ws vs ->
  RL (jive_raw_permutation ws) (jive_permutation vs) /\ length (jive_raw_permutation ws) = 8%nat.
Proof.
  intros ws vs Hl H. unfold jive_raw_permutation, jive_permutation.
  apply (raw_perm_spec 8 mds8_multiply jive_MDS jive_ARK1 jive_ARK2); try reflexivity; auto.
  - intros st L W. apply (mds8_multiply_list st L W).
  - apply ark_rows_ok. apply tables_wellformed.
  - apply ark_rows_ok. apply tables_wellformed.
Qed.

(* permutation_spec, raw level: for every state of canonical internal words, the implementation-level permutation
   (generated f64 arithmetic, frequency-domain MDS) returns canonical words whose residues are the value-level
   (textbook, see permutation_spec_rp64) permutation of the input residues *)
Theorem rp64_raw_permutation_spec : forall ws, length ws = 12%nat -> Forall repr ws ->
  Forall repr (rp64_raw_permutation ws) /\ map val (rp64_raw_permutation ws) = rp64_permutation (map val ws).
Proof.
  intros ws Hl Hr. destruct (rp64_raw_permutation_RL ws (map val ws) Hl (RL_intro ws Hr)) as (H & _).
  split; [eapply RL_repr; exact H | eapply RL_val; exact H].
Qed.

Theorem jive_raw_permutation_spec : forall ws, length ws = 8%nat -> Forall repr ws ->
  Forall repr (jive_raw_permutation ws) /\ map val (jive_raw_permutation ws) = jive_permutation (map val ws).
Proof.
  intros ws Hl Hr. destruct (jive_raw_permutation_RL ws (map val ws) Hl (RL_intro ws Hr)) as (H & _).
  split; [eapply RL_repr; exact H | eapply RL_val; exact H].
Qed.

Lemma ex_raw_nonvacuous : Forall repr (repeat (M - 1) 12) /\ Forall repr [0; 1; 2; 3; 4; 5; 6; 7].
Proof. split; repeat constructor; unfold repr, M; lia. Qed.
