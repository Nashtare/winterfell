(* C09/C14: the wrappers of math/src/fft/concurrent.rs (evaluate_poly_with_offset, interpolate_poly,
   interpolate_poly_with_offset) on top of split_radix_fft equal their serial counterparts, hence satisfy the
   same specifications (direct evaluation on the coset / inverse of evaluation), n = 4^(K+1) and 2*4^(K+1).
   The batched scalings (clone_and_shift, the batch_size-strided offset powers) are modelled as the sequential
   map; their batch independence is C14_scale_par_spec / C14_get_power_series_with_offset_any_T. *)
From Coq Require Import List Arith Bool ZArith Lia.
From VBase Require Import FieldOps.
From VModel Require Import FFT FFTSplit.
From VProofs Require Import FFTSpec FFTEval FFTOffset FFTSegments FFTTranspose.
From VProofs Require FFTSplit.
Import ListNotations.

Section Wrappers.
Context {F : Type} (O : FOps F) (L : FLaws O).
Local Notation fz := (fzero O).
Local Notation peval := (peval O).
Local Notation fpow := (fpow O).

Variable tw : list F.
Variables K s : nat.
Variable w : F.
Hypothesis Hs : s <= 1.
Hypothesis Hlt : length tw = 2 ^ (S K + K + s).
Hypothesis Ht : tw_ok O tw (S K + S K + s) w.
Hypothesis Hw : root_cond O (S K + S K + s) w.

Let split_ok (x : list F) (Hl : length x = 2 ^ (S K + S K + s)) :
  split_radix_fft O x tw = Some (fft_in_place_top O x tw) := split_radix_is_fft O L tw K s w x Hs Hl Hlt Ht Hw.

(* whenever the serial function returns, the concurrent one returns the same vector *)
Lemma evaluate_poly_with_offset_concurrent_eq two_adicity root_of_unity p offset blowup y :
  length p = 2 ^ (S K + S K + s) ->
  evaluate_poly_with_offset O two_adicity root_of_unity p tw offset blowup = Some y ->
  evaluate_poly_with_offset_concurrent O root_of_unity p tw offset blowup = Some y.
Proof.
  intros Hl H. unfold evaluate_poly_with_offset in H. do 5 apply guard_some in H.
  unfold evaluate_poly_with_offset_concurrent. cbv zeta.
  erewrite sequence_some; [exact H|].
  intros i _. apply split_ok. rewrite (shift_by_series_length O). exact Hl.
Qed.

Lemma interpolate_poly_concurrent_eq two_adicity v y :
  length v = 2 ^ (S K + S K + s) ->
  interpolate_poly O two_adicity v tw = Some y -> interpolate_poly_concurrent O v tw = Some y.
Proof.
  intros Hl H. unfold interpolate_poly in H. do 3 apply guard_some in H.
  unfold interpolate_poly_concurrent. rewrite (split_ok v Hl). exact H.
Qed.

Lemma interpolate_poly_with_offset_concurrent_eq two_adicity v offset y :
  length v = 2 ^ (S K + S K + s) ->
  interpolate_poly_with_offset O two_adicity v tw offset = Some y ->
  interpolate_poly_with_offset_concurrent O v tw offset = Some y.
Proof.
  intros Hl H. unfold interpolate_poly_with_offset in H. do 4 apply guard_some in H.
  unfold interpolate_poly_with_offset_concurrent. rewrite (split_ok v Hl). exact H.
Qed.

End Wrappers.

Section WrapperSpecs.
Context {F : Type} (O : FOps F) (L : FLaws O).
Local Notation fz := (fzero O).
Local Notation f1 := (fone O).
Local Infix "*f" := (fmul O) (at level 40, left associativity).
Local Notation "-f x" := (fneg O x) (at level 35, right associativity).
Local Notation peval := (peval O).
Local Notation fpow := (fpow O).

(* concurrent::evaluate_poly_with_offset: result[i] = p(offset * g^i), every blowup 2^b *)
Theorem evaluate_poly_with_offset_concurrent_correct root_of_unity tw K s b g offset (p : list F) :
  s <= 1 -> length p = 2 ^ (S K + S K + s) -> length tw = 2 ^ (S K + K + s) ->
  root_of_unity (S K + S K + s + b) = g -> root_cond O (S K + S K + s + b) g ->
  tw_ok O tw (S K + S K + s) (fpow g (2 ^ b)) -> offset <> fz ->
  evaluate_poly_with_offset_concurrent O root_of_unity p tw offset (2 ^ b)
    = Some (map (fun i => peval p (offset *f fpow g i)) (seq 0 (2 ^ (S K + S K + s + b)))).
Proof.
  intros Hs Hl Hlt Hg Hgc Ht Hoff.
  assert (Hw : root_cond O (S K + S K + s) (fpow g (2 ^ b))) by (apply (root_cond_pow O L); exact Hgc).
  apply (evaluate_poly_with_offset_concurrent_eq O L tw K s (fpow g (2 ^ b)) Hs Hlt Ht Hw (S K + S K + s + b)); [exact Hl|].
  assert (Hlt' : length tw = 2 ^ (K + S K + s)) by (rewrite Hlt; f_equal; lia).
  exact (evaluate_poly_with_offset_correct O L (S (K + S K + s) + b) root_of_unity tw (K + S K + s) b g offset p
           Hl Hlt' (le_n _) Hg Hgc Ht Hoff).
Qed.

(* concurrent::interpolate_poly / interpolate_poly_with_offset invert evaluation *)
Theorem interpolate_poly_concurrent_correct itw K s w winv (p : list F) :
  s <= 1 -> length p = 2 ^ (S K + S K + s) -> length itw = 2 ^ (S K + K + s) ->
  root_cond O (S K + S K + s) w -> w *f winv = f1 -> tw_ok O itw (S K + S K + s) winv ->
  two_pow_f O (S K + S K + s) *f n_inv O (S K + S K + s) = f1 ->
  interpolate_poly_concurrent O (map (fun i => peval p (fpow w i)) (seq 0 (2 ^ (S K + S K + s)))) itw = Some p.
Proof.
  intros Hs Hl Hlt Hw Hinv Ht Hn.
  assert (Hwi : root_cond O (S K + S K + s) winv) by (apply (root_cond_inv O L _ w winv); assumption).
  apply (interpolate_poly_concurrent_eq O L itw K s winv Hs Hlt Ht Hwi (S K + S K + s));
    [rewrite map_length, seq_length; reflexivity|].
  assert (Hlt' : length itw = 2 ^ (K + S K + s)) by (rewrite Hlt; f_equal; lia).
  exact (interpolate_evaluate O L (S (K + S K + s)) itw (K + S K + s) w winv p Hl Hlt' (le_n _) Hw Hinv Ht Hn).
Qed.

Theorem interpolate_poly_with_offset_concurrent_correct itw K s w winv offset (p : list F) :
  s <= 1 -> length p = 2 ^ (S K + S K + s) -> length itw = 2 ^ (S K + K + s) ->
  root_cond O (S K + S K + s) w -> w *f winv = f1 -> tw_ok O itw (S K + S K + s) winv -> offset <> fz ->
  two_pow_f O (S K + S K + s) *f n_inv O (S K + S K + s) = f1 ->
  interpolate_poly_with_offset_concurrent O
    (map (fun i => peval p (offset *f fpow w i)) (seq 0 (2 ^ (S K + S K + s)))) itw offset = Some p.
Proof.
  intros Hs Hl Hlt Hw Hinv Ht Hoff Hn.
  assert (Hwi : root_cond O (S K + S K + s) winv) by (apply (root_cond_inv O L _ w winv); assumption).
  apply (interpolate_poly_with_offset_concurrent_eq O L itw K s winv Hs Hlt Ht Hwi (S K + S K + s));
    [rewrite map_length, seq_length; reflexivity|].
  assert (Hlt' : length itw = 2 ^ (K + S K + s)) by (rewrite Hlt; f_equal; lia).
  exact (interpolate_evaluate_with_offset O L (S (K + S K + s)) itw (K + S K + s) w winv offset p
           Hl Hlt' (le_n _) Hw Hinv Ht Hoff Hn).
Qed.

End WrapperSpecs.
