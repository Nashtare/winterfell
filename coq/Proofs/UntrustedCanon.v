(* Proofs/UntrustedCanon.v — C06: the element readers of the typed parsers reject EXACTLY the non-canonical words.  A
   base-field word is [fp_bytes F] little-endian bytes, canonical when its value is below the modulus; an element of the
   degree-[deg] extension is [deg] words; an element-bearing component (OOD trace states and evaluations, Lagrange kernel
   states, opened trace / constraint rows, FRI layer rows, FRI remainder) is read by [read_many (read_elem F deg) n]: [Ok]
   with the words when all of them are canonical, [Err Invalid] otherwise — whatever follows the component. *)
From VBase Require Import MachInt.
From VModel Require Import Codec Untrusted.
From VProofs Require Import CodecPrim.
Open Scope Z_scope.

Definition word_ok (k : nat) (w : Z) : Prop := 0 <= w < 256 ^ Z.of_nat k.
Definition canonical (M : Z) (w : Z) : bool := w <? M.

Lemma read_felt_exact k M : Exact (write_uint k) (read_felt k M) (word_ok k) (canonical M).
Proof.
  intros w rest Hw. unfold read_felt, canonical. erewrite bind_ok by (apply rt_uint; exact Hw).
  destruct (Z.geb_spec w M), (Z.ltb_spec w M); try lia; reflexivity.
Qed.

Definition write_elem (F : FieldP) (ws : list Z) : bytes := write_many (write_uint (fp_bytes F)) ws.
Definition elem_ok (F : FieldP) (deg : nat) (ws : list Z) : Prop := length ws = deg /\ Forall (word_ok (fp_bytes F)) ws.
Definition elem_canonical (F : FieldP) (ws : list Z) : bool := forallb (canonical (fp_mod F)) ws.

Lemma read_elem_exact F deg : Exact (write_elem F) (read_elem F deg) (elem_ok F deg) (elem_canonical F).
Proof.
  intros ws rest [Hl Hw]. unfold read_elem, read_arr, write_elem, elem_canonical. rewrite <- Hl.
  apply read_many_exact with (D := word_ok (fp_bytes F)); [apply read_felt_exact | exact Hw].
Qed.

Definition write_elems (F : FieldP) (es : list (list Z)) : bytes := write_many (write_elem F) es.
Definition elems_canonical (F : FieldP) (es : list (list Z)) : bool := forallb (elem_canonical F) es.

Theorem read_elems_exact F deg es rest : Forall (elem_ok F deg) es ->
  read_many (read_elem F deg) (Z.of_nat (length es)) (write_elems F es ++ rest) =
  if elems_canonical F es then Ok (es, rest) else Err Invalid.
Proof. intros H. apply read_many_exact with (D := elem_ok F deg); [apply read_elem_exact | exact H]. Qed.

(* a FRI layer: rows of [ff] elements each (read_many (read_many (read_elem F deg) ff) nq) *)
Definition write_rows (F : FieldP) (rows : list (list (list Z))) : bytes := write_many (write_elems F) rows.
Definition rows_canonical (F : FieldP) (rows : list (list (list Z))) : bool := forallb (elems_canonical F) rows.
Definition row_ok (F : FieldP) (deg : nat) (ff : nat) (row : list (list Z)) : Prop := length row = ff /\ Forall (elem_ok F deg) row.

Theorem read_rows_exact F deg ff rows rest : Forall (row_ok F deg ff) rows ->
  read_many (read_many (read_elem F deg) (Z.of_nat ff)) (Z.of_nat (length rows)) (write_rows F rows ++ rest) =
  if rows_canonical F rows then Ok (rows, rest) else Err Invalid.
Proof.
  intros H. apply read_many_exact with (D := row_ok F deg ff); [|exact H].
  intros row rest' [Hl He]. rewrite <- Hl. now apply read_elems_exact.
Qed.

(* parse_all: the blob is exactly the component (OOD evaluations, FRI remainder, FRI layer values) *)
Theorem parse_all_elems_exact F deg es : Forall (elem_ok F deg) es ->
  parse_all (read_many (read_elem F deg) (Z.of_nat (length es))) (write_elems F es) =
  if elems_canonical F es then Ok es else Err Invalid.
Proof.
  intros H. unfold parse_all. rewrite <- (app_nil_r (write_elems F es)) at 1. rewrite (read_elems_exact F deg es [] H).
  destruct (elems_canonical F es); reflexivity.
Qed.

(* parse_prefix: Table::from_bytes reads its elements and does not look at what follows *)
Theorem parse_prefix_elems_exact F deg es rest : Forall (elem_ok F deg) es ->
  parse_prefix (read_many (read_elem F deg) (Z.of_nat (length es))) (write_elems F es ++ rest) =
  if elems_canonical F es then Ok es else Err Invalid.
Proof.
  intros H. unfold parse_prefix. rewrite (read_elems_exact F deg es rest H).
  destruct (elems_canonical F es); reflexivity.
Qed.

Lemma write_elem_len F deg ws : elem_ok F deg ws -> len (write_elem F ws) = elem_bytes F deg.
Proof.
  intros [Hl _]. unfold write_elem, elem_bytes, len. subst deg.
  induction ws as [|w ws IH]; [cbn; lia|].
  rewrite write_many_cons, app_length, write_uint_length. cbn [length]. unfold write_many in *. lia.
Qed.

Lemma write_elems_len F deg es : Forall (elem_ok F deg) es -> len (write_elems F es) = Z.of_nat (length es) * elem_bytes F deg.
Proof.
  intros H. unfold write_elems. induction H as [|e es He _ IH]; [cbn; lia|].
  rewrite write_many_cons. unfold len in *. rewrite app_length. cbn [length].
  pose proof (write_elem_len F deg e He) as Hl. unfold len in Hl. lia.
Qed.

(* FriProof::parse_remainder on a remainder of 2^k elements: Ok exactly when every word is canonical *)
Theorem Fri_parse_remainder_exact F deg ls np es :
  0 < elem_bytes F deg -> Forall (elem_ok F deg) es -> is_pow2 (Z.of_nat (length es)) = true ->
  Fri_parse_remainder F deg (mkFri ls (write_elems F es) np) =
  if elems_canonical F es then Ok (Z.of_nat (length es)) else Err Invalid.
Proof.
  intros Heb He Hp. unfold Fri_parse_remainder. cbn [fri_remainder].
  rewrite (write_elems_len F deg es He), Z.div_mul by lia. rewrite Hp. cbn [negb].
  rewrite (parse_all_elems_exact F deg es He). unfold rbind, llen.
  destruct (elems_canonical F es); reflexivity.
Qed.

(* non-vacuity and the four value kinds of the harness generators (harness/src/noncanon.rs), f64: modulus, modulus + 1,
   2^64 - 1, modulus + v *)
Example remainder_value_kinds :
  let rem w := mkFri [] (write_elems F64P [[5]; [w]]) 0 in
  Fri_parse_remainder F64P 1 (rem 7) = Ok 2 /\
  Fri_parse_remainder F64P 1 (rem (M64 - 1)) = Ok 2 /\
  Fri_parse_remainder F64P 1 (rem M64) = Err Invalid /\
  Fri_parse_remainder F64P 1 (rem (M64 + 1)) = Err Invalid /\
  Fri_parse_remainder F64P 1 (rem (2 ^ 64 - 1)) = Err Invalid /\
  Fri_parse_remainder F64P 1 (rem (M64 + 7)) = Err Invalid /\
  Fri_parse_remainder F128P 2 (mkFri [] (write_elems F128P [[1; M128]]) 0) = Err Invalid /\
  Fri_parse_remainder F62P 3 (mkFri [] (write_elems F62P [[1; 2; M62 + 2]]) 0) = Err Invalid /\
  Fri_parse_remainder F62P 3 (mkFri [] (write_elems F62P [[1; 2; M62 - 1]]) 0) = Ok 1.
Proof. vm_compute. repeat split; reflexivity. Qed.
