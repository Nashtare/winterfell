(* C10 — batch binding: for ANY batch proof accepted by get_root, into_paths returns paths that start
   with the claimed leaves and verify individually against the same root; single binding then applies
   to each path.  Invariants of the partial-tree map through gfirst / gscan / glevels. *)
From Coq Require Import ZArith List Bool Lia.
From VBase Require Import MachInt.
From VModel Require Import Merkle.
From VProofs Require Import MerkleBase MerkleSingle MerkleIdx MerkleBatch MerkleTotal.
Import ListNotations.
Open Scope Z_scope.

(* ---------------------------------------------------------------- arithmetic on heap indexes *)
Definition lev (l a : Z) : Prop := 2 ^ l <= a < 2 ^ (l + 1).

Lemma lev_lxor l a : 1 <= l -> lev l a -> lev l (Z.lxor a 1).
Proof.
  unfold lev. intros Hl H. pose proof (p2_pos (l - 1) ltac:(lia)).
  rewrite p2_succ, (p2_pred l Hl) in * by lia. rewrite lxor1 by lia. zmod a. lia.
Qed.

Lemma lev_div2 l a : 1 <= l -> lev l a -> lev (l - 1) (a / 2).
Proof.
  unfold lev. intros Hl H. replace (l - 1 + 1) with l by lia. pose proof (p2_pos (l - 1) ltac:(lia)).
  rewrite p2_succ, (p2_pred l Hl) in * by lia. zmod a. lia.
Qed.

Lemma lev_pos l a : 0 <= l -> lev l a -> 1 <= a.
Proof. unfold lev. intros Hl H. pose proof (p2_pos l Hl). lia. Qed.

Lemma lev_ge2 l a : 1 <= l -> lev l a -> 2 <= a.
Proof. unfold lev. intros Hl H. rewrite (p2_pred l Hl) in H. pose proof (p2_pos (l - 1) ltac:(lia)). lia. Qed.

Lemma lev_half_lt l a b : 1 <= l -> lev l a -> lev l b -> a / 2 <> b.
Proof. intros Hl Ha Hb E. apply lev_div2 in Ha; [|assumption]. unfold lev in *. replace (l - 1 + 1) with l in Ha by lia. lia. Qed.

Fixpoint ssorted (l : list Z) : Prop :=
  match l with [] => True | a :: r => (forall b, In b r -> a < b) /\ ssorted r end.

Lemma unmerged_notin a rest : 0 <= a -> ssorted (a :: rest) -> merged a rest = false -> ~ In (Z.lxor a 1) rest.
Proof.
  intros Ha [Hlt Hs] Hm Hin. destruct rest as [|b r]; [destruct Hin|].
  cbn in Hm. apply Z.eqb_neq in Hm. destruct Hs as [Hb _].
  pose proof (Hlt b (or_introl eq_refl)). pose proof (Hlt _ Hin) as Hx.
  rewrite lxor1 in * by lia. destruct Hin as [->|Hin]; [congruence|]. apply Hb in Hin.
  destruct (mod2_cases a); lia.
Qed.

Lemma merged_sorted_even a rest' : 0 <= a -> ssorted (a :: Z.lxor a 1 :: rest') ->
  a mod 2 = 0 /\ Z.lxor a 1 = a + 1 /\ forall b, In b rest' -> a + 1 < b.
Proof.
  intros Ha [Hlt [Hlt2 _]]. pose proof (Hlt _ (or_introl eq_refl)) as H. rewrite lxor1 in * by lia.
  destruct (mod2_cases a) as [E|E]; rewrite E in *; [|lia]. split; [reflexivity|]. split; [lia|].
  intros b Hb. apply Hlt2 in Hb. lia.
Qed.

(* what a level loop leaves behind a (and its sibling, when that is next) has parents beyond a / 2 *)
Lemma merged_rest_half a r : 0 <= a -> ssorted (a :: Z.lxor a 1 :: r) -> forall c, In c r -> a / 2 < c / 2.
Proof.
  intros Ha HS c Hc. destruct (merged_sorted_even a r Ha HS) as (Hev & _ & Hgt). apply Hgt in Hc. zmod a. zmod c. lia.
Qed.

Lemma unmerged_rest_half a r : 0 <= a -> ssorted (a :: r) -> merged a r = false -> forall c, In c r -> a / 2 < c / 2.
Proof.
  intros Ha HS Em c Hc. pose proof (unmerged_notin a r Ha HS Em) as Hnot. destruct HS as [Hlt _]. pose proof (Hlt c Hc).
  assert (c <> Z.lxor a 1) by (intros ->; contradiction). rewrite lxor1 in * by lia. zmod a. zmod c. lia.
Qed.

Section Bind.
Variable D : Type.
Variable D_eqb : D -> D -> bool.
Hypothesis D_eqb_spec : forall a b, D_eqb a b = true <-> a = b.
Variable d0 : D.
Variable merge : D -> D -> D.

Notation bproof := (bproof D).
Notation gscan := (gscan D merge).
Notation glevels := (glevels D merge).
Notation gfirst := (gfirst D merge).
Notation gleaf := (gleaf D).
Notation gstep := (gstep D merge).
Notation gsib := (gsib D).
Notation gcore := (gcore D merge).
Notation get_root := (get_root D merge).
Notation into_paths := (into_paths D merge).
Notation verify := (verify D D_eqb merge).
Notation verify_fold := (verify_fold D merge).

(* ---------------------------------------------------------------- map inclusion, local equations *)
Definition sle (m m' : bmap D) : Prop := forall k x, bt_get k m = Some x -> bt_get k m' = Some x.

Lemma sle_refl m : sle m m.
Proof. intros k x H. exact H. Qed.

Lemma sle_trans a b c : sle a b -> sle b c -> sle a c.
Proof. intros H1 H2 k x H. auto. Qed.

Lemma sle_insert k x m : (forall y, bt_get k m = Some y -> y = x) -> sle m (bt_insert k x m).
Proof. intros H k2 y E. rewrite bt_get_insert. destruct (Z.eqb_spec k2 k) as [->|]; [f_equal; symmetry; auto|assumption]. Qed.

Lemma sle_insert_none k x m : bt_get k m = None -> sle m (bt_insert k x m).
Proof. intros H. apply sle_insert. intros y E. congruence. Qed.

Definition mrg (c : Z) (x y : D) : D := if Z.land c 1 =? 0 then merge x y else merge y x.

Lemma mrg_sym a x y : 0 <= a -> mrg (Z.lxor a 1) y x = mrg a x y.
Proof.
  intros Ha. unfold mrg. rewrite !land1, lxor1_mod2 by assumption.
  destruct (mod2_cases a) as [E|E]; rewrite E; reflexivity.
Qed.

(* the node c, its sibling and their parent are in the map and satisfy parent = merge(children) *)
Definition loc (ptm : bmap D) (c : Z) : Prop :=
  exists x y, bt_get c ptm = Some x /\ bt_get (Z.lxor c 1) ptm = Some y /\ bt_get (c / 2) ptm = Some (mrg c x y).

Lemma loc_sle m m' c : sle m m' -> loc m c -> loc m' c.
Proof. intros S (x & y & A & B & C). exists x, y. auto. Qed.

Lemma gstep_inv a s v ptm v1 ptm1 pi :
  gstep a s v ptm = Ok (v1, ptm1, pi) ->
  exists node, bt_get a v = Some node /\ pi = a / 2 /\
    v1 = bt_insert (a / 2) (mrg a node s) v /\
    ptm1 = bt_insert (a / 2) (mrg a node s) (bt_insert (Z.lxor a 1) s ptm).
Proof.
  unfold Merkle.gstep. destruct (bt_get a v) as [node|]; [|discriminate]. rewrite shiftr1. intros [= <- <- <-].
  exists node. unfold mrg. destruct (Z.land a 1 =? 0); cbn [negb]; auto.
Qed.

(* one iteration of the level loop, when the sibling of a is the next element ... *)
Lemma gscan_merged_inv pn a r i v ptrs ptm vF ptrsF ptmF next :
  gscan pn (a :: Z.lxor a 1 :: r) i v ptrs ptm = Ok (vF, ptrsF, ptmF, next) ->
  exists node s next', bt_get a v = Some node /\ bt_get (Z.lxor a 1) v = Some s /\ next = a / 2 :: next' /\
    gscan pn r (i + 2) (bt_insert (a / 2) (mrg a node s) v) ptrs
          (bt_insert (a / 2) (mrg a node s) (bt_insert (Z.lxor a 1) s ptm)) = Ok (vF, ptrsF, ptmF, next').
Proof.
  intros E. rewrite gscan_unfold, merged_same in E. cbn [tl] in E.
  destruct (bt_get (Z.lxor a 1) v) as [s|] eqn:Es; [|discriminate].
  apply bind_Ok in E. destruct E as ([[v1 ptm1] pi] & Eg & E).
  apply gstep_inv in Eg. destruct Eg as (node & Ev & -> & -> & ->).
  apply bind_Ok in E. destruct E as ([[[vF' ptrsF'] ptmF'] next'] & Er & E). injection E as <- <- <- <-.
  exists node, s, next'. auto.
Qed.

(* ... and when it is read from the proof *)
Lemma gscan_single_inv pn a r i v ptrs ptm vF ptrsF ptmF next : merged a r = false ->
  gscan pn (a :: r) i v ptrs ptm = Ok (vF, ptrsF, ptmF, next) ->
  exists node s ptrs1 next', bt_get a v = Some node /\ gsib pn ptrs i = Ok (s, ptrs1) /\ next = a / 2 :: next' /\
    gscan pn r (i + 1) (bt_insert (a / 2) (mrg a node s) v) ptrs1
          (bt_insert (a / 2) (mrg a node s) (bt_insert (Z.lxor a 1) s ptm)) = Ok (vF, ptrsF, ptmF, next').
Proof.
  intros Em E. rewrite gscan_unfold, Em in E.
  apply bind_Ok in E. destruct E as ([s ptrs1] & Es & E).
  apply bind_Ok in E. destruct E as ([[v1 ptm1] pi] & Eg & E).
  apply gstep_inv in Eg. destruct Eg as (node & Ev & -> & -> & ->).
  apply bind_Ok in E. destruct E as ([[[vF' ptrsF'] ptmF'] next'] & Er & E). injection E as <- <- <- <-.
  exists node, s, ptrs1, next'. auto.
Qed.

(* one iteration of the first loop *)
Lemma gfirst_cons_inv (p : bproof) imap offset e rest i v ptm vF ptrs ptmF next :
  gfirst p imap offset (e :: rest) i v ptm = Ok (vF, ptrs, ptmF, next) ->
  exists b0 b1 ptr ptrs' next', gleaf p imap i e = Ok (b0, b1, ptr) /\ ptrs = ptr :: ptrs' /\
    next = (offset + e) / 2 :: next' /\
    gfirst p imap offset rest (i + 1) (bt_insert ((offset + e) / 2) (merge b0 b1) v)
      (bt_insert ((offset + e) / 2) (merge b0 b1) (bt_insert (Z.lxor (offset + e) 1) b1 (bt_insert (offset + e) b0 ptm)))
    = Ok (vF, ptrs', ptmF, next').
Proof.
  cbn [Merkle.gfirst]. intros E. apply bind_Ok in E. destruct E as ([[b0 b1] ptr] & Egl & E).
  apply bind_Ok in E. destruct E as (oi & Eu & E). apply uadd_inv in Eu. destruct Eu as [-> _]. rewrite shiftr1 in E.
  apply bind_Ok in E. destruct E as ([[[vF' ptrs'] ptmF'] next'] & Er & E). injection E as <- <- <- <-.
  exists b0, b1, ptr, ptrs', next'. auto.
Qed.

(* ---------------------------------------------------------------- one level *)
(* Pre- and postcondition of one level loop over the nodes I of row l.  pre: I is strictly sorted, the values of its
   nodes are in v and in the partial tree, a sibling the partial tree already holds is itself in I, and no parent is there
   yet.  post: the partial tree has only grown, by siblings and parents; every node of I is locally consistent in it;
   next lists the parents, whose values are in vF and in the partial tree; v changed at the parents only. *)
Definition pre (l : Z) (I : list Z) (v ptm : bmap D) : Prop :=
  ssorted I /\ (forall a, In a I -> lev l a) /\
  (forall a, In a I -> exists x, bt_get a v = Some x /\ bt_get a ptm = Some x) /\
  (forall a y, In a I -> bt_get (Z.lxor a 1) ptm = Some y -> In (Z.lxor a 1) I) /\
  (forall a, In a I -> bt_get (a / 2) ptm = None).

Definition post (I : list Z) (v ptm vF ptmF : bmap D) (next : list Z) : Prop :=
  sle ptm ptmF /\ (forall a, In a I -> loc ptmF a) /\
  ssorted next /\ (forall b, In b next <-> exists a, In a I /\ b = a / 2) /\
  (forall b, In b next -> exists x, bt_get b vF = Some x /\ bt_get b ptmF = Some x) /\
  (forall k, (forall a, In a I -> k <> a / 2) -> bt_get k vF = bt_get k v) /\
  (forall k y, bt_get k ptmF = Some y ->
     bt_get k ptm = Some y \/ exists a, In a I /\ (k = Z.lxor a 1 \/ k = a / 2)).

(* one step of a level loop at a, with sibling value s: the precondition passes to what is left of the level, R,
   whose elements have their parents beyond a / 2, and the postcondition comes back from R *)
Lemma level_step l a s node v ptm I R :
  1 <= l -> pre l I v ptm -> In a I -> bt_get a v = Some node ->
  (In (Z.lxor a 1) I -> bt_get (Z.lxor a 1) v = Some s) ->
  ssorted R -> (forall c, In c R -> In c I /\ a / 2 < c / 2) -> (forall c, In c I -> c = a \/ c = Z.lxor a 1 \/ In c R) ->
  let v1 := bt_insert (a / 2) (mrg a node s) v in
  let ptm1 := bt_insert (a / 2) (mrg a node s) (bt_insert (Z.lxor a 1) s ptm) in
  pre l R v1 ptm1 /\
  forall vF ptmF next', post R v1 ptm1 vF ptmF next' -> post I v ptm vF ptmF (a / 2 :: next').
Proof.
  intros Hl (HS & HL & H2 & H3 & H4) Ha Ev Hs HSR HR HI v1 ptm1.
  pose proof (HL a Ha) as La. pose proof (lev_ge2 l a Hl La) as Ha2. pose proof (lev_lxor l a Hl La) as Lx.
  assert (Hhalf : Z.lxor a 1 / 2 = a / 2) by (apply lxor1_div2; lia).
  assert (Nax : a / 2 <> Z.lxor a 1) by (apply (lev_half_lt l); assumption).
  destruct (H2 a Ha) as (? & Ev' & Ep). rewrite Ev in Ev'. injection Ev' as <-.
  (* a key of this level with its parent beyond a / 2 is not touched, nor is its parent *)
  assert (Hout : forall k, lev l k -> a / 2 < k / 2 ->
            bt_get k v1 = bt_get k v /\ bt_get k ptm1 = bt_get k ptm /\ bt_get (k / 2) ptm1 = bt_get (k / 2) ptm).
  { intros k Lk Hk. pose proof (lev_half_lt l a k Hl La Lk). pose proof (lev_half_lt l k _ Hl Lk Lx).
    assert (k <> Z.lxor a 1) by (intros ->; lia).
    unfold v1, ptm1. rewrite !bt_get_insert_other by (assumption || lia). auto. }
  split.
  - split; [assumption|]. split; [intros c Hc; apply HL, HR, Hc|]. split; [|split].
    + intros c Hc. destruct (HR c Hc) as [Hc' Hlt]. destruct (Hout c (HL c Hc') Hlt) as (-> & -> & _). apply H2, Hc'.
    + intros c y Hc. destruct (HR c Hc) as [Hc' Hlt]. pose proof (lev_ge2 l c Hl (HL c Hc')).
      assert (Hlt' : a / 2 < Z.lxor c 1 / 2) by (rewrite lxor1_div2; lia).
      destruct (Hout _ (lev_lxor l c Hl (HL c Hc')) Hlt') as (_ & -> & _). intros Ey.
      destruct (HI _ (H3 c y Hc' Ey)) as [E|[E|Hin]]; [rewrite E in Hlt'; lia..|assumption].
    + intros c Hc. destruct (HR c Hc) as [Hc' Hlt]. destruct (Hout c (HL c Hc') Hlt) as (_ & _ & ->). apply H4, Hc'.
  - intros vF ptmF next' (Q0 & Q1 & Q2 & Q3 & Q4 & Q5 & Q6).
    assert (S1 : sle ptm ptm1).
    { apply (sle_trans _ (bt_insert (Z.lxor a 1) s ptm)).
      - apply sle_insert. intros y Ey. destruct (H2 _ (H3 a y Ha Ey)) as (x & Ex & Ep'). rewrite (Hs (H3 a y Ha Ey)) in Ex. congruence.
      - apply sle_insert_none. rewrite bt_get_insert_other by assumption. apply H4, Ha. }
    assert (Gx : bt_get (Z.lxor a 1) ptm1 = Some s) by (unfold ptm1; rewrite bt_get_insert_other by auto; apply bt_get_insert_same).
    assert (Gp : bt_get (a / 2) ptm1 = Some (mrg a node s)) by apply bt_get_insert_same.
    split; [eapply sle_trans; eassumption|]. split; [|split; [|split; [|split; [|split]]]].
    + intros c Hc. destruct (HI c Hc) as [->|[->|Hc']]; [| |apply Q1; assumption]; apply (loc_sle _ _ _ Q0).
      * exists node, s. auto.
      * exists s, node. rewrite lxor1_invol, Hhalf, mrg_sym by lia. auto.
    + split; [|assumption]. intros b Hb. apply Q3 in Hb. destruct Hb as (c & Hc & ->). apply HR. assumption.
    + intros b. split.
      * intros [<-|Hb]; [eauto|]. apply Q3 in Hb. destruct Hb as (c & Hc & ->). exists c. split; [apply HR; assumption|reflexivity].
      * intros (c & Hc & ->). destruct (HI c Hc) as [->|[->|Hc']]; [left; reflexivity|left; symmetry; assumption|]. right. apply Q3. eauto.
    + intros b [<-|Hb]; [|apply Q4; assumption]. exists (mrg a node s). split; [|apply Q0; assumption].
      rewrite Q5; [apply bt_get_insert_same|]. intros c Hc E'. apply HR in Hc. lia.
    + intros k Hk. rewrite Q5 by (intros c Hc; apply Hk, HR; assumption). apply bt_get_insert_other. apply Hk. assumption.
    + intros k y Ek. apply Q6 in Ek. destruct Ek as [Ek|(c & Hc & Hk)].
      * unfold ptm1 in Ek. rewrite !bt_get_insert in Ek. destruct (Z.eqb_spec k (a / 2)) as [->|N1]; [right; exists a; auto|].
        destruct (Z.eqb_spec k (Z.lxor a 1)) as [->|N2]; [right; exists a; auto|]. left. assumption.
      * right. exists c. split; [apply HR; assumption|assumption].
Qed.

Lemma gscan_inv pn (l : Z) : 1 <= l -> forall n I i v ptrs ptm vF ptrsF ptmF next, (length I <= n)%nat ->
  gscan pn I i v ptrs ptm = Ok (vF, ptrsF, ptmF, next) ->
  pre l I v ptm -> post I v ptm vF ptmF next.
Proof.
  intros Hl n I. revert n.
  induction I as [|a rest' IH|a rest Em IH] using scan_ind; intros n i v ptrs ptm vF ptrsF ptmF next _ E HP.
  { cbn in E. injection E as <- <- <- <-.
    split; [apply sle_refl|]. split; [intros ? []|]. split; [exact Logic.I|]. split; [split; [intros []|intros (a & [] & _)]|].
    split; [intros ? []|]. split; [reflexivity|]. auto. }
  all: pose proof HP as (HS & HL & _); assert (Ha : 0 <= a) by (pose proof (lev_pos l a ltac:(lia) (HL a (or_introl eq_refl))); lia).
  - (* the sibling is the next element *)
    apply gscan_merged_inv in E. destruct E as (node & s & next' & Ev & Esv & -> & Er).
    destruct (level_step l a s node v ptm _ rest' Hl HP (or_introl eq_refl) Ev (fun _ => Esv)) as [HP1 HQ].
    + apply HS.
    + intros c Hc. split; [right; right; assumption|]. apply (merged_rest_half a rest'); assumption.
    + intros c [<-|[<-|Hc]]; auto.
    + apply HQ, (IH _ (i + 2) _ ptrs _ vF ptrsF ptmF next' (le_n _) Er HP1).
  - (* the sibling comes from the proof *)
    apply (gscan_single_inv _ _ _ _ _ _ _ _ _ _ _ Em) in E. destruct E as (node & s & ptrs1 & next' & Ev & _ & -> & Er).
    destruct (level_step l a s node v ptm _ rest Hl HP (or_introl eq_refl) Ev) as [HP1 HQ].
    + intros [E|Hin]; [symmetry in E; destruct (lxor1_neq a Ha E)|destruct (unmerged_notin a rest Ha HS Em Hin)].
    + apply HS.
    + intros c Hc. split; [right; assumption|]. apply (unmerged_rest_half a rest); assumption.
    + intros c [<-|Hc]; auto.
    + apply HQ, (IH _ (i + 1) _ ptrs1 _ vF ptrsF ptmF next' (le_n _) Er HP1).
Qed.

(* ---------------------------------------------------------------- all levels *)
(* c is a or one of its ancestors, the root excluded *)
Definition anc (a c : Z) : Prop := exists j, 0 <= j /\ c = a / 2 ^ j /\ 2 <= c.

Lemma anc_self a : 2 <= a -> anc a a.
Proof. intros. exists 0. rewrite Z.div_1_r. auto with zarith. Qed.

Lemma anc_half a c : anc (a / 2) c -> anc a c.
Proof.
  intros (j & Hj & -> & Hc). exists (j + 1). split; [lia|]. split; [|assumption].
  rewrite p2_succ, Z.div_div by (try apply p2_pos; lia). reflexivity.
Qed.

Lemma anc_inv a c : anc a c -> c = a \/ anc (a / 2) c.
Proof.
  intros (j & Hj & -> & Hc). destruct (Z.eq_dec j 0) as [->|Hj0]; [left; apply Z.div_1_r|].
  right. exists (j - 1). split; [lia|]. split; [|assumption].
  rewrite Z.div_div, <- p2_succ by (try apply p2_pos; lia). do 2 f_equal. lia.
Qed.

(* a level whose entries below 2^(k+1) in the partial tree are exactly its elements satisfies the precondition *)
Lemma pre_next (k : nat) next (v ptm : bmap D) :
  ssorted next -> (forall b, In b next -> lev (Z.of_nat k) b) ->
  (forall b, In b next -> exists x, bt_get b v = Some x /\ bt_get b ptm = Some x) ->
  (forall j y, bt_get j ptm = Some y -> j < 2 ^ (Z.of_nat k + 1) -> In j next) ->
  pre (Z.of_nat k) next v ptm /\ (forall j, j < 2 ^ Z.of_nat k -> bt_get j ptm = None).
Proof.
  intros HS HLn H2 Hprov. pose proof (p2_pos (Z.of_nat k) ltac:(lia)). pose proof (p2_succ (Z.of_nat k) ltac:(lia)) as Hp2.
  split; [split; [assumption|split; [assumption|split; [assumption|split]]]|].
  - intros b y Hb Eb. apply (Hprov _ y Eb). pose proof (HLn b Hb) as Lb. destruct k as [|k'].
    + unfold lev in Lb. cbn in Lb. assert (b = 1) by lia. subst b. cbn. lia.
    + apply (lev_lxor (Z.of_nat (S k')) b) in Lb; [|lia]. unfold lev in Lb. lia.
  - intros b Hb. destruct (bt_get (b / 2) ptm) eqn:Eb; [|reflexivity]. exfalso.
    pose proof (HLn b Hb) as Lb. unfold lev in Lb. zmod b. apply Hprov in Eb; [|lia]. apply HLn in Eb. unfold lev in Eb. lia.
  - intros j Hj. destruct (bt_get j ptm) eqn:Ej; [|reflexivity]. exfalso.
    apply Hprov in Ej; [|lia]. apply HLn in Ej. unfold lev in Ej. lia.
Qed.

Lemma glevels_inv pn : forall (k : nat) I v ptrs ptm vF ptrsF ptmF,
  glevels k pn I v ptrs ptm = Ok (vF, ptrsF, ptmF) ->
  pre (Z.of_nat k) I v ptm -> (forall j, j < 2 ^ Z.of_nat k -> bt_get j ptm = None) ->
  sle ptm ptmF /\ (forall a c, In a I -> anc a c -> loc ptmF c) /\
  (I <> [] -> exists r, bt_get 1 vF = Some r /\ bt_get 1 ptmF = Some r).
Proof.
  induction k as [|k IH]; intros I v ptrs ptm vF ptrsF ptmF E HP H5.
  - cbn in E. injection E as <- <- <-. destruct HP as (_ & HL & H2 & _).
    split; [apply sle_refl|]. split.
    + intros a c Ha (j & Hj & -> & Hc). exfalso. apply HL in Ha. unfold lev in Ha. cbn in Ha.
      assert (a = 1) by lia. subst a. assert (0 < 2 ^ j) by (apply p2_pos; lia).
      assert (1 / 2 ^ j <= 1); [|lia]. apply Z.div_le_upper_bound; lia.
    + intros Hne. destruct I as [|a r]; [congruence|]. pose proof (HL a (or_introl eq_refl)) as La. unfold lev in La. cbn in La.
      assert (a = 1) by lia. subst a. apply H2. left. reflexivity.
  - cbn [Merkle.glevels] in E. apply bind_Ok in E. destruct E as ([[[v1 ptrs1] ptm1] next] & Es & E).
    assert (Hl : 1 <= Z.of_nat (S k)) by lia.
    pose proof (gscan_inv pn (Z.of_nat (S k)) Hl (length I) I 0 v ptrs ptm v1 ptrs1 ptm1 next (le_n _) Es HP)
      as (Q0 & Q1 & Q2 & Q3 & Q4 & Q5 & Q6).
    destruct HP as (HS & HL & H2 & H3 & H4).
    assert (Hk1 : Z.of_nat (S k) - 1 = Z.of_nat k) by lia.
    assert (HLn : forall b, In b next -> lev (Z.of_nat k) b).
    { intros b Hb. apply Q3 in Hb. destruct Hb as (a & Ha & ->). rewrite <- Hk1. apply lev_div2; [assumption|apply HL; assumption]. }
    destruct (pre_next k next v1 ptm1 Q2 HLn Q4) as [HP1 H51].
    { (* below 2^(k+1) the scan has only added the parents *)
      intros j y Ej Hj. replace (Z.of_nat k + 1) with (Z.of_nat (S k)) in Hj by lia.
      apply Q6 in Ej. destruct Ej as [Ej|(a & Ha & [->| ->])].
      - rewrite H5 in Ej; [discriminate|assumption].
      - exfalso. pose proof (lev_lxor _ _ Hl (HL a Ha)) as Lx. unfold lev in Lx. lia.
      - apply Q3. eauto. }
    destruct (IH next v1 ptrs1 ptm1 vF ptrsF ptmF E HP1 H51) as (R0 & R1 & R2).
    split; [eapply sle_trans; eassumption|]. split.
    + intros a c Ha Hc. apply anc_inv in Hc. destruct Hc as [->|Hc].
      * apply (loc_sle _ _ _ R0). apply Q1. assumption.
      * apply (R1 (a / 2)); [apply Q3; eauto|assumption].
    + intros Hne. apply R2. destruct I as [|a r]; [congruence|]. intros En.
      assert (Hin : In (a / 2) next) by (apply Q3; exists a; split; [left; reflexivity|reflexivity]).
      rewrite En in Hin. destruct Hin.
Qed.

(* ---------------------------------------------------------------- first loop *)
Lemma gleafv_inv (p : bproof) j b : gleafv D p j = Ok b -> nth_error (bp_leaves p) (Z.to_nat j) = Some b.
Proof.
  unfold Merkle.gleafv. destruct (zlen (bp_leaves p) <=? j); [discriminate|]. intros E. apply idx_inv in E. tauto.
Qed.

Lemma gleaf_inv (p : bproof) imap i e b0 b1 ptr :
  gleaf p imap i e = Ok (b0, b1, ptr) ->
  (forall j, bt_get e imap = Some j -> nth_error (bp_leaves p) (Z.to_nat j) = Some b0) /\
  (forall j, bt_get (e + 1) imap = Some j -> nth_error (bp_leaves p) (Z.to_nat j) = Some b1).
Proof.
  unfold Merkle.gleaf. intros E. apply bind_Ok in E. destruct E as (i1 & Eu & E). apply uadd_inv in Eu. destruct Eu as [-> _].
  (* in each case a leaf found through imap is read by gleafv, the other value comes from the proof *)
  destruct (bt_get e imap) as [j1|]; destruct (bt_get (e + 1) imap) as [j2|];
    apply bind_Ok in E; destruct E as (x0 & E0 & E); try discriminate;
    apply bind_Ok in E; destruct E as (x1 & E1 & E); injection E as <- <- <-;
    split; intros j [= <-]; apply gleafv_inv; assumption.
Qed.

Section FirstInv.
Variable p : bproof.
Variable imap : bmap Z.
Variable dz : Z.
Hypothesis Hdz : 1 <= dz.
Let offset := 2 ^ dz.

Lemma offset_even : offset mod 2 = 0 /\ 2 <= offset.
Proof. apply pow2_even. assumption. Qed.

(* what the partial tree holds at the leaf pairs of norm are leaves claimed by the proof (found through imap) *)
Definition g1 (norm : list Z) (ptm : bmap D) : Prop :=
  forall e x, In e norm ->
    (bt_get (offset + e) ptm = Some x -> exists j, bt_get e imap = Some j /\ nth_error (bp_leaves p) (Z.to_nat j) = Some x) /\
    (bt_get (offset + e + 1) ptm = Some x -> exists j, bt_get (e + 1) imap = Some j /\ nth_error (bp_leaves p) (Z.to_nat j) = Some x).

Lemma gfirst_inv : forall norm i v ptm vF ptrs ptmF next,
  gfirst p imap offset norm i v ptm = Ok (vF, ptrs, ptmF, next) ->
  ssorted norm -> (forall e, In e norm -> 0 <= e < offset /\ e mod 2 = 0) ->
  g1 norm ptm -> (forall e, In e norm -> bt_get ((offset + e) / 2) ptm = None) ->
  sle ptm ptmF /\ (forall e, In e norm -> loc ptmF (offset + e) /\ loc ptmF (offset + e + 1)) /\
  next = map (fun e => (offset + e) / 2) norm /\
  (forall b, In b next -> exists x, bt_get b vF = Some x /\ bt_get b ptmF = Some x) /\
  (forall k, ~ In k next -> bt_get k vF = bt_get k v) /\
  (forall k y, bt_get k ptmF = Some y -> bt_get k ptm = Some y \/
     exists e, In e norm /\ (k = offset + e \/ k = offset + e + 1 \/ k = (offset + e) / 2)).
Proof using Hdz d0.
  destruct offset_even as [Hoe Ho2].
  induction norm as [|e rest IH]; intros i v ptm vF ptrs ptmF next E HS Hr G1 G2.
  - cbn in E. injection E as <- <- <- <-. split; [apply sle_refl|]. split; [intros ? []|]. split; [reflexivity|].
    split; [intros ? []|]. split; [reflexivity|]. auto.
  - apply gfirst_cons_inv in E. destruct E as (b0 & b1 & ptr & ptrs' & next' & Egl & -> & -> & Er).
    apply gleaf_inv in Egl. destruct Egl as [L0 L1].
    destruct (Hr e (or_introl eq_refl)) as [He Hev]. destruct HS as [Hlt HS].
    set (oi := offset + e) in *.
    assert (Hoi : oi mod 2 = 0) by (unfold oi; rewrite Z.add_comm, mod2_add_even; assumption).
    assert (Hx : Z.lxor oi 1 = oi + 1) by (apply lxor1_even; [unfold oi; lia|exact Hoi]).
    rewrite Hx in Er.
    assert (Hpi : oi / 2 < offset) by (unfold oi; zmod (offset + e); lia).
    set (ptmA := bt_insert oi b0 ptm) in *. set (ptmB := bt_insert (oi + 1) b1 ptmA) in *.
    set (ptmC := bt_insert (oi / 2) (merge b0 b1) ptmB) in *.
    assert (SA : sle ptm ptmA).
    { apply sle_insert. intros x Ex. destruct (G1 e x (or_introl eq_refl)) as [Ga _]. destruct (Ga Ex) as (j & Ej & En).
      rewrite (L0 j Ej) in En. congruence. }
    assert (SB : sle ptmA ptmB).
    { apply sle_insert. intros x Ex. unfold ptmA in Ex. rewrite bt_get_insert_other in Ex by lia.
      destruct (G1 e x (or_introl eq_refl)) as [_ Gb]. destruct (Gb Ex) as (j & Ej & En). rewrite (L1 j Ej) in En. congruence. }
    assert (SC : sle ptmB ptmC).
    { apply sle_insert_none. unfold ptmB, ptmA. rewrite !bt_get_insert_other by (unfold oi in *; lia).
      apply G2. left. reflexivity. }
    assert (Hrest : forall e', In e' rest -> oi + 2 <= offset + e' /\ oi / 2 < (offset + e') / 2 < offset).
    { intros e' He'. pose proof (Hlt e' He'). destruct (Hr e' (or_intror He')) as [? ?].
      unfold oi in *. zmod e. zmod e'. zmod (offset + e). zmod (offset + e'). lia. }
    assert (Hother : forall k, k <> oi -> k <> oi + 1 -> k <> oi / 2 -> bt_get k ptmC = bt_get k ptm).
    { intros k N1 N2 N3. unfold ptmC, ptmB, ptmA. rewrite !bt_get_insert_other by assumption. reflexivity. }
    destruct (IH (i + 1) _ _ vF ptrs' ptmF next' Er HS) as (Q0 & Q1 & Q2 & Q3 & Q4 & Q5).
    + intros e' He'. apply Hr. right. assumption.
    + intros e' x He'. pose proof (Hrest e' He'). rewrite !Hother by lia. apply G1. right. assumption.
    + intros e' He'. pose proof (Hrest e' He'). rewrite Hother by lia. apply G2. right. assumption.
    + assert (SS : sle ptm ptmC) by (eapply sle_trans; [exact SA|eapply sle_trans; eassumption]).
      assert (GA : bt_get oi ptmC = Some b0).
      { apply SC, SB. apply bt_get_insert_same. }
      assert (GB : bt_get (oi + 1) ptmC = Some b1) by (apply SC; apply bt_get_insert_same).
      assert (GC : bt_get (oi / 2) ptmC = Some (merge b0 b1)) by apply bt_get_insert_same.
      split; [eapply sle_trans; eassumption|]. split; [|split; [|split; [|split]]].
      * intros e' [<-|He']; [|apply Q1; assumption]. fold oi. split; apply (loc_sle _ _ _ Q0).
        -- exists b0, b1. rewrite Hx. split; [assumption|]. split; [assumption|].
           unfold mrg. rewrite land1, Hoi. assumption.
        -- exists b1, b0. rewrite <- Hx. rewrite lxor1_invol by (unfold oi; lia). rewrite lxor1_div2 by (unfold oi; lia).
           rewrite Hx. split; [assumption|]. split; [assumption|].
           rewrite <- Hx. rewrite mrg_sym by (unfold oi; lia). unfold mrg. rewrite land1, Hoi. assumption.
      * cbn [map]. fold oi. rewrite Q2. reflexivity.
      * intros b [<-|Hb]; [|apply Q3; assumption].
        exists (merge b0 b1). split; [|apply Q0; assumption].
        rewrite Q4; [apply bt_get_insert_same|]. rewrite Q2. intros Hin. apply in_map_iff in Hin.
        destruct Hin as (e' & Ee & He'). pose proof (Hrest e' He'). lia.
      * intros k Hk. rewrite Q4 by (intros Hin; apply Hk; right; assumption).
        apply bt_get_insert_other. intros ->. apply Hk. left. reflexivity.
      * intros k y Ek. apply Q5 in Ek. destruct Ek as [Ek|(e' & He' & Hk)].
        -- destruct (Z.eq_dec k oi) as [->|N1]; [right; exists e; split; [left; reflexivity|auto]|].
           destruct (Z.eq_dec k (oi + 1)) as [->|N2]; [right; exists e; split; [left; reflexivity|auto]|].
           destruct (Z.eq_dec k (oi / 2)) as [->|N3]; [right; exists e; split; [left; reflexivity|auto]|].
           left. rewrite <- Hother by assumption. assumption.
        -- right. exists e'. split; [right; assumption|assumption].
Qed.
End FirstInv.

(* ---------------------------------------------------------------- sortedness of the normalized list *)
Lemma bs_insert_sorted k s : ssorted s -> ssorted (bs_insert k s).
Proof.
  induction s as [|a s IH]; cbn [bs_insert]; intros HS.
  - split; [intros ? []|exact Logic.I].
  - destruct HS as [Hlt HS]. destruct (Z.ltb_spec k a).
    + split; [|split; assumption]. intros b [<-|Hb]; [assumption|]. apply Hlt in Hb. lia.
    + destruct (Z.eqb_spec k a); [split; assumption|].
      split; [|apply IH; assumption]. intros b Hb. apply bs_insert_In in Hb. destruct Hb as [->|Hb]; [lia|auto].
Qed.

Lemma normalize_sorted indexes : ssorted (normalize_indexes indexes).
Proof.
  unfold normalize_indexes. assert (H : ssorted []) by exact Logic.I. revert H. generalize (@nil Z).
  induction indexes as [|i r IH]; intros s HS; cbn [fold_left]; [assumption|]. apply IH. apply bs_insert_sorted. assumption.
Qed.

Lemma ssorted_map_half offset norm :
  0 <= offset -> offset mod 2 = 0 -> ssorted norm -> (forall e, In e norm -> 0 <= e /\ e mod 2 = 0) ->
  ssorted (map (fun e => (offset + e) / 2) norm).
Proof.
  intros Ho Hoe. induction norm as [|e r IH]; intros HS Hr; [exact Logic.I|]. destruct HS as [Hlt HS]. cbn [map].
  split; [|apply IH; [assumption|intros; apply Hr; right; assumption]].
  intros b Hb. apply in_map_iff in Hb. destruct Hb as (e' & <- & He'). pose proof (Hlt e' He').
  destruct (Hr e (or_introl eq_refl)). destruct (Hr e' (or_intror He')).
  rewrite !(Z.add_comm offset), !div2_add_even by assumption. zmod e. zmod e'. lia.
Qed.

(* ---------------------------------------------------------------- the initial partial tree *)
Lemma ptm_leaves_spec offset : forall idx leaves ptm,
  NoDup idx -> length idx = length leaves -> (forall i, In i idx -> bt_get (i + offset) ptm = None) ->
  sle ptm (ptm_leaves D offset idx leaves ptm) /\
  (forall j i x, nth_error idx j = Some i -> nth_error leaves j = Some x ->
     bt_get (i + offset) (ptm_leaves D offset idx leaves ptm) = Some x) /\
  (forall k y, bt_get k (ptm_leaves D offset idx leaves ptm) = Some y ->
     bt_get k ptm = Some y \/ exists j i, nth_error idx j = Some i /\ nth_error leaves j = Some y /\ k = i + offset).
Proof.
  induction idx as [|i0 idx IH]; intros leaves ptm ND HL Hn.
  - cbn. split; [apply sle_refl|]. split; [intros [|j]; discriminate|auto].
  - destruct leaves as [|l0 leaves]; [discriminate|]. cbn [Merkle.ptm_leaves]. inversion ND as [|? ? Hnot ND']. subst.
    destruct (IH leaves (bt_insert (i0 + offset) l0 ptm) ND' ltac:(simpl in HL; lia)) as (SS & G & P).
    { intros i Hi. rewrite bt_get_insert_other; [apply Hn; right; assumption|]. intros E. apply Hnot. replace i0 with i by lia. assumption. }
    assert (S0 : sle ptm (bt_insert (i0 + offset) l0 ptm)) by (apply sle_insert_none; apply Hn; left; reflexivity).
    split; [eapply sle_trans; eassumption|]. split.
    + intros [|j] i x Ei Ex; cbn in Ei, Ex.
      * injection Ei as <-. injection Ex as <-. apply SS. apply bt_get_insert_same.
      * eapply G; eassumption.
    + intros k y Ek. apply P in Ek. destruct Ek as [Ek|(j & i & Ei & Ex & ->)].
      * rewrite bt_get_insert in Ek. destruct (Z.eqb_spec k (i0 + offset)) as [->|]; [|left; assumption].
        injection Ek as <-. right. exists 0%nat, i0. auto.
      * right. exists (S j), i. auto.
Qed.

(* ---------------------------------------------------------------- the partial tree does not influence the result *)
Lemma gscan_irrel pn ptm' : forall I i v ptrs ptm vF ptrsF ptmF next,
  gscan pn I i v ptrs ptm = Ok (vF, ptrsF, ptmF, next) ->
  exists ptmF', gscan pn I i v ptrs ptm' = Ok (vF, ptrsF, ptmF', next).
Proof.
  intros I. revert ptm'.
  induction I as [|a r IH|a r Em IH] using scan_ind; intros ptm' i v ptrs ptm vF ptrsF ptmF next E.
  - cbn in *. injection E as <- <- <- <-. eauto.
  - rewrite gscan_unfold, merged_same in *. cbn [tl] in *. destruct (bt_get (Z.lxor a 1) v) as [s|]; [|discriminate].
    unfold Merkle.gstep in *. destruct (bt_get a v); [|discriminate]. cbn [bind] in *.
    apply bind_Ok in E. destruct E as ([[[vF0 ptrsF0] ptmF0] next0] & Er & E). injection E as <- <- <- <-.
    edestruct IH as (ptmF' & Er'); [exact Er|]. rewrite Er'. cbn [bind]. eauto.
  - rewrite gscan_unfold, Em in *. apply bind_Ok in E. destruct E as ([s ptrs1] & Es & E). rewrite Es.
    unfold Merkle.gstep in *. destruct (bt_get a v); [|discriminate]. cbn [bind] in *.
    apply bind_Ok in E. destruct E as ([[[vF0 ptrsF0] ptmF0] next0] & Er & E). injection E as <- <- <- <-.
    edestruct IH as (ptmF' & Er'); [exact Er|]. rewrite Er'. cbn [bind]. eauto.
Qed.

Lemma glevels_irrel pn : forall k I v ptrs ptm vF ptrsF ptmF ptm',
  glevels k pn I v ptrs ptm = Ok (vF, ptrsF, ptmF) -> exists ptmF', glevels k pn I v ptrs ptm' = Ok (vF, ptrsF, ptmF').
Proof.
  induction k as [|k IH]; intros I v ptrs ptm vF ptrsF ptmF ptm' E.
  - cbn in *. injection E as <- <- <-. eauto.
  - cbn [Merkle.glevels] in *. apply bind_Ok in E. destruct E as ([[[v1 ptrs1] ptm1] next] & Es & E).
    destruct (gscan_irrel pn ptm' _ _ _ _ _ _ _ _ _ Es) as (ptm1' & Es'). rewrite Es'. cbn [bind].
    eapply IH. eassumption.
Qed.

Lemma gfirst_irrel (p : bproof) imap offset : forall norm i v ptm vF ptrs ptmF next ptm',
  gfirst p imap offset norm i v ptm = Ok (vF, ptrs, ptmF, next) ->
  exists ptmF', gfirst p imap offset norm i v ptm' = Ok (vF, ptrs, ptmF', next).
Proof.
  induction norm as [|e rest IH]; intros i v ptm vF ptrs ptmF next ptm' E.
  - cbn in *. injection E as <- <- <- <-. eauto.
  - cbn [Merkle.gfirst] in *. apply bind_Ok in E. destruct E as ([[b0 b1] ptr] & Egl & E). rewrite Egl. cbn [bind].
    apply bind_Ok in E. destruct E as (oi & Eu & E). rewrite Eu. cbn [bind].
    apply bind_Ok in E. destruct E as ([[[vF0 ptrs0] ptmF0] next0] & Er & E). injection E as <- <- <- <-.
    edestruct IH as (ptmF' & Er'); [exact Er|]. rewrite Er'. cbn [bind]. eauto.
Qed.

Lemma gcore_irrel (p : bproof) idx ptm0 ptm0' v ptm :
  gcore p idx ptm0 = Ok (v, ptm) -> exists ptm', gcore p idx ptm0' = Ok (v, ptm').
Proof.
  unfold Merkle.gcore. intros E. apply bind_Ok in E. destruct E as (imap & Emi & E). rewrite Emi. cbn [bind].
  destruct (negb _); [discriminate|].
  apply bind_Ok in E. destruct E as ([[[v1 ptrs] ptm1] next] & Ef & E).
  destruct (gfirst_irrel _ _ _ _ _ _ _ _ _ _ _ ptm0' Ef) as (ptm1' & Ef'). rewrite Ef'. cbn [bind].
  apply bind_Ok in E. destruct E as ([[v2 ptrs2] ptm2] & El & E).
  destruct (glevels_irrel _ _ _ _ _ _ _ _ _ ptm1' El) as (ptm2' & El'). rewrite El'. cbn [bind].
  destruct (negb _); [discriminate|]. injection E as <- <-. eauto.
Qed.

(* ---------------------------------------------------------------- reading a path off a locally consistent map *)
Lemma path_of_loc ptm : forall (l : nat) c x fuel, lev (Z.of_nat l) c -> (l <= fuel)%nat ->
  bt_get c ptm = Some x -> (forall c', anc c c' -> loc ptm c') ->
  exists ps r, get_path_up D fuel ptm c = Ok ps /\ length ps = l /\ bt_get 1 ptm = Some r /\ verify_fold ps c x = r.
Proof.
  induction l as [|l IH]; intros c x fuel Lc Hf Ex Hloc.
  - unfold lev in Lc. cbn in Lc. assert (c = 1) by lia. subst c. exists [], x. split; [destruct fuel; reflexivity|]. auto.
  - assert (Hl : 1 <= Z.of_nat (S l)) by lia. pose proof (lev_ge2 _ _ Hl Lc) as Hc2.
    destruct (Hloc c (anc_self c Hc2)) as (x' & y & E1 & E2 & E3).
    rewrite Ex in E1. injection E1 as <-.
    destruct fuel as [|fuel]; [lia|]. cbn [Merkle.get_path_up]. destruct (Z.leb_spec c 1); [lia|].
    rewrite E2. rewrite shiftr1.
    destruct (IH (c / 2) (mrg c x y) fuel) as (ps & r & Ep & Lp & Er & Ev).
    + replace (Z.of_nat l) with (Z.of_nat (S l) - 1) by lia. apply lev_div2; assumption.
    + lia.
    + assumption.
    + intros c' Hc'. apply Hloc, anc_half, Hc'.
    + rewrite Ep. cbn [bind]. exists (y :: ps), r. split; [reflexivity|]. split; [simpl; lia|]. split; [assumption|].
      cbn [Merkle.verify_fold]. rewrite shiftr1. exact Ev.
Qed.

(* get_path on such a map: the leaf and the verifying siblings *)
Lemma get_path_of_loc ptm dz (d : nat) i x : dz = Z.of_nat d -> dz < 64 -> 0 <= i < 2 ^ dz ->
  bt_get (i + 2 ^ dz) ptm = Some x -> (forall c, anc (i + 2 ^ dz) c -> loc ptm c) ->
  exists ps r, get_path D i ptm dz = Ok (x :: ps) /\ length ps = d /\ bt_get 1 ptm = Some r /\
               verify_fold ps (i + 2 ^ dz) x = r.
Proof.
  intros -> Hd Hi Es Hloc.
  destruct (path_of_loc ptm d (i + 2 ^ Z.of_nat d) x 64) as (ps & r & Ep & Lp & Er & Ev); try assumption; [|lia|].
  { unfold lev. rewrite p2_succ by lia. lia. }
  exists ps, r. unfold Merkle.get_path. destruct (Z.leb_spec 64 (Z.of_nat d)); [lia|].
  rewrite uadd_pow2 by lia. cbn [bind]. rewrite Es, Ep. auto.
Qed.

(* ---------------------------------------------------------------- the partial tree after the common core *)
(* of into_paths (depth >= 1): the root, and for every queried position its leaf and a locally consistent
   chain of ancestors *)
Lemma gcore_ptm_spec (p : bproof) idx (d : nat) v2 ptm2 :
  (1 <= d)%nat -> bp_depth p = Z.of_nat d -> usize_list idx -> idx <> [] -> zlen idx = zlen (bp_leaves p) ->
  gcore p idx (ptm_leaves D (2 ^ bp_depth p) idx (bp_leaves p) []) = Ok (v2, ptm2) ->
  exists r, bt_get 1 v2 = Some r /\
    forall j i, nth_error idx j = Some i -> exists x ps, nth_error (bp_leaves p) j = Some x /\
      get_path D i ptm2 (bp_depth p) = Ok (x :: ps) /\ length ps = d /\ verify_fold ps (i + 2 ^ bp_depth p) x = r.
Proof.
  intros Hd1 Hdep Hu Hne HLl Ec. assert (Hdz : 1 <= bp_depth p) by lia.
  set (offset := 2 ^ bp_depth p) in *. set (ptm0 := ptm_leaves D offset idx (bp_leaves p) []) in *.
  unfold Merkle.gcore in Ec. apply bind_Ok in Ec. destruct Ec as (imap & Emi & Ec).
  apply map_indexes_inv in Emi. destruct Emi as (Hd64 & ND & Hr & IM & _).
  destruct (negb _); [discriminate|]. fold offset in Ec, Hr.
  apply bind_Ok in Ec. destruct Ec as ([[[v1 ptrs1] ptm1] next1] & Ef & Ec).
  apply bind_Ok in Ec. destruct Ec as ([[v2' ptrs2] ptm2'] & El & Ec).
  destruct (negb _); [discriminate|]. injection Ec as -> ->.
  set (norm := normalize_indexes idx) in *.
  destruct (pow2_even (bp_depth p) Hdz) as [Hoe Ho2]. fold offset in Hoe, Ho2.
  assert (HL' : length idx = length (bp_leaves p)) by (unfold zlen in *; lia).
  destruct (ptm_leaves_spec offset idx (bp_leaves p) [] ND HL' ltac:(intros; reflexivity)) as (_ & PG & PP). fold ptm0 in PG, PP.
  assert (Hri : forall i, In i idx -> 0 <= i < offset) by (intros i Hi; split; [apply Hu|apply Hr]; assumption).
  pose proof (normalize_range idx offset) as Hnorm. specialize (fun e => Hnorm e Hoe Hri). fold norm in Hnorm.
  (* the initial partial tree holds the claimed leaves, at heap indexes >= offset *)
  assert (PP' : forall k y, bt_get k ptm0 = Some y ->
            exists j i, nth_error idx j = Some i /\ nth_error (bp_leaves p) j = Some y /\ k = i + offset /\ 0 <= i).
  { intros k y Ek. apply PP in Ek. destruct Ek as [Ek|(j & i & Ei & Ex & ->)]; [discriminate|].
    exists j, i. pose proof (Hu i (nth_error_In _ _ Ei)). auto. }
  destruct (gfirst_inv p imap (bp_depth p) Hdz norm 0 [] ptm0 v1 ptrs1 ptm1 next1 Ef (normalize_sorted idx))
    as (F0 & F1 & F2 & F3 & F4 & F5).
  { intros e He. destruct (Hnorm e He) as (? & ? & ?). fold offset. lia. }
  { intros e x He. split; intros Ex; apply PP' in Ex; destruct Ex as (j & i & Ei & Ex & Ek & _);
      (exists (Z.of_nat j); rewrite Nat2Z.id; split; [|assumption]; apply IM; rewrite Nat2Z.id;
       split; [lia|]; rewrite Ei; f_equal; fold offset in Ek; lia). }
  { intros e He. destruct (Hnorm e He) as (? & ? & ?). fold offset.
    destruct (bt_get ((offset + e) / 2) ptm0) eqn:Ex; [|reflexivity]. exfalso.
    apply PP' in Ex. destruct Ex as (j & i & _ & _ & Ek & Hi0). zmod (offset + e). lia. }
  fold offset in F1, F2, F5.
  (* the level loop *)
  set (k := Z.to_nat (bp_depth p - 1)) in *. assert (Hk : bp_depth p = Z.of_nat k + 1) by (unfold k; lia).
  pose proof (p2_pos (Z.of_nat k) ltac:(lia)) as Hpk.
  assert (Hoff : offset = 2 * 2 ^ Z.of_nat k) by (unfold offset; rewrite Hk; apply p2_succ; lia).
  assert (Hnext : forall b, In b next1 -> lev (Z.of_nat k) b).
  { intros b Hb. rewrite F2 in Hb. apply in_map_iff in Hb. destruct Hb as (e & <- & He). destruct (Hnorm e He) as (? & ? & ?).
    unfold lev. rewrite p2_succ by lia. zmod (offset + e). lia. }
  destruct (pre_next k next1 v1 ptm1) as [HP1 H51]; try assumption.
  { rewrite F2. apply ssorted_map_half; try assumption; try lia; [apply normalize_sorted|intros e He; destruct (Hnorm e He) as (? & ? & ?); lia]. }
  { (* below offset the first loop has only added the parents of the leaf pairs *)
    intros j y Ej Hj. rewrite p2_succ, <- Hoff in Hj by lia. apply F5 in Ej. destruct Ej as [Ej|(e & He & [ -> | [ -> | -> ] ])].
    - apply PP' in Ej. destruct Ej as (? & i & _ & _ & -> & ?). lia.
    - destruct (Hnorm e He). lia.
    - destruct (Hnorm e He). lia.
    - rewrite F2. apply in_map_iff. eauto. }
  destruct (glevels_inv (bp_nodes p) k next1 v1 ptrs1 ptm1 v2 ptrs2 ptm2 El HP1 H51) as (G0 & G1 & G2).
  destruct G2 as (r & Er & Erp).
  { rewrite F2. pose proof (normalize_nonempty idx Hne) as Hnn. fold norm in Hnn. destruct norm; [congruence|discriminate]. }
  exists r. split; [assumption|]. intros j i Ei.
  assert (Hj : (j < length (bp_leaves p))%nat) by (rewrite <- HL'; apply nth_error_Some; congruence).
  destruct (nth_error (bp_leaves p) j) as [x|] eqn:Ex; [|apply nth_error_None in Ex; lia].
  set (e := i - i mod 2). assert (He : In e norm) by (apply normalize_In; exists i; split; [eapply nth_error_In; eassumption|reflexivity]).
  destruct (F1 e He) as [La Lb].
  destruct (get_path_of_loc ptm2 (bp_depth p) d i x Hdep Hd64 (Hri i (nth_error_In _ _ Ei))) as (ps & r' & Ep & Lp & Er' & Ev).
  { apply G0, F0. eapply PG; eassumption. }
  { fold offset. intros c Hc. apply anc_inv in Hc. destruct Hc as [->|Hc].
    - apply (loc_sle _ _ _ G0). destruct (mod2_cases i) as [Ei2|Ei2].
      + replace (i + offset) with (offset + e) by (unfold e; lia). assumption.
      + replace (i + offset) with (offset + e + 1) by (unfold e; lia). assumption.
    - apply (G1 ((offset + e) / 2)); [rewrite F2; apply in_map_iff; eauto|].
      replace ((offset + e) / 2) with ((i + offset) / 2); [assumption|].
      unfold e. rewrite (Z.add_comm offset), !div2_add_even, floor2_half by assumption. reflexivity. }
  exists x, ps. rewrite Erp in Er'. injection Er' as <-. auto.
Qed.

(* ---------------------------------------------------------------- accepted batch opening => verifying paths *)
Theorem into_paths_sound : forall (p : bproof) idx r (d : nat),
  (1 <= d)%nat -> bp_depth p = Z.of_nat d -> usize_list idx ->
  get_root p idx = Ok r ->
  exists paths, into_paths p idx = Ok paths /\ length paths = length idx /\
    forall j i path, nth_error idx j = Some i -> nth_error paths j = Some path ->
      nth_error path 0 = nth_error (bp_leaves p) j /\ length path = S d /\ verify r i path = Ok tt.
Proof.
  intros p idx r d Hd1 Hdep Hu Hg.
  pose proof (get_root_Ok_guards D merge p idx r Hg) as (_ & _ & _ & ND & Hr & Hd64 & _).
  destruct (get_root_Ok_inv D merge p idx r Hg) as (Hne & Hlen & HLl & v0 & ptmx & Ec0 & Er1).
  destruct (gcore_irrel p idx [] (ptm_leaves D (2 ^ bp_depth p) idx (bp_leaves p) []) v0 ptmx Ec0) as (ptmF & Ec).
  rewrite (into_paths_eq D merge) by assumption. rewrite Ec. cbn [bind].
  destruct (gcore_ptm_spec p idx d v0 ptmF Hd1 Hdep Hu Hne HLl Ec) as (r2 & Ev2 & Hpos).
  rewrite Er1 in Ev2. injection Ev2 as <-.
  (* every queried position yields a verifying path *)
  destruct (mapM_Ok_Forall2 (fun i => get_path D i ptmF (bp_depth p))
              (fun i path => forall j, nth_error idx j = Some i ->
                 nth_error path 0 = nth_error (bp_leaves p) j /\ length path = S d /\ verify r i path = Ok tt) idx)
    as (paths & Em & FP).
  { intros i Hi. destruct (In_nth_error _ _ Hi) as (j0 & Ej0). destruct (Hpos j0 i Ej0) as (x & ps & Ex0 & Ep & Lp & Ev).
    exists (x :: ps). split; [exact Ep|].
    intros j Ej. assert (j = j0) by (apply (proj1 (NoDup_nth_error idx) ND); [apply nth_error_Some; congruence|congruence]).
    subst j. rewrite Ex0. split; [reflexivity|]. split; [simpl; lia|].
    assert (Hz : zlen ps = bp_depth p) by (unfold zlen; lia). pose proof (Hr i Hi).
    apply (verify_fold_iff D D_eqb D_eqb_spec d0 merge); rewrite Hz; [lia|lia|assumption]. }
  exists paths. split; [exact Em|]. split; [symmetry; eapply Forall2_len; eassumption|].
  intros j i path Ei Epth. destruct (Forall2_nth _ _ _ _ _ FP Ei) as (path' & Ep' & HP). rewrite Epth in Ep'. injection Ep' as <-.
  apply HP. assumption.
Qed.

End Bind.

(* ================================================================ batch binding *)
Section BatchBinding.
Variable D : Type.
Variable D_eqb : D -> D -> bool.
Hypothesis D_eqb_spec : forall a b, D_eqb a b = true <-> a = b.
Variable d0 : D.
Variable merge : D -> D -> D.

Notation verify := (verify D D_eqb merge).
Notation get_root := (get_root D merge).
Notation into_paths := (into_paths D merge).
Notation find_collision := (find_collision D D_eqb d0 merge).
Notation is_collision := (is_collision D merge).

Lemma find_coll_sound : forall t1 t2 c, find_coll D D_eqb merge t1 t2 = Some c -> is_collision c.
Proof.
  induction t1 as [|x r1 IH]; intros [|y r2] c E; cbn in E; try discriminate.
  destruct (pair_eqb D D_eqb x y) eqn:Ep; [eauto|].
  destruct (D_eqb (merge (fst x) (snd x)) (merge (fst y) (snd y))) eqn:Em; [|eauto].
  injection E as <-. split; cbn [fst snd].
  - intros Exy. apply (pair_eqb_spec D D_eqb D_eqb_spec) in Exy. congruence.
  - apply D_eqb_spec. assumption.
Qed.

Lemma find_collision_sound i p1 p2 c : find_collision i p1 p2 = Some c -> is_collision c.
Proof. apply find_coll_sound. Qed.

(* first collision found by comparing two lists of paths position by position *)
Fixpoint first_coll (idx : list Z) (ps hs : list (list D)) : option ((D * D) * (D * D)) :=
  match idx, ps, hs with
  | i :: ri, p :: rp, h :: rh =>
    match find_collision i p h with Some c => Some c | None => first_coll ri rp rh end
  | _, _, _ => None
  end.

Lemma first_coll_sound : forall idx ps hs c, first_coll idx ps hs = Some c -> is_collision c.
Proof.
  induction idx as [|i ri IH]; intros [|p rp] [|h rh] c E; cbn [first_coll] in E; try discriminate.
  destruct (find_collision i p h) eqn:Ef; [injection E as <-; eapply find_collision_sound; eassumption|eauto].
Qed.

Lemma first_coll_None root (n : nat) : forall idx ps hs,
  Forall2 (fun i p => verify root i p = Ok tt /\ length p = n) idx ps ->
  Forall2 (fun i h => verify root i h = Ok tt /\ length h = n) idx hs ->
  first_coll idx ps hs = None -> ps = hs.
Proof.
  induction idx as [|i ri IH]; intros ps hs F1 F2 E; inversion F1; inversion F2; subst; [reflexivity|].
  cbn [first_coll] in E. destruct (find_collision i y y0) eqn:Ef; [discriminate|].
  match goal with H1 : verify root i y = Ok tt /\ _, H2 : verify root i y0 = Ok tt /\ _ |- _ =>
    destruct H1 as [V1 L1]; destruct H2 as [V2 L2] end.
  destruct (single_binding_paths D D_eqb D_eqb_spec d0 merge root i y y0 V1 V2 (eq_trans L1 (eq_sym L2))) as [->|(c & Ec & _)].
  - f_equal. eapply IH; eassumption.
  - congruence.
Qed.

(* two lists of verifying paths of the same length for the same positions are equal, or a collision is found *)
Lemma first_coll_dec root (n : nat) idx ps hs :
  Forall2 (fun i p => verify root i p = Ok tt /\ length p = n) idx ps ->
  Forall2 (fun i h => verify root i h = Ok tt /\ length h = n) idx hs ->
  ps = hs \/ exists c, first_coll idx ps hs = Some c /\ is_collision c.
Proof.
  intros F1 F2. destruct (first_coll idx ps hs) as [c|] eqn:Ef.
  - right. exists c. split; [reflexivity|]. eapply first_coll_sound. eassumption.
  - left. eapply first_coll_None; eassumption.
Qed.

(* into_paths_sound, the paths as a list related to the positions *)
Lemma into_paths_verify (p : bproof D) idx r (d : nat) :
  (1 <= d)%nat -> bp_depth p = Z.of_nat d -> usize_list idx -> get_root p idx = Ok r ->
  exists paths, into_paths p idx = Ok paths /\
    Forall2 (fun i path => verify r i path = Ok tt /\ length path = S d) idx paths /\
    forall j path, nth_error paths j = Some path -> nth_error path 0 = nth_error (bp_leaves p) j.
Proof.
  intros Hd Hdep Hu G.
  destruct (into_paths_sound D D_eqb D_eqb_spec d0 merge p idx r d Hd Hdep Hu G) as (ps & E & L & S).
  exists ps. split; [assumption|]. split.
  - apply Forall2_of_nth; [lia|]. intros j i path Ei Ep. destruct (S j i path Ei Ep) as (_ & A & B). auto.
  - intros j path Ep. assert (Hj : (j < length idx)%nat) by (rewrite <- L; apply nth_error_Some; congruence).
    destruct (nth_error idx j) as [i|] eqn:Ei; [|apply nth_error_None in Ei; lia]. apply (S j i path Ei Ep).
Qed.

(* two batch openings of the same positions, of the same depth, accepted against the same root claim
   the same leaves, or a collision of merge is computed from their decompressed paths *)
Definition find_batch_collision2 (p1 p2 : bproof D) (idx : list Z) : option ((D * D) * (D * D)) :=
  match into_paths p1 idx, into_paths p2 idx with
  | Ok ps1, Ok ps2 => first_coll idx ps1 ps2
  | _, _ => None
  end.

Theorem batch_binding_two : forall (p1 p2 : bproof D) idx r (d : nat),
  (1 <= d)%nat -> bp_depth p1 = Z.of_nat d -> bp_depth p2 = Z.of_nat d -> usize_list idx ->
  get_root p1 idx = Ok r -> get_root p2 idx = Ok r ->
  bp_leaves p1 = bp_leaves p2 \/
  exists c, find_batch_collision2 p1 p2 idx = Some c /\ is_collision c.
Proof.
  intros p1 p2 idx r d Hd H1 H2 Hu G1 G2.
  destruct (into_paths_verify p1 idx r d Hd H1 Hu G1) as (ps1 & E1 & F1 & S1).
  destruct (into_paths_verify p2 idx r d Hd H2 Hu G2) as (ps2 & E2 & F2 & S2).
  pose proof (get_root_Ok_guards D merge p1 idx r G1) as (_ & _ & Z1 & _).
  pose proof (get_root_Ok_guards D merge p2 idx r G2) as (_ & _ & Z2 & _).
  unfold find_batch_collision2. rewrite E1, E2.
  destruct (first_coll_dec r (S d) idx ps1 ps2 F1 F2) as [<-|C]; [left|right; assumption].
  apply Forall2_len in F1. apply nth_error_ext. intros j. destruct (nth_error ps1 j) as [path|] eqn:Ep.
  - rewrite <- (S1 j path Ep). apply (S2 j path Ep).
  - apply nth_error_None in Ep. unfold zlen in *.
    rewrite (proj2 (nth_error_None (bp_leaves p1) j)) by lia. rewrite (proj2 (nth_error_None (bp_leaves p2) j)) by lia. reflexivity.
Qed.

(* ... and against a committed tree *)
Definition find_batch_collision (t : mtree D) (p : bproof D) (idx : list Z) : option ((D * D) * (D * D)) :=
  match into_paths p idx, mapM (mt_prove D t) idx with
  | Ok ps, Ok hs => first_coll idx ps hs
  | _, _ => None
  end.

Theorem batch_binding_tree : forall (t : mtree D) (d : nat) idx (p : bproof D),
  wf_tree D d0 merge d t -> (d <= 62)%nat -> usize_list idx ->
  get_root p idx = Ok (hval D d0 t 1) -> bp_depth p = Z.of_nat d ->
  (forall j i, nth_error idx j = Some i -> nth_error (bp_leaves p) j = nth_error (mt_leaves t) (Z.to_nat i))
  \/ exists c, find_batch_collision t p idx = Some c /\ is_collision c.
Proof.
  intros t d idx p WF Hd Hu G Hdep. pose proof (wf_d _ _ _ _ _ WF) as Hd1.
  destruct (into_paths_verify p idx _ d Hd1 Hdep Hu G) as (ps & E1 & F1 & S1).
  pose proof (get_root_Ok_guards D merge p idx _ G) as (_ & _ & _ & _ & Hr & _). rewrite Hdep in Hr.
  destruct (mapM_Ok_Forall2 (mt_prove D t)
              (fun i h => (verify (hval D d0 t 1) i h = Ok tt /\ length h = S d) /\
                          nth_error h 0 = nth_error (mt_leaves t) (Z.to_nat i)) idx) as (hs & E2 & F2).
  { intros i Hi. destruct (single_complete_tree D D_eqb D_eqb_spec d0 merge t d WF Hd i) as (h & Eh & Lh & Zh & Vh).
    { split; [apply Hu; assumption|apply Hr; assumption]. }
    exists h. split; [assumption|]. split; [split; assumption|].
    destruct h as [|a h]; [discriminate|]. unfold znth in Zh. cbn in Zh. cbn [nth_error]. rewrite Zh.
    symmetry. apply nth_error_nth'. pose proof (wf_leaves _ _ _ _ _ WF) as WL. pose proof (Hr i Hi). pose proof (Hu i Hi).
    unfold zlen in WL. lia. }
  unfold find_batch_collision. rewrite E1, E2.
  destruct (first_coll_dec (hval D d0 t 1) (S d) idx ps hs F1) as [<-|C]; [|left|right; assumption].
  - eapply Forall2_impl_In; [exact F2|]. cbv beta. tauto.
  - intros j i Ei. destruct (Forall2_nth _ _ _ _ _ F2 Ei) as (h & Eh & _ & A2). rewrite <- A2. symmetry. apply (S1 j h Eh).
Qed.

(* the form Proofs/IntegrityBinding.v uses (merkle_batch_binding) *)
Theorem batch_binding_verify_batch : forall (t : mtree D) (d : nat) (idx : list Z) (p : bproof D),
  wf_tree D d0 merge d t -> (d <= 62)%nat -> usize_list idx ->
  verify_batch D D_eqb merge (hval D d0 t 1) idx p = Ok tt -> bp_depth p = Z.of_nat d ->
  (forall j i, nth_error idx j = Some i -> nth_error (bp_leaves p) j = nth_error (mt_leaves t) (Z.to_nat i))
  \/ exists c, is_collision c.
Proof.
  intros t d idx p WF Hd Hu V Hdep. unfold Merkle.verify_batch in V. apply bind_Ok in V. destruct V as (r & G & V).
  destruct (D_eqb (hval D d0 t 1) r) eqn:Er; [|discriminate]. apply D_eqb_spec in Er. subst r.
  destruct (batch_binding_tree t d idx p WF Hd Hu G Hdep) as [H|(c & _ & C)]; [left; assumption|right; eauto].
Qed.

End BatchBinding.
