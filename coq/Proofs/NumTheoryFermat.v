(* Fermat's little theorem over Z (Znumtheory.prime), by the classical permutation argument:
   x |-> a*x mod p permutes [1..p-1], so (p-1)! = a^(p-1) (p-1)! (mod p).
   Also: zpow_mod (Base/ZpOps.v) computes a^e mod p, and the closed forms for zp_inv.
   stdlib only, no axioms. *)
From Coq Require Import ZArith Znumtheory Zpow_facts Lia List Permutation.
From VBase Require Import FieldOps ZpOps.
From VProofs Require Import ListFacts.
Open Scope Z_scope.

Definition zprod (l : list Z) : Z := fold_right Z.mul 1 l.

Lemma zprod_perm : forall l l', Permutation l l' -> zprod l = zprod l'.
Proof.
  induction 1 as [|x l l' _ IH|x y l|l l' l'' _ IH1 _ IH2].
  - reflexivity.
  - change (x * zprod l = x * zprod l'). now rewrite IH.
  - change (y * (x * zprod l) = x * (y * zprod l)). ring.
  - now rewrite IH1.
Qed.

Lemma zprod_map_mul_mod : forall a p l, 0 < p ->
  zprod (map (fun x => (a * x) mod p) l) mod p
  = (a ^ Z.of_nat (length l) * zprod l) mod p.
Proof.
  intros a p l Hp. induction l as [|x l IH].
  - reflexivity.
  - cbn [map zprod fold_right length]. fold (zprod (map (fun x => (a * x) mod p) l)).
    fold (zprod l).
    rewrite Nat2Z.inj_succ, Z.pow_succ_r by lia.
    rewrite Z.mul_mod_idemp_l by lia.
    rewrite <- Z.mul_mod_idemp_r by lia. rewrite IH.
    rewrite Z.mul_mod_idemp_r by lia. f_equal. ring.
Qed.

Lemma zprod_rel_prime : forall p l,
  (forall x, In x l -> rel_prime p x) -> rel_prime p (zprod l).
Proof.
  intros p l. induction l as [|x l IH]; intros H.
  - cbn. apply rel_prime_sym, rel_prime_1.
  - cbn [zprod fold_right]. apply rel_prime_mult.
    + apply H; left; reflexivity.
    + apply IH. intros y Hy. apply H; right; exact Hy.
Qed.

Definition zrange1 (n : nat) : list Z := map Z.of_nat (seq 1 n).

Lemma zrange1_In : forall n x, In x (zrange1 n) <-> 1 <= x <= Z.of_nat n.
Proof.
  intros n x. unfold zrange1. rewrite in_map_iff. split.
  - intros [k [<- Hk]]. apply in_seq in Hk. lia.
  - intros H. exists (Z.to_nat x). split; [lia|]. apply in_seq. lia.
Qed.

Lemma zrange1_length : forall n, length (zrange1 n) = n.
Proof. intros. unfold zrange1. now rewrite map_length, seq_length. Qed.

Lemma zrange1_NoDup : forall n, NoDup (zrange1 n).
Proof.
  intros n. unfold zrange1. apply NoDup_map_inj_in; [|apply seq_NoDup].
  intros x y _ _ H. lia.
Qed.

Lemma prime_gt1 : forall p, prime p -> 1 < p.
Proof. intros p H. apply prime_ge_2 in H. lia. Qed.

Lemma prime_not_div_small : forall p x, 0 < p -> 0 < x < p -> ~ (p | x).
Proof.
  intros p x Hp Hx [k Hk]. subst x.
  assert (Hc : k <= 0 \/ 1 <= k) by lia. destruct Hc; nia.
Qed.

Lemma prime_mod_neq0_rel_prime : forall p a, prime p -> a mod p <> 0 -> rel_prime p a.
Proof.
  intros p a Hp Ha. apply prime_rel_prime; [exact Hp|].
  intros Hd. apply Ha. apply Z.mod_divide; [apply prime_gt1 in Hp; lia|exact Hd].
Qed.

(* ---------- Fermat ---------- *)

Lemma fermat_pm1 : forall p a, prime p -> a mod p <> 0 -> a ^ (p - 1) mod p = 1.
Proof.
  intros p a Hp Ha.
  assert (Hp1 : 1 < p) by (apply prime_gt1; exact Hp).
  assert (Hrel : rel_prime p a) by (apply prime_mod_neq0_rel_prime; assumption).
  set (n := Z.to_nat (p - 1)).
  set (l := zrange1 n).
  set (l' := map (fun x => (a * x) mod p) l).
  assert (Hin : forall x, In x l <-> 0 < x < p).
  { intros x. unfold l. rewrite zrange1_In. unfold n. lia. }
  assert (Hperm : Permutation l' l).
  { apply NoDup_Permutation_bis.
    - unfold l'. apply NoDup_map_inj_in; [|apply zrange1_NoDup].
      intros x y Hx Hy Hxy. apply Hin in Hx. apply Hin in Hy.
      assert (Hd : (p | a * (x - y))).
      { apply Z.mod_divide; [lia|].
        replace (a * (x - y)) with (a * x - a * y) by ring.
        rewrite Zminus_mod, Hxy, Z.sub_diag. apply Z.mod_0_l. lia. }
      apply Gauss in Hd; [|exact Hrel]. destruct Hd as [k Hk].
      assert (Hc : k <= -1 \/ k = 0 \/ 1 <= k) by lia. destruct Hc as [Hc|[Hc|Hc]]; nia.
    - unfold l'. rewrite map_length. lia.
    - intros y Hy. unfold l' in Hy. apply in_map_iff in Hy. destruct Hy as [x [<- Hx]].
      apply Hin in Hx. apply Hin.
      assert (Hb := Z.mod_pos_bound (a * x) p ltac:(lia)).
      assert ((a * x) mod p <> 0); [|lia].
      intros H0. apply Z.mod_divide in H0; [|lia].
      apply prime_mult in H0; [|exact Hp]. destruct H0 as [H0|H0].
      + apply Ha. apply Z.mod_divide; [lia|exact H0].
      + revert H0. apply prime_not_div_small; lia. }
  assert (Hprod : zprod l mod p = (a ^ (p - 1) * zprod l) mod p).
  { transitivity (zprod l' mod p); [now rewrite (zprod_perm _ _ Hperm)|]. unfold l'.
    rewrite zprod_map_mul_mod by lia. unfold l. rewrite zrange1_length.
    unfold n. rewrite Z2Nat.id by lia. reflexivity. }
  assert (Hd : (p | zprod l * (a ^ (p - 1) - 1))).
  { apply Z.mod_divide; [lia|].
    replace (zprod l * (a ^ (p - 1) - 1)) with (a ^ (p - 1) * zprod l - zprod l) by ring.
    rewrite Zminus_mod, <- Hprod, Z.sub_diag. apply Z.mod_0_l. lia. }
  apply Gauss in Hd.
  - destruct Hd as [k Hk].
    replace (a ^ (p - 1)) with (1 + k * p) by lia.
    rewrite Z.mod_add by lia. apply Z.mod_small. lia.
  - apply zprod_rel_prime. intros x Hx. apply Hin in Hx.
    apply prime_rel_prime; [exact Hp|]. apply prime_not_div_small; lia.
Qed.

Theorem fermat_little_Z : forall p a, Znumtheory.prime p -> (a ^ p) mod p = a mod p.
Proof.
  intros p a Hp.
  assert (Hp1 : 1 < p) by (apply prime_gt1; exact Hp).
  destruct (Z.eq_dec (a mod p) 0) as [H0|H0].
  - rewrite Zpower_mod, H0 by lia. rewrite Z.pow_0_l by lia. apply Z.mod_0_l. lia.
  - replace p with (Z.succ (p - 1)) at 1 by lia.
    rewrite Z.pow_succ_r by lia.
    rewrite <- Z.mul_mod_idemp_r, fermat_pm1 by (assumption || lia).
    now rewrite Z.mul_1_r.
Qed.

Corollary fermat_inv_Z : forall p a, Znumtheory.prime p -> a mod p <> 0 ->
  (a * a ^ (p - 2)) mod p = 1.
Proof.
  intros p a Hp Ha.
  assert (Hp1 : 1 < p) by (apply prime_gt1; exact Hp).
  rewrite <- Z.pow_succ_r by lia.
  replace (Z.succ (p - 2)) with (p - 1) by lia.
  apply fermat_pm1; assumption.
Qed.

(* ---------- zpow_mod computes modular powers ---------- *)

Lemma zpow_mod_pos_spec : forall p a e, 0 < p -> zpow_mod_pos p a e = (a ^ Zpos e) mod p.
Proof.
  intros p a e Hp. induction e as [e IH|e IH|]; cbn [zpow_mod_pos]; cbv zeta.
  - rewrite IH. rewrite Pos2Z.inj_xI.
    rewrite Z.pow_add_r, Z.pow_1_r, Z.pow_twice_r by lia.
    rewrite <- Z.mul_mod by lia.
    now rewrite Z.mul_mod_idemp_l by lia.
  - rewrite IH. rewrite Pos2Z.inj_xO, Z.pow_twice_r.
    now rewrite <- Z.mul_mod by lia.
  - now rewrite Z.pow_1_r.
Qed.

Lemma zpow_mod_spec : forall p a e, 0 < p -> 0 <= e -> zpow_mod p a e = (a ^ e) mod p.
Proof.
  intros p a e Hp He. destruct e as [|e|e]; cbn [zpow_mod].
  - reflexivity.
  - apply zpow_mod_pos_spec; exact Hp.
  - lia.
Qed.

Lemma zpow_mod_range : forall p a e, 0 < p -> 0 <= zpow_mod p a e < p.
Proof.
  intros p a e Hp. destruct e as [|e|e]; cbn [zpow_mod]; try (apply Z.mod_pos_bound; lia).
  destruct e; cbn [zpow_mod_pos]; cbv zeta; apply Z.mod_pos_bound; lia.
Qed.

(* ---------- closed forms for the inverse of Base/ZpOps.v ---------- *)

Lemma zp_inv_range : forall p a, 0 < p -> 0 <= zp_inv p a < p.
Proof. intros. apply zpow_mod_range; assumption. Qed.

Lemma zp_inv_spec : forall p a, prime p -> 0 <= a < p -> a <> 0 -> (zp_inv p a * a) mod p = 1.
Proof.
  intros p a Hp Ha Ha0.
  assert (Hp1 : 1 < p) by (apply prime_gt1; exact Hp).
  unfold zp_inv. rewrite zpow_mod_spec by lia.
  rewrite Z.mul_mod_idemp_l by lia. rewrite Z.mul_comm.
  apply fermat_inv_Z; [exact Hp|]. rewrite Z.mod_small; lia.
Qed.

(* general form: any representative, not only the canonical one *)
Lemma zp_inv_spec_mod : forall p a, prime p -> a mod p <> 0 -> (zp_inv p a * a) mod p = 1.
Proof.
  intros p a Hp Ha.
  assert (Hp1 : 1 < p) by (apply prime_gt1; exact Hp).
  unfold zp_inv. rewrite zpow_mod_spec by lia.
  rewrite Z.mul_mod_idemp_l by lia. rewrite Z.mul_comm.
  apply fermat_inv_Z; assumption.
Qed.

Lemma zp_inv_0 : forall p, 2 < p -> zp_inv p 0 = 0.
Proof.
  intros p Hp. unfold zp_inv. rewrite zpow_mod_spec by lia.
  rewrite Z.pow_0_l by lia. apply Z.mod_0_l. lia.
Qed.

(* p = 2 is the one prime where zp_inv p 0 <> 0 (a^(p-2) = a^0 = 1). *)
Example zp_inv_0_at_2 : zp_inv 2 0 = 1.
Proof. reflexivity. Qed.

Print Assumptions fermat_little_Z.
Print Assumptions fermat_inv_Z.
Print Assumptions zpow_mod_spec.
Print Assumptions zp_inv_spec.
Print Assumptions zp_inv_0.
