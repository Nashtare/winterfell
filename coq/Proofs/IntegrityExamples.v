(* C03 — non-vacuity: concrete instances satisfying the hypotheses of the theorems of IntegrityOrder.v and
   IntegrityBinding.v, and the faithful-order remarks. *)
From Coq Require Import ZArith List Bool Lia.
From VBase Require Import MachInt.
From VModel Require Import Merkle Integrity.
From VProofs Require Import MerkleSingle MerkleTotal IntegrityOrder IntegrityBinding.
Import ListNotations.
Local Open Scope nat_scope.

(* a proof with an auxiliary segment, three FRI layers, grinding *)
Definition ex_shape : shape := mkShape true 2 7 9 3 [5; 4; 3] 5 2.
(* no FRI layer at all: the remainder is checked directly against the DEEP evaluations *)
Definition ex_shape0 : shape := mkShape false 0 2 3 0 [] 3 0.
(* a surplus layer in the proof *)
Definition ex_shape_surplus : shape := mkShape false 0 2 3 0 [1] 3 0.

Example ex_admissible : admissible current ex_shape = true /\ admissible current ex_shape0 = true /\
  admissible current ex_shape_surplus = false /\ admissible unrepaired ex_shape_surplus = true.
Proof. repeat split; reflexivity. Qed.

Example ex_check : check st0 (events current ex_shape) = true /\ check st0 (events current ex_shape0) = true.
Proof. split; vm_compute; reflexivity. Qed.

(* the checker is not trivially true: without the remainder-commitment check the remainder is used unauthenticated,
   and a run that draws the positions before the last commitment is absorbed is refused *)
Example ex_check_unrepaired : check st0 (events unrepaired ex_shape) = false.
Proof. vm_compute; reflexivity. Qed.

Example ex_check_positions_early :
  check st0 ([Absorb (Raw (TraceRoot 0)); DrawPositions; Absorb (Raw ConstraintRoot)]) = false /\
  check st0 ([Absorb (Raw (TraceRoot 0)); HashLeaves (TraceRows 0) 1; DrawPositions;
              AuthCheck ConstraintRows ConstraintPaths ConstraintRoot]) = false /\
  check st0 ([Absorb (Raw (TraceRoot 0)); HashLeaves (TraceRows 0) 1; DrawPositions; Use (TraceRows 0)]) = false.
Proof. repeat split; reflexivity. Qed.

(* faithful order: the OOD trace frame is evaluated (evaluate_constraints) BEFORE it is hashed and absorbed; the
   comparison which decides comes after both OOD absorptions *)
Example ex_ood_used_before_absorbed : exists pre post,
  events current ex_shape0 =
    pre ++ [Use OodTrace; HashWhole ood_frame; Absorb (HashOf ood_frame); Use OodEvals; HashWhole [OodEvals];
            Absorb (HashOf [OodEvals]); Compare CkOod [OodTrace] [OodEvals]] ++ post.
Proof.
  eexists (firstn 21 (events current ex_shape0)), (skipn 28 (events current ex_shape0)). vm_compute. reflexivity.
Qed.

(* (a) both branches of auth_binding_single are inhabited.  D = Z with a constant merge: everything verifies and the
   collision finder returns a collision of merge ... *)
Example ex_auth_single_hyps :
  let merge := fun _ _ : Z => 0%Z in
  verify Z Z.eqb merge 0%Z 0%Z [1; 5]%Z = Ok tt /\ verify Z Z.eqb merge 0%Z 0%Z [2; 5]%Z = Ok tt /\
  exists c, find_collision Z Z.eqb 0%Z merge 0%Z [1; 5]%Z [2; 5]%Z = Some c /\ is_collision Z merge c.
Proof.
  cbv zeta. split; [vm_compute; reflexivity|]. split; [vm_compute; reflexivity|].
  exists ((1, 5), (2, 5))%Z. split; [vm_compute; reflexivity|]. split; cbn; [discriminate | reflexivity].
Qed.

(* ... and with a constant leaf hash the leaf-collision branch *)
Example ex_leaf_collision : leaf_collision Z Z (fun _ => 7%Z) (1, 2)%Z.
Proof. split; cbn; [discriminate | reflexivity]. Qed.

(* (b) hypotheses of absorb_binding on a real run: the constraint commitment is absorbed; two assignments that
   differ on it give different coin terms *)
Example ex_absorb_hyps :
  (exists e, In e (events current ex_shape0) /\ absorbs e ConstraintRoot) /\
  (fun c => match c with ConstraintRoot => 1%Z | _ => 0%Z end) ConstraintRoot <> (fun _ : comp => 0%Z) ConstraintRoot.
Proof.
  split; [| discriminate].
  exists (Absorb (Raw ConstraintRoot)). split; [vm_compute; tauto|]. left. exists (Raw ConstraintRoot). split; [reflexivity | now left].
Qed.

Example ex_absorb_run :
  coin Z (fun c => match c with ConstraintRoot => 1%Z | _ => 0%Z end) (events current ex_shape0) (CEmpty Z)
  <> coin Z (fun _ => 0%Z) (events current ex_shape0) (CEmpty Z).
Proof. apply (absorb_binding Z _ _ _ ConstraintRoot); apply ex_absorb_hyps. Qed.

(* (a) batch form: the hypotheses of auth_binding_batch are satisfiable with different opened rows (constant merge:
   everything verifies), so its conclusion is not vacuous; here the collision-of-merge branch is the inhabited one *)
Definition ex_tree : mtree Z := {| mt_nodes := [0; 0]%Z; mt_leaves := [1; 2]%Z |}.

Example ex_auth_batch_hyps :
  let merge := fun _ _ : Z => 0%Z in
  wf_tree Z 0%Z merge 1 ex_tree /\ usize_list [0%Z] /\
  verify_batch Z Z.eqb merge (hval Z 0%Z ex_tree 1) [0%Z]
    {| bp_leaves := map (fun v : Z => v) [5%Z]; bp_nodes := [[2%Z]]; bp_depth := Z.of_nat 1 |} = Ok tt /\
  verify_batch Z Z.eqb merge (hval Z 0%Z ex_tree 1) [0%Z]
    {| bp_leaves := map (fun v : Z => v) [6%Z]; bp_nodes := [[2%Z]]; bp_depth := Z.of_nat 1 |} = Ok tt /\
  [5%Z] <> [6%Z].
Proof.
  cbv zeta. split; [| split; [| split; [| split]]].
  - constructor; [lia | reflexivity | reflexivity |].
    intros k Hk. change (2 ^ Z.of_nat 1)%Z with 2%Z in Hk. assert (k = 1%Z) as -> by lia. reflexivity.
  - intros x [<- | []]. lia.
  - vm_compute. reflexivity.
  - vm_compute. reflexivity.
  - discriminate.
Qed.
