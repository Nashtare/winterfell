(* C03 — what a binding event of Model/Integrity.v buys at the level of VALUES.  (a) AuthCheck: two accepting openings for
   the same absorbed root and the same position(s) with different opened rows yield an EXPLICIT collision of the leaf hash
   (hash_elements of a row) or of merge: instances of C10's single_binding_paths and batch_binding_verify_batch (the form the
   verifier calls; positions are usize values), collision resistance is never assumed.  (b) Absorb: the coin state is a free
   term over the absorbed values, so a different value of an absorbed component gives a different term at the moment the
   positions are drawn; that a different term gives different positions is a property of the hash function, not proved. *)
From Coq Require Import ZArith List Bool Lia.
From VBase Require Import MachInt.
From VModel Require Import Merkle Integrity.
From VProofs Require Import MerkleSingle MerkleTotal MerkleBind IntegrityOrderBase IntegrityOrder.
Import ListNotations.

(* ================================================================================================ (a) *)
Section AuthBinding.
Variable D : Type.
Variable D_eqb : D -> D -> bool.
Hypothesis D_eqb_spec : forall a b, D_eqb a b = true <-> a = b.
Variable d0 : D.
Variable merge : D -> D -> D.
Variable V : Type.                 (* an opened row (the field elements of one query) *)
Variable hl : V -> D.              (* H::hash_elements(row): the leaf recomputed by Queries::parse / FriProofLayer::parse *)
Variable V_eq_dec : forall a b : V, {a = b} + {a <> b}.   (* rows are lists of field elements *)

(* an explicit collision of the leaf hash *)
Definition leaf_collision (c : V * V) : Prop := fst c <> snd c /\ hl (fst c) = hl (snd c).

(* Single opening [leaf; sibling; ...]: same root, same position, same depth, different rows. *)
Theorem auth_binding_single : forall root index v v' q q',
  verify D D_eqb merge root index (hl v :: q) = Ok tt ->
  verify D D_eqb merge root index (hl v' :: q') = Ok tt ->
  length q = length q' -> v <> v' ->
  leaf_collision (v, v') \/
  exists c, find_collision D D_eqb d0 merge index (hl v :: q) (hl v' :: q') = Some c /\ is_collision D merge c.
Proof.
  intros root index v v' q q' V1 V2 HL Hne.
  destruct (single_binding_paths D D_eqb D_eqb_spec d0 merge root index _ _ V1 V2) as [E | C].
  - cbn [length]. now rewrite HL.
  - left. split; [exact Hne|]. cbn [fst snd]. now injection E.
  - right. exact C.
Qed.

(* Batch openings: C10's theorem, relative to a committed tree. *)
Lemma merkle_batch_binding : forall (t : mtree D) (d : nat) (idx : list Z) (p : bproof D),
    wf_tree D d0 merge d t -> (d <= 62)%nat -> usize_list idx ->
    verify_batch D D_eqb merge (hval D d0 t 1) idx p = Ok tt -> bp_depth p = Z.of_nat d ->
    (forall j i, nth_error idx j = Some i -> nth_error (bp_leaves p) j = nth_error (mt_leaves t) (Z.to_nat i))
    \/ exists c, is_collision D merge c.
Proof. exact (batch_binding_verify_batch D D_eqb D_eqb_spec d0 merge). Qed.

(* An accepted batch opening of rows [vs] against the root of a committed tree: every opened row hashes to the
   committed leaf of its position, or a collision of merge exists. *)
Theorem auth_binding_batch_tree : forall t d idx nodes vs,
  wf_tree D d0 merge d t -> (d <= 62)%nat -> usize_list idx ->
  verify_batch D D_eqb merge (hval D d0 t 1) idx
    {| bp_leaves := map hl vs; bp_nodes := nodes; bp_depth := Z.of_nat d |} = Ok tt ->
  (forall j i v, nth_error idx j = Some i -> nth_error vs j = Some v ->
     nth_error (mt_leaves t) (Z.to_nat i) = Some (hl v))
  \/ exists c, is_collision D merge c.
Proof.
  intros t d idx nodes vs WF Hd Hu VB.
  destruct (merkle_batch_binding t d idx _ WF Hd Hu VB eq_refl) as [H | C]; [left | right; exact C].
  intros j i v Hi Hv. rewrite <- (H j i Hi). cbn [bp_leaves]. now rewrite nth_error_map, Hv.
Qed.

(* Two accepting runs with the same absorbed root (of a committed tree), the same positions, the same number of
   opened rows but different rows: an explicit collision — a pair of different rows with the same leaf hash, or a
   collision of merge. *)
Theorem auth_binding_batch : forall t d idx nodes nodes' vs vs',
  wf_tree D d0 merge d t -> (d <= 62)%nat -> usize_list idx ->
  verify_batch D D_eqb merge (hval D d0 t 1) idx
    {| bp_leaves := map hl vs; bp_nodes := nodes; bp_depth := Z.of_nat d |} = Ok tt ->
  verify_batch D D_eqb merge (hval D d0 t 1) idx
    {| bp_leaves := map hl vs'; bp_nodes := nodes'; bp_depth := Z.of_nat d |} = Ok tt ->
  length vs = length idx -> length vs' = length idx -> vs <> vs' ->
  (exists j v v', nth_error vs j = Some v /\ nth_error vs' j = Some v' /\ leaf_collision (v, v'))
  \/ exists c, is_collision D merge c.
Proof.
  intros t d idx nodes nodes' vs vs' WF Hd Hu V1 V2 L1 L2 Hne.
  destruct (auth_binding_batch_tree t d idx nodes vs WF Hd Hu V1) as [H1 | C]; [| right; exact C].
  destruct (auth_binding_batch_tree t d idx nodes' vs' WF Hd Hu V2) as [H2 | C]; [| right; exact C].
  left.
  assert (HL : length vs = length vs') by lia.
  clear V1 V2 L2.
  (* find the first position where the rows differ *)
  assert (Hex : exists j v v', nth_error vs j = Some v /\ nth_error vs' j = Some v' /\ v <> v').
  { clear - HL Hne V_eq_dec. revert vs' HL Hne. induction vs as [| a r IH]; intros [| a' r'] HL Hne; cbn in HL; try discriminate.
    - now contradict Hne.
    - destruct (V_eq_dec a a') as [-> | Hd].
      + destruct (IH r') as (j & v & v' & A & B & C); [lia | intros ->; now apply Hne |].
        exists (S j), v, v'. now cbn.
      + exists 0%nat, a, a'. now cbn. }
  destruct Hex as (j & v & v' & A & B & Hvv).
  exists j, v, v'. split; [exact A|]. split; [exact B|]. split; [exact Hvv|]. cbn [fst snd].
  assert (Hj : (j < length idx)%nat) by (rewrite <- L1; apply nth_error_Some; congruence).
  destruct (nth_error idx j) as [i|] eqn:Ei; [| apply nth_error_None in Ei; lia].
  pose proof (H1 j i v Ei A) as E1. pose proof (H2 j i v' Ei B) as E2. congruence.
Qed.

End AuthBinding.

(* ================================================================================================ (b) *)
Section AbsorbBinding.
Variable Val : Type.               (* values of components *)

(* what is fed to the coin, as a free term: hashing is an (injective) constructor *)
Inductive dterm : Type :=
| DVal (v : Val)                   (* a digest carried by the proof *)
| DHash (vs : list Val)            (* hash_elements of the listed component values *)
| DSeed (vs : list Val).           (* the elements RandomCoin::new is given *)

(* the coin state: the history of everything absorbed *)
Inductive cterm : Type :=
| CEmpty
| CReseed (t : cterm) (d : dterm)  (* new / reseed: H(seed, data) *)
| CNonce (t : cterm) (v : Val).    (* draw_integers: merge_with_int(seed, nonce) *)

Definition feed (rho : comp -> Val) (a : aterm) : dterm :=
  match a with Raw c => DVal (rho c) | HashOf cs => DHash (map rho cs) | SeedOf cs => DSeed (map rho cs) end.

Definition cstep (rho : comp -> Val) (t : cterm) (e : event) : cterm :=
  match e with
  | Absorb a => CReseed t (feed rho a)
  | DrawPositions => CNonce t (rho PowNonce)
  | _ => t
  end.

(* the coin state after a run under the assignment rho of values to components *)
Definition coin (rho : comp -> Val) (l : list event) (t : cterm) : cterm := fold_left (cstep rho) l t.

Lemma map_differs : forall (rho rho' : comp -> Val) cs c, In c cs -> rho c <> rho' c -> map rho cs <> map rho' cs.
Proof.
  intros rho rho' cs c. induction cs as [| x r IH]; intros Hin Hne; [contradiction|].
  cbn [map]. intros E. injection E as E1 E2. destruct Hin as [-> | Hin]; [now apply Hne | now apply IH].
Qed.

Lemma cstep_inj : forall rho rho' t t' e, t <> t' -> cstep rho t e <> cstep rho' t' e.
Proof.
  intros rho rho' t t' e Hne. destruct e; cbn [cstep]; try exact Hne; intros E; injection E; intros; now apply Hne.
Qed.

Lemma cstep_absorbs : forall rho rho' t t' e c, absorbs e c -> rho c <> rho' c -> cstep rho t e <> cstep rho' t' e.
Proof.
  intros rho rho' t t' e c [(a & -> & Hin) | (-> & ->)] Hne; cbn [cstep]; intros E.
  - injection E as _ E. destruct a as [c0 | cs | cs]; cbn [feed comps_of] in *.
    + destruct Hin as [-> | []]. injection E as E. now apply Hne.
    + injection E as E. now apply (map_differs rho rho' cs c).
    + injection E as E. now apply (map_differs rho rho' cs c).
  - injection E as _ E. now apply Hne.
Qed.

Lemma coin_differs : forall rho rho' l t t' c,
  t <> t' \/ (exists e, In e l /\ absorbs e c /\ rho c <> rho' c) -> coin rho l t <> coin rho' l t'.
Proof.
  intros rho rho' l. induction l as [| e r IH]; intros t t' c H; cbn [coin fold_left].
  - destruct H as [H | (e & [] & _)]. exact H.
  - apply (IH _ _ c). destruct H as [H | (e0 & [-> | Hin] & Ha & Hne)].
    + left. now apply cstep_inj.
    + left. now apply (cstep_absorbs rho rho' t t' e0 c).
    + right. now exists e0.
Qed.

(* a component that some event of the run absorbs: a different value gives a different final coin term *)
Theorem absorb_binding : forall rho rho' l c,
  (exists e, In e l /\ absorbs e c) -> rho c <> rho' c -> coin rho l CEmpty <> coin rho' l CEmpty.
Proof.
  intros rho rho' l c (e & Hin & Ha) Hne. apply (coin_differs rho rho' l CEmpty CEmpty c). right. now exists e.
Qed.

(* ... and when the absorption is not preceded by DrawPositions, the term the positions are drawn from differs:
   [pre ++ [DrawPositions]] is the run up to and including draw_integers *)
Theorem absorbed_pre_changes_position_seed : forall rho rho' pre post c,
  ~ In DrawPositions pre -> absorbed_pre (pre ++ DrawPositions :: post) c -> rho c <> rho' c ->
  coin rho (pre ++ [DrawPositions]) CEmpty <> coin rho' (pre ++ [DrawPositions]) CEmpty.
Proof.
  intros rho rho' pre post c Hnd (l1 & e & l2 & E & Ha & Hn1) Hne.
  apply absorb_binding with (c := c); [| exact Hne]. exists e. split; [| exact Ha].
  (* e lies in pre ++ [DrawPositions]: otherwise DrawPositions would precede it *)
  apply app_split in E. rewrite in_app_iff. destruct E as [(r & -> & _) | (r & -> & E)].
  - left. apply in_elt.
  - destruct r as [| x r]; injection E as <- E; [right; left; reflexivity |].
    exfalso. apply Hn1, in_elt.
Qed.

End AbsorbBinding.
