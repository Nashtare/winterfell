(* C10 — batch openings: prove_batch succeeds and get_root recomputes the root (all depths). *)
From Coq Require Import ZArith List Bool Lia.
From VBase Require Import MachInt.
From VModel Require Import Merkle.
From VProofs Require Import MerkleBase MerkleSingle MerkleIdx.
Import ListNotations.
Open Scope Z_scope.

Section Batch.
Variable D : Type.
Variable D_eqb : D -> D -> bool.
Hypothesis D_eqb_spec : forall a b, D_eqb a b = true <-> a = b.
Variable d0 : D.
Variable merge : D -> D -> D.

Notation mtree := (mtree D).
Notation bproof := (bproof D).
Notation hval := (hval D d0).
Notation znth := (znth D d0).
Notation wf_tree := (wf_tree D d0 merge).
Notation pb_scan := (pb_scan D).
Notation pb_levels := (pb_levels D).
Notation pb_first := (pb_first D).
Notation pb_leaf := (pb_leaf D).
Notation push_at := (push_at D).
Notation gscan := (gscan D merge).
Notation glevels := (glevels D merge).
Notation gfirst := (gfirst D merge).
Notation gleaf := (gleaf D).
Notation gstep := (gstep D merge).
Notation gsib := (gsib D).
Notation gcore := (gcore D merge).
Notation get_root := (get_root D merge).
Notation mt_prove_batch := (mt_prove_batch D d0).

(* ---------------------------------------------------------------- unfolding lemmas *)
Lemma pb_scan_unfold tn a rest i nodes :
  pb_scan tn (a :: rest) i nodes =
  if merged a rest then
    '(nodesF, next) <- pb_scan tn (tl rest) (i + 2) nodes ;; Ok (nodesF, Z.shiftr (Z.lxor a 1) 1 :: next)
  else
    x <- idx tn (Z.lxor a 1) ;;
    nodes1 <- push_at nodes i x ;;
    '(nodesF, next) <- pb_scan tn rest (i + 1) nodes1 ;; Ok (nodesF, Z.shiftr (Z.lxor a 1) 1 :: next).
Proof. destruct rest as [|b rest']; [reflexivity|]. cbn [Merkle.pb_scan merged tl]. destruct (b =? Z.lxor a 1); reflexivity. Qed.

Lemma gscan_unfold pn a rest i v ptrs ptm :
  gscan pn (a :: rest) i v ptrs ptm =
  if merged a rest then
    match bt_get (Z.lxor a 1) v with
    | None => Err InvalidProof
    | Some s =>
      '(v1, ptm1, pi) <- gstep a s v ptm ;;
      '(vF, ptrsF, ptmF, next) <- gscan pn (tl rest) (i + 2) v1 ptrs ptm1 ;;
      Ok (vF, ptrsF, ptmF, pi :: next)
    end
  else
    '(s, ptrs1) <- gsib pn ptrs i ;;
    '(v1, ptm1, pi) <- gstep a s v ptm ;;
    '(vF, ptrsF, ptmF, next) <- gscan pn rest (i + 1) v1 ptrs1 ptm1 ;;
    Ok (vF, ptrsF, ptmF, pi :: next).
Proof. destruct rest as [|b rest']; [reflexivity|]. cbn [Merkle.gscan merged tl]. destruct (b =? Z.lxor a 1); reflexivity. Qed.

(* get_root and into_paths past their three guards on the position list *)
Lemma get_root_eq (p : bproof) idx : idx <> [] -> zlen idx <= 255 -> zlen idx = zlen (bp_leaves p) ->
  get_root p idx = '(v, _) <- gcore p idx [] ;; match bt_get 1 v with Some r => Ok r | None => Err InvalidProof end.
Proof.
  intros Hne Hlen HL. unfold Merkle.get_root. rewrite match_nonempty by assumption. unfold max_paths.
  destruct (Z.ltb_spec 255 (zlen idx)); [lia|]. rewrite HL, Z.eqb_refl. reflexivity.
Qed.

Lemma into_paths_eq (p : bproof) idx : idx <> [] -> zlen idx <= 255 -> zlen idx = zlen (bp_leaves p) ->
  Merkle.into_paths D merge p idx =
  '(_, ptm) <- gcore p idx (ptm_leaves D (2 ^ bp_depth p) idx (bp_leaves p) []) ;; mapM (fun i => get_path D i ptm (bp_depth p)) idx.
Proof.
  intros Hne Hlen HL. unfold Merkle.into_paths. rewrite match_nonempty by assumption. unfold max_paths.
  destruct (Z.ltb_spec 255 (zlen idx)); [lia|]. rewrite HL, Z.eqb_refl. reflexivity.
Qed.

Lemma get_root_Ok_inv (p : bproof) idx r : get_root p idx = Ok r ->
  idx <> [] /\ zlen idx <= 255 /\ zlen idx = zlen (bp_leaves p) /\ exists v ptm, gcore p idx [] = Ok (v, ptm) /\ bt_get 1 v = Some r.
Proof.
  unfold Merkle.get_root. destruct idx as [|i0 ir] eqn:Ei; [discriminate|]. rewrite <- Ei. unfold max_paths.
  destruct (Z.ltb_spec 255 (zlen idx)); [discriminate|]. destruct (Z.eqb_spec (zlen idx) (zlen (bp_leaves p))); [|discriminate].
  cbn [negb]. intros E. apply bind_Ok in E. destruct E as ([v ptm] & Eg & E). destruct (bt_get 1 v) eqn:E1; [|discriminate].
  injection E as <-. repeat split; try assumption; [rewrite Ei; discriminate|eauto].
Qed.

Lemma into_paths_Ok_inv (p : bproof) idx paths : Merkle.into_paths D merge p idx = Ok paths ->
  idx <> [] /\ zlen idx <= 255 /\ zlen idx = zlen (bp_leaves p) /\
  exists v ptm, gcore p idx (ptm_leaves D (2 ^ bp_depth p) idx (bp_leaves p) []) = Ok (v, ptm) /\
                mapM (fun i => get_path D i ptm (bp_depth p)) idx = Ok paths.
Proof.
  unfold Merkle.into_paths. destruct idx as [|i0 ir] eqn:Ei; [discriminate|]. rewrite <- Ei. unfold max_paths.
  destruct (Z.ltb_spec 255 (zlen idx)); [discriminate|]. destruct (Z.eqb_spec (zlen idx) (zlen (bp_leaves p))); [|discriminate].
  cbn [negb]. intros E. apply bind_Ok in E. destruct E as ([v ptm] & Eg & E).
  repeat split; try assumption; [rewrite Ei; discriminate|eauto].
Qed.

Lemma merged_inv a rest : merged a rest = true -> exists rest', rest = Z.lxor a 1 :: rest'.
Proof. destruct rest as [|b r]; [discriminate|]. simpl. intros E. apply Z.eqb_eq in E. subst. eauto. Qed.

Lemma merged_same a rest : merged a (Z.lxor a 1 :: rest) = true.
Proof. apply Z.eqb_refl. Qed.

(* induction along the level loops: an element is consumed together with its sibling when the sibling is next *)
Lemma scan_ind (P : list Z -> Prop) :
  P [] ->
  (forall a r, P r -> P (a :: Z.lxor a 1 :: r)) ->
  (forall a r, merged a r = false -> P r -> P (a :: r)) ->
  forall I, P I.
Proof.
  intros H0 Hm Hu. induction I as [|a r IHr IHt] using list_ind_tl; [assumption|].
  destruct (merged a r) eqn:E; [|apply Hu; assumption].
  destruct (merged_inv _ _ E) as (r' & ->). apply Hm, IHt.
Qed.

(* ---------------------------------------------------------------- push_at *)
Lemma push_at_inv nodes i x nodes1 :
  push_at nodes i x = Ok nodes1 ->
  exists nd, 0 <= i < zlen nodes /\ nth_error nodes (Z.to_nat i) = Some nd /\ upd nodes i (nd ++ [x]) = Ok nodes1 /\
             length nodes1 = length nodes /\ Forall2 prefix nodes nodes1.
Proof.
  unfold Merkle.push_at. intros E. apply bind_Ok in E. destruct E as (nd & E1 & E2).
  apply idx_inv in E1. destruct E1 as [Hi E1]. exists nd. split; [assumption|]. split; [assumption|]. split; [assumption|].
  apply upd_inv in E2. destruct E2 as (_ & L & Nn). split; [assumption|].
  eapply (Forall2_upd prefix); try eassumption; [apply prefix_refl|apply prefix_app].
Qed.

Lemma push_at_ok nodes i x : 0 <= i < zlen nodes -> exists nodes1, push_at nodes i x = Ok nodes1.
Proof.
  intros Hi. unfold Merkle.push_at. rewrite (idx_Ok _ _ []) by assumption. cbn [bind].
  destruct (upd_Ok nodes i (nth (Z.to_nat i) nodes [] ++ [x]) Hi) as (l' & E & _). eauto.
Qed.

(* ---------------------------------------------------------------- the tree *)
Variable t : mtree.
Variable d : nat.
Hypothesis WF : wf_tree d t.
Hypothesis Hd : (d <= 62)%nat.
Let N := 2 ^ Z.of_nat d.
Let tn := mt_nodes t.

Definition leaf (k : Z) : D := znth (mt_leaves t) k.

Lemma Npos : 2 <= N.
Proof. apply (N_pos D d0 merge t d); assumption. Qed.

Lemma Neven : N mod 2 = 0.
Proof. apply (N_even D d0 merge t d); assumption. Qed.

Lemma Nsmall : 2 * N <= usz.
Proof. unfold N. eapply N_small; eassumption. Qed.

Lemma tn_len : zlen tn = N.
Proof. exact (wf_nodes _ _ _ _ _ WF). Qed.

Lemma leaves_len : zlen (mt_leaves t) = N.
Proof. exact (wf_leaves _ _ _ _ _ WF). Qed.

Lemma sib_range a : 2 <= a < N -> 0 <= Z.lxor a 1 < N.
Proof. intros H. split; [apply lxor1_nonneg; lia|apply lxor1_lt_even; [lia|apply Neven]]. Qed.

Lemma idx_tn k : 0 <= k < N -> idx tn k = Ok (hval t k).
Proof.
  intros H. rewrite (idx_Ok _ _ d0) by (rewrite tn_len; assumption).
  rewrite (hval_node D d0 merge t d) by assumption. reflexivity.
Qed.

(* ---------------------------------------------------------------- pb_scan / pb_levels *)
Lemma pb_scan_inv : forall I i nodes nodes' next,
  pb_scan tn I i nodes = Ok (nodes', next) ->
  Forall2 prefix nodes nodes' /\ (length next <= length I)%nat /\
  (forall b, In b next -> exists a, In a I /\ b = Z.lxor a 1 / 2) /\ (I <> [] -> next <> []).
Proof.
  induction I as [|a r IH|a r Em IH] using scan_ind; intros i nodes nodes' next E.
  - cbn in E. injection E as <- <-.
    split; [apply Forall2_refl; apply prefix_refl|]. split; [lia|]. split; [intros ? []|congruence].
  - rewrite pb_scan_unfold, merged_same in E. cbn [tl] in E.
    apply bind_Ok in E. destruct E as ([nodesF next'] & E1 & E2). injection E2 as <- <-.
    apply IH in E1. destruct E1 as (F & L & P & _). split; [assumption|]. split; [simpl; lia|].
    split; [|congruence]. intros b [<-|Hb].
    + exists a. split; [left; reflexivity|]. apply shiftr1.
    + apply P in Hb. destruct Hb as (a' & Ha & ->). exists a'. split; [right; right; assumption|reflexivity].
  - rewrite pb_scan_unfold, Em in E.
    apply bind_Ok in E. destruct E as (x & _ & E). apply bind_Ok in E. destruct E as (nodes1 & Ep & E).
    apply bind_Ok in E. destruct E as ([nodesF next'] & E1 & E2). injection E2 as <- <-.
    apply push_at_inv in Ep. destruct Ep as (nd & _ & _ & _ & _ & F1).
    apply IH in E1. destruct E1 as (F & L & P & _).
    split; [eapply Forall2_trans; [exact (@prefix_trans D)|eassumption|eassumption]|].
    split; [simpl; lia|]. split; [|congruence]. intros b [<-|Hb].
    + exists a. split; [left; reflexivity|]. apply shiftr1.
    + apply P in Hb. destruct Hb as (a' & Ha & ->). exists a'. split; [right; assumption|reflexivity].
Qed.

Lemma pb_scan_ok : forall I i nodes,
  (forall a, In a I -> 2 <= a < N) -> 0 <= i -> i + zlen I <= zlen nodes ->
  exists r, pb_scan tn I i nodes = Ok r.
Proof.
  induction I as [|a r IH|a r Em IH] using scan_ind; intros i nodes Hr Hi Hl.
  - cbn. eauto.
  - rewrite pb_scan_unfold, merged_same. cbn [tl]. rewrite !zlen_cons in Hl.
    destruct (IH (i + 2) nodes) as ([nf nx] & E); [intros a' Ha; apply Hr; right; right; assumption|lia|lia|].
    rewrite E. cbn [bind]. eauto.
  - rewrite pb_scan_unfold, Em. rewrite zlen_cons in Hl. pose proof (zlen_nonneg r).
    rewrite idx_tn by (apply sib_range; apply Hr; left; reflexivity). cbn [bind].
    destruct (push_at_ok nodes i (hval t (Z.lxor a 1))) as (nodes1 & Ep); [lia|].
    rewrite Ep. cbn [bind]. apply push_at_inv in Ep. destruct Ep as (_ & _ & _ & _ & L1 & _).
    destruct (IH (i + 1) nodes1) as ([nf nx] & E); [intros a' Ha; apply Hr; right; assumption|lia|unfold zlen in *; lia|].
    rewrite E. cbn [bind]. eauto.
Qed.

Lemma pb_levels_mono : forall k I nodes NF, pb_levels k tn I nodes = Ok NF -> Forall2 prefix nodes NF.
Proof.
  induction k as [|k IH]; intros I nodes NF E.
  - cbn in E. injection E as <-. apply Forall2_refl. apply prefix_refl.
  - cbn [Merkle.pb_levels] in E. apply bind_Ok in E. destruct E as ([nodes1 next] & E1 & E2).
    apply pb_scan_inv in E1. destruct E1 as (F & _). apply IH in E2.
    eapply Forall2_trans; [exact (@prefix_trans D)|eassumption|eassumption].
Qed.

Lemma parent_range (k : nat) a : 2 ^ (Z.of_nat k + 1) <= a < 2 ^ (Z.of_nat k + 2) ->
  2 ^ Z.of_nat k <= Z.lxor a 1 / 2 < 2 ^ (Z.of_nat k + 1).
Proof.
  intros H. assert (0 < 2 ^ (Z.of_nat k + 1)) by (apply p2_pos; lia).
  rewrite lxor1_div2 by lia. apply div2_range; [lia|assumption].
Qed.

Lemma pb_levels_ok : forall (k : nat) I nodes,
  (forall a, In a I -> 2 ^ Z.of_nat k <= a < 2 ^ (Z.of_nat k + 1)) -> 2 ^ (Z.of_nat k + 1) <= N ->
  zlen I <= zlen nodes ->
  exists NF, pb_levels k tn I nodes = Ok NF.
Proof.
  induction k as [|k IH]; intros I nodes Hr HN Hl.
  - cbn. eauto.
  - cbn [Merkle.pb_levels]. rewrite Nat2Z.inj_succ in *. unfold Z.succ in *.
    pose proof (p2_pos (Z.of_nat k) ltac:(lia)). pose proof (p2_succ (Z.of_nat k) ltac:(lia)) as H2.
    destruct (pb_scan_ok I 0 nodes) as ([nodes1 next] & E); [intros a Ha; apply Hr in Ha; lia|lia|lia|].
    rewrite E. cbn [bind]. apply pb_scan_inv in E. destruct E as (F & L & P & _).
    apply IH.
    + intros b Hb. apply P in Hb. destruct Hb as (a & Ha & ->). apply parent_range.
      replace (Z.of_nat k + 2) with (Z.of_nat k + 1 + 1) by lia. apply Hr. assumption.
    + etransitivity; [|exact HN]. apply p2_le_mono. lia.
    + apply Forall2_len in F. unfold zlen in *. lia.
Qed.

(* ---------------------------------------------------------------- get_root side: one level *)
Definition vsound (v : bmap D) : Prop := forall k x, bt_get k v = Some x -> 1 <= k /\ x = hval t k.

Lemma vsound_insert v k : vsound v -> 1 <= k -> vsound (bt_insert k (hval t k) v).
Proof.
  intros Hv Hk k2 x. rewrite bt_get_insert. destruct (Z.eqb_spec k2 k); [intros [= <-]; subst; auto|apply Hv].
Qed.

(* every entry of the partial tree of an honest run is the tree's node value *)
Definition ptmsound (m : bmap D) : Prop := forall k x, bt_get k m = Some x -> x = hval t k.

Lemma ptmsound_insert m k : ptmsound m -> ptmsound (bt_insert k (hval t k) m).
Proof.
  intros Hm k2 x. rewrite bt_get_insert. destruct (Z.eqb_spec k2 k); [intros [= <-]; subst; auto|apply Hm].
Qed.

(* a step at a on honest values, followed by the rest R of the level *)
Lemma scan_complete_step a R j ptrs1 ptrsF NF v ptm next' :
  2 <= a < N -> vsound v -> bt_get a v <> None ->
  (forall v1 ptm1, vsound v1 -> (forall k, bt_get k v <> None -> bt_get k v1 <> None) ->
     exists v' ptm', gscan NF R j v1 ptrs1 ptm1 = Ok (v', ptrsF, ptm', next') /\ vsound v' /\
       (forall k, bt_get k v1 <> None -> bt_get k v' <> None) /\ (forall b, In b next' -> bt_get b v' <> None) /\
       (ptmsound ptm1 -> ptmsound ptm')) ->
  exists v' ptm',
    ('(v1, ptm1, pi) <- gstep a (hval t (Z.lxor a 1)) v ptm ;;
     '(vF, pF, ptmF, next) <- gscan NF R j v1 ptrs1 ptm1 ;; Ok (vF, pF, ptmF, pi :: next))
    = Ok (v', ptrsF, ptm', Z.shiftr (Z.lxor a 1) 1 :: next') /\ vsound v' /\
    (forall k, bt_get k v <> None -> bt_get k v' <> None) /\
    (forall b, In b (Z.shiftr (Z.lxor a 1) 1 :: next') -> bt_get b v' <> None) /\ (ptmsound ptm -> ptmsound ptm').
Proof.
  intros Ha Hv Hg Hrest. unfold Merkle.gstep. destruct (bt_get a v) as [node|] eqn:E; [|congruence].
  apply Hv in E. destruct E as [_ ->]. rewrite !shiftr1.
  assert (C := climb_step D d0 merge t d WF Hd a ltac:(pose proof Npos; lia)).
  replace (if negb (Z.land a 1 =? 0) then _ else _) with (hval t (a / 2)) by (destruct (Z.land a 1 =? 0); symmetry; exact C).
  cbn [bind]. edestruct (Hrest (bt_insert (a / 2) (hval t (a / 2)) v)) as (v' & ptm' & Eg2 & Hv' & Hk' & Hn' & Hs').
  { apply vsound_insert; [assumption|zmod a; lia]. }
  { intros k Hk0. rewrite bt_get_insert. destruct (k =? a / 2); [discriminate|exact Hk0]. }
  rewrite Eg2. cbn [bind]. rewrite lxor1_div2 by lia. exists v', ptm'. split; [reflexivity|]. split; [assumption|].
  split; [|split].
  - intros k Hk0. apply Hk'. rewrite bt_get_insert. destruct (k =? a / 2); [discriminate|exact Hk0].
  - intros b [<-|Hb]; [|auto]. apply Hk'. rewrite bt_get_insert_same. discriminate.
  - intros Hs0. apply Hs'. apply ptmsound_insert, ptmsound_insert, Hs0.
Qed.

Lemma scan_complete : forall n I i nodes nodes' next NF v ptm, (length I <= n)%nat ->
  pb_scan tn I i nodes = Ok (nodes', next) ->
  Forall2 prefix nodes' NF -> 0 <= i ->
  (forall a, In a I -> 2 <= a < N) ->
  vsound v -> (forall a, In a I -> bt_get a v <> None) ->
  exists v' ptm', gscan NF I i v (map zlen nodes) ptm = Ok (v', map zlen nodes', ptm', next) /\
    vsound v' /\ (forall k, bt_get k v <> None -> bt_get k v' <> None) /\
    (forall b, In b next -> bt_get b v' <> None) /\ (ptmsound ptm -> ptmsound ptm').
Proof.
  intros n I. revert n.
  induction I as [|a r IH|a r Em IH] using scan_ind; intros n i nodes nodes' next NF v ptm _ E HF Hi Hr Hv Hk.
  - cbn in E. injection E as <- <-. cbn. exists v, ptm. split; [reflexivity|]. split; [assumption|]. split; [auto|]. split; [intros ? []|auto].
  - assert (Ha : 2 <= a < N) by (apply Hr; left; reflexivity).
    rewrite pb_scan_unfold, merged_same in E. rewrite gscan_unfold, merged_same. cbn [tl] in *.
    apply bind_Ok in E. destruct E as ([nodesF next'] & E1 & E2). injection E2 as <- <-.
    destruct (bt_get (Z.lxor a 1) v) as [s|] eqn:Es; [|apply (Hk (Z.lxor a 1)) in Es; [contradiction|right; left; reflexivity]].
    apply Hv in Es. destruct Es as [_ ->].
    apply scan_complete_step; [assumption|assumption|apply Hk; left; reflexivity|]. intros v1 ptm1 Hv1 Hk1.
    apply (IH _ (i + 2) nodes nodesF next' NF v1 ptm1 (le_n _) E1 HF ltac:(lia)); [|assumption|];
      intros a' Ha'; [apply Hr|apply Hk1, Hk]; right; right; assumption.
  - assert (Ha : 2 <= a < N) by (apply Hr; left; reflexivity).
    rewrite pb_scan_unfold, Em in E. rewrite gscan_unfold, Em.
    apply bind_Ok in E. destruct E as (x & Ex & E). apply bind_Ok in E. destruct E as (nodes1 & Ep & E).
    apply bind_Ok in E. destruct E as ([nodesF next'] & E1 & E2). injection E2 as <- <-.
    rewrite idx_tn in Ex by (apply sib_range; assumption). injection Ex as <-.
    destruct (push_at_inv _ _ _ _ Ep) as (nd & Hi2 & End & Eu & L1 & F1).
    pose proof (pb_scan_inv r (i + 1) nodes1 nodesF next' E1) as (F2 & _).
    (* the node read by get_root *)
    assert (End1 : nth_error nodes1 (Z.to_nat i) = Some (nd ++ [hval t (Z.lxor a 1)])).
    { apply upd_inv in Eu. destruct Eu as (_ & _ & Nn). rewrite Nn, Nat.eqb_refl. reflexivity. }
    destruct (Forall2_nth _ _ _ _ _ F2 End1) as (ndF & EndF & P1).
    destruct (Forall2_nth _ _ _ _ _ HF EndF) as (ndN & EndN & P2).
    pose proof (prefix_snoc_nth _ _ _ (prefix_trans _ _ _ P1 P2)) as [Ex Hlen].
    unfold Merkle.gsib.
    rewrite (idx_map zlen nodes i nd) by (apply idx_nth_error; [lia|assumption]). cbn [bind].
    rewrite (idx_nth_error NF i ndN) by (lia || assumption). cbn [bind].
    destruct (Z.leb_spec (zlen ndN) (zlen nd)); [unfold zlen in *; lia|].
    rewrite (idx_nth_error ndN (zlen nd) (hval t (Z.lxor a 1))) by (try apply zlen_nonneg; unfold zlen; rewrite Nat2Z.id; assumption).
    cbn [bind].
    assert (Eu2 : upd (map zlen nodes) i (zlen nd + 1) = Ok (map zlen nodes1)).
    { replace (zlen nd + 1) with (zlen (nd ++ [hval t (Z.lxor a 1)])) by (rewrite zlen_app; reflexivity).
      apply upd_map. assumption. }
    rewrite Eu2. cbn [bind].
    apply scan_complete_step; [assumption|assumption|apply Hk; left; reflexivity|]. intros v1 ptm1 Hv1 Hk1.
    apply (IH _ (i + 1) nodes1 nodesF next' NF v1 ptm1 (le_n _) E1 HF ltac:(lia)); [|assumption|];
      intros a' Ha'; [apply Hr|apply Hk1, Hk]; right; assumption.
Qed.

(* ---------------------------------------------------------------- all levels *)
Lemma levels_complete : forall (k : nat) I nodes NF v ptm,
  pb_levels k tn I nodes = Ok NF ->
  (forall a, In a I -> 2 ^ Z.of_nat k <= a < 2 ^ (Z.of_nat k + 1)) -> 2 ^ (Z.of_nat k + 1) <= N ->
  vsound v -> (forall a, In a I -> bt_get a v <> None) ->
  exists v' ptm', glevels k NF I v (map zlen nodes) ptm = Ok (v', map zlen NF, ptm') /\ vsound v' /\
                  (I <> [] -> bt_get 1 v' <> None) /\ (ptmsound ptm -> ptmsound ptm').
Proof.
  induction k as [|k IH]; intros I nodes NF v ptm E Hr HN Hv Hk.
  - cbn in E. injection E as <-. cbn. exists v, ptm. split; [reflexivity|]. split; [assumption|]. split; [|auto].
    intros Hne. destruct I as [|a r]; [congruence|]. specialize (Hr a (or_introl eq_refl)). cbn in Hr.
    assert (a = 1) by lia. subst a. apply Hk. left. reflexivity.
  - cbn [Merkle.pb_levels] in E. cbn [Merkle.glevels]. rewrite Nat2Z.inj_succ in *. unfold Z.succ in *.
    pose proof (p2_pos (Z.of_nat k) ltac:(lia)). pose proof (p2_succ (Z.of_nat k) ltac:(lia)) as H2.
    apply bind_Ok in E. destruct E as ([nodes1 next] & E1 & E2).
    pose proof (pb_levels_mono _ _ _ _ E2) as F2.
    pose proof (pb_scan_inv I 0 nodes nodes1 next E1) as (_ & _ & P & Pne).
    destruct (scan_complete (length I) I 0 nodes nodes1 next NF v ptm (le_n _) E1 F2 ltac:(lia)) as (v1 & ptm1 & Eg & Hv1 & Hk1 & Hn1 & Hs1);
      [intros a Ha; apply Hr in Ha; lia|assumption|assumption|].
    rewrite Eg. cbn [bind].
    destruct (IH next nodes1 NF v1 ptm1 E2) as (v' & ptm' & Eg2 & Hv' & H1 & Hs'); try assumption.
    + intros b Hb. apply P in Hb. destruct Hb as (a & Ha & ->). apply parent_range.
      replace (Z.of_nat k + 2) with (Z.of_nat k + 1 + 1) by lia. apply Hr. assumption.
    + etransitivity; [|exact HN]. apply p2_le_mono. lia.
    + exists v', ptm'. split; [assumption|]. split; [assumption|].
      split; [intros Hne; apply H1; apply Pne; assumption|intros Hs0; apply Hs', Hs1; assumption].
Qed.

(* ---------------------------------------------------------------- first loops *)
Lemma leaf_hval k : 0 <= k -> leaf k = hval t (k + N).
Proof. intros Hk. rewrite (hval_leaf D d0 merge t d) by (assumption || (fold N; lia)). fold N. unfold leaf. f_equal. lia. Qed.

Lemma hval_leaf_pair e : 0 <= e -> e mod 2 = 0 -> e + 1 < N ->
  merge (leaf e) (leaf (e + 1)) = hval t ((e + N) / 2) /\ 1 <= (e + N) / 2 < N.
Proof.
  intros He Hev HeN. pose proof Npos. pose proof (mod2_add_even e N Neven). zmod (e + N).
  split; [|lia].
  rewrite (wf_merge _ _ _ _ _ WF ((e + N) / 2)) by (fold N; lia).
  rewrite !leaf_hval by lia. do 2 f_equal; lia.
Qed.

Section First.
Variable indexes : list Z.
Variable imap : bmap Z.
Hypothesis IM : imap_ok indexes imap.
Let m := length indexes.

(* the leaves of the pair (e, e + 1) that are not queried: what prove_batch puts first in the pair's node vector *)
Definition miss1 (k : Z) : list D := match bt_get k imap with Some _ => [] | None => [leaf k] end.
Definition miss (e : Z) : list D := miss1 e ++ miss1 (e + 1).

(* writing the leaf of position k at its place in the caller's order keeps the leaves written before *)
Lemma upd_at_imap k j0 leaves : bt_get k imap = Some j0 -> length leaves = m ->
  exists leaves', upd leaves j0 (leaf k) = Ok leaves' /\ length leaves' = m /\
    forall k' j, bt_get k' imap = Some j ->
      (k' = k \/ nth_error leaves (Z.to_nat j) = Some (leaf k')) -> nth_error leaves' (Z.to_nat j) = Some (leaf k').
Proof using IM.
  clear WF Hd N. intros E HL. pose proof (imap_ok_range _ _ _ _ IM E) as Hj0.
  destruct (upd_Ok leaves j0 (leaf k)) as (l' & Eu & L & Nn); [unfold zlen in *; fold m in Hj0; lia|].
  exists l'. split; [assumption|]. split; [lia|].
  intros k' j Ek' Hor. rewrite Nn. pose proof (imap_ok_range _ _ _ _ IM Ek') as Hj.
  destruct (Nat.eqb_spec (Z.to_nat j) (Z.to_nat j0)) as [Heq|Hne].
  - assert (j = j0) by lia. subst j. rewrite (imap_ok_inj _ _ _ _ _ IM Ek' E). reflexivity.
  - destruct Hor as [->|H]; [|exact H]. rewrite E in Ek'. injection Ek' as ->. contradiction.
Qed.

Lemma pb_leaf_ok k leaves : 0 <= k < N -> length leaves = m ->
  exists leaves', pb_leaf t imap k leaves = Ok (leaves', miss1 k) /\ length leaves' = m /\
    forall k' j, bt_get k' imap = Some j ->
      (k' = k \/ nth_error leaves (Z.to_nat j) = Some (leaf k')) -> nth_error leaves' (Z.to_nat j) = Some (leaf k').
Proof.
  intros Hk HL. unfold Merkle.pb_leaf. rewrite (idx_Ok _ _ d0) by (rewrite leaves_len; lia). cbn [bind].
  change (nth (Z.to_nat k) (mt_leaves t) d0) with (leaf k). unfold miss1.
  destruct (bt_get k imap) as [j0|] eqn:E.
  - destruct (upd_at_imap k j0 leaves E HL) as (l' & Eu & R). rewrite Eu. cbn [bind]. eauto.
  - exists leaves. split; [reflexivity|]. split; [assumption|]. intros k' j Ek' [->|H]; [congruence|assumption].
Qed.

Lemma pb_first_ok : forall norm leaves0, length leaves0 = m ->
  (forall e, In e norm -> 0 <= e /\ e mod 2 = 0 /\ e + 1 < N) ->
  exists leavesF,
    pb_first t imap N norm leaves0 = Ok (leavesF, map miss norm, map (fun e => (e + N) / 2) norm) /\
    length leavesF = m /\
    forall k j, bt_get k imap = Some j ->
      (In (k - k mod 2) norm \/ nth_error leaves0 (Z.to_nat j) = Some (leaf k)) ->
      nth_error leavesF (Z.to_nat j) = Some (leaf k).
Proof.
  induction norm as [|e rest IH]; intros leaves0 HL Hr.
  - exists leaves0. cbn. split; [reflexivity|]. split; [assumption|]. intros k j E [[]|H]; assumption.
  - cbn [Merkle.pb_first]. destruct (Hr e (or_introl eq_refl)) as (He0 & Hev & HeN). pose proof Nsmall.
    destruct (pb_leaf_ok e leaves0) as (l1 & E1 & L1 & P1); [lia|assumption|]. rewrite E1. cbn [bind].
    rewrite uadd_Ok by lia. cbn [bind].
    destruct (pb_leaf_ok (e + 1) l1) as (l2 & E2 & L2 & P2); [lia|assumption|]. rewrite E2. cbn [bind].
    rewrite uadd_Ok by lia. cbn [bind].
    destruct (IH l2 L2) as (lF & EF & LF & PF); [intros e' He'; apply Hr; right; assumption|].
    rewrite EF. cbn [bind]. exists lF. split; [cbn [map]; rewrite shiftr1; reflexivity|]. split; [assumption|].
    intros k j Ek [[Hin|Hin]|H0].
    + apply PF; [assumption|]. right. destruct (mod2_cases k) as [Ek2|Ek2]; rewrite Ek2 in Hin.
      * assert (k = e) by lia. subst k. apply P2; [assumption|]. right. apply P1; [assumption|]. left. reflexivity.
      * assert (k = e + 1) by lia. subst k. apply P2; [assumption|]. left. reflexivity.
    + apply PF; [assumption|]. left. assumption.
    + apply PF; [assumption|]. right. apply P2; [assumption|]. right. apply P1; [assumption|]. right. assumption.
Qed.

(* the proof handed to get_root *)
Variable LF : list D.
Variable NF : list (list D).
Variable norm0 : list Z.
Let p : bproof := {| bp_leaves := LF; bp_nodes := NF; bp_depth := Z.of_nat d |}.
Hypothesis HLFlen : length LF = m.
Hypothesis HLF : forall k j, bt_get k imap = Some j -> In (k - k mod 2) norm0 ->
  nth_error LF (Z.to_nat j) = Some (leaf k).

Lemma gleafv_ok k j : bt_get k imap = Some j -> In (k - k mod 2) norm0 -> gleafv D p j = Ok (leaf k).
Proof.
  intros E Hin. unfold Merkle.gleafv. cbn [bp_leaves p]. pose proof (imap_ok_range _ _ _ _ IM E) as Hj.
  destruct (Z.leb_spec (zlen LF) j); [unfold zlen in *; fold m in Hj; lia|].
  apply idx_nth_error; [lia|]. apply HLF; assumption.
Qed.

Lemma gleaf_ok s e ndN :
  0 <= s -> nth_error NF (Z.to_nat s) = Some ndN -> prefix (miss e) ndN ->
  0 <= e -> e mod 2 = 0 -> e + 1 < N -> In e norm0 ->
  (bt_get e imap <> None \/ bt_get (e + 1) imap <> None) ->
  gleaf p imap s e = Ok (leaf e, leaf (e + 1), zlen (miss e)).
Proof.
  intros Hs En [r Hp] He Hev HeN Hin Hor. pose proof Nsmall.
  assert (He1 : (e + 1) - (e + 1) mod 2 = e) by (zmod e; zmod (e + 1); lia).
  assert (He0 : e - e mod 2 = e) by lia.
  unfold Merkle.gleaf. rewrite uadd_Ok by lia. cbn [bind].
  unfold Merkle.gnode0. cbn [bp_nodes p]. rewrite (idx_nth_error NF s ndN) by assumption. cbn [bind].
  unfold miss, miss1 in *.
  destruct (bt_get e imap) as [j1|] eqn:E1; destruct (bt_get (e + 1) imap) as [j2|] eqn:E2.
  - rewrite (gleafv_ok e j1 E1) by (rewrite He0; assumption). cbn [bind].
    rewrite (gleafv_ok (e + 1) j2 E2) by (rewrite He1; assumption). reflexivity.
  - rewrite (gleafv_ok e j1 E1) by (rewrite He0; assumption). cbn [bind].
    subst ndN. reflexivity.
  - subst ndN. cbn [app bind]. rewrite (gleafv_ok (e + 1) j2 E2) by (rewrite He1; assumption). reflexivity.
  - destruct Hor; congruence.
Qed.

Lemma gfirst_ok : forall norm s v ptm NFr,
  skipn (Z.to_nat s) NF = NFr -> 0 <= s ->
  Forall2 (fun e nd => prefix (miss e) nd) norm NFr ->
  (forall e, In e norm -> 0 <= e /\ e mod 2 = 0 /\ e + 1 < N /\ In e norm0 /\
                          (bt_get e imap <> None \/ bt_get (e + 1) imap <> None)) ->
  vsound v ->
  exists v' ptm',
    gfirst p imap N norm s v ptm =
      Ok (v', map (fun e => zlen (miss e)) norm, ptm', map (fun e => (e + N) / 2) norm) /\
    vsound v' /\ (forall k, bt_get k v <> None -> bt_get k v' <> None) /\
    (forall e, In e norm -> bt_get ((e + N) / 2) v' <> None) /\ (ptmsound ptm -> ptmsound ptm').
Proof.
  induction norm as [|e rest IH]; intros s v ptm NFr Hsk Hs HF Hr Hv.
  - cbn. exists v, ptm. split; [reflexivity|]. split; [assumption|]. split; [auto|]. split; [intros ? []|auto].
  - destruct NFr as [|nd NFr']; [inversion HF|]. assert (Hp : prefix (miss e) nd) by (inversion HF; assumption).
    assert (HF' : Forall2 (fun e nd => prefix (miss e) nd) rest NFr') by (inversion HF; assumption).
    apply skipn_cons_inv in Hsk. destruct Hsk as (_ & Hsk' & En).
    destruct (Hr e (or_introl eq_refl)) as (He & Hev & HeN & Hin & Hor). pose proof Nsmall.
    cbn [Merkle.gfirst]. rewrite (gleaf_ok s e nd) by assumption. cbn [bind].
    rewrite uadd_Ok by lia. cbn [bind]. rewrite shiftr1. rewrite (Z.add_comm N e).
    destruct (hval_leaf_pair e He Hev HeN) as [Hm Hrange]. rewrite Hm.
    destruct (IH (s + 1) (bt_insert ((e + N) / 2) (hval t ((e + N) / 2)) v)
                 (bt_insert ((e + N) / 2) (hval t ((e + N) / 2))
                    (bt_insert (Z.lxor (e + N) 1) (leaf (e + 1)) (bt_insert (e + N) (leaf e) ptm))) NFr')
      as (v' & ptm' & Eg & Hv' & Hk' & Hn' & Hs').
    + replace (Z.to_nat (s + 1)) with (S (Z.to_nat s)) by lia. assumption.
    + lia.
    + assumption.
    + intros e' He'. apply Hr. right. assumption.
    + apply vsound_insert; [assumption|lia].
    + rewrite Eg. cbn [bind]. exists v', ptm'. split; [reflexivity|]. split; [assumption|]. split.
      * intros k Hk0. apply Hk'. rewrite bt_get_insert. destruct (k =? (e + N) / 2); [discriminate|assumption].
      * split; [intros e' [<-|He']; [|apply Hn'; assumption]; apply Hk'; rewrite bt_get_insert_same; discriminate|].
        intros Hs0. apply Hs'. apply ptmsound_insert.
        rewrite lxor1_even by (pose proof Npos; rewrite ?mod2_add_even by apply Neven; lia).
        rewrite (leaf_hval e), (leaf_hval (e + 1)) by lia. replace (e + 1 + N) with (e + N + 1) by lia.
        apply ptmsound_insert, ptmsound_insert, Hs0.
Qed.

End First.

(* ---------------------------------------------------------------- batch_complete *)
Lemma all_consumed_map (nodes : list (list D)) : all_consumed D (map zlen nodes) nodes = true.
Proof. induction nodes as [|nd r IH]; [reflexivity|]. cbn. rewrite Z.eqb_refl. exact IH. Qed.

Lemma mt_depth_ok : mt_depth D t = Ok (Z.of_nat d).
Proof.
  unfold Merkle.mt_depth. rewrite leaves_len. pose proof Npos.
  destruct (Z.leb_spec N 0); [lia|]. unfold N. rewrite Z.log2_pow2 by lia. reflexivity.
Qed.

(* the parents of the leaf pairs lie in the row above the leaves *)
Lemma leaf_parent_range e : 0 <= e -> e + 1 < N ->
  2 ^ Z.of_nat (pred d) <= (e + N) / 2 < 2 ^ (Z.of_nat (pred d) + 1).
Proof.
  intros He HeN. pose proof (wf_d _ _ _ _ _ WF). rewrite p2_succ by lia.
  assert (N = 2 * 2 ^ Z.of_nat (pred d)) by (unfold N; rewrite <- p2_S; do 2 f_equal; lia).
  zmod (e + N). lia.
Qed.

(* the exact shape of prove_batch's result *)
Theorem prove_batch_shape : forall indexes,
  indexes <> [] -> zlen indexes <= 255 -> NoDup indexes -> (forall i, In i indexes -> 0 <= i < N) ->
  exists imap LF NF, map_indexes indexes (Z.of_nat d) = Ok imap /\ imap_ok indexes imap /\
    length LF = length indexes /\
    (forall j i, nth_error indexes j = Some i -> nth_error LF j = Some (leaf i)) /\
    pb_levels (pred d) (mt_nodes t) (map (fun e => (e + N) / 2) (normalize_indexes indexes))
              (map (miss imap) (normalize_indexes indexes)) = Ok NF /\
    mt_prove_batch t indexes = Ok {| bp_leaves := LF; bp_nodes := NF; bp_depth := Z.of_nat d |}.
Proof.
  intros indexes Hne Hlen ND Hr. pose proof Npos. pose proof (wf_d _ _ _ _ _ WF) as Hd1.
  destruct (map_indexes_complete indexes (Z.of_nat d)) as (imap & Emi & IM & Lmi); [lia|assumption|intros x Hx; apply Hr; assumption|].
  set (norm := normalize_indexes indexes).
  assert (Hnorm : forall e, In e norm -> 0 <= e /\ e mod 2 = 0 /\ e + 1 < N) by (intros e; apply normalize_range; [apply Neven|assumption]).
  unfold Merkle.mt_prove_batch. rewrite match_nonempty by assumption.
  unfold max_paths. destruct (Z.ltb_spec 255 (zlen indexes)); [lia|].
  rewrite mt_depth_ok. cbn [bind]. rewrite Emi. cbn [bind]. fold norm. rewrite leaves_len.
  destruct (pb_first_ok indexes imap IM norm (repeat d0 (length imap))) as (LF & Epf & LLF & PLF);
    [rewrite repeat_length; assumption|assumption|].
  fold N. rewrite Epf. cbn [bind]. replace (Z.to_nat (Z.of_nat d - 1)) with (pred d) by lia.
  destruct (pb_levels_ok (pred d) (map (fun e => (e + N) / 2) norm) (map (miss imap) norm)) as (NF & Epl).
  { intros a Ha. apply in_map_iff in Ha. destruct Ha as (e & <- & He). apply leaf_parent_range; apply Hnorm; assumption. }
  { unfold N. replace (Z.of_nat (pred d) + 1) with (Z.of_nat d) by lia. lia. }
  { unfold zlen. rewrite !map_length. lia. }
  exists imap, LF, NF. split; [reflexivity|]. split; [assumption|]. split; [lia|]. split.
  { intros j i Hj. rewrite <- (Nat2Z.id j) at 1. apply (PLF i (Z.of_nat j)).
    - apply IM. split; [lia|]. rewrite Nat2Z.id. assumption.
    - left. apply normalize_In. exists i. split; [apply nth_error_In in Hj; assumption|reflexivity]. }
  split; [exact Epl|].
  change (Merkle.pb_levels D (pred d) (mt_nodes t)) with (pb_levels (pred d) tn). rewrite Epl. cbn [bind].
  rewrite Z.mod_small by lia. reflexivity.
Qed.

(* ... and the verification core (shared by get_root and into_paths) recomputes the root on it, whatever
   the initial partial tree; an honest partial tree stays honest *)
Theorem batch_complete_core : forall indexes,
  indexes <> [] -> zlen indexes <= 255 -> NoDup indexes -> (forall i, In i indexes -> 0 <= i < N) ->
  exists p, mt_prove_batch t indexes = Ok p /\ bp_depth p = Z.of_nat d /\
    length (bp_leaves p) = length indexes /\
    (forall j i, nth_error indexes j = Some i -> nth_error (bp_leaves p) j = Some (leaf i)) /\
    (forall ptm0, exists v ptm, gcore p indexes ptm0 = Ok (v, ptm) /\ bt_get 1 v = Some (hval t 1) /\
                                (ptmsound ptm0 -> ptmsound ptm)).
Proof.
  intros indexes Hne Hlen ND Hr. pose proof (wf_d _ _ _ _ _ WF) as Hd1.
  destruct (prove_batch_shape indexes Hne Hlen ND Hr) as (imap & LF & NF & Emi & IM & LLF & PLF & Epl & Epb).
  eexists. split; [exact Epb|]. cbn [bp_depth bp_leaves bp_nodes]. split; [reflexivity|]. split; [assumption|]. split; [assumption|].
  intros ptm0. set (norm := normalize_indexes indexes) in *.
  set (nodes0 := map (miss imap) norm) in *. set (next := map (fun e => (e + N) / 2) norm) in *.
  assert (Hnorm : forall e, In e norm -> 0 <= e /\ e mod 2 = 0 /\ e + 1 < N) by (intros e; apply normalize_range; [apply Neven|assumption]).
  pose proof (pb_levels_mono _ _ _ _ Epl) as Fpl.
  assert (Hlen0 : length NF = length norm).
  { apply Forall2_len in Fpl. unfold nodes0 in Fpl. rewrite map_length in Fpl. lia. }
  destruct (gfirst_ok indexes imap IM LF NF norm LLF) with (norm := norm) (s := 0) (v := @nil (Z * D)) (ptm := ptm0) (NFr := NF)
    as (v1 & ptm1 & Egf & Hv1 & _ & Hk1 & Hs1).
  { intros k j Ek _. apply IM in Ek. destruct Ek as [_ Ek]. apply PLF. assumption. }
  { reflexivity. }
  { lia. }
  { clear - Fpl. unfold nodes0 in Fpl. remember norm as nm eqn:En. clear En. revert NF Fpl.
    induction nm as [|e r IH]; intros NF Fpl; inversion Fpl; subst; constructor; auto. }
  { intros e He. destruct (Hnorm e He) as (? & ? & ?). pose proof (normalize_imap _ _ _ IM He). auto. }
  { intros k x Hk0. discriminate. }
  destruct (levels_complete (pred d) next nodes0 NF v1 ptm1 Epl) as (v' & ptm' & Egl & Hv' & Hroot1 & Hs2); [| |assumption| |].
  { intros a Ha. apply in_map_iff in Ha. destruct Ha as (e & <- & He). apply leaf_parent_range; apply Hnorm; assumption. }
  { unfold N. replace (Z.of_nat (pred d) + 1) with (Z.of_nat d) by lia. lia. }
  { intros a Ha. apply in_map_iff in Ha. destruct Ha as (e & <- & He). apply Hk1. assumption. }
  exists v', ptm'. split.
  { unfold Merkle.gcore. cbn [bp_depth bp_nodes bp_leaves]. rewrite Emi. cbn [bind]. fold norm.
    replace (zlen norm =? zlen NF) with true by (symmetry; apply Z.eqb_eq; unfold zlen; lia). cbn [negb].
    fold N. rewrite Egf. cbn [bind].
    replace (map (fun e => zlen (miss imap e)) norm) with (map zlen nodes0) by (unfold nodes0; rewrite map_map; reflexivity).
    fold next. replace (Z.to_nat (Z.of_nat d - 1)) with (pred d) by lia.
    rewrite Egl. cbn [bind]. rewrite all_consumed_map. reflexivity. }
  split; [|intros Hs0; apply Hs2, Hs1; assumption].
  assert (Hnn : next <> []).
  { unfold next. pose proof (normalize_nonempty indexes Hne) as Hnz. fold norm in Hnz. destruct norm; [congruence|discriminate]. }
  specialize (Hroot1 Hnn). destruct (bt_get 1 v') as [r|] eqn:Er; [|congruence].
  apply Hv' in Er. destruct Er as [_ ->]. reflexivity.
Qed.

Theorem batch_complete_tree : forall indexes,
  indexes <> [] -> zlen indexes <= 255 -> NoDup indexes -> (forall i, In i indexes -> 0 <= i < N) ->
  exists p, mt_prove_batch t indexes = Ok p /\ bp_depth p = Z.of_nat d /\
    length (bp_leaves p) = length indexes /\
    (forall j i, nth_error indexes j = Some i -> nth_error (bp_leaves p) j = Some (leaf i)) /\
    get_root p indexes = Ok (hval t 1).
Proof.
  intros indexes Hne Hlen ND Hr.
  destruct (batch_complete_core indexes Hne Hlen ND Hr) as (p & E & Hdep & HL & HLv & Hc).
  exists p. split; [assumption|]. split; [assumption|]. split; [assumption|]. split; [assumption|].
  destruct (Hc []) as (v & ptm & Eg & Er & _).
  rewrite get_root_eq, Eg by (try assumption; unfold zlen; lia). cbn [bind]. rewrite Er. reflexivity.
Qed.

End Batch.

Section BatchTop.
Variable D : Type.
Variable D_eqb : D -> D -> bool.
Hypothesis D_eqb_spec : forall a b, D_eqb a b = true <-> a = b.
Variable d0 : D.
Variable merge : D -> D -> D.

Theorem batch_complete : forall leaves t (d : nat) root indexes,
  mt_new D d0 merge leaves = Ok t -> zlen leaves = 2 ^ Z.of_nat d -> (d <= 62)%nat -> mt_root D t = Ok root ->
  indexes <> [] -> zlen indexes <= 255 -> NoDup indexes -> (forall i, In i indexes -> 0 <= i < zlen leaves) ->
  exists p, mt_prove_batch D d0 t indexes = Ok p /\ bp_depth p = Z.of_nat d /\
    length (bp_leaves p) = length indexes /\
    (forall j i, nth_error indexes j = Some i -> nth_error (bp_leaves p) j = nth_error leaves (Z.to_nat i)) /\
    get_root D merge p indexes = Ok root /\
    verify_batch D D_eqb merge root indexes p = Ok tt.
Proof.
  intros leaves t d root indexes Hnew Hlen Hd Hroot Hne Hl ND Hr.
  destruct (mt_new_wf D d0 merge _ _ _ Hnew Hlen) as [HL WF].
  rewrite (root_hval D d0 merge t d WF Hd) in Hroot. injection Hroot as <-.
  destruct (batch_complete_tree D d0 merge t d WF Hd indexes Hne Hl ND) as (p & E & Hdep & HLn & HLv & Hg).
  { intros i Hi. rewrite <- Hlen. apply Hr. assumption. }
  exists p. split; [assumption|]. split; [assumption|]. split; [assumption|]. split; [|split; [assumption|]].
  - intros j i Hj. rewrite (HLv j i Hj). unfold leaf, znth. rewrite HL. symmetry. apply nth_error_nth'.
    pose proof (Hr i (nth_error_In _ _ Hj)). unfold zlen in *. lia.
  - unfold Merkle.verify_batch. rewrite Hg. cbn [bind].
    replace (D_eqb _ _) with true by (symmetry; apply D_eqb_spec; reflexivity). reflexivity.
Qed.

End BatchTop.
