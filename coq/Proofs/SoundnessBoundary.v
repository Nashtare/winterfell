(* C02 — the boundary divisor evaluation code x^m - g^(a*m) (ConstraintDivisor::from_assertion / evaluate_at)
   is the vanishing polynomial of the asserted steps a, a+stride, ..., a+(m-1)*stride when stride*m = n. *)
From Coq Require Import List Arith Bool Lia Ring.
From VBase Require Import FieldOps.
From VModel Require Import Soundness.
From VProofs Require Import ListFacts FieldFacts SoundnessPoly SoundnessEnforce.
Import ListNotations.

Section Boundary.
Context {F : Type} (O : FOps F) (L : FLaws O).
Local Notation zero := (fzero O).
Local Notation one := (fone O).
Local Infix "+f" := (fadd O) (at level 50, left associativity).
Local Infix "-f" := (fsub O) (at level 50, left associativity).
Local Infix "*f" := (fmul O) (at level 40, left associativity).
Add Ring Fr4 : (FLaws_ring_theory O L).
Local Notation fpow := (fpow O).
Local Notation peval := (peval O).
Local Notation zpoly := (zpoly O).
Local Notation domain := (domain O).

Variable g : F.
Variable n : nat.
Hypothesis Hdom : NoDup (domain g n).
Hypothesis Hg : fpow g n = one.

Lemma g_nonzero : 0 < n -> g <> zero.
Proof.
  intros Hn E. rewrite E in Hg. apply (fl_one_neq_zero O L). rewrite <- Hg. apply (fpow_zero O L). lia.
Qed.

(* the m asserted points g^(first + j*stride) are distinct and all have the m-th power g^(m*first), because
   g^(stride*m) = 1 *)
Theorem bnd_divisor_eval_spec first stride m x :
  0 < m -> 0 < stride -> stride * m = n ->
  bnd_divisor_eval O g first m x = peval (bnd_divisor_poly O g first stride m) x.
Proof.
  intros Hm Hs Hn. unfold bnd_divisor_eval, bnd_divisor_poly.
  rewrite (zpoly_nth_roots O L (bnd_roots O g first stride m) m (fpow g (m * first))); [| |exact Hm| |].
  - destruct (first =? 0) eqn:E0; [|reflexivity]. apply Nat.eqb_eq in E0. subst first. now rewrite Nat.mul_0_r.
  - unfold bnd_roots. now rewrite map_length, seq_length.
  - apply NoDup_map_inj_in; [|apply seq_NoDup]. intros i j Hi Hj E. apply in_seq in Hi, Hj.
    rewrite !(fpow_add O L) in E. apply (StarkPoly.fmul_cancel_l O L) in E; [|apply (fpow_nonzero O L), g_nonzero; nia].
    apply (domain_inj O g n Hdom) in E; nia.
  - intros r Hr. apply in_map_iff in Hr. destruct Hr as (j & <- & _). rewrite <- (fpow_mul O L).
    replace ((first + j * stride) * m) with (m * first + n * j) by nia.
    rewrite (fpow_add O L), (fpow_order_mul O L g n j Hg). ring.
Qed.

(* single assertions (one named step): x - g^a, no condition on g *)
Theorem bnd_divisor_eval_single first stride x :
  bnd_divisor_eval O g first 1 x = peval (bnd_divisor_poly O g first stride 1) x.
Proof.
  unfold bnd_divisor_eval, bnd_divisor_poly, bnd_roots. cbn [seq map Soundness.zpoly].
  rewrite (peval_plin O L). cbn [Soundness.peval Soundness.fpow]. rewrite Nat.mul_0_l, Nat.add_0_r, Nat.mul_1_l.
  destruct (first =? 0) eqn:E.
  - apply Nat.eqb_eq in E. subst. cbn [Soundness.fpow]. ring.
  - ring.
Qed.

End Boundary.
