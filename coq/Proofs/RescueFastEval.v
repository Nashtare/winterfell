(* C11 -- evaluating the Rescue permutations cheaply inside the kernel, for the known-answer tests of RescueExamples.v.
   Nearly all their work is modular multiplication in the inverse S-box (72 per element for x^(1/7), 69 for x^(1/3)).  Two
   twins, each proved equal to the model on EVERY input: the operations over a division-free reduction `rd` (FastMod.red64,
   red62); `inv_memo`, which answers the inverse S-box from a table of pairs (x, y) after checking sbox y = x (4 or 2
   multiplications) and otherwise runs the chain.  So every table is sound; the tests compute theirs with `absorb_pairs`. *)
From VBase Require Import MachInt.
From VModel Require Import RescueConsts Rescue.
Open Scope Z_scope.

Section Twin.
  Variable p : Z.
  Variable rd : Z -> Z.
  Hypothesis rd_mod : forall x, rd x = x mod p.

  Definition mul_rd (a b : Z) : Z := rd (a * b).
  Definition exp7_with (mul : Z -> Z -> Z) (x : Z) : Z :=
    let x2 := mul x x in let x4 := mul x2 x2 in let x3 := mul x2 x in mul x3 x4.
  Lemma exp7_rd x : exp7_with mul_rd x = exp7 p x.
  Proof. unfold exp7_with, mul_rd, exp7, fsq, fmul. rewrite !rd_mod. reflexivity. Qed.
  Lemma cube_rd x : g_cube mul_rd x = cube p x.
  Proof. unfold g_cube, mul_rd, cube, fmul. rewrite !rd_mod. reflexivity. Qed.

  Definition inv_memo (sbox inv : Z -> Z) (tab : list (Z * Z)) (x : Z) : Z :=
    match find (fun e => fst e =? x) tab with
    | Some (_, y) => if (0 <=? y) && (y <? p) && (sbox y =? x) then y else inv x
    | None => inv x
    end.
  Lemma inv_memo_eq sbox inv tab : (forall y, 0 <= y < p -> inv (sbox y) = y) -> forall x, inv_memo sbox inv tab x = inv x.
  Proof.
    intros H x. unfold inv_memo. destruct (find _ tab) as [(x', y)|]; [|reflexivity].
    destruct ((0 <=? y) && (y <? p) && (sbox y =? x)) eqn:E; [|reflexivity].
    apply andb_prop in E. destruct E as (E & Ex). apply andb_prop in E. destruct E as (E0 & Ep).
    apply Z.eqb_eq in Ex. subst x. symmetry. apply H. lia.
  Qed.

  Definition mds_rd (P : RParams) (st : list Z) : list Z := map (fun row => rd (dotZ row st)) (rp_mds P).
  Definition ark_rd (st c : list Z) : list Z := map (fun ak => rd (fst ak + snd ak)) (combine st c).
  Definition round_rd (P : RParams) (st : list Z) (r : nat) : list Z :=
    ark_rd (mds_rd P (map (rp_inv_sbox P) (ark_rd (mds_rd P (map (rp_sbox P) st)) (nth r (rp_ark1 P) [])))) (nth r (rp_ark2 P) []).
  Definition perm_memo (P : RParams) (sbox : Z -> Z) (tab : list (Z * Z)) : list Z -> list Z :=
    fold_left (round_rd (mkRP sbox (inv_memo sbox (rp_inv_sbox P) tab) (rp_mds P) (rp_ark1 P) (rp_ark2 P))) (seq 0 7).

  Lemma perm_memo_eq P sbox tab : (forall x, sbox x = rp_sbox P x) -> (forall y, 0 <= y < p -> rp_inv_sbox P (rp_sbox P y) = y) ->
    forall st, apply_permutation p P st = perm_memo P sbox tab st.
  Proof.
    intros Hs Hi. unfold apply_permutation, perm_memo. induction (seq 0 7) as [|r l IH]; intros st; [reflexivity|].
    cbn [fold_left]. rewrite IH. f_equal. unfold round_rd, apply_round.
    assert (Hm : forall Q v, mds_rd Q v = mat_vec p (rp_mds Q) v) by (intros; apply map_ext; intros; apply rd_mod).
    assert (Hc : forall v c, ark_rd v c = add_constants p v c) by (intros; apply map_ext; intros; apply rd_mod).
    rewrite !Hm, !Hc. cbn [rp_sbox rp_inv_sbox rp_mds rp_ark1 rp_ark2]. rewrite (map_ext _ _ Hs).
    rewrite (map_ext _ _ (inv_memo_eq sbox _ tab (fun y Hy => eq_trans (f_equal _ (Hs y)) (Hi y Hy)))). reflexivity.
  Qed.

  (* the sponges depend on the permutation only through its values (it sits in the Sponge record as a function, and there
     is no functional extensionality to rewrite it with) *)
  Section SpongeExt.
    Variables w rs rw ci ds : nat.
    Variables f g : list Z -> list Z.
    Hypothesis Hfg : forall st, f st = g st.
    Let S := mkSponge w rs rw ci ds f.
    Let T := mkSponge w rs rw ci ds g.

    Lemma absorb_ext xs : forall st i, absorb p S st i xs = absorb p T st i xs.
    Proof.
      induction xs as [|x xs IH]; intros st i; [reflexivity|].
      cbn [absorb sp_rate_start sp_rate_width sp_perm S T]. rewrite Hfg. destruct (Nat.eqb _ 0); apply IH.
    Qed.
    Lemma hash_elements_cnt_ext xs : hash_elements_cnt p S xs = hash_elements_cnt p T xs.
    Proof.
      unfold hash_elements_cnt. rewrite absorb_ext. cbn [sp_cap_idx sp_width S T]. destruct (absorb p T _ 0 xs) as (st, i).
      cbn [sp_perm S T]. rewrite Hfg. reflexivity.
    Qed.
    Lemma hash_elements_jive_ext xs : hash_elements_jive p S xs = hash_elements_jive p T xs.
    Proof.
      unfold hash_elements_jive. rewrite absorb_ext. cbn [sp_cap_idx sp_width sp_rate_width S T]. destruct (absorb p T _ 0 xs) as (st, i).
      cbn [sp_perm S T]. rewrite Hfg. reflexivity.
    Qed.
  End SpongeExt.

  (* computing a table: the permutation over `rd` once more, returning also the (input, output) pairs of its inverse
     S-box layers; `absorb` collecting them over the permutations it calls and over that of the final state, plain and
     Jive-padded.  Nothing is proved about these. *)
  Fixpoint perm_pairs (P : RParams) (rounds : list nat) (st : list Z) : list (Z * Z) * list Z :=
    match rounds with
    | [] => ([], st)
    | r :: rounds =>
        let xs := ark_rd (mds_rd P (map (rp_sbox P) st)) (nth r (rp_ark1 P) []) in
        let ys := map (rp_inv_sbox P) xs in
        let (t, st) := perm_pairs P rounds (ark_rd (mds_rd P ys) (nth r (rp_ark2 P) [])) in
        (combine xs ys ++ t, st)
    end.
  Fixpoint absorb_pairs (P : RParams) (S : Sponge) (st : list Z) (i : nat) (xs : list Z) : list (Z * Z) :=
    match xs with
    | [] => fst (perm_pairs P (seq 0 7) st) ++ fst (perm_pairs P (seq 0 7) (jive_pad p S st i))
    | x :: xs =>
        let st := upd (sp_rate_start S + i) (fun a => fadd p a x) st in
        if Nat.eqb (Datatypes.S i mod sp_rate_width S) 0
        then let (t, st) := perm_pairs P (seq 0 7) st in t ++ absorb_pairs P S st 0 xs
        else absorb_pairs P S st (Datatypes.S i) xs
    end.
End Twin.
