(* C01 — polynomial layer of the completeness proof: root-factor lemma, divisibility by the vanishing polynomial
   of a set of distinct roots, the vanishing polynomial of the trace domain, segments of the composition
   polynomial.  All statements are for every `FOps F` satisfying the field laws `FLaws`. *)
From Coq Require Import List Arith Bool ZArith Lia Ring.
From VBase Require Import FieldOps.
From VModel Require Import Stark.
From VProofs Require Import ListFacts FieldFacts.
Import ListNotations.

Section Poly.
Context {F : Type} (O : FOps F) (L : FLaws O).
Local Notation zero := (fzero O).
Local Notation one := (fone O).
Local Notation "a +f b" := (fadd O a b) (at level 50, left associativity).
Local Notation "a -f b" := (fsub O a b) (at level 50, left associativity).
Local Notation "a *f b" := (fmul O a b) (at level 40, left associativity).
Local Notation peval := (peval O).
Local Notation fpow := (fpow O).
Local Notation pprod := (pprod O).
Local Notation syn1 := (syn1 O).

Add Ring Fring : (FLaws_ring_theory O L).

(* ------------------------------------------------------------------ field facts, on this model's fpow / peval *)
Lemma fsub_neq_zero a b : a <> b -> a -f b <> zero.
Proof. intros H E. apply H. now apply (fsub_eq_zero O L). Qed.
Lemma fmul_cancel_l c a b : c <> zero -> c *f a = c *f b -> a = b.
Proof.
  intros Hc E. assert (E0 : c *f (a -f b) = zero) by (transitivity (c *f a -f c *f b); [ring | rewrite E; ring]).
  destruct (fmul_integral O L _ _ E0) as [H|H]; [contradiction | now apply (fsub_eq_zero O L)].
Qed.

Lemma fpow_add x a b : fpow x (a + b) = fpow x a *f fpow x b.
Proof. exact (FieldFacts.fpow_add O L x a b). Qed.
Lemma fpow_mul x a b : fpow x (a * b) = fpow (fpow x a) b.
Proof. exact (FieldFacts.fpow_mul O L x a b). Qed.
Lemma fpow_one n : fpow one n = one.
Proof. exact (FieldFacts.fpow_one O L n). Qed.
Lemma fpow_mul_base a b k : fpow (a *f b) k = fpow a k *f fpow b k.
Proof. exact (FieldFacts.fpow_mul_base O L a b k). Qed.
(* every power of an n-th root of unity is an n-th root of unity *)
Lemma fpow_order_mul g n k : fpow g n = one -> fpow g (n * k) = one.
Proof. intros Hg. now rewrite fpow_mul, Hg, fpow_one. Qed.
Lemma fpow_root_pow g n i : fpow g n = one -> fpow (fpow g i) n = one.
Proof. intros Hg. rewrite <- fpow_mul, Nat.mul_comm. now apply fpow_order_mul. Qed.

(* ------------------------------------------------------------------ evaluation *)
Lemma peval_app p q x : peval (p ++ q) x = peval p x +f fpow x (length p) *f peval q x.
Proof. exact (FieldFacts.peval_app O L p q x). Qed.
Lemma peval_repeat_zero n x : peval (repeat zero n) x = zero.
Proof. exact (FieldFacts.peval_repeat_zero O L n x). Qed.
Lemma peval_removelast q x : last q zero = zero -> peval (removelast q) x = peval q x.
Proof.
  induction q as [|h t IH]; [reflexivity|]. destruct t as [|t0 t1].
  - simpl. intros ->. ring.
  - intros H. change (removelast (h :: t0 :: t1)) with (h :: removelast (t0 :: t1)).
    change (last (h :: t0 :: t1) zero) with (last (t0 :: t1) zero) in H.
    cbn [Stark.peval]. rewrite (IH H). reflexivity.
Qed.
Lemma peval_sub_const p c x : p <> [] -> peval (sub_const O p c) x = peval p x -f c.
Proof. destruct p; [congruence|]. intros _. simpl. ring. Qed.
Lemma sub_const_length p c : length (sub_const O p c) = length p.
Proof. destruct p; reflexivity. Qed.

(* ------------------------------------------------------------------ one pass of synthetic division = root factor *)
Lemma syn1_spec root : forall p q c, syn1 p root = (q, c) ->
  (forall x, peval p x = (x -f root) *f peval q x +f c) /\ length q = length p /\ c = peval p root /\
  (p <> [] -> last q zero = zero).
Proof.
  induction p as [|h t IH]; intros q c E.
  - simpl in E. inversion E; subst. simpl. repeat split; intros; try ring; try reflexivity; try congruence.
  - cbn [Stark.syn1] in E. destruct (syn1 t root) as [t' ct] eqn:Et. inversion E; subst q c. clear E.
    destruct (IH t' ct eq_refl) as (H1 & H2 & H3 & H4).
    split. { intros x. cbn [Stark.peval]. rewrite (H1 x). ring. }
    split. { simpl. now rewrite H2. }
    split. { cbn [Stark.peval]. rewrite H3. ring. }
    intros _. destruct t as [|t0 t1].
    + simpl in Et. inversion Et; subst. reflexivity.
    + destruct t' as [|u t']; [simpl in H2; discriminate|].
      change (last (ct :: u :: t') zero) with (last (u :: t') zero). apply H4. discriminate.
Qed.

(* the general form used by the DEEP quotients: (p(x) - p(a)) = (x - a) * q(x), q = fst (syn1 p a) *)
Lemma syn1_quotient p a x : peval p x -f peval p a = (x -f a) *f peval (fst (syn1 p a)) x.
Proof.
  destruct (syn1 p a) as [q c] eqn:E. destruct (syn1_spec a p q c E) as (H1 & _ & H3 & _).
  simpl. rewrite (H1 x), H3. ring.
Qed.

(* deep_quotients_are_polys: (T(x) - T(z)) / (x - z) is a polynomial with one coefficient less than T, namely the
   output of syn_div_in_place(T - T(z), 1, z) without its (zero) top coefficient *)
Theorem deep_quotient_is_poly T z :
  exists q, length q = length T - 1 /\ forall x, peval T x -f peval T z = (x -f z) *f peval q x.
Proof.
  destruct (syn1 T z) as [q c] eqn:E. destruct (syn1_spec z T q c E) as (_ & H2 & _ & H4).
  exists (removelast q). split. { rewrite removelast_length. lia. }
  intros x. rewrite syn1_quotient, E. cbn [fst]. destruct T as [|h t].
  - inversion E. reflexivity.
  - now rewrite peval_removelast by (apply H4; discriminate).
Qed.

(* p(a) = 0  ->  p = (x - a) * q  with  deg q = deg p - 1 *)
Theorem root_factor p a : peval p a = zero ->
  exists q, length q = length p - 1 /\ forall x, peval p x = (x -f a) *f peval q x.
Proof.
  intros H. destruct (deep_quotient_is_poly p a) as (q & Hl & Hq). exists q. split; [exact Hl|].
  intros x. rewrite <- Hq, H. ring.
Qed.

(* ------------------------------------------------------------------ divisibility by a vanishing polynomial *)
Lemma pprod_app xs ys x : pprod (xs ++ ys) x = pprod xs x *f pprod ys x.
Proof. induction xs; simpl; [ring | rewrite IHxs; ring]. Qed.
Lemma pprod_root : forall xs r, In r xs -> pprod xs r = zero.
Proof. induction xs as [|a t IH]; simpl; intros r H; [contradiction|]. destruct H as [->|H]; [ring | rewrite (IH r H); ring]. Qed.
Lemma pprod_nonroot : forall xs r, ~ In r xs -> pprod xs r <> zero.
Proof.
  induction xs as [|a t IH]; simpl; intros r H. { apply (fl_one_neq_zero O L). }
  intros E. apply (fmul_integral O L) in E. destruct E as [E|E].
  - apply H. left. symmetry. now apply (fsub_eq_zero O L).
  - apply (IH r); tauto.
Qed.

(* the other roots of (x - a) * q are roots of q *)
Lemma quotient_root (p q : list F) a r : peval p r = (r -f a) *f peval q r -> r <> a -> peval p r = zero -> peval q r = zero.
Proof.
  intros Hq Hne Hr. rewrite Hq in Hr. apply (fmul_integral O L) in Hr. destruct Hr as [E|E]; [|exact E].
  apply (fsub_eq_zero O L) in E. contradiction.
Qed.

(* a polynomial vanishing on a set of distinct points is divisible by the vanishing polynomial of the set *)
Theorem vanish_divisible : forall roots p, NoDup roots -> (forall r, In r roots -> peval p r = zero) ->
  exists q, length q = length p - length roots /\ forall x, peval p x = pprod roots x *f peval q x.
Proof.
  induction roots as [|a t IH]; intros p ND H.
  - exists p. split; [simpl; lia|]. intros x. simpl. ring.
  - inversion ND as [|? ? Hna ND']; subst.
    destruct (root_factor p a (H a (or_introl eq_refl))) as (q1 & Hl1 & Hq1).
    assert (Hr : forall r, In r t -> peval q1 r = zero).
    { intros r Hr. apply (quotient_root p q1 a r (Hq1 r)); [intros -> ; contradiction | apply H; now right]. }
    destruct (IH q1 ND' Hr) as (q & Hl & Hq).
    exists q. split. { simpl. lia. }
    intros x. rewrite Hq1, Hq. simpl. ring.
Qed.

(* ... hence a polynomial with at least as many distinct roots as coefficients is zero everywhere *)
Corollary too_many_roots p roots : NoDup roots -> length p <= length roots ->
  (forall r, In r roots -> peval p r = zero) -> forall x, peval p x = zero.
Proof.
  intros ND Hl H x. destruct (vanish_divisible roots p ND H) as (q & Hq & E).
  assert (q = []) as -> by (destruct q; [reflexivity | simpl in Hq; lia]).
  rewrite E. simpl. ring.
Qed.

(* ------------------------------------------------------------------ the vanishing polynomial of the trace domain *)
(* coefficient form of prod (x - r) *)
Fixpoint linmul_aux (prev : F) (q : list F) (r : F) : list F :=
  match q with [] => [prev] | c :: t => (prev -f r *f c) :: linmul_aux c t r end.
Definition linmul (q : list F) (r : F) : list F := linmul_aux zero q r.
Fixpoint roots_poly (xs : list F) : list F := match xs with [] => [one] | r :: t => linmul (roots_poly t) r end.

Lemma linmul_aux_peval x : forall q prev r, peval (linmul_aux prev q r) x = prev +f (x -f r) *f peval q x.
Proof. induction q as [|c t IH]; intros; simpl; [ring | rewrite IH; ring]. Qed.
Lemma linmul_aux_length : forall q prev r, length (linmul_aux prev q r) = S (length q).
Proof. induction q; intros; simpl; [reflexivity | now rewrite IHq]. Qed.
Lemma linmul_aux_last : forall q prev r, q <> [] -> last (linmul_aux prev q r) zero = last q zero.
Proof.
  induction q as [|c t IH]; intros prev r H; [congruence|]. destruct t as [|c1 t1]; [reflexivity|].
  change (linmul_aux prev (c :: c1 :: t1) r) with ((prev -f r *f c) :: linmul_aux c (c1 :: t1) r).
  assert (E : linmul_aux c (c1 :: t1) r <> []) by (simpl; discriminate).
  destruct (linmul_aux c (c1 :: t1) r) as [|u v] eqn:Eu; [congruence|].
  change (last ((prev -f r *f c) :: u :: v) zero) with (last (u :: v) zero). rewrite <- Eu.
  rewrite IH by discriminate. reflexivity.
Qed.
Lemma roots_poly_peval xs x : peval (roots_poly xs) x = pprod xs x.
Proof. induction xs; simpl; [ring | unfold linmul; rewrite linmul_aux_peval, IHxs; ring]. Qed.
Lemma roots_poly_length xs : length (roots_poly xs) = S (length xs).
Proof. induction xs; simpl; [reflexivity | unfold linmul; now rewrite linmul_aux_length, IHxs]. Qed.
Lemma roots_poly_nonempty xs : roots_poly xs <> [].
Proof. intros E. pose proof (roots_poly_length xs) as H. rewrite E in H. discriminate. Qed.
Lemma roots_poly_monic xs : last (roots_poly xs) zero = one.
Proof. induction xs; simpl; [reflexivity | unfold linmul; rewrite linmul_aux_last by apply roots_poly_nonempty; exact IHxs]. Qed.

Lemma peval_last_split p x : p <> [] -> peval p x = peval (removelast p) x +f last p zero *f fpow x (length p - 1).
Proof.
  intros H. rewrite (app_removelast_last zero H) at 1. rewrite peval_app, removelast_length. simpl. ring.
Qed.

(* g is a primitive n-th root of unity: g^n = 1 and the powers g^0 .. g^(n-1) are pairwise distinct *)
Definition primitive_root (g : F) (n : nat) : Prop :=
  fpow g n = one /\ forall i j, i < n -> j < n -> fpow g i = fpow g j -> i = j.

Lemma domain_length g n : length (domain O g n) = n.
Proof. unfold domain. now rewrite map_length, seq_length. Qed.
Lemma In_domain g n r : In r (domain O g n) <-> exists i, i < n /\ r = fpow g i.
Proof.
  unfold domain. rewrite in_map_iff. split.
  - intros (i & <- & Hi). apply in_seq in Hi. exists i. split; [lia | reflexivity].
  - intros (i & Hi & ->). exists i. split; [reflexivity | apply in_seq; lia].
Qed.
Lemma domain_NoDup g n m : primitive_root g n -> m <= n -> NoDup (domain O g m).
Proof.
  intros [_ Hinj] Hm. apply NoDup_map_inj_in; [|apply seq_NoDup].
  intros i j Hi Hj. apply in_seq in Hi, Hj. apply Hinj; lia.
Qed.

(* the monic polynomial with n distinct roots r, all with r^n = k, is x^n - k: the rest P of prod (x - r) below
   the leading term has n coefficients, and P + k vanishes at the n roots *)
Lemma pprod_nth_roots rs n k : length rs = n -> 0 < n -> NoDup rs -> (forall r, In r rs -> fpow r n = k) ->
  forall x, pprod rs x = fpow x n -f k.
Proof.
  intros Hl Hn ND Hr x. set (P := removelast (roots_poly rs)).
  assert (HR : forall y, pprod rs y = peval P y +f fpow y n).
  { intros y. rewrite <- roots_poly_peval, (peval_last_split _ y) by apply roots_poly_nonempty.
    rewrite roots_poly_monic, roots_poly_length, Hl. replace (S n - 1) with n by lia. fold P. ring. }
  assert (HP : P <> []).
  { assert (E : length P = n) by (unfold P; rewrite removelast_length, roots_poly_length; lia).
    destruct P; [simpl in E; lia | discriminate]. }
  assert (Hz : peval (sub_const O P (zero -f k)) x = zero).
  { apply (too_many_roots _ rs ND).
    - unfold P. rewrite sub_const_length, removelast_length, roots_poly_length. lia.
    - intros r Hin. rewrite (peval_sub_const _ _ _ HP). transitivity (peval P r +f fpow r n); [rewrite (Hr r Hin); ring|].
      rewrite <- HR. now apply pprod_root. }
  rewrite (peval_sub_const _ _ _ HP) in Hz. apply (fsub_eq_zero O L) in Hz. rewrite HR, Hz. ring.
Qed.

(* C16's zero-set statement, proved here: prod_{i<n} (x - g^i) = x^n - 1 *)
Theorem domain_vanishing g n : primitive_root g n -> 0 < n ->
  forall x, pprod (domain O g n) x = fpow x n -f one.
Proof.
  intros Hg Hn. apply pprod_nth_roots; [apply domain_length | exact Hn | now apply (domain_NoDup g n n) |].
  intros r Hr. apply In_domain in Hr. destruct Hr as (i & _ & ->). apply fpow_root_pow, Hg.
Qed.

(* the same for a coset c * <h> of an m-th root of unity h (the zero set of an assertion divisor x^m - c^m,
   c = g^first_step, h = g^stride):  prod_{i<m} (x - c h^i) = x^m - c^m *)
Definition coset (c h : F) (m : nat) : list F := map (fun i => c *f fpow h i) (seq 0 m).

Lemma coset_NoDup c h m : primitive_root h m -> c <> zero -> NoDup (coset c h m).
Proof.
  intros [_ Hinj] Hc. apply NoDup_map_inj_in; [|apply seq_NoDup].
  intros i j Hi Hj E. apply in_seq in Hi, Hj. apply (fmul_cancel_l c _ _ Hc) in E. apply Hinj; [lia | lia | exact E].
Qed.

Theorem coset_vanishing c h m : primitive_root h m -> 0 < m -> c <> zero ->
  forall x, pprod (coset c h m) x = fpow x m -f fpow c m.
Proof.
  intros Hh Hm Hc. apply pprod_nth_roots; [unfold coset; now rewrite map_length, seq_length | exact Hm | now apply coset_NoDup |].
  intros r Hr. apply in_map_iff in Hr. destruct Hr as (i & <- & _).
  rewrite fpow_mul_base, (fpow_root_pow h m i (proj1 Hh)). ring.
Qed.

(* ------------------------------------------------------------------ constraint quotients are polynomials *)
(* exemption points g^(n-e) .. g^(n-1) (ConstraintDivisor::from_transition) *)
Definition exempt (g : F) (n e : nat) : list F := map (fpow g) (seq (n - e) e).

Lemma domain_split g n e : e <= n -> domain O g n = domain O g (n - e) ++ exempt g n e.
Proof.
  intros H. unfold domain, exempt. rewrite <- map_app. f_equal.
  replace n with ((n - e) + e) at 1 by lia. rewrite seq_app. reflexivity.
Qed.

(* If the combined numerator N (a polynomial: sum of alpha_i * C_i(T(x), T(g x), periodic(x))) vanishes on all
   non-exempt steps, then N = Z * Q for the divisor Z(x) = (x^n - 1) / prod_exempt (x - e) that
   ConstraintDivisor::evaluate_at computes, with Q a polynomial of length |N| - (n - e):
   N(x) * prod_exempt(x) = (x^n - 1) * Q(x) for EVERY x, hence Q(x) = N(x) / Z(x) wherever Z(x) is defined and non-zero. *)
Theorem quotient_is_poly g n e N : primitive_root g n -> 0 < n -> e <= n ->
  (forall i, i < n - e -> peval N (fpow g i) = zero) ->
  exists Q, length Q = length N - (n - e) /\
    (forall x, peval N x = pprod (domain O g (n - e)) x *f peval Q x) /\
    (forall x, peval N x *f pprod (exempt g n e) x = (fpow x n -f one) *f peval Q x).
Proof.
  intros Hg Hn He Hv.
  destruct (vanish_divisible (domain O g (n - e)) N) as (Q & Hl & HQ).
  - apply (domain_NoDup g n); [exact Hg | lia].
  - intros r Hr. apply In_domain in Hr. destruct Hr as (i & Hi & ->). now apply Hv.
  - exists Q. rewrite domain_length in Hl. split; [exact Hl|]. split; [exact HQ|].
    intros x. rewrite <- (domain_vanishing g n Hg Hn), (domain_split g n e He), pprod_app, HQ. ring.
Qed.

(* ------------------------------------------------------------------ segments of the composition polynomial *)
Lemma ood_lhs_shift n z : forall hs i, ood_lhs O n z i hs = fpow z (i * n) *f ood_lhs O n z 0 hs.
Proof.
  induction hs as [|h t IH]; intros i; simpl; [ring|].
  rewrite (IH (S i)), (IH 1). simpl. rewrite Nat.add_0_r, fpow_add. ring.
Qed.

(* H(z) = sum_i z^(i n) H_i(z) when the coefficients of H fit into the columns *)
Theorem segments_eval n : forall cols H z, length H <= n * cols ->
  ood_lhs O n z 0 (evals O (segment H n cols) z) = peval H z.
Proof.
  induction cols as [|k IH]; intros H z Hl.
  - assert (H = []) as -> by (destruct H; [reflexivity | simpl in Hl; lia]). reflexivity.
  - destruct H as [|h0 t]; [reflexivity|]. remember (h0 :: t) as H eqn:EH.
    assert (E : segment H n (S k) = firstn n H :: segment (skipn n H) n k) by (subst H; reflexivity).
    clear EH h0 t.
    destruct (Nat.leb_spec (length H) n) as [Hs|Hs].
    + (* everything is in the first column *)
      rewrite E. cbn [evals map Stark.ood_lhs]. rewrite firstn_all2 by lia. rewrite skipn_all2 by lia.
      assert (Z0 : forall c i, ood_lhs O n z i (evals O (segment [] n c) z) = zero) by (intros [|c] i; reflexivity).
      unfold evals in Z0 |- *. rewrite Z0. simpl. ring.
    + rewrite E. cbn [evals map Stark.ood_lhs]. fold (evals O (segment (skipn n H) n k) z).
      rewrite ood_lhs_shift, IH by (rewrite skipn_length; nia).
      rewrite <- (firstn_skipn n H) at 3. rewrite peval_app, firstn_length_le by lia. simpl. rewrite Nat.add_0_r. ring.
Qed.

End Poly.
