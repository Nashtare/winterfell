(* C20 — synthetic division (by x^a - b, by a list of roots) and long division. *)
From Coq Require Import List Arith Bool Lia Ring Field.
From VBase Require Import FieldOps.
From VModel Require Import Polynom.
From VProofs Require Import PolyBase PolyCoeff PolyArith.
Import ListNotations.

Section Div.
Context {F : Type} (O : FOps F) (L : FLaws O).
Local Notation zero := (fzero O).
Local Notation one := (fone O).
Local Notation "a +f b" := (fadd O a b) (at level 50, left associativity).
Local Notation "a -f b" := (fsub O a b) (at level 50, left associativity).
Local Notation "a *f b" := (fmul O a b) (at level 40, left associativity).
Local Notation peval := (peval O).
Local Notation fpow := (fpow O).
Local Notation coeff := (coeff O).
Local Notation conv := (conv O).

Add Field Ffield : (FLaws_field_theory O L).

(* ------------------------------------------------------------------ one pass of division by (x - root) *)
Lemma syn_lin_spec root : forall p p' c, syn_lin O p root = (p', c) ->
  (forall x, peval p x = (x -f root) *f peval p' x +f c) /\ length p' = length p /\ c = peval p root /\
  (p <> [] -> last p' zero = zero).
Proof.
  induction p as [|h t IH]; intros p' c E.
  - simpl in E. inversion E; subst. simpl. repeat split; intros; ring.
  - cbn [syn_lin] in E. destruct (syn_lin O t root) as [t' ct] eqn:Et. inversion E; subst p' c. clear E.
    destruct (IH t' ct eq_refl) as (H1 & H2 & H3 & H4).
    cbn [PolyBase.peval length]. split. { intros x. rewrite H1. ring. } split. { now rewrite H2. }
    split. { now rewrite H3. }
    intros _. destruct t as [|t0 t1].
    + simpl in Et. inversion Et; subst. reflexivity.
    + destruct t' as [|u t']; [simpl in H2; discriminate|].
      change (last (ct :: u :: t') zero) with (last (u :: t') zero). apply H4. discriminate.
Qed.

Lemma skipn_last (l : list F) : l <> [] -> skipn (length l - 1) l = [last l zero].
Proof.
  induction l as [|h t IH]; [congruence|]. intros _. destruct t as [|t0 t1]. reflexivity.
  replace (length (h :: t0 :: t1) - 1) with (S (length (t0 :: t1) - 1)) by (simpl; lia).
  change (last (h :: t0 :: t1) zero) with (last (t0 :: t1) zero).
  change (skipn (S (length (t0 :: t1) - 1)) (h :: t0 :: t1)) with (skipn (length (t0 :: t1) - 1) (t0 :: t1)).
  apply IH. discriminate.
Qed.

(* ------------------------------------------------------------------ division by x^a - b, a >= 2 *)
Definition sd_body (a : nat) (g : F -> F) : nat -> list F -> Result (list F) :=
  fun i p => pi <- get p i;; pia <- get p (i + a);; set p i (pi +f g pia).

(* the code special-cases b = 1 to save the multiplication *)
Lemma sd_one a b n p : b = one ->
  for_down n (sd_body a (fun v => v)) p = for_down n (sd_body a (fun v => v *f b)) p.
Proof.
  intros ->. apply for_down_ext. intros i s. unfold sd_body.
  destruct (get s i); [|reflexivity]. destruct (get s (i + a)); [|reflexivity]. cbn [bind]. f_equal. ring.
Qed.

Lemma syn_div_full_unfold1 p b : b <> zero -> 1 < length p ->
  syn_div_in_place_full O p 1 b = let '(p', c) := syn_lin O p b in Ok (p', [c]).
Proof.
  intros Hb Hl. unfold syn_div_in_place_full. cbn [Nat.eqb]. rewrite (feqb_neq O L) by assumption.
  destruct (Nat.ltb_spec 1 (length p)); [reflexivity|lia].
Qed.

Lemma syn_div_full_unfold p a b : a <> 0 -> a <> 1 -> b <> zero -> a < length p ->
  syn_div_in_place_full O p a b
  = (p1 <- for_down (length p - a) (sd_body a (fun v => v *f b)) p;;
     Ok (skipn a p1 ++ repeat zero a, firstn a p1)).
Proof.
  intros H0 H1 Hb Hl. unfold syn_div_in_place_full.
  destruct (Nat.eqb_spec a 0); [contradiction|]. rewrite (feqb_neq O L) by assumption.
  destruct (Nat.ltb_spec a (length p)); [|lia]. destruct (Nat.eqb_spec a 1); [contradiction|]. cbn [negb].
  destruct (feqb O b one) eqn:E1; [|reflexivity].
  apply (feqb_true O L) in E1. rewrite <- (sd_one a b _ p E1). reflexivity.
Qed.

Lemma sd_loop a b : 1 <= a -> forall m s, m + a <= length s ->
  exists s', for_down m (sd_body a (fun v => v *f b)) s = Ok s' /\ length s' = length s /\
    forall x, peval (firstn (m + a) s) x +f (fpow x a -f b) *f fpow x m *f peval (skipn (m + a) s) x
              = peval (firstn a s') x +f (fpow x a -f b) *f peval (skipn a s') x.
Proof.
  intros Ha. induction m as [|i IH]; intros s Hlen.
  - exists s. simpl. repeat split. intros; ring.
  - set (v := nth i s zero +f nth (i + a) s zero *f b).
    assert (Hstep : sd_body a (fun v => v *f b) i s = Ok (upd s i v)).
    { unfold sd_body. rewrite (get_ok s i zero) by lia. cbn [bind].
      rewrite (get_ok s (i + a) zero) by lia. cbn [bind]. apply set_ok. lia. }
    cbn [for_down]. rewrite Hstep.
    destruct (IH (upd s i v)) as (s' & Hs' & Hl' & Hp'). { rewrite upd_length. lia. }
    exists s'. split; [exact Hs'|]. split. { rewrite Hl'. apply upd_length. }
    intros x. rewrite <- Hp'.
    rewrite (firstn_upd_lt s i (i + a) v) by lia.
    rewrite (peval_upd O L) by (rewrite firstn_length; lia).
    rewrite (nth_firstn_lt s i (i + a) zero) by lia.
    rewrite (skipn_upd_lt s i (i + a) v) by lia.
    replace (S i + a) with (S (i + a)) by lia.
    rewrite (peval_firstn_S O L s (i + a)) by lia.
    rewrite (skipn_cons_nth s (i + a) zero) by lia.
    cbn [PolyBase.peval PolyBase.fpow]. unfold v. rewrite (fpow_add O L). ring.
Qed.

Lemma syn_div_total_iff p a b :
  syn_div_in_place_full O p a b <> Panic <-> (a <> 0 /\ b <> zero /\ a < length p).
Proof.
  split.
  - unfold syn_div_in_place_full.
    destruct (Nat.eqb_spec a 0); [congruence|]. destruct (feqb O b zero) eqn:Eb; [congruence|].
    apply (feqb_false O L) in Eb. destruct (Nat.ltb_spec a (length p)); [tauto|cbn [negb]; congruence].
  - intros (H0 & Hb & Hl). destruct (Nat.eq_dec a 1) as [->|H1].
    + rewrite syn_div_full_unfold1 by assumption. destruct (syn_lin O p b). discriminate.
    + rewrite syn_div_full_unfold by assumption.
      destruct (sd_loop a b ltac:(lia) (length p - a) p ltac:(lia)) as (p1 & Hp1 & _). rewrite Hp1. discriminate.
Qed.

Lemma syn_div_full_spec p a b q r : syn_div_in_place_full O p a b = Ok (q, r) ->
  (forall x, peval p x = peval q x *f (fpow x a -f b) +f peval r x) /\
  length q = length p /\ length r = a /\ skipn (length p - a) q = repeat zero a.
Proof.
  intros H. destruct (proj1 (syn_div_total_iff p a b)) as (H0 & Hb & Hl); [rewrite H; discriminate|].
  destruct (Nat.eq_dec a 1) as [->|H1].
  - rewrite syn_div_full_unfold1 in H by assumption.
    destruct (syn_lin O p b) as [p' c] eqn:E. inversion H; subst q r. clear H.
    assert (Hne : p <> []) by (destruct p; simpl in *; [lia|discriminate]).
    destruct (syn_lin_spec b p p' c E) as (Hx & H2 & _ & H4).
    split; [|split; [|split]].
    + intros x. rewrite Hx. simpl. ring.
    + exact H2.
    + reflexivity.
    + rewrite <- H2. rewrite skipn_last. simpl. now rewrite H4.
      destruct p'; [destruct p; simpl in *; [congruence|discriminate]|discriminate].
  - rewrite syn_div_full_unfold in H by assumption.
    destruct (sd_loop a b ltac:(lia) (length p - a) p ltac:(lia)) as (p1 & Hp1 & Hl1 & Hx).
    rewrite Hp1 in H. inversion H; subst q r. clear H.
    split; [|split; [|split]].
    + intros x. specialize (Hx x). replace (length p - a + a) with (length p) in Hx by lia.
      rewrite firstn_all, skipn_all in Hx. simpl in Hx.
      rewrite (peval_app O L), (peval_repeat_zero O L).
      transitivity (peval p x +f (fpow x a -f b) *f fpow x (length p - a) *f zero). ring.
      rewrite Hx. ring.
    + rewrite app_length, skipn_length, repeat_length. lia.
    + rewrite firstn_length. lia.
    + rewrite skipn_app. rewrite skipn_all2 by (rewrite skipn_length; lia).
      rewrite skipn_length. replace (length p - a - (length p1 - a)) with 0 by lia. reflexivity.
Qed.

(* the public functions: syn_div = syn_div_in_place on a copy; the remainder (length a) is discarded *)
Lemma syn_div_spec p a b q : syn_div O p a b = Ok q ->
  length q = length p /\ skipn (length p - a) q = repeat zero a /\
  exists r, length r = a /\ forall x, peval p x = peval q x *f (fpow x a -f b) +f peval r x.
Proof.
  unfold syn_div, syn_div_in_place. intros H. apply bind_ok in H. destruct H as ([q' r] & H1 & H2).
  simpl in H2. inversion H2; subst q'. destruct (syn_div_full_spec p a b q r H1) as (Ha & Hb & Hc & Hd).
  repeat split; auto. exists r. auto.
Qed.

Lemma syn_div_public_total_iff p a b : syn_div O p a b <> Panic <-> (a <> 0 /\ b <> zero /\ a < length p).
Proof.
  rewrite <- syn_div_total_iff. unfold syn_div, syn_div_in_place.
  destruct (syn_div_in_place_full O p a b); simpl; split; intros; congruence.
Qed.

(* ------------------------------------------------------------------ division by a list of roots *)
Fixpoint pprod (roots : list F) (x : F) : F :=
  match roots with [] => one | r :: t => (x -f r) *f pprod t x end.

(* the discarded remainder in coefficient form: c1 + (x - r1) (c2 + (x - r2) (...)) *)
Fixpoint nrem (roots cs : list F) : list F :=
  match roots, cs with
  | r :: rs, c :: cs' => let t := nrem rs cs' in add O [c] (sub O (zero :: t) (mul_by_scalar O t r))
  | _, _ => []
  end.

Lemma nrem_length : forall roots cs, length cs = length roots -> length (nrem roots cs) = length roots.
Proof.
  induction roots as [|r rs IH]; intros cs H. reflexivity.
  destruct cs as [|c cs]; [discriminate|]. cbn [nrem]. cbv zeta.
  rewrite add_length, sub_length, mul_by_scalar_length. cbn [length] in *. rewrite IH by lia. lia.
Qed.

Lemma syn_roots_loop_spec : forall roots p q cs, syn_roots_loop O p roots = (q, cs) ->
  (forall x, peval p x = peval q x *f pprod roots x +f peval (nrem roots cs) x) /\
  length q = length p /\ length cs = length roots.
Proof.
  induction roots as [|r rs IH]; intros p q cs E.
  - simpl in E. inversion E; subst. simpl. repeat split. intros; ring.
  - cbn [syn_roots_loop] in E. destruct (syn_lin O p r) as [p1 c] eqn:E1.
    destruct (syn_roots_loop O p1 rs) as [p2 cs2] eqn:E2. inversion E; subst q cs. clear E.
    destruct (syn_lin_spec r p p1 c E1) as (H1 & H2 & _).
    destruct (IH p1 p2 cs2 E2) as (H3 & H4 & H5).
    split; [|split; [congruence|simpl; congruence]].
    intros x. cbn [nrem pprod]. cbv zeta.
    rewrite (add_spec O L), (sub_spec O L), (mul_by_scalar_spec O L). cbn [PolyBase.peval].
    rewrite H1, H3. ring.
Qed.

Lemma syn_div_roots_full_spec p roots q cs : syn_div_roots_in_place_full O p roots = Ok (q, cs) ->
  length q = length p /\
  exists rem, length rem = length roots /\
    forall x, peval p x = peval q x *f pprod roots x +f peval rem x.
Proof.
  unfold syn_div_roots_in_place_full. destruct roots as [|r0 rs]; [discriminate|].
  destruct (Nat.ltb_spec (length (r0 :: rs)) (length p)) as [Hlt|Hlt]; cbn [negb]; [|discriminate].
  intros H; inversion H as [E]. clear H.
  destruct (syn_roots_loop_spec (r0 :: rs) p q cs E) as (Hx & Hl & Hc).
  split; [exact Hl|]. exists (nrem (r0 :: rs) cs). split; [now apply nrem_length|exact Hx].
Qed.

Lemma syn_div_roots_total_iff p roots :
  syn_div_roots_in_place O p roots <> Panic <-> (roots <> [] /\ length roots < length p).
Proof.
  unfold syn_div_roots_in_place, syn_div_roots_in_place_full. destruct roots as [|r0 rs].
  - simpl. split; [congruence|tauto].
  - destruct (Nat.ltb_spec (length (r0 :: rs)) (length p)) as [Hlt|Hlt]; cbn [negb bind].
    + split; [intros _; split; [discriminate|assumption]|discriminate].
    + split; [congruence|lia].
Qed.

Lemma syn_div_roots_spec p roots q : syn_div_roots_in_place O p roots = Ok q ->
  length q = length p /\
  exists rem, length rem = length roots /\
    forall x, peval p x = peval q x *f pprod roots x +f peval rem x.
Proof.
  unfold syn_div_roots_in_place. intros H. apply bind_ok in H. destruct H as ([q' cs] & H1 & H2).
  simpl in H2. inversion H2; subst q'. now apply (syn_div_roots_full_spec p roots q cs).
Qed.

(* ------------------------------------------------------------------ long division *)
Definition div_inner_body (b : list F) (i : nat) (quot : F) : nat -> list F -> Result (list F) :=
  fun j aw => bj <- get b j;; aij <- get aw (i + j);; set aw (i + j) (aij -f bj *f quot).

Definition div_outer_body (b : list F) (bpos : nat) :
    nat -> list F * list F * nat -> Result (list F * list F * nat) :=
  fun i st =>
    let '(aw, res, apos) := st in
    aa <- get aw apos;; bb <- get b bpos;;
    let quot := fdiv O aa bb in
    res <- set res i quot;;
    aw <- for_down bpos (div_inner_body b i quot) aw;;
    Ok (aw, res, Nat.pred apos).

Lemma div_full_unfold a b :
  div_full O a b =
  let apos := degree_of O a in
  let bpos := degree_of O b in
  if apos <? bpos then Panic
  else if (bpos =? 0) && (match b with [] => true | b0 :: _ => feqb O b0 zero end) then Panic
  else match a with
  | [] => Ok ([], [])
  | _ =>
    let result := repeat zero (apos - bpos + 1) in
    st <- for_down (length result) (div_outer_body b bpos) (a, result, apos);;
    Ok (snd (fst st), fst (fst st))
  end.
Proof. reflexivity. Qed.

Lemma div_inner x b i quot : forall m aw, m <= length b -> i + m <= length aw ->
  exists aw', for_down m (div_inner_body b i quot) aw = Ok aw' /\ length aw' = length aw /\
    (forall Lg, i + m <= Lg ->
      peval (firstn Lg aw') x = peval (firstn Lg aw) x -f quot *f fpow x i *f peval (firstn m b) x) /\
    (forall k, coeff aw' k = if (i <=? k) && (k <? i + m) then coeff aw k -f coeff b (k - i) *f quot else coeff aw k).
Proof.
  induction m as [|m IH]; intros aw Hb Hl.
  - exists aw. split; [reflexivity|]. split; [reflexivity|]. split.
    + intros. simpl. ring.
    + intros k. destruct (Nat.leb_spec i k), (Nat.ltb_spec k (i + 0)); simpl; try reflexivity; lia.
  - set (v := nth (i + m) aw zero -f nth m b zero *f quot).
    assert (Hstep : div_inner_body b i quot m aw = Ok (upd aw (i + m) v)).
    { unfold div_inner_body. rewrite (get_ok b m zero) by lia. cbn [bind].
      rewrite (get_ok aw (i + m) zero) by lia. cbn [bind]. apply set_ok; lia. }
    cbn [for_down]. rewrite Hstep.
    destruct (IH (upd aw (i + m) v)) as (aw' & H1 & H2 & H3 & H4); [lia | rewrite upd_length; lia |].
    exists aw'. split; [exact H1|]. split. { rewrite H2. apply upd_length. }
    split.
    + intros Lg HL. rewrite H3 by lia.
      rewrite (firstn_upd_lt aw (i + m) Lg v) by lia.
      rewrite (peval_upd O L) by (rewrite firstn_length; lia).
      rewrite (nth_firstn_lt aw (i + m) Lg zero) by lia.
      rewrite (peval_firstn_S O L b m) by lia.
      unfold v. rewrite (fpow_add O L). ring.
    + intros k. rewrite H4. unfold PolyCoeff.coeff.
      destruct (Nat.eq_dec k (i + m)) as [->|Hk].
      * rewrite nth_upd_same by lia.
        destruct (Nat.leb_spec i (i + m)), (Nat.ltb_spec (i + m) (i + m)), (Nat.ltb_spec (i + m) (i + S m));
          simpl; try lia. unfold v. now replace (i + m - i) with m by lia.
      * rewrite nth_upd_other by assumption.
        destruct (Nat.leb_spec i k), (Nat.ltb_spec k (i + m)), (Nat.ltb_spec k (i + S m)); simpl; try lia; reflexivity.
Qed.

Lemma div_outer x b n lead : nth n b zero = lead -> lead <> zero -> n < length b ->
  (forall j, n < j -> coeff b j = zero) ->
  forall m aw qs ap, ap = n + m - 1 -> n + m <= length aw ->
  exists aw' q' ap',
    for_down m (div_outer_body b n) (aw, repeat zero m ++ qs, ap) = Ok (aw', q' ++ qs, ap') /\
    length q' = m /\ length aw' = length aw /\
    peval (firstn (n + m) aw) x = peval q' x *f peval (firstn (S n) b) x +f peval (firstn n aw') x /\
    (forall k, k < n + m -> coeff aw k = conv q' b k +f (if k <? n then coeff aw' k else zero)).
Proof.
  intros Hlead Hnz Hn Hhigh. induction m as [|i IH]; intros aw qs ap Hap Hl.
  - exists aw, [], ap. split; [reflexivity|]. split; [reflexivity|]. split; [reflexivity|]. split.
    + simpl. rewrite Nat.add_0_r. ring.
    + intros k Hk. rewrite (conv_nil_l O L). destruct (Nat.ltb_spec k n); [|lia]. ring.
  - subst ap. replace (n + S i - 1) with (n + i) by lia.
    set (quot := fdiv O (nth (n + i) aw zero) lead).
    destruct (div_inner x b i quot n aw) as (aw1 & Hi1 & Hi2 & Hi3 & Hi4); [lia|lia|].
    assert (Hu : upd (repeat zero (S i) ++ qs) i quot = repeat zero i ++ quot :: qs).
    { cbn [repeat]. rewrite repeat_cons, <- app_assoc. simpl.
      pose proof (upd_app_mid (repeat zero i) qs zero quot) as Hx. rewrite repeat_length in Hx. exact Hx. }
    assert (Hstep : div_outer_body b n i (aw, repeat zero (S i) ++ qs, n + i)
                    = Ok (aw1, repeat zero i ++ quot :: qs, Nat.pred (n + i))).
    { unfold div_outer_body. rewrite (get_ok aw (n + i) zero) by lia. cbn [bind].
      rewrite (get_ok b n zero) by lia. cbn [bind]. rewrite Hlead. fold quot.
      rewrite set_ok by (rewrite app_length, repeat_length; lia). cbn [bind].
      rewrite Hi1. cbn [bind]. rewrite Hu. reflexivity. }
    cbn [for_down]. rewrite Hstep.
    destruct (IH aw1 (quot :: qs) (Nat.pred (n + i))) as (aw' & q'' & ap' & H1 & H2 & H3 & H4 & H5); [lia|lia|].
    assert (Hq : quot *f lead = nth (n + i) aw zero) by (unfold quot; field; exact Hnz).
    exists aw', (q'' ++ [quot]), ap'.
    split. { rewrite <- app_assoc. exact H1. }
    split. { rewrite app_length. simpl. lia. }
    split. { lia. }
    split.
    + replace (n + S i) with (S (n + i)) by lia. rewrite (peval_firstn_S O L aw (n + i)) by lia.
      pose proof (Hi3 (n + i) ltac:(lia)) as E. rewrite H4 in E.
      rewrite (peval_snoc O L). rewrite H2.
      rewrite (peval_firstn_S O L b n) in * by lia. rewrite Hlead in *.
      assert (HA : peval (firstn (n + i) aw) x
                   = peval q'' x *f (peval (firstn n b) x +f lead *f fpow x n) +f peval (firstn n aw') x
                     +f quot *f fpow x i *f peval (firstn n b) x).
      { rewrite E. ring. }
      rewrite HA, <- Hq, (fpow_add O L). ring.
    + intros k Hk. rewrite (conv_snoc O L). rewrite H2.
      destruct (Nat.eq_dec k (n + i)) as [->|Hne].
      * (* the position of the leading term *)
        rewrite (conv_high O L q'' b n) by (auto; lia).
        destruct (Nat.leb_spec i (n + i)); [|lia]. destruct (Nat.ltb_spec (n + i) n); [lia|].
        replace (n + i - i) with n by lia. unfold PolyCoeff.coeff. rewrite Hlead, <- Hq. ring.
      * pose proof (H5 k ltac:(lia)) as E5. rewrite (Hi4 k) in E5.
        set (B := if k <? n then coeff aw' k else zero) in *.
        destruct (Nat.leb_spec i k) as [Hik|Hik]; destruct (Nat.ltb_spec k (i + n)) as [Hkn|Hkn];
          simpl in E5 |- *; try lia.
        -- transitivity (conv q'' b k +f B +f quot *f coeff b (k - i)); [rewrite <- E5; ring|ring].
        -- rewrite E5. ring.
Qed.

(* the leading coefficient of the divisor under the code's assertions *)
Lemma div_lead b : (degree_of O b =? 0) && (match b with [] => true | b0 :: _ => feqb O b0 zero end) = false ->
  degree_of O b < length b /\ nth (degree_of O b) b zero <> zero.
Proof.
  intros H. destruct (Nat.eqb_spec (degree_of O b) 0) as [E|E].
  - rewrite E. simpl in H. destruct b as [|b0 b']; [discriminate|]. apply (feqb_false O L) in H. simpl. split; [lia|exact H].
  - destruct (degree_of_pos_nz O L b) as (H1 & H2); [lia|]. tauto.
Qed.

Lemma div_lead_conv b : nth (degree_of O b) b zero <> zero ->
  (degree_of O b =? 0) && (match b with [] => true | b0 :: _ => feqb O b0 zero end) = false.
Proof.
  intros H. destruct (Nat.eqb_spec (degree_of O b) 0) as [E|E]; [|reflexivity].
  rewrite E in H. simpl. destruct b as [|b0 b']; simpl in H. congruence. now apply (feqb_neq O L).
Qed.

Lemma div_full_guard a b : div_full O a b <> Panic ->
  degree_of O b <= degree_of O a /\ nth (degree_of O b) b zero <> zero /\ degree_of O b < length b.
Proof.
  rewrite div_full_unfold. cbv zeta.
  destruct (Nat.ltb_spec (degree_of O a) (degree_of O b)); [congruence|].
  destruct ((degree_of O b =? 0) && (match b with [] => true | b0 :: _ => feqb O b0 zero end)) eqn:E2; [congruence|].
  intros _. destruct (div_lead b E2). tauto.
Qed.

(* the run of the division when it does not panic: the identity a = q b + r holds for the polynomial functions and,
   stronger when the field is finite, on COEFFICIENT LISTS: a_k = sum_{i<=k} q_i b_{k-i} + r_k for every k, with
   r = first deg(b) entries of the working copy *)
Lemma div_full_run a b : degree_of O b <= degree_of O a -> nth (degree_of O b) b zero <> zero ->
  exists q aw, div_full O a b = Ok (q, aw) /\
    (a <> [] -> length q = degree_of O a - degree_of O b + 1) /\ (a = [] -> q = []) /\
    (forall x, peval a x = peval q x *f peval b x +f peval (firstn (degree_of O b) aw) x) /\
    (forall k, coeff a k = conv q b k +f coeff (firstn (degree_of O b) aw) k).
Proof.
  intros Hd Hnz. rewrite div_full_unfold. cbv zeta.
  destruct (Nat.ltb_spec (degree_of O a) (degree_of O b)); [lia|]. rewrite (div_lead_conv b Hnz).
  assert (Hn : degree_of O b < length b).
  { destruct (Nat.lt_ge_cases (degree_of O b) (length b)); auto. exfalso. apply Hnz. now apply nth_overflow. }
  assert (Hhigh : forall j, degree_of O b < j -> coeff b j = zero) by (apply (degree_of_spec O L b)).
  destruct a as [|a0 a'].
  - exists [], []. split; [reflexivity|]. split; [congruence|]. split; [reflexivity|]. split.
    + intros x. rewrite firstn_nil. simpl. ring.
    + intros k. rewrite (conv_nil_l O L), firstn_nil. unfold PolyCoeff.coeff. destruct k; simpl; ring.
  - set (a := a0 :: a') in *. assert (Hane : a <> []) by discriminate.
    pose proof (degree_of_lt O L a Hane) as Hda.
    rewrite repeat_length.
    (* div_outer speaks of one evaluation point: run it at zero for the result, then once more at each x *)
    pose proof (fun x => div_outer x b (degree_of O b) _ eq_refl Hnz Hn Hhigh (degree_of O a - degree_of O b + 1) a []
                  (degree_of O a) ltac:(lia) ltac:(lia)) as Hrun.
    destruct (Hrun zero) as (aw' & q' & ap' & H1 & H2 & H3 & _ & H5).
    rewrite !app_nil_r in H1. rewrite H1. cbn [bind fst snd].
    exists q', aw'. split; [reflexivity|]. split; [intros _; exact H2|]. split; [congruence|]. split.
    + intros x. destruct (Hrun x) as (aw2 & q2 & ap2 & G1 & _ & _ & G4 & _).
      rewrite !app_nil_r in G1. rewrite H1 in G1. inversion G1; subst aw2 q2 ap2.
      replace (degree_of O b + (degree_of O a - degree_of O b + 1)) with (S (degree_of O a)) in G4 by lia.
      rewrite !(peval_firstn_degree O L) in G4. exact G4.
    + intros k.
      assert (Hr : coeff (firstn (degree_of O b) aw') k = if k <? degree_of O b then coeff aw' k else zero).
      { unfold PolyCoeff.coeff. destruct (Nat.ltb_spec k (degree_of O b)).
        - now apply nth_firstn_lt.
        - apply nth_overflow. rewrite firstn_length. lia. }
      rewrite Hr. destruct (Nat.lt_ge_cases k (degree_of O b + (degree_of O a - degree_of O b + 1))) as [Hk|Hk].
      * now apply H5.
      * rewrite (conv_high O L q' b (degree_of O b)) by (auto; lia).
        destruct (Nat.ltb_spec k (degree_of O b)); [lia|].
        unfold PolyCoeff.coeff. rewrite (proj1 (degree_of_spec O L a)) by lia. ring.
Qed.

Lemma div_full_spec a b q aw : div_full O a b = Ok (q, aw) ->
  (forall x, peval a x = peval q x *f peval b x +f peval (firstn (degree_of O b) aw) x) /\
  degree_of O b < length b /\ nth (degree_of O b) b zero <> zero /\ degree_of O b <= degree_of O a /\
  (a <> [] -> length q = degree_of O a - degree_of O b + 1) /\ (a = [] -> q = []).
Proof.
  intros H. destruct (div_full_guard a b) as (Hd & Hnz & Hn); [rewrite H; discriminate|].
  destruct (div_full_run a b Hd Hnz) as (q' & aw' & E & Hl & He & Hx & _).
  rewrite H in E. inversion E; subst q' aw'. tauto.
Qed.

Lemma div_coeff_spec a b q aw : div_full O a b = Ok (q, aw) ->
  forall k, coeff a k = conv q b k +f coeff (firstn (degree_of O b) aw) k.
Proof.
  intros H. destruct (div_full_guard a b) as (Hd & Hnz & _); [rewrite H; discriminate|].
  destruct (div_full_run a b Hd Hnz) as (q' & aw' & E & _ & _ & _ & Hc).
  rewrite H in E. inversion E; subst q' aw'. exact Hc.
Qed.

(* exact Panic domain: the divisor is not the zero polynomial (incl. empty) and its degree does not exceed
   the dividend's *)
Lemma div_total_iff a b :
  div O a b <> Panic <-> (degree_of O b <= degree_of O a /\ nth (degree_of O b) b zero <> zero).
Proof.
  unfold div. split.
  - intros H. destruct (div_full_guard a b) as (Hd & Hnz & _); [|tauto].
    destruct (div_full O a b); [discriminate|now contradiction H].
  - intros (Hd & Hnz). destruct (div_full_run a b Hd Hnz) as (q & aw & E & _). rewrite E. discriminate.
Qed.

Lemma div_spec a b q : div O a b = Ok q ->
  exists r, length r < length b /\ length r <= degree_of O b /\
            forall x, peval a x = peval q x *f peval b x +f peval r x.
Proof.
  unfold div. intros H. apply bind_ok in H. destruct H as ([q' aw] & H1 & H2). simpl in H2. inversion H2; subst q'.
  destruct (div_full_spec a b q aw H1) as (Hx & Hn & _).
  exists (firstn (degree_of O b) aw). split; [|split]; auto.
  - rewrite firstn_length. lia.
  - rewrite firstn_length. lia.
Qed.

End Div.
