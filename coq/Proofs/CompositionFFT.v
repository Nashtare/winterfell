(* C17 — the capstone's hypotheses about interpolation and about the trace LDE, derived from C09.  `CompositionPoly::new`
   interpolates with fft::get_inv_twiddles + fft::interpolate_poly_with_offset, here the index-level FFT model
   coq/Model/FFT.v, whose round trip (Proofs/FFTOffset.v interpolate_evaluate_with_offset =
   C09_interpolate_with_offset_spec) replaces interp_evals / interp_unique of composition_is_definition_partial; the LDE
   rows are those of the matrix RowMatrix::evaluate_polys_over builds (C09_segments_spec). *)
From Coq Require Import List Arith Bool Lia Ring Field ZArith.
From VBase Require Import FieldOps.
From VModel Require Import Composition.
From VModel Require FFT.
From VProofs Require FFTSpec FFTEval FFTOffset FFTSegments.
From VProofs Require Import ListFacts CompositionBase CompositionIndex CompositionTable.
Import ListNotations.

Section Bridge.
Context {F : Type} (O : FOps F) (L : FLaws O).
Add Ring Fr : (FLaws_ring_theory O L).

Local Notation fz := (fzero O).
Local Notation f1 := (fone O).
Local Infix "*f" := (fmul O) (at level 40, left associativity).

(* the two developments use the same polynomial semantics (the definitions are convertible) *)
Lemma peval_fft p x : FFT.peval O p x = peval O p x.
Proof. reflexivity. Qed.
Lemma fpow_fft x k : FFT.fpow O x k = cpow O x k.
Proof. reflexivity. Qed.

(* CompositionPoly::new: fft::interpolate_poly_with_offset(&mut trace, &inv_twiddles, domain.offset()) — a panic of the
   FFT model (None) is mapped to the empty list, which the theorems below exclude *)
Definition interp_fft (two_adicity : nat) (itw : list F) (offset : F) (evals : list F) : list F :=
  match FFT.interpolate_poly_with_offset O two_adicity evals itw offset with Some c => c | None => [] end.

Variable n ceb : nat.
Variable offset : F.
Variable rou : nat -> F.
Local Notation ce_size := (ce_size n ceb).
Local Notation wce := (wce n ceb rou).
Variable two_adicity K : nat.
Variable itw : list F.
Variable winv : F.
Hypothesis ce_pow2 : ce_size = 2 ^ S K.                               (* the ce domain size is a power of two >= 2 *)
Hypothesis K_adic : S K <= two_adicity.
Hypothesis wce_root : FFTSpec.root_cond O (S K) wce.                      (* w_ce^(|ce|/2) = -1: primitive |ce|-th root *)
Hypothesis winv_spec : wce *f winv = f1.
Hypothesis itw_len : length itw = 2 ^ K.
Hypothesis itw_ok : FFTEval.tw_ok O itw (S K) winv.                  (* what fft::get_inv_twiddles returns (C09_get_inv_twiddles) *)
Hypothesis offset_nz : offset <> fz.
Hypothesis n_invertible : FFTSpec.two_pow_f O (S K) *f FFTOffset.n_inv O (S K) = f1.   (* odd characteristic *)

Lemma interp_fft_roundtrip : forall p, length p = ce_size ->
  interp_fft two_adicity itw offset (map (fun i => peval O p (ce_x O n ceb offset rou i)) (seq 0 ce_size)) = p.
Proof.
  intros p Hp. unfold interp_fft.
  assert (E : map (fun i => peval O p (ce_x O n ceb offset rou i)) (seq 0 ce_size)
              = map (fun i => FFT.peval O p (offset *f FFT.fpow O wce i)) (seq 0 (2 ^ S K))).
  { rewrite ce_pow2. apply map_ext. intros i.
    transitivity (peval O p (offset *f cpow O wce i)); [f_equal; unfold ce_x; ring | reflexivity]. }
  rewrite E.
  rewrite (FFTOffset.interpolate_evaluate_with_offset O L two_adicity itw K wce winv offset p); try assumption.
  - reflexivity.
  - now rewrite <- ce_pow2.
Qed.

(* root_cond implies the weaker hypothesis wce_order of CompositionIndex *)
Lemma wce_order_from_root : cpow O wce ce_size = f1.
Proof.
  rewrite ce_pow2. cbn [FFTSpec.root_cond] in wce_root. change (cpow O wce (2 ^ K) = fneg O f1) in wce_root.
  replace (2 ^ S K) with (2 ^ K + 2 ^ K) by (cbn; lia).
  rewrite (cpow_add O L), wce_root. ring.
Qed.
End Bridge.

Section Capstone.
Context {F : Type} (O : FOps F) (L : FLaws O).
Local Notation fz := (fzero O).
Local Notation f1 := (fone O).
Local Infix "*f" := (fmul O) (at level 40, left associativity).

Variable n ceb ldeb r : nat.
Variable offset : F.
Variable rou : nat -> F.
Variable wlde ginv : F.
Hypothesis n_pos : n <> 0.
Hypothesis ceb_pos : ceb <> 0.
Hypothesis r_pos : r <> 0.
Hypothesis ldeb_eq : ldeb = ceb * r.
Local Notation ce_size := (ce_size n ceb).
Local Notation wce := (wce n ceb rou).
Hypothesis wlde_order : cpow O wlde (lde_size n ldeb) = f1.
Hypothesis wlde_wce : cpow O wlde r = wce.
Hypothesis wlde_g : cpow O wlde ldeb = gtrace n rou.
Hypothesis ginv_spec : ginv *f gtrace n rou = f1.

Variable num_main : nat.
Variable tmain : list F -> list F -> list F -> list F.
Variable taux : list F -> list F -> list F -> list F -> list F -> list F -> list F.
Variable ppolys : list (list F).
Variable exemptions : nat.
Variable tcoef : list F.
Variable main_groups aux_groups : list (@BGroup F).
Variable rands : list F.
Variable tpolys apolys lde_main lde_aux : list (list F).
Hypothesis tmain_len : forall cur nxt pv, length (tmain cur nxt pv) = num_main.
Hypothesis exemptions_le : exemptions <= n.
Hypothesis poly_len_pos : forall p, In p ppolys -> length p <> 0.
Hypothesis poly_len_div_n : forall p, In p ppolys -> length p * (n / length p) = n.
Hypothesis poly_len_div_max : forall p, In p ppolys -> exists q, fold_left Nat.max (map (@length F) ppolys) 0 = length p * q.
Hypothesis rou_compat : forall p, In p ppolys -> rou (length p * ceb) = cpow O wce (n / length p).
Hypothesis main_ok : forall g, In g main_groups ->
  div_ok n ceb (bg_div g) /\ forall c, In c (bg_cs g) -> bc_ok O n ceb ginv tpolys c.
Hypothesis lde_main_ok : lde_rows_of O n ldeb offset wlde lde_main tpolys.

(* interpolation: the FFT model with what get_inv_twiddles returns *)
Variable two_adicity K : nat.
Variable rouk : nat -> F.                                       (* B::get_root_of_unity by log2 of the size *)
Variable itw : list F.
Hypothesis ce_pow2 : ce_size = 2 ^ S K.
Hypothesis K_adic : S K <= two_adicity.
Hypothesis rouk_ce : rouk (S K) = wce.
Hypothesis wce_root : FFTSpec.root_cond O (S K) wce.
Hypothesis itw_get : FFT.get_inv_twiddles O two_adicity rouk (2 ^ S K) = Some itw.   (* fft::get_inv_twiddles(trace.len()) *)
Hypothesis offset_nz : offset <> fz.
Hypothesis n_invertible : FFTSpec.two_pow_f O (S K) *f FFTOffset.n_inv O (S K) = f1.

Local Notation winv := (FFT.fpow O wce (2 ^ S K - 1)).
Lemma itw_facts : length itw = 2 ^ K /\ FFTEval.tw_ok O itw (S K) winv /\ wce *f winv = f1.
Proof.
  destruct (FFTOffset.get_inv_twiddles_correct O L two_adicity rouk K wce K_adic rouk_ce wce_root) as [itw' [E [H1 [H2 H3]]]].
  rewrite itw_get in E. inversion E; subst itw'. auto.
Qed.

(* "deg comp_def < |ce|": a coefficient list for comp_def off the divisor zeros *)
Variable good : F -> Prop.
Variable q : list F.
Variable num_cols : nat.
Hypothesis ce_good : forall i, i < ce_size -> good (ce_x O n ceb offset rou i).
Hypothesis q_len_ce : length q <= ce_size.
Hypothesis q_len_cols : length q <= num_cols * n.
Hypothesis n_lt_ce : n < ce_size.

Local Notation comp_def has_aux :=
  (comp_def O n rou tmain taux ppolys exemptions tcoef main_groups aux_groups rands has_aux tpolys apolys).
Local Notation evaluate has_aux :=
  (evaluate O n ceb ldeb offset rou num_main tmain taux ppolys exemptions tcoef main_groups aux_groups rands has_aux
            lde_main lde_aux (fun _ v => v)).
Local Notation interp := (interp_fft O two_adicity itw offset).

(* both prover paths: once the table holds comp_def on the ce coset, the interpolation gives back q and the column split
   recombines to it *)
Lemma composition_is_definition_table has_aux :
  evaluate has_aux = Some (map (fun i => comp_def has_aux (ce_x O n ceb offset rou i)) (seq 0 ce_size)) ->
  (forall z, good z -> peval O q z = comp_def has_aux z) ->
  exists evals cols,
    evaluate has_aux = Some evals
    /\ composition_poly_new n interp evals num_cols = Some cols
    /\ (forall z, recombine O n (cp_evaluate_at O cols z) z = peval O q z)
    /\ (forall z, good z -> recombine O n (cp_evaluate_at O cols z) z = comp_def has_aux z).
Proof.
  intros Htab Hq. destruct itw_facts as [H1 [H2 H3]].
  apply (composition_core O L n ceb offset rou interp _ (comp_def has_aux) good q num_cols n_pos n_lt_ce); try assumption.
  apply (interp_fft_roundtrip O L n ceb offset rou two_adicity K itw winv); assumption.
Qed.

Section WithAux.
Hypothesis aux_ok : forall g, In g aux_groups ->
  div_ok n ceb (bg_div g) /\ forall c, In c (bg_cs g) -> bc_ok O n ceb ginv apolys c.
Hypothesis lde_aux_ok : lde_rows_of O n ldeb offset wlde lde_aux apolys.
Hypothesis q_is_def : forall z, good z -> peval O q z = comp_def true z.

Theorem composition_is_definition_aux :
  exists evals cols,
    evaluate true = Some evals
    /\ composition_poly_new n interp evals num_cols = Some cols
    /\ (forall z, recombine O n (cp_evaluate_at O cols z) z = peval O q z)
    /\ (forall z, good z -> recombine O n (cp_evaluate_at O cols z) z = comp_def true z).
Proof.
  apply composition_is_definition_table; [|exact q_is_def].
  apply (evaluate_spec_aux O L n ceb ldeb r offset rou wlde ginv); assumption.
Qed.
End WithAux.

End Capstone.

(* what CompositionPoly::new's interpolation needs: the ce domain is a power of two within the field's two-adicity, w_ce is the
   root get_root_of_unity returns for it, itw is what fft::get_inv_twiddles returns, odd characteristic *)
Record FftSetting {F : Type} (O : FOps F) (n ceb : nat) (offset : F) (rou : nat -> F) (two_adicity K : nat) (rouk : nat -> F)
  (itw : list F) : Prop := mkFftSetting {
  fs_ce_pow2 : ce_size n ceb = 2 ^ S K;
  fs_K_adic : S K <= two_adicity;
  fs_rouk_ce : rouk (S K) = wce n ceb rou;
  fs_wce_root : FFTSpec.root_cond O (S K) (wce n ceb rou);
  fs_itw_get : FFT.get_inv_twiddles O two_adicity rouk (2 ^ S K) = Some itw;
  fs_offset_nz : offset <> fzero O;
  fs_n_invertible : fmul O (FFTSpec.two_pow_f O (S K)) (FFTOffset.n_inv O (S K)) = fone O
}.

Lemma fft_setting_roundtrip {F : Type} (O : FOps F) (L : FLaws O) {n ceb offset rou two_adicity K rouk itw} :
  FftSetting O n ceb offset rou two_adicity K rouk itw ->
  forall p, length p = ce_size n ceb ->
  interp_fft O two_adicity itw offset (map (fun i => peval O p (ce_x O n ceb offset rou i)) (seq 0 (ce_size n ceb))) = p.
Proof.
  intros [Hpow Hadic Hrouk Hroot Hget Hoff Hinv].
  destruct (itw_facts O L n ceb rou two_adicity K rouk itw Hadic Hrouk Hroot Hget) as [I1 [I2 I3]].
  exact (interp_fft_roundtrip O L n ceb offset rou two_adicity K itw _ Hpow Hadic Hroot I3 I1 I2 Hoff Hinv).
Qed.

(* the hypothesis lde_rows_of of CompositionTable, from C09_segments_spec *)
Section LdeRows.
Context {F : Type} (O : FOps F) (L : FLaws O).
Add Ring Fr2 : (FLaws_ring_theory O L).
Local Notation fz := (fzero O).

(* RowMatrix::row(r): the elements_per_row values of row r, as read by DefaultTraceLde::read_main_trace_frame_into *)
Definition rows_of_matrix (M : @FFT.RowMatrix F) : list (list F) :=
  map (fun r => map (fun c => match FFT.rm_get O M c r with Some v => v | None => fz end)
                    (seq 0 (FFT.rm_elements_per_row M)))
      (seq 0 (FFT.rm_num_rows M)).

Lemma lde_rows_from_matrix n ldeb offset wlde polys M :
  FFT.rm_num_rows M = lde_size n ldeb -> FFT.rm_elements_per_row M = length polys ->
  (forall c r, c < length polys -> r < lde_size n ldeb ->
     FFT.rm_get O M c r = Some (FFT.peval O (nth c polys []) (fmul O offset (FFT.fpow O wlde r)))) ->
  lde_rows_of O n ldeb offset wlde (rows_of_matrix M) polys.
Proof.
  intros Hr Hc Hget. unfold rows_of_matrix. rewrite Hr, Hc. split; [now rewrite map_length, seq_length|].
  intros j Hj. rewrite nth_error_map_seq by exact Hj. f_equal.
  apply nth_ext with (d := fz) (d' := fz); [now rewrite !map_length, seq_length|].
  rewrite map_length, seq_length. intros c Hcl.
  rewrite nth_map_seq, (Hget c j Hcl Hj) by exact Hcl.
  rewrite (nth_indep _ fz ((fun T => peval O T (fmul O (cpow O wlde j) offset)) [])) by (now rewrite map_length).
  rewrite (map_nth (fun T => peval O T (fmul O (cpow O wlde j) offset)) polys [] c).
  change (FFT.peval O (nth c polys []) (fmul O offset (FFT.fpow O wlde j)))
    with (peval O (nth c polys []) (fmul O offset (cpow O wlde j))).
  f_equal. ring.
Qed.

(* the matrix RowMatrix::evaluate_polys_over builds (DefaultTraceLde::new -> build_trace_commitment) has these rows *)
Theorem lde_rows_from_segments (root_of_unity : nat -> F) (Nseg : nat) (polys : list (list F)) (tw : list F) (K b : nat)
  (wlde offset : F) (n ldeb : nat) :
  n = 2 ^ S K -> ldeb = 2 ^ b ->
  0 < Nseg -> polys <> [] -> (forall p, In p polys -> length p = 2 ^ S K) -> length tw = 2 ^ K -> 0 < b ->
  root_of_unity (S K + b) = wlde -> FFTSpec.root_cond O (S K + b) wlde -> FFTEval.tw_ok O tw (S K) (FFT.fpow O wlde (2 ^ b)) ->
  exists M, FFT.evaluate_polys_over O root_of_unity Nseg polys tw offset (2 ^ b) = Some M /\
            lde_rows_of O n ldeb offset wlde (rows_of_matrix M) polys.
Proof.
  intros Hn Hl HN Hp Hlen Htw Hb Hr Hroot Hok.
  destruct (FFTSegments.segments_correct O L root_of_unity Nseg polys tw K b wlde offset HN Hp Hlen Htw Hb Hr Hroot Hok)
    as [M [HM [Hrows [Hcols Hget]]]].
  exists M. split; [exact HM|].
  assert (E : lde_size n ldeb = 2 ^ (S K + b)) by (unfold lde_size; rewrite Hn, Hl, Nat.pow_add_r; reflexivity).
  apply lde_rows_from_matrix; [now rewrite E | exact Hcols |].
  intros c r Hc Hrr. apply Hget; [exact Hc | now rewrite <- E].
Qed.
End LdeRows.
