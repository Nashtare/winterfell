(* C14 — the remaining task decompositions: RowMatrix::transpose (every result cell written exactly once, for every
   thread count, once the number of batches is bounded by the number of rows — and NOT before that repair),
   the fragments of the constraint evaluation table, and the proof-of-work nonce search (find_any). *)
From Coq Require Import List Arith Bool Lia Permutation Ring Field.
From VBase Require Import FieldOps.
From VModel Require Import FFT Par.
From VProofs Require Import ListFacts Pow2Facts ParBatch.
Import ListNotations.

(* ================================================================ arithmetic / list helpers *)
Lemma min_pow2 a b : Nat.min (2 ^ a) (2 ^ b) = 2 ^ Nat.min a b.
Proof.
  destruct (Nat.le_ge_cases a b) as [H|H].
  - rewrite (Nat.min_l a b) by exact H. apply Nat.min_l. apply Nat.pow_le_mono_r; [discriminate|exact H].
  - rewrite (Nat.min_r a b) by exact H. apply Nat.min_r. apply Nat.pow_le_mono_r; [discriminate|exact H].
Qed.

Lemma div_mul3 nb rpb sg : nb <> 0 -> nb * rpb * sg / nb = rpb * sg.
Proof. intros H. replace (nb * rpb * sg) with (rpb * sg * nb) by ring. apply Nat.div_mul. exact H. Qed.

Lemma get_num_batches_pow2 conc n T : exists x, get_num_batches conc n T = 2 ^ x.
Proof.
  unfold get_num_batches. destruct conc; [|exists 0; reflexivity].
  destruct (n <? 1024); [exists 0; reflexivity|].
  exists (S (Nat.log2_up T)). unfold npo2. rewrite Nat.pow_succ_r'. apply Nat.mul_comm.
Qed.

(* ================================================================ RowMatrix::transpose *)
(* the concurrent branch with nb batches of rpb rows each *)
Lemma transpose_conc_core sg nb rpb : 1 <= sg -> 1 <= rpb ->
  exists p,
    match par_chunks (nb * rpb * sg) (rpb * sg) with
    | Panic => @Panic (list (list (nat * nat * nat)))
    | Done cs =>
        Done (map (fun kc : nat * (nat * nat) =>
                     flat_map (fun i => map (fun j => (fst (snd kc) + (i * sg + j), i + fst kc * rpb, j)) (seq 0 sg))
                              (seq 0 rpb))
                  (combine (seq 0 (length cs)) cs))
    end = Done p /\ concat p = transpose_spec (nb * rpb) sg.
Proof.
  intros Hsg Hr. rewrite <- Nat.mul_assoc. rewrite par_chunks_exact by nia.
  rewrite map_length, seq_length. rewrite combine_map_self, map_map. cbn [fst snd].
  eexists. split; [reflexivity|].
  rewrite <- flat_map_concat_map. unfold transpose_spec. rewrite flat_map_tiles.
  apply flat_map_ext. intros k. rewrite (flat_map_seq_shift _ (k * rpb)). apply flat_map_ext. intros i. apply map_ext. intros j.
  f_equal. f_equal; ring.
Qed.

Lemma transpose_gen_pow2 (bounded : bool) kr m sg T : 2 <= sg -> m <= kr ->
  (if bounded then Nat.min (get_num_batches true (2 ^ kr * sg) T) (2 ^ kr) else get_num_batches true (2 ^ kr * sg) T) = 2 ^ m ->
  exists p, transpose_plan_gen bounded true (2 ^ kr) sg T = Done p /\ concat p = transpose_spec (2 ^ kr) sg.
Proof.
  intros Hsg Hm Hnb. unfold transpose_plan_gen.
  destruct (Nat.eqb_spec sg 1) as [->|_]; [lia|].
  cbv zeta. rewrite Hnb. rewrite (pow2_split kr m Hm).
  pose proof (pow2_pos m) as Hp1. pose proof (pow2_pos (kr - m)) as Hp2.
  set (nb := 2 ^ m) in *. set (rpb := 2 ^ (kr - m)) in *.
  assert (E1 : nb * rpb / nb = rpb) by (rewrite Nat.mul_comm; apply Nat.div_mul; lia). rewrite E1.
  rewrite div_mul3 by lia.
  apply transpose_conc_core; lia.
Qed.

Theorem transpose_plan_spec kr num_segs T conc : 2 <= num_segs ->
  exists p, transpose_plan conc (2 ^ kr) num_segs T = Done p /\ concat p = transpose_spec (2 ^ kr) num_segs.
Proof.
  intros HS. unfold transpose_plan. destruct conc.
  - destruct (get_num_batches_pow2 true (2 ^ kr * num_segs) T) as [x Hx].
    apply (transpose_gen_pow2 true kr (Nat.min x kr)); [exact HS|apply Nat.le_min_r|].
    rewrite Hx. apply min_pow2.
  - unfold transpose_plan_gen. destruct (Nat.eqb_spec num_segs 1) as [->|_]; [lia|].
    cbv zeta. change (get_num_batches false (2 ^ kr * num_segs) T) with 1.
    pose proof (pow2_pos kr) as Hp. rewrite Nat.min_l by exact Hp. rewrite Nat.div_1_r.
    eexists. split; [reflexivity|]. cbn [concat]. rewrite app_nil_r. unfold transpose_spec.
    apply flat_map_ext. intros i. apply map_ext. intros j. f_equal. f_equal. lia.
Qed.

Theorem transpose_plan_single_segment conc rows T : transpose_plan conc rows 1 T = Done [].
Proof. reflexivity. Qed.

(* the code before the repair: more batches than rows => zero rows per batch => nothing is written *)
Theorem transpose_unbounded_refuted : exists rows segs T p,
  T <= 64 /\ 1024 <= rows * segs /\ transpose_plan_unbounded true rows segs T = Done p /\ plan_cells p = [] /\
  transpose_spec rows segs <> [].
Proof.
  exists 64, 16, 33, (repeat [] 128).
  split; [lia|]. split; [apply Nat.leb_le; vm_compute; reflexivity|].
  split; [vm_compute; reflexivity|]. split; [vm_compute; reflexivity|].
  intros H. apply (f_equal (@length _)) in H. vm_compute in H. discriminate.
Qed.

Theorem transpose_unbounded_ok kr num_segs T : 2 <= num_segs ->
  get_num_batches true (2 ^ kr * num_segs) T <= 2 ^ kr ->
  exists p, transpose_plan_unbounded true (2 ^ kr) num_segs T = Done p /\ concat p = transpose_spec (2 ^ kr) num_segs.
Proof.
  intros HS Hle. destruct (get_num_batches_pow2 true (2 ^ kr * num_segs) T) as [x Hx].
  rewrite Hx in Hle. apply Nat.pow_le_mono_r_iff in Hle; [|lia].
  apply (transpose_gen_pow2 false kr x); assumption.
Qed.

(* every result cell is written exactly once: the cells written, in batch order, are 0, 1, ..., rows*segs - 1 *)
Lemma transpose_spec_cells rows segs : map (fun t => fst (fst t)) (transpose_spec rows segs) = seq 0 (rows * segs).
Proof.
  unfold transpose_spec. rewrite <- flat_map_map_comm.
  assert (E : forall n, flat_map (fun x => [x]) (seq 0 n) = seq 0 n).
  { intros n. generalize 0. induction n as [|n IH]; intros o; cbn; [reflexivity|]. rewrite IH. reflexivity. }
  rewrite <- (E (rows * segs)), flat_map_tiles.
  apply flat_map_ext. intros r. rewrite map_map, (flat_map_seq_shift _ (r * segs)). cbn [fst].
  induction (seq 0 segs) as [|j l IH]; cbn; [reflexivity|]. rewrite IH. reflexivity.
Qed.

Corollary transpose_plan_cells kr num_segs T conc : 2 <= num_segs ->
  exists p, transpose_plan conc (2 ^ kr) num_segs T = Done p /\ plan_cells p = seq 0 (2 ^ kr * num_segs).
Proof.
  intros HS. destruct (transpose_plan_spec kr num_segs T conc HS) as (p & E & Hp).
  exists p. split; [exact E|]. rewrite <- transpose_spec_cells, <- Hp. unfold plan_cells.
  rewrite flat_map_concat_map, concat_map. reflexivity.
Qed.

(* ================================================================ constraint-evaluation fragments *)
Lemma fragment_plan_pow2 (conc : bool) k a T :
  (if conc then if 8 * 1024 <=? 2 ^ k then npo2 T else 1 else 1) = 2 ^ a -> a + 4 <= k ->
  exists cs, fragment_plan conc (2 ^ k) T = Done cs /\ covers (2 ^ k) cs /\ Forall (fun c => snd c = 2 ^ (k - a)) cs.
Proof.
  intros Hnf Ha. unfold fragment_plan. cbv zeta. rewrite Hnf.
  assert (Hm : a <= k) by lia. rewrite (pow2_split k a Hm).
  pose proof (pow2_pos a) as Hp1. pose proof (pow2_pos (k - a)) as Hp2.
  assert (H16 : 16 <= 2 ^ (k - a)).
  { change 16 with (2 ^ 4). apply Nat.pow_le_mono_r; [discriminate|lia]. }
  set (nf := 2 ^ a) in *. set (fs := 2 ^ (k - a)) in *.
  assert (E1 : nf * fs / nf = fs) by (rewrite Nat.mul_comm; apply Nat.div_mul; lia). rewrite E1.
  destruct (Nat.ltb_spec fs 16) as [Hlt|_]; [lia|].
  destruct (par_chunks_spec (nf * fs) fs) as (cs & E & C & _); [lia|].
  rewrite par_chunks_exact in E |- * by lia. inversion E; subst cs.
  rewrite map_length, seq_length, Nat.eqb_refl.
  eexists. split; [reflexivity|]. split; [exact C|].
  apply Forall_forall. intros c Hc. apply in_map_iff in Hc. destruct Hc as (i & <- & _). reflexivity.
Qed.

Theorem fragment_plan_spec conc k T : 4 <= k -> (conc = true -> 13 <= k -> npo2 T * 16 <= 2 ^ k) ->
  exists cs, fragment_plan conc (2 ^ k) T = Done cs /\ covers (2 ^ k) cs /\ (exists sz, Forall (fun c => snd c = sz) cs).
Proof.
  intros Hk Hc.
  assert (H : exists a, (if conc then if 8 * 1024 <=? 2 ^ k then npo2 T else 1 else 1) = 2 ^ a /\ a + 4 <= k).
  { destruct conc; [|exists 0; split; [reflexivity|lia]].
    change (8 * 1024) with (2 ^ 13). destruct (Nat.leb_spec (2 ^ 13) (2 ^ k)) as [Hle|_]; [|exists 0; split; [reflexivity|lia]].
    apply Nat.pow_le_mono_r_iff in Hle; [|lia].
    exists (Nat.log2_up T). split; [reflexivity|].
    specialize (Hc eq_refl Hle). unfold npo2 in Hc. change 16 with (2 ^ 4) in Hc. rewrite <- Nat.pow_add_r in Hc.
    apply Nat.pow_le_mono_r_iff in Hc; [exact Hc|lia]. }
  destruct H as (a & Hnf & Ha).
  destruct (fragment_plan_pow2 conc k a T Hnf Ha) as (cs & E & C & Fa).
  exists cs. split; [exact E|]. split; [exact C|]. exists (2 ^ (k - a)). exact Fa.
Qed.

Corollary fragment_plan_T_le_64 conc k T : 4 <= k -> T <= 64 ->
  exists cs, fragment_plan conc (2 ^ k) T = Done cs /\ covers (2 ^ k) cs.
Proof.
  intros Hk HT. destruct (fragment_plan_spec conc k T Hk) as (cs & E & C & _).
  - intros _ H13. pose proof (npo2_le_64 T HT) as Hn.
    apply Nat.le_trans with (2 ^ 10); [change (2 ^ 10) with (64 * 16); lia|].
    apply Nat.pow_le_mono_r; [discriminate|lia].
  - exists cs. split; assumption.
Qed.

(* more (rounded-up) threads than ce_domain_size / 16: the MIN_FRAGMENT_SIZE assertion fires *)
Example fragment_plan_panics : fragment_plan true (2 ^ 13) 1025 = Panic.
Proof. vm_compute. reflexivity. Qed.

Example fragment_plan_8192_T3 :
  fragment_plan true (2 ^ 13) 3 = Done (map (fun k => (k * 2048, 2048)) [0; 1; 2; 3]).
Proof. vm_compute. reflexivity. Qed.

(* ================================================================ proof-of-work nonce *)
Section NonceProofs.
Variable leading_zeros : nat -> nat.

Lemma pow_ok_verifier g x : verifier_pow_accepts leading_zeros g x = pow_ok leading_zeros g x.
Proof. unfold verifier_pow_accepts, pow_ok. rewrite Nat.ltb_antisym, negb_involutive. reflexivity. Qed.

Theorem nonce_any_spec g order x : find_any_sched leading_zeros g order = Some x ->
  In x order /\ pow_ok leading_zeros g x = true /\ verifier_pow_accepts leading_zeros g x = true.
Proof.
  unfold find_any_sched. intros H. apply find_some in H. destruct H as [Hin Hok].
  split; [exact Hin|]. split; [exact Hok|]. rewrite pow_ok_verifier. exact Hok.
Qed.

Theorem nonce_none_spec g order : find_any_sched leading_zeros g order = None ->
  forall x, In x order -> verifier_pow_accepts leading_zeros g x = false.
Proof.
  unfold find_any_sched. intros H x Hin. rewrite pow_ok_verifier. exact (find_none _ _ H x Hin).
Qed.

Theorem nonce_serial_is_one_schedule g bound :
  find_first leading_zeros g bound = find_any_sched leading_zeros g (seq 1 bound).
Proof. reflexivity. Qed.

Theorem nonce_grinding_zero_any x : verifier_pow_accepts leading_zeros 0 x = true.
Proof. unfold verifier_pow_accepts. destruct (Nat.ltb_spec (leading_zeros x) 0); [lia|reflexivity]. Qed.
End NonceProofs.

(* the ONLY legitimate source of run-to-run difference: which satisfying nonce find_any reports *)
Theorem nonce_schedules_may_differ : exists lz g o1 o2 x y,
  find_any_sched lz g o1 = Some x /\ find_any_sched lz g o2 = Some y /\ x <> y /\ Permutation o1 o2.
Proof.
  exists (fun _ => 0), 0, [1; 2], [2; 1], 1, 2.
  split; [reflexivity|]. split; [reflexivity|]. split; [discriminate|]. apply perm_swap.
Qed.
