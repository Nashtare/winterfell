(* C09/C14: the in-place transpositions of math/src/fft/concurrent.rs (transpose_square_1: 2x2 blocks,
   transpose_square_2: 1x2 blocks, both sequences of swaps over the upper triangle) equal the transposition by
   index specification `transpose_spec`, for every (even, for stretch 1) size.  Generic argument: a fold of cell
   swaps (r,c) <-> (c,r) over a duplicate-free list of upper-triangular coordinates transposes exactly the listed
   cells; each loop nest enumerates every pair r < c < size exactly once.  No field law. *)
From Coq Require Import List Arith Bool ZArith Lia.
From VBase Require Import FieldOps.
From VModel Require Import FFT FFTSplit.
From VProofs Require Import ListFacts Pow2Facts FFTSpec FFTEval.
From VProofs Require FFTSplit.
Import ListNotations.

Lemma cell_inj size r c r' c' : c < size -> c' < size -> r * size + c = r' * size + c' -> r = r' /\ c = c'.
Proof.
  intros Hc Hc' E. assert (r = r') by nia. subst. lia.
Qed.

Section Transpose.
Context {F : Type} (O : FOps F).
Local Notation fz := (fzero O).

(* membership of the unordered pair {r, c} in a list of upper-triangular coordinates *)
Definition memp (pairs : list (nat * nat)) (r c : nat) : bool :=
  existsb (fun p => (fst p =? Nat.min r c) && (snd p =? Nat.max r c)) pairs.

Lemma memp_In pairs r c : memp pairs r c = true <-> In (Nat.min r c, Nat.max r c) pairs.
Proof.
  unfold memp. rewrite existsb_exists. split.
  - intros ([a b] & Hin & Hb). cbn [fst snd] in Hb. apply andb_prop in Hb. destruct Hb as [Ea Eb].
    apply Nat.eqb_eq in Ea, Eb. subst. exact Hin.
  - intros Hin. exists (Nat.min r c, Nat.max r c). split; [exact Hin|]. cbn [fst snd]. rewrite !Nat.eqb_refl. reflexivity.
Qed.

Lemma memp_sym pairs r c : memp pairs r c = memp pairs c r.
Proof. unfold memp. rewrite Nat.min_comm, Nat.max_comm. reflexivity. Qed.

Lemma memp_cons p pairs r c : memp (p :: pairs) r c = memp [p] r c || memp pairs r c.
Proof. unfold memp. cbn [existsb]. rewrite orb_false_r. reflexivity. Qed.

Lemma memp_single r0 c0 r c : r0 < c0 ->
  reflect ((r = r0 /\ c = c0) \/ (r = c0 /\ c = r0)) (memp [(r0, c0)] r c).
Proof.
  intros H0. apply iff_reflect. rewrite memp_In. cbn [In]. split.
  - intros [[-> ->] | [-> ->]]; left; f_equal; lia.
  - intros [E | []]. injection E. lia.
Qed.

Section Generic.
Variable st : nat.
Variable cs : list F -> nat -> nat -> list F.          (* swap of two cells of `st` consecutive elements *)
Hypothesis cs_length : forall v a b, length (cs v a b) = length v.
Hypothesis cs_nth : forall C v a b q e, a <> b -> a < C -> b < C -> length v = C * st -> q < C -> e < st ->
  nth (q * st + e) (cs v a b) fz = nth ((if q =? a then b else if q =? b then a else q) * st + e) v fz.

(* one swap, read in (row, column) coordinates *)
Lemma cs_cell_nth size v r0 c0 r c e :
  r0 < c0 < size -> length v = size * size * st -> r < size -> c < size -> e < st ->
  nth ((r * size + c) * st + e) (cs v (r0 * size + c0) (c0 * size + r0)) fz =
    if memp [(r0, c0)] r c then nth ((c * size + r) * st + e) v fz else nth ((r * size + c) * st + e) v fz.
Proof.
  intros H0 Hl Hr Hc He.
  assert (Hab : r0 * size + c0 <> c0 * size + r0) by (intros E; apply cell_inj in E; lia).
  rewrite (cs_nth (size * size)) by (assumption || nia).
  destruct (memp_single r0 c0 r c (proj1 H0)) as [[[-> ->] | [-> ->]] | Hn].
  - rewrite Nat.eqb_refl. reflexivity.
  - destruct (Nat.eqb_spec (c0 * size + r0) (r0 * size + c0)) as [E | _]; [congruence|].
    rewrite Nat.eqb_refl. reflexivity.
  - destruct (Nat.eqb_spec (r * size + c) (r0 * size + c0)) as [E | _]; [apply cell_inj in E; [tauto | lia | lia]|].
    destruct (Nat.eqb_spec (r * size + c) (c0 * size + r0)) as [E | _]; [apply cell_inj in E; [tauto | lia | lia]|].
    reflexivity.
Qed.

Lemma fold_cells size : forall pairs v,
  NoDup pairs -> (forall p, In p pairs -> fst p < snd p < size) -> length v = size * size * st ->
  let v' := fold_left (fun v p => cs v (fst p * size + snd p) (snd p * size + fst p)) pairs v in
  length v' = length v /\
  forall r c e, r < size -> c < size -> e < st ->
    nth ((r * size + c) * st + e) v' fz =
      if memp pairs r c then nth ((c * size + r) * st + e) v fz else nth ((r * size + c) * st + e) v fz.
Proof.
  induction pairs as [|[r0 c0] pairs IH]; intros v Hnd Hup Hl; cbv zeta.
  - cbn. split; [reflexivity|]. intros; reflexivity.
  - cbn [fold_left fst snd]. inversion Hnd as [|? ? Hnotin Hnd']; subst.
    assert (H0 : r0 < c0 < size) by (apply (Hup (r0, c0)); left; reflexivity).
    set (v1 := cs v (r0 * size + c0) (c0 * size + r0)).
    assert (Hl1 : length v1 = size * size * st) by (unfold v1; rewrite cs_length; exact Hl).
    destruct (IH v1 Hnd' (fun p Hp => Hup p (or_intror Hp)) Hl1) as [IL IN]. cbv zeta in IL, IN.
    split; [rewrite IL; apply cs_length|].
    intros r c e Hr Hc He. rewrite IN by assumption. unfold v1. rewrite !cs_cell_nth by assumption.
    rewrite (memp_cons _ pairs), (memp_sym _ c r).
    destruct (memp_single r0 c0 r c (proj1 H0)) as [Hhead | _]; [|reflexivity].
    (* {r,c} = {r0,c0} does not occur again in the tail (NoDup), whose fold thus leaves the swapped cell alone *)
    destruct (memp pairs r c) eqn:Em; [exfalso | reflexivity].
    apply memp_In in Em. replace (Nat.min r c, Nat.max r c) with (r0, c0) in Em by (f_equal; lia).
    exact (Hnotin Em).
Qed.

(* a complete duplicate-free enumeration of the upper triangle transposes the matrix *)
Lemma fold_cells_transpose size pairs v :
  NoDup pairs -> (forall p, In p pairs -> fst p < snd p < size) ->
  (forall r c, r < c < size -> In (r, c) pairs) -> length v = size * size * st ->
  fold_left (fun v p => cs v (fst p * size + snd p) (snd p * size + fst p)) pairs v = transpose_spec O size st v.
Proof.
  intros Hnd Hup Hall Hl.
  destruct (fold_cells size pairs v Hnd Hup Hl) as [L N]. cbv zeta in L, N.
  apply nth_ext with (d := fz) (d' := fz); [rewrite L; unfold transpose_spec; rewrite map_length, seq_length; reflexivity|].
  rewrite L, Hl. intros p Hp.
  destruct (idx_split p (size * size) st Hp) as (Ep & Hq & He). set (q := p / st) in *.
  destruct (idx_split q size size Hq) as (Eq & Hr & Hc).
  rewrite Ep, Eq. set (r := q / size) in *. set (c := q mod size) in *. set (e := p mod st) in *.
  rewrite N by assumption.
  rewrite (VProofs.FFTSplit.transpose_spec_nth O size st v r c e) by assumption.
  destruct (memp pairs r c) eqn:Em; [reflexivity|].
  destruct (Nat.eq_dec r c) as [-> | Hrc]; [reflexivity|].
  apply not_true_iff_false in Em. exfalso. apply Em, memp_In, Hall. lia.
Qed.

End Generic.

Ltac eqb_cases :=
  repeat match goal with
  | |- context [?x =? ?y] => destruct (Nat.eqb_spec x y); try lia
  end.

(* ---------------------------------------------------------------- stretch 2: cells of two elements *)
Definition cs2 (v : list F) (a b : nat) : list F := swap O (swap O v (a * 2) (b * 2)) (a * 2 + 1) (b * 2 + 1).

Lemma cs2_length v a b : length (cs2 v a b) = length v.
Proof. unfold cs2. rewrite !swap_length. reflexivity. Qed.

Lemma cs2_nth C v a b q e : a <> b -> a < C -> b < C -> length v = C * 2 -> q < C -> e < 2 ->
  nth (q * 2 + e) (cs2 v a b) fz = nth ((if q =? a then b else if q =? b then a else q) * 2 + e) v fz.
Proof.
  intros Hab Ha Hb Hl Hq He. unfold cs2.
  rewrite swap_nth by (rewrite ?swap_length; lia). rewrite !swap_nth by lia.
  eqb_cases; try reflexivity; f_equal; lia.
Qed.

Definition pairs2 (size : nat) : list (nat * nat) :=
  flat_map (fun row => map (fun u => (row, row + 1 + u)) (seq 0 (size - row - 1))) (seq 0 size).

Lemma transpose_square_2_fold m size :
  transpose_square_2 O m size
  = fold_left (fun v p => cs2 v (fst p * size + snd p) (snd p * size + fst p)) (pairs2 size) m.
Proof.
  unfold pairs2. rewrite fold_left_flat_map. unfold transpose_square_2.
  apply fold_left_ext_in. intros a row _. rewrite fold_left_map. reflexivity.
Qed.

Lemma pairs2_ok size :
  NoDup (pairs2 size) /\ (forall p, In p (pairs2 size) -> fst p < snd p < size) /\
  (forall r c, r < c < size -> In (r, c) (pairs2 size)).
Proof.
  unfold pairs2. split; [|split].
  - apply (NoDup_flat_map_key fst); [apply seq_NoDup | |].
    + intros row _. apply FinFun.Injective_map_NoDup; [|apply seq_NoDup].
      intros u u' E. inversion E. lia.
    + intros row p _ Hp. apply in_map_iff in Hp. destruct Hp as (u & <- & _). reflexivity.
  - intros p Hp. apply in_flat_map in Hp. destruct Hp as (row & Hrow & Hp). apply in_seq in Hrow.
    apply in_map_iff in Hp. destruct Hp as (u & <- & Hu). apply in_seq in Hu. cbn [fst snd]. lia.
  - intros r c Hrc. apply in_flat_map. exists r. split; [apply in_seq; lia|].
    apply in_map_iff. exists (c - r - 1). split; [f_equal; lia | apply in_seq; lia].
Qed.

Theorem transpose_square_2_spec m size : length m = size * size * 2 ->
  transpose_square_2 O m size = transpose_spec O size 2 m.
Proof.
  intros Hl. rewrite transpose_square_2_fold. destruct (pairs2_ok size) as (H1 & H2 & H3).
  apply (fold_cells_transpose 2 cs2 cs2_length cs2_nth); assumption.
Qed.

(* ---------------------------------------------------------------- stretch 1: 2x2 blocks *)
Definition cs1 (v : list F) (a b : nat) : list F := swap O v a b.

Lemma cs1_nth C v a b q e : a <> b -> a < C -> b < C -> length v = C * 1 -> q < C -> e < 1 ->
  nth (q * 1 + e) (cs1 v a b) fz = nth ((if q =? a then b else if q =? b then a else q) * 1 + e) v fz.
Proof.
  intros Hab Ha Hb Hl Hq He. unfold cs1. assert (e = 0) by lia. subst e.
  rewrite !Nat.mul_1_r, !Nat.add_0_r. rewrite swap_nth by lia.
  eqb_cases; reflexivity.
Qed.

Definition blk (t u : nat) : list (nat * nat) :=
  let col := 2 * t + 2 * (u + 1) in [(2 * t, col); (2 * t, col + 1); (2 * t + 1, col); (2 * t + 1, col + 1)].

Definition pairs1 (size : nat) : list (nat * nat) :=
  flat_map (fun t => (2 * t, 2 * t + 1) :: flat_map (blk t) (seq 0 ((size - 2 * t + 1) / 2 - 1)))
           (seq 0 ((size + 1) / 2)).

Lemma transpose_square_1_fold m size :
  transpose_square_1 O m size
  = fold_left (fun v p => cs1 v (fst p * size + snd p) (snd p * size + fst p)) (pairs1 size) m.
Proof.
  unfold pairs1. rewrite fold_left_flat_map. unfold transpose_square_1.
  apply fold_left_ext_in. intros a t _. cbn [fold_left fst snd]. rewrite fold_left_flat_map.
  assert (Hinit : swap O a (2 * t * size + 2 * t + 1) (2 * t * size + 2 * t + size)
                  = cs1 a (2 * t * size + (2 * t + 1)) ((2 * t + 1) * size + 2 * t)).
  { unfold cs1. f_equal; lia. }
  rewrite Hinit. apply fold_left_ext_in. intros a' u _. unfold blk. cbn [fold_left fst snd]. unfold cs1.
  repeat match goal with |- swap O _ _ _ = swap O _ _ _ => f_equal end; lia.
Qed.

Lemma half_count h t : (2 * h - 2 * t + 1) / 2 - 1 = h - t - 1.
Proof. replace (2 * h - 2 * t + 1) with (2 * (h - t) + 1) by lia. rewrite div2_double1. reflexivity. Qed.

Lemma div2_low t a : a < 2 -> (2 * t + a) / 2 = t.
Proof. intros Ha. symmetry. apply Nat.div_unique with a; lia. Qed.

Lemma In_blk t u p :
  In p (blk t u) <-> exists a b, a < 2 /\ b < 2 /\ p = (2 * t + a, 2 * t + 2 * (u + 1) + b).
Proof.
  unfold blk. cbv zeta. cbn [In]. split.
  - intros [<- | [<- | [<- | [<- | []]]]]; [exists 0, 0 | exists 0, 1 | exists 1, 0 | exists 1, 1];
      (split; [lia | split; [lia | f_equal; lia]]).
  - intros (a & b & Ha & Hb & ->).
    assert (a = 0 \/ a = 1) as [-> | ->] by lia; assert (b = 0 \/ b = 1) as [-> | ->] by lia;
      rewrite ?Nat.add_0_r; tauto.
Qed.

Lemma blk_NoDup t u : NoDup (blk t u).
Proof.
  unfold blk. cbv zeta.
  repeat (constructor; [cbn [In]; intros H; repeat (destruct H as [H | H]; [inversion H; lia|]); exact H|]).
  constructor.
Qed.

Lemma pairs1_ok h :
  NoDup (pairs1 (2 * h)) /\ (forall p, In p (pairs1 (2 * h)) -> fst p < snd p < 2 * h) /\
  (forall r c, r < c < 2 * h -> In (r, c) (pairs1 (2 * h))).
Proof.
  unfold pairs1. rewrite div2_double1.
  split; [|split].
  - apply (NoDup_flat_map_key (fun p => fst p / 2)); [apply seq_NoDup | |].
    + intros t _. constructor.
      * intros Hin. apply in_flat_map in Hin. destruct Hin as (u & _ & Hin).
        apply In_blk in Hin. destruct Hin as (a & b & _ & _ & E). injection E. lia.
      * apply (NoDup_flat_map_key (fun p => snd p / 2 - t - 1)); [apply seq_NoDup | intros; apply blk_NoDup |].
        intros u p _ Hp. apply In_blk in Hp. destruct Hp as (a & b & _ & Hb & ->). cbn [snd].
        replace (2 * t + 2 * (u + 1) + b) with (2 * (t + u + 1) + b) by lia. rewrite div2_low by exact Hb. lia.
    + intros t p _ [<- | Hp]; [apply div2_double|].
      apply in_flat_map in Hp. destruct Hp as (u & _ & Hp).
      apply In_blk in Hp. destruct Hp as (a & b & Ha & _ & ->). apply div2_low. exact Ha.
  - intros p Hp. apply in_flat_map in Hp. destruct Hp as (t & Ht & Hp). apply in_seq in Ht.
    rewrite half_count in Hp. destruct Hp as [<- | Hp]; [cbn [fst snd]; lia|].
    apply in_flat_map in Hp. destruct Hp as (u & Hu & Hp). apply in_seq in Hu.
    apply In_blk in Hp. destruct Hp as (a & b & Ha & Hb & ->). cbn [fst snd]. lia.
  - intros r c Hrc.
    destruct (idx_split r h 2 ltac:(lia)) as (Er & Ht & Ha). destruct (idx_split c h 2 ltac:(lia)) as (Ec & Hu & Hb).
    set (t := r / 2) in *. set (cc := c / 2) in *.
    apply in_flat_map. exists t. split; [apply in_seq; lia|]. rewrite half_count.
    destruct (Nat.eq_dec cc t) as [E | E].
    + left. f_equal; lia.
    + right. apply in_flat_map. exists (cc - t - 1). split; [apply in_seq; lia|].
      apply In_blk. exists (r mod 2), (c mod 2). split; [exact Ha | split; [exact Hb | f_equal; lia]].
Qed.

Theorem transpose_square_1_spec m size : size mod 2 = 0 -> length m = size * size * 1 ->
  transpose_square_1 O m size = transpose_spec O size 1 m.
Proof.
  intros Hev Hl. rewrite transpose_square_1_fold.
  pose proof (Nat.div_mod size 2 ltac:(lia)) as D. rewrite Hev, Nat.add_0_r in D.
  destruct (pairs1_ok (size / 2)) as (H1 & H2 & H3). rewrite <- D in H1, H2, H3.
  apply (fold_cells_transpose 1 cs1 (fun v a b => swap_length O v a b) cs1_nth); assumption.
Qed.

(* transpose_square_stretch = transposition by specification (stretch 1: even size; stretch 2: any size) *)
Theorem transpose_square_stretch_spec m size st :
  length m = size * size * st -> (st = 1 /\ size mod 2 = 0) \/ st = 2 ->
  transpose_square_stretch O m size st = Some (transpose_spec O size st m).
Proof.
  intros Hl Hst. unfold transpose_square_stretch. rewrite Hl at 1. rewrite Nat.eqb_refl. cbn [negb].
  destruct Hst as [[-> Hev] | ->].
  - rewrite Hev. cbn [Nat.eqb]. f_equal. apply transpose_square_1_spec; assumption.
  - f_equal. apply transpose_square_2_spec. exact Hl.
Qed.

End Transpose.

(* ---------------------------------------------------------------- split_radix_fft (faithful transpositions) = fft_in_place *)
(* law-free: the faithful swap-loop version returns whatever the version with transposition by specification returns *)
Lemma split_radix_tr_agree {F : Type} (O : FOps F) K s (x tw y : list F) :
  s <= 1 -> length x = 2 ^ (S K + S K + s) ->
  split_radix_fft_spec_tr O x tw = Some y -> split_radix_fft O x tw = Some y.
Proof.
  intros Hs Hl H.
  unfold split_radix_fft, split_radix_fft_spec_tr, split_radix_fft_with in *. cbv zeta in *.
  destruct (VProofs.FFTSplit.split_sizes K s (length x) Hs Hl) as (Elog & Eout & Estr & _).
  rewrite Elog, Eout, Estr in *.
  assert (Hshape : (2 ^ s = 1 /\ 2 ^ S K mod 2 = 0) \/ 2 ^ s = 2).
  { destruct s as [|[|s]]; [left | right; reflexivity | lia].
    split; [reflexivity|]. rewrite pow2_S. replace (2 ^ K + 2 ^ K) with (2 ^ K * 2) by lia. apply Nat.mod_mul. lia. }
  destruct (Nat.eqb_spec (length x) (2 ^ S K * 2 ^ S K * 2 ^ s)) as [E1 | E1]; cbn [negb] in H; [|discriminate].
  rewrite (transpose_square_stretch_spec O x (2 ^ S K) (2 ^ s) E1 Hshape).
  set (v2 := concat (map _ (rows_of (transpose_spec O (2 ^ S K) (2 ^ s) x) (2 ^ (S K + s))))) in *.
  destruct (Nat.eqb_spec (length v2) (2 ^ S K * 2 ^ S K * 2 ^ s)) as [E2 | E2]; cbn [negb] in H; [|discriminate].
  rewrite (transpose_square_stretch_spec O v2 (2 ^ S K) (2 ^ s) E2 Hshape).
  exact H.
Qed.

Theorem split_radix_is_fft {F : Type} (O : FOps F) (L : FLaws O) tw K s w (x : list F) :
  s <= 1 ->
  length x = 2 ^ (S K + S K + s) -> length tw = 2 ^ (S K + K + s) ->
  tw_ok O tw (S K + S K + s) w -> root_cond O (S K + S K + s) w ->
  split_radix_fft O x tw = Some (fft_in_place_top O x tw).
Proof.
  intros Hs Hl Hlt Ht Hw. apply (split_radix_tr_agree O K s x tw _ Hs Hl).
  exact (VProofs.FFTSplit.split_radix_spec_tr_is_fft O L tw K s w x Hs Hl Hlt Ht Hw).
Qed.

(* concurrent::evaluate_poly (split_radix_fft, then permute) = [p(w^i)] in natural order *)
Theorem evaluate_poly_concurrent_correct {F : Type} (O : FOps F) (L : FLaws O) tw K s w (p : list F) :
  s <= 1 ->
  length p = 2 ^ (S K + S K + s) -> length tw = 2 ^ (S K + K + s) ->
  tw_ok O tw (S K + S K + s) w -> root_cond O (S K + S K + s) w ->
  evaluate_poly_concurrent O p tw = Some (map (fun i => peval O p (fpow O w i)) (seq 0 (2 ^ (S K + S K + s)))).
Proof.
  intros Hs Hl Hlt Ht Hw. unfold evaluate_poly_concurrent.
  rewrite (split_radix_is_fft O L tw K s w p Hs Hl Hlt Ht Hw). f_equal.
  replace (S K + S K + s) with (S (K + S K + s)) in * by lia.
  apply (permuted_fft_is_dft O L tw (K + S K + s) w p Hl Hw Ht).
Qed.
