(* C17 — non-vacuity: the hypotheses of the C17 theorems are satisfiable.  Each Example instantiates a theorem in the
   64-bit field (F64_ops, F64_laws) and discharges ALL its hypotheses. *)
From Coq Require Import List Arith ZArith Lia Ring Field.
From VBase Require Import FieldOps ZpOps.
From VModel Require Import Composition CompositionLagrange CompositionMixed CompositionMixedWhole ExtField.
From VModel Require Enforce EnforceLagrange.
From VModel Require FFT Stark.
From VProofs Require FFTSpec FFTEval FFTOffset StarkPoly SoundnessExamples.
From VProofs Require Import ZpLaws CompositionIndex CompositionVerifier CompositionTable CompositionFFT CompositionValid CompositionLagrange CompositionLagrangePoly CompositionMixed CompositionMixedWhole CompositionMixedInst ExtModel ExtConcrete.
Import ListNotations.
Local Open Scope nat_scope.

Local Notation Fq := (Zp P64).
Local Notation O64 := F64_ops.
Definition e64 (v : Z) : Fq := fofz O64 v.
Arguments e64 v%Z.
Definition i4 : Fq := e64 (2 ^ 48).          (* a primitive 4th root of unity: (2^48)^2 = 2^96 = -1 *)
Definition m1 : Fq := e64 (-1).
Definition rouA (m : nat) : Fq := if m =? 4 then i4 else if m =? 2 then m1 else fone O64.

Ltac zpc := apply zp_val_inj; vm_compute; reflexivity.

Lemma i4_order : cpow O64 i4 4 = fone O64. Proof. zpc. Qed.
Lemma i4_sq : cpow O64 i4 2 = m1. Proof. zpc. Qed.
Lemma i4_1 : cpow O64 i4 1 = i4. Proof. zpc. Qed.
Lemma m1_inv : fmul O64 m1 m1 = fone O64. Proof. zpc. Qed.
Lemma m1_sq : cpow O64 m1 2 = fone O64. Proof. zpc. Qed.
Lemma m1_1 : cpow O64 m1 1 = m1. Proof. zpc. Qed.

(* ------------------------------------------------------------------ instance A: n = 2, ce blowup 2, LDE blowup 2 *)
Definition ppolysA : list (list Fq) := [[e64 3; e64 5]].
Definition cA : @BC Fq := mkBC 0 [e64 1; e64 2] 1 (cpow O64 m1 1) (e64 13).

Example periodic_row_spec_instance :
  exists t, ptable_new O64 2 2 (e64 7) rouA ppolysA = Some t /\
    forall step, pt_get_row t step = Some (periodic_spec_row O64 2 2 (e64 7) rouA ppolysA step).
Proof.
  apply (periodic_row_spec O64 F64_laws); try lia.
  - exact i4_order.
  - discriminate.
  - intros p [<-|[]]. simpl. lia.
  - intros p [<-|[]]. reflexivity.
  - intros p [<-|[]]. exists 1. reflexivity.
  - intros p [<-|[]]. symmetry. exact i4_1.
Qed.

Example boundary_repr_equiv_instance : forall step, step < 4 ->
  small_eval O64 (small_new cA) [e64 9] (ce_x O64 2 2 (e64 7) rouA step) = bc_spec O64 cA (e64 9) (ce_x O64 2 2 (e64 7) rouA step)
  /\ large_eval O64 (large_new O64 2 2 (e64 7) rouA cA) [e64 9] step = bc_spec O64 cA (e64 9) (ce_x O64 2 2 (e64 7) rouA step)
  /\ (length (bc_poly cA) = 1 -> single_eval O64 (single_new O64 cA) [e64 9] = bc_spec O64 cA (e64 9) (ce_x O64 2 2 (e64 7) rouA step)).
Proof.
  apply (boundary_repr_equiv O64 F64_laws 2 2 (e64 7) rouA) with (ginv := m1); try lia.
  - exact i4_order.
  - exact i4_sq.
  - exact m1_inv.
  - reflexivity.
  - simpl; lia.
  - reflexivity.
  - simpl; lia.
  - reflexivity.
Qed.

Lemma lde_rows_witness {F} (O : FOps F) n ldeb offset wlde polys :
  lde_rows_of O n ldeb offset wlde
    (map (fun j => map (fun T => peval O T (fmul O (cpow O wlde j) offset)) polys) (seq 0 (lde_size n ldeb))) polys.
Proof.
  split; [now rewrite map_length, seq_length|].
  intros j Hj. rewrite nth_error_map, (nth_error_nth' (seq 0 (lde_size n ldeb)) 0) by (now rewrite seq_length).
  now rewrite seq_nth.
Qed.

Definition tmainA (cur nxt pv : list Fq) : list Fq :=
  [fsub O64 (nth 0 nxt (fzero O64)) (fmul O64 (nth 0 cur (fzero O64)) (fadd O64 (fone O64) (nth 0 pv (fzero O64))))].
Definition tauxA (cur nxt acur anxt pv rands : list Fq) : list Fq :=
  [fsub O64 (nth 0 anxt (fzero O64)) (fmul O64 (nth 0 acur (fzero O64)) (nth 0 cur (fzero O64)))].
Definition gA : @BGroup Fq := mkBG (mkDiv 1 (fone O64) []) [mkBC 0 [e64 4] 0 (cpow O64 m1 0) (e64 13)].
Definition gA2 : @BGroup Fq := mkBG (mkDiv 2 m1 []) [cA].
Definition gAaux : @BGroup Fq := mkBG (mkDiv 1 (fone O64) []) [mkBC 0 [e64 1] 0 (cpow O64 m1 0) (e64 17)].
Definition tpolysA : list (list Fq) := [[e64 1; e64 2]].
Definition apolysA : list (list Fq) := [[e64 6; e64 8]].
Definition ldeA (polys : list (list Fq)) : list (list Fq) :=
  map (fun j => map (fun T => peval O64 T (fmul O64 (cpow O64 i4 j) (e64 7))) polys) (seq 0 (lde_size 2 2)).

(* an AIR with a periodic column, an auxiliary column, two main boundary groups (single value at step 0; a two-value
   sequence with first step 1) and an auxiliary group sharing the divisor of the first main group *)
Example table_row_spec_instance :
  evaluate O64 2 2 2 (e64 7) rouA 1 tmainA tauxA ppolysA 1 [e64 11; e64 12] [gA; gA2] [gAaux] [] true (ldeA tpolysA) (ldeA apolysA)
    (fun _ v => v)
  = Some (map (fun i => comp_def O64 2 rouA tmainA tauxA ppolysA 1 [e64 11; e64 12] [gA; gA2] [gAaux] [] true tpolysA apolysA
                          (ce_x O64 2 2 (e64 7) rouA i)) (seq 0 (ce_size 2 2))).
Proof.
  apply (evaluate_spec_aux O64 F64_laws 2 2 2 1 (e64 7) rouA i4 m1); try lia.
  - exact i4_order.
  - exact i4_1.
  - exact i4_sq.
  - exact m1_inv.
  - reflexivity.
  - intros p [<-|[]]. simpl. lia.
  - intros p [<-|[]]. reflexivity.
  - intros p [<-|[]]. exists 1. reflexivity.
  - intros p [<-|[]]. symmetry. exact i4_1.
  - intros g [<-|[<-|[]]]; (split; [repeat split; simpl; lia|]); intros c [<-|[]]; repeat split; simpl; lia.
  - intros g [<-|[]]. split; [repeat split; simpl; lia|]. intros c [<-|[]]. repeat split; simpl; lia.
  - apply lde_rows_witness.
  - apply lde_rows_witness.
Qed.

Example verifier_eval_agrees_instance : forall z,
  evaluate_constraints O64 2 rouA 1 tmainA tauxA 1 ppolysA 1 [e64 11; e64 12] [gA; gA2] [gAaux] [] (fun _ => None)
    (def_cur O64 tpolysA z) (def_nxt O64 2 rouA tpolysA z) (Some (def_acur O64 apolysA z, def_anxt O64 2 rouA apolysA z)) z
  = Some (comp_def O64 2 rouA tmainA tauxA ppolysA 1 [e64 11; e64 12] [gA; gA2] [gAaux] [] true tpolysA apolysA z).
Proof.
  apply (verifier_eval_agrees_aux O64 F64_laws).
  - intros g Hg. simpl in Hg. destruct Hg as [<-|[<-|[<-|[]]]]; reflexivity.
  - intros g c [<-|[<-|[]]] [<-|[]]; simpl; lia.
  - intros g c [<-|[]] [<-|[]]. simpl. lia.
  - reflexivity.
Qed.

(* the single-segment path: same AIR without the auxiliary segment *)
Example table_row_spec_single_segment_instance :
  evaluate O64 2 2 2 (e64 7) rouA 1 tmainA tauxA ppolysA 1 [e64 11] [gA; gA2] [] [] false (ldeA tpolysA) [] (fun _ v => v)
  = Some (map (fun i => comp_def O64 2 rouA tmainA tauxA ppolysA 1 [e64 11] [gA; gA2] [] [] false tpolysA []
                          (ce_x O64 2 2 (e64 7) rouA i)) (seq 0 (ce_size 2 2))).
Proof.
  apply (evaluate_spec_main O64 F64_laws 2 2 2 1 (e64 7) rouA i4 m1); try lia.
  - exact i4_order.
  - exact i4_1.
  - exact i4_sq.
  - exact m1_inv.
  - reflexivity.
  - intros p [<-|[]]. simpl. lia.
  - intros p [<-|[]]. reflexivity.
  - intros p [<-|[]]. exists 1. reflexivity.
  - intros p [<-|[]]. symmetry. exact i4_1.
  - intros g [<-|[<-|[]]]; (split; [repeat split; simpl; lia|]); intros c [<-|[]]; repeat split; simpl; lia.
  - intros g [].
  - apply lde_rows_witness.
  - reflexivity.
Qed.

(* ------------------------------------------------------------------ Lagrange kernel: n = 2 (v = 1), ce blowup 2 *)
Definition LpA : list Fq := [e64 5; e64 6].
Definition ldeLagA : list Fq := map (fun j => peval O64 LpA (fmul O64 (cpow O64 i4 j) (e64 7))) (seq 0 (lde_size 2 2)).
Definition tLagA : EnforceLagrange.LagTC (F := Fq) :=
  EnforceLagrange.mkLTC [e64 3] [Enforce.mkD [((2 ^ Z.of_nat 0)%Z, fone O64)] []].

Example lagrange_evaluate_spec_instance :
  lagrange_evaluate O64 2 2 2 (e64 7) rouA 1 ldeLagA tLagA [e64 9] (e64 4)
  = Some (map (fun i => lag_def O64 2 rouA 1 LpA tLagA [e64 9] (e64 4) (ce_x O64 2 2 (e64 7) rouA i)) (seq 0 (ce_size 2 2))).
Proof.
  apply (lagrange_evaluate_spec O64 F64_laws 2 2 2 1 (e64 7) rouA i4); try lia;
    try first [exact i4_order | exact i4_sq | exact i4_1 | reflexivity].
  - intros j Hj. unfold ldeLagA. rewrite nth_error_map, (nth_error_nth' (seq 0 (lde_size 2 2)) 0) by (now rewrite seq_length).
    now rewrite seq_nth.
  - intros idx Hi. assert (idx = 0) by lia. subst. reflexivity.
Qed.

Example verifier_lagrange_agrees_instance : forall c x, length c = 2 ->
  EnforceLagrange.lag_evaluate_and_combine O64 tLagA c [e64 9] x
  = Some (rsum O64 (map (fun idx => fmul O64 (lag_num O64 1 tLagA [e64 9] c idx) (finv O64 (fsub O64 (cpow O64 x (2 ^ idx)) (fone O64)))) (seq 0 1)))
  /\ EnforceLagrange.lag_boundary_evaluate_at O64 [e64 9] c (e64 4) x
     = Some (fmul O64 (fmul O64 (fsub O64 (nth 0 c (fzero O64)) (EnforceLagrange.lag_assertion_value O64 [e64 9])) (e64 4)) (finv O64 (fsub O64 x (fone O64)))).
Proof.
  intros c x Hc.
  apply (verifier_lagrange_agrees O64 F64_laws 2 2 2 1 ltac:(lia) ltac:(lia) ltac:(lia) ltac:(lia) 1 ldeLagA ltac:(reflexivity) tLagA [e64 9] (e64 4));
    try lia; try reflexivity; try exact Hc.
  intros idx Hi. assert (idx = 0) by lia. subst. reflexivity.
Qed.

(* ------------------------------------------------------------------ Lagrange terms as polynomials: n = 2 (v = 1),
   g = -1, random element r_0 = 9; kernel column [1 - r_0, r_0], its polynomial L = 1/2 + (1 - 2 r_0)/2 x *)
Definition r0L : Fq := e64 9.
Definition half : Fq := finv O64 (e64 2).
Definition LpK : list Fq := [half; fmul O64 half (fsub O64 (fone O64) (fmul O64 (e64 2) r0L))].

(* 1/2 = (p + 1)/2, checked by one multiplication instead of computing 2^(p-2) *)
Lemma half_val : half = e64 ((P64 + 1) / 2).
Proof. apply (FieldFacts.finv_by O64 F64_laws). zpc. Qed.

Example lag_def_is_poly_instance :
  exists Q, length Q <= length LpK /\ forall x, lag_good O64 1 x ->
    lag_def O64 2 rouA 1 LpK tLagA [r0L] (e64 4) x = peval O64 Q x.
Proof.
  apply (lag_def_is_poly O64 F64_laws 2 1 m1 eq_refl).
  - split; [zpc|]. intros i j Hi Hj Hij. destruct i as [|[|]]; destruct j as [|[|]]; try lia; try reflexivity;
      exfalso; apply (f_equal (@zp_val P64)) in Hij; vm_compute in Hij; discriminate.
  - reflexivity.
  - intros idx j Hi Hj. assert (idx = 0) by lia. subst. assert (j = 0) by (simpl in Hj; lia). subst.
    unfold LpK. rewrite half_val. zpc.
  - unfold LpK. rewrite half_val. zpc.
  - reflexivity.
Qed.

(* the embedding into the quadratic extension of f64: a main boundary constraint with base-field state / polynomial
   and an extension-field coefficient *)
Example boundary_repr_equiv_ext_instance : forall step, step < 2 * 2 ->
  let OE := q_ops F64_ops (f64_x2 F64_ops) in
  let xB := ce_x O64 2 2 (e64 7) rouA step in
  let spec := Some (fmul OE (e64 3, e64 5) (bc_evaluate_at_mixed O64 OE (q_from_base O64) [e64 1; e64 2] (cpow O64 m1 1)
                                                            (q_from_base O64 xB) (q_from_base O64 (e64 9)))) in
  small_eval_mixed O64 (q_mul_base (f64_x2 F64_ops)) 0 [e64 1; e64 2] (cpow O64 m1 1) (e64 3, e64 5) [e64 9] xB = spec
  /\ large_eval_mixed O64 (q_mul_base (f64_x2 F64_ops)) 0 (eval_poly_with_offset O64 rouA [e64 1; e64 2] (e64 7) (2 * 2 / 2)) (1 * 2)
                      (e64 3, e64 5) [e64 9] step = spec
  /\ (length [e64 1; e64 2] = 1 -> single_eval_mixed O64 (q_mul_base (f64_x2 F64_ops)) 0 (e64 1) (e64 3, e64 5) [e64 9] = spec).
Proof.
  intros step Hstep.
  apply (boundary_repr_equiv_ext O64 _ F64_laws f64_quad_laws _ _ quad_f64_emb 2 2 (e64 7) rouA ltac:(lia) ltac:(lia) i4_order i4_sq m1 m1_inv
           0 1 [e64 1; e64 2] (e64 3, e64 5) [e64 9] (e64 9) eq_refl ltac:(simpl; lia) ltac:(lia) eq_refl step Hstep).
Qed.

(* the whole mixed single-segment table over the quadratic extension of f64 (instance A without the auxiliary
   segment; base-field trace, periodic column and assertions, extension-field coefficients) *)
Definition OQ := q_ops F64_ops (f64_x2 F64_ops).
Definition embQ := q_from_base F64_ops.
Definition tmainQ (cur nxt pv : list (Fq * Fq)) : list (Fq * Fq) :=
  [fsub OQ (nth 0 nxt (fzero OQ)) (fmul OQ (nth 0 cur (fzero OQ)) (fadd OQ (fone OQ) (nth 0 pv (fzero OQ))))].
Definition gmA : @BGm Fq (Fq * Fq) := mkBGm (mkDiv 1 (fone O64) []) [mkBCm 0 [e64 4] 0 (cpow O64 m1 0) (e64 13, e64 2)].
Definition gmA2 : @BGm Fq (Fq * Fq) := mkBGm (mkDiv 2 m1 []) [mkBCm 0 [e64 1; e64 2] 1 (cpow O64 m1 1) (e64 5, e64 6)].

Lemma tmainQ_commutes cur nxt pv : tmainQ (map embQ cur) (map embQ nxt) (map embQ pv) = map embQ (tmainA cur nxt pv).
Proof.
  unfold tmainQ, tmainA. cbn [map]. f_equal.
  assert (N : forall l, nth 0 (map embQ l) (fzero OQ) = embQ (nth 0 l (fzero O64)))
    by (intros l; change (fzero OQ) with (embQ (fzero O64)); apply map_nth).
  rewrite !N. unfold OQ, embQ.
  rewrite <- (emb_one _ _ _ _ quad_f64_emb), <- (emb_add _ _ _ _ quad_f64_emb), <- (emb_mul _ _ _ _ quad_f64_emb).
  symmetry. apply (emb_sub _ _ _ _ quad_f64_emb).
Qed.

Example table_row_spec_single_segment_ext_instance :
  evaluate_mixed O64 OQ (q_mul_base (f64_x2 F64_ops)) 2 2 2 (e64 7) rouA 1 tmainA ppolysA 1 [(e64 11, e64 3)] [gmA; gmA2] (ldeA tpolysA)
  = Some (map (fun i => comp_def OQ 2 (fun m => embQ (rouA m)) tmainQ (fun _ _ _ _ _ _ => []) (map (map embQ) ppolysA) 1 [(e64 11, e64 3)]
                                 (map (embG embQ) [gmA; gmA2]) [] [] false (map (map embQ) tpolysA) []
                                 (embQ (ce_x O64 2 2 (e64 7) rouA i))) (seq 0 (ce_size 2 2))).
Proof.
  apply (quad_f64_table_row_spec_ext 2 2 2 (e64 7) rouA 1 tmainA tmainQ (fun _ _ _ _ _ _ => []) tmainQ_commutes ppolysA 1
           [(e64 11, e64 3)] [gmA; gmA2] [] (ldeA tpolysA) [] 1 i4 m1); try lia;
    try first [exact i4_order | exact i4_sq | exact i4_1 | exact m1_inv | reflexivity].
  - intros p [<-|[]]. simpl. lia.
  - intros p [<-|[]]. reflexivity.
  - intros p [<-|[]]. exists 1. reflexivity.
  - intros p [<-|[]]. symmetry. exact i4_1.
  - intros g [<-|[<-|[]]]; (split; [repeat split; simpl; lia|]); intros c [<-|[]]; repeat split; simpl; lia.
  - apply lde_rows_witness.
Qed.

Section TwoPoint.
Context {F : Type} (O : FOps F) (L : FLaws O).
Add Field Ftp : (FLaws_field_theory O L).
Variables x0 x1 : F.
Hypothesis x1_neg : x1 = fneg O x0.
Hypothesis two_nz' : fadd O (fone O) (fone O) <> fzero O.
Hypothesis x0_nz : x0 <> fzero O.
Local Notation two := (fadd O (fone O) (fone O)).

Lemma tp_coeffs a b :
  a = fdiv O (fadd O (peval O [a; b] x0) (peval O [a; b] x1)) two
  /\ b = fdiv O (fsub O (peval O [a; b] x0) (peval O [a; b] x1)) (fmul O two x0).
Proof. rewrite x1_neg. cbn [peval]. split; field; auto. Qed.

Lemma tp_interp e0 e1 :
  peval O [fdiv O (fadd O e0 e1) two; fdiv O (fsub O e0 e1) (fmul O two x0)] x0 = e0
  /\ peval O [fdiv O (fadd O e0 e1) two; fdiv O (fsub O e0 e1) (fmul O two x0)] x1 = e1.
Proof. rewrite x1_neg. cbn [peval]. split; field; auto. Qed.
End TwoPoint.

(* ------------------------------------------------------------------ instance B (capstone): n = 1, ce blowup 2.
   The interpolation hypotheses are satisfiable: over the two-point coset {7, -7} interpolation is
   [(e0 + e1) / 2, (e0 - e1) / (2 * 7)] and it is unique. *)
Section CapstoneInstance.
Add Ring F64r : (FLaws_ring_theory O64 F64_laws).
Local Notation "a +q b" := (fadd O64 a b) (at level 50, left associativity).
Local Notation "a -q b" := (fsub O64 a b) (at level 50, left associativity).
Local Notation "a *q b" := (fmul O64 a b) (at level 40, left associativity).
Local Notation "a /q b" := (fdiv O64 a b) (at level 40, left associativity).
Local Notation q0 := (fzero O64).
Local Notation q1 := (fone O64).
Definition rouB (m : nat) : Fq := if m =? 2 then m1 else fone O64.
Definition x0B : Fq := ce_x O64 1 2 (e64 7) rouB 0.
Definition x1B : Fq := ce_x O64 1 2 (e64 7) rouB 1.
Definition interpB (evals : list Fq) : list Fq :=
  let e0 := nth 0 evals q0 in let e1 := nth 1 evals q0 in
  [(e0 +q e1) /q (q1 +q q1); (e0 -q e1) /q ((q1 +q q1) *q x0B)].

Lemma two_nz : q1 +q q1 <> q0.
Proof. intros H. apply (f_equal (@zp_val P64)) in H. vm_compute in H. discriminate. Qed.
Lemma x0B_nz : x0B <> q0.
Proof. intros H. apply (f_equal (@zp_val P64)) in H. vm_compute in H. discriminate. Qed.
Lemma x1B_neg : x1B = fneg O64 x0B. Proof. zpc. Qed.

Lemma ceB i : i < 2 -> ce_x O64 1 2 (e64 7) rouB i = if i =? 0 then x0B else x1B.
Proof. intros H. destruct i as [|[|]]; try lia; reflexivity. Qed.

Lemma coeffs_from_values (a b : Fq) :
  a = (peval O64 [a; b] x0B +q peval O64 [a; b] x1B) /q (q1 +q q1)
  /\ b = (peval O64 [a; b] x0B -q peval O64 [a; b] x1B) /q ((q1 +q q1) *q x0B).
Proof. exact (tp_coeffs O64 F64_laws x0B x1B x1B_neg two_nz x0B_nz a b). Qed.

Example composition_is_definition_partial_instance :
  exists evals cols,
    evaluate O64 1 2 2 (e64 7) rouB 0 (fun _ _ _ => []) (fun _ _ _ _ _ _ => []) [] 1 [] [] [] [] true
             (map (fun _ => []) (seq 0 2)) (map (fun _ => []) (seq 0 2)) (fun _ v => v) = Some evals
    /\ composition_poly_new 1 interpB evals 1 = Some cols
    /\ (forall z, recombine O64 1 (cp_evaluate_at O64 cols z) z = peval O64 [] z)
    /\ (forall z, True -> recombine O64 1 (cp_evaluate_at O64 cols z) z
          = comp_def O64 1 rouB (fun _ _ _ => []) (fun _ _ _ _ _ _ => []) [] 1 [] [] [] [] true [] [] z).
Proof.
  apply (composition_is_definition_partial O64 F64_laws 1 2 2 1 (e64 7) rouB m1 (fone O64)); try lia;
    try (intros ? Hf; exact (False_ind _ Hf)).
  - exact m1_sq.
  - exact m1_1.
  - exact m1_sq.
  - zpc.
  - reflexivity.
  - split; [reflexivity|]. intros j Hj. destruct j as [|[|]]; try (unfold lde_size in Hj; lia); reflexivity.
  - split; [reflexivity|]. intros j Hj. destruct j as [|[|]]; try (unfold lde_size in Hj; lia); reflexivity.
  - intros evals Hlen. split; [reflexivity|]. intros i Hi.
    destruct evals as [|e0 [|e1 [|]]]; try discriminate Hlen.
    rewrite ceB by exact Hi.
    destruct (tp_interp O64 F64_laws x0B x1B x1B_neg two_nz x0B_nz e0 e1) as [T0 T1].
    destruct i as [|[|]]; try (unfold ce_size in Hi; lia); cbn [Nat.eqb nth interpB]; assumption.
  - intros p1 p2 H1 H2 Hev.
    destruct p1 as [|a [|b [|]]]; try discriminate H1. destruct p2 as [|a' [|b' [|]]]; try discriminate H2.
    assert (E0 := Hev 0 ltac:(unfold ce_size; lia)). assert (E1 := Hev 1 ltac:(unfold ce_size; lia)).
    rewrite ceB in E0, E1 by (unfold ce_size; lia). cbn [Nat.eqb] in E0, E1.
    destruct (coeffs_from_values a b) as [Ha Hb]. destruct (coeffs_from_values a' b') as [Ha' Hb'].
    f_equal; [etransitivity; [exact Ha|]; rewrite E0, E1; symmetry; exact Ha'|].
    f_equal. etransitivity; [exact Hb|]. rewrite E0, E1. symmetry. exact Hb'.
  - (* comp_def of the empty AIR is the zero polynomial *)
    intros z _. unfold comp_def, def_transition, def_boundary, def_constraints.
    cbn [map combine app rsum fold_right peval]. ring.
  - unfold ce_size. simpl. lia.
  - simpl. lia.
  - unfold ce_size. lia.
Qed.
(* the assembled capstone (single-segment path) on the empty AIR over a trace of length 1: the FFT model's inverse
   twiddles for size 2, the root conditions, odd characteristic, the primitive root of the (one-point) trace domain and
   the disjointness of the coset {7, -7} from it are all satisfiable together *)
Example composition_is_definition_instance :
  exists itw, FFT.get_inv_twiddles O64 32 (fun _ => m1) (2 ^ 1) = Some itw /\
  exists Q evals cols,
    length Q <= 0
    /\ evaluate O64 1 2 2 (e64 7) rouB 0 (fun _ _ _ => []) (fun _ _ _ _ _ _ => []) [] 1 [] [] [] [] false
                (map (fun _ => []) (seq 0 2)) [] (fun _ v => v) = Some evals
    /\ composition_poly_new 1 (interp_fft O64 32 itw (e64 7)) evals 1 = Some cols
    /\ (forall z, recombine O64 1 (cp_evaluate_at O64 cols z) z = peval O64 Q z)
    /\ (forall z, ~ In z (Stark.domain O64 (gtrace 1 rouB) 1) -> recombine O64 1 (cp_evaluate_at O64 cols z) z
          = comp_def O64 1 rouB (fun _ _ _ => []) (fun _ _ _ _ _ _ => []) [] 1 [] [] [] [] false [] [] z).
Proof.
  eexists. split; [reflexivity|].
  apply (composition_is_definition_valid_main O64 F64_laws 1 2 2 1 (e64 7) rouB m1 (fone O64)) with
    (rouk := fun _ : nat => m1) (K := 0) (N := @nil Fq)
    (Bm := fun _ : @BGroup Fq => @nil Fq) (Rm := fun _ : @BGroup Fq => @nil Fq)
    (Ba := fun _ : @BGroup Fq => @nil Fq) (Ra := fun _ : @BGroup Fq => @nil Fq);
    try lia; try (intros ? Hf; exact (False_ind _ Hf));
    try lazymatch goal with
        | |- fmul _ _ _ = _ => fail
        | |- _ => first [ exact m1_sq | exact m1_1 | reflexivity | constructor ]
        end.
  - zpc.
  - zpc.
  - intros i j Hi Hj _. lia.
  - reflexivity.
  - intros j Hj. destruct j as [|[|]]; try (unfold lde_size in Hj; lia); reflexivity.
  - intros H. apply (f_equal (@zp_val P64)) in H. vm_compute in H. discriminate.
  - (* 2 * (1/2) = 1 by the field law, not by computing the inverse *)
    unfold FFTOffset.n_inv. replace (FFTSpec.two_pow_f O64 1) with (fofz O64 (Z.of_nat (2 ^ 1))) by zpc.
    rewrite (fl_mul_comm O64 F64_laws). apply (fl_inv_l O64 F64_laws).
    intros H. apply (f_equal (@zp_val P64)) in H. vm_compute in H. discriminate.
  - intros i Hi [H|[]]. destruct i as [|[|]]; try (unfold ce_size in Hi; lia);
      apply (f_equal (@zp_val P64)) in H; vm_compute in H; discriminate.
Qed.
End CapstoneInstance.
