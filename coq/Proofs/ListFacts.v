(* Facts about the standard library's lists that mention no definition of the model: nth / firstn / skipn,
   seq and re-indexing, concat and flat_map of equal-length rows, filter, NoDup, combine, folds.
   A fact belongs here if its statement uses only Coq.Lists.List and nat arithmetic and the library of
   Coq 8.16 does not have it.  Powers of two and integer ranges are in Pow2Facts.v. *)
From Coq Require Import List Arith Bool Lia.
Import ListNotations.

(* ---------------------------------------------------------------- nth, firstn, skipn *)
Lemma nth_nil {A} (d : A) i : nth i [] d = d.
Proof. destruct i; reflexivity. Qed.

Lemma nth_repeat_lt {A} (x d : A) n i : i < n -> nth i (repeat x n) d = x.
Proof. intros H. rewrite (nth_indep _ d x) by (rewrite repeat_length; exact H). apply nth_repeat. Qed.

Lemma nth_firstn_lt {A} (l : list A) i n d : i < n -> nth i (firstn n l) d = nth i l d.
Proof.
  revert i n; induction l; intros i n H. now rewrite firstn_nil.
  destruct n; [lia|]. destruct i; simpl; auto. apply IHl; lia.
Qed.

Lemma nth_skipn {A} (l : list A) d : forall a i, nth i (skipn a l) d = nth (a + i) l d.
Proof.
  induction l as [|h t IH]; intros a i. rewrite skipn_nil. destruct i, a; reflexivity.
  destruct a; simpl. reflexivity. apply IH.
Qed.

Lemma firstn_S_nth {A} (l : list A) n d : n < length l -> firstn (S n) l = firstn n l ++ [nth n l d].
Proof.
  revert n; induction l; simpl; intros n H; [lia|]. destruct n; simpl; auto.
  f_equal. apply IHl; lia.
Qed.

Lemma skipn_cons_nth {A} (l : list A) k d : k < length l -> skipn k l = nth k l d :: skipn (S k) l.
Proof.
  revert k; induction l; simpl; intros k H; [lia|]. destruct k; simpl; auto. apply IHl; lia.
Qed.

Lemma skipn_cons_inv {A} p (l : list A) b t :
  skipn p l = b :: t -> p < length l /\ skipn (S p) l = t /\ nth_error l p = Some b.
Proof.
  revert l. induction p as [|p IH]; intros l H; destruct l as [|a l]; simpl in *; try discriminate.
  - inversion H; subst. repeat split; auto. lia.
  - destruct (IH _ H) as (H1 & H2 & H3). repeat split; auto. lia.
Qed.

Lemma skipn_nil_inv {A} p (l : list A) : skipn p l = [] -> length l <= p.
Proof. intros H. pose proof (skipn_length p l) as HL. rewrite H in HL. simpl in HL. lia. Qed.

Lemma skipn_add {A} a b (l : list A) : skipn (a + b) l = skipn b (skipn a l).
Proof.
  revert l; induction a as [|a IH]; intros l; [reflexivity|].
  destruct l as [|x l]; cbn [Nat.add skipn]; [rewrite skipn_nil; reflexivity|apply IH].
Qed.

Lemma firstn_add {A} a b (l : list A) : firstn (a + b) l = firstn a l ++ firstn b (skipn a l).
Proof.
  revert l; induction a as [|a IH]; intros l; [reflexivity|].
  destruct l as [|x l]; cbn [Nat.add firstn skipn app]; [rewrite firstn_nil; reflexivity|]. f_equal. apply IH.
Qed.

Lemma firstn_app_exact {A} (l1 l2 : list A) : firstn (length l1) (l1 ++ l2) = l1.
Proof. rewrite firstn_app, Nat.sub_diag, firstn_all. cbn. apply app_nil_r. Qed.

Lemma firstn_skipn_app_le {A} n (a x : list A) : n <= length a ->
  firstn n (a ++ x) = firstn n a /\ skipn n (a ++ x) = skipn n a ++ x.
Proof.
  intros H. rewrite firstn_app, skipn_app.
  replace (n - length a) with 0 by lia. simpl. now rewrite app_nil_r.
Qed.

Lemma in_firstn {A} (v : A) n l : In v (firstn n l) -> In v l.
Proof. intros H. rewrite <- (firstn_skipn n l). apply in_or_app. now left. Qed.

Lemma Forall_firstn {A} (P : A -> Prop) n l : Forall P l -> Forall P (firstn n l).
Proof. intros H. revert n. induction H; intros [|n]; cbn; constructor; auto. Qed.

Lemma Forall_skipn {A} (P : A -> Prop) n l : Forall P l -> Forall P (skipn n l).
Proof. intros H. revert n. induction H; intros [|n]; cbn; auto. Qed.

Lemma Forall_repeat {A} (P : A -> Prop) x n : P x -> Forall P (repeat x n).
Proof. intros H. induction n; cbn; constructor; assumption. Qed.

Lemma removelast_length {A} (l : list A) : length (removelast l) = length l - 1.
Proof. induction l as [|h t IH]; [reflexivity|]. destruct t; [reflexivity|]. simpl in *. rewrite IH. lia. Qed.

Lemma list_snoc_inv {A} (l : list A) k : length l = S k -> exists l' a, l = l' ++ [a] /\ length l' = k.
Proof.
  intros H. destruct (exists_last (l := l)) as (l' & a & E). { destruct l; discriminate. }
  exists l', a. split; auto. subst l. rewrite last_length in H. lia.
Qed.

Lemma app_eq_len {A} (l1 l2 r1 r2 : list A) : length l1 = length l2 -> l1 ++ r1 = l2 ++ r2 -> l1 = l2 /\ r1 = r2.
Proof.
  revert l2. induction l1 as [|a l1 IH]; intros [|b l2] Hl H; cbn in *; try discriminate; [auto|].
  injection H as -> H. destruct (IH l2 (eq_add_S _ _ Hl) H) as [-> ->]. auto.
Qed.

Lemma nth_error_ext {A} : forall l1 l2 : list A, (forall j, nth_error l1 j = nth_error l2 j) -> l1 = l2.
Proof.
  induction l1 as [|a l1 IH]; intros [|b l2] H; try reflexivity.
  - specialize (H 0). discriminate.
  - specialize (H 0). discriminate.
  - pose proof (H 0) as H0. simpl in H0. inversion H0; subst. f_equal. apply IH. intros j. exact (H (S j)).
Qed.

(* ---------------------------------------------------------------- seq: re-indexing and tiling *)
Lemma nth_map_seq {A} (f : nat -> A) n i d : i < n -> nth i (map f (seq 0 n)) d = f i.
Proof.
  intros Hi. rewrite (nth_indep _ d (f 0)) by (rewrite map_length, seq_length; exact Hi).
  rewrite (map_nth f (seq 0 n) 0 i), seq_nth by exact Hi. reflexivity.
Qed.

Lemma nth_error_map_seq {A} (f : nat -> A) n i : i < n -> nth_error (map f (seq 0 n)) i = Some (f i).
Proof.
  intros H. rewrite nth_error_map, (nth_error_nth' _ 0) by (now rewrite seq_length).
  now rewrite seq_nth.
Qed.

Lemma in_nth_map_seq {A} (g : nat -> list A) n a x : In x (nth a (map g (seq 0 n)) []) -> a < n /\ In x (g a).
Proof.
  intros H. destruct (Nat.lt_ge_cases a n) as [Hlt|Hge].
  - rewrite nth_map_seq in H by exact Hlt. auto.
  - rewrite nth_overflow in H by (rewrite map_length, seq_length; exact Hge). destruct H.
Qed.

Lemma map_nth_seq {A} (l : list A) d : map (fun k => nth k l d) (seq 0 (length l)) = l.
Proof.
  apply nth_ext with (d := d) (d' := d); [rewrite map_length, seq_length; reflexivity|].
  intros i Hi. rewrite map_length, seq_length in Hi. apply (nth_map_seq (fun k => nth k l d)). exact Hi.
Qed.

Lemma seq_shift_add off s l : seq (off + s) l = map (Nat.add off) (seq s l).
Proof.
  revert s; induction l as [|l IH]; intros s; [reflexivity|].
  cbn [seq map]. rewrite <- Nat.add_succ_r, IH. reflexivity.
Qed.

Lemma map_seq_shift {A} (f : nat -> A) off l : map f (seq off l) = map (fun i => f (off + i)) (seq 0 l).
Proof. rewrite <- (Nat.add_0_r off) at 1. rewrite seq_shift_add, map_map. reflexivity. Qed.

Lemma firstn_seq m n : m <= n -> firstn m (seq 0 n) = seq 0 m.
Proof.
  intros H. replace n with (m + (n - m)) by lia. rewrite seq_app, <- (seq_length m 0) at 1.
  apply firstn_app_exact.
Qed.

(* [0, a*b) is tiled by the a blocks [k*b, k*b + b) *)
Lemma seq_tiles a b : seq 0 (a * b) = flat_map (fun k => seq (k * b) b) (seq 0 a).
Proof.
  induction a as [|a IH]; [reflexivity|].
  rewrite seq_S, flat_map_app, <- IH. cbn [flat_map Nat.add]. rewrite app_nil_r.
  replace (S a * b) with (a * b + b) by lia. apply seq_app.
Qed.

(* ---------------------------------------------------------------- folds *)
Lemma list_sum_cons a l : list_sum (a :: l) = a + list_sum l.
Proof. reflexivity. Qed.

Lemma fold_left_ext_in {A B} (f g : A -> B -> A) : forall l a,
  (forall a b, In b l -> f a b = g a b) -> fold_left f l a = fold_left g l a.
Proof.
  induction l; cbn; intros; [reflexivity|].
  rewrite H by (left; reflexivity). apply IHl. intros; apply H; right; assumption.
Qed.

Lemma fold_left_flat_map {A B C} (f : A -> C -> A) (g : B -> list C) : forall l a,
  fold_left f (flat_map g l) a = fold_left (fun a x => fold_left f (g x) a) l a.
Proof. induction l; intros; cbn; [reflexivity | rewrite fold_left_app; apply IHl]. Qed.

Lemma fold_left_map {A B C} (f : A -> C -> A) (h : B -> C) : forall l a,
  fold_left f (map h l) a = fold_left (fun a u => f a (h u)) l a.
Proof. induction l; intros; cbn; [reflexivity | apply IHl]. Qed.

(* ---------------------------------------------------------------- concat *)
Lemma concat_split {A} (ls : list (list A)) k : concat ls = concat (firstn k ls) ++ concat (skipn k ls).
Proof. now rewrite <- concat_app, firstn_skipn. Qed.

(* the k-th block of a concatenation *)
Lemma concat_slice {A} (ls : list (list A)) k : k < length ls ->
  firstn (length (nth k ls [])) (skipn (length (concat (firstn k ls))) (concat ls)) = nth k ls [].
Proof.
  intros Hk. rewrite (concat_split ls k) at 1.
  rewrite skipn_app, Nat.sub_diag, skipn_all. cbn [skipn app].
  rewrite (skipn_cons_nth ls k [] Hk). cbn [concat]. apply firstn_app_exact.
Qed.

(* rows of equal length n, concatenated: element q of row i sits at i * n + q *)
Lemma concat_length_rows {A} : forall (rows : list (list A)) n,
  (forall r, In r rows -> length r = n) -> length (concat rows) = length rows * n.
Proof.
  induction rows as [|r rows IH]; intros n H; [reflexivity|].
  cbn. rewrite app_length, (IH n), (H r); auto with datatypes.
Qed.

Lemma concat_nth_rows {A} (d : A) : forall (rows : list (list A)) n, (forall r, In r rows -> length r = n) ->
  forall i q, i < length rows -> q < n -> nth (i * n + q) (concat rows) d = nth q (nth i rows []) d.
Proof.
  induction rows as [|l ls IH]; intros n Hn i q Hi Hq; [cbn in Hi; lia|].
  assert (Hl : length l = n) by (apply Hn; left; reflexivity).
  cbn [concat]. destruct i as [|i].
  - cbn [Nat.mul Nat.add nth]. apply app_nth1. lia.
  - cbn [nth]. rewrite app_nth2 by (rewrite Hl; lia).
    replace (S i * n + q - length l) with (i * n + q) by (rewrite Hl; lia).
    apply IH; [intros; apply Hn; right; assumption | cbn in Hi; lia | exact Hq].
Qed.

Lemma concat_row {A} : forall (rows : list (list A)) n r,
  (forall row, In row rows -> length row = n) -> r < length rows ->
  firstn n (skipn (r * n) (concat rows)) = nth r rows [].
Proof.
  induction rows as [|a rest IH]; intros n r Hn Hr; simpl in Hr; [lia|].
  assert (Ha : length a = n) by (apply Hn; now left).
  destruct r; simpl.
  - rewrite <- Ha. apply firstn_app_exact.
  - rewrite skipn_app, Ha.
    replace (n + r * n - n) with (r * n) by lia.
    rewrite (skipn_all2 a) by lia. simpl.
    apply IH; [intros row Hrow; apply Hn; now right | lia].
Qed.

(* the common case: row i is `f i` *)
Lemma concat_map_seq {A} (d : A) (f : nat -> list A) m n : (forall i, i < m -> length (f i) = n) ->
  length (concat (map f (seq 0 m))) = m * n /\
  forall i q, i < m -> q < n -> nth (i * n + q) (concat (map f (seq 0 m))) d = nth q (f i) d.
Proof.
  intros Hf.
  assert (H : forall l, In l (map f (seq 0 m)) -> length l = n).
  { intros l Hin. apply in_map_iff in Hin. destruct Hin as (i & <- & Hi). apply in_seq in Hi. apply Hf. lia. }
  split.
  - rewrite (concat_length_rows _ n H), map_length, seq_length. reflexivity.
  - intros i q Hi Hq. rewrite (concat_nth_rows d _ n H), nth_map_seq; auto. now rewrite map_length, seq_length.
Qed.

Lemma concat_singletons {A B} (g : A -> B) (l : list A) : concat (map (fun i => [g i]) l) = map g l.
Proof. induction l as [|a l IH]; [reflexivity|]. cbn [map concat app]. rewrite IH. reflexivity. Qed.

(* ---------------------------------------------------------------- flat_map *)
Lemma flat_map_flat_map {A B C} (g : B -> list C) (f : A -> list B) l :
  flat_map g (flat_map f l) = flat_map (fun a => flat_map g (f a)) l.
Proof. induction l as [|a l IH]; [reflexivity|]. cbn [flat_map]. rewrite flat_map_app, IH. reflexivity. Qed.

Lemma flat_map_map_comm {A B C} (g : B -> C) (f : A -> list B) l :
  flat_map (fun a => map g (f a)) l = map g (flat_map f l).
Proof. induction l as [|a l IH]; cbn; [reflexivity|]. rewrite map_app, IH. reflexivity. Qed.

Lemma flat_map_ext_in {A B} (f g : A -> list B) l : (forall a, In a l -> f a = g a) -> flat_map f l = flat_map g l.
Proof. intros H. rewrite !flat_map_concat_map. f_equal. apply map_ext_in. exact H. Qed.

Lemma flat_map_flat_map_nil {A B C} (g : B -> list C) (f : A -> list B) l :
  (forall a, flat_map g (f a) = []) -> flat_map g (flat_map f l) = [].
Proof. intros H. rewrite flat_map_flat_map. induction l as [|a l IH]; cbn [flat_map]; [reflexivity|]. rewrite H, IH. reflexivity. Qed.

Lemma in_flat_map_seq {A} (f : nat -> list A) e n i :
  In e (flat_map f (seq i n)) <-> exists j, j < n /\ In e (f (i + j)).
Proof.
  rewrite in_flat_map. split.
  - intros (k & Hk & He). apply in_seq in Hk. exists (k - i). replace (i + (k - i)) with k by lia. split; [lia|exact He].
  - intros (j & Hj & He). exists (i + j). split; [apply in_seq; lia|exact He].
Qed.

Lemma flat_map_seq_shift {A} (g : nat -> list A) off l :
  flat_map g (seq off l) = flat_map (fun i => g (off + i)) (seq 0 l).
Proof. rewrite !flat_map_concat_map, (map_seq_shift g). reflexivity. Qed.

Lemma flat_map_tiles {A} (g : nat -> list A) a b :
  flat_map g (seq 0 (a * b)) = flat_map (fun k => flat_map g (seq (k * b) b)) (seq 0 a).
Proof. rewrite seq_tiles. apply flat_map_flat_map. Qed.

Lemma flat_map_length_count {A B} (good : A -> bool) (h : A -> list B) c l :
  (forall x, length (h x) = if good x then c else 0) ->
  length (flat_map h l) = length (filter good l) * c.
Proof.
  intros H. induction l as [|a l IH]; cbn; [reflexivity|].
  rewrite app_length, IH, H. destruct (good a); cbn; lia.
Qed.

(* ---------------------------------------------------------------- filter, forallb *)
Lemma filter_id {A} (f : A -> bool) l : Forall (fun x => f x = true) l -> filter f l = l.
Proof. induction 1 as [|x l Hx _ IH]; cbn; [reflexivity | now rewrite Hx, IH]. Qed.

Lemma filter_filter {A} (f g : A -> bool) l : filter f (filter g l) = filter (fun x => g x && f x) l.
Proof.
  induction l as [|a l IH]; cbn; [reflexivity|].
  destruct (g a); cbn; [destruct (f a); cbn; now rewrite IH | assumption].
Qed.

Lemma filter_map_comm {A B} (p : B -> bool) (f : A -> B) : forall l,
  filter p (map f l) = map f (filter (fun x => p (f x)) l).
Proof. induction l; simpl; [reflexivity|]. destruct (p (f a)); simpl; now rewrite IHl. Qed.

Lemma filter_flat_map {A B} (P : B -> bool) (h : A -> list B) l :
  filter P (flat_map h l) = flat_map (fun x => filter P (h x)) l.
Proof. induction l as [|a l IH]; cbn; [reflexivity | now rewrite filter_app, IH]. Qed.

Lemma filter_length_le {A} (g : A -> bool) l : length (filter g l) <= length l.
Proof. induction l as [|x l IH]; cbn; [lia | destruct (g x); cbn; lia]. Qed.

Lemma filter_length_imp {A} (g h : A -> bool) l : (forall x, g x = true -> h x = true) ->
  length (filter g l) <= length (filter h l).
Proof.
  intros H. induction l as [|a l IH]; cbn; [lia|]. destruct (g a) eqn:E.
  - rewrite (H a E). cbn. lia.
  - destruct (h a); cbn; lia.
Qed.

Lemma filter_partition_length {A} (g : A -> bool) l :
  length (filter g l) + length (filter (fun x => negb (g x)) l) = length l.
Proof. induction l as [|a l IH]; cbn; [reflexivity | destruct (g a); cbn; lia]. Qed.

Lemma filter_map_length {A B} (g : B -> bool) (f : A -> B) l :
  length (filter g (map f l)) = length (filter (fun x => g (f x)) l).
Proof. rewrite filter_map_comm. apply map_length. Qed.

Lemma forallb_ext_in {A} (f h : A -> bool) l : (forall x, In x l -> f x = h x) -> forallb f l = forallb h l.
Proof.
  induction l as [|a l IH]; intros H; cbn; [reflexivity|]. rewrite H by now left.
  rewrite IH; [reflexivity | intros; apply H; now right].
Qed.

Lemma forallb_swap {A B} (h : A -> B -> bool) (la : list A) (lb : list B) :
  forallb (fun a => forallb (h a) lb) la = forallb (fun b => forallb (fun a => h a b) la) lb.
Proof.
  apply eq_true_iff_eq. rewrite !forallb_forall. split.
  - intros H b Hb. apply forallb_forall. intros a Ha. specialize (H a Ha). rewrite forallb_forall in H. now apply H.
  - intros H a Ha. apply forallb_forall. intros b Hb. specialize (H b Hb). rewrite forallb_forall in H. now apply H.
Qed.

(* ---------------------------------------------------------------- NoDup, ForallOrdPairs *)
Lemma NoDup_map_inj_in {A B} (f : A -> B) (l : list A) :
  (forall a b, In a l -> In b l -> f a = f b -> a = b) -> NoDup l -> NoDup (map f l).
Proof.
  induction l as [|a l IH]; intros Hinj Hnd; cbn [map]; [constructor|].
  inversion Hnd as [|? ? Hna Hnd']; subst. constructor.
  - intros Hin. apply in_map_iff in Hin. destruct Hin as (b & Hb & Hbl).
    assert (b = a) by (apply Hinj; [now right | now left | exact Hb]). subst b. contradiction.
  - apply IH; [|exact Hnd']. intros x y Hx Hy. apply Hinj; now right.
Qed.

Lemma NoDup_app {A} (l1 l2 : list A) :
  NoDup l1 -> NoDup l2 -> (forall x, In x l1 -> ~ In x l2) -> NoDup (l1 ++ l2).
Proof.
  induction 1 as [|x l1 Hx _ IH]; intros H2 Hd; [exact H2|].
  cbn [app]. constructor.
  - rewrite in_app_iff. intros [H|H]; [exact (Hx H)|]. exact (Hd x (or_introl eq_refl) H).
  - apply IH; [exact H2|]. intros y Hy. apply Hd. right. exact Hy.
Qed.

Lemma NoDup_app_l {A} (a b : list A) : NoDup (a ++ b) -> NoDup a.
Proof.
  induction a as [|x a IH]; cbn [app]; intros H; [constructor|].
  inversion H as [|? ? Hn Hd]; subst. constructor; [|now apply IH].
  intros Hin. apply Hn. apply in_or_app. now left.
Qed.

(* the pieces f x are duplicate-free and pairwise disjoint *)
Lemma NoDup_flat_map {A B} (f : A -> list B) (l : list A) :
  NoDup l -> (forall x, In x l -> NoDup (f x)) ->
  (forall x y c, In x l -> In y l -> In c (f x) -> In c (f y) -> x = y) ->
  NoDup (flat_map f l).
Proof.
  induction 1 as [|x l Hx Hnd IH]; intros Hf Hd; [constructor|].
  cbn [flat_map]. apply NoDup_app.
  - apply Hf. left. reflexivity.
  - apply IH.
    + intros y Hy. apply Hf. right. exact Hy.
    + intros y z c Hy Hz. apply Hd; right; assumption.
  - intros c Hc Hc'. apply in_flat_map in Hc'. destruct Hc' as (y & Hy & Hcy).
    assert (x = y) by (apply (Hd x y c); [left; reflexivity|right; exact Hy|exact Hc|exact Hcy]).
    subst y. exact (Hx Hy).
Qed.

(* disjointness witnessed by a key that recovers the piece an element lies in *)
Lemma NoDup_flat_map_key {A B} (key : B -> A) (g : A -> list B) l :
  NoDup l -> (forall x, In x l -> NoDup (g x)) -> (forall x p, In x l -> In p (g x) -> key p = x) ->
  NoDup (flat_map g l).
Proof.
  intros Hl Hg Hk. apply NoDup_flat_map; [exact Hl | exact Hg |].
  intros x y c Hx Hy Hcx Hcy. rewrite <- (Hk x c Hx Hcx). apply Hk; assumption.
Qed.

Lemma ForallOrdPairs_impl_In {A} (R S : A -> A -> Prop) l :
  (forall a b, In a l -> In b l -> R a b -> S a b) -> ForallOrdPairs R l -> ForallOrdPairs S l.
Proof.
  intros H F. induction F as [|b r Hb F IH]; constructor.
  - rewrite Forall_forall in *. intros a Ha. apply H; [left; reflexivity|right; exact Ha|apply Hb, Ha].
  - apply IH. intros a c Ha Hc. apply H; right; assumption.
Qed.

Lemma ForallOrdPairs_map_seq {A} (R : A -> A -> Prop) (f : nat -> A) :
  (forall i j, i <> j -> R (f i) (f j)) -> forall n off, ForallOrdPairs R (map f (seq off n)).
Proof.
  intros H. induction n as [|n IH]; intros off; cbn [seq map]; constructor; [|apply IH].
  apply Forall_forall. intros y Hy. apply in_map_iff in Hy. destruct Hy as (j & <- & Hj).
  apply in_seq in Hj. apply H. lia.
Qed.

(* ---------------------------------------------------------------- combine *)
Lemma combine_app_l {A B} : forall (a b : list A) (l : list B),
  combine (a ++ b) l = combine a (firstn (length a) l) ++ combine b (skipn (length a) l).
Proof.
  induction a as [|x a IH]; intros b l; simpl; [reflexivity|].
  destruct l as [|y l]; simpl; [now rewrite combine_nil | now rewrite IH].
Qed.

Lemma combine_map_map {A B C} (f : A -> B) (g : A -> C) : forall l,
  combine (map f l) (map g l) = map (fun x => (f x, g x)) l.
Proof. induction l; simpl; [reflexivity | now rewrite IHl]. Qed.

Lemma combine_map_self {A B} (f : A -> B) l : combine l (map f l) = map (fun k => (k, f k)) l.
Proof. rewrite <- (map_id l) at 1. apply combine_map_map. Qed.

Lemma nth_error_combine {X Y} (a : list X) (b : list Y) q u v :
  nth_error a q = Some u -> nth_error b q = Some v -> nth_error (combine a b) q = Some (u, v).
Proof.
  revert b q; induction a as [|u0 a IH]; intros b q0 Ha Hb; destruct q0; destruct b; cbn in *; try discriminate.
  - now inversion Ha; inversion Hb.
  - now apply IH.
Qed.
