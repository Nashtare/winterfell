(* C14 — non-vacuity of the generic commutation theorems, and necessity of the disjointness hypothesis. *)
From Coq Require Import List Arith Bool Lia.
From VModel Require Import FFT Par.
From VProofs Require Import ParCommute.
Import ListNotations.

(* two atomic steps reading cell 0 and writing cells 1 and 2 *)
Definition ex_t1 : task nat := cell_task [0] 1 (fun s => nth 0 s 0 + 1).
Definition ex_t2 : task nat := cell_task [0] 2 (fun s => nth 0 s 0 * 2).
(* two steps that copy cell 0 -> 1 and cell 1 -> 0: read/write overlap *)
Definition ex_c01 : task nat := cell_task [0] 1 (fun s => nth 0 s 0).
Definition ex_c10 : task nat := cell_task [1] 0 (fun s => nth 1 s 0).

Lemma ex_t1_ok : task_ok 0 ex_t1.
Proof. apply cell_task_ok. intros s s' _ H. rewrite (H 0); [reflexivity|left; reflexivity]. Qed.
Lemma ex_t2_ok : task_ok 0 ex_t2.
Proof. apply cell_task_ok. intros s s' _ H. rewrite (H 0); [reflexivity|left; reflexivity]. Qed.
Lemma ex_c01_ok : task_ok 0 ex_c01.
Proof. apply cell_task_ok. intros s s' _ H. apply (H 0). left; reflexivity. Qed.
Lemma ex_c10_ok : task_ok 0 ex_c10.
Proof. apply cell_task_ok. intros s s' _ H. apply (H 1). left; reflexivity. Qed.

(* the hypotheses of disjoint_commute are satisfiable by a non-trivial phase ... *)
Example disjoint_commute_hyp_sat :
  Forall (task_ok 0) [ex_t1; ex_t2] /\ ForallOrdPairs independent [ex_t1; ex_t2] /\
  exec [ex_t1; ex_t2] [5; 0; 0] = [5; 6; 10] /\ exec [ex_t2; ex_t1] [5; 0; 0] = [5; 6; 10].
Proof.
  split; [|split; [|split]].
  - constructor; [apply ex_t1_ok|constructor; [apply ex_t2_ok|constructor]].
  - apply (pairwiseb_sound independentb independent independentb_sound). reflexivity.
  - reflexivity.
  - reflexivity.
Qed.

(* ... and the disjointness hypothesis cannot be dropped: well-formed tasks with a read/write overlap do not commute *)
Example dependent_tasks_do_not_commute :
  Forall (task_ok 0) [ex_c01; ex_c10] /\ ~ independent ex_c01 ex_c10 /\
  exec [ex_c01; ex_c10] [1; 2] <> exec [ex_c10; ex_c01] [1; 2].
Proof.
  split; [|split].
  - constructor; [apply ex_c01_ok|constructor; [apply ex_c10_ok|constructor]].
  - intros (_ & B & _). apply (B 1); left; reflexivity.
  - cbv. discriminate.
Qed.

(* interleavings: hypotheses satisfiable, with a complete interleaving of two 2-step tasks *)
Example interleave_hyp_sat :
  let tss := [[ex_t1; ex_t1]; [ex_t2; ex_t2]] in
  Forall (Forall (task_ok 0)) tss /\ cross_independent tss /\
  (let '(out, rest) := merge_by [1; 0; 0; 1] tss in all_empty rest = true /\ exec out [5; 0; 0] = exec (concat tss) [5; 0; 0]).
Proof.
  cbn zeta. split; [|split; [|split; reflexivity]].
  - repeat (constructor; try apply ex_t1_ok; try apply ex_t2_ok).
  - intros a b Hab x y Hx Hy.
    assert (Hx' : a < 2 /\ (x = ex_t1 /\ a = 0 \/ x = ex_t2 /\ a = 1)).
    { destruct a as [|[|a]]; cbn in Hx; [| |destruct a; contradiction]; intuition. }
    assert (Hy' : b < 2 /\ (y = ex_t1 /\ b = 0 \/ y = ex_t2 /\ b = 1)).
    { destruct b as [|[|b]]; cbn in Hy; [| |destruct b; contradiction]; intuition. }
    destruct Hx' as (_ & [[-> ->]|[-> ->]]); destruct Hy' as (_ & [[-> ->]|[-> ->]]); try lia;
      apply independentb_sound; reflexivity.
Qed.
