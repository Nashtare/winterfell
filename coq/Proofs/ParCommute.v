(* C14 — generic fork-join theory: tasks with disjoint footprints commute, hence every task-level schedule
   (permutation) and every step-level interleaving of a phase gives the same final store. *)
From Coq Require Import List Arith Bool Lia Permutation.
From VModel Require Import FFT Par.
From VProofs Require Import ListFacts ParLists.
Import ListNotations.

Section Commute.
Context {V : Type} (dflt : V).
Notation task := (task V).

(* semantic well-formedness of the declared footprints *)
Definition task_ok (t : task) : Prop :=
  (forall s, length (t_run t s) = length s) /\
  (forall s i, ~ In i (t_writes t) -> nth i (t_run t s) dflt = nth i s dflt) /\
  (forall s s', length s = length s' -> (forall i, In i (t_reads t) -> nth i s dflt = nth i s' dflt) ->
     forall i, In i (t_writes t) -> nth i (t_run t s) dflt = nth i (t_run t s') dflt).

Definition disjoint (l1 l2 : list nat) : Prop := forall i, In i l1 -> ~ In i l2.

Definition independent (t1 t2 : task) : Prop :=
  disjoint (t_writes t1) (t_writes t2) /\ disjoint (t_writes t1) (t_reads t2) /\ disjoint (t_writes t2) (t_reads t1).

Lemma independent_sym t1 t2 : independent t1 t2 -> independent t2 t1.
Proof.
  intros (A & B & C). repeat split; auto.
  intros i H1 H2. exact (A i H2 H1).
Qed.

(* tasks whose whole footprints lie in two disjoint sets of cells *)
Lemma independent_separated (A B : nat -> Prop) t1 t2 : (forall c, A c -> B c -> False) ->
  (forall c, In c (t_reads t1 ++ t_writes t1) -> A c) -> (forall c, In c (t_reads t2 ++ t_writes t2) -> B c) ->
  independent t1 t2.
Proof.
  intros HAB HA HB. repeat split; intros i H1 H2; apply (HAB i); (apply HA || apply HB); apply in_app_iff; auto.
Qed.

Lemma exec_app (a b : list task) s : exec (a ++ b) s = exec b (exec a s).
Proof. unfold exec. apply fold_left_app. Qed.

Lemma exec_cons (x : task) l s : exec (x :: l) s = exec l (t_run x s).
Proof. reflexivity. Qed.

Lemma exec_length ts : Forall task_ok ts -> forall s, length (exec ts s) = length s.
Proof.
  induction 1 as [|t ts Ht _ IH]; intros s; [reflexivity|].
  rewrite exec_cons, IH. apply Ht.
Qed.

Lemma commute2 t1 t2 s : task_ok t1 -> task_ok t2 -> independent t1 t2 ->
  t_run t2 (t_run t1 s) = t_run t1 (t_run t2 s).
Proof.
  intros (L1 & F1 & D1) (L2 & F2 & D2) (Hww & Hwr & Hrw).
  apply nth_ext with (d := dflt) (d' := dflt).
  - rewrite L2, L1, L1, L2. reflexivity.
  - intros i _.
    destruct (in_dec Nat.eq_dec i (t_writes t1)) as [I1|N1].
    + assert (N2 : ~ In i (t_writes t2)) by (apply Hww; exact I1).
      rewrite F2 by exact N2.
      apply D1; [symmetry; apply L2| |exact I1].
      intros j Hj. symmetry. apply F2. intro Hj2. exact (Hrw j Hj2 Hj).
    + rewrite (F1 (t_run t2 s)) by exact N1.
      destruct (in_dec Nat.eq_dec i (t_writes t2)) as [I2|N2].
      * apply D2; [apply L1| |exact I2].
        intros j Hj. apply F1. intro Hj1. exact (Hwr j Hj1 Hj).
      * rewrite F2 by exact N2. rewrite F2 by exact N2. apply F1; exact N1.
Qed.

(* a task independent of every task of a list can be moved across the list *)
Lemma commute_past x l : task_ok x -> Forall task_ok l -> Forall (independent x) l ->
  forall s, exec l (t_run x s) = t_run x (exec l s).
Proof.
  intros Hx Hl Hi. induction l as [|y l IH]; intros s; [reflexivity|].
  inversion Hl; subst. inversion Hi; subst.
  rewrite !exec_cons. rewrite (commute2 x y) by assumption. apply IH; assumption.
Qed.

(* ---------------------------------------------------------------- task-level schedules *)
Lemma FOP_perm {A} (R : A -> A -> Prop) : (forall a b, R a b -> R b a) ->
  forall l l', Permutation l l' -> ForallOrdPairs R l -> ForallOrdPairs R l'.
Proof.
  intros Hsym l l' P. induction P as [|x l l' P IH|x y l|l l' l'' P1 IH1 P2 IH2]; intros H.
  - constructor.
  - inversion H; subst. constructor; [eapply Permutation_Forall; eassumption|auto].
  - inversion H as [|? ? Hy H']; subst. inversion H' as [|? ? Hx H'']; subst.
    inversion Hy; subst. constructor; [constructor; auto|constructor; assumption].
  - auto.
Qed.

(* pairwise independent well-formed tasks give the same final store under EVERY permutation *)
Theorem disjoint_commute : forall ts ts', Permutation ts ts' ->
  Forall task_ok ts -> ForallOrdPairs independent ts ->
  forall s, exec ts s = exec ts' s.
Proof.
  intros ts ts' P. induction P as [|x l l' P IH|x y l|l l' l'' P1 IH1 P2 IH2]; intros Hok Hind s.
  - reflexivity.
  - inversion Hok; subst. inversion Hind; subst. rewrite !exec_cons. apply IH; assumption.
  - inversion Hok as [|? ? Hy Hok']; subst. inversion Hok' as [|? ? Hx Hok'']; subst.
    inversion Hind as [|? ? Hyl _]; subst. inversion Hyl; subst.
    rewrite !exec_cons. f_equal. apply commute2; assumption.
  - rewrite IH1 by assumption. apply IH2.
    + eapply Permutation_Forall; eassumption.
    + eapply FOP_perm; [exact independent_sym|eassumption|assumption].
Qed.

(* in particular for the schedules of the model: [reorder ts sched] with sched a permutation of the positions *)
Lemma reorder_perm (ts : list task) sched : Permutation sched (seq 0 (length ts)) -> Permutation (reorder ts sched) ts.
Proof.
  intros P. apply (Permutation_map (fun k => nth k ts idle)) in P. rewrite map_nth_seq in P. exact P.
Qed.

Corollary schedule_independent ts sched : Permutation sched (seq 0 (length ts)) ->
  Forall task_ok ts -> ForallOrdPairs independent ts ->
  forall s, exec (reorder ts sched) s = exec ts s.
Proof.
  intros P Hok Hind s. symmetry. apply disjoint_commute; try assumption.
  apply Permutation_sym, reorder_perm; exact P.
Qed.

(* ---------------------------------------------------------------- step-level interleavings *)
(* steps of DIFFERENT tasks are independent *)
Definition cross_independent (tss : list (list task)) : Prop :=
  forall a b, a <> b -> forall x y, In x (nth a tss []) -> In y (nth b tss []) -> independent x y.

Lemma exec_concat_split (pre : list (list task)) (mid : list task) post s :
  exec (concat (pre ++ mid :: post)) s = exec (mid ++ concat post) (exec (concat pre) s).
Proof. rewrite concat_app, exec_app. cbn [concat]. reflexivity. Qed.

Theorem merge_by_spec : forall choices tss out rest,
  merge_by choices tss = (out, rest) ->
  Forall (Forall task_ok) tss -> cross_independent tss ->
  forall s, exec (out ++ concat rest) s = exec (concat tss) s.
Proof.
  induction choices as [|c cs IH]; intros tss out rest E Hok Hci s.
  - cbn in E. inversion E; subst. reflexivity.
  - cbn [merge_by] in E. destruct (nth c tss []) as [|x r] eqn:En.
    + eapply IH; eassumption.
    + destruct (merge_by cs (lupd tss c r)) as [out' rest'] eqn:Em. inversion E; subst out rest.
      assert (Hc : c < length tss).
      { destruct (Nat.ltb_spec c (length tss)); [assumption|]. rewrite nth_overflow in En by assumption. discriminate. }
      destruct (nth_split tss [] Hc) as (pre & post & Etss & Hlen). rewrite En in Etss.
      assert (El : lupd tss c r = pre ++ r :: post).
      { rewrite Etss at 1. rewrite <- Hlen. apply lupd_app. }
      assert (Hok' : Forall (Forall task_ok) (pre ++ (x :: r) :: post)) by (rewrite <- Etss; exact Hok).
      apply Forall_app in Hok'. destruct Hok' as [Hpre Hrest]. apply Forall_cons_iff in Hrest. destruct Hrest as [Hxr Hpost].
      apply Forall_cons_iff in Hxr. destruct Hxr as [Hx Hr].
      cbn [app]. rewrite exec_cons.
      rewrite (IH (lupd tss c r) out' rest' Em).
      * rewrite El, Etss. rewrite !exec_concat_split.
        rewrite commute_past; [reflexivity|exact Hx| |].
        -- apply Forall_concat. exact Hpre.
        -- apply Forall_forall. intros y Hy. apply in_concat in Hy. destruct Hy as (l & Hl & Hyl).
           destruct (In_nth pre l [] Hl) as (a & Ha & Eal).
           apply (Hci c a); [lia| |].
           ++ rewrite En. left. reflexivity.
           ++ rewrite Etss. rewrite app_nth1 by exact Ha. rewrite Eal. exact Hyl.
      * rewrite El. apply Forall_app. split; [exact Hpre|constructor; assumption].
      * assert (Hsub : forall a z, In z (nth a (lupd tss c r) []) -> In z (nth a tss [])).
        { intros a z Hz. rewrite nth_lupd in Hz. destruct (Nat.eqb_spec c a) as [<-|_]; [|exact Hz].
          destruct (c <? length tss); [|exact Hz]. rewrite En. right. exact Hz. }
        intros a b Hab x' y' Hx' Hy'. apply (Hci a b Hab); apply Hsub; assumption.
Qed.

Lemma all_empty_concat {A} (tss : list (list A)) : all_empty tss = true -> concat tss = [].
Proof.
  induction tss as [|l tss IH]; cbn; [reflexivity|]. destruct l; [|discriminate]. cbn. exact IH.
Qed.

(* every complete interleaving of the atomic steps = the tasks one after the other *)
Theorem interleave_commute : forall choices tss out rest,
  merge_by choices tss = (out, rest) -> all_empty rest = true ->
  Forall (Forall task_ok) tss -> cross_independent tss ->
  forall s, exec out s = exec (concat tss) s.
Proof.
  intros choices tss out rest E He Hok Hci s.
  rewrite <- (merge_by_spec choices tss out rest E Hok Hci s).
  rewrite (all_empty_concat rest He), app_nil_r. reflexivity.
Qed.

(* ---------------------------------------------------------------- composite tasks *)
Lemma exec_map_compose (tss : list (list task)) s : exec (map compose tss) s = exec (concat tss) s.
Proof.
  revert s; induction tss as [|l tss IH]; intros s; [reflexivity|].
  cbn [map concat]. rewrite exec_cons, exec_app. cbn [compose t_run]. apply IH.
Qed.

Lemma compose_ok steps : Forall task_ok steps -> task_ok (compose steps).
Proof.
  intros Hok. unfold compose, task_ok; cbn [t_run t_reads t_writes]. repeat split.
  - apply exec_length; exact Hok.
  - induction Hok as [|t ts Ht _ IH]; intros s i Hn; [reflexivity|].
    cbn [flat_map] in Hn. rewrite in_app_iff in Hn. rewrite exec_cons, IH by tauto.
    apply Ht. tauto.
  - (* invariant: the two stores agree on the whole footprint R (which contains every read and write) *)
    set (R := flat_map (fun t => t_reads t ++ t_writes t) steps).
    assert (G : forall ts, Forall task_ok ts -> (forall t i, In t ts -> In i (t_reads t) \/ In i (t_writes t) -> In i R) ->
                forall s s', length s = length s' -> (forall i, In i R -> nth i s dflt = nth i s' dflt) ->
                forall i, In i R -> nth i (exec ts s) dflt = nth i (exec ts s') dflt).
    { induction 1 as [|t ts (L & F & D) _ IH]; intros Hsub s s' Hl Hag i Hi; [apply Hag; exact Hi|].
      rewrite !exec_cons. apply IH.
      - intros t' j Ht'. apply Hsub. right. exact Ht'.
      - rewrite !L. exact Hl.
      - intros j Hj. destruct (in_dec Nat.eq_dec j (t_writes t)) as [Iw|Nw].
        + apply D; [exact Hl| |exact Iw]. intros k Hk. apply Hag. apply (Hsub t k); [left; reflexivity|left; exact Hk].
        + rewrite !F by exact Nw. apply Hag; exact Hj.
      - exact Hi. }
    intros s s' Hl Hag i Hi. apply (G steps Hok); try assumption.
    + intros t j Ht Hj. unfold R. apply in_flat_map. exists t. split; [exact Ht|]. apply in_app_iff. exact Hj.
    + unfold R. apply in_flat_map in Hi. destruct Hi as (t & Ht & Hit). apply in_flat_map. exists t. split; [exact Ht|].
      apply in_app_iff. right. exact Hit.
Qed.

Lemma compose_independent l1 l2 :
  (forall x y, In x l1 -> In y l2 -> independent x y) -> independent (compose l1) (compose l2).
Proof.
  intros H. unfold independent, disjoint; cbn [compose t_reads t_writes]. repeat split; intros i H1 H2;
    apply in_flat_map in H1; destruct H1 as (x & Hx & Hix); apply in_flat_map in H2; destruct H2 as (y & Hy & Hiy).
  - destruct (H x y Hx Hy) as (A & _ & _). exact (A i Hix Hiy).
  - destruct (H x y Hx Hy) as (A & B & _). apply in_app_iff in Hiy. destruct Hiy; [exact (B i Hix H0)|exact (A i Hix H0)].
  - destruct (H y x Hy Hx) as (A & _ & C). apply in_app_iff in Hiy. destruct Hiy; [exact (C i Hix H0)|exact (A i H0 Hix)].
Qed.

Lemma cross_independent_pairs (tss : list (list task)) :
  cross_independent tss -> ForallOrdPairs independent (map compose tss).
Proof.
  induction tss as [|l tss IH]; intros H; [constructor|]. cbn [map]. constructor.
  - apply Forall_forall. intros t Ht. apply in_map_iff in Ht. destruct Ht as (l2 & <- & Hl2).
    destruct (In_nth tss l2 [] Hl2) as (b & Hb & Eb).
    apply compose_independent. intros x y Hx Hy. apply (H 0 (S b)); [lia|exact Hx|]. cbn [nth]. rewrite Eb. exact Hy.
  - apply IH. intros a b Hab x y Hx Hy. apply (H (S a) (S b)); [lia|exact Hx|exact Hy].
Qed.

(* a phase whose tasks are step lists: every task-level schedule and every complete step-level interleaving
   produce the store of the canonical order *)
Theorem phase_schedule_independent (tss : list (list task)) :
  Forall (Forall task_ok) tss -> cross_independent tss ->
  (forall sched s, Permutation sched (seq 0 (length tss)) ->
     exec (reorder (map compose tss) sched) s = exec (concat tss) s) /\
  (forall choices out rest s, merge_by choices tss = (out, rest) -> all_empty rest = true ->
     exec out s = exec (concat tss) s).
Proof.
  intros Hok Hci. split.
  - intros sched s P. rewrite schedule_independent.
    + apply exec_map_compose.
    + rewrite map_length. exact P.
    + apply Forall_forall. intros t Ht. apply in_map_iff in Ht. destruct Ht as (l & <- & Hl).
      apply compose_ok. rewrite Forall_forall in Hok. apply Hok. exact Hl.
    + apply cross_independent_pairs. exact Hci.
  - intros choices out rest s E He. eapply interleave_commute; eassumption.
Qed.

(* ---------------------------------------------------------------- atomic steps *)
Lemma cell_task_ok rd w (f : list V -> V) :
  (forall s s', length s = length s' -> (forall i, In i rd -> nth i s dflt = nth i s' dflt) -> f s = f s') ->
  task_ok (cell_task rd w f).
Proof.
  intros Hf. unfold task_ok, cell_task; cbn [t_run t_reads t_writes]. repeat split.
  - intros s. apply lupd_length.
  - intros s i Hn. apply nth_lupd_other. intros ->. apply Hn. left. reflexivity.
  - intros s s' Hl Hag i [<-|[]]. rewrite !nth_lupd, Nat.eqb_refl, Hl. cbn [andb].
    destruct (Nat.ltb_spec w (length s')) as [Hlt|Hge]; [apply Hf; assumption|].
    rewrite !nth_overflow; auto; lia.
Qed.

Lemma mem_In i l : mem i l = true <-> In i l.
Proof.
  unfold mem. rewrite existsb_exists. split.
  - intros (x & Hx & E). apply Nat.eqb_eq in E. subst. exact Hx.
  - intros H. exists i. split; [exact H|apply Nat.eqb_refl].
Qed.

Lemma disjointb_sound l1 l2 : disjointb l1 l2 = true -> disjoint l1 l2.
Proof.
  unfold disjointb, disjoint. rewrite forallb_forall. intros H i Hi Hi2.
  specialize (H i Hi). apply negb_true_iff in H. apply mem_In in Hi2. congruence.
Qed.

Lemma independentb_sound t1 t2 : independentb t1 t2 = true -> independent t1 t2.
Proof.
  unfold independentb. intros H. apply andb_prop in H. destruct H as [H C]. apply andb_prop in H. destruct H as [A B].
  repeat split; apply disjointb_sound; assumption.
Qed.

Lemma pairwiseb_sound {A} (r : A -> A -> bool) (R : A -> A -> Prop) :
  (forall a b, r a b = true -> R a b) -> forall l, pairwiseb r l = true -> ForallOrdPairs R l.
Proof.
  intros Hr. induction l as [|x l IH]; intros H; [constructor|]. cbn in H. apply andb_prop in H. destruct H as [H1 H2].
  constructor; [|auto]. apply Forall_forall. intros y Hy. apply Hr. rewrite forallb_forall in H1. auto.
Qed.

End Commute.
