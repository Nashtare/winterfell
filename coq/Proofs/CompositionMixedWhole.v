(* C17 — the mixed model (E != B) of the whole single-segment prover path equals the single-field model over the
   extension field applied to the embedded base-field inputs; hence the `_ext` versions of the table theorem and of the
   capstone.  The same for the verifier's evaluate_constraints.  stdlib style. *)
From Coq Require Import List Arith Bool ZArith.
From VBase Require Import FieldOps.
From VModel Require Import Composition CompositionMixed CompositionMixedWhole.
From VProofs Require Import ListFacts CompositionBase CompositionIndex CompositionVerifier CompositionTable CompositionMixed.
Import ListNotations.

Lemma fold_max_map_length {A B0} (f : A -> B0) (ls : list (list A)) a :
  fold_left Nat.max (map (@length B0) (map (map f) ls)) a = fold_left Nat.max (map (@length A) ls) a.
Proof. f_equal. rewrite map_map. apply map_ext. intros; apply map_length. Qed.

Section Whole.
Context {B E : Type} (OB : FOps B) (OE : FOps E) (LB : FLaws OB) (LE : FLaws OE).
Variable emb : B -> E.
Variable mul_base : E -> B -> E.
Hypothesis H : Emb OB OE emb mul_base.

Local Notation e0 := (emb_zero _ _ _ _ H).
Local Notation e1 := (emb_one _ _ _ _ H).
Local Notation eadd := (emb_add _ _ _ _ H).
Local Notation esub := (emb_sub _ _ _ _ H).
Local Notation emul := (emb_mul _ _ _ _ H).

Variable n ceb ldeb : nat.
Variable offset : B.
Variable rou : nat -> B.
Local Notation rouE := (fun m => emb (rou m)).
Local Notation offE := (emb offset).

Definition embD (d : @Div B) : @Div E := mkDiv (dv_a d) (emb (dv_b d)) (map emb (dv_ex d)).
Definition embBC (c : @BCm B E) : @BC E := mkBC (m_col c) (map emb (m_poly c)) (m_first c) (emb (m_xoff c)) (m_cc c).
Definition embG (g : @BGm B E) : @BGroup E := mkBG (embD (gm_div g)) (map embBC (gm_cs g)).
Definition embT (t : @PTable B) : @PTable E := mkPT (map emb (pt_values t)) (pt_length t) (pt_width t).

(* ---------------------------------------------------------------- domain points *)
Lemma emb_ce_domain : map emb (ce_domain OB n ceb rou) = ce_domain OE n ceb rouE.
Proof.
  unfold ce_domain, power_series, wce. rewrite (emb_power_series_from OB OE emb mul_base H), e1. reflexivity.
Qed.

Lemma emb_get_ce_x_at step :
  get_ce_x_at OE n ceb offE rouE step = option_map emb (get_ce_x_at OB n ceb offset rou step).
Proof.
  unfold get_ce_x_at. rewrite <- emb_ce_domain, nth_error_map.
  destruct (nth_error (ce_domain OB n ceb rou) step); cbn [option_map]; [now rewrite emul | reflexivity].
Qed.

Lemma emb_get_ce_x_power_at step power oe :
  get_ce_x_power_at OE n ceb rouE step power (emb oe) = option_map emb (get_ce_x_power_at OB n ceb rou step power oe).
Proof.
  unfold get_ce_x_power_at. rewrite <- emb_ce_domain, nth_error_map.
  destruct (nth_error (ce_domain OB n ceb rou) _); cbn [option_map]; [now rewrite emul | reflexivity].
Qed.

(* ---------------------------------------------------------------- divisors *)
Lemma emb_get_inv_evaluation d :
  get_inv_evaluation OE n ceb offE rouE (embD d) = option_map (map emb) (get_inv_evaluation OB n ceb offset rou d).
Proof.
  unfold get_inv_evaluation. cbn [embD dv_a dv_b]. destruct (dv_a d) as [|a]; [reflexivity|].
  rewrite <- (emb_cpow OB OE emb mul_base H).
  rewrite (mapM_opt _ (fun i => get_ce_x_power_at OB n ceb rou i (S a) (cpow OB offset (S a))) emb)
    by (intros i _; apply emb_get_ce_x_power_at).
  destruct (mapM _ _); cbn [option_map]; [|reflexivity].
  f_equal. rewrite !map_map. apply map_ext. intros xa.
  now rewrite (emb_inv OB OE LB LE emb mul_base H), esub.
Qed.

Lemma emb_div_exemptions_at d x :
  div_exemptions_at OE (embD d) (emb x) = emb (div_exemptions_at OB d x).
Proof.
  unfold div_exemptions_at. cbn [embD dv_ex]. rewrite <- e1. generalize (fone OB).
  induction (dv_ex d) as [|a l IH]; intros acc; cbn [map fold_left]; [reflexivity|].
  rewrite <- esub, <- emul. apply IH.
Qed.

Lemma emb_acc_factor d zs i :
  acc_factor OE n ceb offE rouE (embD d) (map emb zs) i = option_map emb (acc_factor OB n ceb offset rou d zs i).
Proof.
  unfold acc_factor. rewrite map_length. destruct (length zs) eqn:El; [reflexivity|]. rewrite <- El.
  rewrite nth_error_map. destruct (nth_error zs (i mod length zs)); cbn [option_map]; [|reflexivity].
  cbn [embD dv_ex]. destruct (dv_ex d) as [|a l] eqn:Ed; cbn [map]; [reflexivity|].
  rewrite emb_get_ce_x_at. destruct (get_ce_x_at OB n ceb offset rou i); cbn [option_map]; [|reflexivity].
  f_equal. rewrite emul. f_equal. rewrite <- emb_div_exemptions_at. unfold embD. now rewrite Ed.
Qed.

Lemma emb_tdiv exemptions : tdiv OE n rouE exemptions = embD (tdiv OB n rou exemptions).
Proof.
  unfold tdiv, div_from_transition, embD. cbn [dv_a dv_b dv_ex]. rewrite e1, map_map. f_equal.
  apply map_ext. intros k. unfold gtrace. symmetry. apply (emb_cpow OB OE emb mul_base H).
Qed.

(* ---------------------------------------------------------------- trace LDE frames *)
Lemma emb_read_frame (lde : list (list B)) s :
  read_frame ldeb (map (map emb) lde) s
  = option_map (fun cn => (map emb (fst cn), map emb (snd cn))) (read_frame ldeb lde s).
Proof.
  unfold read_frame. rewrite map_length. destruct (length lde) eqn:El; [reflexivity|]. rewrite <- El.
  rewrite !nth_error_map. destruct (nth_error lde s); cbn [option_map]; [|reflexivity].
  destruct (nth_error lde _); reflexivity.
Qed.

(* ---------------------------------------------------------------- periodic table *)
Lemma emb_ptable_new (ppolys : list (list B)) :
  ptable_new OE n ceb offE rouE (map (map emb) ppolys) = option_map embT (ptable_new OB n ceb offset rou ppolys).
Proof.
  unfold ptable_new. destruct ppolys as [|p0 pt] eqn:Ep; [reflexivity|]. rewrite <- Ep.
  assert (Hm : forall (A : Type) (a b : A), match map (map emb) ppolys with [] => a | _ :: _ => b end = b)
    by (intros; rewrite Ep; reflexivity).
  rewrite Hm. clear Hm.
  rewrite fold_max_map_length, map_length.
  set (evB := map (fun poly => eval_poly_with_offset OB rou poly (cpow OB offset (n / length poly)) ceb) ppolys).
  assert (Eev : map (fun poly => eval_poly_with_offset OE rouE poly (cpow OE offE (n / length poly)) ceb) (map (map emb) ppolys)
                = map (map emb) evB).
  { unfold evB. rewrite !map_map. apply map_ext. intros poly. rewrite map_length.
    rewrite <- (emb_cpow OB OE emb mul_base H). symmetry. apply (emb_eval_poly_with_offset OB OE emb mul_base H). }
  rewrite Eev.
  rewrite (mapM_opt _ (fun i => mapM (fun column => match length column with 0 => None | _ => nth_error column (i mod length column) end) evB) (map emb)).
  - destruct (mapM _ (seq 0 _)); cbn [option_map]; [|reflexivity].
    unfold embT. cbn [pt_values pt_length pt_width]. now rewrite <- concat_map.
  - intros i _. rewrite mapM_map. apply mapM_opt. intros column _. rewrite map_length.
    destruct (length column); [reflexivity|]. apply nth_error_map.
Qed.

Lemma emb_pt_get_row t step : pt_get_row (embT t) step = option_map (map emb) (pt_get_row t step).
Proof.
  unfold pt_get_row, embT. cbn [pt_values pt_length pt_width]. rewrite map_length.
  destruct (pt_width t =? 0); [reflexivity|]. destruct (pt_length t); [reflexivity|].
  destruct (_ <=? _); cbn [option_map]; [|reflexivity]. now rewrite skipn_map, firstn_map.
Qed.

(* ---------------------------------------------------------------- boundary groups *)
Lemma is_single_emb c : is_single (embBC c) = is_single (bcm_base OB c).
Proof. unfold is_single. cbn [embBC bcm_base bc_poly]. now rewrite map_length. Qed.
Lemma is_small_emb c : is_small (embBC c) = is_small (bcm_base OB c).
Proof. unfold is_small. rewrite is_single_emb. cbn [embBC bcm_base bc_poly]. now rewrite map_length. Qed.
Lemma is_large_emb c : is_large (embBC c) = is_large (bcm_base OB c).
Proof. unfold is_large. rewrite is_single_emb. cbn [embBC bcm_base bc_poly]. now rewrite map_length. Qed.

Lemma emb_gm_evaluate_main g state step x :
  pg_evaluate_main OE (pg_from_main OE n ceb offE rouE (embG g)) (map emb state) step (emb x)
  = gm_evaluate_main OB OE mul_base n ceb offset rou g state step x.
Proof.
  unfold pg_evaluate_main, pg_from_main, gm_evaluate_main, embG.
  cbn [bg_div bg_cs pg_main_single pg_main_small pg_main_large].
  rewrite !filter_map_comm, !map_map, !(acc_opt_map OE).
  rewrite (filter_ext _ _ is_single_emb), (filter_ext _ _ is_small_emb), (filter_ext _ _ is_large_emb).
  apply (acc_opt_cong OE); [|apply (acc_opt_cong OE); [|apply (acc_opt_cong OE); [|reflexivity]]].
  - intros c _. rewrite (large_eval_mixed_embeds OB OE emb mul_base H).
    unfold large_new. cbn [embBC bc_col bc_poly bc_first bc_cc]. rewrite map_length.
    now rewrite (emb_eval_poly_with_offset OB OE emb mul_base H).
  - intros c _. rewrite (small_eval_mixed_embeds OB OE LB LE emb mul_base H). reflexivity.
  - intros c _. rewrite (single_eval_mixed_embeds OB OE emb mul_base H). unfold single_new. cbn [embBC bc_col bc_poly bc_cc].
    f_equal. f_equal. rewrite <- e0. apply map_nth.
Qed.

(* ---------------------------------------------------------------- the embedded setting is again a setting: what
   the single-field table theorems assume holds of the embedded data when it holds of the base-field data *)
Lemma CeSetting_emb r wlde : CeSetting OB n ceb ldeb r rou wlde -> CeSetting OE n ceb ldeb r rouE (emb wlde).
Proof.
  intros [? ? ? ? Ho Hw Hg]. constructor; try assumption; rewrite <- (emb_cpow OB OE emb mul_base H).
  - rewrite Ho. exact e1.
  - now rewrite Hw.
  - now rewrite Hg.
Qed.

Lemma ginv_emb ginv : fmul OB ginv (gtrace n rou) = fone OB -> fmul OE (emb ginv) (gtrace n rouE) = fone OE.
Proof. unfold gtrace. intros Hg. rewrite <- emul, Hg. exact e1. Qed.

Lemma periodic_emb (pp : list (list B)) : PeriodicOk OB n ceb rou pp -> PeriodicOk OE n ceb rouE (map (map emb) pp).
Proof.
  intros [P1 P2 P3 P4].
  constructor; intros p Hp; apply in_map_iff in Hp; destruct Hp as [p0 [<- Hp0]]; rewrite map_length.
  - now apply P1.
  - now apply P2.
  - rewrite fold_max_map_length. now apply P3.
  - rewrite (P4 p0 Hp0). apply (emb_cpow OB OE emb mul_base H).
Qed.

Lemma main_groups_ok_emb ginv (tp : list (list B)) (gs : list (@BGm B E)) :
  (forall g, In g gs ->
     (dv_ex (gm_div g) = [] /\ dv_a (gm_div g) <> 0 /\ dv_a (gm_div g) * (ce_size n ceb / dv_a (gm_div g)) = ce_size n ceb)
     /\ forall c, In c (gm_cs g) ->
          m_col c < length tp /\ length (m_poly c) <> 0 /\ m_xoff c = cpow OB ginv (m_first c) /\ m_first c < n
          /\ length (m_poly c) * (ce_size n ceb / length (m_poly c)) = ce_size n ceb) ->
  forall g, In g (map embG gs) ->
    div_ok n ceb (bg_div g) /\ forall c, In c (bg_cs g) -> bc_ok OE n ceb (emb ginv) (map (map emb) tp) c.
Proof.
  intros Hok g Hg. apply in_map_iff in Hg. destruct Hg as [g0 [<- Hg0]]. destruct (Hok g0 Hg0) as [[Hd1 Hd] Hc].
  split.
  - unfold div_ok, embG, embD. cbn [bg_div dv_ex dv_a]. now rewrite Hd1.
  - intros c Hcin. cbn [embG bg_cs] in Hcin. apply in_map_iff in Hcin. destruct Hcin as [c0 [<- Hc0]].
    destruct (Hc c0 Hc0) as [K1 [K2 [K3 [K4 K5]]]].
    unfold bc_ok, embBC. cbn [bc_col bc_poly bc_xoff bc_first]. rewrite !map_length.
    repeat split; try assumption. rewrite K3. apply (emb_cpow OB OE emb mul_base H).
Qed.

Lemma lde_rows_of_emb wlde (lde polys : list (list B)) : lde_rows_of OB n ldeb offset wlde lde polys ->
  lde_rows_of OE n ldeb offE (emb wlde) (map (map emb) lde) (map (map emb) polys).
Proof.
  intros [Hl Hr]. split; [now rewrite map_length|].
  intros j Hj. rewrite nth_error_map, (Hr j Hj). cbn [option_map]. f_equal. rewrite !map_map. apply map_ext. intros T.
  now rewrite (emb_peval OB OE emb mul_base H), emul, (emb_cpow OB OE emb mul_base H).
Qed.

(* ---------------------------------------------------------------- rows, combine, the whole table *)
Variable num_main : nat.
Variable tmainB : list B -> list B -> list B -> list B.
Variable tmainE : list E -> list E -> list E -> list E.
Variable tauxE : list E -> list E -> list E -> list E -> list E -> list E -> list E.
(* the AIR's transition evaluator commutes with the embedding (it is a polynomial map with base-field coefficients,
   generic in the field: `evaluate_transition<E: FieldElement<BaseField = B>>`) *)
Hypothesis tmain_commutes : forall cur nxt pv, tmainE (map emb cur) (map emb nxt) (map emb pv) = map emb (tmainB cur nxt pv).
Variable ppolys : list (list B).
Variable exemptions : nat.
Variable tcoef : list E.
Variable groups : list (@BGm B E).
Variable rands : list E.
Variable lde_main : list (list B).
Variable lde_aux : list (list E).

Local Notation evalE :=
  (evaluate OE n ceb ldeb offE rouE num_main tmainE tauxE (map (map emb) ppolys) exemptions tcoef (map embG groups) [] rands
            false (map (map emb) lde_main) lde_aux (fun _ v => v)).
Local Notation evalM :=
  (evaluate_mixed OB OE mul_base n ceb ldeb offset rou num_main tmainB ppolys exemptions tcoef groups lde_main).

Lemma emb_eval_row t step :
  eval_row OE n ceb ldeb offE rouE num_main tmainE tauxE tcoef rands false (map (map emb) lde_main) lde_aux (embT t)
           (map (pg_from_main OE n ceb offE rouE) (map embG groups)) step
  = eval_row_mixed OB OE mul_base n ceb ldeb offset rou num_main tmainB tcoef groups lde_main t step.
Proof.
  unfold eval_row, eval_row_mixed. rewrite emb_read_frame, emb_get_ce_x_at.
  destruct (read_frame ldeb lde_main _) as [[cur nxt]|]; cbn [option_map fst snd]; [|reflexivity].
  destruct (get_ce_x_at OB n ceb offset rou step) as [x|]; cbn [option_map]; [|reflexivity].
  unfold evaluate_main_transition. rewrite emb_pt_get_row.
  destruct (pt_get_row t step) as [pv|]; cbn [option_map]; [|reflexivity].
  rewrite tmain_commutes, <- (lincomb_mixed_embeds OB OE emb mul_base H).
  rewrite !mapM_map.
  rewrite (mapM_ext_in _ (fun g => gm_evaluate_main OB OE mul_base n ceb offset rou g cur step x))
    by (intros g _; apply emb_gm_evaluate_main).
  reflexivity.
Qed.

Lemma emb_combine_row divs i row :
  combine_row OE n ceb offE rouE (map (fun dz => (embD (fst dz), map emb (snd dz))) divs) i row
  = combine_row_mixed OB OE mul_base n ceb offset rou divs i row.
Proof.
  unfold combine_row, combine_row_mixed. revert row. generalize (Some (fzero OE)).
  unfold acc_opt. induction divs as [|[d zs] t IH]; intros init row.
  - destruct row; reflexivity.
  - destruct row as [|v row]; [reflexivity|]. cbn [map combine fold_left fst snd].
    rewrite emb_acc_factor. destruct (acc_factor OB n ceb offset rou d zs i); cbn [option_map].
    + rewrite <- (emb_mul_base _ _ _ _ H). apply IH.
    + apply IH.
Qed.

(* evaluate() once the groups are built: the inverse divisor evaluations, then one combined value per row.  The rows are
   abstract because both prover paths end this way (CompositionMixedFull.v uses it for evaluate_fragment_full) *)
Lemma emb_table_tail (ds : list (@Div B)) (rowE rowM : nat -> option (list E)) (steps : list nat) :
  (forall i, rowE i = rowM i) ->
  match mapM (fun d => match get_inv_evaluation OE n ceb offE rouE d with Some zs => Some (d, zs) | None => None end)
             (map embD ds) with
  | Some divs => mapM (fun i => match rowE i with
                                | Some row => match combine_row OE n ceb offE rouE divs i row with
                                              | Some v => Some v
                                              | None => None end
                                | None => None end) steps
  | None => None
  end
  = match mapM (fun d => match get_inv_evaluation OB n ceb offset rou d with Some zs => Some (d, zs) | None => None end) ds with
    | Some divs => mapM (fun i => match rowM i with
                                  | Some row => combine_row_mixed OB OE mul_base n ceb offset rou divs i row
                                  | None => None end) steps
    | None => None
    end.
Proof.
  intros Hrow. rewrite mapM_map.
  rewrite (mapM_opt _ (fun d => match get_inv_evaluation OB n ceb offset rou d with Some zs => Some (d, zs) | None => None end)
                      (fun dz => (embD (fst dz), map emb (snd dz)))).
  2:{ intros d _. rewrite emb_get_inv_evaluation. destruct (get_inv_evaluation OB n ceb offset rou d); reflexivity. }
  destruct (mapM _ ds) as [divs|]; cbn [option_map]; [|reflexivity].
  apply mapM_ext_in. intros i _. rewrite Hrow.
  destruct (rowM i) as [row|]; [|reflexivity].
  rewrite emb_combine_row. destruct (combine_row_mixed _ _ _ _ _ _ _ divs i row); reflexivity.
Qed.

(* the mixed single-segment evaluate() IS the single-field evaluate over OE on the embedded inputs *)
Theorem evaluate_mixed_embeds : evalM = evalE.
Proof.
  unfold evaluate_mixed, Composition.evaluate.
  rewrite emb_ptable_new. destruct (ptable_new OB n ceb offset rou ppolys) as [t|]; cbn [option_map]; [|reflexivity].
  unfold prover_groups. cbn [fold_left].
  assert (Edivs : tdiv OE n rouE exemptions :: map (@pg_div E) (map (pg_from_main OE n ceb offE rouE) (map embG groups))
                  = map embD (tdiv OB n rou exemptions :: map (@gm_div B E) groups)).
  { cbn [map]. rewrite emb_tdiv. f_equal. rewrite !map_map. reflexivity. }
  rewrite Edivs. symmetry. apply emb_table_tail, emb_eval_row.
Qed.

(* ---------------------------------------------------------------- table_row_spec for E != B (single segment): all
   hypotheses are about the BASE-field data; the conclusion is about the mixed computation *)
Section TableExt.
Variable r' : nat.
Variable wlde ginv : B.
Hypothesis n_pos : n <> 0.
Hypothesis ceb_pos : ceb <> 0.
Hypothesis r_pos : r' <> 0.
Hypothesis ldeb_eq : ldeb = ceb * r'.
Hypothesis wlde_order : cpow OB wlde (lde_size n ldeb) = fone OB.
Hypothesis wlde_wce : cpow OB wlde r' = wce n ceb rou.
Hypothesis wlde_g : cpow OB wlde ldeb = gtrace n rou.
Hypothesis ginv_spec : fmul OB ginv (gtrace n rou) = fone OB.
Hypothesis tmainE_len : forall cur nxt pv, length (tmainE cur nxt pv) = num_main.
Hypothesis exemptions_le : exemptions <= n.
Hypothesis poly_len_pos : forall p, In p ppolys -> length p <> 0.
Hypothesis poly_len_div_n : forall p, In p ppolys -> length p * (n / length p) = n.
Hypothesis poly_len_div_max : forall p, In p ppolys -> exists q, fold_left Nat.max (map (@length B) ppolys) 0 = length p * q.
Hypothesis rou_compat : forall p, In p ppolys -> rou (length p * ceb) = cpow OB (wce n ceb rou) (n / length p).
Variable tpolys : list (list B).
Variable apolys : list (list E).
(* what BoundaryConstraint::new / ConstraintDivisor::from_assertion produce, on the base-field data *)
Hypothesis groups_ok : forall g, In g groups ->
  (dv_ex (gm_div g) = [] /\ dv_a (gm_div g) <> 0 /\ dv_a (gm_div g) * (ce_size n ceb / dv_a (gm_div g)) = ce_size n ceb)
  /\ forall c, In c (gm_cs g) ->
       m_col c < length tpolys /\ length (m_poly c) <> 0 /\ m_xoff c = cpow OB ginv (m_first c) /\ m_first c < n
       /\ length (m_poly c) * (ce_size n ceb / length (m_poly c)) = ce_size n ceb.
Hypothesis lde_main_ok : lde_rows_of OB n ldeb offset wlde lde_main tpolys.

Theorem table_row_spec_single_segment_ext :
  evalM = Some (map (fun i => comp_def OE n rouE tmainE tauxE (map (map emb) ppolys) exemptions tcoef (map embG groups) [] rands
                                       false (map (map emb) tpolys) apolys (emb (ce_x OB n ceb offset rou i)))
                    (seq 0 (ce_size n ceb))).
Proof.
  rewrite evaluate_mixed_embeds.
  assert (Ex : forall i, emb (ce_x OB n ceb offset rou i) = ce_x OE n ceb offE rouE i)
    by (intros; apply (emb_ce_x OB OE emb mul_base H)).
  rewrite (map_ext _ _ (fun i => f_equal _ (Ex i))).
  destruct (CeSetting_emb r' wlde) as [? ? ? ? ? ? ?]; [now constructor|].
  destruct (periodic_emb ppolys) as [? ? ? ?]; [now constructor|].
  apply (evaluate_spec_main OE LE n ceb ldeb r' offE rouE (emb wlde) (emb ginv)); try assumption.
  - now apply ginv_emb.
  - now apply main_groups_ok_emb.
  - intros g [].
  - now apply lde_rows_of_emb.
  - reflexivity.
Qed.

(* the capstone for E != B (single segment), with the interpolation round trip and the polynomial form of comp_def over E as
   explicit premises (C09 at F := E: CompositionFFT.interp_fft_roundtrip; C01 at F := E: CompositionValid.comp_def_is_poly):
   the MIXED evaluate() and CompositionPoly::new over E succeed and the committed columns recombine to the definition with
   all base-field data embedded *)
Variable interp : list E -> list E.
Hypothesis interp_roundtrip : forall p, length p = ce_size n ceb ->
  interp (map (fun i => peval OE p (ce_x OE n ceb offE rouE i)) (seq 0 (ce_size n ceb))) = p.
Variable good : E -> Prop.
Variable q : list E.
Variable num_cols : nat.
Local Notation comp_defE :=
  (comp_def OE n rouE tmainE tauxE (map (map emb) ppolys) exemptions tcoef (map embG groups) [] rands false (map (map emb) tpolys) apolys).
Hypothesis q_is_def : forall z, good z -> peval OE q z = comp_defE z.
Hypothesis ce_good : forall i, i < ce_size n ceb -> good (ce_x OE n ceb offE rouE i).
Hypothesis q_len_ce : length q <= ce_size n ceb.
Hypothesis q_len_cols : length q <= num_cols * n.
Hypothesis n_lt_ce : n < ce_size n ceb.

Theorem composition_is_definition_ext :
  exists evals cols,
    evalM = Some evals
    /\ composition_poly_new n interp evals num_cols = Some cols
    /\ (forall z, recombine OE n (cp_evaluate_at OE cols z) z = peval OE q z)
    /\ (forall z, good z -> recombine OE n (cp_evaluate_at OE cols z) z = comp_defE z).
Proof.
  rewrite evaluate_mixed_embeds.
  apply (composition_core OE LE n ceb offE rouE interp _ comp_defE good q num_cols n_pos n_lt_ce interp_roundtrip);
    try assumption.
  rewrite <- evaluate_mixed_embeds, table_row_spec_single_segment_ext. f_equal. apply map_ext. intros i.
  now rewrite (emb_ce_x OB OE emb mul_base H).
Qed.
End TableExt.

End Whole.

(* ------------------------------------------------------------------ the verifier's evaluate_constraints, E != B *)
Section VerifierExt.
Context {B E : Type} (OB : FOps B) (OE : FOps E) (LB : FLaws OB) (LE : FLaws OE).
Variable emb : B -> E.
Variable mul_base : E -> B -> E.
Hypothesis H : Emb OB OE emb mul_base.

Definition embBCa (c : @BCa B E) : @BC E := mkBC (a_col c) (a_poly c) (a_first c) (emb (a_xoff c)) (a_cc c).
Definition embGa (g : @BGa B E) : @BGroup E := mkBG (embD emb (ga_div g)) (map embBCa (ga_cs g)).

Lemma div_evaluate_at_mixed_embeds d x : div_evaluate_at_mixed OE emb d x = div_evaluate_at OE (embD emb d) x.
Proof.
  unfold div_evaluate_at_mixed, div_evaluate_at, div_exemptions_at, embD. cbn [dv_a dv_b dv_ex]. f_equal.
  generalize (fone OE). induction (dv_ex d) as [|a l IH]; intros acc; cbn [map fold_left]; [reflexivity | apply IH].
Qed.

Lemma gm_evaluate_at_embeds g state x : gm_evaluate_at OB OE emb g state x = bg_evaluate_at OE (embG emb g) state x.
Proof.
  unfold gm_evaluate_at, bg_evaluate_at, embG. cbn [bg_div bg_cs]. rewrite (acc_opt_map OE), div_evaluate_at_mixed_embeds.
  rewrite (acc_opt_ext OE _ (fun c => match nth_error state (bc_col (embBC emb c)) with
                                    | Some tv => Some (fmul OE (bc_evaluate_at OE (embBC emb c) x tv) (bc_cc (embBC emb c)))
                                    | None => None end)); [reflexivity|].
  intros c _. cbn [embBC bc_col bc_cc]. destruct (nth_error state (m_col c)); [|reflexivity].
  now rewrite (bc_evaluate_at_mixed_embeds OB OE emb (m_col c) (m_first c) (m_poly c) (m_xoff c) (m_cc c)).
Qed.

Lemma ga_evaluate_at_embeds g state x : ga_evaluate_at OE emb g state x = bg_evaluate_at OE (embGa g) state x.
Proof.
  unfold ga_evaluate_at, bg_evaluate_at, embGa. cbn [bg_div bg_cs]. rewrite (acc_opt_map OE), div_evaluate_at_mixed_embeds.
  reflexivity.
Qed.

Variable n : nat.
Variable rou : nat -> B.
Variable num_main num_aux : nat.
Variable tmainE : list E -> list E -> list E -> list E.
Variable tauxE : list E -> list E -> list E -> list E -> list E -> list E -> list E.
Variable ppolys : list (list B).
Variable exemptions : nat.
Variable tcoef : list E.
Variable main_groups : list (@BGm B E).
Variable aux_groups : list (@BGa B E).
Variable rands : list E.
Local Notation rouE := (fun m => emb (rou m)).

(* the mixed evaluate_constraints is the single-field one over OE on embedded data *)
Theorem evaluate_constraints_mixed_embeds cur nxt auxf x :
  evaluate_constraints_mixed OB OE emb n rou num_main num_aux tmainE tauxE ppolys exemptions tcoef main_groups aux_groups rands cur nxt auxf x
  = evaluate_constraints OE n rouE num_main tmainE tauxE num_aux (map (map emb) ppolys) exemptions tcoef
                         (map (embG emb) main_groups) (map embGa aux_groups) rands (fun _ => None) cur nxt auxf x.
Proof.
  unfold evaluate_constraints_mixed, evaluate_constraints, combine_evaluations.
  rewrite (periodic_at_mixed_embeds OE emb), div_evaluate_at_mixed_embeds, <- (emb_tdiv OB OE emb mul_base H).
  rewrite (acc_opt_ext OE (fun g => gm_evaluate_at OB OE emb g cur x) (fun g => bg_evaluate_at OE (embG emb g) cur x))
    by (intros g _; apply gm_evaluate_at_embeds).
  destruct auxf as [[ac an]|]; rewrite ?(acc_opt_map OE).
  - rewrite (acc_opt_ext OE (fun g => ga_evaluate_at OE emb g ac x) (fun g => bg_evaluate_at OE (embGa g) ac x))
      by (intros g _; apply ga_evaluate_at_embeds).
    match goal with |- ?l = match ?r with Some _ => _ | None => _ end => replace r with l by reflexivity; destruct l; reflexivity end.
  - match goal with |- ?l = match ?r with Some _ => _ | None => _ end => replace r with l by reflexivity; destruct l; reflexivity end.
Qed.

(* on the frame of the (embedded) trace polynomials at z it is comp_def over E with the embedded data *)
Variable tpolys : list (list B).
Variable apolys : list (list E).
Hypothesis groups_no_exemptions :
  (forall g, In g main_groups -> dv_ex (gm_div g) = []) /\ (forall g, In g aux_groups -> dv_ex (ga_div g) = []).
Hypothesis main_cols : forall g c, In g main_groups -> In c (gm_cs g) -> m_col c < length tpolys.
Hypothesis aux_cols : forall g c, In g aux_groups -> In c (ga_cs g) -> a_col c < length apolys.
Hypothesis tmain_len : forall cur nxt pv, length (tmainE cur nxt pv) = num_main.

Theorem verifier_evaluate_constraints_ext z :
  let tE := map (map emb) tpolys in
  evaluate_constraints_mixed OB OE emb n rou num_main num_aux tmainE tauxE ppolys exemptions tcoef main_groups aux_groups rands
    (def_cur OE tE z) (def_nxt OE n rouE tE z) (Some (def_acur OE apolys z, def_anxt OE n rouE apolys z)) z
  = Some (comp_def OE n rouE tmainE tauxE (map (map emb) ppolys) exemptions tcoef (map (embG emb) main_groups) (map embGa aux_groups)
                   rands true tE apolys z).
Proof.
  intros tE. rewrite evaluate_constraints_mixed_embeds.
  apply (verifier_eval_agrees_aux OE LE).
  - intros g Hg. apply in_app_or in Hg. destruct Hg as [Hg|Hg]; apply in_map_iff in Hg; destruct Hg as [g0 [<- Hg0]].
    + cbn [embG bg_div embD dv_ex]. now rewrite (proj1 groups_no_exemptions g0 Hg0).
    + cbn [embGa bg_div embD dv_ex]. now rewrite (proj2 groups_no_exemptions g0 Hg0).
  - intros g c Hg Hc. apply in_map_iff in Hg. destruct Hg as [g0 [<- Hg0]]. cbn [embG bg_cs] in Hc.
    apply in_map_iff in Hc. destruct Hc as [c0 [<- Hc0]]. unfold tE. rewrite map_length. cbn [embBC bc_col]. now apply (main_cols g0).
  - intros g c Hg Hc. apply in_map_iff in Hg. destruct Hg as [g0 [<- Hg0]]. cbn [embGa bg_cs] in Hc.
    apply in_map_iff in Hc. destruct Hc as [c0 [<- Hc0]]. cbn [embBCa bc_col]. now apply (aux_cols g0).
  - exact tmain_len.
Qed.
End VerifierExt.
