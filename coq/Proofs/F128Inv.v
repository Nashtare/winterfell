(* f128 inversion: binary extended GCD on 192-bit limb triples (fn inv of math/src/field/f128/mod.rs,
   generated term f128_fn_inv in Gen/F128.v).  Partial correctness by loop invariants:
       a * x == v   and   d * x == -u   (mod M),
   together with a bound that keeps a and d far below 2^192, so that add_192x192 never wraps:
   with n = number of halvings so far,  u * v * 2^n <= 2^257  and  2a, 2d <= (n + 2) * M. *)
From Coq Require Import Znumtheory.
From VBase Require Import MachInt.
From VGen Require Import F128.
From VProofs Require WhileLoop.
From VProofs Require Import MachIntFacts F128Limbs F128Ops.
Open Scope Z_scope.

(* ------------------------------------------------------------------ the loops, named *)
Definition cadd_M (z0 z1 z2 : Z) : Z * Z * Z :=
  if Z.eqb (Z.land z0 1) 1
  then (let '(t0, t1, t2) := f128_add_192x192 z0 z1 z2 (wrap 64 f128_M) (wrap 64 (shr f128_M 64)) 0 in (t0, t1, t2))
  else (z0, z1, z2).

Definition shr192 (z0 z1 z2 : Z) : Z * Z * Z :=
  (Z.lor (shr z0 1) (shl 64 (Z.land z1 1) 63), Z.lor (shr z1 1) (shl 64 (Z.land z2 1) 63), shr z2 1).

Definition hdu_cond : Z * Z * Z * Z * Z * Z -> bool :=
  fun '(d0, d1, d2, u0, u1, u2) => Z.eqb (Z.land u0 1) 0.
Definition hdu_body : Z * Z * Z * Z * Z * Z -> Z * Z * Z * Z * Z * Z :=
  fun '(d0, d1, d2, u0, u1, u2) =>
    let '(d0, d1, d2) := cadd_M d0 d1 d2 in
    let '(u0, u1, u2) := shr192 u0 u1 u2 in
    let '(d0, d1, d2) := shr192 d0 d1 d2 in
    (d0, d1, d2, u0, u1, u2).

Definition hav_cond : Z * Z * Z * Z -> bool := fun '(a0, a1, a2, v) => Z.eqb (Z.land v 1) 0.
Definition hav_body : Z * Z * Z * Z -> Z * Z * Z * Z :=
  fun '(a0, a1, a2, v) =>
    let '(a0, a1, a2) := cadd_M a0 a1 a2 in
    let v := shr v 1 in
    let '(a0, a1, a2) := shr192 a0 a1 a2 in
    (a0, a1, a2, v).

Definition ul_cond (v : Z) : Z * Z * Z * Z * Z * Z -> bool :=
  fun '(u0, u1, u2, d0, d1, d2) => orb (Z.gtb u2 0) (Z.gtb (wrap 128 (Z.add u0 (shl 128 u1 64))) v).
Definition ul_body (fuel : nat) (v a0 a1 a2 : Z) : Z * Z * Z * Z * Z * Z -> option (Z * Z * Z * Z * Z * Z) :=
  fun '(u0, u1, u2, d0, d1, d2) =>
    let '(u0, u1, u2) := f128_sub_192x192 u0 u1 u2 (wrap 64 v) (wrap 64 (shr v 64)) 0 in
    let '(d0, d1, d2) := f128_add_192x192 d0 d1 d2 a0 a1 a2 in
    match while_loop fuel hdu_cond hdu_body (d0, d1, d2, u0, u1, u2) with
    | None => None
    | Some (d0, d1, d2, u0, u1, u2) => Some (u0, u1, u2, d0, d1, d2)
    end.

Definition st10 : Type := Z * Z * Z * Z * Z * Z * Z * Z * Z * Z.
Definition ol_cond : st10 -> bool :=
  fun '(u0, u1, u2, d0, d1, d2, v, a0, a1, a2) => negb (Z.eqb v 1).
Definition ol_body (fuel : nat) : st10 -> option st10 :=
  fun '(u0, u1, u2, d0, d1, d2, v, a0, a1, a2) =>
    match while_loop_o fuel (ul_cond v) (ul_body fuel v a0 a1 a2) (u0, u1, u2, d0, d1, d2) with
    | None => None
    | Some (u0, u1, u2, d0, d1, d2) =>
      let v := wrap 128 (Z.sub v (wrap 128 (Z.add u0 (shl 128 u1 64)))) in
      let '(a0, a1, a2) := f128_add_192x192 a0 a1 a2 d0 d1 d2 in
      match while_loop fuel hav_cond hav_body (a0, a1, a2, v) with
      | None => None
      | Some (a0, a1, a2, v) => Some (u0, u1, u2, d0, d1, d2, v, a0, a1, a2)
      end
    end.

Definition fin_cond : Z * Z * Z * Z -> bool :=
  fun '(a0, a1, a2, a) => orb (Z.gtb a2 0) (Z.geb a f128_M).
Definition fin_body : Z * Z * Z * Z -> Z * Z * Z * Z :=
  fun '(a0, a1, a2, a) =>
    let '(a0, a1, a2) := f128_sub_192x192 a0 a1 a2 (wrap 64 f128_M) (wrap 64 (shr f128_M 64)) 0 in
    let a := wrap 128 (Z.add a0 (shl 128 a1 64)) in
    (a0, a1, a2, a).

Definition inv_init_u (x : Z) : Z * Z * Z :=
  if Z.eqb (Z.land x 1) 1
  then (wrap 64 x, wrap 64 (shr x 64), 0)
  else f128_add_192x192 (wrap 64 x) (wrap 64 (shr x 64)) 0 (wrap 64 f128_M) (wrap 64 (shr f128_M 64)) 0.

Lemma f128_fn_inv_unfold fuel x :
  f128_fn_inv fuel x =
  if Z.eqb x 0 then Some 0 else
  let '(u0, u1, u2) := inv_init_u x in
  match while_loop_o fuel ol_cond (ol_body fuel)
          (u0, u1, u2, wrap 64 (Z.sub (wrap 64 f128_M) 1), wrap 64 (shr f128_M 64), 0, f128_M, 0, 0, 0) with
  | None => None
  | Some (u0, u1, u2, d0, d1, d2, v, a0, a1, a2) =>
    match while_loop fuel fin_cond fin_body (a0, a1, a2, wrap 128 (Z.add a0 (shl 128 a1 64))) with
    | None => None
    | Some (a0, a1, a2, a) => Some a
    end
  end.
Proof. reflexivity. Qed.

(* ------------------------------------------------------------------ value level *)
Definition V3 (z0 z1 z2 : Z) : Z := z0 + z1 * 2^64 + z2 * 2^128.
Definition L3 (z0 z1 z2 : Z) : Prop := 0 <= z0 < 2^64 /\ 0 <= z1 < 2^64 /\ 0 <= z2 < 2^64.

Lemma V3_nonneg z0 z1 z2 : L3 z0 z1 z2 -> 0 <= V3 z0 z1 z2 < 2^192.
Proof. unfold L3, V3. lia. Qed.

Lemma V3_parity z0 z1 z2 : V3 z0 z1 z2 mod 2 = z0 mod 2.
Proof.
  unfold V3. replace (z0 + z1 * 2^64 + z2 * 2^128) with (z0 + (z1 * 2^63 + z2 * 2^127) * 2) by ring.
  apply Z.mod_add. lia.
Qed.

(* exact limb addition and subtraction, on triples *)
Lemma add3_exact a0 a1 a2 b0 b1 b2 : L3 a0 a1 a2 -> L3 b0 b1 b2 -> V3 a0 a1 a2 + V3 b0 b1 b2 < 2^192 ->
  let '(r0, r1, r2) := f128_add_192x192 a0 a1 a2 b0 b1 b2 in
  L3 r0 r1 r2 /\ V3 r0 r1 r2 = V3 a0 a1 a2 + V3 b0 b1 b2.
Proof.
  intros (A0 & A1 & A2) (B0 & B1 & B2) Hlt.
  pose proof (add_192x192_exact a0 a1 a2 b0 b1 b2 A0 A1 A2 B0 B1 B2 Hlt) as H.
  destruct (f128_add_192x192 a0 a1 a2 b0 b1 b2) as [[r0 r1] r2].
  destruct H as (R0 & R1 & R2 & E). split; [exact (conj R0 (conj R1 R2))|exact E].
Qed.

Lemma sub3_exact a0 a1 a2 b0 b1 b2 : L3 a0 a1 a2 -> L3 b0 b1 b2 -> V3 b0 b1 b2 <= V3 a0 a1 a2 ->
  let '(r0, r1, r2) := f128_sub_192x192 a0 a1 a2 b0 b1 b2 in
  L3 r0 r1 r2 /\ V3 r0 r1 r2 = V3 a0 a1 a2 - V3 b0 b1 b2.
Proof.
  intros (A0 & A1 & A2) (B0 & B1 & B2) Hle.
  pose proof (sub_192x192_exact a0 a1 a2 b0 b1 b2 A0 A1 A2 B0 B1 B2 Hle) as H.
  destruct (f128_sub_192x192 a0 a1 a2 b0 b1 b2) as [[r0 r1] r2].
  destruct H as (R0 & R1 & R2 & E). split; [exact (conj R0 (conj R1 R2))|exact E].
Qed.

(* the limbs of M, as M_lo and M_hi give them *)
Lemma M_L3 : L3 (2^64 - C) (2^64 - 1) 0 /\ V3 (2^64 - C) (2^64 - 1) 0 = M.
Proof. split; [unfold L3, C; lia|]. unfold V3. rewrite M_limbs. ring. Qed.

Lemma low128 z0 z1 : 0 <= z0 < 2^64 -> 0 <= z1 < 2^64 -> wrap 128 (z0 + shl 128 z1 64) = z0 + z1 * 2^64.
Proof. intros H0 H1. rewrite shl_limb by exact H1. apply wrap_small. lia. Qed.

Lemma limbs128 v : 0 <= v < 2^128 ->
  L3 (wrap 64 v) (wrap 64 (shr v 64)) 0 /\ V3 (wrap 64 v) (wrap 64 (shr v 64)) 0 = v.
Proof.
  intros Hv. destruct (split64 v) as (H1 & H2 & H3); [lia|].
  rewrite (wrap_small 64 (shr v 64)) by lia. unfold L3, V3. lia.
Qed.

Definition pot (h o n : Z) : Prop := 0 <= n /\ h * o * 2^n <= 2^257.

Lemma pot_bound h o n : 0 < h -> 0 < o -> pot h o n -> n <= 257.
Proof.
  intros Hh Ho [Hn Hp].
  assert (H2 : 0 < 2^n) by (apply Z.pow_pos_nonneg; lia).
  assert (H1 : 1 <= h * o) by nia.
  assert (H3 : 2^n <= h * o * 2^n) by nia.
  apply (Z.pow_le_mono_r_iff 2); lia.
Qed.

Lemma pot_sym h o n : pot h o n -> pot o h n.
Proof. unfold pot. now rewrite (Z.mul_comm o h). Qed.

Lemma pot_le h h' o n : 0 <= h' <= h -> 0 <= o -> pot h o n -> pot h' o n.
Proof.
  intros Hh Ho [Hn Hp]. split; [exact Hn|].
  assert (H2 : 0 < 2^n) by (apply Z.pow_pos_nonneg; lia).
  assert (h' * o <= h * o) by (apply Z.mul_le_mono_nonneg_r; lia).
  assert (h' * o * 2^n <= h * o * 2^n) by (apply Z.mul_le_mono_nonneg_r; lia).
  lia.
Qed.

Lemma pot_half h h' o n : h = 2 * h' -> pot h o n -> pot h' o (n + 1).
Proof.
  intros -> [Hn Hp]. split; [lia|].
  replace (h' * o * 2^(n + 1)) with (2 * h' * o * 2^n) by (rewrite Z.pow_add_r, Z.pow_1_r by lia; ring).
  exact Hp.
Qed.

(* common divisors of the two numbers divide gcd(x, M): used for termination only
   (u = v can then only happen at u = v = 1 when gcd(x, M) = 1) *)
Definition RP (x h o : Z) : Prop := forall g, (g | h) -> (g | o) -> (g | Z.gcd x M).

Lemma RP_sym x h o : RP x h o -> RP x o h.
Proof. intros H g Ho Hh. apply H; assumption. Qed.

Lemma RP_half x h h' o : h = 2 * h' -> RP x h o -> RP x h' o.
Proof. intros -> H g Hh Ho. apply H; [|exact Ho]. apply Z.divide_mul_r. exact Hh. Qed.

Lemma RP_sub x h o : RP x h o -> RP x (h - o) o.
Proof.
  intros H g Hh Ho. apply H; [|exact Ho].
  replace h with ((h - o) + o) by ring. apply Z.divide_add_r; assumption.
Qed.

Lemma RP_diag x h : Z.gcd x M = 1 -> 0 < h -> RP x h h -> h = 1.
Proof.
  intros Hg Hh H. specialize (H h (Z.divide_refl h) (Z.divide_refl h)). rewrite Hg in H.
  apply Z.divide_1_r_nonneg in H; lia.
Qed.

(* invariant of a halving loop: h is the number being halved (u or v), K its cofactor (d or a),
   o the other number, Ko the other cofactor; sg = 1 for (v,a), -1 for (u,d) *)
Definition HV (x sg o Ko h K : Z) : Prop :=
  0 < h /\ 0 <= K /\ (M | K * x - sg * h) /\ RP x h o /\
  exists n, pot h o n /\ 2 * Ko <= (n + 2) * M /\
            (2 * K <= (n + 2) * M \/ (h mod 2 = 0 /\ K <= (n + 2) * M)).

Lemma HV_bound x sg o Ko h K : 0 < o -> HV x sg o Ko h K -> K <= 259 * M.
Proof.
  intros Ho (Hh & HK & _ & _ & n & Hp & _ & Hor).
  pose proof (pot_bound h o n Hh Ho Hp) as Hn. destruct Hp as [Hn0 _].
  unfold M in *. lia.
Qed.

Lemma HV_step x sg o Ko h K h' K' e : 0 < o -> HV x sg o Ko h K ->
  h = 2 * h' -> 2 * K' = K + e * M -> 0 <= e <= 1 -> HV x sg o Ko h' K'.
Proof.
  intros Ho (Hh & HK & Hd & Hrp & n & Hp & HKo & Hor) Eh EK He.
  split; [lia|]. split; [unfold M in *; lia|]. split.
  { apply (cong_halve M x K (sg * h) K' (sg * h') e eq_refl EK); [rewrite Eh; ring|exact Hd]. }
  split; [exact (RP_half x h h' o Eh Hrp)|].
  exists (n + 1). split; [apply (pot_half h h' o n Eh Hp)|].
  destruct Hp as [Hn0 _]. split; [unfold M in *; lia|]. left. unfold M in *. lia.
Qed.

Lemma HV_exit_odd x sg o Ko h K : HV x sg o Ko h K -> h mod 2 <> 0 ->
  exists n, pot h o n /\ 2 * Ko <= (n + 2) * M /\ 2 * K <= (n + 2) * M.
Proof.
  intros (_ & _ & _ & _ & n & Hp & HKo & Hor) Hodd. exists n. split; [exact Hp|]. split; [exact HKo|].
  destruct Hor as [Ht|[He _]]; [exact Ht|contradiction].
Qed.

(* the subtraction step of the extended gcd, for either number: h > o both odd, with cofactors K and Ko
   of opposite signs; h - o is even and gets the cofactor K + Ko *)
Lemma HV_sub x sg h K o Ko n : 0 < o < h -> h mod 2 = 1 -> o mod 2 = 1 -> 0 <= K -> 0 <= Ko ->
  (M | K * x - sg * h) -> (M | Ko * x - (- sg) * o) -> RP x h o ->
  pot h o n -> 2 * K <= (n + 2) * M -> 2 * Ko <= (n + 2) * M ->
  HV x sg o Ko (h - o) (K + Ko).
Proof.
  intros Ho Hho Hoo HK HKo [k1 Hk1] [k2 Hk2] Hrp Hp HnK HnKo.
  split; [lia|]. split; [lia|]. split.
  { exists (k1 + k2).
    replace ((K + Ko) * x - sg * (h - o)) with ((K * x - sg * h) + (Ko * x - - sg * o)) by ring.
    rewrite Hk1, Hk2. ring. }
  split; [apply RP_sub; exact Hrp|].
  exists n. split; [apply (pot_le h); [lia|lia|exact Hp]|]. split; [exact HnKo|]. right.
  split; [exact (odd_sub_odd h o Hho Hoo)|lia].
Qed.

(* ------------------------------------------------------------------ limb shifts and the conditional +M *)
Lemma lor_hi x b : 0 <= x < 2^63 -> 0 <= b <= 1 -> Z.lor x (shl 64 b 63) = x + b * 2^63.
Proof.
  intros Hx Hb. assert (b = 0 \/ b = 1) as [->| ->] by lia.
  - change (shl 64 0 63) with 0. rewrite Z.lor_0_r. ring.
  - change (shl 64 1 63) with (1 * 2^63). rewrite Z.lor_comm, lor_shifted_small by lia. ring.
Qed.

Lemma shr1 z : shr z 1 = z / 2. Proof. reflexivity. Qed.

Lemma shr192_spec z0 z1 z2 : L3 z0 z1 z2 ->
  let '(r0, r1, r2) := shr192 z0 z1 z2 in
  L3 r0 r1 r2 /\ V3 z0 z1 z2 = 2 * V3 r0 r1 r2 + z0 mod 2.
Proof.
  intros (H0 & H1 & H2). unfold shr192. rewrite !land1, !shr1.
  pose proof (Z.div_mod z0 2 ltac:(lia)). pose proof (Z.mod_pos_bound z0 2 ltac:(lia)).
  pose proof (Z.div_mod z1 2 ltac:(lia)). pose proof (Z.mod_pos_bound z1 2 ltac:(lia)).
  pose proof (Z.div_mod z2 2 ltac:(lia)). pose proof (Z.mod_pos_bound z2 2 ltac:(lia)).
  rewrite !lor_hi by lia.
  unfold L3, V3. lia.
Qed.

(* conditional +M followed by the shift: limbs stay limbs, and while z + M fits the result is (z + e*M)/2 exactly *)
Lemma halveM_spec z0 z1 z2 : L3 z0 z1 z2 ->
  let '(t0, t1, t2) := cadd_M z0 z1 z2 in
  let '(r0, r1, r2) := shr192 t0 t1 t2 in
  L3 r0 r1 r2 /\
  (V3 z0 z1 z2 + M < 2^192 -> exists e, 0 <= e <= 1 /\ 2 * V3 r0 r1 r2 = V3 z0 z1 z2 + e * M).
Proof.
  intros L. pose proof L as (H0 & H1 & H2). unfold cadd_M. rewrite land1.
  destruct (Z.eqb_spec (z0 mod 2) 1) as [E|E].
  - rewrite M_lo, M_hi. destruct M_L3 as [(Q0 & Q1 & Q2) EM].
    pose proof (add_192x192_spec z0 z1 z2 _ _ _ H0 H1 H2 Q0 Q1 Q2) as Ha.
    destruct (f128_add_192x192 z0 z1 z2 (2^64 - C) (2^64 - 1) 0) as [[t0 t1] t2].
    destruct Ha as (T0 & T1 & T2 & Et).
    change (V3 t0 t1 t2 = (V3 z0 z1 z2 + V3 (2^64 - C) (2^64 - 1) 0) mod 2^192) in Et. rewrite EM in Et.
    pose proof (shr192_spec t0 t1 t2 (conj T0 (conj T1 T2))) as Hs.
    destruct (shr192 t0 t1 t2) as [[r0 r1] r2]. destruct Hs as (Lr & Er).
    split; [exact Lr|]. intros Hb. exists 1. split; [lia|].
    rewrite Z.mod_small in Et by (pose proof (V3_nonneg _ _ _ L); unfold M in *; lia).
    (* z0 and M are odd, so the sum is even and nothing is shifted out *)
    assert (Et0 : t0 mod 2 = 0).
    { rewrite <- (V3_parity t0 t1 t2), Et, Z.add_mod, V3_parity, E by lia. reflexivity. }
    lia.
  - pose proof (shr192_spec z0 z1 z2 L) as Hs.
    destruct (shr192 z0 z1 z2) as [[r0 r1] r2]. destruct Hs as (Lr & Er).
    split; [exact Lr|]. intros _. exists 0. pose proof (Z.mod_pos_bound z0 2 ltac:(lia)). lia.
Qed.

(* one pass of a halving loop, on the cofactor limbs *)
Lemma HV_halve x sg o Ko h h' k0 k1 k2 : 0 < o -> L3 k0 k1 k2 -> HV x sg o Ko h (V3 k0 k1 k2) -> h = 2 * h' ->
  let '(t0, t1, t2) := cadd_M k0 k1 k2 in
  let '(r0, r1, r2) := shr192 t0 t1 t2 in
  L3 r0 r1 r2 /\ HV x sg o Ko h' (V3 r0 r1 r2).
Proof.
  intros Ho L H Eh. pose proof (HV_bound _ _ _ _ _ _ Ho H) as Hb.
  pose proof (halveM_spec k0 k1 k2 L) as Hk.
  destruct (cadd_M k0 k1 k2) as [[t0 t1] t2]. destruct (shr192 t0 t1 t2) as [[r0 r1] r2].
  destruct Hk as [Lr Hk]. destruct Hk as (e & He & Ek); [unfold M in *; lia|].
  split; [exact Lr|]. exact (HV_step x sg o Ko _ _ _ _ e Ho H Eh Ek He).
Qed.

(* ------------------------------------------------------------------ halving loop for (u, d) *)
Definition Uh (s : Z * Z * Z * Z * Z * Z) : Z := let '(d0, d1, d2, u0, u1, u2) := s in V3 u0 u1 u2.

Definition HI (x v A : Z) (s : Z * Z * Z * Z * Z * Z) : Prop :=
  let '(d0, d1, d2, u0, u1, u2) := s in
  L3 d0 d1 d2 /\ L3 u0 u1 u2 /\ HV x (-1) v A (V3 u0 u1 u2) (V3 d0 d1 d2).

Lemma hdu_step2 x v A : 0 < v -> forall s, HI x v A s -> hdu_cond s = true ->
  0 <= Uh s /\ HI x v A (hdu_body s) /\ 2 * Uh (hdu_body s) = Uh s.
Proof.
  intros Hv [[[[[d0 d1] d2] u0] u1] u2]. unfold HI, Uh, hdu_cond, hdu_body.
  intros (Ld & Lu & H) Hc. rewrite land1 in Hc. apply Z.eqb_eq in Hc.
  pose proof (shr192_spec u0 u1 u2 Lu) as Hu.
  destruct (shr192 u0 u1 u2) as [[u0' u1'] u2']. destruct Hu as (Lu' & Eu). rewrite Hc, Z.add_0_r in Eu.
  pose proof (HV_halve x (-1) v A _ _ d0 d1 d2 Hv Ld H Eu) as Hd.
  destruct (cadd_M d0 d1 d2) as [[t0 t1] t2]. destruct (shr192 t0 t1 t2) as [[d0' d1'] d2'].
  destruct Hd as (Ld' & H').
  split; [destruct H; lia|]. split; [exact (conj Ld' (conj Lu' H'))|lia].
Qed.

Lemma hdu_step x v A : 0 < v -> forall s, HI x v A s -> hdu_cond s = true -> HI x v A (hdu_body s).
Proof. intros Hv s H Hc. exact (proj1 (proj2 (hdu_step2 x v A Hv s H Hc))). Qed.

Lemma HI_Uh x v A s : HI x v A s -> 0 < Uh s < 2^192.
Proof.
  destruct s as [[[[[d0 d1] d2] u0] u1] u2]. unfold HI, Uh. intros (_ & Lu & Hh & _).
  pose proof (V3_nonneg _ _ _ Lu). lia.
Qed.

Lemma hdu_exit_odd s : hdu_cond s = false -> Uh s mod 2 <> 0.
Proof.
  destruct s as [[[[[d0 d1] d2] u0] u1] u2]. unfold hdu_cond, Uh. rewrite land1, V3_parity.
  intros H. apply Z.eqb_neq in H. exact H.
Qed.

(* ------------------------------------------------------------------ halving loop for (v, a) *)
Definition vh (s : Z * Z * Z * Z) : Z := let '(a0, a1, a2, v) := s in v.

Definition AI (x U D : Z) (s : Z * Z * Z * Z) : Prop :=
  let '(a0, a1, a2, v) := s in
  L3 a0 a1 a2 /\ 0 <= v < 2^128 /\ (v = 0 \/ HV x 1 U D v (V3 a0 a1 a2)).

Lemma hav_step2 x U D : 0 < U -> forall s, AI x U D s -> hav_cond s = true ->
  0 <= vh s /\ AI x U D (hav_body s) /\ 2 * vh (hav_body s) = vh s.
Proof.
  intros HU [[[a0 a1] a2] v]. unfold AI, vh, hav_cond, hav_body. cbv zeta.
  intros (La & Hv & H) Hc. rewrite shr1. rewrite land1 in Hc. apply Z.eqb_eq in Hc.
  assert (Ev : v = 2 * (v / 2)) by (pose proof (Z.div_mod v 2 ltac:(lia)); lia).
  split; [lia|]. destruct H as [E|H].
  - pose proof (halveM_spec a0 a1 a2 La) as Ha.
    destruct (cadd_M a0 a1 a2) as [[t0 t1] t2]. destruct (shr192 t0 t1 t2) as [[r0 r1] r2].
    split; [|lia]. split; [exact (proj1 Ha)|]. split; [lia|]. left. lia.
  - pose proof (HV_halve x 1 U D v (v / 2) a0 a1 a2 HU La H Ev) as Ha.
    destruct (cadd_M a0 a1 a2) as [[t0 t1] t2]. destruct (shr192 t0 t1 t2) as [[r0 r1] r2].
    destruct Ha as (Lr & H').
    split; [|lia]. split; [exact Lr|]. split; [lia|]. right. exact H'.
Qed.

Lemma hav_step x U D : 0 < U -> forall s, AI x U D s -> hav_cond s = true -> AI x U D (hav_body s).
Proof. intros HU s H Hc. exact (proj1 (proj2 (hav_step2 x U D HU s H Hc))). Qed.

Lemma AI_vh x U D s : AI x U D s -> 0 <= vh s < 2^128.
Proof. destruct s as [[[a0 a1] a2] v]. unfold AI, vh. intros (_ & H & _). exact H. Qed.

Lemma hav_exit_odd s : hav_cond s = false -> vh s mod 2 <> 0.
Proof.
  destruct s as [[[a0 a1] a2] v]. unfold hav_cond, vh. rewrite land1.
  intros H. apply Z.eqb_neq in H. exact H.
Qed.

(* ------------------------------------------------------------------ the inner loop  while u > v *)
Definition Uu (s : Z * Z * Z * Z * Z * Z) : Z := let '(u0, u1, u2, d0, d1, d2) := s in V3 u0 u1 u2.

Definition UV (x v A U D : Z) : Prop :=
  0 < U /\ U mod 2 = 1 /\ 0 <= D /\ (M | D * x - (-1) * U) /\ RP x U v /\
  exists n, pot U v n /\ 2 * A <= (n + 2) * M /\ 2 * D <= (n + 2) * M.

Definition UI (x v A : Z) (s : Z * Z * Z * Z * Z * Z) : Prop :=
  let '(u0, u1, u2, d0, d1, d2) := s in
  L3 u0 u1 u2 /\ L3 d0 d1 d2 /\ UV x v A (V3 u0 u1 u2) (V3 d0 d1 d2).

Lemma ul_cond_spec v u0 u1 u2 d0 d1 d2 : L3 u0 u1 u2 ->
  (ul_cond v (u0, u1, u2, d0, d1, d2) = true -> v < V3 u0 u1 u2 \/ 2^128 <= V3 u0 u1 u2) /\
  (ul_cond v (u0, u1, u2, d0, d1, d2) = false -> u2 = 0 /\ V3 u0 u1 u2 <= v).
Proof.
  intros (H0 & H1 & H2). unfold ul_cond. rewrite low128 by assumption. rewrite !Z.gtb_ltb.
  unfold V3. destruct (Z.ltb_spec 0 u2); destruct (Z.ltb_spec v (u0 + u1 * 2^64)); cbn [orb];
    split; intros; try discriminate; lia.
Qed.

Definition swap6 (r : option (Z * Z * Z * Z * Z * Z)) : option (Z * Z * Z * Z * Z * Z) :=
  match r with
  | None => None
  | Some (d0, d1, d2, u0, u1, u2) => Some (u0, u1, u2, d0, d1, d2)
  end.

(* the straight-line part of the body: u - v and d + a are exact; the halving loop starts from an even u *)
Lemma ul_prefix fuel x v a0 a1 a2 :
  0 < v < 2^128 -> v mod 2 = 1 -> L3 a0 a1 a2 -> (M | V3 a0 a1 a2 * x - 1 * v) ->
  forall s, UI x v (V3 a0 a1 a2) s -> ul_cond v s = true ->
  exists t, HI x v (V3 a0 a1 a2) t /\ Uh t = Uu s - v /\ Uh t mod 2 = 0 /\
            ul_body fuel v a0 a1 a2 s = swap6 (while_loop fuel hdu_cond hdu_body t).
Proof.
  intros Hv Hvo La Hcg [[[[[u0 u1] u2] d0] d1] d2]. unfold UI, Uu, ul_body.
  intros (Lu & Ld & HU & HUo & HD & Hcd & Hrp & n & Hp & HnA & HnD) Hc.
  pose proof (V3_nonneg _ _ _ La) as HA.
  apply (proj1 (ul_cond_spec v u0 u1 u2 d0 d1 d2 Lu)) in Hc.
  destruct (limbs128 v ltac:(lia)) as (Lv & Ev).
  pose proof (HV_sub x (-1) (V3 u0 u1 u2) (V3 d0 d1 d2) v (V3 a0 a1 a2) n ltac:(lia)
                HUo Hvo HD (proj1 HA) Hcd Hcg Hrp Hp HnD HnA) as H.
  pose proof (sub3_exact u0 u1 u2 _ _ _ Lu Lv ltac:(rewrite Ev; lia)) as Hs.
  destruct (f128_sub_192x192 u0 u1 u2 (wrap 64 v) (wrap 64 (shr v 64)) 0) as [[u0' u1'] u2'].
  destruct Hs as (Lu' & Eu). rewrite Ev in Eu.
  pose proof (pot_bound _ v n HU ltac:(lia) Hp) as Hn. pose proof Hp as [Hn0 _].
  pose proof (add3_exact d0 d1 d2 a0 a1 a2 Ld La ltac:(unfold M in *; lia)) as Ha.
  destruct (f128_add_192x192 d0 d1 d2 a0 a1 a2) as [[d0' d1'] d2']. destruct Ha as (Ld' & Ed).
  exists (d0', d1', d2', u0', u1', u2'). unfold HI, Uh. rewrite Eu, Ed.
  split; [exact (conj Ld' (conj Lu' H))|]. split; [reflexivity|].
  split; [exact (odd_sub_odd _ v HUo Hvo)|reflexivity].
Qed.

Lemma ul_step2 fuel x v a0 a1 a2 :
  0 < v < 2^128 -> v mod 2 = 1 -> L3 a0 a1 a2 -> (M | V3 a0 a1 a2 * x - 1 * v) ->
  forall s s', UI x v (V3 a0 a1 a2) s -> ul_cond v s = true -> ul_body fuel v a0 a1 a2 s = Some s' ->
  UI x v (V3 a0 a1 a2) s' /\ 2 * Uu s' <= Uu s.
Proof.
  intros Hv Hvo La Hcg s s' Hs Hc.
  destruct (ul_prefix fuel x v a0 a1 a2 Hv Hvo La Hcg s Hs Hc) as (t & Ht & EU & Hev & ->).
  destruct (while_loop fuel hdu_cond hdu_body t) as [[[[[[e0 e1] e2] w0] w1] w2]|] eqn:W; [|discriminate].
  cbn [swap6]. intros [= <-].
  destruct (WhileLoop.halve_even_inv Uh (HI x v _) hdu_cond hdu_body hdu_exit_odd (hdu_step2 x v _ ltac:(lia)) fuel _ _ Ht W)
    as ((Le & Lw & H) & Hodd & Hrel).
  specialize (Hrel Hev). unfold Uh in Hodd, Hrel at 1. unfold UI, Uu at 1.
  split; [|lia].
  split; [exact Lw|]. split; [exact Le|].
  destruct (HV_exit_odd _ _ _ _ _ _ H Hodd) as (n' & Hp' & HA' & HD').
  destruct H as (Hw & He & Hcg' & Hrp' & _).
  split; [exact Hw|]. split.
  { pose proof (Z.mod_pos_bound (V3 w0 w1 w2) 2 ltac:(lia)). lia. }
  split; [exact He|]. split; [exact Hcg'|]. split; [exact Hrp'|]. exists n'. auto.
Qed.

Lemma ul_total fuel x v a0 a1 a2 :
  0 < v < 2^128 -> v mod 2 = 1 -> L3 a0 a1 a2 -> (M | V3 a0 a1 a2 * x - 1 * v) -> (192 <= fuel)%nat ->
  forall s, UI x v (V3 a0 a1 a2) s -> ul_cond v s = true -> exists s', ul_body fuel v a0 a1 a2 s = Some s'.
Proof.
  intros Hv Hvo La Hcg Hf s Hs Hc.
  destruct (ul_prefix fuel x v a0 a1 a2 Hv Hvo La Hcg s Hs Hc) as (t & Ht & EU & Hev & ->).
  destruct (WhileLoop.halve_even_term Uh (HI x v _) hdu_cond hdu_body (hdu_step2 x v _ ltac:(lia)) 192 fuel t Ht
              (HI_Uh _ _ _ _ Ht) ltac:(lia)) as [[[[[[e0 e1] e2] w0] w1] w2] ->].
  cbn [swap6]. eauto.
Qed.

Lemma UI_Uu x v A s : UI x v A s -> 0 < Uu s < 2^192.
Proof.
  destruct s as [[[[[u0 u1] u2] d0] d1] d2]. unfold UI, Uu. intros (Lu & _ & Hh & _).
  pose proof (V3_nonneg _ _ _ Lu). lia.
Qed.

Lemma uloop_total fuel x v a0 a1 a2 :
  0 < v < 2^128 -> v mod 2 = 1 -> L3 a0 a1 a2 -> (M | V3 a0 a1 a2 * x - 1 * v) -> (192 <= fuel)%nat ->
  forall s, UI x v (V3 a0 a1 a2) s ->
  exists s', while_loop_o fuel (ul_cond v) (ul_body fuel v a0 a1 a2) s = Some s'.
Proof.
  intros Hv Hvo La Hcg Hf s Hs.
  apply (WhileLoop.while_loop_o_term_halving Uu (UI x v (V3 a0 a1 a2))); [| | |exact Hs|].
  - intros t Ht _. exact (proj1 (UI_Uu _ _ _ _ Ht)).
  - exact (ul_step2 fuel x v a0 a1 a2 Hv Hvo La Hcg).
  - exact (ul_total fuel x v a0 a1 a2 Hv Hvo La Hcg Hf).
  - pose proof (UI_Uu _ _ _ _ Hs). pose proof (p2_le_mono 192 (Z.of_nat fuel) ltac:(lia)). lia.
Qed.

(* ------------------------------------------------------------------ the outer loop  while v != 1 *)
Definition OV (x U D v A : Z) : Prop :=
  0 < v < 2^128 /\ v mod 2 = 1 /\ (M | A * x - 1 * v) /\ UV x v A U D.

Definition OI (x : Z) (s : st10) : Prop :=
  let '(u0, u1, u2, d0, d1, d2, v, a0, a1, a2) := s in
  L3 u0 u1 u2 /\ L3 d0 d1 d2 /\ L3 a0 a1 a2 /\ OV x (V3 u0 u1 u2) (V3 d0 d1 d2) v (V3 a0 a1 a2).

Definition vo (s : st10) : Z := let '(u0, u1, u2, d0, d1, d2, v, a0, a1, a2) := s in v.

Definition join10 (w : Z * Z * Z * Z * Z * Z) (r : option (Z * Z * Z * Z)) : option st10 :=
  let '(u0, u1, u2, d0, d1, d2) := w in
  match r with
  | None => None
  | Some (a0, a1, a2, v) => Some (u0, u1, u2, d0, d1, d2, v, a0, a1, a2)
  end.

Definition ol_inner (fuel : nat) (s : st10) : option (Z * Z * Z * Z * Z * Z) :=
  let '(u0, u1, u2, d0, d1, d2, v, a0, a1, a2) := s in
  while_loop_o fuel (ul_cond v) (ul_body fuel v a0 a1 a2) (u0, u1, u2, d0, d1, d2).

Definition Ud (s : Z * Z * Z * Z * Z * Z) : Z := let '(u0, u1, u2, d0, d1, d2) := s in V3 d0 d1 d2.

(* after the inner loop: v - u and a + d are exact; the halving loop starts from an even v - u *)
Lemma ol_prefix fuel x s w : OI x s -> ol_inner fuel s = Some w ->
  (exists A, UI x (vo s) A w) /\
  exists t, AI x (Uu w) (Ud w) t /\ vh t = vo s - Uu w /\ vh t mod 2 = 0 /\
            (Z.gcd x M = 1 -> vo s <> 1 -> 0 < vh t) /\
            ol_body fuel s = join10 w (while_loop fuel hav_cond hav_body t).
Proof.
  destruct s as [[[[[[[[[u0 u1] u2] d0] d1] d2] v] a0] a1] a2].
  destruct w as [[[[[w0 w1] w2] e0] e1] e2]. unfold OI, ol_inner, vo, Uu, Ud, ol_body.
  intros (Lu & Ld & La & Hv & Hvo & Hcg & HUV) W. rewrite W.
  assert (I0 : UI x v (V3 a0 a1 a2) (u0, u1, u2, d0, d1, d2)) by (unfold UI; auto).
  destruct (WhileLoop.while_loop_o_inv (UI x v (V3 a0 a1 a2)) (ul_cond v) (ul_body fuel v a0 a1 a2)
              (fun s s' Hs Hc Hb => proj1 (ul_step2 fuel x v a0 a1 a2 Hv Hvo La Hcg s s' Hs Hc Hb))
              fuel _ _ I0 W) as (Hw & Hc).
  split; [exists (V3 a0 a1 a2); exact Hw|]. destruct Hw as (Lw & Le & HUV').
  clear I0 W HUV Lu Ld u0 u1 u2 d0 d1 d2.
  apply (proj2 (ul_cond_spec v w0 w1 w2 e0 e1 e2 Lw)) in Hc. destruct Hc as (Hw2 & Hle).
  destruct HUV' as (HU & HUo & HD & Hcd & Hrp & n & Hp & HnA & HnD).
  pose proof Lw as (W0 & W1 & W2).
  rewrite low128 by assumption.
  assert (EU : V3 w0 w1 w2 = w0 + w1 * 2^64) by (unfold V3; subst w2; ring).
  rewrite <- EU. set (U := V3 w0 w1 w2) in *.
  rewrite (wrap_small 128 (v - U)) by lia.
  pose proof (V3_nonneg _ _ _ La) as HA.
  pose proof (pot_bound _ v n HU ltac:(lia) Hp) as Hn. pose proof Hp as [Hn0 _].
  pose proof (add3_exact a0 a1 a2 e0 e1 e2 La Le ltac:(unfold M in *; lia)) as Ha.
  destruct (f128_add_192x192 a0 a1 a2 e0 e1 e2) as [[a0' a1'] a2']. destruct Ha as (La' & Ea).
  set (A := V3 a0 a1 a2) in *. set (D := V3 e0 e1 e2) in *.
  pose proof (odd_sub_odd v U Hvo HUo) as Hev.
  exists (a0', a1', a2', v - U). unfold vh.
  split; [|split; [reflexivity|split; [exact Hev|split; [|reflexivity]]]].
  - unfold AI. split; [exact La'|]. split; [lia|].
    destruct (Z.eq_dec (v - U) 0) as [E|E]; [left; exact E|right].
    rewrite Ea.
    exact (HV_sub x 1 v A U D n ltac:(lia) Hvo HUo (proj1 HA) HD Hcg Hcd (RP_sym _ _ _ Hrp) (pot_sym _ _ _ Hp) HnA HnD).
  - (* u = v is impossible when gcd(x, M) = 1 and v <> 1 *)
    intros Hg Hv1. destruct (Z.eq_dec U v) as [E|E]; [|lia].
    exfalso. apply Hv1. rewrite <- E in *. exact (RP_diag x U Hg HU Hrp).
Qed.

(* the next outer state, from the exit states of the inner loop and of the halving loop *)
Lemma ol_join x v A w t' s' : UI x v A w -> AI x (Uu w) (Ud w) t' -> 0 < vh t' -> vh t' mod 2 <> 0 ->
  join10 w (Some t') = Some s' -> OI x s' /\ vo s' = vh t'.
Proof.
  destruct w as [[[[[w0 w1] w2] e0] e1] e2], t' as [[[b0 b1] b2] v'].
  unfold UI, AI, Uu, Ud, vh. intros (Lw & Le & HU & HUo & HD & Hcd & _) (Lb & Hv' & H) Hpos Hodd.
  cbn [join10]. intros [= <-]. split; [|reflexivity].
  destruct H as [->|H]; [lia|].
  destruct (HV_exit_odd _ _ _ _ _ _ H Hodd) as (n' & Hp' & HD' & HA').
  destruct H as (_ & Hb & Hcg' & Hrp' & _).
  split; [exact Lw|]. split; [exact Le|]. split; [exact Lb|].
  unfold OV. split; [lia|]. split.
  { pose proof (Z.mod_pos_bound v' 2 ltac:(lia)). lia. }
  split; [exact Hcg'|].
  unfold UV. split; [exact HU|]. split; [exact HUo|]. split; [exact HD|]. split; [exact Hcd|].
  split; [apply RP_sym; exact Hrp'|].
  exists n'. split; [apply pot_sym; exact Hp'|]. auto.
Qed.

Lemma ol_step2 fuel x : forall s s', OI x s -> ol_cond s = true -> ol_body fuel s = Some s' ->
  OI x s' /\ 2 * vo s' <= vo s.
Proof.
  intros s s' Hs _.
  destruct (ol_inner fuel s) as [w|] eqn:W.
  - destruct (ol_prefix fuel x s w Hs W) as ((A & Hw) & t & Ht & Ev & Hev & _ & ->).
    pose proof (proj1 (UI_Uu _ _ _ _ Hw)) as HU.
    destruct (while_loop fuel hav_cond hav_body t) as [t'|] eqn:W2;
      [|destruct w as [[[[[? ?] ?] ?] ?] ?]; discriminate].
    intros Hj.
    destruct (WhileLoop.halve_even_inv vh (AI x _ _) hav_cond hav_body hav_exit_odd (hav_step2 x _ _ HU) fuel t t' Ht W2)
      as (Ht' & Hodd & Hrel). specialize (Hrel Hev).
    pose proof (AI_vh _ _ _ _ Ht') as Hr.
    assert (Hpos : 0 < vh t').
    { destruct (Z.eq_dec (vh t') 0) as [E|E]; [|lia]. rewrite E in Hodd. destruct (Hodd eq_refl). }
    destruct (ol_join x _ A w t' s' Hw Ht' Hpos Hodd Hj) as [Hs' ->].
    split; [exact Hs'|lia].
  - destruct s as [[[[[[[[[u0 u1] u2] d0] d1] d2] v] a0] a1] a2]. unfold ol_inner in W. unfold ol_body.
    rewrite W. discriminate.
Qed.

Lemma ol_step fuel x : forall s s', OI x s -> ol_cond s = true -> ol_body fuel s = Some s' -> OI x s'.
Proof. intros s s' Hs Hc Hb. exact (proj1 (ol_step2 fuel x s s' Hs Hc Hb)). Qed.

Lemma ol_total fuel x : Z.gcd x M = 1 -> (192 <= fuel)%nat ->
  forall s, OI x s -> ol_cond s = true -> exists s', ol_body fuel s = Some s'.
Proof.
  intros Hg Hf [[[[[[[[[u0 u1] u2] d0] d1] d2] v] a0] a1] a2] Hs Hc.
  apply negb_true_iff, Z.eqb_neq in Hc.
  pose proof Hs as (Lu & Ld & La & Hv & Hvo & Hcg & HUV).
  destruct (uloop_total fuel x v a0 a1 a2 Hv Hvo La Hcg Hf (u0, u1, u2, d0, d1, d2)) as [w W]; [unfold UI; auto|].
  destruct (ol_prefix fuel x _ w Hs W) as ((A & Hw) & t & Ht & Ev & Hev & Hpos & ->).
  destruct (WhileLoop.halve_even_term vh (AI x _ _) hav_cond hav_body (hav_step2 x _ _ (proj1 (UI_Uu _ _ _ _ Hw))) 128 fuel t Ht
              (conj (Hpos Hg Hc) (proj2 (AI_vh _ _ _ _ Ht))) ltac:(lia)) as [[[[b0 b1] b2] v'] ->].
  destruct w as [[[[[w0 w1] w2] e0] e1] e2]. cbn [join10]. eauto.
Qed.

Lemma OI_vo x s : OI x s -> 0 < vo s < 2^128.
Proof.
  destruct s as [[[[[[[[[u0 u1] u2] d0] d1] d2] v] a0] a1] a2]. unfold OI, vo.
  intros (_ & _ & _ & H & _). exact H.
Qed.

Lemma oloop_total fuel x : Z.gcd x M = 1 -> (192 <= fuel)%nat ->
  forall s, OI x s -> exists s', while_loop_o fuel ol_cond (ol_body fuel) s = Some s'.
Proof.
  intros Hg Hf s Hs.
  apply (WhileLoop.while_loop_o_term_halving vo (OI x)); [| | |exact Hs|].
  - intros t Ht _. exact (proj1 (OI_vo _ _ Ht)).
  - exact (ol_step2 fuel x).
  - exact (ol_total fuel x Hg Hf).
  - pose proof (OI_vo _ _ Hs). pose proof (p2_le_mono 128 (Z.of_nat fuel) ltac:(lia)). lia.
Qed.

(* ------------------------------------------------------------------ final reduction  while a >= M *)
Definition Af (s : Z * Z * Z * Z) : Z := let '(a0, a1, a2, a) := s in V3 a0 a1 a2.

Definition FI (x : Z) (s : Z * Z * Z * Z) : Prop :=
  let '(a0, a1, a2, a) := s in
  L3 a0 a1 a2 /\ a = a0 + a1 * 2^64 /\ (M | V3 a0 a1 a2 * x - 1).

Lemma fin_step2 x : forall s, FI x s -> fin_cond s = true -> FI x (fin_body s) /\ Af (fin_body s) = Af s - M.
Proof.
  intros [[[a0 a1] a2] a]. unfold FI, Af, fin_cond, fin_body. cbv zeta.
  intros (La & Ea & Hcg) Hc. pose proof La as (A0 & A1 & A2).
  rewrite M_lo, M_hi. rewrite M_eq, Z.gtb_ltb, Z.geb_leb in Hc.
  assert (HM : M <= V3 a0 a1 a2).
  { unfold V3. destruct (Z.ltb_spec 0 a2); destruct (Z.leb_spec M a); cbn [orb] in Hc;
      try discriminate; unfold M in *; lia. }
  destruct M_L3 as [LM EM].
  pose proof (sub3_exact a0 a1 a2 _ _ _ La LM ltac:(rewrite EM; exact HM)) as Hs.
  destruct (f128_sub_192x192 a0 a1 a2 (2^64 - C) (2^64 - 1) 0) as [[b0 b1] b2].
  destruct Hs as (Lb & E). rewrite EM in E.
  split; [|exact E].
  split; [exact Lb|]. split; [apply low128; apply Lb|].
  destruct Hcg as [k Hk]. exists (k - x).
  rewrite E. replace ((V3 a0 a1 a2 - M) * x - 1) with (V3 a0 a1 a2 * x - 1 - x * M) by ring.
  rewrite Hk. ring.
Qed.

Lemma fin_total x fuel s : FI x s -> Af s < (Z.of_nat fuel + 1) * M ->
  exists s', while_loop fuel fin_cond fin_body s = Some s'.
Proof.
  intros H0 Hb.
  apply (WhileLoop.while_loop_term (fun n t => FI x t /\ Af t < (Z.of_nat n + 1) * M) fin_cond fin_body).
  - intros [[[a0 a1] a2] a]. unfold FI, Af, fin_cond. intros ((La & Ea & _) & Hlt).
    pose proof La as (A0 & A1 & A2). unfold V3 in Hlt. rewrite M_eq, Z.gtb_ltb, Z.geb_leb.
    change (Z.of_nat 0 + 1) with 1 in Hlt.
    destruct (Z.ltb_spec 0 a2); destruct (Z.leb_spec M a); cbn [orb]; try reflexivity; unfold M in *; lia.
  - intros n t [Ht Hlt] Hc. destruct (fin_step2 x t Ht Hc) as [Ht' E].
    split; [exact Ht'|]. rewrite Nat2Z.inj_succ in Hlt. unfold M in *. lia.
  - split; assumption.
Qed.

(* ------------------------------------------------------------------ initial state *)
(* u starts as x or x + M, whichever is odd; d = M - 1 = -1, v = M, a = 0 *)
Lemma OI_init x u0 u1 u2 : 0 < x < M -> L3 u0 u1 u2 -> V3 u0 u1 u2 mod 2 = 1 ->
  V3 u0 u1 u2 = x \/ V3 u0 u1 u2 = x + M ->
  OI x (u0, u1, u2, wrap 64 (wrap 64 f128_M - 1), wrap 64 (shr f128_M 64), 0, f128_M, 0, 0, 0).
Proof.
  intros Hx Lu Hodd HU.
  assert (Ld : L3 (wrap 64 (wrap 64 f128_M - 1)) (wrap 64 (shr f128_M 64)) 0)
    by (unfold L3; vm_compute; repeat split; (discriminate || reflexivity)).
  assert (Ed : V3 (wrap 64 (wrap 64 f128_M - 1)) (wrap 64 (shr f128_M 64)) 0 = M - 1) by (vm_compute; reflexivity).
  assert (La : L3 0 0 0) by (repeat split; lia).
  unfold OI. split; [exact Lu|]. split; [exact Ld|]. split; [exact La|].
  rewrite Ed, M_eq. change (V3 0 0 0) with 0. set (U := V3 u0 u1 u2) in *.
  unfold OV. split; [unfold M; lia|]. split; [reflexivity|]. split.
  { exists (-1). ring. }
  unfold UV. split; [lia|]. split; [exact Hodd|]. split; [unfold M; lia|]. split.
  { destruct HU as [->| ->]; [exists x|exists (x + 1)]; ring. }
  split.
  { intros g HgU HgM. apply Z.gcd_greatest; [|exact HgM].
    destruct HU as [E|E]; rewrite E in HgU; [exact HgU|].
    replace x with ((x + M) - M) by ring. apply Z.divide_sub_r; assumption. }
  exists 0. split; [|unfold M; lia].
  split; [lia|]. rewrite Z.pow_0_r, Z.mul_1_r. unfold M in *. lia.
Qed.

Lemma inv_init_spec x : 0 < x < M ->
  let '(u0, u1, u2) := inv_init_u x in
  OI x (u0, u1, u2, wrap 64 (Z.sub (wrap 64 f128_M) 1), wrap 64 (shr f128_M 64), 0, f128_M, 0, 0, 0).
Proof.
  intros Hx. unfold inv_init_u. rewrite land1.
  destruct (limbs128 x ltac:(unfold M in *; lia)) as (Lx & Ex).
  destruct (Z.eqb_spec (x mod 2) 1) as [E|E].
  - apply (OI_init x _ _ _ Hx Lx); [rewrite Ex; exact E|left; exact Ex].
  - rewrite M_lo, M_hi. destruct M_L3 as [LM EM].
    pose proof (add3_exact _ _ _ _ _ _ Lx LM ltac:(rewrite Ex, EM; unfold M in *; lia)) as Ha.
    destruct (f128_add_192x192 (wrap 64 x) (wrap 64 (shr x 64)) 0 (2^64 - C) (2^64 - 1) 0) as [[u0 u1] u2].
    destruct Ha as (Lu & EU). rewrite Ex, EM in EU.
    apply (OI_init x _ _ _ Hx Lu); [|right; exact EU].
    pose proof (Z.mod_pos_bound x 2 ltac:(lia)).
    rewrite EU, Z.add_mod by lia. replace (x mod 2) with 0 by lia. reflexivity.
Qed.

(* ------------------------------------------------------------------ partial correctness *)
(* what the outer loop leaves behind: a is an inverse of x, at most 130 M *)
Lemma ol_exit x fuel s u0 u1 u2 d0 d1 d2 v a0 a1 a2 : OI x s ->
  while_loop_o fuel ol_cond (ol_body fuel) s = Some (u0, u1, u2, d0, d1, d2, v, a0, a1, a2) ->
  FI x (a0, a1, a2, wrap 128 (a0 + shl 128 a1 64)) /\ 2 * V3 a0 a1 a2 <= 259 * M.
Proof.
  intros I0 W.
  destruct (WhileLoop.while_loop_o_inv (OI x) ol_cond (ol_body fuel) (ol_step fuel x) fuel _ _ I0 W)
    as ((_ & _ & La & Hv & _ & Hcg & HU & _ & _ & _ & _ & n & Hp & HnA & _) & Hc).
  unfold ol_cond in Hc. apply negb_false_iff, Z.eqb_eq in Hc. subst v.
  pose proof (pot_bound _ 1 n HU ltac:(lia) Hp) as Hn. pose proof Hp as [Hn0 _].
  split; [|unfold M in *; lia].
  unfold FI. split; [exact La|]. split; [apply low128; apply La|exact Hcg].
Qed.

Theorem f128_inv_sound_partial fuel x r : repr128 x -> f128_fn_inv fuel x = Some r ->
  repr128 r /\ (r * x) mod M = (if x =? 0 then 0 else 1).
Proof.
  unfold repr128. intros Hx. rewrite f128_fn_inv_unfold.
  destruct (Z.eqb_spec x 0) as [->|Hnz].
  { intros [= <-]. split; [unfold M; lia|reflexivity]. }
  pose proof (inv_init_spec x ltac:(lia)) as I0.
  destruct (inv_init_u x) as [[u0 u1] u2].
  destruct (while_loop_o fuel ol_cond (ol_body fuel) _)
    as [[[[[[[[[[w0 w1] w2] e0] e1] e2] v] a0] a1] a2]|] eqn:W; [|discriminate].
  destruct (ol_exit x fuel _ _ _ _ _ _ _ _ _ _ _ I0 W) as [F0 _].
  destruct (while_loop fuel fin_cond fin_body _) as [[[[b0 b1] b2] b]|] eqn:W2; [|discriminate].
  intros [= <-].
  destruct (WhileLoop.while_loop_inv (FI x) fin_cond fin_body
              (fun s H Hc => proj1 (fin_step2 x s H Hc)) fuel _ _ F0 W2)
    as ((Lb & Eb & Hcg') & Hc').
  unfold fin_cond in Hc'. rewrite M_eq, Z.gtb_ltb, Z.geb_leb in Hc'.
  pose proof Lb as (B0 & B1 & B2).
  destruct (Z.ltb_spec 0 b2); [discriminate|]. destruct (Z.leb_spec M b); [discriminate|].
  assert (b2 = 0) by lia. subst b2.
  assert (EV : V3 b0 b1 0 = b) by (unfold V3; lia). rewrite EV in Hcg'.
  split; [lia|]. destruct Hcg' as [k Hk].
  apply (mod_eq _ _ k); [unfold M; lia|lia].
Qed.

(* ------------------------------------------------------------------ termination
   every loop halves u or v; u = v (which would make v = 0 and the loop spin) can only happen at
   u = v = 1 when gcd(x, M) = 1, which holds for every 0 < x < M because M is prime
   (primality is proved separately and is a hypothesis here). *)
Theorem f128_inv_terminates fuel x : repr128 x -> (x <> 0 -> Z.gcd x M = 1) -> (192 <= fuel)%nat ->
  exists r, f128_fn_inv fuel x = Some r.
Proof.
  unfold repr128. intros Hx Hg Hf. rewrite f128_fn_inv_unfold.
  destruct (Z.eqb_spec x 0) as [->|Hnz]; [eauto|].
  specialize (Hg Hnz).
  pose proof (inv_init_spec x ltac:(lia)) as I0.
  destruct (inv_init_u x) as [[u0 u1] u2].
  destruct (oloop_total fuel x Hg Hf _ I0) as [[[[[[[[[[w0 w1] w2] e0] e1] e2] v] a0] a1] a2] W].
  rewrite W.
  destruct (ol_exit x fuel _ _ _ _ _ _ _ _ _ _ _ I0 W) as [F0 Hb].
  destruct (fin_total x fuel _ F0) as [[[[b0 b1] b2] b] ->]; [|eauto].
  unfold Af. unfold M in *. lia.
Qed.

Theorem f128_inv_total fuel x : repr128 x -> (x <> 0 -> Z.gcd x M = 1) -> (192 <= fuel)%nat ->
  exists r, f128_fn_inv fuel x = Some r /\ repr128 r /\ (r * x) mod M = (if x =? 0 then 0 else 1).
Proof.
  intros Hx Hg Hf. destruct (f128_inv_terminates fuel x Hx Hg Hf) as [r E].
  exists r. split; [exact E|]. exact (f128_inv_sound_partial fuel x r Hx E).
Qed.

Theorem f128_inv_sound_partial' fuel x r : repr128 x -> f128_inv fuel x = Some r ->
  repr128 r /\ (r * x) mod M = (if x =? 0 then 0 else 1).
Proof.
  intros Hx. unfold f128_inv.
  destruct (f128_fn_inv fuel x) as [i|] eqn:E; [|discriminate].
  intros [= <-]. exact (f128_inv_sound_partial fuel x i Hx E).
Qed.

Theorem f128_inv_zero fuel : f128_inv fuel 0 = Some 0.
Proof. reflexivity. Qed.

(* division = multiplication by the inverse; x / 0 = 0 *)
Theorem f128_div_sound_partial fuel a b r : repr128 a -> repr128 b -> f128_div fuel a b = Some r ->
  repr128 r /\ (b <> 0 -> (r * b) mod M = a) /\ (b = 0 -> r = 0).
Proof.
  intros Ha Hb. unfold f128_div.
  destruct (f128_fn_inv fuel b) as [i|] eqn:E; [|discriminate].
  intros [= <-]. destruct (f128_inv_sound_partial fuel b i Hb E) as (Hi & Hib).
  rewrite (proj1 (f128_fn_mul_both a i Ha Hi)).
  split; [apply repr128_mod|]. split.
  - intros Hnz. destruct (Z.eqb_spec b 0) as [|_]; [contradiction|].
    rewrite Z.mul_mod_idemp_l by (unfold M; lia).
    replace (a * i * b) with (a * (i * b)) by ring.
    rewrite <- Z.mul_mod_idemp_r, Hib, Z.mul_1_r by (unfold M; lia).
    apply Z.mod_small. exact Ha.
  - intros ->. rewrite f128_fn_inv_unfold, Z.eqb_refl in E. injection E as <-.
    rewrite Z.mul_0_r. reflexivity.
Qed.

Theorem f128_div_total fuel a b : repr128 a -> repr128 b -> (b <> 0 -> Z.gcd b M = 1) -> (192 <= fuel)%nat ->
  exists r, f128_div fuel a b = Some r /\ repr128 r /\ (b <> 0 -> (r * b) mod M = a) /\ (b = 0 -> r = 0).
Proof.
  intros Ha Hb Hg Hf. destruct (f128_inv_terminates fuel b Hb Hg Hf) as [i E].
  assert (Ed : f128_div fuel a b = Some (f128_fn_mul a i)) by (unfold f128_div; rewrite E; reflexivity).
  exists (f128_fn_mul a i). split; [exact Ed|]. exact (f128_div_sound_partial fuel a b _ Ha Hb Ed).
Qed.

(* the hypotheses are satisfiable, and the generated term really runs *)
Example f128_inv_example :
  repr128 2 /\ Z.gcd 2 M = 1 /\ f128_fn_inv 192 2 = Some ((M + 1) / 2).
Proof. split; [split; (discriminate || reflexivity)|]. split; vm_compute; reflexivity. Qed.

(* with primality of M (proved in another file; a hypothesis here) the gcd condition disappears *)
Lemma gcd_of_prime x : prime M -> 0 < x < M -> Z.gcd x M = 1.
Proof.
  intros Hp Hx. apply Zgcd_1_rel_prime. apply rel_prime_le_prime; [exact Hp|lia].
Qed.

Theorem f128_inv_total_prime : prime M -> forall fuel x, repr128 x -> (192 <= fuel)%nat ->
  exists r, f128_fn_inv fuel x = Some r /\ repr128 r /\ (r * x) mod M = (if x =? 0 then 0 else 1).
Proof.
  intros Hp fuel x Hx Hf. apply f128_inv_total; [exact Hx| |exact Hf].
  intros Hnz. apply gcd_of_prime; [exact Hp|unfold repr128 in Hx; lia].
Qed.

Theorem f128_div_total_prime : prime M -> forall fuel a b, repr128 a -> repr128 b -> (192 <= fuel)%nat ->
  exists r, f128_div fuel a b = Some r /\ repr128 r /\ (b <> 0 -> (r * b) mod M = a) /\ (b = 0 -> r = 0).
Proof.
  intros Hp fuel a b Ha Hb Hf. apply f128_div_total; [exact Ha|exact Hb| |exact Hf].
  intros Hnz. apply gcd_of_prime; [exact Hp|unfold repr128 in Hb; lia].
Qed.
