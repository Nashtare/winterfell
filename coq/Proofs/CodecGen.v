(* The hand model of Model/Codec.v EQUALS the terms rs2v regenerates from the Rust source on every run
   (Gen/Serde.v: vint64 arithmetic of byte_writer.rs / byte_reader.rs; Gen/Limits.v: limit constants and the
   validation code of the constructors / readers of ProofOptions, TraceInfo, Context, FriProof).  A change of a
   constant, a comparison or a shift in the source changes the generated term and breaks one of these
   equalities.  Property C12. *)
From VBase Require Import MachInt.
From Coq Require Import Btauto.
From VGen Require Serde Limits.
From VModel Require Import Codec.
From VProofs Require Import MachIntFacts CodecPrim CodecTypes.
Open Scope Z_scope.

Lemma is_pow2_same x : Limits.is_pow2 x = Codec.is_pow2 x.
Proof. reflexivity. Qed.

Lemma bind_ext {A B} (r : Rd A) (f g : A -> Rd B) :
  (forall a bs, f a bs = g a bs) -> forall bs, bind r f bs = bind r g bs.
Proof. intros H bs. unfold bind. destruct (r bs) as [[a bs']| |]; auto. Qed.

(* extensionality restricted to what a reader can return on byte input *)
Lemma bind_ext_safe {A B} (P : A -> Prop) (r : Rd A) (f g : A -> Rd B) :
  safeP P r -> (forall a bs, P a -> is_bytes bs -> f a bs = g a bs) ->
  forall bs, is_bytes bs -> bind r f bs = bind r g bs.
Proof.
  intros Hr H bs Hbs. unfold bind. specialize (Hr bs Hbs).
  destruct (r bs) as [[a bs']| |]; auto. destruct Hr. auto.
Qed.

(* ------------------------------------------------------------------------------- vint64: Gen/Serde.v *)
Theorem encoded_len_gen v : Codec.encoded_len v = Serde.serde_encoded_len v.
Proof.
  pose proof (encoded_len_1_9 v) as H. unfold Serde.serde_encoded_len.
  unfold Codec.encoded_len, sat_sub in *. cbv zeta in *.
  rewrite wrap_small; [reflexivity|]. change (2 ^ 64) with 18446744073709551616. lia.
Qed.

Theorem encoded_len_gen_no_overflow v : Serde.serde_encoded_len_ok v = true.
Proof.
  pose proof (encoded_len_1_9 v) as H. unfold Codec.encoded_len, sat_sub in H. cbv zeta in H.
  unfold Serde.serde_encoded_len_ok, in_u. cbv zeta. cbn [Z.eqb negb andb].
  change (2 ^ 64) with 18446744073709551616.
  destruct (Z.leb_spec 0 (9 - Z.min (Z.max 0 (clz 64 v - 1) / 7) 8)); [|lia].
  destruct (Z.ltb_spec (9 - Z.min (Z.max 0 (clz 64 v - 1) / 7) 8) 18446744073709551616); [reflexivity | lia].
Qed.

(* write_usize = the hand skeleton (9-byte test, slice [..length]) around the generated encoding expression *)
Definition write_usize_g (value : Z) : bytes :=
  let length := Serde.serde_encoded_len value in
  if length =? 9 then write_u8 0 ++ write_uint 8 value
  else firstn (Z.to_nat length) (Serde.serde_write_usize_enc value length).

Theorem write_usize_gen v : Codec.write_usize v = write_usize_g v.
Proof.
  unfold Codec.write_usize, write_usize_g. cbv zeta. rewrite <- encoded_len_gen.
  pose proof (encoded_len_1_9 v) as H.
  destruct (Codec.encoded_len v =? 9); [reflexivity|].
  unfold Serde.serde_write_usize_enc. cbv zeta.
  rewrite (wrap_small 64 (Codec.encoded_len v - 1)); [reflexivity|].
  change (2 ^ 64) with 18446744073709551616. lia.
Qed.

Theorem write_usize_gen_no_overflow v : Serde.serde_write_usize_enc_ok v (Serde.serde_encoded_len v) = true.
Proof.
  rewrite <- encoded_len_gen. pose proof (encoded_len_1_9 v) as H.
  unfold Serde.serde_write_usize_enc_ok, in_u.
  rewrite (wrap_small 64 (Codec.encoded_len v - 1)) by (change (2 ^ 64) with 18446744073709551616; lia).
  change (2 ^ 64) with 18446744073709551616.
  destruct (Z.leb_spec 0 (Codec.encoded_len v - 1)); [|lia].
  destruct (Z.ltb_spec (Codec.encoded_len v - 1) 18446744073709551616); [|lia].
  destruct (Z.ltb_spec (Codec.encoded_len v - 1) 64); [reflexivity | lia].
Qed.

(* read_usize = the hand skeleton (peek, 9-byte test, byte reads, zero padding) around the generated pieces *)
Definition read_usize_g : Rd Z :=
  first_byte <- peek_u8 ;;
  let vlen := Serde.serde_read_usize_length first_byte in
  result <- (if vlen =? 9
             then _ <- read_u8 ;; read_uint 8
             else v <- read_slice vlen ;;
                  (* encoded[..length].copy_from_slice(value) on [0u8; 8] *)
                  ret (Serde.serde_read_usize_shift (v ++ repeat 0 (8 - length v)) vlen)) ;;
  match Serde.serde_read_usize_check result with None => fail Invalid | Some r => ret r end.

Theorem read_usize_gen bs : Codec.read_usize bs = read_usize_g bs.
Proof.
  unfold Codec.read_usize, read_usize_g. apply bind_ext. intros fb bs1.
  assert (E : Serde.serde_read_usize_length fb = ctz 8 fb + 1).
  { unfold Serde.serde_read_usize_length. cbv zeta. pose proof (ctz_range 8 fb ltac:(lia)).
    apply wrap_small. change (2 ^ 64) with 18446744073709551616. lia. }
  cbv zeta. rewrite E.
  assert (Hres : forall r bs2,
             (if r >? usize_max then fail Invalid else ret r) bs2 =
             match Serde.serde_read_usize_check r with None => fail Invalid | Some r' => ret r' end bs2).
  { intros r bs2. unfold Serde.serde_read_usize_check, usize_max.
    change (2 ^ 64 - 1) with 18446744073709551615. destruct (r >? 18446744073709551615); reflexivity. }
  destruct (ctz 8 fb + 1 =? 9).
  - apply bind_ext. exact Hres.
  - unfold bind at 1 3. unfold bind at 1 2.
    destruct (read_slice (ctz 8 fb + 1) bs1) as [[v bs2]| |]; auto.
    unfold ret at 1 3. unfold Serde.serde_read_usize_shift. rewrite of_le_bytes_app_zeros. apply Hres.
Qed.

(* the round trip, restated on the regenerated arithmetic *)
Theorem vint64_rt_gen v rest : 0 <= v < 2 ^ 64 -> read_usize_g (write_usize_g v ++ rest) = Ok (v, rest).
Proof. intros H. rewrite <- write_usize_gen, <- read_usize_gen. now apply vint64_rt. Qed.

(* --------------------------------------------------------------------- constructors: Gen/Limits.v *)
Lemma assert_andb {A} (a b : bool) (k : Result A) : assert_ a (assert_ b k) = assert_ (a && b) k.
Proof. destruct a, b; reflexivity. Qed.

(* ProofOptions::new accepts exactly when the conjunction of its translated asserts holds *)
Theorem ProofOptions_new_gen nq bf gf fe ff rd : 0 <= rd < 2 ^ 64 ->
  ProofOptions_new nq bf gf fe ff rd =
  if Limits.lim_po_new_checks_ok nq bf gf ff rd
  then Ok (mkPO (wrap 8 nq) (wrap 8 bf) (wrap 8 gf) fe (wrap 8 ff) (wrap 8 rd)) else Panic.
Proof.
  intros Hrd. unfold ProofOptions_new, Limits.lim_po_new_checks_ok.
  rewrite !assert_andb. unfold assert_.
  unfold Limits.lim_MAX_NUM_QUERIES, Limits.lim_MIN_BLOWUP_FACTOR, Limits.lim_MAX_BLOWUP_FACTOR,
    Limits.lim_MAX_GRINDING_FACTOR, Limits.lim_FRI_MIN_FOLDING_FACTOR, Limits.lim_FRI_MAX_FOLDING_FACTOR,
    Limits.lim_FRI_MAX_REMAINDER_DEGREE.
  change Limits.is_pow2 with Codec.is_pow2.
  (* robust to a reordering of the asserts in the source: both sides are conjunctions of the same atoms (btauto) once
     the two atoms about `rd + 1` are identified *)
  assert (EA : in_u 64 (rd + 1) = (rd + 1 <=? usize_max)).
  { unfold in_u, usize_max. change (2 ^ 64 - 1) with 18446744073709551615.
    destruct (Z.leb_spec 0 (rd + 1)); [|lia].
    destruct (Z.leb_spec (rd + 1) 18446744073709551615); destruct (Z.ltb_spec (rd + 1) (2 ^ 64)); try lia; reflexivity. }
  assert (EB : (rd + 1 <=? usize_max) = true -> Codec.is_pow2 (wrap 64 (rd + 1)) = Codec.is_pow2 (rd + 1)).
  { intros H. apply Z.leb_le in H. unfold usize_max in H. rewrite wrap_small by lia. reflexivity. }
  rewrite EA. destruct (rd + 1 <=? usize_max) eqn:HA.
  - rewrite (EB eq_refl).
    match goal with |- (if ?a then _ else _) = (if ?b then _ else _) => replace a with b by btauto end. reflexivity.
  - match goal with |- (if ?a then _ else _) = (if ?b then _ else _) => replace a with b by btauto end. reflexivity.
Qed.

(* TraceInfo::new_multi_segment; a Vec<u8> is seen by the checks through its length *)
Theorem TraceInfo_new_gen main aux rands length_ meta :
  TraceInfo_new_multi_segment main aux rands length_ meta =
  if Limits.lim_ti_new_checks_ok main aux rands length_ (len meta)
  then Ok (mkTI main aux rands length_ meta) else Panic.
Proof.
  unfold TraceInfo_new_multi_segment, Limits.lim_ti_new_checks_ok.
  rewrite !assert_andb. unfold assert_. cbv zeta.
  unfold Limits.lim_MIN_TRACE_LENGTH, Limits.lim_MAX_META_LENGTH, Limits.lim_MAX_TRACE_WIDTH,
    Limits.lim_MAX_RAND_SEGMENT_ELEMENTS, Limits.lim_vec_len, usize_max.
  change Limits.is_pow2 with Codec.is_pow2. change (2 ^ 64 - 1) with 18446744073709551615.
  rewrite <- !andb_assoc. rewrite (Z.min_comm 18446744073709551615 (main + aux)). reflexivity.
Qed.

(* Context::new (the ProofOptions argument is seen through its blowup factor) *)
Theorem Context_new_gen modulus t o : 0 <= ti_length t -> 0 <= po_blowup_factor o ->
  Context_new modulus t o =
  if Limits.lim_ctx_new_checks_ok (ti_length t) (po_blowup_factor o) then Ok (mkCtx t modulus o) else Panic.
Proof.
  intros Hl Hb. unfold Context_new, Limits.lim_ctx_new_checks_ok, Limits.lim_po_blowup_factor.
  rewrite !assert_andb. unfold assert_. cbv zeta. rewrite <- !andb_assoc. unfold in_u, usize_max.
  change (2 ^ 32 - 1) with 4294967295. change (2 ^ 64 - 1) with 18446744073709551615.
  assert (0 <= ti_length t * po_blowup_factor o) by (apply Z.mul_nonneg_nonneg; lia).
  destruct (Z.leb_spec 0 (ti_length t * po_blowup_factor o)); [|lia].
  destruct (Z.leb_spec (ti_length t * po_blowup_factor o) 18446744073709551615);
    destruct (Z.ltb_spec (ti_length t * po_blowup_factor o) (2 ^ 64)); try lia.
  - rewrite wrap_small by lia. reflexivity.
  - cbn [andb]. now rewrite !andb_false_r.
Qed.

(* the limit constants themselves (a changed constant changes Gen/Limits.v and falsifies this statement) *)
Theorem limits_gen :
  Limits.lim_MAX_NUM_QUERIES = 255 /\ Limits.lim_MIN_BLOWUP_FACTOR = 2 /\ Limits.lim_MAX_BLOWUP_FACTOR = 128 /\
  Limits.lim_MAX_GRINDING_FACTOR = 32 /\ Limits.lim_FRI_MIN_FOLDING_FACTOR = 2 /\ Limits.lim_FRI_MAX_FOLDING_FACTOR = 16 /\
  Limits.lim_FRI_MAX_REMAINDER_DEGREE = 255 /\ Limits.lim_MIN_TRACE_LENGTH = 8 /\ Limits.lim_MAX_TRACE_WIDTH = 255 /\
  Limits.lim_MAX_META_LENGTH = 65535 /\ Limits.lim_MAX_RAND_SEGMENT_ELEMENTS = 255.
Proof. repeat split; reflexivity. Qed.

(* -------------------------------------------------------------------------- readers: Gen/Limits.v *)
Definition chk {A B} (c : option B) (k : Rd A) : Rd A := match c with None => fail Invalid | Some _ => k end.

(* ProofOptions::read_from = six byte reads, the translated validation, the constructor *)
Definition read_ProofOptions_g : Rd ProofOptions :=
  nq <- read_u8 ;; bf <- read_u8 ;; gf <- read_u8 ;; fe <- read_FieldExtension ;; ff <- read_u8 ;; rd <- read_u8 ;;
  match Limits.lim_po_read_checks nq bf gf ff rd with
  | None => fail Invalid
  | Some _ => lift (ProofOptions_new nq bf gf fe ff rd)
  end.

Theorem read_ProofOptions_gen bs : is_bytes bs -> Codec.read_ProofOptions bs = read_ProofOptions_g bs.
Proof.
  unfold Codec.read_ProofOptions, read_ProofOptions_g.
  apply (bind_ext_safe _ _ _ _ safe_read_u8). intros nq bs1 Hnq.
  apply (bind_ext_safe _ _ _ _ safe_read_u8). intros bf bs2 Hbf.
  apply (bind_ext_safe _ _ _ _ safe_read_u8). intros gf bs3 Hgf.
  apply (bind_ext_safe _ _ _ _ safe_read_FieldExtension). intros fe bs4 _.
  apply (bind_ext_safe _ _ _ _ safe_read_u8). intros ff bs5 Hff.
  apply (bind_ext_safe _ _ _ _ safe_read_u8). intros rd bs6 Hrd Hbs6.
  unfold Limits.lim_po_read_checks.
  unfold Limits.lim_MAX_NUM_QUERIES, Limits.lim_MIN_BLOWUP_FACTOR, Limits.lim_MAX_BLOWUP_FACTOR,
    Limits.lim_MAX_GRINDING_FACTOR, Limits.lim_FRI_MIN_FOLDING_FACTOR, Limits.lim_FRI_MAX_FOLDING_FACTOR,
    Limits.lim_FRI_MAX_REMAINDER_DEGREE.
  change Limits.is_pow2 with Codec.is_pow2. rewrite (wrap_small 64 (rd + 1)) by (change (2 ^ 64) with 18446744073709551616; lia).
  repeat match goal with |- context [if ?c then _ else _] => destruct c end; reflexivity.
Qed.

(* TraceInfo::read_from = byte reads interleaved with the four translated validation parts *)
Definition read_TraceInfo_g : Rd TraceInfo :=
  main <- read_u8 ;;
  chk (Limits.lim_ti_read_main main) (
  aux <- read_u8 ;;
  chk (Limits.lim_ti_read_width main aux) (
  rands <- read_u8 ;;
  chk (Limits.lim_ti_read_rands aux rands) (
  e <- read_u8 ;;
  match Limits.lim_ti_read_length e with
  | None => fail Invalid
  | Some length_ =>
    n <- read_u16 ;;
    meta <- (if negb (n =? 0) then read_vec n else ret []) ;;
    lift (TraceInfo_new_multi_segment main aux rands length_ meta)
  end))).

Theorem read_TraceInfo_gen bs : is_bytes bs -> Codec.read_TraceInfo bs = read_TraceInfo_g bs.
Proof.
  unfold Codec.read_TraceInfo, read_TraceInfo_g, chk.
  apply (bind_ext_safe _ _ _ _ safe_read_u8). intros main bs1 Hmain Hbs1.
  unfold Limits.lim_ti_read_main. destruct (main =? 0); [reflexivity|].
  revert bs1 Hbs1. apply (bind_ext_safe _ _ _ _ safe_read_u8). intros aux bs2 Haux Hbs2.
  unfold Limits.lim_ti_read_width, Limits.lim_MAX_TRACE_WIDTH. cbv zeta.
  rewrite (wrap_small 64 (main + aux)) by (change (2 ^ 64) with 18446744073709551616; lia).
  destruct (main + aux >? 255); [reflexivity|].
  revert bs2 Hbs2. apply (bind_ext_safe _ _ _ _ safe_read_u8). intros rands bs3 Hrands Hbs3.
  unfold Limits.lim_ti_read_rands, Limits.lim_MAX_RAND_SEGMENT_ELEMENTS.
  destruct ((aux =? 0) && negb (rands =? 0)); [reflexivity|].
  destruct (rands >? 255); [reflexivity|].
  revert bs3 Hbs3. apply (bind_ext_safe _ _ _ _ safe_read_u8). intros e bs4 He Hbs4.
  unfold Limits.lim_ti_read_length, Limits.lim_MIN_TRACE_LENGTH.
  change (wrap 8 (Z.log2 8)) with 3.
  destruct (Z.ltb_spec e 3); [reflexivity|].
  destruct (Z.geb_spec e 64); [reflexivity|].
  cbv zeta. rewrite (wrap_small 64 (2 ^ e)); [reflexivity|].
  split; [apply Z.pow_nonneg; lia | apply Z.pow_lt_mono_r; lia].
Qed.

(* Context::read_from: the trace-length check is translated; the `checked_mul` match is outside the translated
   subset and stays hand-modelled (pinned by a source guard of the unit) *)
Definition read_Context_g : Rd Context :=
  t <- read_TraceInfo ;;
  n <- read_u8 ;;
  if n =? 0 then fail Invalid else
  m <- read_vec n ;;
  o <- read_ProofOptions ;;
  chk (Limits.lim_ctx_read_checks (ti_length t) (po_blowup_factor o)) (
  if (ti_length t * po_blowup_factor o <=? usize_max) && (ti_length t * po_blowup_factor o <=? 2 ^ 32 - 1)
  then ret (mkCtx t m o) else fail Invalid).

Theorem read_Context_gen bs : Codec.read_Context bs = read_Context_g bs.
Proof.
  unfold Codec.read_Context, read_Context_g, chk.
  apply bind_ext. intros t bs1. apply bind_ext. intros n bs2.
  destruct (n =? 0); [reflexivity|].
  apply bind_ext. intros m bs3. apply bind_ext. intros o bs4.
  unfold Limits.lim_ctx_read_checks. change (2 ^ 32 - 1) with 4294967295.
  destruct (ti_length t >? 4294967295); reflexivity.
Qed.

Definition read_FriProof_g : Rd FriProof :=
  n <- read_u8 ;;
  layers <- read_many read_FriProofLayer n ;;
  r <- read_blob 2 ;;
  np <- read_u8 ;;
  chk (Limits.lim_fri_read_partitions np) (ret (mkFri layers r np)).

Theorem read_FriProof_gen bs : Codec.read_FriProof bs = read_FriProof_g bs.
Proof.
  unfold Codec.read_FriProof, read_FriProof_g, chk.
  apply bind_ext. intros n bs1. apply bind_ext. intros layers bs2.
  apply bind_ext. intros r bs3. apply bind_ext. intros np bs4.
  unfold Limits.lim_fri_read_partitions. destruct (np >=? 64); reflexivity.
Qed.
