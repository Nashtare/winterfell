(* C14 — plain parallel maps: a map over disjoint single-cell tasks equals the sequential map, for every schedule. *)
From Coq Require Import List Arith Bool Lia Permutation.
From VBase Require Import FieldOps.
From VModel Require Import FFT Par.
From VProofs Require Import ListFacts ParLists ParCommute.
Import ListNotations.

Section Maps.
Context {V : Type} (d : V).

Lemma par_update_ok g n : Forall (task_ok d) (par_update_tasks d g n).
Proof.
  apply Forall_forall. intros t Ht. apply in_map_iff in Ht. destruct Ht as (i & <- & _).
  apply cell_task_ok. intros s s' _ Hag. rewrite (Hag i) by (left; reflexivity). reflexivity.
Qed.

Lemma par_update_independent g n : ForallOrdPairs independent (par_update_tasks d g n).
Proof.
  apply ForallOrdPairs_map_seq. intros i j Hij. unfold independent, disjoint, cell_task; cbn [t_reads t_writes].
  repeat split; intros k [<-|[]] [E|[]]; lia.
Qed.

(* the tasks in program order: the first m cells are updated *)
Lemma par_update_exec_nth g a : forall m, m <= length a ->
  length (exec (par_update_tasks d g m) a) = length a /\
  forall i, nth i (exec (par_update_tasks d g m) a) d = if i <? m then g i (nth i a d) else nth i a d.
Proof.
  induction m as [|m IH]; intros Hm.
  - split; [reflexivity|]. intros i. reflexivity.
  - destruct IH as [Hl Hn]; [lia|]. unfold par_update_tasks in *. rewrite seq_S, map_app, exec_app. cbn [map Nat.add].
    rewrite exec_cons. cbn [exec fold_left cell_task t_run]. split.
    + rewrite lupd_length. exact Hl.
    + intros i. rewrite nth_lupd, Hl, !Hn. destruct (Nat.eqb_spec m i) as [<-|Hne]; cbn [andb].
      * destruct (Nat.ltb_spec m (length a)); [|lia]. rewrite Nat.ltb_irrefl, (proj2 (Nat.ltb_lt m (S m))) by lia. reflexivity.
      * destruct (Nat.ltb_spec i m), (Nat.ltb_spec i (S m)); try lia; reflexivity.
Qed.

(* generic statement, in-place update: tasks well-formed, pairwise disjoint, every schedule = sequential map *)
Theorem par_update_spec (g : nat -> V -> V) a n sched : length a = n -> Permutation sched (seq 0 n) ->
  Forall (task_ok d) (par_update_tasks d g n) /\ ForallOrdPairs independent (par_update_tasks d g n) /\
  exec (reorder (par_update_tasks d g n) sched) a = map (fun i => g i (nth i a d)) (seq 0 n).
Proof.
  intros Hl P. split; [apply par_update_ok|]. split; [apply par_update_independent|].
  rewrite (schedule_independent d).
  - destruct (par_update_exec_nth g a n) as [Hlen Hn]; [lia|].
    apply nth_ext with (d := d) (d' := d).
    + rewrite Hlen, map_length, seq_length. exact Hl.
    + intros i Hi. rewrite Hlen, Hl in Hi. rewrite Hn, nth_map_seq, (proj2 (Nat.ltb_lt i n)) by exact Hi. reflexivity.
  - unfold par_update_tasks. rewrite map_length, seq_length. exact P.
  - apply par_update_ok.
  - apply par_update_independent.
Qed.

(* generic statement, map into a fresh vector: whatever the vector contained *)
Theorem par_map_spec (f : nat -> V) junk n sched : length junk = n -> Permutation sched (seq 0 n) ->
  Forall (task_ok d) (par_map_tasks d f n) /\ ForallOrdPairs independent (par_map_tasks d f n) /\
  exec (reorder (par_map_tasks d f n) sched) junk = par_map_serial f n.
Proof. intros Hl P. unfold par_map_tasks, par_map_serial. apply (par_update_spec (fun i _ => f i)); assumption. Qed.

(* iter_mut!(a).zip(b).for_each(..): cell i becomes f a[i] b[i] *)
Lemma zip_update_spec (f : V -> V -> V) a b sched : length a = length b -> Permutation sched (seq 0 (length b)) ->
  let ts := par_update_tasks d (fun i x => f x (nth i b d)) (length b) in
  Forall (task_ok d) ts /\ ForallOrdPairs independent ts /\ exec (reorder ts sched) a = map2 f a b.
Proof.
  intros Hl P ts. destruct (par_update_spec (fun i x => f x (nth i b d)) a _ sched Hl P) as (Hok & Hind & E).
  split; [exact Hok|]. split; [exact Hind|]. fold ts in E. rewrite E. apply map_seq_map2. exact Hl.
Qed.
End Maps.

(* ---------------------------------------------------------------- instances *)
Theorem transpose_slice_par_spec {T} (dt : T) (source : list T) N junk sched : let rows := length source / N in
  length junk = rows -> Permutation sched (seq 0 rows) ->
  exec (reorder (transpose_slice_tasks dt source N) sched) junk = map (transpose_slice_row dt source N rows) (seq 0 rows).
Proof. intros rows Hl P. apply (par_map_spec (@nil T)); assumption. Qed.

Theorem hash_values_par_spec {R Dg} (dd : Dg) (dr : R) (hash_row : R -> Dg) values junk sched :
  length junk = length values -> Permutation sched (seq 0 (length values)) ->
  exec (reorder (hash_values_tasks dd dr hash_row values) sched) junk = map hash_row values.
Proof.
  intros Hl P. unfold hash_values_tasks. destruct (par_map_spec dd (fun i => hash_row (nth i values dr)) junk _ sched Hl P) as (_ & _ & E).
  rewrite E. unfold par_map_serial. rewrite <- (map_map (fun i => nth i values dr) hash_row). f_equal.
  apply nth_ext with (d := dr) (d' := dr); [rewrite map_length, seq_length; reflexivity|].
  intros i Hi. rewrite map_length, seq_length in Hi. rewrite nth_map_seq by exact Hi. reflexivity.
Qed.

Theorem apply_drp_par_spec {R B E} (de : E) (dr : R) (db : B) (fold_row : R -> B -> E) values inv_offsets junk sched :
  length junk = length values -> Permutation sched (seq 0 (length values)) ->
  exec (reorder (apply_drp_tasks de dr db fold_row values inv_offsets) sched) junk =
  map (fun i => fold_row (nth i values dr) (nth i inv_offsets db)) (seq 0 (length values)).
Proof. intros Hl P. apply (par_map_spec de); assumption. Qed.

Theorem acc_column_boundary_par_spec {E} (de : E) (mul_add : E -> E -> nat -> E) column zl acc sched :
  length acc = length column -> Permutation sched (seq 0 (length column)) ->
  exec (reorder (acc_column_boundary_tasks de mul_add column zl) sched) acc =
  map (fun i => mul_add (nth i acc de) (nth i column de) (i mod zl)) (seq 0 (length column)).
Proof. intros Hl P. apply (par_update_spec de); assumption. Qed.

Theorem per_column_par_spec {C} (dc : C) (col_fn : nat -> C -> C) columns sched :
  Permutation sched (seq 0 (length columns)) ->
  exec (reorder (per_column_tasks dc col_fn (length columns)) sched) columns =
  map (fun c => col_fn c (nth c columns dc)) (seq 0 (length columns)).
Proof. intros P. apply (par_update_spec dc); [reflexivity|exact P]. Qed.

(* math/src/utils add_in_place / mul_acc *)
Theorem add_in_place_par_spec {F} (O : FOps F) a b sched : length a = length b -> Permutation sched (seq 0 (length b)) ->
  Forall (task_ok (fzero O)) (add_in_place_tasks O b) /\ ForallOrdPairs independent (add_in_place_tasks O b) /\
  exec (reorder (add_in_place_tasks O b) sched) a = add_in_place_serial O a b.
Proof. exact (zip_update_spec (fzero O) (fun x y => fadd O x y) a b sched). Qed.

Theorem mul_acc_par_spec {F} (O : FOps F) a b c sched : length a = length b -> Permutation sched (seq 0 (length b)) ->
  Forall (task_ok (fzero O)) (mul_acc_tasks O b c) /\ ForallOrdPairs independent (mul_acc_tasks O b c) /\
  exec (reorder (mul_acc_tasks O b c) sched) a = mul_acc_serial O a b c.
Proof. exact (zip_update_spec (fzero O) (fun x y => fadd O x (fmul O c y)) a b sched). Qed.

Example par_map_ex : exec (reorder (par_map_tasks 0 (fun i => i * i) 5) [3; 0; 4; 2; 1]) [9; 9; 9; 9; 9] = [0; 1; 4; 9; 16].
Proof. reflexivity. Qed.
