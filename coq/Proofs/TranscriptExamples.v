(* C04 — non-vacuity examples and seeded-defect examples for the transcript theorems.  stdlib style. *)
From Coq Require Import List Arith Bool.
From VModel Require Import Transcript.
Import ListNotations.

(* main 1, aux 1 (1 random element), 1+1 transition constraints, 1+0 assertions, 1 composition column,
   quadratic extension, 1 FRI layer, grinding 1, 2 queries *)
Definition s0 : shape := mkShape 1 1 1 1 1 1 0 1 2 1 1 2 None.
(* single segment, base field, no FRI layer (remainder only), no grinding *)
Definition s1 : shape := mkShape 3 0 0 3 0 2 0 2 1 0 0 1 None.
(* Lagrange kernel column: 1 main + 2 aux columns, 2 ordinary random elements, GKR step drawing 3 elements, log2 n = 3 *)
Definition s2 : shape := mkShape 1 2 2 1 1 1 1 1 1 0 0 1 (Some (3, 3)).

Definition good0 : list event :=
  [EvNew [CtxElems; PubInputs]; EvReseed (TraceCommitment 0); EvDraw 0 2; EvReseed (TraceCommitment 1);
   EvDraw 0 2; EvDraw 1 2; EvDraw 2 2; EvReseed ConstraintCommitment; EvDraw 0 2;
   EvReseed HashOodTraceFrame; EvReseed HashOodConstraintEvals; EvDraw 0 2; EvDraw 1 2; EvDraw 2 2;
   EvReseed (FriLayerCommitment 0); EvDraw 0 2; EvReseed RemainderCommitment;
   EvCheckPow PowNonce; EvDrawInts PowNonce 2].

Definition good0_verifier : list event :=
  [EvNew [CtxElems; PubInputs]; EvReseed (TraceCommitment 0); EvDraw 0 2; EvReseed (TraceCommitment 1);
   EvDraw 0 2; EvDraw 1 2; EvDraw 2 2; EvReseed ConstraintCommitment; EvDraw 0 2;
   EvReseed HashOodTraceFrame; EvReseed HashOodConstraintEvals; EvDraw 0 2; EvDraw 1 2; EvDraw 2 2;
   EvReseed (FriLayerCommitment 0); EvDraw 0 2; EvReseed RemainderCommitment; EvDraw 0 2;
   EvCheckPow PowNonce; EvDrawInts PowNonce 2].

Example prover_s0 : map fst (prover s0) = good0.
Proof. reflexivity. Qed.
Example verifier_s0 : map fst (verifier s0) = good0_verifier.
Proof. reflexivity. Qed.
Example prover_s1 : map fst (prover s1) =
  [EvNew [CtxElems; PubInputs]; EvReseed (TraceCommitment 0); EvDraw 0 1; EvDraw 1 1; EvDraw 2 1; EvDraw 3 1; EvDraw 4 1;
   EvReseed ConstraintCommitment; EvDraw 0 1; EvReseed HashOodTraceFrame; EvReseed HashOodConstraintEvals;
   EvDraw 0 1; EvDraw 1 1; EvDraw 2 1; EvDraw 3 1; EvDraw 4 1; EvReseed RemainderCommitment;
   EvCheckPow PowNonce; EvDrawInts PowNonce 1].
Proof. reflexivity. Qed.

Example run_s0_ood : In (OodPoint, CDraw (Reseed (Reseed (Reseed (Seed [CtxElems; PubInputs]) (TraceCommitment 0))
                                          (TraceCommitment 1)) ConstraintCommitment) 0) (run cs_init (prover s0)).
Proof. cbn. auto 12. Qed.

(* the executable checker accepts the model's lists ... *)
Example log_ok_good0 : log_ok false s0 good0 = true.
Proof. reflexivity. Qed.
Example log_ok_good0_verifier : log_ok true s0 good0_verifier = true.
Proof. reflexivity. Qed.
Example log_ok_s1 : log_ok false s1 (map fst (prover s1)) = true /\ log_ok true s1 (map fst (verifier s1)) = true.
Proof. split; reflexivity. Qed.

(* ... and rejects each seeded weakening of the transcript (same number of draws, so an honest run still verifies) *)
(* OOD constraint evaluations not absorbed (consistently on both sides) *)
Example mutant_ood_evals_not_absorbed : log_ok false s0
  [EvNew [CtxElems; PubInputs]; EvReseed (TraceCommitment 0); EvDraw 0 2; EvReseed (TraceCommitment 1);
   EvDraw 0 2; EvDraw 1 2; EvDraw 2 2; EvReseed ConstraintCommitment; EvDraw 0 2;
   EvReseed HashOodTraceFrame; EvDraw 0 2; EvDraw 1 2; EvDraw 2 2;
   EvReseed (FriLayerCommitment 0); EvDraw 0 2; EvReseed RemainderCommitment;
   EvCheckPow PowNonce; EvDrawInts PowNonce 2] = false.
Proof. reflexivity. Qed.
(* two absorptions swapped *)
Example mutant_ood_swapped : log_ok false s0
  [EvNew [CtxElems; PubInputs]; EvReseed (TraceCommitment 0); EvDraw 0 2; EvReseed (TraceCommitment 1);
   EvDraw 0 2; EvDraw 1 2; EvDraw 2 2; EvReseed ConstraintCommitment; EvDraw 0 2;
   EvReseed HashOodConstraintEvals; EvReseed HashOodTraceFrame; EvDraw 0 2; EvDraw 1 2; EvDraw 2 2;
   EvReseed (FriLayerCommitment 0); EvDraw 0 2; EvReseed RemainderCommitment;
   EvCheckPow PowNonce; EvDrawInts PowNonce 2] = false.
Proof. reflexivity. Qed.
(* DEEP coefficients drawn before the OOD frame is absorbed *)
Example mutant_deep_before_ood : log_ok false s0
  [EvNew [CtxElems; PubInputs]; EvReseed (TraceCommitment 0); EvDraw 0 2; EvReseed (TraceCommitment 1);
   EvDraw 0 2; EvDraw 1 2; EvDraw 2 2; EvReseed ConstraintCommitment; EvDraw 0 2;
   EvDraw 1 2; EvDraw 2 2; EvDraw 3 2; EvReseed HashOodTraceFrame; EvReseed HashOodConstraintEvals;
   EvReseed (FriLayerCommitment 0); EvDraw 0 2; EvReseed RemainderCommitment;
   EvCheckPow PowNonce; EvDrawInts PowNonce 2] = false.
Proof. reflexivity. Qed.
(* FRI alpha drawn before the layer commitment is absorbed *)
Example mutant_alpha_before_commitment : log_ok false s0
  [EvNew [CtxElems; PubInputs]; EvReseed (TraceCommitment 0); EvDraw 0 2; EvReseed (TraceCommitment 1);
   EvDraw 0 2; EvDraw 1 2; EvDraw 2 2; EvReseed ConstraintCommitment; EvDraw 0 2;
   EvReseed HashOodTraceFrame; EvReseed HashOodConstraintEvals; EvDraw 0 2; EvDraw 1 2; EvDraw 2 2;
   EvDraw 3 2; EvReseed (FriLayerCommitment 0); EvReseed RemainderCommitment;
   EvCheckPow PowNonce; EvDrawInts PowNonce 2] = false.
Proof. reflexivity. Qed.
(* auxiliary randomness drawn before the main-trace commitment *)
Example mutant_aux_rand_before_main_commitment : log_ok false s0
  [EvNew [CtxElems; PubInputs]; EvDraw 0 2; EvReseed (TraceCommitment 0); EvReseed (TraceCommitment 1);
   EvDraw 0 2; EvDraw 1 2; EvDraw 2 2; EvReseed ConstraintCommitment; EvDraw 0 2;
   EvReseed HashOodTraceFrame; EvReseed HashOodConstraintEvals; EvDraw 0 2; EvDraw 1 2; EvDraw 2 2;
   EvReseed (FriLayerCommitment 0); EvDraw 0 2; EvReseed RemainderCommitment;
   EvCheckPow PowNonce; EvDrawInts PowNonce 2] = false.
Proof. reflexivity. Qed.
(* a commitment reseed removed on both sides *)
Example mutant_constraint_commitment_not_absorbed : log_ok false s0
  [EvNew [CtxElems; PubInputs]; EvReseed (TraceCommitment 0); EvDraw 0 2; EvReseed (TraceCommitment 1);
   EvDraw 0 2; EvDraw 1 2; EvDraw 2 2; EvDraw 3 2;
   EvReseed HashOodTraceFrame; EvReseed HashOodConstraintEvals; EvDraw 0 2; EvDraw 1 2; EvDraw 2 2;
   EvReseed (FriLayerCommitment 0); EvDraw 0 2; EvReseed RemainderCommitment;
   EvCheckPow PowNonce; EvDrawInts PowNonce 2] = false.
Proof. reflexivity. Qed.
(* positions drawn before the remainder commitment is absorbed *)
Example mutant_positions_before_remainder : log_ok false s0
  [EvNew [CtxElems; PubInputs]; EvReseed (TraceCommitment 0); EvDraw 0 2; EvReseed (TraceCommitment 1);
   EvDraw 0 2; EvDraw 1 2; EvDraw 2 2; EvReseed ConstraintCommitment; EvDraw 0 2;
   EvReseed HashOodTraceFrame; EvReseed HashOodConstraintEvals; EvDraw 0 2; EvDraw 1 2; EvDraw 2 2;
   EvReseed (FriLayerCommitment 0); EvDraw 0 2;
   EvCheckPow PowNonce; EvDrawInts PowNonce 2; EvReseed RemainderCommitment] = false.
Proof. reflexivity. Qed.
(* the seed without the public inputs *)
Example mutant_seed_without_pub_inputs : log_ok false s0 (EvNew [CtxElems] :: tl good0) = false.
Proof. reflexivity. Qed.

(* Lagrange-kernel shape: GKR draws first, then the ordinary auxiliary randomness (counter continuing), 3+1 more composition
   coefficients, 1 more DEEP coefficient *)
Example prover_s2 : map fst (prover s2) =
  [EvNew [CtxElems; PubInputs]; EvReseed (TraceCommitment 0); EvDraw 0 1; EvDraw 1 1; EvDraw 2 1; EvDraw 3 1; EvDraw 4 1;
   EvReseed (TraceCommitment 1);
   EvDraw 0 1; EvDraw 1 1; EvDraw 2 1; EvDraw 3 1; EvDraw 4 1; EvDraw 5 1; EvDraw 6 1; EvDraw 7 1;
   EvReseed ConstraintCommitment; EvDraw 0 1; EvReseed HashOodTraceFrame; EvReseed HashOodConstraintEvals;
   EvDraw 0 1; EvDraw 1 1; EvDraw 2 1; EvDraw 3 1; EvDraw 4 1; EvReseed RemainderCommitment;
   EvCheckPow PowNonce; EvDrawInts PowNonce 1].
Proof. reflexivity. Qed.

Definition uses_s2_good : list use :=
  [UseUnobserved; UseUnobserved; UseGkr; UseGkr; UseGkr; UseAux; UseAux] ++ repeat UseUnobserved 21.
(* seeded change C04-m2: the verifier takes the ordinary auxiliary randomness BEFORE the GKR randomness: same coin
   operations, different use of the first draws *)
Definition uses_s2_swapped : list use :=
  [UseUnobserved; UseUnobserved; UseAux; UseAux; UseGkr; UseGkr; UseGkr] ++ repeat UseUnobserved 21.

Example log_ok_uses_s2 : log_ok_uses false s2 (map fst (prover s2)) uses_s2_good = true.
Proof. reflexivity. Qed.
Example mutant_aux_rand_before_gkr : log_ok_uses false s2 (map fst (prover s2)) uses_s2_swapped = false.
Proof. reflexivity. Qed.
