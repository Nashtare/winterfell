(* C01 — capstone: the algebraic prover/verifier pair of Model/Stark.v is complete, given the completeness of the
   abstract stages (Merkle openings, FRI, interpolation over the constraint-evaluation coset, transcript
   agreement) as NAMED hypotheses. *)
From Coq Require Import List Arith Bool Lia Ring Field.
From VBase Require Import FieldOps.
From VModel Require Import Stark.
From VProofs Require Import FieldFacts StarkPoly StarkDeep.
Import ListNotations.

Lemma map3_map {A B C D} (f : A -> B -> C -> D) (g : A -> B) (h : A -> C) (k : A -> D) xs :
  (forall x, In x xs -> f x (g x) (h x) = k x) -> map3 f xs (map g xs) (map h xs) = map k xs.
Proof.
  induction xs as [|x xs IH]; intros Hx; [reflexivity|]. cbn [map map3]. f_equal; [apply Hx; now left|].
  apply IH. intros y Hy. apply Hx. now right.
Qed.

Section Segments.
Context {F : Type} (O : FOps F) (L : FLaws O).
Local Notation zero := (fzero O).
Local Notation peval := (peval O).
Add Ring Fring3 : (FLaws_ring_theory O L).

Lemma segment_shape n : 0 < n -> forall cols (H : list F), n * cols <= length H ->
  length (segment H n cols) = cols /\ Forall (fun h => length h = n) (segment H n cols).
Proof.
  intros Hn. induction cols as [|k IH]; intros H Hl; [split; [reflexivity | constructor]|].
  destruct H as [|h0 t] eqn:EH; [simpl in Hl; lia|]. rewrite <- EH in *.
  assert (E : segment H n (S k) = firstn n H :: segment (skipn n H) n k) by (subst H; reflexivity).
  rewrite E. destruct (IH (skipn n H)) as [I1 I2]. { rewrite skipn_length. nia. }
  split; [simpl; now rewrite I1|]. constructor; [|exact I2]. rewrite firstn_length_le; [reflexivity | nia].
Qed.

Lemma segment_firstn n : 0 < n -> forall cols (H : list F), segment H n cols = segment (firstn (n * cols) H) n cols.
Proof.
  intros Hn. induction cols as [|k IH]; intros H; [reflexivity|].
  destruct H as [|h0 t] eqn:EH. { rewrite firstn_nil. reflexivity. }
  rewrite <- EH.
  assert (E1 : segment H n (S k) = firstn n H :: segment (skipn n H) n k) by (subst H; reflexivity).
  assert (Hne : firstn (n * S k) H <> []).
  { subst H. destruct (n * S k) eqn:En; [nia | simpl; discriminate]. }
  assert (E2 : segment (firstn (n * S k) H) n (S k)
               = firstn n (firstn (n * S k) H) :: segment (skipn n (firstn (n * S k) H)) n k).
  { destruct (firstn (n * S k) H); [congruence | reflexivity]. }
  rewrite E1, E2. f_equal.
  - rewrite firstn_firstn. f_equal. nia.
  - rewrite (IH (skipn n H)). f_equal.
    replace (n * S k) with (n + n * k) by nia. rewrite firstn_skipn_comm. reflexivity.
Qed.

Lemma peval_firstn_zeros z : forall k j, peval (firstn j (repeat zero k)) z = zero.
Proof. induction k as [|k IH]; intros [|j]; simpl; try reflexivity. rewrite IH. ring. Qed.

Lemma peval_firstn_padded (Q : list F) k m z : length Q <= m -> peval (firstn m (Q ++ repeat zero k)) z = peval Q z.
Proof.
  intros Hm. rewrite firstn_app, (firstn_all2 Q) by lia.
  rewrite (peval_app O L), peval_firstn_zeros. ring.
Qed.

(* ood_equation_holds: when the interpolated composition polynomial is the quotient Q (padded), the verifier's
   reassembly sum_i z^(i n) H_i(z) of the opened column values equals Q(z) — for EVERY z; with
   air_eval z (frame at z) = Q(z) for z outside the trace domain this is the verifier's OOD consistency equation *)
Theorem ood_equation_holds n cols (Q : list F) k z : 0 < n -> length Q <= n * cols ->
  ood_lhs O n z 0 (evals O (segment (Q ++ repeat zero k) n cols) z) = peval Q z.
Proof.
  intros Hn Hl. rewrite (segment_firstn n Hn), (segments_eval O L) by (rewrite firstn_length; lia).
  now apply peval_firstn_padded.
Qed.

(* what the prover and the verifier see of the interpolated composition polynomial H = Q padded: the debug-only assertion of
   segment(), degree_of(coefficients) < trace_len * num_cols, holds; the columns have the shape CompositionPoly::new checks;
   and the verifier's reassembly of their values at any z is Q(z) *)
Lemma composition_columns n cols m (Q H : list F) : 0 < n -> 1 <= cols -> length Q <= n * cols -> n * cols <= m ->
  H = Q ++ repeat zero (m - length Q) ->
  (degree_of O H <? n * cols) = true /\
  (length (segment H n cols) =? cols) && forallb (fun h : list F => length h =? n) (segment H n cols) = true /\
  Forall (fun h => length h = n) (segment H n cols) /\
  forall z, ood_lhs O n z 0 (evals O (segment H n cols) z) = peval Q z.
Proof.
  intros Hn Hcols HQ Hm ->.
  destruct (segment_shape n Hn cols (Q ++ repeat zero (m - length Q))) as [S1 S2].
  { rewrite app_length, repeat_length. lia. }
  repeat split.
  - apply Nat.ltb_lt. rewrite (degree_of_app_zeros O L). destruct Q as [|q0 Q']; [simpl; nia|].
    pose proof (degree_of_lt_length O (q0 :: Q') ltac:(discriminate)). lia.
  - rewrite S1, Nat.eqb_refl. apply forallb_forall. intros h Hh. rewrite Forall_forall in S2.
    rewrite (S2 h Hh). apply Nat.eqb_refl.
  - exact S2.
  - intros z. now apply ood_equation_holds.
Qed.
End Segments.

(* ------------------------------------------------------------------ from "all constraints hold" to the quotient Q *)
Section AirQuotient.
Context {F : Type} (O : FOps F) (L : FLaws O).
Local Notation zero := (fzero O).
Local Notation one := (fone O).
Local Notation "a +f b" := (fadd O a b) (at level 50, left associativity).
Local Notation "a -f b" := (fsub O a b) (at level 50, left associativity).
Local Notation "a *f b" := (fmul O a b) (at level 40, left associativity).
Local Notation peval := (peval O).
Local Notation fpow := (fpow O).
Local Notation pprod := (pprod O).
Add Field Ffield4 : (FLaws_field_theory O L).

(* boundary constraint groups: (numerator polynomial sum_j beta_j (T_c(x) - b_j(x)), zero set of the group's divisor) *)
Fixpoint bsum (bs : list (list F * list F)) (x : F) : F :=
  match bs with [] => zero | (B, R) :: t => peval B x *f finv O (pprod R x) +f bsum t x end.

(* what evaluate_constraints computes at x outside the trace domain, for numerator polynomials N (transition) and bs:
   N(x) / ((x^n - 1) / prod_exempt(x)) + sum_groups B(x) / Z_group(x) *)
Definition combined (g : F) (n e : nat) (N : list F) (bs : list (list F * list F)) (x : F) : F :=
  peval N x *f pprod (exempt O g n e) x *f finv O (fpow x n -f one) +f bsum bs x.

Lemma bsum_quotient g n (Hg : primitive_root O g n) m : forall bs,
  Forall (fun br => NoDup (snd br) /\ incl (snd br) (domain O g n) /\
                    (forall r, In r (snd br) -> peval (fst br) r = zero) /\ length (fst br) - length (snd br) <= m) bs ->
  exists Q, length Q <= m /\ forall x, ~ In x (domain O g n) -> bsum bs x = peval Q x.
Proof.
  induction bs as [|[B R] t IH]; intros HF.
  - exists []. split; [simpl; lia|]. reflexivity.
  - inversion HF as [|? ? (ND & Hin & Hv & Hl) HF']; subst. simpl in *.
    destruct (IH HF') as (Qt & Hlt & HQt).
    destruct (vanish_divisible O L R B ND Hv) as (Qb & Hlb & HQb).
    exists (padd O Qb Qt). split. { rewrite (padd_length O). lia. }
    intros x Hx. cbn [bsum]. rewrite (peval_padd O L), (HQt x Hx), HQb.
    assert (pprod R x <> zero). { apply (pprod_nonroot O L). intros Hr. apply Hx. now apply Hin. }
    field. assumption.
Qed.

(* air_quotient_exists: for a trace on which the transition numerator vanishes on all non-exempt steps and every
   boundary group's numerator vanishes on the group's steps, the combined constraint evaluation is a polynomial with at
   most m coefficients, for every m bounding the quotient lengths (m = n * cols by Proofs/StarkShape.v) *)
Theorem air_quotient_exists g n e N bs m : primitive_root O g n -> 0 < n -> e <= n ->
  (forall i, i < n - e -> peval N (fpow g i) = zero) ->
  length N - (n - e) <= m ->
  Forall (fun br => NoDup (snd br) /\ incl (snd br) (domain O g n) /\
                    (forall r, In r (snd br) -> peval (fst br) r = zero) /\ length (fst br) - length (snd br) <= m) bs ->
  exists Q, length Q <= m /\ forall x, ~ In x (domain O g n) -> combined g n e N bs x = peval Q x.
Proof.
  intros Hg Hn He Hv Hm HF.
  destruct (quotient_is_poly O L g n e N Hg Hn He Hv) as (Qt & Hlt & _ & HQt).
  destruct (bsum_quotient g n Hg m bs HF) as (Qb & Hlb & HQb).
  exists (padd O Qt Qb). split. { rewrite (padd_length O). lia. }
  intros x Hx. unfold combined. rewrite (peval_padd O L), (HQb x Hx), HQt.
  assert (fpow x n -f one <> zero).
  { rewrite <- (domain_vanishing O L g n Hg Hn). now apply (pprod_nonroot O L). }
  field. assumption.
Qed.
End AirQuotient.

Section Complete.
Context {F : Type} (O : FOps F) (L : FLaws O).
Local Notation zero := (fzero O).
Local Notation "a *f b" := (fmul O a b) (at level 40, left associativity).
Local Notation peval := (peval O).
Local Notation evals := (evals O).

(* abstract stages of the protocol (Section variables of Model/Stark.v) *)
Variables (Digest Opening FriProof : Type).
Variable commit : list (list F) -> Digest.
Variable open_prove : list (list F) -> list F -> Opening.
Variable open_ok : Digest -> list F -> list (list F) -> Opening -> bool.
Variable fri_prove : list F -> list F -> FriProof.
Variable fri_verify : FriProof -> nat -> list F -> list F -> bool.
Variable air_eval : F -> list F -> list F -> F.
Variable interp_ce : (F -> F) -> list F.

Variables (n cols ce_size : nat) (g : F).
Variable ce_coset : list F.     (* the constraint evaluation domain offset * <g_ce> *)
Variable lde : list F.          (* the LDE domain offset * <g_lde> *)

(* ---- NAMED stage hypotheses (discharged from C10, C09, C15 and C04 in StarkInst.v and StarkFri.v) ---- *)
(* C10 + C09: the batch opening, at query points of the LDE domain, of a committed list of polynomials contains the rows
   of their evaluations, and verifies against the commitment (discharged from C10_batch_complete in Proofs/StarkInst.v) *)
Hypothesis merkle_complete : forall (cs : list (list F)) xs, incl xs lde -> NoDup xs -> xs <> [] -> length xs <= 255 ->
  open_ok (commit cs) xs (map (evals cs) xs) (open_prove cs xs) = true.
(* C15: FRI accepts the evaluations, at query points of the LDE domain, of a polynomial given by n coefficients
   whose top coefficient is zero (degree <= n - 2) *)
Hypothesis fri_complete : forall d xs, length d = n -> last d zero = zero -> incl xs lde -> xs <> [] -> length xs <= 255 ->
  fri_verify (fri_prove d xs) (n - 2) xs (map (peval d) xs) = true.
Local Notation prove := (prove O Digest Opening FriProof commit open_prove fri_prove air_eval interp_ce).
Local Notation verify := (verify O Digest Opening FriProof open_ok fri_verify air_eval).

(* FRI accepts the verifier's DEEP evaluations when these are, row by row, the values of the polynomial d the prover folded *)
Lemma fri_accepts_rows (d : list F) (vd : F -> list F -> list F -> F) (Tall Hs : list (list F)) xs :
  top_zero O n d -> incl xs lde -> xs <> [] -> length xs <= 255 ->
  (forall x, In x xs -> vd x (evals Tall x) (evals Hs x) = peval d x) ->
  fri_verify (fri_prove d xs) (n - 2) xs (map3 vd xs (map (evals Tall) xs) (map (evals Hs) xs)) = true.
Proof.
  intros [Dl Dz] Hxs Hne H255 Hvd. rewrite (map3_map _ _ _ (peval d) xs Hvd). now apply fri_complete.
Qed.

(* FULL statement aimed at (DESIGN.md C01): admissible params -> valid trace -> z not in (LDE coset u trace domain) ->
   no coin draw exhausts its 1000 tries -> prove t = Ok pi /\ verify pi = Ok /\ verify (parse (serialize pi)) = Ok
   for the real prover/verifier.  PROVED here: the same for the algebraic model of Model/Stark.v (release profile,
   repaired assertions), where
     - "valid trace" enters as the existence of the constraint quotient Q with at most n * cols coefficients
       (that validity implies this is `quotient_is_poly` / `air_quotient_exists` above),
     - Merkle / FRI / interpolation / coset / transcript completeness are the named hypotheses above,
     - serialisation round trip (C12) and the coin's retry limit (C19) are outside the algebraic model. *)
Theorem stark_complete_core (dbg : bool) (cP cV : @Coin F) (Ts : list (list F)) (Q : list F) :
  2 <= n -> 1 <= cols -> n * cols <= ce_size ->
  Ts <> [] -> Forall (fun p => length p = n) Ts ->
  length Q <= n * cols ->
  (forall x, ~ In x (domain O g n) -> air_eval x (evals Ts x) (evals Ts (x *f g)) = peval Q x) ->
  (* interpolation of the constraint evaluations over the CE coset recovers Q (padded to ce_size coefficients) *)
  interp_ce (fun x => air_eval x (evals Ts x) (evals Ts (x *f g))) = Q ++ repeat zero (ce_size - length Q) ->
  cV = cP ->
  ~ In (c_z cP) (domain O g n) -> c_z cP <> zero -> c_z cP *f g <> zero ->
  incl (c_xs cP) lde -> NoDup (c_xs cP) -> c_xs cP <> [] -> length (c_xs cP) <= 255 ->
  (forall x, In x (c_xs cP) -> x <> c_z cP /\ x <> c_z cP *f g) ->
  exists pf, prove (mkParams n g cols false dbg) cP Ts = Done pf /\
             verify (mkParams n g cols false dbg) cV pf = None.
Proof.
  intros Hn Hcols Hce HTs HTl HQl HQ EH -> Hz Hz0 Hzg0 Hxs Hnd Hne H255 Hxz.
  assert (Hn0 : 0 < n) by lia.
  set (z := c_z cP) in *.
  set (H := interp_ce (fun x => air_eval x (evals Ts x) (evals Ts (x *f g)))) in *.
  destruct (composition_columns O L n cols ce_size Q H Hn0 Hcols HQl Hce EH) as (Cdeg & Ccols & S2 & Cood).
  set (Hs := segment H n cols) in *.
  set (cur := evals Ts z). set (nxt := evals Ts (z *f g)). set (hz := evals Hs z).
  set (d0 := deep_trace O n g z (c_gamma cP) Ts cur nxt).
  set (d := deep_constraints O z (c_delta cP) Hs hz d0).
  pose proof (deep_trace_shape O L n g z (c_gamma cP) Ts Hn0 HTl cur nxt) as D0. fold d0 in D0.
  pose proof (deep_constraints_shape O L n z Hn0 (c_delta cP) Hs hz d0 S2 D0) as D. fold d in D.
  exists (mkProof Digest Opening FriProof (commit Ts) (commit Hs) cur nxt hz (map (evals Ts) (c_xs cP)) (map (evals Hs) (c_xs cP))
            (open_prove Ts (c_xs cP)) (open_prove Hs (c_xs cP)) (fri_prove d (c_xs cP))).
  split.
  - unfold Stark.prove. cbn [p_n p_g p_cols p_strict p_dbg]. fold z H. rewrite Cdeg, andb_false_r. fold Hs. rewrite Ccols.
    cbn [negb]. destruct Ts as [|T0 Ts']; [congruence|].
    replace (n <? 2) with false by (symmetry; apply Nat.ltb_ge; lia).
    rewrite (feqb_neq O L z zero Hz0), (feqb_neq O L (z *f g) zero Hzg0). cbn [orb].
    fold cur nxt hz d0 d. rewrite (top_zero_assert O L n d0 D0), (top_zero_assert O L n d D). reflexivity.
  - unfold Stark.verify. cbn [p_n p_g pf_cur pf_nxt pf_hz pf_trace_root pf_comp_root pf_trows pf_hrows pf_topen pf_hopen pf_fri]. fold z.
    rewrite (HQ z Hz : air_eval z cur nxt = peval Q z), (Cood z : ood_lhs O n z 0 hz = peval Q z), (feqb_refl O L). cbn [negb].
    rewrite (merkle_complete Ts _ Hxs Hnd Hne H255), (merkle_complete Hs _ Hxs Hnd Hne H255). cbn [negb].
    rewrite (fri_accepts_rows d); try assumption; [reflexivity|].
    intros x Hx. destruct (Hxz x Hx) as [X1 X2]. symmetry. apply (query_consistency O L n g cP Ts Hs Hn0 x X1 X2).
Qed.

(* C09: interpolation over the constraint evaluation coset recovers a polynomial with at most ce_size coefficients
   from its evaluations (padded with zero coefficients to ce_size) *)
Hypothesis interp_complete : forall f Q, length Q <= ce_size -> (forall x, In x ce_coset -> f x = peval Q x) ->
  interp_ce f = Q ++ repeat zero (ce_size - length Q).
(* C16/C09: the coset is disjoint from the trace domain (offset not in the subgroup) *)
Hypothesis coset_off_domain : forall x, In x ce_coset -> ~ In x (domain O g n).

Theorem stark_complete_partial (dbg : bool) (cP cV : @Coin F) (Ts : list (list F)) (Q : list F) :
  2 <= n -> 1 <= cols -> n * cols <= ce_size ->
  Ts <> [] -> Forall (fun p => length p = n) Ts ->
  (* valid trace: the combined constraint evaluation is a polynomial Q that fits the composition columns *)
  length Q <= n * cols ->
  (forall x, ~ In x (domain O g n) -> air_eval x (evals Ts x) (evals Ts (x *f g)) = peval Q x) ->
  (* transcript: the verifier re-derives the prover's coin values (C04) *)
  cV = cP ->
  (* z is outside the trace domain, z and z*g are non-zero; the query points are LDE points different from z and z*g *)
  ~ In (c_z cP) (domain O g n) -> c_z cP <> zero -> c_z cP *f g <> zero ->
  incl (c_xs cP) lde -> NoDup (c_xs cP) -> c_xs cP <> [] -> length (c_xs cP) <= 255 ->
  (forall x, In x (c_xs cP) -> x <> c_z cP /\ x <> c_z cP *f g) ->
  exists pf, prove (mkParams n g cols false dbg) cP Ts = Done pf /\
             verify (mkParams n g cols false dbg) cV pf = None.
Proof.
  intros Hn Hcols Hce HTs HTl HQl HQ Hc Hz Hz0 Hzg0 Hxs Hnd Hne H255 Hxz.
  apply (stark_complete_core dbg cP cV Ts Q); try assumption.
  apply interp_complete; [lia|]. intros x Hx. apply HQ. now apply coset_off_domain.
Qed.

(* the same, stated from "all constraints hold on the trace": transition numerator N vanishing on the non-exempt steps,
   boundary groups vanishing on their steps, the AIR's out-of-domain evaluation being the combined quotient formula *)
Theorem stark_complete_valid_trace_partial (dbg : bool) (cP cV : @Coin F) (Ts : list (list F))
    (e : nat) (N : list F) (bs : list (list F * list F)) :
  primitive_root O g n -> 2 <= n -> 1 <= cols -> n * cols <= ce_size ->
  Ts <> [] -> Forall (fun p => length p = n) Ts -> e <= n ->
  (forall i, i < n - e -> peval N (fpow O g i) = zero) ->
  length N - (n - e) <= n * cols ->
  Forall (fun br => NoDup (snd br) /\ incl (snd br) (domain O g n) /\
                    (forall r, In r (snd br) -> peval (fst br) r = zero) /\ length (fst br) - length (snd br) <= n * cols) bs ->
  (forall x, ~ In x (domain O g n) -> air_eval x (evals Ts x) (evals Ts (x *f g)) = combined O g n e N bs x) ->
  cV = cP ->
  ~ In (c_z cP) (domain O g n) -> c_z cP <> zero -> c_z cP *f g <> zero ->
  incl (c_xs cP) lde -> NoDup (c_xs cP) -> c_xs cP <> [] -> length (c_xs cP) <= 255 ->
  (forall x, In x (c_xs cP) -> x <> c_z cP /\ x <> c_z cP *f g) ->
  exists pf, prove (mkParams n g cols false dbg) cP Ts = Done pf /\
             verify (mkParams n g cols false dbg) cV pf = None.
Proof.
  intros Hg Hn Hcols Hce HTs HTl He Hv HNl Hbs Hair Hc Hz Hz0 Hzg0 Hxs Hnd Hne H255 Hxz.
  destruct (air_quotient_exists O L g n e N bs (n * cols) Hg ltac:(lia) He Hv HNl Hbs) as (Q & HQl & HQ).
  apply (stark_complete_partial dbg cP cV Ts Q); try assumption.
  intros x Hx. rewrite (Hair x Hx). now apply HQ.
Qed.

End Complete.
