(* C02 — polynomial layer of the soundness argument: coefficient-level polynomial equivalence,
   evaluation homomorphisms, the factor theorem (synthetic division), the root-counting bound,
   divisibility by vanishing polynomials and the linear-algebra part of the ALI counting.
   Generic over every [FOps F] with [FLaws]. *)
From Coq Require Import List Arith Bool Lia Ring.
From VBase Require Import FieldOps.
From VModel Require Import Soundness.
From VModel Require Stark.
From VProofs Require Import FieldFacts.
From VProofs Require StarkPoly.
Import ListNotations.

Section SoundnessPoly.
Context {F : Type} (O : FOps F) (L : FLaws O).
Local Notation zero := (fzero O).
Local Notation one := (fone O).
Local Infix "+f" := (fadd O) (at level 50, left associativity).
Local Infix "-f" := (fsub O) (at level 50, left associativity).
Local Infix "*f" := (fmul O) (at level 40, left associativity).
Add Ring Fr : (FLaws_ring_theory O L).

Local Notation fpow := (fpow O).
Local Notation peval := (peval O).
Local Notation coeff := (coeff O).
Local Notation padd := (padd O).
Local Notation pscale := (pscale O).
Local Notation plin := (plin O).
Local Notation pmul := (pmul O).
Local Notation zpoly := (zpoly O).
Local Notation pstrip := (pstrip O).
Local Notation pdegree := (pdegree O).
Local Notation domain := (domain O).
Local Notation fprod := (fprod O).
Local Notation lincomb := (lincomb O).

Definition peqv (a b : list F) : Prop := forall i, coeff a i = coeff b i.
Definition pdivides (d p : list F) : Prop := exists q, peqv p (pmul d q).
Definition pnonzero (p : list F) : Prop := exists i, coeff p i <> zero.

(* ------------------------------------------------------------------ field basics *)
Lemma feq_dec (a b : F) : a = b \/ a <> b.
Proof. destruct (FieldFacts.feq_dec O L a b); tauto. Qed.

Lemma fmul_integral a b : a *f b = zero -> a = zero \/ b = zero.
Proof. exact (FieldFacts.fmul_integral O L a b). Qed.

Lemma fsub_eq_zero a b : a -f b = zero -> a = b.
Proof. exact (FieldFacts.fsub_eq_zero O L a b). Qed.

Lemma fpow_add x a b : fpow x (a + b) = fpow x a *f fpow x b.
Proof. exact (FieldFacts.fpow_add O L x a b). Qed.

Lemma fpow_mul x a b : fpow x (a * b) = fpow (fpow x a) b.
Proof. exact (FieldFacts.fpow_mul O L x a b). Qed.

Lemma fpow_order_mul g n k : fpow g n = one -> fpow g (n * k) = one.
Proof. exact (StarkPoly.fpow_order_mul O L g n k). Qed.

(* ------------------------------------------------------------------ coefficients *)
Lemma coeff_nil i : coeff [] i = zero.
Proof. destruct i; reflexivity. Qed.

Lemma coeff_cons_0 c p : coeff (c :: p) 0 = c.
Proof. reflexivity. Qed.

Lemma coeff_cons_S c p i : coeff (c :: p) (S i) = coeff p i.
Proof. reflexivity. Qed.

Lemma coeff_high p i : length p <= i -> coeff p i = zero.
Proof. intros H. now apply nth_overflow. Qed.

Lemma coeff_padd a b i : coeff (padd a b) i = coeff a i +f coeff b i.
Proof.
  revert b i; induction a as [|x a IH]; intros b i.
  - simpl. rewrite coeff_nil. ring.
  - destruct b as [|y b].
    + simpl. rewrite coeff_nil. ring.
    + destruct i; simpl.
      * rewrite !coeff_cons_0. reflexivity.
      * rewrite !coeff_cons_S. apply IH.
Qed.

Lemma coeff_pscale c a i : coeff (pscale c a) i = c *f coeff a i.
Proof.
  revert i; induction a as [|x a IH]; intros i.
  - simpl. rewrite coeff_nil. ring.
  - destruct i; simpl.
    + rewrite !coeff_cons_0. reflexivity.
    + rewrite !coeff_cons_S. apply IH.
Qed.

Lemma coeff_plin r q i : coeff (plin r q) i = coeff (zero :: q) i +f fneg O r *f coeff q i.
Proof. unfold Soundness.plin. now rewrite coeff_padd, coeff_pscale. Qed.

Ltac csimp :=
  repeat (rewrite ?coeff_plin, ?coeff_padd, ?coeff_pscale, ?coeff_cons_0, ?coeff_cons_S, ?coeff_nil).

Lemma coeff_single_zero i : coeff [zero] i = zero.
Proof. destruct i; csimp; reflexivity. Qed.

(* ------------------------------------------------------------------ peqv is an equivalence *)
Lemma peqv_refl a : peqv a a.
Proof. intros i; reflexivity. Qed.

Lemma peqv_sym a b : peqv a b -> peqv b a.
Proof. intros H i; symmetry; apply H. Qed.

Lemma peqv_trans a b c : peqv a b -> peqv b c -> peqv a c.
Proof. intros H1 H2 i. now rewrite H1, H2. Qed.

Lemma peqv_cons c d a b : c = d -> peqv a b -> peqv (c :: a) (d :: b).
Proof. intros -> H [|i]; csimp; [reflexivity|apply H]. Qed.

Lemma peqv_tail c d a b : peqv (c :: a) (d :: b) -> c = d /\ peqv a b.
Proof. intros H. split. apply (H 0). intros i. apply (H (S i)). Qed.

Lemma peval_allzero p x : (forall i, coeff p i = zero) -> peval p x = zero.
Proof.
  induction p as [|c p IH]; intros H; simpl; [reflexivity|].
  pose proof (H 0) as H0. rewrite coeff_cons_0 in H0. subst c.
  rewrite IH by (intro i; apply (H (S i))). ring.
Qed.

Lemma peqv_peval a b : peqv a b -> forall x, peval a x = peval b x.
Proof.
  revert b; induction a as [|c a IH]; intros b H x.
  - symmetry. apply peval_allzero. intros i. rewrite <- H. apply coeff_nil.
  - destruct b as [|y b].
    + apply peval_allzero. intros i. rewrite H. apply coeff_nil.
    + apply peqv_tail in H. destruct H as [-> H]. simpl. now rewrite (IH b H).
Qed.

(* ------------------------------------------------------------------ congruences *)
Lemma padd_peqv a a' b b' : peqv a a' -> peqv b b' -> peqv (padd a b) (padd a' b').
Proof. intros H1 H2 i. csimp. now rewrite H1, H2. Qed.

Lemma pscale_peqv c a a' : peqv a a' -> peqv (pscale c a) (pscale c a').
Proof. intros H i. csimp. now rewrite H. Qed.

Lemma plin_peqv r a a' : peqv a a' -> peqv (plin r a) (plin r a').
Proof. intros H i. csimp. rewrite H. destruct i; csimp; now rewrite ?H. Qed.

Lemma pmul_peqv_r a b b' : peqv b b' -> peqv (pmul a b) (pmul a b').
Proof.
  intros H. induction a as [|x a IH]; simpl; [apply peqv_refl|].
  intros i. csimp. rewrite H. destruct i; csimp; now rewrite ?IH.
Qed.

Lemma padd_nil_r a : padd a [] = a.
Proof. destruct a; reflexivity. Qed.

(* ------------------------------------------------------------------ evaluation homomorphisms *)
Lemma peval_padd a b x : peval (padd a b) x = peval a x +f peval b x.
Proof.
  revert b; induction a as [|c a IH]; intros b.
  - simpl. ring.
  - destruct b as [|y b]; simpl; [ring|]. rewrite IH. ring.
Qed.

Lemma peval_pscale c a x : peval (pscale c a) x = c *f peval a x.
Proof. induction a as [|y a IH]; simpl; [ring|]. rewrite IH. ring. Qed.

Lemma peval_plin r q x : peval (plin r q) x = (x -f r) *f peval q x.
Proof. unfold Soundness.plin. rewrite peval_padd, peval_pscale. simpl. ring. Qed.

Lemma peval_pmul a b x : peval (pmul a b) x = peval a x *f peval b x.
Proof.
  induction a as [|c a IH]; simpl; [ring|].
  rewrite peval_padd, peval_pscale. simpl. rewrite IH. ring.
Qed.

Lemma peval_zpoly rs x : peval (zpoly rs) x = fprod (map (fun r => x -f r) rs).
Proof.
  induction rs as [|r rs IH].
  - simpl. ring.
  - cbn [Soundness.zpoly map]. rewrite peval_plin, IH. reflexivity.
Qed.

(* the same product as in Model/Stark.v: the facts about products over roots are those of Proofs/StarkPoly.v *)
Lemma peval_zpoly_pprod rs x : peval (zpoly rs) x = Stark.pprod O rs x.
Proof.
  induction rs as [|r rs IH]; cbn [Soundness.zpoly Stark.pprod]; [simpl; ring|].
  now rewrite peval_plin, IH.
Qed.

Lemma zpoly_root r rs : In r rs -> peval (zpoly rs) r = zero.
Proof. intros H. rewrite peval_zpoly_pprod. exact (StarkPoly.pprod_root O L rs r H). Qed.

Lemma zpoly_nonroot x rs : ~ In x rs -> peval (zpoly rs) x <> zero.
Proof. intros H. rewrite peval_zpoly_pprod. exact (StarkPoly.pprod_nonroot O L rs x H). Qed.

(* ------------------------------------------------------------------ algebra of pmul up to peqv *)
Lemma pmul_padd_l a b q : peqv (pmul (padd a b) q) (padd (pmul a q) (pmul b q)).
Proof.
  revert b; induction a as [|x a IH]; intros b.
  - simpl. apply peqv_refl.
  - destruct b as [|y b].
    + rewrite !padd_nil_r. apply peqv_refl.
    + cbn [Soundness.padd Soundness.pmul]. intros i. csimp.
      destruct i; csimp; [ring|]. rewrite (IH b i). csimp. ring.
Qed.

Lemma pmul_pscale_l c a q : peqv (pmul (pscale c a) q) (pscale c (pmul a q)).
Proof.
  induction a as [|x a IH].
  - simpl. apply peqv_refl.
  - change (pscale c (x :: a)) with (c *f x :: pscale c a).
    cbn [Soundness.pmul]. intros i. csimp.
    destruct i; csimp; [ring|]. rewrite (IH i). csimp. ring.
Qed.

Lemma pmul_shift_l a q : peqv (pmul (zero :: a) q) (zero :: pmul a q).
Proof.
  cbn [Soundness.pmul]. intros i. csimp. ring.
Qed.

Lemma pmul_plin r d q : peqv (pmul (plin r d) q) (plin r (pmul d q)).
Proof.
  unfold Soundness.plin.
  eapply peqv_trans; [apply pmul_padd_l|].
  apply padd_peqv; [apply pmul_shift_l|apply pmul_pscale_l].
Qed.

Lemma pmul_padd_r d a b : peqv (pmul d (padd a b)) (padd (pmul d a) (pmul d b)).
Proof.
  induction d as [|x d IH].
  - simpl. apply peqv_refl.
  - cbn [Soundness.pmul]. intros i. csimp.
    destruct i; csimp; [ring|]. rewrite (IH i). csimp. ring.
Qed.

Lemma pmul_pscale_r d c a : peqv (pmul d (pscale c a)) (pscale c (pmul d a)).
Proof.
  induction d as [|x d IH].
  - simpl. apply peqv_refl.
  - cbn [Soundness.pmul]. intros i. csimp.
    destruct i; csimp; [ring|]. rewrite (IH i). csimp. ring.
Qed.

Lemma pmul_one_l p : peqv (pmul [one] p) p.
Proof. cbn [Soundness.pmul]. intros i. csimp. rewrite coeff_single_zero. ring. Qed.

(* ------------------------------------------------------------------ nonzero polynomials *)
Lemma pnonzero_dec p : pnonzero p \/ (forall i, coeff p i = zero).
Proof.
  induction p as [|c p [[i H]|H]].
  - right. apply coeff_nil.
  - left. exists (S i). now rewrite coeff_cons_S.
  - destruct (feq_dec c zero) as [->|E].
    + right. intros [|i]; csimp; [reflexivity|apply H].
    + left. exists 0. now rewrite coeff_cons_0.
Qed.

Lemma pnonzero_peqv a b : peqv a b -> pnonzero a -> pnonzero b.
Proof. intros H [i Hi]. exists i. now rewrite <- H. Qed.

Lemma pnonzero_not_nil p : pnonzero p -> p <> [].
Proof. intros [i H] ->. apply H. apply coeff_nil. Qed.

Lemma pnonzero_plin r q : pnonzero (plin r q) -> pnonzero q.
Proof.
  intros [i H]. rewrite coeff_plin in H.
  destruct (feq_dec (coeff q i) zero) as [E|E]; [|now exists i].
  rewrite E in H. destruct i as [|j].
  - exfalso. apply H. csimp. ring.
  - exists j. intros E2. apply H. csimp. rewrite E2. ring.
Qed.

(* ------------------------------------------------------------------ synthetic division *)
(* Horner partial values from the top: hs p a = [p(a); (p/X)(a); (p/X^2)(a); ...] *)
Fixpoint hs (p : list F) (a : F) : list F :=
  match p with [] => [] | _ :: p' => Soundness.peval O p a :: hs p' a end.

(* (quotient, remainder) of p by (X - a) *)
Definition syn (p : list F) (a : F) : list F * F := (tl (hs p a), Soundness.peval O p a).

Lemma hs_length p a : length (hs p a) = length p.
Proof. induction p; simpl; auto. Qed.

Lemma syn_length p a : length (fst (syn p a)) = pred (length p).
Proof. unfold syn; cbn [fst]. destruct p; simpl; [reflexivity|apply hs_length]. Qed.

Lemma syn_rem p a : snd (syn p a) = peval p a.
Proof. reflexivity. Qed.

Lemma hs_spec p a c : peqv (c :: p) (padd (plin a (hs p a)) [c +f a *f peval p a]).
Proof.
  revert c; induction p as [|c' p IH]; intros c.
  - cbn [hs Soundness.peval]. intros [|i]; csimp; ring.
  - cbn [hs]. set (v := Soundness.peval O (c' :: p) a).
    intros [|[|j]]; csimp.
    + ring.
    + pose proof (IH c' 0) as H0. revert H0. csimp. intros H0. rewrite H0.
      unfold v. simpl. ring.
    + pose proof (IH c' (S j)) as H1. revert H1. csimp. intros H1. rewrite H1. ring.
Qed.

Lemma syn_spec p a : peqv p (padd (plin a (fst (syn p a))) [snd (syn p a)]).
Proof.
  unfold syn; cbn [fst snd]. destruct p as [|c p].
  - cbn [hs tl Soundness.peval]. intros i. csimp. destruct i; csimp; ring.
  - cbn [hs tl]. simpl (Soundness.peval O (c :: p) a). apply hs_spec.
Qed.

Lemma padd_zero_r p : peqv (padd p [zero]) p.
Proof. intros i. csimp. rewrite coeff_single_zero. ring. Qed.

Theorem root_factor_len p a : peval p a = zero ->
  exists q, length q = pred (length p) /\ peqv p (plin a q).
Proof.
  intros H. exists (fst (syn p a)). split; [apply syn_length|].
  eapply peqv_trans; [apply syn_spec|]. rewrite syn_rem, H. apply padd_zero_r.
Qed.

Theorem root_factor p a : peval p a = zero <-> exists q, peqv p (plin a q).
Proof.
  split.
  - intros H. destruct (root_factor_len p a H) as (q & _ & Hq). now exists q.
  - intros [q H]. rewrite (peqv_peval _ _ H), peval_plin. ring.
Qed.

(* ------------------------------------------------------------------ root counting *)
Lemma root_of_quotient p q r1 r : peqv p (plin r1 q) -> r <> r1 -> peval p r = zero -> peval q r = zero.
Proof.
  intros H Hne Hr. rewrite (peqv_peval _ _ H), peval_plin in Hr.
  apply fmul_integral in Hr. destruct Hr as [Hr|Hr]; [|exact Hr].
  apply fsub_eq_zero in Hr. contradiction.
Qed.

Theorem roots_bound (p : list F) (d : nat) (rs : list F) :
  pnonzero p -> length p <= S d -> NoDup rs ->
  (forall r, In r rs -> peval p r = zero) -> length rs <= d.
Proof.
  revert p rs; induction d as [|d IH]; intros p rs Hnz Hlen Hnd Hroots.
  - destruct rs as [|r rs]; [reflexivity|exfalso].
    destruct p as [|c [|c' p]]; simpl in Hlen; try lia.
    + now apply (pnonzero_not_nil [] Hnz).
    + destruct Hnz as [i Hi]. apply Hi. destruct i; csimp; [|reflexivity].
      pose proof (Hroots r (or_introl eq_refl)) as H. simpl in H. rewrite <- H. ring.
  - destruct rs as [|r1 rs]; [simpl; lia|].
    destruct (root_factor_len p r1 (Hroots r1 (or_introl eq_refl)))
      as [q [Hq Hpq]].
    inversion Hnd as [|? ? Hnotin Hnd']; subst.
    simpl. apply le_n_S. apply (IH q rs).
    + apply (pnonzero_plin r1). now apply (pnonzero_peqv p).
    + lia.
    + exact Hnd'.
    + intros r Hr. apply (root_of_quotient p q r1 r Hpq).
      * intros ->. contradiction.
      * apply Hroots. now right.
Qed.

Lemma pstrip_peqv p : peqv (pstrip p) p.
Proof.
  induction p as [|c p IH]; [apply peqv_refl|].
  cbn [Soundness.pstrip]. destruct (Soundness.pstrip O p) as [|f l] eqn:E.
  - destruct (feqb O c zero) eqn:Ec.
    + apply (feqb_true O L) in Ec. subst c. intros [|i]; csimp; [reflexivity|].
      rewrite <- (IH i). now rewrite coeff_nil.
    + apply peqv_cons; [reflexivity|exact IH].
  - apply peqv_cons; [reflexivity|exact IH].
Qed.

Theorem roots_bound_degree (p rs : list F) :
  pnonzero p -> NoDup rs -> (forall r, In r rs -> peval p r = zero) -> length rs <= pdegree p.
Proof.
  intros Hnz Hnd Hroots. unfold Soundness.pdegree.
  apply (roots_bound (pstrip p)).
  - apply (pnonzero_peqv p); [apply peqv_sym, pstrip_peqv|exact Hnz].
  - lia.
  - exact Hnd.
  - intros r Hr. rewrite (peqv_peval _ _ (pstrip_peqv p)). now apply Hroots.
Qed.

Lemma padd_length a b : length (padd a b) = Nat.max (length a) (length b).
Proof.
  revert b; induction a as [|x a IH]; intros b; [reflexivity|].
  destruct b as [|y b]; [reflexivity|]. simpl. now rewrite IH.
Qed.

Lemma pscale_length c a : length (pscale c a) = length a.
Proof. apply map_length. Qed.

Theorem agree_bound (a b : list F) (d : nat) (rs : list F) :
  length a <= S d -> length b <= S d -> ~ peqv a b -> NoDup rs ->
  (forall r, In r rs -> peval a r = peval b r) -> length rs <= d.
Proof.
  intros Ha Hb Hne Hnd Hag.
  apply (roots_bound (padd a (pscale (fneg O one) b))).
  - destruct (pnonzero_dec (padd a (pscale (fneg O one) b))) as [H|H]; [exact H|].
    exfalso. apply Hne. intros i. specialize (H i). revert H. csimp. intros H.
    apply fsub_eq_zero. rewrite <- H. ring.
  - rewrite padd_length, pscale_length. lia.
  - exact Hnd.
  - intros r Hr. rewrite peval_padd, peval_pscale, (Hag r Hr). ring.
Qed.

(* ------------------------------------------------------------------ divisibility by vanishing polynomials *)
Theorem divides_vanishes d p : pdivides d p -> forall x, peval d x = zero -> peval p x = zero.
Proof. intros [q H] x Hx. rewrite (peqv_peval _ _ H), peval_pmul, Hx. ring. Qed.

Theorem zpoly_divides rs p :
  NoDup rs -> (forall r, In r rs -> peval p r = zero) -> pdivides (zpoly rs) p.
Proof.
  revert p; induction rs as [|r rs IH]; intros p Hnd Hroots.
  - exists p. cbn [Soundness.zpoly]. apply peqv_sym, pmul_one_l.
  - inversion Hnd as [|? ? Hnotin Hnd']; subst.
    destruct (proj1 (root_factor p r) (Hroots r (or_introl eq_refl))) as [q Hq].
    destruct (IH q Hnd') as [q2 Hq2].
    { intros r' Hr'. apply (root_of_quotient p q r r' Hq).
      - intros ->. contradiction.
      - apply Hroots. now right. }
    exists q2. cbn [Soundness.zpoly].
    eapply peqv_trans; [exact Hq|].
    eapply peqv_trans; [apply plin_peqv, Hq2|apply peqv_sym, pmul_plin].
Qed.

Corollary divides_zpoly_iff rs p :
  NoDup rs -> (pdivides (zpoly rs) p <-> forall r, In r rs -> peval p r = zero).
Proof.
  intros Hnd. split.
  - intros H r Hr. apply (divides_vanishes _ _ H). now apply zpoly_root.
  - now apply zpoly_divides.
Qed.

(* ------------------------------------------------------------------ linear algebra of the ALI counting *)
Lemma pdivides_peqv a b d : peqv a b -> pdivides d a -> pdivides d b.
Proof.
  intros H [q Hq]. exists q. eapply peqv_trans; [apply peqv_sym, H|exact Hq].
Qed.

Lemma pdivides_padd d a b : pdivides d a -> pdivides d b -> pdivides d (padd a b).
Proof.
  intros [q1 H1] [q2 H2]. exists (padd q1 q2).
  eapply peqv_trans; [apply padd_peqv; eassumption|apply peqv_sym, pmul_padd_r].
Qed.

Lemma pdivides_pscale d c a : pdivides d a -> pdivides d (pscale c a).
Proof.
  intros [q H]. exists (pscale c q).
  eapply peqv_trans; [apply pscale_peqv; eassumption|apply peqv_sym, pmul_pscale_r].
Qed.

Fixpoint vadd (al be : list F) : list F :=
  match al, be with a :: al', b :: be' => (a +f b) :: vadd al' be' | _, _ => [] end.
Definition vscale (c : F) (al : list F) : list F := map (fun a => c *f a) al.
Fixpoint unit_vec (k j : nat) : list F :=
  match k with
  | 0 => []
  | S k' => match j with 0 => one :: repeat zero k' | S j' => zero :: unit_vec k' j' end
  end.

Lemma vadd_length al be : length al = length be -> length (vadd al be) = length al.
Proof.
  revert be; induction al as [|a al IH]; intros [|b be] H; simpl in *; try lia.
  rewrite IH; lia.
Qed.

Lemma vscale_length c al : length (vscale c al) = length al.
Proof. apply map_length. Qed.

Lemma unit_vec_length k j : length (unit_vec k j) = k.
Proof.
  revert j; induction k as [|k IH]; intros j; [reflexivity|].
  destruct j; simpl; [now rewrite repeat_length|now rewrite IH].
Qed.

Lemma lincomb_vadd al be ps : length al = length be ->
  peqv (lincomb (vadd al be) ps) (padd (lincomb al ps) (lincomb be ps)).
Proof.
  revert be ps; induction al as [|a al IH]; intros be ps H.
  - destruct be; [|discriminate]. simpl. apply peqv_refl.
  - destruct be as [|b be]; [discriminate|]. destruct ps as [|p ps].
    + simpl. apply peqv_refl.
    + injection H as H. cbn [vadd Soundness.lincomb]. intros i. csimp.
      rewrite (IH be ps H i). csimp. ring.
Qed.

Lemma lincomb_vscale c al ps : peqv (lincomb (vscale c al) ps) (pscale c (lincomb al ps)).
Proof.
  revert ps; induction al as [|a al IH]; intros ps.
  - simpl. apply peqv_refl.
  - destruct ps as [|p ps].
    + simpl. apply peqv_refl.
    + change (vscale c (a :: al)) with (c *f a :: vscale c al).
      cbn [Soundness.lincomb]. intros i. csimp. rewrite (IH ps i). csimp. ring.
Qed.

Lemma lincomb_zeros n ps i : coeff (lincomb (repeat zero n) ps) i = zero.
Proof.
  revert ps; induction n as [|n IH]; intros ps.
  - simpl. apply coeff_nil.
  - destruct ps as [|p ps]; cbn [repeat Soundness.lincomb]; csimp; [reflexivity|].
    rewrite IH. ring.
Qed.

Lemma lincomb_unit ps j : j < length ps ->
  peqv (lincomb (unit_vec (length ps) j) ps) (nth j ps []).
Proof.
  revert j; induction ps as [|p ps IH]; intros j H; simpl in H; [lia|].
  destruct j as [|j]; cbn [length unit_vec Soundness.lincomb nth]; intros i; csimp.
  - rewrite lincomb_zeros. ring.
  - rewrite (IH j (proj2 (Nat.succ_lt_mono _ _) H) i). ring.
Qed.

Theorem ali_good_set_subspace d ps :
  let good al := length al = length ps /\ pdivides d (lincomb al ps) in
  (forall al be, good al -> good be -> good (vadd al be)) /\
  (forall c al, good al -> good (vscale c al)) /\
  (forall j, j < length ps -> ~ pdivides d (nth j ps []) -> ~ good (unit_vec (length ps) j)).
Proof.
  intros good. unfold good. split; [|split].
  - intros al be [Hla Ha] [Hlb Hb]. split.
    + rewrite vadd_length; congruence.
    + apply (pdivides_peqv (padd (lincomb al ps) (lincomb be ps))).
      * apply peqv_sym, lincomb_vadd. congruence.
      * now apply pdivides_padd.
  - intros c al [Hla Ha]. split.
    + now rewrite vscale_length.
    + apply (pdivides_peqv (pscale c (lincomb al ps))).
      * apply peqv_sym, lincomb_vscale.
      * now apply pdivides_pscale.
  - intros j Hj Hnd [_ Hg]. apply Hnd.
    apply (pdivides_peqv (lincomb (unit_vec (length ps) j) ps)); [|exact Hg].
    now apply lincomb_unit.
Qed.

(* ------------------------------------------------------------------ X^n - 1 = prod (X - g^i) *)
Lemma zpoly_length rs : length (zpoly rs) = S (length rs).
Proof.
  induction rs as [|a rs IH]; cbn [Soundness.zpoly length]; [reflexivity|].
  unfold Soundness.plin. rewrite padd_length, pscale_length. cbn [length]. lia.
Qed.

Lemma domain_length g n : length (domain g n) = n.
Proof. unfold Soundness.domain. now rewrite map_length, seq_length. Qed.

(* the vanishing polynomial of n distinct points that all have the same n-th power k is X^n - k *)
Theorem zpoly_nth_roots rs n k : length rs = n -> 0 < n -> NoDup rs -> (forall r, In r rs -> fpow r n = k) ->
  forall x, peval (zpoly rs) x = fpow x n -f k.
Proof. intros Hl Hn Hnd Hr x. rewrite peval_zpoly_pprod. exact (StarkPoly.pprod_nth_roots O L rs n k Hl Hn Hnd Hr x). Qed.

Theorem xn_minus_one_factors g n :
  0 < n -> NoDup (domain g n) -> fpow g n = one ->
  forall x, fpow x n -f one = peval (zpoly (domain g n)) x.
Proof.
  intros Hn Hnd Hg x. symmetry. apply zpoly_nth_roots; [apply domain_length | exact Hn | exact Hnd |].
  intros r Hr. apply in_map_iff in Hr. destruct Hr as (i & <- & _). exact (StarkPoly.fpow_root_pow O L g n i Hg).
Qed.

End SoundnessPoly.
