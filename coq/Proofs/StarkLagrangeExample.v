(* C01 — non-vacuity of the Lagrange-kernel theorems: over Z/17, n = 8 = 2^3, g = 2, r = (2, 3, 5): the honest kernel column
   (9,16,12,10,10,14,2,13) is interpolated by Lp = 15 + 12x^2 + x^3 + 6x^4 + 11x^5 + 2x^6 + 13x^7, so the hypotheses of
   honest_numer_vanishes / honest_first_cell / honest_lagrange_term_is_poly are satisfiable and the Lagrange quotients exist. *)
From Coq Require Import List Arith Bool Lia ZArith.
From VBase Require Import MachInt FieldOps ZpOps.
From VModel Require Import Stark StarkLagrange.
From VModel Require EnforceLagrange.
From VProofs Require Import ZpLaws StarkPoly StarkExamples StarkLagrangeRows CompositionLagrangePoly.
Import ListNotations.

Definition rr17 : list (Zp 17%Z) := [e17 2%Z; e17 3%Z; e17 5%Z].
Definition Lp17 : list (Zp 17%Z) := map e17 [15; 0; 12; 1; 6; 11; 2; 13]%Z.

Lemma Lp17_honest : forall i, i < 8 -> Composition.peval O17 Lp17 (Composition.cpow O17 g17 i) = nth i (StarkLagrangeRows.kernel_col O17 3 rr17) (fzero O17).
Proof.
  intros i Hi. do 8 (destruct i as [|i]; [apply (proj1 (fl_eqb_spec O17 L17 _ _)); vm_compute; reflexivity|]). lia.
Qed.

Example lagrange_honest_nonvacuous :
  (forall idx j, idx < 3 -> j < 2 ^ idx ->
     Composition.peval O17 (lag_numer_poly O17 3 g17 Lp17 rr17 idx) (Composition.cpow O17 (hsub O17 3 g17 idx) j) = fzero O17) /\
  Composition.peval O17 Lp17 (fone O17) = EnforceLagrange.lag_assertion_value O17 rr17 /\
  (forall idx, idx < 3 -> exists q, length q = 8 - 2 ^ idx /\
     forall x, Composition.peval O17 (lag_numer_poly O17 3 g17 Lp17 rr17 idx) x
               = fmul O17 (fsub O17 (Composition.cpow O17 x (2 ^ idx)) (fone O17)) (Composition.peval O17 q x)).
Proof.
  split; [|split].
  - exact (honest_numer_vanishes O17 L17 8 3 g17 eq_refl rr17 eq_refl Lp17 Lp17_honest).
  - exact (honest_first_cell O17 L17 8 3 g17 eq_refl rr17 eq_refl Lp17 Lp17_honest ltac:(lia)).
  - intros idx Hi. exact (honest_lagrange_term_is_poly O17 L17 8 3 g17 eq_refl rr17 eq_refl Lp17 Lp17_honest g17_primitive idx Hi).
Qed.

(* ---- the NON-STAGE hypotheses of C01_stark_complete_lagrange(_partial) are jointly satisfiable: Z/17, n = 8 = 2^3, g = 2, the constant
   column T5 with the AIR air5 of Proofs/StarkExamples.v as ordinary part (quotient Qc = 0), the honest kernel column above, Lagrange
   constraints of the shape LagrangeKernelTransitionConstraints::new builds, z = 6, query points 3 and 5 (none of the opening points
   6, 12, 7, 11 of the kernel column); consequence: the Lagrange part of the composition polynomial exists with at most 8 coefficients *)
From VModel Require Enforce.
From VProofs Require Import StarkLagrange.
Definition lc17 : @LagC (Zp 17%Z) :=
  mkLagC (EnforceLagrange.mkLTC [e17 3%Z; e17 4%Z; e17 9%Z]
            [Enforce.mkD [(1%Z, fone O17)] []; Enforce.mkD [(2%Z, fone O17)] []; Enforce.mkD [(4%Z, fone O17)] []])
         rr17 (e17 10%Z).

Example lagrange_capstone_hyps_nonvacuous :
  8 = 2 ^ 3 /\ 2 <= 3 /\ 3 < 64 /\ primitive_root O17 g17 8 /\ 8 * 1 <= 16 /\
  [T5] <> [] /\ Forall (fun p : list (Zp 17%Z) => length p = 8) [T5] /\ length Lp17 = 8 /\
  (forall x, ~ In x (domain O17 g17 8) -> air5 x (evals O17 [T5] x) (evals O17 [T5] (fmul O17 x g17)) = peval O17 [] x) /\
  length (EnforceLagrange.l_coef (lc_t lc17)) = 3 /\ length (lc_rr lc17) = 3 /\ length (EnforceLagrange.l_div (lc_t lc17)) = 3 /\
  (forall idx, idx < 3 -> nth idx (EnforceLagrange.l_div (lc_t lc17)) (Enforce.mkD [] []) = Enforce.mkD [((2 ^ Z.of_nat idx)%Z, fone O17)] []) /\
  (forall i, i < 8 -> peval O17 Lp17 (fpow O17 g17 i) = nth i (StarkLagrange.kernel_col O17 (lc_rr lc17) 3) (fzero O17)) /\
  ~ In (c_z coin5) (domain O17 g17 8) /\ c_z coin5 <> fzero O17 /\ fmul O17 (c_z coin5) g17 <> fzero O17 /\
  NoDup (c_xs coin5) /\ c_xs coin5 <> [] /\ length (c_xs coin5) <= 255 /\
  (forall x, In x (c_xs coin5) -> ~ In x (lag_pts O17 g17 (c_z coin5) 3)) /\
  exists Ql, length Ql <= 8 /\
    forall x, ~ In x (domain O17 g17 8) -> lag_tot O17 lc17 (lag_frame O17 g17 3 Lp17 x) x = peval O17 Ql x.
Proof.
  assert (Hdiv : forall idx, idx < 3 -> nth idx (EnforceLagrange.l_div (lc_t lc17)) (Enforce.mkD [] []) = Enforce.mkD [((2 ^ Z.of_nat idx)%Z, fone O17)] []).
  { intros idx Hi. do 3 (destruct idx as [|idx]; [reflexivity|]). lia. }
  assert (Hhon : forall i, i < 8 -> peval O17 Lp17 (fpow O17 g17 i) = nth i (StarkLagrange.kernel_col O17 (lc_rr lc17) 3) (fzero O17)).
  { intros i Hi. exact (Lp17_honest i Hi). }
  assert (Hair : forall x, ~ In x (domain O17 g17 8) -> air5 x (evals O17 [T5] x) (evals O17 [T5] (fmul O17 x g17)) = peval O17 [] x).
  { intros x _. apply air5_T5. }
  pose proof coin5_z_off_domain as Hz. pose proof coin5_z_nz as Hz0. pose proof coin5_zg_nz as Hzg.
  pose proof coin5_xs_NoDup as Hnd.
  assert (Hq : forall x, In x (c_xs coin5) -> ~ In x (lag_pts O17 g17 (c_z coin5) 3)).
  { cbn [c_xs c_z coin5]. unfold lag_pts. cbn [seq map]. intros x [<-|[<-|[]]] [E|[E|[E|[E|[]]]]]; zp_neq E. }
  assert (HT : Forall (fun p : list (Zp 17%Z) => length p = 8) [T5]) by (repeat constructor).
  assert (HTne : [T5] <> []) by discriminate.
  assert (Hxne : c_xs coin5 <> []) by discriminate.
  pose proof g17_primitive as Hg.
  repeat (split; [first [assumption | reflexivity | (simpl; lia)] |]).
  destruct (honest_lag_quotient O17 L17 8 3 g17 eq_refl g17_primitive lc17 eq_refl eq_refl eq_refl Hdiv ltac:(lia) Lp17 Hhon ltac:(lia))
    as (Ql & Hl & HQ).
  exists Ql. split; [exact Hl | exact HQ].
Qed.
