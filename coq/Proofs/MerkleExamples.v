(* C10 — non-vacuity: the hypotheses of the C10 theorems are satisfiable, shown on concrete instances
   (digests = Z, merge a b = 3a + b + 1, which has collisions, and merge a b = a + b). *)
From Coq Require Import ZArith List Bool Lia.
From VBase Require Import MachInt.
From VModel Require Import Merkle.
From VProofs Require Import MerkleSingle MerkleBind.
Import ListNotations.
Open Scope Z_scope.

Definition mg (a b : Z) : Z := 3 * a + b + 1.
Definition ad (a b : Z) : Z := a + b.

Definition ex_leaves : list Z := [10; 20; 30; 40; 50; 60; 70; 80].
Definition ex_tree : mtree Z :=
  {| mt_nodes := [0; 1781; 285; 925; 51; 131; 211; 291]; mt_leaves := ex_leaves |}.

Example ex_new : mt_new Z 0 mg ex_leaves = Ok ex_tree.
Proof. vm_compute. reflexivity. Qed.

Example ex_root : mt_root Z ex_tree = Ok 1781.
Proof. reflexivity. Qed.

(* hypotheses of single_complete: depth 3, position 5 *)
Example ex_single_hyps :
  mt_new Z 0 mg ex_leaves = Ok ex_tree /\ zlen ex_leaves = 2 ^ Z.of_nat 3 /\ (3 <= 62)%nat /\
  mt_root Z ex_tree = Ok 1781 /\ 0 <= 5 < zlen ex_leaves.
Proof. repeat split; try reflexivity; try (vm_compute; congruence); lia. Qed.

Example ex_single_run : mt_prove Z ex_tree 5 = Ok [60; 50; 291; 285] /\ verify Z Z.eqb mg 1781 5 [60; 50; 291; 285] = Ok tt.
Proof. split; vm_compute; reflexivity. Qed.

(* hypotheses of single_binding with p <> p': the collision branch is inhabited (merge = +) *)
Example ex_binding_hyps :
  verify Z Z.eqb ad 3 0 [1; 2] = Ok tt /\ verify Z Z.eqb ad 3 0 [2; 1] = Ok tt /\ length [1; 2] = length [2; 1] /\
  find_collision Z Z.eqb 0 ad 0 [1; 2] [2; 1] = Some ((1, 2), (2, 1)) /\ is_collision Z ad ((1, 2), (2, 1)).
Proof. repeat split; try (vm_compute; reflexivity). vm_compute. congruence. Qed.

(* a deeper collision: same leaf pair, different upper sibling *)
Example ex_binding_deep :
  verify Z Z.eqb ad 10 1 [1; 2; 7] = Ok tt /\ verify Z Z.eqb ad 10 1 [2; 2; 6] = Ok tt /\
  exists c, find_collision Z Z.eqb 0 ad 1 [1; 2; 7] [2; 2; 6] = Some c /\ is_collision Z ad c.
Proof.
  split; [vm_compute; reflexivity|]. split; [vm_compute; reflexivity|].
  eexists. split; [vm_compute; reflexivity|]. vm_compute. split; congruence.
Qed.

(* hypotheses of batch_complete: unsorted positions with a sibling pair and a lone leaf *)
Example ex_batch_hyps :
  [5; 0; 4] <> [] /\ zlen [5; 0; 4] <= 255 /\ NoDup [5; 0; 4] /\ (forall i, In i [5; 0; 4] -> 0 <= i < zlen ex_leaves).
Proof.
  split; [discriminate|]. split; [vm_compute; congruence|]. split.
  - repeat constructor; simpl; intuition discriminate.
  - intros i [<-|[<-|[<-|[]]]]; vm_compute; split; congruence.
Qed.

Example ex_batch_run :
  mt_prove_batch Z 0 ex_tree [5; 0; 4] = Ok {| bp_leaves := [60; 10; 50]; bp_nodes := [[20; 131]; [291]]; bp_depth := 3 |} /\
  get_root Z mg {| bp_leaves := [60; 10; 50]; bp_nodes := [[20; 131]; [291]]; bp_depth := 3 |} [5; 0; 4] = Ok 1781 /\
  into_paths Z mg {| bp_leaves := [60; 10; 50]; bp_nodes := [[20; 131]; [291]]; bp_depth := 3 |} [5; 0; 4]
    = Ok [[60; 50; 291; 285]; [10; 20; 131; 925]; [50; 60; 291; 285]] /\
  from_paths Z 0 [[60; 50; 291; 285]; [10; 20; 131; 925]; [50; 60; 291; 285]] [5; 0; 4]
    = Ok {| bp_leaves := [60; 10; 50]; bp_nodes := [[20; 131]; [291]]; bp_depth := 3 |}.
Proof. repeat split; vm_compute; reflexivity. Qed.

(* shape mutations are errors, not acceptance and not panics (repaired behaviour) *)
Example ex_surplus_node :
  get_root Z mg {| bp_leaves := [60; 10; 50]; bp_nodes := [[20; 131]; [291; 7]]; bp_depth := 3 |} [5; 0; 4] = Err InvalidProof.
Proof. vm_compute. reflexivity. Qed.

Example ex_surplus_leaf :
  get_root Z mg {| bp_leaves := [60; 10; 50; 7]; bp_nodes := [[20; 131]; [291]]; bp_depth := 3 |} [5; 0; 4] = Err InvalidProof.
Proof. vm_compute. reflexivity. Qed.

Example ex_depth_64 :
  get_root Z mg {| bp_leaves := [60; 10; 50]; bp_nodes := [[20; 131]; [291]]; bp_depth := 64 |} [5; 0; 4] = Err InvalidProof /\
  into_paths Z mg {| bp_leaves := [60; 10; 50]; bp_nodes := [[20; 131]; [291]]; bp_depth := 200 |} [5; 0; 4] = Err InvalidProof.
Proof. split; vm_compute; reflexivity. Qed.

Example ex_wrong_leaf :
  get_root Z mg {| bp_leaves := [61; 10; 50]; bp_nodes := [[20; 131]; [291]]; bp_depth := 3 |} [5; 0; 4] = Ok 1784.
Proof. vm_compute. reflexivity. Qed.

Example ex_short_path : verify Z Z.eqb mg 1781 5 [60] = Err InvalidProof /\ verify Z Z.eqb mg 1781 13 [60; 50; 291; 285] = Err (LeafIndexOutOfBounds 8 13).
Proof. split; vm_compute; reflexivity. Qed.

(* batch binding: hypotheses satisfiable with a WRONG claimed leaf, the collision branch is inhabited (merge = +) *)
Definition ad_tree : mtree Z := {| mt_nodes := [0; 10; 3; 7]; mt_leaves := [1; 2; 3; 4] |}.

Example ex_ad_new : mt_new Z 0 ad [1; 2; 3; 4] = Ok ad_tree.
Proof. vm_compute. reflexivity. Qed.

Example ex_batch_binding_hyps :
  get_root Z ad {| bp_leaves := [2]; bp_nodes := [[1; 7]]; bp_depth := 2 |} [0] = Ok 10 /\
  mt_root Z ad_tree = Ok 10 /\
  find_batch_collision Z Z.eqb 0 ad ad_tree {| bp_leaves := [2]; bp_nodes := [[1; 7]]; bp_depth := 2 |} [0] = Some ((2, 1), (1, 2)) /\
  is_collision Z ad ((2, 1), (1, 2)).
Proof. repeat split; try (vm_compute; reflexivity). vm_compute. congruence. Qed.

Example ex_batch_binding_two_hyps :
  get_root Z ad {| bp_leaves := [1; 4]; bp_nodes := [[2]; [3]]; bp_depth := 2 |} [0; 3] = Ok 10 /\
  get_root Z ad {| bp_leaves := [2; 4]; bp_nodes := [[1]; [3]]; bp_depth := 2 |} [0; 3] = Ok 10 /\
  find_batch_collision2 Z Z.eqb 0 ad {| bp_leaves := [1; 4]; bp_nodes := [[2]; [3]]; bp_depth := 2 |}
    {| bp_leaves := [2; 4]; bp_nodes := [[1]; [3]]; bp_depth := 2 |} [0; 3] = Some ((1, 2), (2, 1)).
Proof. repeat split; vm_compute; reflexivity. Qed.

(* into_paths on an honest opening = the individual proves (unsorted positions) *)
Example ex_into_paths_spec :
  into_paths Z mg {| bp_leaves := [60; 10; 50]; bp_nodes := [[20; 131]; [291]]; bp_depth := 3 |} [5; 0; 4]
  = mapM (mt_prove Z ex_tree) [5; 0; 4].
Proof. vm_compute. reflexivity. Qed.
