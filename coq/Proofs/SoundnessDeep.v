(* C02 — the DEEP composer over main AND auxiliary trace columns (verifier/src/composer.rs compose_trace_columns): which
   coefficient a column gets, what that buys, and what is lost when auxiliary columns reuse the coefficients of the main ones.
   (1) The index map main i |-> i, aux j |-> main_width + j (cc_offset) is injective and deep_trace_at is the sum over ALL
   columns with these indexes; (2) the DEEP values of two assignments of out-of-domain values differ by the dot product of the
   coefficient vector with the per-column differences, so a non-zero difference is annihilated only by the vectors of a
   hyperplane (at most |F|^(m-1) of |F|^m); (3) with the aliased map (aux j |-> j) opposite errors in main column 0 and
   auxiliary column 0 cancel for EVERY coefficient vector.  Generic over every [FOps F] with [FLaws]. *)
From Coq Require Import List Arith Bool Lia Ring Field ZArith.
From VBase Require Import FieldOps ZpOps.
From VModel Require Import Soundness.
From VProofs Require Import ListFacts ZpLaws SoundnessPoly SoundnessVerifier SoundnessCount.
From VProofs Require Import SoundnessExamples.
Import ListNotations.
Local Open Scope nat_scope.

(* ------------------------------------------------------------------ (1) the index map *)
Definition col_in_range (w aw : nat) (c : TraceCol) : Prop :=
  match c with MainCol i => i < w | AuxCol j => j < aw end.
Definition all_cols (w aw : nat) : list TraceCol := map MainCol (seq 0 w) ++ map AuxCol (seq 0 aw).
(* the map without the running offset: auxiliary column j shares the coefficient of main column j *)
Definition aliased_index_aux (main_width j : nat) : nat := j.
Definition aliased_index (c : TraceCol) : nat := match c with MainCol i => i | AuxCol j => j end.

Theorem deep_coeff_index_injective w aw c c' :
  col_in_range w aw c -> col_in_range w aw c' -> deep_coeff_index w c = deep_coeff_index w c' -> c = c'.
Proof.
  destruct c as [i|j], c' as [i'|j']; unfold deep_coeff_index, deep_coeff_index_aux, col_in_range; intros H H' E.
  - now subst.
  - exfalso; lia.
  - exfalso; lia.
  - f_equal. lia.
Qed.

Theorem deep_coeff_index_aux_offset w j : deep_coeff_index w (AuxCol j) = w + j.
Proof. reflexivity. Qed.

Lemma map_add_seq w a n : map (fun j => w + j) (seq a n) = seq (w + a) n.
Proof.
  revert a; induction n as [|n IH]; intros a; cbn [seq map]; [reflexivity|].
  f_equal. rewrite IH. f_equal. lia.
Qed.

Theorem deep_coeff_index_enumerates w aw : map (deep_coeff_index w) (all_cols w aw) = seq 0 (w + aw).
Proof.
  unfold all_cols. rewrite map_app, !map_map, seq_app. f_equal.
  - cbn [deep_coeff_index]. apply map_id.
  - cbn [deep_coeff_index plus]. unfold deep_coeff_index_aux.
    rewrite map_add_seq. f_equal. lia.
Qed.

Corollary deep_coeff_index_NoDup w aw : NoDup (map (deep_coeff_index w) (all_cols w aw)).
Proof. rewrite deep_coeff_index_enumerates. apply seq_NoDup. Qed.

Lemma all_cols_in_range w aw c : In c (all_cols w aw) <-> col_in_range w aw c.
Proof.
  unfold all_cols. rewrite in_app_iff, !in_map_iff. split.
  - intros [[i [<- Hi]]|[j [<- Hj]]]; apply in_seq in Hi || apply in_seq in Hj; cbn; lia.
  - destruct c as [i|j]; cbn; intros H; [left; exists i|right; exists j]; (split; [reflexivity|apply in_seq; lia]).
Qed.

(* the aliased map is NOT injective as soon as both segments have a column *)
Theorem aliased_index_not_injective w aw : 0 < w -> 0 < aw ->
  exists c c', col_in_range w aw c /\ col_in_range w aw c' /\ c <> c' /\ aliased_index c = aliased_index c'.
Proof. intros Hw Ha. exists (MainCol 0), (AuxCol 0). cbn. repeat split; auto. discriminate. Qed.

Section Deep.
Context {F : Type} (O : FOps F) (L : FLaws O).
Local Notation zero := (fzero O).
Local Notation one := (fone O).
Local Infix "+f" := (fadd O) (at level 50, left associativity).
Local Infix "-f" := (fsub O) (at level 50, left associativity).
Local Infix "*f" := (fmul O) (at level 40, left associativity).
Add Field Ff6 : (FLaws_field_theory O L).
Local Notation dot := (dot O).
Local Notation diffs := (diffs O).
Local Notation vadd := (vadd O).
Local Notation vscale := (vscale O).
Local Notation unit_vec := (unit_vec O).

(* ---------------------------------------------------------------- deep_trace_at as a sum over all columns *)
Definition col_value (row ar : list F) (c : TraceCol) : F :=
  match c with MainCol i => nth i row zero | AuxCol j => nth j ar zero end.
(* sum over the columns [cols] of (opened value - out-of-domain value) * cc[idx column] *)
Definition col_sum (cc : list F) (idx : TraceCol -> nat) (cols : list TraceCol) (row ar ood aood : list F) : F :=
  fsum O (map (fun c => (col_value row ar c -f col_value ood aood c) *f nth (idx c) cc zero) cols).

Lemma fsum_app a b : fsum O (a ++ b) = fsum O a +f fsum O b.
Proof.
  unfold fsum. induction a as [|x a IH]; cbn [app fold_right]; [ring|]. rewrite IH. ring.
Qed.

Lemma col_terms_as_sum cc idx i row ood : length ood = length row ->
  col_terms O cc idx i row ood =
  fsum O (map (fun j => (nth j row zero -f nth j ood zero) *f nth (idx (i + j)) cc zero) (seq 0 (length row))).
Proof.
  revert i ood; induction row as [|v row IH]; intros i [|o ood] Hl; cbn [length] in Hl; try discriminate; [reflexivity|].
  cbn [col_terms length seq map nth]. rewrite <- seq_shift, map_map. cbn [fsum fold_right].
  rewrite Nat.add_0_r. f_equal. rewrite IH by lia. unfold fsum. f_equal.
  apply map_ext. intros j. cbn [nth]. now rewrite Nat.add_succ_r.
Qed.

Theorem deep_trace_at_index_form C P ax zg row ar x :
  p_aux P = Some ax ->
  length (p_ood_cur P) = length row -> length (p_ood_next P) = length row ->
  length (ax_cur ax) = length ar -> length (ax_next ax) = length ar ->
  x -f c_z C <> zero -> x -f zg <> zero ->
  deep_trace_at O C P zg row (Some ar) x =
  fdiv O (col_sum (cc_deep_trace C) (deep_coeff_index (length row)) (all_cols (length row) (length ar))
                  row ar (p_ood_cur P) (ax_cur ax)) (x -f c_z C) +f
  fdiv O (col_sum (cc_deep_trace C) (deep_coeff_index (length row)) (all_cols (length row) (length ar))
                  row ar (p_ood_next P) (ax_next ax)) (x -f zg).
Proof.
  intros Hax H1 H2 H3 H4 Hz Hzg.
  unfold deep_trace_at, deep_trace_at_gen. rewrite Hax.
  rewrite !col_terms_as_sum by assumption.
  unfold col_sum, all_cols. rewrite !map_app, !fsum_app, !map_map. cbn [col_value deep_coeff_index plus].
  field. split; assumption.
Qed.

(* ---------------------------------------------------------------- dot products *)
Lemma dot_app cc u v : dot cc (u ++ v) = dot cc u +f dot (skipn (length u) cc) v.
Proof.
  revert cc; induction u as [|a u IH]; intros cc; cbn [app length skipn].
  - rewrite dot_nil_r. ring.
  - destruct cc as [|c cc]; cbn [Soundness.dot skipn]; [ring|]. rewrite IH. ring.
Qed.

Lemma dot_vadd_r cc u v : length u = length v -> dot cc (vadd u v) = dot cc u +f dot cc v.
Proof.
  revert u v; induction cc as [|c cc IH]; intros [|a u] [|b v] H; cbn in H; try discriminate;
    cbn [Soundness.dot SoundnessPoly.vadd]; try ring.
  rewrite IH by lia. ring.
Qed.

Lemma dot_vscale_r cc a u : dot cc (vscale a u) = a *f dot cc u.
Proof.
  revert u; induction cc as [|c cc IH]; intros [|b u]; unfold SoundnessPoly.vscale; cbn [Soundness.dot map]; try ring.
  fold (vscale a u). rewrite IH. ring.
Qed.

Lemma dot_vadd_l al be D : length al = length be -> dot (vadd al be) D = dot al D +f dot be D.
Proof.
  revert be D; induction al as [|a al IH]; intros [|b be] [|d D] H; cbn in H; try discriminate;
    cbn [Soundness.dot SoundnessPoly.vadd]; try ring.
  rewrite IH by lia. ring.
Qed.

Lemma dot_vscale_l c al D : dot (vscale c al) D = c *f dot al D.
Proof.
  revert D; induction al as [|a al IH]; intros [|d D]; unfold SoundnessPoly.vscale; cbn [Soundness.dot map]; try ring.
  fold (vscale c al). rewrite IH. ring.
Qed.

Lemma dot_zeros_l n D : dot (repeat zero n) D = zero.
Proof. revert D; induction n as [|n IH]; intros [|d D]; cbn [repeat Soundness.dot]; try ring. rewrite IH. ring. Qed.

Lemma dot_unit_vec n k D : n = length D -> k < n -> dot (unit_vec n k) D = nth k D zero.
Proof.
  revert k D; induction n as [|n IH]; intros k [|d D] Hn Hk; cbn in Hn; try lia.
  destruct k as [|k]; cbn [SoundnessPoly.unit_vec Soundness.dot nth].
  - rewrite dot_zeros_l. ring.
  - rewrite IH by lia. ring.
Qed.

Lemma dot_split al D k : length al = length D -> k < length D ->
  dot al D = dot (upd_nth al k zero) D +f nth k al zero *f nth k D zero.
Proof.
  revert D k; induction al as [|a al IH]; intros [|d D] k Hl Hk; cbn in Hl, Hk; try lia.
  destruct k as [|k]; cbn [upd_nth nth Soundness.dot].
  - ring.
  - rewrite (IH D k) by lia. ring.
Qed.

Lemma diffs_length a b : length a = length b -> length (diffs a b) = length a.
Proof. intros H. unfold SoundnessVerifier.diffs. rewrite map_length, combine_length. lia. Qed.

Lemma dot_diffs_sub cc row a a' : length a = length row -> length a' = length row ->
  dot cc (diffs row a) -f dot cc (diffs row a') = dot cc (diffs a' a).
Proof.
  unfold SoundnessVerifier.diffs.
  revert row a a'; induction cc as [|c cc IH]; intros [|v row] [|o a] [|o' a'] H H'; cbn in H, H'; try discriminate;
    cbn [Soundness.dot combine map fst snd]; try ring.
  rewrite <- (IH row a a') by lia. ring.
Qed.

(* ---------------------------------------------------------------- (2) two assignments of out-of-domain values *)
(* the same proof with other out-of-domain trace values *)
Definition with_ood (P : ProofObj) (cur next acur anext : list F) : ProofObj :=
  mkProof (p_modulus P) (p_options P) cur next (p_ood_evals P) (p_q_trace P) (p_q_cons P)
          (match p_aux P with Some ax => Some (mkAuxOpen acur anext (ax_rows ax)) | None => None end) (p_lagrange P).
(* the same coin outputs with other DEEP coefficients of the trace columns *)
Definition with_deep_cc (C : Coins) (cc : list F) : Coins :=
  mkCoins (c_aux_rands C) (cc_trans C) (cc_bnd C) (c_z C) cc (cc_deep_cons C) (c_xs C) (c_lagrange C).

(* per column: (a' - a) / (x - z) + (b' - b) / (x - z g), a / a' the two current-row values, b / b' the next-row values *)
Definition ood_delta (x z zg : F) (cur cur' next next' : list F) : list F :=
  vadd (vscale (finv O (x -f z)) (diffs cur' cur)) (vscale (finv O (x -f zg)) (diffs next' next)).

Lemma ood_delta_length x z zg cur cur' next next' :
  length cur' = length cur -> length next = length cur -> length next' = length cur ->
  length (ood_delta x z zg cur cur' next next') = length cur.
Proof.
  intros H1 H2 H3. unfold ood_delta.
  rewrite (vadd_length O); rewrite ?(vscale_length O), ?diffs_length; lia.
Qed.

Lemma vadd_nth u v i : length u = length v -> nth i (vadd u v) zero = nth i u zero +f nth i v zero.
Proof.
  revert v i; induction u as [|a u IH]; intros [|b v] i H; cbn in H; try discriminate.
  - destruct i; cbn; ring.
  - destruct i as [|i]; cbn [SoundnessPoly.vadd nth]; [reflexivity|]. apply IH. lia.
Qed.

Lemma vscale_nth c u i : nth i (vscale c u) zero = c *f nth i u zero.
Proof.
  unfold SoundnessPoly.vscale. revert i; induction u as [|a u IH]; intros [|i]; cbn [map nth]; try ring. apply IH.
Qed.

Lemma diffs_nth a b i : length a = length b -> nth i (diffs a b) zero = nth i a zero -f nth i b zero.
Proof.
  unfold SoundnessVerifier.diffs.
  revert b i; induction a as [|u a IH]; intros [|v b] i H; cbn in H; try discriminate.
  - destruct i; cbn; ring.
  - destruct i as [|i]; cbn [combine map nth fst snd]; [reflexivity|]. apply IH. lia.
Qed.

Lemma ood_delta_nth x z zg cur cur' next next' i :
  length cur' = length cur -> length next = length cur -> length next' = length cur ->
  nth i (ood_delta x z zg cur cur' next next') zero =
  fdiv O (nth i cur' zero -f nth i cur zero) (x -f z) +f fdiv O (nth i next' zero -f nth i next zero) (x -f zg).
Proof.
  intros H1 H2 H3. unfold ood_delta.
  rewrite vadd_nth, !vscale_nth, !diffs_nth by (rewrite ?(vscale_length O), ?diffs_length; lia).
  rewrite !(fl_div_def O L). ring.
Qed.

(* the delta of column c sits at position deep_coeff_index c of the concatenated vector *)
Lemma delta_at_index (Dm Da : list F) w (c : TraceCol) : length Dm = w -> col_in_range w (length Da) c ->
  nth (deep_coeff_index w c) (Dm ++ Da) zero = col_value Dm Da c.
Proof.
  intros Hl Hc. destruct c as [i|j]; cbn [deep_coeff_index col_value col_in_range] in *.
  - apply app_nth1. lia.
  - unfold deep_coeff_index_aux. rewrite app_nth2 by lia. f_equal. lia.
Qed.

Theorem deep_ood_difference_linear C P ax zg row ar x cur' next' acur' anext' :
  p_aux P = Some ax ->
  length (p_ood_cur P) = length row -> length (p_ood_next P) = length row ->
  length cur' = length row -> length next' = length row ->
  length (ax_cur ax) = length ar -> length (ax_next ax) = length ar ->
  length acur' = length ar -> length anext' = length ar ->
  x -f c_z C <> zero -> x -f zg <> zero ->
  deep_trace_at O C P zg row (Some ar) x -f deep_trace_at O C (with_ood P cur' next' acur' anext') zg row (Some ar) x =
  dot (cc_deep_trace C)
      (ood_delta x (c_z C) zg (p_ood_cur P) cur' (p_ood_next P) next' ++
       ood_delta x (c_z C) zg (ax_cur ax) acur' (ax_next ax) anext').
Proof.
  intros Hax H1 H2 H3 H4 H5 H6 H7 H8 Hz Hzg.
  rewrite !(deep_trace_at_spec O L) by assumption.
  unfold with_ood. cbn [p_aux p_ood_cur p_ood_next]. rewrite Hax. cbn [ax_cur ax_next].
  rewrite dot_app, ood_delta_length by lia. rewrite H1. unfold ood_delta.
  rewrite !dot_vadd_r, !dot_vscale_r by (rewrite ?(vscale_length O), ?diffs_length; lia).
  unfold aux_dot.
  rewrite <- (dot_diffs_sub (cc_deep_trace C) row (p_ood_cur P) cur') by lia.
  rewrite <- (dot_diffs_sub (cc_deep_trace C) row (p_ood_next P) next') by lia.
  rewrite <- (dot_diffs_sub (skipn (length row) (cc_deep_trace C)) ar (ax_cur ax) acur') by lia.
  rewrite <- (dot_diffs_sub (skipn (length row) (cc_deep_trace C)) ar (ax_next ax) anext') by lia.
  field. split; assumption.
Qed.

(* ---------------------------------------------------------------- hyperplanes: the coefficient vectors annihilating
   a vector D with a non-zero coordinate k *)
Section Hyperplane.
Variable D : list F.
Variable k : nat.
Hypothesis Hk : k < length D.
Hypothesis HD : nth k D zero <> zero.

Definition annihilates (cc : list F) : Prop := length cc = length D /\ dot cc D = zero.

Lemma annihilates_subspace :
  (forall al be, annihilates al -> annihilates be -> annihilates (vadd al be)) /\
  (forall c al, annihilates al -> annihilates (vscale c al)) /\
  ~ annihilates (unit_vec (length D) k).
Proof.
  split; [|split].
  - intros al be [Hla Ha] [Hlb Hb]. split.
    + rewrite (vadd_length O); congruence.
    + rewrite dot_vadd_l by congruence. rewrite Ha, Hb. ring.
  - intros c al [Hl Ha]. split.
    + now rewrite (vscale_length O).
    + rewrite dot_vscale_l, Ha. ring.
  - intros [_ H]. rewrite dot_unit_vec in H by (auto; lia). exact (HD H).
Qed.

Lemma annihilates_fiber al be : annihilates al -> annihilates be -> remove_nth k al = remove_nth k be -> al = be.
Proof.
  intros [Hla Ha] [Hlb Hb] Hr.
  assert (Hu : upd_nth al k zero = upd_nth be k zero).
  { rewrite !upd_nth_split by lia. unfold remove_nth in Hr.
    assert (Hl : length (firstn k al) = length (firstn k be)) by (rewrite !firstn_length; lia).
    destruct (app_eq_len _ _ _ _ Hl Hr) as [E1 E2]. rewrite E1, E2. reflexivity. }
  apply (remove_nth_determines al be k zero); try lia; [exact Hr|].
  rewrite (dot_split al D k) in Ha by lia. rewrite (dot_split be D k) in Hb by lia. rewrite Hu in Ha.
  assert (E : (nth k al zero -f nth k be zero) *f nth k D zero = zero).
  { transitivity ((dot (upd_nth be k zero) D +f nth k al zero *f nth k D zero) -f
                  (dot (upd_nth be k zero) D +f nth k be zero *f nth k D zero)); [ring|]. rewrite Ha, Hb. ring. }
  apply (fmul_integral O L) in E. destruct E as [E|E]; [|contradiction].
  now apply (fsub_eq_zero O L).
Qed.

Theorem annihilates_count (elems : list F) : (forall x, In x elems) ->
  forall goods : list (list F), NoDup goods -> (forall al, In al goods -> annihilates al) ->
  length goods <= length elems ^ (length D - 1).
Proof.
  intros Hall.
  apply (fiber_counting elems Hall annihilates (length D) k Hk); [now intros al [Hl _] | exact annihilates_fiber].
Qed.
End Hyperplane.

(* the binding consequence at one query position: if the two assignments differ in some column (in the sense that the
   column's delta at this position is non-zero), the coefficient vectors for which both give the same DEEP value form
   such a hyperplane *)
Theorem deep_ood_binding C P ax zg row ar x cur' next' acur' anext' (c : TraceCol) :
  p_aux P = Some ax ->
  length (p_ood_cur P) = length row -> length (p_ood_next P) = length row ->
  length cur' = length row -> length next' = length row ->
  length (ax_cur ax) = length ar -> length (ax_next ax) = length ar ->
  length acur' = length ar -> length anext' = length ar ->
  x -f c_z C <> zero -> x -f zg <> zero ->
  let Dm := ood_delta x (c_z C) zg (p_ood_cur P) cur' (p_ood_next P) next' in
  let Da := ood_delta x (c_z C) zg (ax_cur ax) acur' (ax_next ax) anext' in
  let m := length row + length ar in
  let same cc := length cc = m /\
                 deep_trace_at O (with_deep_cc C cc) P zg row (Some ar) x =
                 deep_trace_at O (with_deep_cc C cc) (with_ood P cur' next' acur' anext') zg row (Some ar) x in
  col_in_range (length row) (length ar) c -> col_value Dm Da c <> zero ->
  ~ same (unit_vec m (deep_coeff_index (length row) c)) /\
  (forall al be, same al -> same be ->
     remove_nth (deep_coeff_index (length row) c) al = remove_nth (deep_coeff_index (length row) c) be -> al = be) /\
  (forall elems : list F, (forall y, In y elems) ->
   forall goods : list (list F), NoDup goods -> (forall cc, In cc goods -> same cc) -> length goods <= length elems ^ (m - 1)).
Proof.
  intros Hax H1 H2 H3 H4 H5 H6 H7 H8 Hz Hzg Dm Da m same Hc Hne.
  assert (HlDm : length Dm = length row) by (unfold Dm; rewrite ood_delta_length; lia).
  assert (HlDa : length Da = length ar) by (unfold Da; rewrite ood_delta_length; lia).
  assert (HlD : length (Dm ++ Da) = m) by (rewrite app_length; unfold m; lia).
  set (kk := deep_coeff_index (length row) c).
  assert (Hkk : kk < length (Dm ++ Da)).
  { rewrite HlD. unfold kk, m. destruct c as [i|j]; cbn in *; unfold deep_coeff_index_aux; lia. }
  assert (HD : nth kk (Dm ++ Da) zero <> zero).
  { unfold kk. rewrite (delta_at_index Dm Da (length row) c HlDm); [exact Hne|now rewrite HlDa]. }
  assert (Hsame : forall cc, same cc <-> annihilates (Dm ++ Da) cc).
  { intros cc. unfold same, annihilates. rewrite HlD.
    pose proof (deep_ood_difference_linear (with_deep_cc C cc) P ax zg row ar x cur' next' acur' anext'
                  Hax H1 H2 H3 H4 H5 H6 H7 H8 Hz Hzg) as Hlin.
    cbn [with_deep_cc cc_deep_trace c_z] in Hlin. fold Dm Da in Hlin.
    split; intros [Hl E]; (split; [exact Hl|]).
    - rewrite <- Hlin, E. ring.
    - apply (fsub_eq_zero O L). rewrite Hlin. exact E. }
  split; [|split].
  - intros Hs. apply Hsame in Hs. rewrite <- HlD in Hs.
    exact (proj2 (proj2 (annihilates_subspace (Dm ++ Da) kk Hkk HD)) Hs).
  - intros al be Ha Hb Hr. apply (annihilates_fiber (Dm ++ Da) kk Hkk HD); [now apply Hsame|now apply Hsame|exact Hr].
  - intros elems Hall goods Hnd Hg. rewrite <- HlD.
    apply (annihilates_count (Dm ++ Da) kk Hkk HD elems Hall goods Hnd). intros al Hal. now apply Hsame, Hg.
Qed.

(* ---------------------------------------------------------------- (3) the aliased map binds only sums *)
Definition deep_trace_at_aliased : Coins -> ProofObj -> F -> list F -> option (list F) -> F -> F :=
  deep_trace_at_gen O aliased_index_aux.

(* opposite errors e in the OPENED values of main column 0 and auxiliary column 0: the same value, whatever the coin
   outputs (in particular the coefficient vector), the out-of-domain frame and the point *)
Lemma aliased_opened_collision C P ax zg x a a2 b b2 v u e :
  p_aux P = Some ax -> p_ood_cur P = [a] -> p_ood_next P = [a2] -> ax_cur ax = [b] -> ax_next ax = [b2] ->
  deep_trace_at_aliased C P zg [v +f e] (Some [u -f e]) x = deep_trace_at_aliased C P zg [v] (Some [u]) x.
Proof.
  intros Hax H1 H2 H3 H4. unfold deep_trace_at_aliased, deep_trace_at_gen, aliased_index_aux.
  rewrite Hax, H1, H2, H3, H4. cbn [col_terms]. ring.
Qed.

(* opposite errors in the claimed OUT-OF-DOMAIN values (e in the current row, e2 in the next row) *)
Lemma aliased_ood_collision C P ax zg x a a2 b b2 v u e e2 :
  p_aux P = Some ax ->
  deep_trace_at_aliased C (with_ood P [a +f e] [a2 +f e2] [b -f e] [b2 -f e2]) zg [v] (Some [u]) x =
  deep_trace_at_aliased C (with_ood P [a] [a2] [b] [b2]) zg [v] (Some [u]) x.
Proof.
  intros Hax. unfold deep_trace_at_aliased, deep_trace_at_gen, aliased_index_aux, with_ood.
  cbn [p_aux p_ood_cur p_ood_next]. rewrite Hax. cbn [ax_cur ax_next col_terms]. ring.
Qed.

Lemma one_plus_neq : zero +f one <> zero.
Proof. intros H. apply (fl_one_neq_zero O L). rewrite <- H. ring. Qed.

(* REFUTED for the aliased map: "two different assignments are separated by some coefficient vector".  Witness: main
   width 1, auxiliary width 1; opened values (1, 0) against (0, 1), resp. out-of-domain values (a+1, b-1) against
   (a, b): equal DEEP trace values for ALL coin outputs, frames and points *)
Theorem deep_binding_aliased_refuted :
  (exists row row' ar ar' : list F, row <> row' /\ ar <> ar' /\
     forall C P ax zg x a a2 b b2,
       p_aux P = Some ax -> p_ood_cur P = [a] -> p_ood_next P = [a2] -> ax_cur ax = [b] -> ax_next ax = [b2] ->
       deep_trace_at_aliased C P zg row (Some ar) x = deep_trace_at_aliased C P zg row' (Some ar') x) /\
  (exists d : F, d <> zero /\
     forall C P ax zg x a a2 b b2 v u, p_aux P = Some ax ->
       [a +f d] <> [a] /\
       deep_trace_at_aliased C (with_ood P [a +f d] [a2] [b -f d] [b2]) zg [v] (Some [u]) x =
       deep_trace_at_aliased C (with_ood P [a] [a2] [b] [b2]) zg [v] (Some [u]) x).
Proof.
  split.
  - exists [zero +f one], [zero], [one -f one], [one]. split; [|split].
    + intros H. injection H as H. exact (one_plus_neq H).
    + intros H. injection H as H. apply (fl_one_neq_zero O L). rewrite <- H. ring.
    + intros C P ax zg x a a2 b b2 Hax H1 H2 H3 H4.
      exact (aliased_opened_collision C P ax zg x a a2 b b2 zero one one Hax H1 H2 H3 H4).
  - exists one. split; [apply (fl_one_neq_zero O L)|].
    intros C P ax zg x a a2 b b2 v u Hax. split.
    + intros H. injection H as H. apply (fl_one_neq_zero O L).
      transitivity ((a +f one) -f a); [ring|]. rewrite H. ring.
    + pose proof (aliased_ood_collision C P ax zg x a a2 b b2 v u one zero Hax) as E.
      replace (a2 +f zero) with a2 in E by ring. replace (b2 -f zero) with b2 in E by ring. exact E.
Qed.
End Deep.

(* ------------------------------------------------------------------ instances over the 64-bit field *)
Section Instances.
Local Notation O := F64_ops.
Local Notation L := F64_laws.
Local Notation Fe := (Zp P64).
Definition e6 (v : nat) : Fe := fofz O (Z.of_nat v).

(* one main and one auxiliary column; coefficients (1, 0): the first belongs to the main column, the second to the
   auxiliary column *)
Definition coins_d : @Coins Fe := mkCoins [] [] [] (e6 5) [e6 1; e6 0] [] [] None.
Definition proof_d : @ProofObj Fe :=
  mkProof 7 [] [e6 3] [e6 4] [] [] [] (Some (mkAuxOpen [e6 8] [e6 9] [])) None.

(* the witnesses of deep_binding_aliased_refuted ARE separated by the real index map (aux 0 |-> 1) ... *)
Example real_map_separates :
  deep_trace_at O coins_d proof_d (e6 7) [fadd O (fzero O) (fone O)] (Some [fsub O (fone O) (fone O)]) (e6 10) <>
  deep_trace_at O coins_d proof_d (e6 7) [fzero O] (Some [fone O]) (e6 10).
Proof. flat. inverses. zp_neq. Qed.
(* ... and not by the aliased one, for these coins as for all others *)
Example aliased_map_does_not :
  deep_trace_at_aliased O coins_d proof_d (e6 7) [fadd O (fzero O) (fone O)] (Some [fsub O (fone O) (fone O)]) (e6 10) =
  deep_trace_at_aliased O coins_d proof_d (e6 7) [fzero O] (Some [fone O]) (e6 10).
Proof. exact (aliased_opened_collision O L coins_d proof_d _ _ _ _ _ _ _ _ _ _ eq_refl eq_refl eq_refl eq_refl eq_refl). Qed.

(* the hypotheses of deep_ood_binding are satisfiable: out-of-domain values (3,4 | 8,9) against (4,4 | 8,9) differ in
   main column 0 (index 0); the coefficient vector (0,1) gives both the same DEEP value, the unit vector (1,0) does not *)
Example deep_ood_binding_instance :
  let P := proof_d in let C := coins_d in let zg := e6 7 in let x := e6 10 in
  p_aux P = Some (mkAuxOpen [e6 8] [e6 9] []) /\
  fsub O x (c_z C) <> fzero O /\ fsub O x zg <> fzero O /\
  col_value O (ood_delta O x (c_z C) zg [e6 3] [e6 4] [e6 4] [e6 4]) (ood_delta O x (c_z C) zg [e6 8] [e6 8] [e6 9] [e6 9])
            (MainCol 0) <> fzero O /\
  deep_trace_at O (with_deep_cc C [e6 0; e6 1]) P zg [e6 1] (Some [e6 2]) x =
  deep_trace_at O (with_deep_cc C [e6 0; e6 1]) (with_ood P [e6 4] [e6 4] [e6 8] [e6 9]) zg [e6 1] (Some [e6 2]) x /\
  deep_trace_at O (with_deep_cc C [e6 1; e6 0]) P zg [e6 1] (Some [e6 2]) x <>
  deep_trace_at O (with_deep_cc C [e6 1; e6 0]) (with_ood P [e6 4] [e6 4] [e6 8] [e6 9]) zg [e6 1] (Some [e6 2]) x.
Proof.
  cbv zeta. split; [reflexivity|]. split; [zp_neq|]. split; [zp_neq|].
  split; [|split]; flat; inverses; [zp_neq|zp_eq|zp_neq].
Qed.
End Instances.
