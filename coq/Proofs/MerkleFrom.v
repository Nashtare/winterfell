(* C10 — re-compression: from_paths applied to the individual paths prove t i (in the order of the
   position list) rebuilds exactly prove_batch t idx, for every depth and every order of the positions.
   Simulation of from_paths' loops (over the sorted (index, path) entries) by prove_batch's loops (over
   the normalized index pairs / level lists). *)
From Coq Require Import ZArith List Bool Lia.
From VBase Require Import MachInt.
From VModel Require Import Merkle.
From VProofs Require Import MerkleBase MerkleSingle MerkleIdx MerkleBatch MerkleBind MerkleRound.
Import ListNotations.
Open Scope Z_scope.

(* ---------------------------------------------------------------- assoc lists *)
Definition keys_lt {X} (m : bmap X) (b : Z) : Prop := forall k x, In (k, x) m -> k < b.

Lemma bt_insert_append {X} k (x : X) m : keys_lt m k -> bt_insert k x m = m ++ [(k, x)].
Proof.
  induction m as [|[k' x'] m IH]; intros H; [reflexivity|]. cbn [bt_insert app].
  pose proof (H k' x' (or_introl eq_refl)). destruct (Z.ltb_spec k k'); [lia|]. destruct (Z.eqb_spec k k'); [lia|].
  f_equal. apply IH. intros k2 x2 H2. apply (H k2 x2). right. assumption.
Qed.

Lemma keys_lt_app {X} (m : bmap X) k x b : keys_lt m b -> k < b -> keys_lt (m ++ [(k, x)]) b.
Proof. intros H Hk k2 x2 Hin. apply in_app_or in Hin. destruct Hin as [Hin|[[= <- <-]|[]]]; [eapply H; eassumption|assumption]. Qed.

Lemma keys_lt_mono {X} (m : bmap X) b b' : keys_lt m b -> b <= b' -> keys_lt m b'.
Proof. intros H Hb k x Hin. apply H in Hin. lia. Qed.

Lemma keys_sorted_head_min {X} k (x : X) r k2 x2 : keys_sorted ((k, x) :: r) -> In (k2, x2) ((k, x) :: r) -> k <= k2.
Proof. intros [Hlt _] [[= <- <-]|Hin]; [lia|]. apply Hlt in Hin. lia. Qed.

(* fp_pos computes the same map as map_indexes' loop *)
Lemma fp_pos_mi_loop {D} nl : forall idx (paths : list (list D)) i m m',
  length paths = length idx -> mi_loop nl idx i m = Ok m' -> fp_pos D idx paths i m = m'.
Proof.
  induction idx as [|x r IH]; intros [|pth paths] i m m' HL E; try discriminate; cbn [mi_loop fp_pos] in *.
  - injection E as <-. reflexivity.
  - destruct (nl <=? x); [discriminate|]. eapply IH; [simpl in HL; lia|eassumption].
Qed.

(* on increasing keys the sibling test of from_paths is the one of prove_batch *)
Lemma are_siblings_lt a b : 0 <= a < b -> are_siblings a b = Ok (b =? Z.lxor a 1).
Proof.
  intros H. unfold are_siblings. rewrite land1, lxor1 by lia. destruct (mod2_cases a) as [E|E]; rewrite E; cbn [Z.eqb].
  - destruct (Z.ltb_spec b 1); [lia|]. f_equal.
    destruct (Z.eqb_spec (b - 1) a), (Z.eqb_spec b (a + 1 - 2 * 0)); reflexivity || (exfalso; lia).
  - f_equal. symmetry. apply Z.eqb_neq. lia.
Qed.

Lemma keys_sorted_ssorted {X} (m : bmap X) : keys_sorted m -> ssorted (map fst m).
Proof.
  induction m as [|[k x] m IH]; [trivial|]. intros [Hlt HS]. cbn [map fst ssorted]. split; [|apply IH; assumption].
  intros b Hb. apply in_map_iff in Hb. destruct Hb as ([k' x'] & <- & Hin). eapply Hlt. eassumption.
Qed.

Section From.
Variable D : Type.
Variable D_eqb : D -> D -> bool.
Hypothesis D_eqb_spec : forall a b, D_eqb a b = true <-> a = b.
Variable d0 : D.
Variable merge : D -> D -> D.
Variable t : mtree D.
Variable d : nat.
Hypothesis WF : wf_tree D d0 merge d t.
Hypothesis Hd : (d <= 62)%nat.
Let N := 2 ^ Z.of_nat d.

Notation hval := (hval D d0 t).
Notation hpath := (hpath D d0 t d).
Notation leaf := (leaf D d0 t).
Notation fp_first := (fp_first D).
Notation fp_scan := (fp_scan D).
Notation fp_levels := (fp_levels D).
Notation fp_put := (fp_put D).
Notation pb_scan := (pb_scan D).
Notation pb_levels := (pb_levels D).

Lemma FN_pos : 2 <= N.
Proof. exact (N_pos D d0 merge t d WF Hd). Qed.
Lemma FN_even : N mod 2 = 0.
Proof. exact (N_even D d0 merge t d WF Hd). Qed.

Lemma leaf_hval k : 0 <= k -> leaf k = hval (k + N).
Proof. exact (MerkleBatch.leaf_hval D d0 merge t d WF Hd k). Qed.

(* ---------------------------------------------------------------- elements of an honest path *)
Lemma hpath_len i : zlen (hpath i) = Z.of_nat d + 1.
Proof. unfold MerkleRound.hpath. rewrite zlen_cons. unfold zlen. rewrite map_length, seq_length. reflexivity. Qed.

Lemma hpath_0 i : 0 <= i -> idx (hpath i) 0 = Ok (leaf i).
Proof. intros. unfold MerkleRound.hpath. rewrite idx_cons_0. fold N. rewrite leaf_hval by lia. reflexivity. Qed.

Lemma hpath_nth i dd : 1 <= dd <= Z.of_nat d ->
  idx (hpath i) dd = Ok (hval (Z.lxor ((i + N) / 2 ^ (dd - 1)) 1)).
Proof.
  intros Hdd. unfold MerkleRound.hpath. rewrite idx_cons_S by lia. fold N. apply idx_nth_error; [lia|].
  rewrite nth_error_map. replace (nth_error (seq 0 d) (Z.to_nat (dd - 1))) with (Some (Z.to_nat (dd - 1))).
  - cbn [option_map]. rewrite Z2Nat.id by lia. reflexivity.
  - symmetry. rewrite (nth_error_nth' _ 0%nat) by (rewrite seq_length; lia). rewrite seq_nth by lia. reflexivity.
Qed.

Lemma hpath_1 i : 0 <= i -> idx (hpath i) 1 = Ok (leaf (Z.lxor i 1)).
Proof.
  intros Hi. pose proof (wf_d _ _ _ _ _ WF). rewrite hpath_nth by lia. change (2 ^ (1 - 1)) with 1. rewrite Z.div_1_r.
  pose proof FN_pos. pose proof FN_even. rewrite lxor1_add_even by lia. rewrite leaf_hval by (apply lxor1_nonneg; lia). reflexivity.
Qed.

(* ---------------------------------------------------------------- the index list *)
Variable indexes : list Z.
Variable imap : bmap Z.
Hypothesis IM : imap_ok indexes imap.
Hypothesis ND : NoDup indexes.
Hypothesis Hr : forall i, In i indexes -> 0 <= i < N.
Let m := length indexes.
Let norm := normalize_indexes indexes.

Lemma fp_put_ok k leaves : In k indexes -> length leaves = m ->
  exists leaves', fp_put imap leaves k (leaf k) = Ok leaves' /\ length leaves' = m /\
    forall k' j, bt_get k' imap = Some j ->
      (k' = k \/ nth_error leaves (Z.to_nat j) = Some (leaf k')) -> nth_error leaves' (Z.to_nat j) = Some (leaf k').
Proof.
  intros Hk HL. unfold Merkle.fp_put. destruct (imap_ok_In _ _ k IM Hk) as (j0 & E). rewrite E.
  apply (upd_at_imap D d0 t indexes imap IM); assumption.
Qed.

Lemma norm_even e : In e norm -> 0 <= e /\ e mod 2 = 0 /\ e + 1 < N.
Proof. apply normalize_range; [apply FN_even|assumption]. Qed.

Lemma nr_head lo ia nr : In ia indexes -> lo <= ia -> lo mod 2 = 0 ->
  (forall k, In k indexes -> lo <= k -> ia <= k) ->
  ssorted nr -> (forall e, In e nr <-> In e norm /\ lo <= e) ->
  exists nr', nr = (ia - ia mod 2) :: nr' /\ ssorted nr' /\
              (forall e', In e' nr' <-> In e' norm /\ ia - ia mod 2 + 2 <= e').
Proof.
  intros Hia Hlo Hle Hmin HS Hnr. set (e := ia - ia mod 2). pose proof (Hr ia Hia). zmod ia. zmod lo.
  assert (He : In e nr).
  { apply Hnr. split; [apply normalize_In; exists ia; auto|]. unfold e. lia. }
  assert (Hge : forall e', In e' nr -> e <= e').
  { intros e' He'. apply Hnr in He'. destruct He' as [Hn Hl]. apply normalize_In in Hn. destruct Hn as (k & Hk & ->).
    pose proof (Hr k Hk). zmod k. pose proof (Hmin k Hk ltac:(lia)). unfold e. lia. }
  destruct nr as [|h tl]; [destruct He|]. destruct HS as [Hlt HS].
  assert (h = e).
  { destruct He as [->|He]; [reflexivity|]. pose proof (Hlt e He). pose proof (Hge h (or_introl eq_refl)). lia. }
  subst h. exists tl. split; [reflexivity|]. split; [assumption|]. intros e'. split.
  - intros He'. pose proof (Hlt e' He'). assert (Hin : In e' (e :: tl)) by (right; assumption). apply Hnr in Hin.
    destruct Hin as [Hn _]. split; [assumption|]. destruct (norm_even e' Hn) as (_ & Ev & _).
    zmod e'. fold e. pose proof (floor2_even ia). fold e in H3. lia.
  - intros [Hn Hl]. fold e in Hl. assert (Hin : In e' (e :: tl)) by (apply Hnr; split; [assumption|unfold e in *; lia]).
    destruct Hin as [<-|Hin]; [lia|assumption].
Qed.

(* entries of a level: key ka = i / 2^sh for a queried leaf i, heap index ka + N / 2^sh *)
Definition rel (sh : Z) (ent : Z * list D) (a : Z) : Prop :=
  a = fst ent + N / 2 ^ sh /\ exists i, 0 <= i < N /\ snd ent = hpath i /\ fst ent = i / 2 ^ sh.

(* ---------------------------------------------------------------- first loop *)
Lemma fp_first_merged posm ia pa pb rest' leaves pm : 0 <= ia < Z.lxor ia 1 ->
  fp_first posm ((ia, pa) :: (Z.lxor ia 1, pb) :: rest') leaves pm =
  l0 <- idx pa 0 ;; leaves1 <- fp_put posm leaves ia l0 ;; l1 <- idx pa 1 ;; leaves2 <- fp_put posm leaves1 (Z.lxor ia 1) l1 ;;
  '(leavesF, nodes, pmF) <- fp_first posm rest' leaves2 (bt_insert (ia / 2) pb pm) ;; Ok (leavesF, [] :: nodes, pmF).
Proof.
  intros H. cbn [Merkle.fp_first]. rewrite are_siblings_lt, Z.eqb_refl, !shiftr1, lxor1_div2 by lia. reflexivity.
Qed.

Lemma fp_first_single posm ia pa rest leaves pm :
  0 <= ia -> ssorted (ia :: map fst rest) -> merged ia (map fst rest) = false ->
  fp_first posm ((ia, pa) :: rest) leaves pm =
  l0 <- idx pa 0 ;; leaves1 <- fp_put posm leaves ia l0 ;; l1 <- idx pa 1 ;;
  '(leavesF, nodes, pmF) <- fp_first posm rest leaves1 (bt_insert (ia / 2) pa pm) ;; Ok (leavesF, [l1] :: nodes, pmF).
Proof.
  intros H0 [Hlt _] Em. destruct rest as [|[ib pb] rest']; cbn [Merkle.fp_first map fst merged] in *; rewrite !shiftr1; [reflexivity|].
  rewrite are_siblings_lt by (pose proof (Hlt ib (or_introl eq_refl)); lia). rewrite Em. reflexivity.
Qed.

(* the pair of ia lacks the sibling of ia, if that is not queried *)
Lemma miss_of ia : In ia indexes -> 0 <= ia -> miss D d0 t imap (ia - ia mod 2) = miss1 D d0 t imap (Z.lxor ia 1).
Proof.
  intros Hia H0. destruct (imap_ok_In _ _ ia IM Hia) as (j & Ej). unfold miss. rewrite lxor1 by assumption.
  destruct (mod2_cases ia) as [Ev|Ev]; rewrite Ev.
  - replace (ia - 0) with ia by lia. replace (ia + 1 - 2 * 0) with (ia + 1) by lia. unfold miss1 at 1. rewrite Ej. reflexivity.
  - replace (ia - 1 + 1) with ia by lia. replace (ia + 1 - 2 * 1) with (ia - 1) by lia. unfold miss1 at 2. rewrite Ej. apply app_nil_r.
Qed.

(* from_paths' first loop over the entries es (the queried positions from lo on) simulates prove_batch's over the
   pairs nr of these positions *)
Definition first_sim (es : list (Z * list D)) : Prop := forall nr lo leaves pmacc,
  keys_sorted es ->
  (forall k x, In (k, x) es -> x = hpath k /\ In k indexes /\ lo <= k) ->
  (forall k, In k indexes -> lo <= k -> In (k, hpath k) es) ->
  0 <= lo -> lo mod 2 = 0 ->
  ssorted nr -> (forall e, In e nr <-> In e norm /\ lo <= e) ->
  length leaves = m -> keys_lt pmacc (lo / 2) ->
  exists leavesF E,
    fp_first imap es leaves pmacc = Ok (leavesF, map (miss D d0 t imap) nr, pmacc ++ E) /\
    length leavesF = m /\
    (forall k j, bt_get k imap = Some j ->
       ((exists x, In (k, x) es) \/ nth_error leaves (Z.to_nat j) = Some (leaf k)) ->
       nth_error leavesF (Z.to_nat j) = Some (leaf k)) /\
    Forall2 (rel 1) E (map (fun e => (e + N) / 2) nr).

(* the part common to the two cases: the pair e is done, the path of i1 (a position of the pair) goes up, in front
   of what the simulated rest R yields *)
Lemma first_sim_step R e i1 nr' leaves' pmacc lo :
  first_sim R -> keys_sorted R ->
  (forall k x, In (k, x) R -> x = hpath k /\ In k indexes /\ e + 2 <= k) ->
  (forall k, In k indexes -> e + 2 <= k -> In (k, hpath k) R) ->
  0 <= e -> e mod 2 = 0 -> lo / 2 <= e / 2 -> 0 <= i1 < N -> e / 2 = i1 / 2 ->
  ssorted nr' -> (forall e', In e' nr' <-> In e' norm /\ e + 2 <= e') ->
  length leaves' = m -> keys_lt pmacc (lo / 2) ->
  exists leavesF E,
    fp_first imap R leaves' (bt_insert (e / 2) (hpath i1) pmacc) = Ok (leavesF, map (miss D d0 t imap) nr', pmacc ++ E) /\
    length leavesF = m /\
    (forall k j, bt_get k imap = Some j ->
       ((exists x, In (k, x) R) \/ nth_error leaves' (Z.to_nat j) = Some (leaf k)) ->
       nth_error leavesF (Z.to_nat j) = Some (leaf k)) /\
    Forall2 (rel 1) E (map (fun e => (e + N) / 2) (e :: nr')).
Proof.
  intros IH HS Hes Hcov He Hev Hlo Hi1 Hh HSn Hnr HL Hkl.
  rewrite bt_insert_append by (eapply keys_lt_mono; eassumption).
  destruct (IH nr' (e + 2) leaves' (pmacc ++ [(e / 2, hpath i1)]) HS Hes Hcov) as (leavesF & E & EF & LF & PF & RF); try assumption.
  - lia.
  - rewrite mod2_add_even; [assumption|reflexivity].
  - apply keys_lt_app; [eapply keys_lt_mono; [eassumption|]|]; zmod (e + 2); zmod e; lia.
  - exists leavesF, ((e / 2, hpath i1) :: E). rewrite EF, <- app_assoc. split; [reflexivity|]. split; [assumption|]. split; [assumption|].
    cbn [map]. constructor; [|assumption]. split; cbn [fst snd]; change (2 ^ 1) with 2.
    + apply div2_add_even. apply FN_even.
    + exists i1. auto.
Qed.

Lemma first_sim_all : forall es, first_sim es.
Proof.
  induction es as [|[ia pa] rest IHr IHt] using list_ind_tl; intros nr lo leaves pmacc HS Hes Hcov Hlo Hle HSn Hnr HL Hkl.
  { assert (nr = []).
    { destruct nr as [|e nr']; [reflexivity|]. exfalso. destruct (proj1 (Hnr e) (or_introl eq_refl)) as [Hn' Hl].
      apply normalize_In in Hn'. destruct Hn' as (k & Hk & ->). zmod k. pose proof (Hr k Hk). apply (Hcov k Hk). lia. }
    subst nr. exists leaves, []. cbn. rewrite app_nil_r. split; [reflexivity|]. split; [assumption|].
    split; [intros k j _ [[x []]|H]; assumption|constructor]. }
  destruct (Hes ia pa (or_introl eq_refl)) as (-> & Hia & Hloia). pose proof (Hr ia Hia) as Hiar.
  assert (Hmin : forall k, In k indexes -> lo <= k -> ia <= k).
  { intros k Hk Hl. apply (keys_sorted_head_min ia (hpath ia) rest k (hpath k) HS). apply Hcov; assumption. }
  destruct (nr_head lo ia nr Hia Hloia Hle Hmin HSn Hnr) as (nr' & -> & HSn' & Hnr').
  pose proof (keys_sorted_ssorted _ HS) as HSk. cbn [map fst] in HSk. destruct HS as [_ HS'].
  remember (ia - ia mod 2) as e eqn:Ee in *. zmod ia. zmod lo.
  assert (He2 : e / 2 = ia / 2) by (rewrite Ee; apply floor2_half). assert (Hee0 : e mod 2 = 0) by (rewrite Ee; apply floor2_even).
  assert (Hlo2 : lo / 2 <= e / 2) by (rewrite He2; apply Z.div_le_mono; lia).
  destruct (fp_put_ok ia leaves Hia HL) as (leaves1 & Ep1 & L1 & P1).
  destruct (merged ia (map fst rest)) eqn:Em.
  - (* ia and its sibling are both queried: two leaves are written, no node is missing *)
    destruct rest as [|[ib pb] rest']; [discriminate|]. cbn [map fst merged tl] in *. apply Z.eqb_eq in Em. subst ib.
    destruct (merged_sorted_even ia _ ltac:(lia) HSk) as (Hev & Hx & Hgt).
    rewrite fp_first_merged by lia. rewrite Hx in *.
    destruct (Hes (ia + 1) pb (or_intror (or_introl eq_refl))) as (-> & Hib & _). pose proof (Hr _ Hib) as Hibr.
    rewrite hpath_0 by lia. cbn [bind]. rewrite Ep1. cbn [bind]. rewrite hpath_1, Hx by lia. cbn [bind].
    destruct (fp_put_ok (ia + 1) leaves1 Hib L1) as (leaves2 & Ep2 & L2 & P2). rewrite Ep2. cbn [bind]. rewrite <- He2.
    assert (Hh : e / 2 = (ia + 1) / 2) by (rewrite He2; zmod (ia + 1); lia).
    destruct (first_sim_step rest' e (ia + 1) nr' leaves2 pmacc lo IHt (proj2 HS')) as (leavesF & E & EF & LF & PF & RF);
      try assumption; try lia.
    + intros k x Hin. destruct (Hes k x (or_intror (or_intror Hin))) as (A & B & _). split; [assumption|]. split; [assumption|].
      pose proof (Hgt k (in_map fst _ _ Hin)). cbn [fst] in *. lia.
    + intros k Hk Hl. destruct (Hcov k Hk ltac:(lia)) as [[= E1 _]|[[= E1 _]|Hin]]; [lia..|assumption].
    + rewrite EF. cbn [bind]. exists leavesF, E. split.
      { cbn [map]. rewrite Ee, (miss_of ia Hia), Hx by lia. unfold miss1.
        destruct (imap_ok_In _ _ _ IM Hib) as (j1 & ->). reflexivity. }
      split; [assumption|]. split; [|assumption].
      intros k j Ek [[x [[= <- <-]|[[= <- <-]|Hin]]]|Hold]; apply PF; try assumption.
      * right. apply P2; [assumption|]. right. apply P1; [assumption|]. left. reflexivity.
      * right. apply P2; [assumption|]. left. reflexivity.
      * left. eauto.
      * right. apply P2; [assumption|]. right. apply P1; [assumption|]. right. exact Hold.
  - (* the sibling of ia is not queried: it is the missing node of the pair *)
    pose proof (unmerged_notin ia _ ltac:(lia) HSk Em) as Hnot. pose proof (unmerged_rest_half ia _ ltac:(lia) HSk Em) as Hgt.
    rewrite fp_first_single by (assumption || lia).
    rewrite hpath_0 by lia. cbn [bind]. rewrite Ep1. cbn [bind]. rewrite hpath_1 by lia. cbn [bind]. rewrite <- He2.
    destruct (first_sim_step rest e ia nr' leaves1 pmacc lo IHr HS') as (leavesF & E & EF & LF & PF & RF); try assumption; try lia.
    + intros k x Hin. destruct (Hes k x (or_intror Hin)) as (A & B & _). split; [assumption|]. split; [assumption|].
      pose proof (Hgt k (in_map fst _ _ Hin)). cbn [fst] in *. zmod k. lia.
    + intros k Hk Hl. destruct (Hcov k Hk ltac:(lia)) as [[= E1 _]|Hin]; [lia|assumption].
    + rewrite EF. cbn [bind]. exists leavesF, E. split.
      { cbn [map]. rewrite Ee, (miss_of ia Hia) by lia. unfold miss1.
        destruct (bt_get (Z.lxor ia 1) imap) eqn:Ej1; [exfalso|reflexivity].
        apply (imap_ok_In_inv _ _ _ _ IM) in Ej1. apply Hnot.
        destruct (Hcov _ Ej1 ltac:(rewrite lxor1 by lia; lia)) as [[= E1 _]|Hin]; [destruct (lxor1_neq ia ltac:(lia) (eq_sym E1))|].
        exact (in_map fst _ _ Hin). }
      split; [assumption|]. split; [|assumption].
      intros k j Ek [[x [[= <- <-]|Hin]]|Hold]; apply PF; try assumption.
      * right. apply P1; [assumption|]. left. reflexivity.
      * left. eauto.
      * right. apply P1; [assumption|]. right. exact Hold.
Qed.

Lemma fp_first_sim : forall n es nr lo leaves pmacc, (length es <= n)%nat ->
  keys_sorted es ->
  (forall k x, In (k, x) es -> x = hpath k /\ In k indexes /\ lo <= k) ->
  (forall k, In k indexes -> lo <= k -> In (k, hpath k) es) ->
  0 <= lo -> lo mod 2 = 0 ->
  ssorted nr -> (forall e, In e nr <-> In e norm /\ lo <= e) ->
  length leaves = m -> keys_lt pmacc (lo / 2) ->
  exists leavesF E,
    fp_first imap es leaves pmacc = Ok (leavesF, map (miss D d0 t imap) nr, pmacc ++ E) /\
    length leavesF = m /\
    (forall k j, bt_get k imap = Some j ->
       ((exists x, In (k, x) es) \/ nth_error leaves (Z.to_nat j) = Some (leaf k)) ->
       nth_error leavesF (Z.to_nat j) = Some (leaf k)) /\
    Forall2 (rel 1) E (map (fun e => (e + N) / 2) nr).
Proof using WF Hd IM ND Hr.
  intros n es nr lo leaves pmacc _. apply first_sim_all.
Qed.

(* ---------------------------------------------------------------- upper levels *)
(* N / 2^sh is the first heap index of its row *)
Lemma off_facts sh : 1 <= sh < Z.of_nat d ->
  exists off, N / 2 ^ sh = off /\ N / 2 ^ (sh + 1) = off / 2 /\ (off mod 2 = 0 /\ 2 <= off) /\ N = off * 2 ^ sh /\ 0 < 2 ^ sh.
Proof.
  intros H. assert (Hp : 0 < 2 ^ sh) by (apply p2_pos; lia).
  assert (E : N = 2 ^ (Z.of_nat d - sh) * 2 ^ sh) by (unfold N; rewrite <- Z.pow_add_r by lia; f_equal; lia).
  assert (Q : N / 2 ^ sh = 2 ^ (Z.of_nat d - sh)) by (rewrite E; apply Z.div_mul; lia).
  exists (2 ^ (Z.of_nat d - sh)). split; [exact Q|]. split; [|split; [apply pow2_even; lia|split; assumption]].
  rewrite Z.pow_add_r, <- Z.div_div, Q by lia. reflexivity.
Qed.

Lemma lev_range sh a : 1 <= sh < Z.of_nat d -> lev (Z.of_nat d - sh) a -> 2 <= a < N.
Proof.
  intros Hsh La. split; [apply (lev_ge2 (Z.of_nat d - sh)); [lia|assumption]|].
  eapply Z.lt_le_trans; [apply La|]. apply p2_le_mono. lia.
Qed.

Lemma rel_nonneg sh ent a : 0 <= sh -> rel sh ent a -> 0 <= fst ent.
Proof. intros Hsh (_ & i & Hi & _ & ->). apply Z.div_pos; [lia|apply p2_pos; assumption]. Qed.

(* the entry of a node is the entry of its parent one level up ... *)
Lemma rel_half sh ka pa a : 1 <= sh < Z.of_nat d -> rel sh (ka, pa) a -> rel (sh + 1) (ka / 2, pa) (a / 2).
Proof.
  intros Hsh [Ea (i0 & Hi0 & Epa & Eka)]. cbn [fst snd] in *.
  destruct (off_facts sh Hsh) as (off & Eo & Eo2 & [Hoe _] & _ & Hp). rewrite Eo in Ea. split; cbn [fst snd].
  - rewrite Eo2, Ea. apply div2_add_even. assumption.
  - exists i0. split; [assumption|]. split; [assumption|].
    rewrite Eka, Z.div_div by lia. f_equal. rewrite Z.pow_add_r by lia. reflexivity.
Qed.

(* ... and its path holds the node's sibling at the place from_paths reads *)
Lemma rel_sib sh ka pa a : 1 <= sh < Z.of_nat d -> rel sh (ka, pa) a -> idx pa (sh + 1) = Ok (hval (Z.lxor a 1)).
Proof.
  intros Hsh [Ea (i0 & Hi0 & Epa & Eka)]. cbn [fst snd] in *. subst pa.
  destruct (off_facts sh Hsh) as (off & Eo & _ & _ & HN & Hp). rewrite Eo in Ea.
  rewrite hpath_nth by lia. replace (sh + 1 - 1) with sh by lia.
  replace ((i0 + N) / 2 ^ sh) with a; [reflexivity|]. rewrite HN, Z.div_add by lia. lia.
Qed.

(* keys and heap indexes of a row differ by an even constant: one iteration of from_paths' level loop does on the
   entries what prove_batch's does on the heap indexes *)
Lemma fp_scan_rel sh ka pa a rest r i nodes npm : 1 <= sh < Z.of_nat d ->
  rel sh (ka, pa) a -> Forall2 (rel sh) rest r -> ssorted (a :: r) ->
  fp_scan (sh + 1) ((ka, pa) :: rest) i nodes npm =
  if merged a r then fp_scan (sh + 1) (tl rest) (i + 2) nodes (bt_insert (ka / 2) pa npm)
  else nodes1 <- push_at D nodes i (hval (Z.lxor a 1)) ;; fp_scan (sh + 1) rest (i + 1) nodes1 (bt_insert (ka / 2) pa npm).
Proof.
  intros Hsh Hrel HF [Hlt _]. pose proof (rel_sib sh ka pa a Hsh Hrel) as Es. pose proof (rel_nonneg sh _ _ ltac:(lia) Hrel) as Hk0.
  destruct Hrel as [Ea _]. cbn [fst] in *.
  destruct HF as [|[kb pb] b rest' r' [Eb _] _]; cbn [Merkle.fp_scan merged tl fst] in *; rewrite shiftr1, Es; [reflexivity|].
  pose proof (Hlt b (or_introl eq_refl)). rewrite are_siblings_lt by lia.
  replace (kb =? Z.lxor ka 1) with (b =? Z.lxor a 1); [destruct (b =? Z.lxor a 1); reflexivity|].
  destruct (off_facts sh Hsh) as (off & Eo & _ & [Hoe Ho2] & _). rewrite Ea, Eb, Eo, lxor1_add_even by lia.
  destruct (Z.eqb_spec (kb + off) (Z.lxor ka 1 + off)), (Z.eqb_spec kb (Z.lxor ka 1)); reflexivity || (exfalso; lia).
Qed.

(* one level of from_paths over the entries es simulates one level of prove_batch over the heap indexes I *)
Definition scan_sim (sh : Z) (I : list Z) : Prop := forall es i nodes npmacc nodes' next,
  Forall2 (rel sh) es I -> ssorted I -> (forall a, In a I -> lev (Z.of_nat d - sh) a) ->
  (forall ka pa, hd_error es = Some (ka, pa) -> keys_lt npmacc (ka / 2)) ->
  pb_scan (mt_nodes t) I i nodes = Ok (nodes', next) ->
  exists E, fp_scan (sh + 1) es i nodes npmacc = Ok (nodes', npmacc ++ E) /\ Forall2 (rel (sh + 1)) E next /\
            ssorted next /\ (forall b, In b next -> exists a, In a I /\ b = a / 2).

(* the part common to the two cases of a level: the entry of a goes one level up, in front of what the
   simulated rest r of the level I yields *)
Lemma scan_sim_step sh a ka pa r I res i nodes npmacc nodes' next :
  1 <= sh < Z.of_nat d -> scan_sim sh r -> rel sh (ka, pa) a -> Forall2 (rel sh) res r ->
  incl (a :: r) I -> ssorted r -> (forall c, In c I -> lev (Z.of_nat d - sh) c) -> (forall c, In c r -> a / 2 < c / 2) ->
  keys_lt npmacc (ka / 2) -> pb_scan (mt_nodes t) r i nodes = Ok (nodes', next) ->
  exists E, fp_scan (sh + 1) res i nodes (bt_insert (ka / 2) pa npmacc) = Ok (nodes', npmacc ++ E) /\
            Forall2 (rel (sh + 1)) E (a / 2 :: next) /\ ssorted (a / 2 :: next) /\
            (forall b, In b (a / 2 :: next) -> exists c, In c I /\ b = c / 2).
Proof.
  intros Hsh IH Hrel HF Hincl HS HL Hgt Hkl E. pose proof (rel_half sh ka pa a Hsh Hrel) as Hrel'.
  rewrite bt_insert_append by assumption.
  destruct (IH res i nodes (npmacc ++ [(ka / 2, pa)]) nodes' next HF HS) as (E' & EF & RF & SF & PF); [| |assumption|].
  - intros c Hc. apply HL, Hincl. right. assumption.
  - intros kc pc Hh. destruct HF as [|[kc' pc'] c ? ? Hrc _]; [discriminate|]. injection Hh as -> ->.
    pose proof (Hgt c (or_introl eq_refl)). destruct (rel_half sh kc pc c Hsh Hrc) as [Ec _], Hrel' as [Ea _]. cbn [fst] in Ec, Ea.
    apply keys_lt_app; [eapply keys_lt_mono; [eassumption|]|]; lia.
  - exists ((ka / 2, pa) :: E'). rewrite EF, <- app_assoc. split; [reflexivity|]. split; [constructor; assumption|]. split.
    + split; [|assumption]. intros b Hb. apply PF in Hb. destruct Hb as (c & Hc & ->). apply Hgt. assumption.
    + intros b [<-|Hb]; [exists a; split; [apply Hincl; left; reflexivity|reflexivity]|].
      apply PF in Hb. destruct Hb as (c & Hc & ->). exists c. split; [apply Hincl; right; assumption|reflexivity].
Qed.

Lemma scan_sim_all sh : 1 <= sh < Z.of_nat d -> forall I, scan_sim sh I.
Proof.
  intros Hsh. induction I as [|a r IH|a r Em IH] using scan_ind; intros es i nodes npmacc nodes' next HF HS HL Hkl E.
  - inversion HF; subst. cbn in E. injection E as <- <-.
    exists []. cbn. rewrite app_nil_r. split; [reflexivity|]. split; [constructor|]. split; [exact Logic.I|intros ? []].
  - (* a and its sibling: both entries are consumed, nothing is read *)
    inversion HF as [|[ka pa] a' es1 I1 Hrel HF1]; subst. inversion HF1 as [|entb b' res I2 Hrelb HFr]; subst.
    pose proof (lev_range sh a Hsh (HL a (or_introl eq_refl))) as Ha.
    rewrite pb_scan_unfold, merged_same in E. cbn [tl] in E.
    apply bind_Ok in E. destruct E as ([nodesF next'] & Er & E). injection E as <- <-.
    rewrite (fp_scan_rel sh ka pa a _ _ _ _ _ Hsh Hrel HF1 HS), merged_same. cbn [tl]. rewrite shiftr1, lxor1_div2 by lia.
    apply (scan_sim_step sh a ka pa r _ res (i + 2) nodes npmacc nodesF next' Hsh IH Hrel HFr); try assumption.
    + intros c [<-|Hc]; [left; reflexivity|right; right; assumption].
    + exact (proj2 (proj2 HS)).
    + apply merged_rest_half; [lia|assumption].
    + apply (Hkl ka pa). reflexivity.
  - (* a alone: its sibling is read from the path, resp. from the tree *)
    inversion HF as [|[ka pa] a' res I1 Hrel HFr]; subst.
    pose proof (lev_range sh a Hsh (HL a (or_introl eq_refl))) as Ha.
    rewrite pb_scan_unfold, Em in E.
    apply bind_Ok in E. destruct E as (x & Ex & E). apply bind_Ok in E. destruct E as (nodes1 & Epu & E).
    apply bind_Ok in E. destruct E as ([nodesF next'] & Er & E). injection E as <- <-.
    rewrite (idx_tn D d0 merge t d WF Hd) in Ex by (apply (sib_range D d0 merge t d WF Hd); fold N; lia). injection Ex as <-.
    rewrite (fp_scan_rel sh ka pa a _ _ _ _ _ Hsh Hrel HFr HS), Em, Epu. cbn [bind]. rewrite shiftr1, lxor1_div2 by lia.
    apply (scan_sim_step sh a ka pa r _ res (i + 1) nodes1 npmacc nodesF next' Hsh IH Hrel HFr); try assumption.
    + apply incl_refl.
    + exact (proj2 HS).
    + apply unmerged_rest_half; [lia|assumption|assumption].
    + apply (Hkl ka pa). reflexivity.
Qed.

Lemma fp_scan_sim sh : 1 <= sh < Z.of_nat d -> forall n es I i nodes npmacc nodes' next, (length es <= n)%nat ->
  Forall2 (rel sh) es I -> ssorted I -> (forall a, In a I -> lev (Z.of_nat d - sh) a) ->
  (forall ka pa, hd_error es = Some (ka, pa) -> keys_lt npmacc (ka / 2)) ->
  pb_scan (mt_nodes t) I i nodes = Ok (nodes', next) ->
  exists E, fp_scan (sh + 1) es i nodes npmacc = Ok (nodes', npmacc ++ E) /\ Forall2 (rel (sh + 1)) E next /\
            ssorted next /\ (forall b, In b next -> exists a, In a I /\ b = a / 2).
Proof using WF Hd indexes.
  intros Hsh n es I i nodes npmacc nodes' next _. apply (scan_sim_all sh Hsh I).
Qed.

Lemma fp_levels_sim : forall (k : nat) sh pm I nodes NF,
  1 <= sh -> sh + Z.of_nat k = Z.of_nat d ->
  Forall2 (rel sh) pm I -> ssorted I -> (forall a, In a I -> lev (Z.of_nat d - sh) a) ->
  pb_levels k (mt_nodes t) I nodes = Ok NF -> fp_levels k (sh + 1) pm nodes = Ok NF.
Proof.
  induction k as [|k IH]; intros sh pm I nodes NF Hsh Hk HF HS HL E.
  - cbn in *. assumption.
  - cbn [Merkle.pb_levels Merkle.fp_levels] in *. apply bind_Ok in E. destruct E as ([nodes1 next] & Es & E).
    destruct (scan_sim_all sh ltac:(lia) I pm 0 nodes [] nodes1 next HF HS HL) as (E' & EF & RF & SF & PF).
    + intros ka pa _ k0 x [].
    + assumption.
    + rewrite EF. cbn [bind app]. apply (IH (sh + 1) E' next); try assumption; try lia.
      intros b Hb. apply PF in Hb. destruct Hb as (a & Ha & ->).
      replace (Z.of_nat d - (sh + 1)) with (Z.of_nat d - sh - 1) by lia. apply lev_div2; [lia|apply HL; assumption].
Qed.

End From.

Lemma map_indexes_mi_loop idx dz imap : map_indexes idx dz = Ok imap -> mi_loop (2 ^ dz) idx 0 [] = Ok imap.
Proof.
  unfold map_indexes. destruct (64 <=? dz); [discriminate|]. intros E. apply bind_Ok in E. destruct E as (m & Em & E).
  destruct (negb _); [discriminate|]. injection E as <-. assumption.
Qed.

Section FromTop.
Variable D : Type.
Variable D_eqb : D -> D -> bool.
Hypothesis D_eqb_spec : forall a b, D_eqb a b = true <-> a = b.
Variable d0 : D.
Variable merge : D -> D -> D.
Variable t : mtree D.
Variable d : nat.
Hypothesis WF : wf_tree D d0 merge d t.
Hypothesis Hd : (d <= 62)%nat.
Let N := 2 ^ Z.of_nat d.

Notation hpath := (hpath D d0 t d).

Definition pm_of (idx : list Z) (m : bmap (list D)) : bmap (list D) :=
  fold_left (fun m i => bt_insert i (hpath i) m) idx m.

Lemma fp_map_ok : forall idx m, fp_map D (Z.of_nat d + 1) idx (map hpath idx) m = Ok (pm_of idx m).
Proof.
  induction idx as [|i r IH]; intros m; [reflexivity|]. change (pm_of (i :: r) m) with (pm_of r (bt_insert i (hpath i) m)). cbn [map Merkle.fp_map].
  rewrite (hpath_len D d0 t d), Z.eqb_refl. cbn [negb]. apply IH.
Qed.

Lemma pm_of_sorted : forall idx m, keys_sorted m -> keys_sorted (pm_of idx m).
Proof.
  induction idx as [|i r IH]; intros m H; [assumption|]. change (pm_of (i :: r) m) with (pm_of r (bt_insert i (hpath i) m)).
  apply IH. apply bt_insert_sorted. assumption.
Qed.

Lemma pm_of_get : forall idx m k,
  (In k idx -> bt_get k (pm_of idx m) = Some (hpath k)) /\ (~ In k idx -> bt_get k (pm_of idx m) = bt_get k m).
Proof.
  induction idx as [|i r IH]; intros m k; [split; [intros []|reflexivity]|].
  change (pm_of (i :: r) m) with (pm_of r (bt_insert i (hpath i) m)).
  destruct (IH (bt_insert i (hpath i) m) k) as [A B]. split.
  - intros [<-|Hin]; [|auto]. destruct (in_dec Z.eq_dec i r) as [Hin|Hnin]; [auto|].
    rewrite (B Hnin). apply bt_get_insert_same.
  - intros Hn. rewrite B by (intros H; apply Hn; right; assumption).
    apply bt_get_insert_other. intros ->. apply Hn. left. reflexivity.
Qed.

(* from_paths applied to the individual paths, in the caller's order, is prove_batch *)
Theorem from_paths_of_proves_tree : forall indexes,
  indexes <> [] -> zlen indexes <= 255 -> NoDup indexes -> (forall i, In i indexes -> 0 <= i < N) ->
  exists p, mt_prove_batch D d0 t indexes = Ok p /\ from_paths D d0 (map hpath indexes) indexes = Ok p.
Proof.
  intros idx Hne Hlen ND Hr. pose proof (wf_d _ _ _ _ _ WF) as Hd1.
  pose proof (N_pos D d0 merge t d WF Hd : 2 <= N) as HN2. pose proof (N_even D d0 merge t d WF Hd : N mod 2 = 0) as HNe.
  destruct (prove_batch_shape D d0 merge t d WF Hd idx Hne Hlen ND Hr) as (imap & LF & NF & Emi & IM & LLF & PLF & Epl & Epb).
  eexists. split; [exact Epb|]. fold N in Epl.
  unfold Merkle.from_paths. destruct idx as [|i0 ir] eqn:Ei; [congruence|]. cbn [map].
  change (hpath i0 :: map hpath ir) with (map hpath (i0 :: ir)). rewrite <- Ei in *.
  set (norm := normalize_indexes idx) in *.
  unfold max_paths. assert (Hzl : zlen (map hpath idx) = zlen idx) by (unfold zlen; rewrite map_length; reflexivity).
  rewrite Hzl. destruct (Z.ltb_spec 255 (zlen idx)); [lia|]. rewrite Z.eqb_refl. cbn [negb].
  rewrite (hpath_len D d0 t d). rewrite fp_map_ok. cbn [bind].
  set (pm := pm_of idx []).
  assert (HpmS : keys_sorted pm) by (apply pm_of_sorted; exact Logic.I).
  assert (HpmIn : forall k x, In (k, x) pm -> x = hpath k /\ In k idx).
  { intros k x Hin. apply (bt_get_sorted_In _ _ _ HpmS) in Hin. destruct (pm_of_get idx [] k) as [A B]. fold pm in A, B.
    destruct (in_dec Z.eq_dec k idx) as [Hk|Hk]; [rewrite (A Hk) in Hin; injection Hin as <-; auto|].
    rewrite (B Hk) in Hin. discriminate. }
  assert (HpmCov : forall k, In k idx -> In (k, hpath k) pm).
  { intros k Hk. apply bt_get_In. apply (pm_of_get idx [] k). assumption. }
  (* the position map is map_indexes' map *)
  rewrite (fp_pos_mi_loop (2 ^ Z.of_nat d) idx (map hpath idx) 0 [] imap) by (try (rewrite map_length; reflexivity); apply map_indexes_mi_loop; assumption).
  destruct (fp_first_sim D d0 merge t d WF Hd idx imap IM ND Hr (length pm) pm norm 0 (repeat d0 (length (map hpath idx))) [])
    as (LFf & E & EF & LFl & PF & RF); try assumption; try lia; try reflexivity.
  - intros k x Hin. destruct (HpmIn k x Hin) as [A B]. split; [assumption|]. split; [assumption|]. apply Hr. assumption.
  - intros k Hk _. apply HpmCov. assumption.
  - apply normalize_sorted.
  - intros e. unfold norm. split; [intros He; split; [exact He|]|intros [He _]; exact He].
    apply (normalize_range idx N e HNe Hr He).
  - rewrite repeat_length, map_length. reflexivity.
  - intros k x [].
  - fold norm in EF. rewrite EF. cbn [bind app].
    assert (ELF : LFf = LF).
    { apply nth_error_ext. intros j. destruct (nth_error idx j) as [i|] eqn:Ej.
      - rewrite (PLF j i Ej). rewrite <- (Nat2Z.id j) at 1. apply (PF i (Z.of_nat j)).
        + apply IM. split; [lia|]. rewrite Nat2Z.id. assumption.
        + left. exists (hpath i). apply HpmCov. eapply nth_error_In. eassumption.
      - apply nth_error_None in Ej. rewrite (proj2 (nth_error_None LFf j)) by lia. rewrite (proj2 (nth_error_None LF j)) by lia. reflexivity. }
    subst LFf.
    replace (Z.to_nat (Z.of_nat d + 1 - 2)) with (pred d) by lia.
    assert (EL : fp_levels D (pred d) (1 + 1) E (map (miss D d0 t imap) norm) = Ok NF).
    { eapply (fp_levels_sim D d0 merge t d) with (I := map (fun e => (e + N) / 2) norm); try eassumption; try lia.
      - replace (map (fun e => (e + N) / 2) norm) with (map (fun e => (N + e) / 2) norm) by (apply map_ext; intros; f_equal; lia).
        apply ssorted_map_half; try lia; [apply normalize_sorted|].
        intros e He. destruct (normalize_range idx N e HNe Hr He) as (? & ? & ?). auto.
      - intros a Ha. apply in_map_iff in Ha. destruct Ha as (e & <- & He).
        destruct (normalize_range idx N e HNe Hr He) as (? & ? & ?). unfold lev.
        replace (Z.of_nat d - 1) with (Z.of_nat (pred d)) by lia. apply (leaf_parent_range D d0 merge t d WF Hd); assumption. }
    change (1 + 1) with 2 in EL. rewrite EL.
    cbn [bind]. destruct (Z.ltb_spec (Z.of_nat d + 1) 1); [lia|]. do 2 f_equal.
    replace (Z.of_nat d + 1 - 1) with (Z.of_nat d) by lia. apply Z.mod_small. lia.
Qed.

(* stated with the real prove: re-compressing the individual paths gives the batch opening *)
Theorem from_paths_of_proves : forall indexes,
  indexes <> [] -> zlen indexes <= 255 -> NoDup indexes -> (forall i, In i indexes -> 0 <= i < N) ->
  exists p paths, mapM (mt_prove D t) indexes = Ok paths /\ mt_prove_batch D d0 t indexes = Ok p /\
                  from_paths D d0 paths indexes = Ok p.
Proof.
  intros idx Hne Hlen ND Hr.
  destruct (from_paths_of_proves_tree idx Hne Hlen ND Hr) as (p & Ep & Ef).
  exists p, (map hpath idx). split; [|split; assumption].
  apply mapM_map. intros i Hi. apply (mt_prove_spec D d0 merge t d WF Hd). apply Hr. assumption.
Qed.

(* decompress then re-compress an honest batch opening, any order of the positions *)
Theorem from_into_roundtrip : forall indexes,
  indexes <> [] -> zlen indexes <= 255 -> NoDup indexes -> (forall i, In i indexes -> 0 <= i < N) ->
  exists p paths, mt_prove_batch D d0 t indexes = Ok p /\ into_paths D merge p indexes = Ok paths /\
                  from_paths D d0 paths indexes = Ok p.
Proof.
  intros idx Hne Hlen ND Hr.
  destruct (into_paths_spec_tree D D_eqb D_eqb_spec d0 merge t d WF Hd idx Hne Hlen ND Hr) as (p & Ep & Ei & _).
  destruct (from_paths_of_proves_tree idx Hne Hlen ND Hr) as (p' & Ep' & Ef).
  rewrite Ep in Ep'. injection Ep' as <-. exists p, (map hpath idx). auto.
Qed.

End FromTop.
