(* C05 — binding of the opened FRI layer values: two openings of the same commitment at the same indexes that
   differ in a value yield an explicit collision — of hash_elements (two different rows with the same digest,
   found by [find_row_collision]) or of the Merkle authentication function.  The latter is a Section hypothesis
   about the abstract authentication function. *)
From Coq Require Import List Arith Bool Lia.
From VBase Require Import FieldOps.
From VModel Require Import Fri.
From VProofs Require Import FriAccept.
Import ListNotations.

Section Binding.
Context {F : Type} (O : FOps F) (L : FLaws O).
Variable D : Type.
Variable hash_elements : list F -> D.
Variable MN : Type.
Variable mt_verify_batch : D -> list nat -> list D -> MN -> nat -> auth_res.

(* Merkle binding, stated for the abstract authentication function: two batch openings of the same root at the
   same indexes, of the SAME depth d >= 1 and with the same number of leaves, claim the same leaves, or an explicit
   collision is computed.  (For independent depths the statement is false of a Merkle tree: an internal node can be
   presented as a leaf of a shallower tree; in FRI the depth is fixed by the verifier: it is log2 of the layer's
   domain size, see [parse_layer_leaves].)  The index lists are `list nat`, so the usize guard of
   C10_batch_binding_two holds by construction.  Discharged for the Merkle model of C10 in Proofs/FriMerkleInst.v. *)
Variable coll : Type.
Variable find_merkle_collision : D -> list nat -> list D * MN * nat -> list D * MN * nat -> option coll.
Variable is_merkle_collision : coll -> Prop.
Hypothesis merkle_binding : forall root indexes l1 n1 l2 n2 d,
  1 <= d ->
  mt_verify_batch root indexes l1 n1 d = AuthOk -> mt_verify_batch root indexes l2 n2 d = AuthOk ->
  length l1 = length l2 ->
  l1 = l2 \/ exists c, find_merkle_collision root indexes (l1, n1, d) (l2, n2, d) = Some c /\ is_merkle_collision c.

(* first pair of different rows *)
Fixpoint find_row_collision (rows1 rows2 : list (list F)) : option (list F * list F) :=
  match rows1, rows2 with
  | r1 :: t1, r2 :: t2 => if list_feqb O r1 r2 then find_row_collision t1 t2 else Some (r1, r2)
  | _, _ => None
  end.

Lemma rows_binding : forall rows1 rows2, length rows1 = length rows2 ->
  map hash_elements rows1 = map hash_elements rows2 ->
  rows1 = rows2 \/
  exists r1 r2, find_row_collision rows1 rows2 = Some (r1, r2) /\ r1 <> r2 /\ hash_elements r1 = hash_elements r2.
Proof.
  induction rows1 as [|r1 t1 IH]; destruct rows2 as [|r2 t2]; cbn; try discriminate; [auto|].
  intros [= Hl] [= Hh Ht].
  destruct (list_feqb O r1 r2) eqn:E.
  - apply (list_feqb_spec O L) in E. subst r2.
    destruct (IH t2 Hl Ht) as [->|H]; [left; reflexivity | right; exact H].
  - right. exists r1, r2. split; [reflexivity|]. split; [|assumption].
    intros ->. rewrite (proj2 (list_feqb_spec O L _ _) eq_refl) in E. discriminate.
Qed.

(* FriProofLayer::parse recomputes the leaves of the batch proof from the opened values *)
Lemma parse_layer_leaves N ds pl q leaves nodes d :
  parse_layer D hash_elements MN N ds pl = Some (Some (q, (leaves, nodes, d))) ->
  q = pl_values pl /\ nodes = pl_nodes pl /\
  leaves = map hash_elements (chunks (length (pl_values pl)) N (pl_values pl)) /\
  group_slice N q = Ok (chunks (length (pl_values pl)) N (pl_values pl)) /\
  (* the depth at which the opening is checked is fixed by the layer's domain size *)
  d = Nat.log2 ds /\ 1 <= d.
Proof.
  unfold parse_layer, group_slice.
  destruct (N =? 0); [discriminate|].
  destruct (length (pl_values pl) mod N =? 0) eqn:Em; cbn [negb]; [|discriminate].
  destruct (length (pl_values pl) / N =? 0); [discriminate|].
  destruct (ds =? 0); [discriminate|].
  destruct (Nat.log2 ds =? 0) eqn:Ed; [discriminate|].
  destruct (255 <? _); [discriminate|].
  intros [= <- <- <- <-]. rewrite Em. cbn. apply Nat.eqb_neq in Ed. repeat split; auto. lia.
Qed.

(* fri_binding: two decoded proof layers, both parsed by the channel, both authenticating against the same layer
   commitment at the same indexes, opening the same number of rows: the opened rows are identical, or
   [find_row_collision] returns two different rows with the same digest, or a Merkle collision is exhibited *)
Theorem fri_binding : forall N ds pl1 pl2 q1 q2 l1 l2 n1 n2 d1 d2 commitment indexes,
  parse_layer D hash_elements MN N ds pl1 = Some (Some (q1, (l1, n1, d1))) ->
  parse_layer D hash_elements MN N ds pl2 = Some (Some (q2, (l2, n2, d2))) ->
  mt_verify_batch commitment indexes l1 n1 d1 = AuthOk ->
  mt_verify_batch commitment indexes l2 n2 d2 = AuthOk ->
  length l1 = length l2 ->
  exists rows1 rows2, group_slice N q1 = Ok rows1 /\ group_slice N q2 = Ok rows2 /\
    (rows1 = rows2 \/
     (exists r1 r2, find_row_collision rows1 rows2 = Some (r1, r2) /\ r1 <> r2 /\ hash_elements r1 = hash_elements r2) \/
     (exists c, find_merkle_collision commitment indexes (l1, n1, d1) (l2, n2, d2) = Some c /\ is_merkle_collision c)).
Proof.
  intros N ds pl1 pl2 q1 q2 l1 l2 n1 n2 d1 d2 commitment indexes P1 P2 A1 A2 Hlen.
  apply parse_layer_leaves in P1. destruct P1 as [-> [-> [-> [G1 [-> Hd]]]]].
  apply parse_layer_leaves in P2. destruct P2 as [-> [-> [-> [G2 [-> _]]]]].
  eexists. eexists. split; [exact G1|]. split; [exact G2|].
  destruct (merkle_binding _ _ _ _ _ _ _ Hd A1 A2 Hlen) as [E|C].
  - rewrite !map_length in Hlen. destruct (rows_binding _ _ Hlen E) as [R|R]; auto.
  - right. right. exact C.
Qed.

End Binding.
