(* C09/C14: the four-step ("split radix") FFT of math/src/fft/concurrent.rs equals fft_in_place (same bit-reversed
   output), for n = 4^k and n = 2*4^k, every k >= 1, any field with FLaws.  Not a simulation: the row transforms are
   replaced by their specification (fft_in_place_spec + brfft_dft: DFT in bit-reversed order on strided
   subsequences), the data movement by the index characterisation of the transposition, and the algebra is the
   radix decimation identity  P(y) = sum_m y^m P_m(y^Ou)  (`peval_radix`) with y = w^(a + I b). *)
From Coq Require Import List Arith Bool ZArith Lia Ring Field.
From VBase Require Import FieldOps.
From VModel Require Import FFT FFTSplit.
From VProofs Require Import FieldFacts ListFacts Pow2Facts FFTSpec FFTRefine FFTEval FFTOffset.
Import ListNotations.

(* the size arithmetic of split_radix_fft for n = 4^(K+1) (s = 0) and n = 2 * 4^(K+1) (s = 1):
   inner_len = 2^(K+1), outer_len = 2^(K+1+s), stretch = 2^s *)
Lemma split_sizes K s n : s <= 1 -> n = 2 ^ (S K + S K + s) ->
  Nat.log2 n / 2 = S K /\ n / 2 ^ S K = 2 ^ (S K + s) /\ 2 ^ (S K + s) / 2 ^ S K = 2 ^ s /\
  n = 2 ^ S K * 2 ^ S K * 2 ^ s.
Proof.
  intros Hs ->. pose proof (pow2_pos (S K)) as HI.
  assert (Hn : 2 ^ (S K + S K + s) = 2 ^ S K * 2 ^ S K * 2 ^ s) by (rewrite !Nat.pow_add_r; reflexivity).
  split; [rewrite log2_pow2; symmetry; apply Nat.div_unique with s; lia|].
  split; [rewrite Hn, Nat.pow_add_r, <- Nat.mul_assoc, Nat.mul_comm; apply Nat.div_mul; lia|].
  split; [rewrite Nat.pow_add_r, Nat.mul_comm; apply Nat.div_mul; lia | exact Hn].
Qed.

Section SplitProof.
Context {F : Type} (O : FOps F) (L : FLaws O).
Add Ring Fring5 : (FLaws_ring_theory O L).

Local Notation fz := (fzero O).
Local Notation f1 := (fone O).
Local Infix "+f" := (fadd O) (at level 50, left associativity).
Local Infix "*f" := (fmul O) (at level 40, left associativity).
Local Notation peval := (peval O).
Local Notation fpow := (fpow O).
Local Notation sub := (sub O).

(* ---------------------------------------------------------------- rows *)
Lemma rows_of_eq (v : list F) Ln R : 0 < Ln -> length v = R * Ln ->
  rows_of v Ln = map (fun r => firstn Ln (skipn (r * Ln) v)) (seq 0 R).
Proof. intros HL Hl. unfold rows_of. rewrite Hl, Nat.div_mul by lia. reflexivity. Qed.

Lemma row_nth (v : list F) Ln r m : m < Ln -> nth m (firstn Ln (skipn (r * Ln) v)) fz = nth (r * Ln + m) v fz.
Proof. intros Hm. rewrite nth_firstn_lt by exact Hm. apply nth_skipn. Qed.

Lemma row_length (v : list F) Ln R r : length v = R * Ln -> r < R -> length (firstn Ln (skipn (r * Ln) v)) = Ln.
Proof. intros Hl Hr. rewrite firstn_length, skipn_length, Hl. nia. Qed.

(* ---------------------------------------------------------------- transposition, by indices *)
Lemma transpose_spec_length I st (x : list F) : length (transpose_spec O I st x) = length x.
Proof. unfold transpose_spec. rewrite map_length, seq_length. reflexivity. Qed.

Lemma transpose_spec_nth I st (x : list F) r c e :
  length x = I * I * st -> r < I -> c < I -> e < st ->
  nth ((r * I + c) * st + e) (transpose_spec O I st x) fz = nth ((c * I + r) * st + e) x fz.
Proof.
  intros Hl Hr Hc He. unfold transpose_spec.
  assert (Hcell : r * I + c + 1 <= I * I) by nia.
  assert (Hpos : (r * I + c + 1) * st <= I * I * st) by (apply Nat.mul_le_mono_r; exact Hcell).
  rewrite nth_map_seq by (rewrite Hl; lia).
  assert (E1 : ((r * I + c) * st + e) / st = r * I + c) by (symmetry; apply Nat.div_unique with e; lia).
  assert (E2 : ((r * I + c) * st + e) mod st = e) by (symmetry; apply Nat.mod_unique with (r * I + c); lia).
  assert (E3 : (r * I + c) mod I = c) by (symmetry; apply Nat.mod_unique with r; lia).
  assert (E4 : (r * I + c) / I = r) by (symmetry; apply Nat.div_unique with c; lia).
  rewrite E1, E2, E3, E4. reflexivity.
Qed.

(* ---------------------------------------------------------------- algebra: radix-Ou decimation *)
Lemma peval_map_zero : forall (l : list nat) y, peval (map (fun _ => fz) l) y = fz.
Proof. induction l; intros; cbn [map FFT.peval]; [reflexivity | rewrite IHl; ring]. Qed.

Lemma peval_map_lin (f g : nat -> F) c : forall (l : list nat) y,
  peval (map (fun m => f m +f c *f g m) l) y = peval (map f l) y +f c *f peval (map g l) y.
Proof. induction l; intros; cbn [map FFT.peval]; [ring | rewrite IHl; ring]. Qed.

Lemma firstn_as_map (x : list F) n : n <= length x -> firstn n x = map (fun m => nth m x fz) (seq 0 n).
Proof.
  intros Hn. apply nth_ext with (d := fz) (d' := fz).
  - rewrite firstn_length, map_length, seq_length. lia.
  - rewrite firstn_length. intros m Hm. rewrite nth_firstn_lt by lia. rewrite nth_map_seq by lia. reflexivity.
Qed.

(* P(y) = sum_{m < Ou} y^m * P_m(y^Ou),  P_m = the stride-Ou subsequence starting at m; as one peval *)
Lemma peval_radix Ou : forall I (x : list F) y, length x = Ou * I ->
  peval x y = peval (map (fun m => peval (sub x m Ou I) (fpow y Ou)) (seq 0 Ou)) y.
Proof.
  induction I as [|I IH]; intros x y Hl.
  - rewrite Nat.mul_0_r in Hl. destruct x; [|discriminate]. cbn [FFT.peval].
    unfold FFTRefine.sub. cbn [seq map FFT.peval]. rewrite peval_map_zero. reflexivity.
  - rewrite <- (firstn_skipn Ou x) at 1. rewrite (FieldFacts.peval_app O L).
    assert (Hlf : length (firstn Ou x) = Ou) by (rewrite firstn_length, Hl; nia).
    assert (Hlr : length (skipn Ou x) = Ou * I) by (rewrite skipn_length, Hl; nia).
    rewrite Hlf, (IH (skipn Ou x) y Hlr).
    rewrite (firstn_as_map x Ou) by (rewrite Hl; nia).
    rewrite <- (peval_map_lin (fun m => nth m x fz) (fun m => peval (sub (skipn Ou x) m Ou I) (fpow y Ou)) (fpow y Ou)).
    f_equal. apply map_ext. intros m.
    unfold FFTRefine.sub. cbn [seq map FFT.peval]. rewrite <- seq_shift, map_map.
    replace (m + Ou * 0) with m by lia. f_equal. f_equal. f_equal.
    apply map_ext. intros q. rewrite nth_skipn. f_equal. lia.
Qed.

Lemma scale_row_eq (row : list F) u : scale_row O row u = shift_by_series O row f1 u.
Proof.
  destruct row as [|h t]; [reflexivity|]. cbn [scale_row shift_by_series]. f_equal; [ring|].
  f_equal. ring.
Qed.

(* ---------------------------------------------------------------- the four steps
   x is read as I rows of I cells of st elements; Ou = I * st is the row length.  P_m = sub x m Ou I. *)

(* step 1, first transposition: the stride-st subsequences of row r are the stride-Ou subsequences of x *)
Lemma transpose_row_sub I st (x : list F) r j : length x = I * I * st -> r < I -> j < st ->
  sub (firstn (I * st) (skipn (r * (I * st)) (transpose_spec O I st x))) j st I = sub x (r * st + j) (I * st) I.
Proof.
  intros Hl Hr Hj. unfold FFTRefine.sub. apply map_ext_in. intros c Hc. apply in_seq in Hc.
  rewrite row_nth by nia.
  replace (r * (I * st) + (j + st * c)) with ((r * I + c) * st + j) by lia.
  rewrite transpose_spec_nth by (try assumption; lia).
  f_equal. lia.
Qed.

(* step 2, fft_in_place with count = stride on one row: every stride-st subsequence is transformed *)
Lemma strided_fft tw K wI fuel (row : list F) st :
  K <= fuel -> 0 < st -> length row = 2 ^ S K * st -> root_cond O (S K) wI -> tw_ok O tw (S K) wI ->
  length (fft_in_place O fuel row tw st st 0) = length row /\
  forall j q, j < st -> q < 2 ^ S K ->
    nth (j + st * q) (fft_in_place O fuel row tw st st 0) fz = peval (sub row j st (2 ^ S K)) (fpow wI (rev_bits (S K) q)).
Proof.
  intros Hf Hst Hl Hw Ht.
  destruct (fft_in_place_spec O tw K fuel row st st 0 Hf Hst Hl (le_n _)) as [La Na].
  split; [exact La|]. intros j q Hj Hq.
  rewrite (Na j q Hj Hq), (proj2 (in_rng_spec 0 st j)) by lia.
  apply (brfft_dft O L tw (S K) wI); try assumption. apply sub_length.
Qed.

(* step 3, second transposition, of a concatenation of I rows: element c * st + e of row r comes from row c *)
Lemma transpose_concat_row I st (f : nat -> list F) r m :
  (forall c, c < I -> length (f c) = I * st) -> r < I -> m < I * st ->
  nth m (firstn (I * st) (skipn (r * (I * st)) (transpose_spec O I st (concat (map f (seq 0 I)))))) fz
  = nth (m mod st + st * r) (f (m / st)) fz.
Proof.
  intros Hf Hr Hm.
  destruct (concat_map_seq fz f I (I * st) Hf) as [Lc Nc].
  destruct (idx_split m I st Hm) as (Hdm & Hc & He).
  rewrite row_nth by exact Hm.
  replace (r * (I * st) + m) with ((r * I + m / st) * st + m mod st) by lia.
  rewrite transpose_spec_nth by (try assumption; rewrite Lc; lia).
  replace ((m / st * I + r) * st + m mod st) with (m / st * (I * st) + (m mod st + st * r)) by lia.
  apply Nc; [exact Hc | nia].
Qed.

(* steps 1-3: afterwards row r holds P_m((w^Ou)^rev r), m < Ou *)
Lemma column_ffts tw K wI st (x : list F) :
  0 < st -> length x = 2 ^ S K * 2 ^ S K * st -> root_cond O (S K) wI -> tw_ok O tw (S K) wI ->
  let I := 2 ^ S K in
  let v1 := transpose_spec O I st x in
  let v2 := concat (map (fun c => fft_in_place O (length (firstn (I * st) (skipn (c * (I * st)) v1)))
                                    (firstn (I * st) (skipn (c * (I * st)) v1)) tw st st 0) (seq 0 I)) in
  length v2 = I * I * st /\
  forall r, r < I -> firstn (I * st) (skipn (r * (I * st)) (transpose_spec O I st v2))
                     = map (fun m => peval (sub x m (I * st) I) (fpow wI (rev_bits (S K) r))) (seq 0 (I * st)).
Proof.
  intros Hst Hl Hw Ht I v1.
  set (f2 := fun c => fft_in_place O (length (firstn (I * st) (skipn (c * (I * st)) v1)))
                        (firstn (I * st) (skipn (c * (I * st)) v1)) tw st st 0).
  intros v2.
  assert (Lv1 : length v1 = I * (I * st)) by (unfold v1; rewrite transpose_spec_length, Hl; lia).
  assert (Hf2 : forall c, c < I ->
            length (f2 c) = I * st /\
            forall j q, j < st -> q < I ->
              nth (j + st * q) (f2 c) fz = peval (sub x (c * st + j) (I * st) I) (fpow wI (rev_bits (S K) q))).
  { intros c Hc. unfold f2.
    assert (Lrow := row_length v1 (I * st) I c Lv1 Hc). rewrite Lrow.
    destruct (strided_fft tw K wI (I * st) (firstn (I * st) (skipn (c * (I * st)) v1)) st) as [La Na];
      try assumption.
    { pose proof (Nat.pow_gt_lin_r 2 (S K)). unfold I. nia. }
    split; [rewrite La; exact Lrow|].
    intros j q Hj Hq. rewrite (Na j q Hj Hq). unfold v1. rewrite transpose_row_sub by assumption. reflexivity. }
  destruct (concat_map_seq fz f2 I (I * st) (fun c Hc => proj1 (Hf2 c Hc))) as [L2 _]. fold v2 in L2.
  assert (Lv3 : length (transpose_spec O I st v2) = I * (I * st)) by (rewrite transpose_spec_length; exact L2).
  split; [rewrite L2; lia|]. intros r Hr.
  apply nth_ext with (d := fz) (d' := fz); rewrite (row_length _ (I * st) I r Lv3 Hr);
    [rewrite map_length, seq_length; reflexivity|].
  intros m Hm. rewrite nth_map_seq by exact Hm.
  unfold v2. rewrite (transpose_concat_row I st f2 r m (fun c Hc => proj1 (Hf2 c Hc)) Hr Hm).
  destruct (idx_split m I st Hm) as (Hdm & Hc & He).
  destruct (Hf2 _ Hc) as [_ Nf]. rewrite (Nf _ _ He Hr), <- Hdm. reflexivity.
Qed.

(* step 4, outer twiddles of row r: the running product of the code is the series (w^rev r)^m, also for r = 0 *)
Lemma outer_twiddle_row k w (row : list F) r :
  (if 0 <? r then scale_row O row (fpow_N O w (N.of_nat (permute_index (2 ^ k) r))) else row)
  = shift_by_series O row f1 (fpow w (rev_bits k r)).
Proof.
  destruct (Nat.ltb_spec 0 r) as [Hr | Hr].
  - rewrite scale_row_eq, permute_index_spec, (fpow_N_spec O L). reflexivity.
  - replace r with 0 by lia. rewrite rev_bits_0. symmetry. apply (shift_by_series_one O L).
Qed.

(* step 4, the transform of a twiddled row *)
Lemma twiddled_fft_nth tw k wO (row : list F) u q :
  length row = 2 ^ S k -> root_cond O (S k) wO -> tw_ok O tw (S k) wO -> q < 2 ^ S k ->
  nth q (fft_in_place_top O (shift_by_series O row f1 u) tw) fz = peval row (u *f fpow wO (rev_bits (S k) q)).
Proof.
  intros Hl Hw Ht Hq.
  assert (Lr : length (shift_by_series O row f1 u) = 2 ^ S k) by (rewrite (shift_by_series_length O); exact Hl).
  rewrite (fft_in_place_top_brfft O tw k _ Lr), (brfft_dft O L tw (S k) wO _ q Lr Hw Ht Hq).
  rewrite (peval_shift_by_series O L). ring.
Qed.

(* the value it produces: peval_radix at y = w^(a + I b), where y^Ou = (w^Ou)^a because w^(I Ou) = 1 *)
Lemma four_step_point I Ou w (x : list F) a b : length x = Ou * I -> fpow w (I * Ou) = f1 ->
  peval (map (fun m => peval (sub x m Ou I) (fpow (fpow w Ou) a)) (seq 0 Ou)) (fpow w a *f fpow (fpow w I) b)
  = peval x (fpow w (a + I * b)).
Proof.
  intros Hl Hwn. set (y := fpow w (a + I * b)).
  assert (Ey : fpow w a *f fpow (fpow w I) b = y) by (unfold y; rewrite (fpow_add O L), (fpow_mul O L); reflexivity).
  assert (EyO : fpow (fpow w Ou) a = fpow y Ou).
  { unfold y. rewrite <- !(fpow_mul O L).
    replace ((a + I * b) * Ou) with (Ou * a + (I * Ou) * b) by lia.
    rewrite (fpow_add O L), (fpow_mul O L w (I * Ou) b), Hwn, (fpow_one O L). ring. }
  rewrite Ey, EyO. symmetry. apply peval_radix, Hl.
Qed.

(* rows holding the values at w^(rev r + I rev q), concatenated, are the DFT in bit-reversed order *)
Lemma rows_are_brfft tw kI kO w (x : list F) (f : nat -> list F) :
  length x = 2 ^ (kO + kI) -> root_cond O (kO + kI) w -> tw_ok O tw (kO + kI) w ->
  (forall r, r < 2 ^ kI ->
     length (f r) = 2 ^ kO /\
     forall q, q < 2 ^ kO -> nth q (f r) fz = peval x (fpow w (rev_bits kI r + 2 ^ kI * rev_bits kO q))) ->
  concat (map f (seq 0 (2 ^ kI))) = brfft O tw (kO + kI) x.
Proof.
  intros Hl Hw Ht Hf.
  destruct (concat_map_seq fz f (2 ^ kI) (2 ^ kO) (fun r Hr => proj1 (Hf r Hr))) as [Lc Nc].
  assert (Hn : 2 ^ (kO + kI) = 2 ^ kI * 2 ^ kO) by (rewrite Nat.pow_add_r; lia).
  apply nth_ext with (d := fz) (d' := fz); [rewrite Lc, brfft_length by exact Hl; symmetry; exact Hn|].
  rewrite Lc. intros p Hp.
  rewrite (brfft_dft O L tw (kO + kI) w x p Hl Hw Ht) by (rewrite Hn; exact Hp).
  destruct (idx_split p _ _ Hp) as (Hdm & Hr & Hq).
  set (r := p / 2 ^ kO) in *. set (q := p mod 2 ^ kO) in *.
  rewrite Hdm, Nc by assumption.
  destruct (Hf r Hr) as [_ Nf]. rewrite (Nf q Hq), rev_bits_concat by exact Hq. reflexivity.
Qed.

(* ---------------------------------------------------------------- the four-step algorithm = fft_in_place *)
Theorem split_radix_spec_tr_is_fft tw K s w (x : list F) :
  s <= 1 ->
  length x = 2 ^ (S K + S K + s) -> length tw = 2 ^ (S K + K + s) ->
  tw_ok O tw (S K + S K + s) w -> root_cond O (S K + S K + s) w ->
  split_radix_fft_spec_tr O x tw = Some (fft_in_place_top O x tw).
Proof.
  intros Hs Hl Hlt Ht Hw.
  destruct (split_sizes K s (length x) Hs Hl) as (Elog & Eout & Estr & Hn).
  (* g = twiddles[len/2] = w *)
  assert (Hg : vget O tw (length tw / 2) = w).
  { rewrite Hlt. change (S K + K + s) with (S (K + K + s)). rewrite half_pow2.
    apply (tw_ok_mid O L). replace (S (S (K + K + s))) with (S K + S K + s) by lia. exact Ht. }
  unfold split_radix_fft_spec_tr, split_radix_fft_with.
  rewrite Elog, Eout, Estr, Hg, (proj2 (Nat.eqb_eq _ _) Hn). cbn [negb].
  set (I := 2 ^ S K) in *. set (st := 2 ^ s) in *.
  assert (HOu : 2 ^ (S K + s) = I * st) by apply Nat.pow_add_r.
  assert (HO : 0 < I * st) by (rewrite <- HOu; apply pow2_pos).
  (* the roots of the row transforms: w^Ou of order I, w^I of order Ou *)
  assert (Ek : S K + S K + s = S K + s + S K) by lia.
  rewrite Ek in Hl, Ht, Hw.
  pose proof (root_cond_pow O L (S K) (S K + s) w Hw) as HwO.
  pose proof (tw_ok_pow O L tw (S K) (S K + s) w Ht) as HtO.
  assert (HwI : root_cond O (S K) (fpow w (2 ^ (S K + s)))) by (apply (root_cond_pow O L); rewrite Nat.add_comm; exact Hw).
  assert (HtI : tw_ok O tw (S K) (fpow w (2 ^ (S K + s)))) by (apply (tw_ok_pow O L); rewrite Nat.add_comm; exact Ht).
  assert (Hwn : fpow w (I * 2 ^ (S K + s)) = f1).
  { unfold I. rewrite <- Nat.pow_add_r, Nat.add_comm. apply (root_cond_one O L), Hw. }
  fold I in HwO, HtO. rewrite HOu in *.
  destruct (column_ffts tw K (fpow w (I * st)) st x (pow2_pos s) Hn HwI HtI) as [L2 Hrow3].
  fold I in L2, Hrow3.
  rewrite (rows_of_eq (transpose_spec O I st x) (I * st) I HO), map_map
    by (rewrite transpose_spec_length, Hn; lia).
  rewrite (proj2 (Nat.eqb_eq _ _) L2). cbn [negb].
  rewrite (rows_of_eq _ (I * st) I HO), combine_map_self, map_map by (rewrite transpose_spec_length, L2; lia).
  cbn [fst snd]. f_equal.
  rewrite (fft_in_place_top_brfft O tw (K + s + S K) x Hl).
  apply (rows_are_brfft tw (S K) (S K + s) w x); try assumption.
  intros r Hr. rewrite (outer_twiddle_row (S K)), (Hrow3 r Hr).
  split; [apply (fft_in_place_top_length O tw (K + s)); rewrite (shift_by_series_length O), map_length, seq_length; symmetry; exact HOu|].
  intros q Hq.
  rewrite (twiddled_fft_nth tw (K + s) (fpow w I)); try assumption; [| rewrite map_length, seq_length; symmetry; exact HOu].
  apply four_step_point; [rewrite Hn; lia | exact Hwn].
Qed.

End SplitProof.
