(* C10 — tree construction, single-path completeness, binding and totality. *)
From Coq Require Import ZArith List Bool Lia.
From VBase Require Import MachInt.
From VModel Require Import Merkle.
From VProofs Require Import MerkleBase.
Import ListNotations.
Open Scope Z_scope.

Section Single.
Variable D : Type.
Variable D_eqb : D -> D -> bool.
Hypothesis D_eqb_spec : forall a b, D_eqb a b = true <-> a = b.
Variable d0 : D.
Variable merge : D -> D -> D.

Notation mtree := (mtree D).
Notation mt_new := (mt_new D d0 merge).
Notation mt_prove := (mt_prove D).
Notation mt_root := (mt_root D).
Notation verify := (verify D D_eqb merge).
Notation verify_fold := (verify_fold D merge).
Notation prove_up := (prove_up D).
Notation pairs_merge := (pairs_merge D merge).
Notation build_down := (build_down D d0 merge).

Definition znth (l : list D) (i : Z) : D := nth (Z.to_nat i) l d0.

Lemma znth_cons a l i : 0 < i -> znth (a :: l) i = znth l (i - 1).
Proof. intros. unfold znth. replace (Z.to_nat i) with (S (Z.to_nat (i - 1))) by lia. reflexivity. Qed.

Lemma znth_0 a l : znth (a :: l) 0 = a.
Proof. reflexivity. Qed.

Lemma idx_znth (l : list D) i : 0 <= i < zlen l -> idx l i = Ok (znth l i).
Proof. intros. apply idx_Ok. assumption. Qed.

(* value of the node with heap index k: internal nodes 1..N-1, leaves N..2N-1 *)
Definition hval (t : mtree) (k : Z) : D :=
  if k <? zlen (mt_nodes t) then znth (mt_nodes t) k else znth (mt_leaves t) (k - zlen (mt_nodes t)).

(* the siblings of k, of its parent, ... : l of them *)
Definition sibs (t : mtree) (k : Z) (l : nat) : list D := map (fun j => hval t (Z.lxor (k / 2 ^ Z.of_nat j) 1)) (seq 0 l).

Lemma sibs_S t k l : sibs t k (S l) = hval t (Z.lxor k 1) :: sibs t (k / 2) l.
Proof.
  unfold sibs. cbn [seq map]. change (2 ^ Z.of_nat 0) with 1. rewrite Z.div_1_r. f_equal.
  rewrite <- seq_shift, map_map. apply map_ext. intros j.
  rewrite Nat2Z.inj_succ, Z.pow_succ_r, Z.div_div by (try apply p2_pos; lia). reflexivity.
Qed.

Lemma sibs_length t k l : length (sibs t k l) = l.
Proof. unfold sibs. rewrite map_length. apply seq_length. Qed.

Record wf_tree (d : nat) (t : mtree) : Prop := {
  wf_d : (1 <= d)%nat;
  wf_leaves : zlen (mt_leaves t) = 2 ^ Z.of_nat d;
  wf_nodes : zlen (mt_nodes t) = 2 ^ Z.of_nat d;
  wf_merge : forall k, 1 <= k < 2 ^ Z.of_nat d -> hval t k = merge (hval t (2 * k)) (hval t (2 * k + 1)) }.

(* ---------------------------------------------------------------- build_merkle_nodes *)
Lemma pairs_merge_length : forall l, (length (pairs_merge l) = Nat.div2 (length l))%nat.
Proof.
  fix IH 1. intros [|a [|b r]]; try reflexivity. simpl. f_equal. apply IH.
Qed.

Lemma pairs_merge_nth : forall l j, (2 * j + 1 < length l)%nat ->
  nth j (pairs_merge l) d0 = merge (nth (2 * j) l d0) (nth (2 * j + 1) l d0).
Proof.
  fix IH 1. intros [|a [|b r]] j H; simpl in H; try lia.
  destruct j as [|j]; [reflexivity|].
  replace (2 * S j)%nat with (S (S (2 * j))) by lia.
  replace (S (S (2 * j)) + 1)%nat with (S (S (2 * j + 1))) by lia.
  cbn [pairs_merge nth]. apply IH. lia.
Qed.

Section Build.
Variable leaves : list D.
Variable N : Z.

(* [acc] is nodes[i+1..N) as in Merkle.build_down: Hv reads heap index m from it (leaves from N on);
   G, the loop invariant, says every node already present is the merge of its two children *)
Definition Hv (i : Z) (acc : list D) (m : Z) : D :=
  if m <? N then znth acc (m - i - 1) else znth leaves (m - N).

Definition G (i : Z) (acc : list D) : Prop :=
  zlen acc = N - 1 - i /\
  forall j, i < j < N -> znth acc (j - i - 1) = merge (Hv i acc (2 * j)) (Hv i acc (2 * j + 1)).

Lemma build_down_inv : forall k i acc,
  Z.of_nat k = i -> 2 * i + 1 < N -> G i acc -> G 0 (build_down k i acc).
Proof.
  induction k as [|k IH]; intros i acc Hk Hi HG.
  - simpl. subst i. exact HG.
  - cbn [Merkle.build_down]. apply IH; [lia|lia|].
    destruct HG as [HL HJ]. assert (1 <= i) by lia.
    set (x := merge _ _).
    assert (HH : forall m, i < m -> Hv (i - 1) (x :: acc) m = Hv i acc m).
    { intros m Hm. unfold Hv. destruct (m <? N); [|reflexivity].
      rewrite znth_cons by lia. f_equal. lia. }
    split.
    + rewrite zlen_cons. lia.
    + intros j Hj. destruct (Z.eq_dec j i) as [->|Hne].
      * replace (i - (i - 1) - 1) with 0 by lia. rewrite znth_0.
        rewrite !HH by lia. unfold Hv.
        destruct (Z.ltb_spec (2 * i) N); [|lia]. destruct (Z.ltb_spec (2 * i + 1) N); [|lia].
        subst x. unfold znth. do 2 f_equal; f_equal; lia.
      * rewrite znth_cons by lia. replace (j - (i - 1) - 1 - 1) with (j - i - 1) by lia.
        rewrite !HH by lia. apply HJ. lia.
Qed.
End Build.

(* the equations of the node vector over 2n leaves, n a power of two or not *)
Lemma build_nodes_eqs leaves n : 0 < n -> zlen leaves = 2 * n ->
  G leaves (2 * n) 0 (build_down (Z.to_nat (n - 1)) (n - 1) (pairs_merge leaves)).
Proof.
  intros Hn HL. unfold zlen in HL. apply build_down_inv; [lia|lia|]. split.
  - unfold zlen. rewrite pairs_merge_length. replace (length leaves) with (2 * Z.to_nat n)%nat by lia. rewrite Nat.div2_double. lia.
  - intros j Hj. unfold Hv. destruct (Z.ltb_spec (2 * j) (2 * n)); [lia|]. destruct (Z.ltb_spec (2 * j + 1) (2 * n)); [lia|].
    unfold znth. rewrite pairs_merge_nth by lia. do 2 f_equal; lia.
Qed.

Theorem build_nodes_spec : forall leaves t,
  mt_new leaves = Ok t ->
  mt_leaves t = leaves /\ exists d, wf_tree d t.
Proof.
  intros leaves t. unfold Merkle.mt_new.
  destruct (Z.ltb_spec (zlen leaves) 2) as [|Hlen]; [discriminate|].
  destruct (is_pow2 (zlen leaves)) eqn:Hp; [|discriminate]. cbn [negb].
  unfold Merkle.build_nodes. set (N := zlen leaves) in *. set (n := N / 2).
  unfold is_pow2 in Hp. apply andb_prop in Hp. destruct Hp as [_ Hp]. apply Z.eqb_eq in Hp.
  set (dz := Z.log2 N) in *.
  assert (Hdz : 1 <= dz) by (apply Z.log2_le_pow2; lia).
  assert (HN : N = 2 * 2 ^ (dz - 1)).
  { rewrite Hp at 1. replace dz with (Z.succ (dz - 1)) at 1 by lia. rewrite Z.pow_succ_r by lia. reflexivity. }
  assert (Hn : n = 2 ^ (dz - 1)).
  { unfold n. rewrite HN. rewrite Z.mul_comm, Z.div_mul by lia. reflexivity. }
  assert (Hnpos : 0 < n) by (rewrite Hn; apply p2_pos; lia).
  assert (HN2 : N = 2 * n) by lia.
  destruct (Z.leb_spec (2 * n) 0); [lia|].
  cbn [bind]. intros [= <-]. cbn [mt_leaves mt_nodes]. split; [reflexivity|].
  exists (Z.to_nat dz).
  pose proof (build_nodes_eqs leaves n Hnpos HN2) as HG. rewrite <- HN2 in HG. destruct HG as [HL HJ].
  set (F := build_down _ _ _) in *.
  constructor; cbn [mt_leaves mt_nodes].
  - lia.
  - rewrite Z2Nat.id by lia. fold N. exact Hp.
  - rewrite Z2Nat.id by lia. rewrite zlen_cons. lia.
  - rewrite Z2Nat.id by lia. rewrite <- Hp. intros k Hk.
    assert (HZ : zlen (d0 :: F) = N) by (rewrite zlen_cons; lia).
    assert (HH : forall m, 1 <= m -> hval {| mt_nodes := d0 :: F; mt_leaves := leaves |} m = Hv leaves N 0 F m).
    { intros m Hm. unfold hval, Hv. cbn [mt_leaves mt_nodes]. rewrite HZ.
      destruct (m <? N); [|reflexivity]. rewrite znth_cons by lia. f_equal. lia. }
    rewrite !HH by lia. unfold Hv at 1. destruct (Z.ltb_spec k N); [|lia].
    rewrite <- HJ by lia. reflexivity.
Qed.

Lemma mt_new_too_few leaves : zlen leaves < 2 -> mt_new leaves = Err (TooFewLeaves 2 (zlen leaves)).
Proof. intros. unfold Merkle.mt_new. destruct (Z.ltb_spec (zlen leaves) 2); [reflexivity|lia]. Qed.

Lemma mt_new_not_pow2 leaves : 2 <= zlen leaves -> is_pow2 (zlen leaves) = false ->
  mt_new leaves = Err (NumberOfLeavesNotPowerOfTwo (zlen leaves)).
Proof. intros H P. unfold Merkle.mt_new. destruct (Z.ltb_spec (zlen leaves) 2); [lia|]. rewrite P. reflexivity. Qed.

Lemma mt_new_ok leaves (d : nat) : (1 <= d)%nat -> zlen leaves = 2 ^ Z.of_nat d -> exists t, mt_new leaves = Ok t.
Proof.
  intros Hd HL. unfold Merkle.mt_new.
  assert (2 <= zlen leaves).
  { rewrite HL. change 2 with (2 ^ 1) at 1. apply p2_le_mono. lia. }
  destruct (Z.ltb_spec (zlen leaves) 2); [lia|].
  assert (P : is_pow2 (zlen leaves) = true).
  { apply is_pow2_iff. exists (Z.of_nat d). split; [lia | exact HL]. }
  rewrite P. cbn [negb]. unfold Merkle.build_nodes.
  assert (2 <= 2 * (zlen leaves / 2)).
  { pose proof (Z.div_mod (zlen leaves) 2). pose proof (Z.mod_pos_bound (zlen leaves) 2). lia. }
  destruct (Z.leb_spec (2 * (zlen leaves / 2)) 0); [lia|]. cbn [bind]. eauto.
Qed.

(* ---------------------------------------------------------------- a well-formed tree: paths *)
Section Tree.
Variable t : mtree.
Variable d : nat.
Hypothesis WF : wf_tree d t.
Hypothesis Hd : (d <= 62)%nat.   (* a Vec holds at most isize::MAX elements *)
Set Default Proof Using "WF Hd".
Notation sibs := (sibs t).

Let N := 2 ^ Z.of_nat d.

Lemma N_pos : 2 <= N.
Proof. unfold N. change 2 with (2 ^ 1) at 1. apply p2_le_mono. pose proof (wf_d _ _ WF). lia. Qed.

Lemma N_even : N mod 2 = 0.
Proof.
  unfold N. pose proof (wf_d _ _ WF). destruct d as [|d']; [lia|]. rewrite p2_S.
  rewrite Z.mul_comm. apply Z.mod_mul. lia.
Qed.

Lemma N_small : 2 * N <= usz.
Proof.
  unfold N. rewrite usz_eq. change (2 ^ 64) with (2 * 2 ^ 63).
  assert (2 ^ Z.of_nat d <= 2 ^ 63) by (apply p2_le_mono; lia). lia.
Qed.

Lemma hval_node k : 0 <= k < N -> hval t k = znth (mt_nodes t) k.
Proof. intros. unfold hval. rewrite (wf_nodes _ _ WF). fold N. destruct (Z.ltb_spec k N); [reflexivity|lia]. Qed.

Lemma hval_leaf k : N <= k -> hval t k = znth (mt_leaves t) (k - N).
Proof. intros. unfold hval. rewrite (wf_nodes _ _ WF). fold N. destruct (Z.ltb_spec k N); [lia|reflexivity]. Qed.

Lemma root_hval : mt_root t = Ok (hval t 1).
Proof.
  unfold Merkle.mt_root. pose proof N_pos. rewrite idx_znth by (rewrite (wf_nodes _ _ WF); fold N; lia).
  rewrite hval_node by lia. reflexivity.
Qed.

Lemma climb_step k : 2 <= k < 2 * N ->
  (if Z.land k 1 =? 0 then merge (hval t k) (hval t (Z.lxor k 1)) else merge (hval t (Z.lxor k 1)) (hval t k))
  = hval t (k / 2).
Proof.
  intros Hk. zmod k.
  rewrite (wf_merge _ _ WF (k / 2)) by (fold N; lia).
  rewrite land1. destruct (mod2_cases k) as [E|E]; rewrite E.
  - cbn [Z.eqb]. rewrite lxor1_even by lia. do 2 f_equal; lia.
  - cbn [Z.eqb]. rewrite lxor1_odd by lia. do 2 f_equal; lia.
Qed.

(* folding a node of row l with its l siblings-on-the-way-up gives the root *)
Lemma fold_sibs : forall (l : nat) k, 2 ^ Z.of_nat l <= k < 2 ^ (Z.of_nat l + 1) -> 2 ^ Z.of_nat l <= N ->
  verify_fold (sibs k l) k (hval t k) = hval t 1.
Proof.
  induction l as [|l IH]; intros k Hk HN.
  - change (2 ^ Z.of_nat 0) with 1 in Hk. change (2 ^ (Z.of_nat 0 + 1)) with 2 in Hk. replace k with 1 by lia. reflexivity.
  - rewrite Nat2Z.inj_succ in *. unfold Z.succ in *. pose proof (p2_pos (Z.of_nat l) ltac:(lia)).
    rewrite sibs_S. cbn [Merkle.verify_fold]. rewrite shiftr1.
    rewrite climb_step by (rewrite !p2_succ in * by lia; lia).
    apply IH; [apply div2_range; [lia|]; replace (Z.of_nat l + 2) with (Z.of_nat l + 1 + 1) by lia; exact Hk|].
    rewrite p2_succ in HN by lia. lia.
Qed.

(* prove's loop collects them, for a node of a row above the leaves *)
Lemma prove_up_sibs : forall (l : nat) k fuel,
  2 ^ Z.of_nat l <= k < 2 ^ (Z.of_nat l + 1) -> 2 ^ (Z.of_nat l + 1) <= N -> (l <= fuel)%nat ->
  prove_up fuel (mt_nodes t) k = Ok (sibs k l).
Proof.
  induction l as [|l IH]; intros k fuel Hk HN Hf.
  - change (2 ^ Z.of_nat 0) with 1 in Hk. change (2 ^ (Z.of_nat 0 + 1)) with 2 in Hk.
    replace k with 1 by lia. destruct fuel; reflexivity.
  - rewrite Nat2Z.inj_succ in *. unfold Z.succ in *. pose proof (p2_pos (Z.of_nat l) ltac:(lia)).
    rewrite !p2_succ in * by lia.
    destruct fuel as [|fuel]; [lia|]. cbn [Merkle.prove_up]. destruct (Z.leb_spec k 1); [lia|].
    pose proof (lxor1_nonneg k ltac:(lia)). pose proof (lxor1_lt_even k N ltac:(lia) N_even).
    rewrite idx_znth by (rewrite (wf_nodes _ _ WF); fold N; lia). cbn [bind]. rewrite shiftr1.
    rewrite (IH (k / 2) fuel) by (rewrite ?p2_succ by lia; zmod k; lia). cbn [bind].
    rewrite sibs_S, hval_node by lia. reflexivity.
Qed.

(* prove returns the leaf followed by the siblings of its ancestors *)
Lemma mt_prove_path i : 0 <= i < N -> mt_prove t i = Ok (hval t (i + N) :: sibs (i + N) d).
Proof.
  intros Hi. pose proof N_pos. pose proof N_even as HNe. pose proof N_small. pose proof (wf_d _ _ WF) as Hd1.
  unfold Merkle.mt_prove. rewrite (wf_leaves _ _ WF), (wf_nodes _ _ WF). fold N.
  destruct (Z.leb_spec N i); [lia|].
  pose proof (lxor1_nonneg i ltac:(lia)). pose proof (lxor1_lt_even i N Hi HNe).
  rewrite !idx_znth by (rewrite (wf_leaves _ _ WF); fold N; lia). cbn [bind].
  rewrite uadd_Ok by lia. cbn [bind]. rewrite shiftr1.
  set (d' := pred d). assert (Hdd : d = S d') by (unfold d'; lia).
  assert (HNd : N = 2 * 2 ^ Z.of_nat d') by (unfold N; rewrite Hdd at 1; apply p2_S).
  pose proof (p2_pos (Z.of_nat d') ltac:(lia)).
  rewrite (prove_up_sibs d' ((i + N) / 2) 64) by (rewrite ?p2_succ by lia; zmod (i + N); lia). cbn [bind].
  replace (sibs (i + N) d) with (sibs (i + N) (S d')) by (f_equal; lia).
  rewrite sibs_S, lxor1_add_even, !hval_leaf by lia. do 4 f_equal; lia.
Qed.

Unset Default Proof Using.
End Tree.

(* ---------------------------------------------------------------- verify: outcome on every input *)
Theorem verify_short : forall root index p, zlen p < 2 -> verify root index p = Err InvalidProof.
Proof. intros. unfold Merkle.verify. destruct (Z.ltb_spec (zlen p) 2); [reflexivity|lia]. Qed.

Theorem verify_long : forall root index p, 65 <= zlen p -> verify root index p = Err InvalidProof.
Proof.
  intros. unfold Merkle.verify. destruct (Z.ltb_spec (zlen p) 2); [reflexivity|].
  destruct (Z.leb_spec 64 (zlen p - 1)); [reflexivity|lia].
Qed.

Theorem verify_out_of_range : forall root index p, 2 <= zlen p <= 64 -> 2 ^ (zlen p - 1) <= index ->
  verify root index p = Err (LeafIndexOutOfBounds (2 ^ (zlen p - 1)) index).
Proof.
  intros. unfold Merkle.verify. destruct (Z.ltb_spec (zlen p) 2); [lia|].
  destruct (Z.leb_spec 64 (zlen p - 1)); [lia|].
  destruct (Z.leb_spec (2 ^ (zlen p - 1)) index); [reflexivity|lia].
Qed.

(* past the three guards no access can fail: the outcome is the comparison with the root *)
Lemma verify_eq (dflt : D) root index p : 2 <= zlen p <= 64 -> index < 2 ^ (zlen p - 1) ->
  verify root index p =
  if D_eqb (verify_fold (skipn 2 p) (Z.shiftr (index + 2 ^ (zlen p - 1)) 1)
              (merge (nth (Z.to_nat (Z.land index 1)) p dflt) (nth (Z.to_nat (1 - Z.land index 1)) p dflt))) root
  then Ok tt else Err InvalidProof.
Proof.
  intros HL Hi. unfold Merkle.verify. destruct (Z.ltb_spec (zlen p) 2); [lia|].
  destruct (Z.leb_spec 64 (zlen p - 1)); [lia|].
  destruct (Z.leb_spec (2 ^ (zlen p - 1)) index); [lia|].
  assert (Hr : Z.land index 1 = 0 \/ Z.land index 1 = 1) by (rewrite land1; apply mod2_cases).
  rewrite (idx_Ok _ _ dflt), (idx_Ok _ _ dflt), uadd_pow2 by lia. reflexivity.
Qed.

Lemma verify_cases index (p : list D) :
  zlen p < 2 \/ 65 <= zlen p \/ 2 <= zlen p <= 64 /\ (2 ^ (zlen p - 1) <= index \/ index < 2 ^ (zlen p - 1)).
Proof. lia. Qed.

Theorem verify_total : forall root index p, verify root index p <> Panic.
Proof.
  intros root index p. destruct (verify_cases index p) as [H|[H|[H [Hi|Hi]]]].
  - rewrite verify_short by assumption. discriminate.
  - rewrite verify_long by assumption. discriminate.
  - rewrite verify_out_of_range by assumption. discriminate.
  - destruct p as [|x p']; [unfold zlen in H; simpl in H; lia|].
    rewrite (verify_eq x) by assumption. destruct (D_eqb _ _); discriminate.
Qed.

Lemma D_eqb_refl x : D_eqb x x = true.
Proof. apply D_eqb_spec. reflexivity. Qed.

(* verify accepts exactly when the recomputed value equals the root *)
Theorem verify_Ok_iff : forall root index p,
  verify root index p = Ok tt <->
  2 <= zlen p <= 64 /\ index < 2 ^ (zlen p - 1) /\
  verify_fold (skipn 2 p) (Z.shiftr (index + 2 ^ (zlen p - 1)) 1)
    (merge (nth (Z.to_nat (Z.land index 1)) p d0) (nth (Z.to_nat (1 - Z.land index 1)) p d0)) = root.
Proof.
  intros root index p. split.
  - intros V. destruct (verify_cases index p) as [H|[H|[H [Hi|Hi]]]].
    + rewrite verify_short in V by assumption. discriminate.
    + rewrite verify_long in V by assumption. discriminate.
    + rewrite verify_out_of_range in V by assumption. discriminate.
    + rewrite (verify_eq d0) in V by assumption. destruct (D_eqb _ root) eqn:Eq; [|discriminate].
      apply D_eqb_spec in Eq. auto.
  - intros (HL & Hi & HV). rewrite (verify_eq d0), HV, D_eqb_refl by assumption. reflexivity.
Qed.

(* the same for a path given as leaf :: siblings, with the fold started at the leaf's heap index: the first
   merge of verify is the first step of that fold (the index and the heap index have the same parity) *)
Lemma verify_head_eq index x y (ps : list D) :
  merge (nth (Z.to_nat (Z.land index 1)) (x :: y :: ps) d0) (nth (Z.to_nat (1 - Z.land index 1)) (x :: y :: ps) d0)
  = if Z.land (index + 2 ^ zlen (y :: ps)) 1 =? 0 then merge x y else merge y x.
Proof.
  rewrite !land1, mod2_add_even by (apply pow2_even; rewrite zlen_cons; pose proof (zlen_nonneg ps); lia).
  destruct (mod2_cases index) as [E|E]; rewrite E; reflexivity.
Qed.

Lemma verify_fold_iff root i x ps : 1 <= zlen ps < 64 -> i < 2 ^ zlen ps ->
  verify root i (x :: ps) = Ok tt <-> verify_fold ps (i + 2 ^ zlen ps) x = root.
Proof.
  intros Hl Hi. rewrite verify_Ok_iff, zlen_cons. replace (zlen ps + 1 - 1) with (zlen ps) by lia.
  destruct ps as [|y ps']; [unfold zlen in Hl; simpl in Hl; lia|]. cbn [skipn Merkle.verify_fold]. rewrite verify_head_eq.
  split; [intros (_ & _ & H); exact H|intros H; split; [lia|split; [lia|exact H]]].
Qed.

(* ---------------------------------------------------------------- single path: completeness *)
Theorem single_complete_tree : forall t (d : nat), wf_tree d t -> (d <= 62)%nat -> forall i, 0 <= i < 2 ^ Z.of_nat d ->
  exists p, mt_prove t i = Ok p /\ length p = S d /\ znth p 0 = znth (mt_leaves t) i /\
            verify (hval t 1) i p = Ok tt.
Proof.
  intros t d WF Hd i Hi. pose proof (wf_d _ _ WF). set (N := 2 ^ Z.of_nat d) in *.
  exists (hval t (i + N) :: sibs t (i + N) d). split; [apply (mt_prove_path t d WF Hd); assumption|].
  assert (HZ : zlen (sibs t (i + N) d) = Z.of_nat d) by (unfold zlen; rewrite sibs_length; reflexivity).
  split; [simpl; rewrite sibs_length; reflexivity|]. split.
  - rewrite (hval_leaf t d WF Hd) by (fold N; lia). fold N. unfold znth at 1. cbn [Z.to_nat nth]. f_equal. lia.
  - apply verify_fold_iff; rewrite HZ; fold N; [lia|lia|].
    apply (fold_sibs t d WF Hd); fold N; [rewrite p2_succ by lia; fold N|]; lia.
Qed.


(* a tree built by MerkleTree::new from 2^d leaves is well formed with depth d *)
Lemma mt_new_wf leaves t (d : nat) : mt_new leaves = Ok t -> zlen leaves = 2 ^ Z.of_nat d ->
  mt_leaves t = leaves /\ wf_tree d t.
Proof.
  intros Hnew Hlen. destruct (build_nodes_spec _ _ Hnew) as [HL [d' WF]]. split; [assumption|].
  replace d with d'; [assumption|]. pose proof (wf_leaves _ _ WF) as E. rewrite HL, Hlen in E. apply Z.pow_inj_r in E; lia.
Qed.

Theorem single_complete : forall leaves t (d : nat) i root,
  mt_new leaves = Ok t -> zlen leaves = 2 ^ Z.of_nat d -> (d <= 62)%nat -> mt_root t = Ok root ->
  0 <= i < zlen leaves ->
  exists p, mt_prove t i = Ok p /\ length p = S d /\ nth_error p 0 = nth_error leaves (Z.to_nat i) /\
            verify root i p = Ok tt.
Proof.
  intros leaves t d i root Hnew Hlen Hd Hroot Hi.
  destruct (mt_new_wf _ _ _ Hnew Hlen) as [HL WF].
  rewrite (root_hval t d WF Hd) in Hroot. injection Hroot as <-.
  destruct (single_complete_tree t d WF Hd i) as (p & E & L & Z0 & V); [rewrite <- Hlen; exact Hi|].
  exists p. repeat split; try assumption.
  destruct p as [|a p]; [discriminate|]. cbn [nth_error]. unfold znth in Z0. cbn [Z.to_nat nth] in Z0.
  rewrite Z0, HL. symmetry. apply nth_error_nth'. unfold zlen in Hi. lia.
Qed.

(* ---------------------------------------------------------------- binding without collision resistance *)
Definition pair_eqb (x y : D * D) : bool := D_eqb (fst x) (fst y) && D_eqb (snd x) (snd y).

Lemma pair_eqb_spec x y : pair_eqb x y = true <-> x = y.
Proof.
  destruct x as [a b], y as [a' b']. unfold pair_eqb. cbn [fst snd]. rewrite andb_true_iff, !D_eqb_spec.
  split; [intros [-> ->]; reflexivity|intros [= -> ->]; auto].
Qed.

Definition is_collision (c : (D * D) * (D * D)) : Prop :=
  fst c <> snd c /\ merge (fst (fst c)) (snd (fst c)) = merge (fst (snd c)) (snd (snd c)).

(* the input pairs of all merge calls made by verify *)
Fixpoint fold_pairs (ps : list D) (index : Z) (v : D) : list (D * D) :=
  match ps with
  | [] => []
  | p :: r => let pr := if Z.land index 1 =? 0 then (v, p) else (p, v) in
              pr :: fold_pairs r (Z.shiftr index 1) (merge (fst pr) (snd pr))
  end.

Definition verify_pairs (index : Z) (proof : list D) : list (D * D) :=
  let r := Z.land index 1 in
  let a := nth (Z.to_nat r) proof d0 in
  let b := nth (Z.to_nat (1 - r)) proof d0 in
  (a, b) :: fold_pairs (skipn 2 proof) (Z.shiftr (index + 2 ^ (zlen proof - 1)) 1) (merge a b).

Fixpoint find_coll (t1 t2 : list (D * D)) : option ((D * D) * (D * D)) :=
  match t1, t2 with
  | x :: r1, y :: r2 =>
    if pair_eqb x y then find_coll r1 r2
    else if D_eqb (merge (fst x) (snd x)) (merge (fst y) (snd y)) then Some (x, y)
    else find_coll r1 r2
  | _, _ => None
  end.

Definition find_collision (index : Z) (p1 p2 : list D) : option ((D * D) * (D * D)) :=
  find_coll (verify_pairs index p1) (verify_pairs index p2).

Lemma verify_fold_pairs_step p r index v :
  verify_fold (p :: r) index v =
  verify_fold r (Z.shiftr index 1)
    (merge (fst (if Z.land index 1 =? 0 then (v, p) else (p, v))) (snd (if Z.land index 1 =? 0 then (v, p) else (p, v)))).
Proof. cbn [Merkle.verify_fold]. destruct (Z.land index 1 =? 0); reflexivity. Qed.

Lemma fold_binding : forall ps ps' index v v',
  length ps = length ps' ->
  verify_fold ps index v = verify_fold ps' index v' ->
  (v <> v' \/ ps <> ps') ->
  exists c, find_coll (fold_pairs ps index v) (fold_pairs ps' index v') = Some c /\ is_collision c.
Proof.
  induction ps as [|p r IH]; intros [|p' r'] index v v' HL HV HN; try discriminate.
  - cbn in HV. destruct HN as [HN|HN]; congruence.
  - rewrite !verify_fold_pairs_step in HV. cbn [fold_pairs find_coll].
    set (x := if Z.land index 1 =? 0 then (v, p) else (p, v)) in *.
    set (y := if Z.land index 1 =? 0 then (v', p') else (p', v')) in *.
    destruct (pair_eqb x y) eqn:Exy.
    + apply pair_eqb_spec in Exy. rewrite Exy in HV. rewrite Exy. apply IH; [simpl in HL; lia|exact HV|].
      right. intros ->. subst x y.
      destruct (Z.land index 1 =? 0); injection Exy as -> ->; destruct HN as [HN|HN]; congruence.
    + destruct (D_eqb (merge (fst x) (snd x)) (merge (fst y) (snd y))) eqn:Em.
      * eexists. split; [reflexivity|]. split; cbn [fst snd].
        -- intros E. apply pair_eqb_spec in E. congruence.
        -- apply D_eqb_spec. exact Em.
      * apply IH; [simpl in HL; lia|exact HV|]. left. intros E. apply D_eqb_spec in E. congruence.
Qed.

Lemma D_eq_dec : forall x y : D, {x = y} + {x <> y}.
Proof.
  intros x y. destruct (D_eqb x y) eqn:E.
  - left. apply D_eqb_spec. exact E.
  - right. intros H. apply D_eqb_spec in H. congruence.
Qed.

(* the merge inputs of verify are those of the fold started at the leaf *)
Lemma verify_pairs_fold index x ps : 1 <= zlen ps -> verify_pairs index (x :: ps) = fold_pairs ps (index + 2 ^ zlen ps) x.
Proof.
  intros Hl. unfold verify_pairs. cbv zeta. rewrite zlen_cons. replace (zlen ps + 1 - 1) with (zlen ps) by lia.
  destruct ps as [|y ps']; [unfold zlen in Hl; simpl in Hl; lia|]. cbn [skipn fold_pairs]. rewrite verify_head_eq.
  rewrite !land1, mod2_add_even by (apply pow2_even; lia).
  destruct (mod2_cases index) as [E|E]; rewrite E; reflexivity.
Qed.

(* Two openings of the same shape for the same position that both verify against the same root
   are equal, or an explicit collision of merge is computed. *)
Theorem single_binding_paths : forall root index p p',
  verify root index p = Ok tt -> verify root index p' = Ok tt -> length p = length p' ->
  p = p' \/ exists c, find_collision index p p' = Some c /\ is_collision c.
Proof.
  intros root index p p' V V' HL.
  pose proof (proj1 (verify_Ok_iff _ _ _) V) as (L2 & Hi & _).
  destruct p as [|x ps]; [unfold zlen in L2; simpl in L2; lia|]. destruct p' as [|x' ps']; [discriminate|].
  assert (HZ : zlen ps' = zlen ps) by (unfold zlen; simpl in HL; lia).
  rewrite zlen_cons in L2, Hi. replace (zlen ps + 1 - 1) with (zlen ps) in Hi by lia.
  apply verify_fold_iff in V; [|lia|lia]. apply verify_fold_iff in V'; [|lia|rewrite HZ; lia]. rewrite HZ in V'.
  destruct (list_eq_dec D_eq_dec (x :: ps) (x' :: ps')) as [E|NE]; [left; assumption|right].
  unfold find_collision. rewrite !verify_pairs_fold, HZ by lia.
  apply fold_binding; [simpl in HL; lia|congruence|].
  destruct (D_eq_dec x x') as [->|]; [right; congruence|left; assumption].
Qed.

(* Binding to the tree: an opening of the tree's depth that verifies against the tree's root is the
   honest path (in particular it claims the committed leaf), or a collision is computed from it. *)
Theorem single_binding_tree : forall t (d : nat) i p,
  wf_tree d t -> (d <= 62)%nat ->
  verify (hval t 1) i p = Ok tt -> length p = S d -> 0 <= i ->
  exists hp, mt_prove t i = Ok hp /\
    (p = hp \/ exists c, find_collision i p hp = Some c /\ is_collision c).
Proof.
  intros t d i p WF Hd V HL Hi.
  pose proof (proj1 (verify_Ok_iff _ _ _) V) as (_ & Hr & _).
  replace (zlen p - 1) with (Z.of_nat d) in Hr by (unfold zlen; lia).
  destruct (single_complete_tree t d WF Hd i ltac:(lia)) as (hp & E & L & _ & V').
  exists hp. split; [exact E|]. apply (single_binding_paths _ _ _ _ V V'). lia.
Qed.

End Single.
