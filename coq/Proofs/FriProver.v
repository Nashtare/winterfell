(* C15 — prover_reusable: build_proof returns the prover in the state FriProver::new creates (layers and
   remainder cleared), whatever the proof is; so the `assert!(self.layers.is_empty())` of the next build_layers
   cannot fire. *)
From Coq Require Import List Arith Bool.
From VBase Require Import FieldOps.
From VModel Require Import Fri.
Import ListNotations.

Section Prover.
Context {F : Type}.
Variable MT MN : Type.
Variable mt_prove_batch : MT -> list nat -> option MN.

Theorem prover_reusable : forall (p p' : @prover F MT) positions proof,
  build_proof MT MN mt_prove_batch p positions = Ok (p', proof) ->
  p' = prover_new MT (pr_options MT p) /\ pr_layers MT p' = [] /\ pr_remainder MT p' = [] /\
  fp_remainder proof = pr_remainder MT p /\ fp_partitions proof = 1.
Proof.
  intros p p' positions proof. unfold build_proof.
  destruct (is_nil (pr_remainder MT p)); [discriminate|].
  destruct (match pr_layers MT p with [] => Ok [] | _ => _ end) as [layers| |]; cbn [bind]; try discriminate.
  destruct (negb (is_pow2 (length (pr_remainder MT p)))); [discriminate|].
  intros [= <- <-]. repeat split.
Qed.

End Prover.
