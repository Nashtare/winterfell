(* C09 stage (c), continued: coset evaluation with blowup (per-chunk offsets), interpolation (with offset) as the
   inverse of evaluation, and degree inference, for the faithful model, EVERY size. *)
From Coq Require Import List Arith Bool ZArith Lia Ring Field.
From VBase Require Import FieldOps.
From VModel Require Import FFT.
From VProofs Require Import FieldFacts ListFacts Pow2Facts FFTSpec FFTRefine FFTEval.
Import ListNotations.

Section Offset.
Context {F : Type} (O : FOps F) (L : FLaws O).
Add Field Ffield3 : (FLaws_field_theory O L).

Local Notation fz := (fzero O).
Local Notation f1 := (fone O).
Local Infix "+f" := (fadd O) (at level 50, left associativity).
Local Infix "-f" := (fsub O) (at level 50, left associativity).
Local Infix "*f" := (fmul O) (at level 40, left associativity).
Local Notation "-f x" := (fneg O x) (at level 35, right associativity).
Local Notation peval := (peval O).
Local Notation fpow := (fpow O).
Local Notation vget := (vget O).

Variable two_adicity : nat.
Variable root_of_unity : nat -> F.

(* ---------------------------------------------------------------- composing shift_by_series *)
Lemma shift_by_series_scale : forall Y s a c,
  shift_by_series O Y (s *f a) c = shift_by_series O (map (fun y => y *f s) Y) a c.
Proof.
  induction Y as [|y t IH]; intros; cbn [shift_by_series map]; [reflexivity|].
  f_equal; [ring|]. replace (s *f a *f c) with (s *f (a *f c)) by ring. apply IH.
Qed.

Lemma shift_by_series_twice : forall p a c b d,
  shift_by_series O (shift_by_series O p a c) b d = shift_by_series O p (a *f b) (c *f d).
Proof.
  induction p as [|y t IH]; intros; cbn [shift_by_series]; [reflexivity|].
  f_equal; [ring|]. rewrite IH. f_equal. ring.
Qed.

Lemma shift_by_series_one : forall p, shift_by_series O p f1 f1 = p.
Proof.
  induction p as [|y t IH]; cbn [shift_by_series]; [reflexivity|].
  f_equal; [ring|]. replace (f1 *f f1) with f1 by ring. exact IH.
Qed.

(* ---------------------------------------------------------------- evaluate_poly_with_offset *)
(* chunk i of the blowup is the transform of p scaled by g^(rev i) * offset; its entry q is p at offset * g^r
   for the position r whose bit reversal P has chunk index i = P / n and position q = P mod n *)
Lemma chunk_value tw K b g offset p r :
  length p = 2 ^ S K -> root_cond O (S K + b) g -> tw_ok O tw (S K) (fpow g (2 ^ b)) -> r < 2 ^ (S K + b) ->
  nth (rev_bits (S K + b) r mod 2 ^ S K)
      (brfft O tw (S K)
         (shift_by_series O p f1 (fpow g (rev_bits b (rev_bits (S K + b) r / 2 ^ S K)) *f offset))) fz
  = peval p (offset *f fpow g r).
Proof.
  intros Hl Hgc Ht Hr.
  set (P := rev_bits (S K + b) r).
  assert (Hn : 2 ^ S K <> 0) by (apply Nat.pow_nonzero; lia).
  assert (Hq : P mod 2 ^ S K < 2 ^ S K) by (apply Nat.mod_upper_bound, Hn).
  rewrite (brfft_dft O L tw (S K) (fpow g (2 ^ b)));
    [| rewrite (shift_by_series_length O); exact Hl | apply (root_cond_pow O L), Hgc | exact Ht | exact Hq].
  rewrite (peval_shift_by_series O L).
  assert (Hrr : rev_bits b (P / 2 ^ S K) + 2 ^ b * rev_bits (S K) (P mod 2 ^ S K) = r).
  { rewrite <- rev_bits_concat by exact Hq. rewrite (Nat.mul_comm (P / 2 ^ S K)), <- Nat.div_mod by exact Hn.
    apply rev_bits_involutive, Hr. }
  rewrite <- Hrr, (fpow_add O L), (fpow_mul O L), (fl_mul_1_l O L). f_equal. ring.
Qed.

Theorem evaluate_poly_with_offset_correct tw K b g offset p :
  length p = 2 ^ S K -> length tw = 2 ^ K -> S K + b <= two_adicity ->
  root_of_unity (S K + b) = g -> root_cond O (S K + b) g ->
  tw_ok O tw (S K) (fpow g (2 ^ b)) -> offset <> fz ->
  evaluate_poly_with_offset O two_adicity root_of_unity p tw offset (2 ^ b)
    = Some (map (fun i => peval p (offset *f fpow g i)) (seq 0 (2 ^ (S K + b)))).
Proof.
  intros Hl Hlt Had Hg Hgc Ht Hoff. unfold evaluate_poly_with_offset.
  rewrite Hl, Hlt, !is_pow2_pow2. cbn [negb].
  assert (E1 : (2 ^ S K =? 2 ^ K * 2) = true) by (apply Nat.eqb_eq; cbn; lia).
  rewrite E1. cbn [negb]. rewrite <- Nat.pow_add_r, log2_pow2.
  assert (E2 : (two_adicity <? S K + b) = false) by (apply Nat.ltb_ge; lia).
  rewrite E2, (feqb_neq O L _ _ Hoff), Hg. f_equal.
  set (f := fun i => fft_in_place_top O
               (shift_by_series O p f1 (fpow_N O g (N.of_nat (permute_index (2 ^ b) i)) *f offset)) tw).
  assert (Hf : forall i, f i = brfft O tw (S K) (shift_by_series O p f1 (fpow g (rev_bits b i) *f offset))).
  { intros i. unfold f. rewrite permute_index_spec, (fpow_N_spec O L).
    apply fft_in_place_top_brfft. rewrite (shift_by_series_length O). exact Hl. }
  destruct (permute_concat_nth O f (S K) b) as [Lp Np].
  { intros i _. rewrite Hf. apply brfft_length. rewrite (shift_by_series_length O). exact Hl. }
  apply nth_ext with (d := fz) (d' := fz); [rewrite Lp, map_length, seq_length; reflexivity|].
  rewrite Lp. intros r Hr. destruct (Np r Hr) as (_ & _ & ->).
  rewrite nth_map_seq, Hf by exact Hr. apply chunk_value; assumption.
Qed.

(* ---------------------------------------------------------------- interpolation *)
Definition n_inv (k : nat) : F := finv O (fofz O (Z.of_nat (2 ^ k))).

Theorem interpolate_poly_correct itw K winv v :
  length v = 2 ^ S K -> length itw = 2 ^ K -> S K <= two_adicity ->
  root_cond O (S K) winv -> tw_ok O itw (S K) winv ->
  interpolate_poly O two_adicity v itw = Some (spec_interpolate O (S K) winv (n_inv (S K)) v).
Proof.
  intros Hl Hlt Had Hw Ht. unfold interpolate_poly.
  destruct (size_guards two_adicity K _ _ Hl Hlt Had) as (G1 & G2 & G3). rewrite G1, G2, G3. cbn [negb]. f_equal.
  rewrite Hl. fold (n_inv (S K)). unfold shift_by, spec_interpolate.
  rewrite (permute_map O _ (S K)) by (apply fft_in_place_top_length, Hl).
  rewrite (permuted_fft_is_dft O L itw K winv v Hl Hw Ht), (fft_rec_correct O L) by assumption. reflexivity.
Qed.

(* interpolation inverts evaluation: interpolate_poly(evaluate_poly(p)) = p *)
Theorem interpolate_evaluate itw K w winv p :
  length p = 2 ^ S K -> length itw = 2 ^ K -> S K <= two_adicity ->
  root_cond O (S K) w -> w *f winv = f1 -> tw_ok O itw (S K) winv ->
  two_pow_f O (S K) *f n_inv (S K) = f1 ->
  interpolate_poly O two_adicity (map (fun i => peval p (fpow w i)) (seq 0 (2 ^ S K))) itw = Some p.
Proof.
  intros Hl Hlt Had Hw Hinv Ht Hn.
  pose proof (root_cond_inv O L (S K) w winv Hw Hinv) as Hwi.
  change (map (fun i => peval p (fpow w i)) (seq 0 (2 ^ S K))) with (dft O (2 ^ S K) w p).
  rewrite (interpolate_poly_correct itw K winv); try assumption; [| apply dft_length].
  rewrite <- (fft_rec_correct O L) by assumption.
  f_equal. apply (spec_interpolate_inverse O L); assumption.
Qed.

(* the other direction, for ARBITRARY values v: the interpolant evaluates back to v — together with
   interpolate_evaluate this says interpolate_poly returns THE polynomial (of < n coefficients) through the values *)
Lemma peval_scale : forall l c x, peval (map (fun y => y *f c) l) x = peval l x *f c.
Proof.
  induction l as [|a t IH]; intros; cbn [map FFT.peval]; [ring|]. rewrite IH. ring.
Qed.

Theorem evaluate_interpolate tw itw K w winv v :
  length v = 2 ^ S K -> length tw = 2 ^ K -> length itw = 2 ^ K -> S K <= two_adicity ->
  root_cond O (S K) w -> w *f winv = f1 -> tw_ok O tw (S K) w -> tw_ok O itw (S K) winv ->
  two_pow_f O (S K) *f n_inv (S K) = f1 ->
  exists c, interpolate_poly O two_adicity v itw = Some c /\ length c = 2 ^ S K /\
            evaluate_poly O two_adicity c tw = Some v.
Proof.
  intros Hl Hlt Hli Had Hw Hinv Ht Hti Hn.
  pose proof (root_cond_inv O L (S K) w winv Hw Hinv) as Hwi.
  rewrite (interpolate_poly_correct itw K winv v Hl Hli Had Hwi Hti).
  eexists; split; [reflexivity|].
  assert (Hlc : length (spec_interpolate O (S K) winv (n_inv (S K)) v) = 2 ^ S K).
  { unfold spec_interpolate. rewrite map_length. apply (fft_rec_length O L). exact Hl. }
  split; [exact Hlc|].
  rewrite (evaluate_poly_correct O L two_adicity tw K w _ Hlc Hlt Had Hw Ht). f_equal.
  apply nth_ext with (d := fz) (d' := fz); [rewrite map_length, seq_length; auto|].
  rewrite map_length, seq_length. intros i Hi. rewrite nth_map_seq by exact Hi.
  unfold spec_interpolate. rewrite peval_scale.
  assert (Hinv' : winv *f w = f1) by (rewrite (fl_mul_comm O L); exact Hinv).
  rewrite (idft_coeff O L (S K) winv w v i Hl Hwi Hinv' Hi).
  transitivity ((two_pow_f O (S K) *f n_inv (S K)) *f nth i v fz); [ring | rewrite Hn; ring].
Qed.

Theorem interpolate_poly_with_offset_correct itw K winv offset v :
  length v = 2 ^ S K -> length itw = 2 ^ K -> S K <= two_adicity ->
  root_cond O (S K) winv -> tw_ok O itw (S K) winv -> offset <> fz ->
  interpolate_poly_with_offset O two_adicity v itw offset
    = Some (spec_interpolate_offset O (S K) winv (n_inv (S K)) (finv O offset) v).
Proof.
  intros Hl Hlt Had Hw Ht Hoff. unfold interpolate_poly_with_offset.
  destruct (size_guards two_adicity K _ _ Hl Hlt Had) as (G1 & G2 & G3).
  rewrite G1, G2, G3, (feqb_neq O L _ _ Hoff). cbn [negb]. f_equal.
  rewrite Hl. fold (n_inv (S K)). unfold spec_interpolate_offset.
  rewrite (permuted_fft_is_dft O L itw K winv v Hl Hw Ht).
  rewrite <- (fft_rec_correct O L) by assumption. reflexivity.
Qed.

(* interpolation with offset inverts evaluation over the coset offset*<w> *)
Theorem interpolate_evaluate_with_offset itw K w winv offset p :
  length p = 2 ^ S K -> length itw = 2 ^ K -> S K <= two_adicity ->
  root_cond O (S K) w -> w *f winv = f1 -> tw_ok O itw (S K) winv -> offset <> fz ->
  two_pow_f O (S K) *f n_inv (S K) = f1 ->
  interpolate_poly_with_offset O two_adicity
    (map (fun i => peval p (offset *f fpow w i)) (seq 0 (2 ^ S K))) itw offset = Some p.
Proof.
  intros Hl Hlt Had Hw Hinv Ht Hoff Hn.
  pose proof (root_cond_inv O L (S K) w winv Hw Hinv) as Hwi.
  assert (Hev : map (fun i => peval p (offset *f fpow w i)) (seq 0 (2 ^ S K))
                = fft_rec O (S K) w (shift_by_series O p f1 offset)).
  { rewrite (fft_rec_correct O L); [| rewrite shift_by_series_length; exact Hl | exact Hw].
    unfold dft. apply map_ext. intros i. rewrite (peval_shift_by_series O L). ring. }
  rewrite Hev.
  rewrite (interpolate_poly_with_offset_correct itw K winv offset); try assumption.
  2:{ apply (fft_rec_length O L). rewrite shift_by_series_length. exact Hl. }
  f_equal. unfold spec_interpolate_offset.
  replace (n_inv (S K)) with (n_inv (S K) *f f1) by ring.
  rewrite shift_by_series_scale.
  pose proof (spec_interpolate_inverse O L (S K) w winv (n_inv (S K)) (shift_by_series O p f1 offset)) as Hinvs.
  unfold spec_interpolate in Hinvs. rewrite Hinvs; try assumption.
  2:{ rewrite shift_by_series_length. exact Hl. }
  rewrite shift_by_series_twice.
  replace (f1 *f f1) with f1 by ring.
  replace (offset *f finv O offset) with f1.
  - apply shift_by_series_one.
  - rewrite (fl_mul_comm O L). symmetry. apply (fl_inv_l O L). exact Hoff.
Qed.

(* ---------------------------------------------------------------- inverse twiddles, degree *)
Theorem get_inv_twiddles_correct K w : S K <= two_adicity ->
  root_of_unity (S K) = w -> root_cond O (S K) w ->
  exists itw, get_inv_twiddles O two_adicity root_of_unity (2 ^ S K) = Some itw /\
              length itw = 2 ^ K /\ tw_ok O itw (S K) (fpow w (2 ^ S K - 1)) /\
              w *f fpow w (2 ^ S K - 1) = f1.
Proof.
  intros Had Hr Hw. unfold get_inv_twiddles. rewrite is_pow2_pow2, log2_pow2. cbn [negb].
  assert (E2 : (two_adicity <? S K) = false) by (apply Nat.ltb_ge; lia).
  rewrite E2. cbn [Nat.eqb]. rewrite half_pow2, Hr, (fpow_N_spec O L).
  eexists; split; [reflexivity|].
  destruct (permuted_powers_ok O L (fpow w (2 ^ S K - 1)) K) as [H1 H2].
  split; [exact H1|]. split; [exact H2|].
  change (w *f fpow w (2 ^ S K - 1)) with (fpow w (S (2 ^ S K - 1))).
  replace (S (2 ^ S K - 1)) with (2 ^ S K) by (pose proof (pow2_pos (S K)); lia).
  apply (root_cond_one O L). exact Hw.
Qed.

Lemma last_nonzero_from_spec : forall l i,
  match last_nonzero_from O l i with
  | Some d => i <= d < i + length l /\ nth (d - i) l fz <> fz /\ forall j, d - i < j -> nth j l fz = fz
  | None => forall j, nth j l fz = fz
  end.
Proof.
  induction l as [|c t IH]; intros i; cbn [last_nonzero_from].
  - intros j. destruct j; reflexivity.
  - specialize (IH (S i)). destruct (last_nonzero_from O t (S i)) as [d|].
    + destruct IH as (H1 & H2 & H3). cbn [length]. split; [lia|].
      replace (d - i) with (S (d - S i)) by lia. cbn [nth]. split; [exact H2|].
      intros j Hj. destruct j; [lia|]. apply H3. lia.
    + destruct (feqb O c fz) eqn:E.
      * apply (feqb_true O L) in E. subst c. intros j. destruct j; [reflexivity | apply IH].
      * cbn [length]. split; [lia|]. rewrite Nat.sub_diag. cbn [nth]. split.
        -- intros Hc. rewrite Hc, (feqb_refl O L) in E. discriminate.
        -- intros j Hj. destruct j; [lia | apply IH].
Qed.

(* degree_of returns the true degree: the index of the last non-zero coefficient (0 for the zero polynomial) *)
Theorem degree_of_spec p d :
  nth d p fz <> fz -> (forall j, d < j -> nth j p fz = fz) -> degree_of O p = d.
Proof.
  intros Hd Hz. unfold degree_of. pose proof (last_nonzero_from_spec p 0) as H.
  destruct (last_nonzero_from O p 0) as [d'|].
  - destruct H as (_ & H2 & H3). rewrite Nat.sub_0_r in *.
    destruct (Nat.lt_trichotomy d d') as [Hlt | [-> | Hgt]]; [| reflexivity |].
    + exfalso. apply H2. apply Hz. exact Hlt.
    + exfalso. apply Hd. apply H3. exact Hgt.
  - exfalso. apply Hd. apply H.
Qed.

Theorem degree_of_zero p : (forall j, nth j p fz = fz) -> degree_of O p = 0.
Proof.
  intros Hz. unfold degree_of. pose proof (last_nonzero_from_spec p 0) as H.
  destruct (last_nonzero_from O p 0) as [d'|]; [|reflexivity].
  destruct H as (_ & H2 & _). exfalso. apply H2. apply Hz.
Qed.

(* infer_degree of the evaluations of p over the coset reports the degree of p *)
Theorem infer_degree_correct K w offset p :
  length p = 2 ^ S K -> S K <= two_adicity ->
  root_of_unity (S K) = w -> root_cond O (S K) w -> offset <> fz ->
  two_pow_f O (S K) *f n_inv (S K) = f1 ->
  infer_degree O two_adicity root_of_unity
    (map (fun i => peval p (offset *f fpow w i)) (seq 0 (2 ^ S K))) offset = Some (degree_of O p).
Proof.
  intros Hl Had Hr Hw Hoff Hn. unfold infer_degree.
  rewrite map_length, seq_length, is_pow2_pow2, log2_pow2. cbn [negb].
  assert (E2 : (two_adicity <? S K) = false) by (apply Nat.ltb_ge; lia).
  rewrite E2, (feqb_neq O L _ _ Hoff).
  destruct (get_inv_twiddles_correct K w Had Hr Hw) as (itw & Hg & Hli & Hti & Hwi).
  rewrite Hg.
  rewrite (interpolate_evaluate_with_offset itw K w (fpow w (2 ^ S K - 1)) offset p); try assumption.
  reflexivity.
Qed.

End Offset.
