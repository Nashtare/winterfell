(* C17 — the Lagrange-kernel terms are POLYNOMIALS.  For the kernel column polynomial L, the numerator of constraint idx + 1,
   N_idx(x) = r[v-1-idx] * L(x) - (1 - r[v-1-idx]) * L(g^(2^(v-1-idx)) * x),  vanishes on the subgroup of size 2^idx (a
   hypothesis here), hence by C01's vanish_divisible  N_idx = (x^(2^idx) - 1) * q_idx;  likewise L(x) - prod(1 - r_i) = (x - 1) * q_b.
   So lag_def agrees off the divisor zeros with ONE coefficient list, and the committed columns of an AIR with a Lagrange
   kernel column recombine to comp_def + lag_def.  stdlib style; arbitrary field with FLaws. *)
From Coq Require Import List Arith Bool Lia Ring Field ZArith.
From VBase Require Import MachInt FieldOps.
From VModel Require Import Composition CompositionLagrange.
From VModel Require Stark Enforce EnforceLagrange.
From VProofs Require StarkPoly StarkDeep.
From VProofs Require Import ListFacts CompositionBase CompositionIndex CompositionLagrange.
Import ListNotations.
Local Open Scope nat_scope.

Section LagPoly.
Context {F : Type} (O : FOps F) (L : FLaws O).
Add Field Ff : (FLaws_field_theory O L).
Local Notation fz := (fzero O).
Local Notation f1 := (fone O).
Local Infix "+f" := (fadd O) (at level 50, left associativity).
Local Infix "-f" := (fsub O) (at level 50, left associativity).
Local Infix "*f" := (fmul O) (at level 40, left associativity).
Local Notation cpow := (cpow O).
Local Notation peval := (peval O).
Local Notation rsum := (rsum O).

(* p(c * x) as a coefficient list *)
Fixpoint pdilate (c : F) (p : list F) : list F :=
  match p with [] => [] | a :: t => a :: Stark.pscale O c (pdilate c t) end.
Lemma pdilate_length c : forall p, length (pdilate c p) = length p.
Proof. induction p; simpl; [reflexivity|]. unfold Stark.pscale. now rewrite map_length, IHp. Qed.
Lemma peval_pdilate c : forall p x, peval (pdilate c p) x = peval p (c *f x).
Proof.
  induction p; intros x; simpl; [reflexivity|].
  change (Composition.peval O (Stark.pscale O c (pdilate c p)) x) with (Stark.peval O (Stark.pscale O c (pdilate c p)) x).
  rewrite (StarkDeep.peval_pscale O L). change (Stark.peval O (pdilate c p) x) with (peval (pdilate c p) x).
  rewrite IHp. ring.
Qed.

(* a * p - b * q as a coefficient list *)
Definition plin (a : F) (p : list F) (b : F) (q : list F) : list F :=
  Stark.padd O (Stark.pscale O a p) (Stark.pscale O (fneg O b) q).
Lemma peval_plin a p b q x : peval (plin a p b q) x = a *f peval p x -f b *f peval q x.
Proof.
  unfold plin. change (Composition.peval O) with (Stark.peval O).
  rewrite (StarkDeep.peval_padd O L), !(StarkDeep.peval_pscale O L). ring.
Qed.
Lemma plin_length a p b q : length (plin a p b q) = Nat.max (length p) (length q).
Proof. unfold plin. rewrite (StarkDeep.padd_length O). unfold Stark.pscale. now rewrite !map_length. Qed.

Variable n v : nat.
Variable g : F.
Hypothesis n_eq : n = 2 ^ v.
Hypothesis g_prim : StarkPoly.primitive_root O g n.
Variable Lp : list F.                         (* the kernel column polynomial *)
Variable rr : list F.                         (* r_0 .. r_(v-1) *)
Hypothesis rr_len : length rr = v.

Definition lag_numer_poly (idx : nat) : list F :=
  let rk := nth (v - 1 - idx) rr fz in
  plin rk Lp (f1 -f rk) (pdilate (cpow g (2 ^ (v - 1 - idx))) Lp).

Lemma lag_numer_poly_eval idx x :
  peval (lag_numer_poly idx) x
  = nth (v - 1 - idx) rr fz *f peval Lp x -f (f1 -f nth (v - 1 - idx) rr fz) *f peval Lp (cpow g (2 ^ (v - 1 - idx)) *f x).
Proof. unfold lag_numer_poly. cbv zeta. now rewrite peval_plin, peval_pdilate. Qed.

(* the generator of the subgroup of size 2^idx *)
Definition hsub (idx : nat) : F := cpow g (2 ^ (v - idx)).

Lemma hsub_primitive idx : idx <= v -> StarkPoly.primitive_root O (hsub idx) (2 ^ idx).
Proof.
  intros Hi. destruct g_prim as [Hgn Hinj]. unfold hsub.
  assert (E : 2 ^ (v - idx) * 2 ^ idx = n) by (rewrite n_eq, <- Nat.pow_add_r; f_equal; lia).
  split.
  - change (Stark.fpow O) with cpow. rewrite <- (cpow_mul O L), E. exact Hgn.
  - intros i j Hi' Hj' H. change (Stark.fpow O) with cpow in H. rewrite <- !(cpow_mul O L) in H.
    pose proof (Nat.pow_nonzero 2 (v - idx) ltac:(lia)) as Hnz.
    assert (E2 : 2 ^ (v - idx) * i = 2 ^ (v - idx) * j) by (apply Hinj; [nia | nia | exact H]).
    nia.
Qed.

(* validity of the kernel column: numerator idx vanishes on the subgroup of size 2^idx (what
   C16_lagrange_honest_numerators_vanish proves for the honest column, rows j * n / 2^idx; both hypotheses are discharged
   for that column in CompositionLagrangeHonest.v) *)
Hypothesis numer_vanishes : forall idx j, idx < v -> j < 2 ^ idx ->
  peval (lag_numer_poly idx) (cpow (hsub idx) j) = fz.
(* .. and the first cell is the asserted value *)
Hypothesis first_cell : peval Lp f1 = EnforceLagrange.lag_assertion_value O rr.

Theorem lagrange_term_is_poly idx : idx < v ->
  exists q, length q = length Lp - 2 ^ idx /\
            forall x, peval (lag_numer_poly idx) x = (cpow x (2 ^ idx) -f f1) *f peval q x.
Proof.
  intros Hi. pose proof (hsub_primitive idx ltac:(lia)) as Hh.
  destruct (StarkPoly.vanish_divisible O L (Stark.domain O (hsub idx) (2 ^ idx)) (lag_numer_poly idx)) as [q [Hl Hq]].
  - eapply StarkPoly.domain_NoDup; [exact Hh | lia].
  - intros r0 Hr. apply StarkPoly.In_domain in Hr. destruct Hr as [j [Hj ->]]. now apply numer_vanishes.
  - exists q. split.
    + rewrite Hl, StarkPoly.domain_length. unfold lag_numer_poly. cbv zeta.
      now rewrite plin_length, pdilate_length, Nat.max_id.
    + intros x. change (Composition.peval O) with (Stark.peval O). rewrite Hq.
      rewrite (StarkPoly.domain_vanishing O L (hsub idx) (2 ^ idx) Hh) by (pose proof (Nat.pow_nonzero 2 idx); lia).
      reflexivity.
Qed.

Lemma peval_sub_const p a x : peval (Stark.sub_const O p a) x = peval p x -f (match p with [] => fz | _ => a end).
Proof. destruct p; simpl; ring. Qed.

Theorem lagrange_boundary_is_poly :
  exists q, length q = length Lp - 1 /\
            forall x, peval Lp x -f EnforceLagrange.lag_assertion_value O rr = (x -f f1) *f peval q x.
Proof.
  set (a := EnforceLagrange.lag_assertion_value O rr).
  assert (Hsc : forall x, peval (Stark.sub_const O Lp a) x = peval Lp x -f a).
  { intros x. rewrite peval_sub_const. destruct Lp eqn:E; [|reflexivity].
    assert (Ha : fz = a) by (unfold a; rewrite <- first_cell; reflexivity). rewrite <- Ha. reflexivity. }
  destruct (StarkPoly.vanish_divisible O L [f1] (Stark.sub_const O Lp a)) as [q [Hl Hq]].
  - constructor; [intros [] | constructor].
  - intros r0 [<-|[]]. change (Stark.peval O) with peval. rewrite Hsc. unfold a. rewrite first_cell. ring.
  - exists q. split.
    + rewrite Hl. destruct Lp; reflexivity.
    + intros x. rewrite <- Hsc. specialize (Hq x). change (Stark.peval O) with peval in Hq. rewrite Hq.
      cbn [Stark.pprod]. ring.
Qed.

(* ---------------------------------------------------------------- lag_def is ONE polynomial off the divisor zeros *)
Variable rou : nat -> F.
Hypothesis g_is : g = gtrace n rou.
Variable t : EnforceLagrange.LagTC (F := F).
Variable lb : F.
Local Notation lag_def := (lag_def O n rou v Lp t rr lb).

Definition lag_good (x : F) : Prop := x <> f1 /\ forall idx, idx < v -> cpow x (2 ^ idx) <> f1.

Lemma lag_frame_0 x : nth 0 (lag_frame O n rou v Lp x) fz = peval Lp x.
Proof. reflexivity. Qed.
Lemma lag_frame_nth x idx : idx < v ->
  nth (v - idx) (lag_frame O n rou v Lp x) fz = peval Lp (cpow g (2 ^ (v - 1 - idx)) *f x).
Proof.
  intros Hi. unfold lag_frame. replace (v - idx) with (S (v - 1 - idx)) by lia. cbn [nth].
  rewrite nth_map_seq by lia. now rewrite g_is.
Qed.

Lemma lag_num_poly x idx : idx < v ->
  lag_num O v t rr (lag_frame O n rou v Lp x) idx = nth idx (EnforceLagrange.l_coef t) fz *f peval (lag_numer_poly idx) x.
Proof. intros Hi. unfold lag_num. now rewrite lag_frame_0, (lag_frame_nth x idx Hi), lag_numer_poly_eval. Qed.

Lemma lag_sum_is_poly : forall m, m <= v ->
  exists Q, length Q <= length Lp /\ forall x, lag_good x ->
    rsum (map (fun idx => lag_num O v t rr (lag_frame O n rou v Lp x) idx *f finv O (cpow x (2 ^ idx) -f f1)) (seq 0 m)) = peval Q x.
Proof.
  induction m; intros Hm.
  - exists []. split; [simpl; lia|]. reflexivity.
  - destruct (IHm ltac:(lia)) as [Q [HQl HQ]]. destruct (lagrange_term_is_poly m ltac:(lia)) as [q [Hql Hq]].
    exists (Stark.padd O Q (Stark.pscale O (nth m (EnforceLagrange.l_coef t) fz) q)). split.
    + rewrite (StarkDeep.padd_length O), (StarkDeep.pscale_length O). lia.
    + intros x Hx. rewrite seq_S, map_app, (rsum_app O L), (HQ x Hx). cbn [map Nat.add Composition.rsum fold_right].
      change (Composition.peval O) with (Stark.peval O).
      rewrite (StarkDeep.peval_padd O L), (StarkDeep.peval_pscale O L). change (Stark.peval O) with peval.
      rewrite (lag_num_poly x m ltac:(lia)), Hq.
      assert (Hnz : cpow x (2 ^ m) -f f1 <> fz).
      { intros E. apply (proj2 Hx m ltac:(lia)). transitivity ((cpow x (2 ^ m) -f f1) +f f1); [ring | rewrite E; ring]. }
      field. exact Hnz.
Qed.

Theorem lag_def_is_poly :
  exists Q, length Q <= length Lp /\ forall x, lag_good x -> lag_def x = peval Q x.
Proof.
  destruct (lag_sum_is_poly v (le_n v)) as [Q [HQl HQ]]. destruct lagrange_boundary_is_poly as [qb [Hbl Hb]].
  exists (Stark.padd O Q (Stark.pscale O lb qb)). split.
  - rewrite (StarkDeep.padd_length O), (StarkDeep.pscale_length O). lia.
  - intros x Hx. unfold CompositionLagrange.lag_def, lag_def_on. rewrite (HQ x Hx), lag_frame_0, Hb.
    change (Composition.peval O) with (Stark.peval O).
    rewrite (StarkDeep.peval_padd O L), (StarkDeep.peval_pscale O L). change (Stark.peval O) with peval.
    assert (Hnz : x -f f1 <> fz).
    { intros E. apply (proj1 Hx). transitivity ((x -f f1) +f f1); [ring | rewrite E; ring]. }
    field. exact Hnz.
Qed.
End LagPoly.

(* ------------------------------------------------------------------ the capstone with the Lagrange terms *)
Section LagCapstone.
Context {F : Type} (O : FOps F) (L : FLaws O).
Local Infix "+f" := (fadd O) (at level 50, left associativity).
Local Notation peval := (peval O).

Variable n ceb : nat.
Variable offset : F.
Variable rou : nat -> F.
Hypothesis n_pos : n <> 0.
Local Notation ce_size := (ce_size n ceb).
Local Notation ce_x := (ce_x O n ceb offset rou).
Variable interp : list F -> list F.
Hypothesis interp_roundtrip : forall p, length p = ce_size -> interp (map (fun i => peval p (ce_x i)) (seq 0 ce_size)) = p.
Variable num_cols : nat.
Hypothesis n_lt_ce : n < ce_size.

(* composition_core_points at the ce coset *)
Lemma composition_core_gen (d : F -> F) (good : F -> Prop) (q : list F) :
  (forall z, good z -> peval q z = d z) -> (forall i, i < ce_size -> good (ce_x i)) ->
  length q <= ce_size -> length q <= num_cols * n ->
  exists cols, composition_poly_new n interp (map (fun i => d (ce_x i)) (seq 0 ce_size)) num_cols = Some cols
    /\ (forall z, recombine O n (cp_evaluate_at O cols z) z = peval q z)
    /\ (forall z, good z -> recombine O n (cp_evaluate_at O cols z) z = d z).
Proof.
  exact (composition_core_points O L n n_pos ce_size ce_x interp num_cols d good q n_lt_ce interp_roundtrip).
Qed.

(* cdef = comp_def of the AIR, ldef = lag_def.  Hypotheses and where each comes from:
     ev      : the table with the Lagrange hook is cdef + ldef over the ce coset        (C17_table_with_lagrange)
     Qc      : cdef agrees with a coefficient list off the trace domain (validity)      (comp_def_is_poly / C01)
     Ql      : ldef agrees with a coefficient list off the Lagrange divisor zeros       (C17_lag_def_is_poly, from the
               vanishing of the numerators on their subgroups: C16_lagrange_honest_numerators_vanish)
     interp_roundtrip                                                                  (C09, CompositionFFT.interp_fft_roundtrip)
   Conclusion: CompositionPoly::new succeeds on what evaluate returns and the committed columns recombine to
   Qc + Ql at EVERY z and to cdef(z) + ldef(z) at every z where both are defined. *)
Theorem composition_is_definition_lagrange_partial
  (cdef ldef : F -> F) (goodc goodl : F -> Prop) (Qc Ql : list F) (ev : option (list F)) :
  ev = Some (map (fun i => cdef (ce_x i) +f ldef (ce_x i)) (seq 0 ce_size)) ->
  (forall z, goodc z -> peval Qc z = cdef z) -> (forall z, goodl z -> peval Ql z = ldef z) ->
  (forall i, i < ce_size -> goodc (ce_x i) /\ goodl (ce_x i)) ->
  Nat.max (length Qc) (length Ql) <= ce_size -> Nat.max (length Qc) (length Ql) <= num_cols * n ->
  exists evals cols, ev = Some evals /\ composition_poly_new n interp evals num_cols = Some cols
    /\ (forall z, recombine O n (cp_evaluate_at O cols z) z = peval (Stark.padd O Qc Ql) z)
    /\ (forall z, goodc z -> goodl z -> recombine O n (cp_evaluate_at O cols z) z = cdef z +f ldef z).
Proof.
  intros Hev HQc HQl Hce Hl1 Hl2.
  destruct (composition_core_gen (fun z => cdef z +f ldef z) (fun z => goodc z /\ goodl z) (Stark.padd O Qc Ql))
    as [cols [H1 [H2 H3]]].
  - intros z [Hc Hl]. change (Composition.peval O) with (Stark.peval O). rewrite (StarkDeep.peval_padd O L).
    change (Stark.peval O) with peval. now rewrite HQc, HQl.
  - exact Hce.
  - now rewrite (StarkDeep.padd_length O).
  - now rewrite (StarkDeep.padd_length O).
  - eexists. exists cols. split; [exact Hev|]. split; [exact H1|]. split; [exact H2|]. intros z Hc Hl. apply H3. now split.
Qed.
End LagCapstone.
