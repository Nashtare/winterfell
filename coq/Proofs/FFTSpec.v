(* C09 stage (a): the DFT by direct evaluation, the radix-2 decimation lemma and correctness of the clean
   recursive FFT `fft_rec` for EVERY k; coset evaluation and interpolation at the spec level.
   The first part holds the facts about lupd, map2, split_eo and is_pow2 of Model/FFT.v that the FFT files share. *)
From Coq Require Import List Arith Bool ZArith Lia Ring Field.
From VBase Require Import FieldOps.
From VModel Require Import FFT.
From VProofs Require Import ListFacts Pow2Facts FieldFacts.
Import ListNotations.

(* ---------------------------------------------------------------- option guards *)
(* an assert of an entry point is a guard `if b then None else x` (b the negated condition) *)
Lemma guard_total {A} (b : bool) (x : option A) : (if b then None else x) <> None <-> b = false /\ x <> None.
Proof. destruct b; intuition congruence. Qed.

Lemma guard_some {A} (b : bool) (x : option A) a : (if b then None else x) = Some a -> x = Some a.
Proof. destruct b; [discriminate | trivial]. Qed.

Lemma guard_ext {A} (b : bool) (x y : option A) :
  (b = false -> x = y) -> (if b then None else x) = (if b then None else y).
Proof. intros H. destruct b; [reflexivity | exact (H eq_refl)]. Qed.

(* ---------------------------------------------------------------- lupd, map2, split_eo of Model/FFT.v *)
Lemma lupd_length {A} : forall (l : list A) i v, length (lupd l i v) = length l.
Proof. induction l; destruct i; cbn; intros; auto. Qed.

Lemma nth_lupd_eq {A} : forall (l : list A) i v d, i < length l -> nth i (lupd l i v) d = v.
Proof. induction l; destruct i; cbn; intros; try lia; auto; try (apply IHl; lia). Qed.

Lemma nth_lupd_neq {A} : forall (l : list A) i j v d, i <> j -> nth j (lupd l i v) d = nth j l d.
Proof.
  induction l; destruct i, j; cbn; intros; try lia; auto; try (apply IHl; lia).
Qed.

Lemma nth_lupd {A} : forall (l : list A) i j v d,
  nth j (lupd l i v) d = if (i =? j) && (i <? length l) then v else nth j l d.
Proof.
  intros. destruct (Nat.eqb_spec i j) as [->|Hn]; cbn [andb].
  - destruct (Nat.ltb_spec j (length l)).
    + apply nth_lupd_eq; assumption.
    + rewrite !nth_overflow; rewrite ?lupd_length; auto.
  - apply nth_lupd_neq; assumption.
Qed.

Lemma map2_map {A B C D} (f : B -> C -> D) (g : A -> B) (h : A -> C) l :
  map2 f (map g l) (map h l) = map (fun x => f (g x) (h x)) l.
Proof. induction l; cbn; [reflexivity | f_equal; assumption]. Qed.

Lemma map2_length {A B C} (f : A -> B -> C) : forall l1 l2, length l1 = length l2 ->
  length (map2 f l1 l2) = length l1.
Proof. induction l1; destruct l2; cbn; intros; try lia. f_equal. apply IHl1. lia. Qed.

Lemma map2_nth {A B C} (f : A -> B -> C) (da : A) (db : B) (dc : C) : forall a b t,
  t < length a -> t < length b -> nth t (map2 f a b) dc = f (nth t a da) (nth t b db).
Proof.
  induction a as [|x a IH]; destruct b as [|y b]; cbn [length]; intros t Ha Hb; try lia.
  destruct t; cbn [map2 nth]; [reflexivity|]. apply IH; lia.
Qed.

Lemma map2_repeat {A B C} (f : A -> B -> C) a b : forall n, map2 f (repeat a n) (repeat b n) = repeat (f a b) n.
Proof. induction n; cbn; [reflexivity | f_equal; exact IHn]. Qed.

Lemma split_eo_cons2 {A} (a b : A) t :
  split_eo (a :: b :: t) = (a :: fst (split_eo t), b :: snd (split_eo t)).
Proof. cbn [split_eo]. destruct (split_eo t) as [e o]. reflexivity. Qed.

Lemma split_eo_cons {A} (a : A) t :
  split_eo (a :: t) = (a :: snd (split_eo t), fst (split_eo t)).
Proof. cbn [split_eo]. destruct (split_eo t) as [e o]. reflexivity. Qed.

Lemma split_eo_length {A} : forall n (l : list A), length l = 2 * n ->
  length (fst (split_eo l)) = n /\ length (snd (split_eo l)) = n.
Proof.
  induction n as [|n IH]; intros l Hl.
  - destruct l; [cbn; auto | cbn in Hl; lia].
  - destruct l as [|a [|b t]]; cbn [length] in Hl; try lia.
    rewrite split_eo_cons2. cbn [fst snd length].
    destruct (IH t) as [H1 H2]; [lia|]. rewrite H1, H2. auto.
Qed.

Lemma split_eo_nth {A} (d : A) : forall l i,
  nth i (fst (split_eo l)) d = nth (2 * i) l d /\ nth i (snd (split_eo l)) d = nth (2 * i + 1) l d.
Proof.
  induction l as [|a t IH]; intros i.
  - cbn [split_eo fst snd]. rewrite !nth_nil. auto.
  - rewrite split_eo_cons. cbn [fst snd]. split.
    + destruct i as [|i']; [reflexivity|].
      replace (2 * S i') with (S (2 * i' + 1)) by lia. cbn [nth]. apply IH.
    + replace (2 * i + 1) with (S (2 * i)) by lia. cbn [nth]. apply IH.
Qed.

Lemma split_eo_map {A B} (f : A -> B) : forall l,
  split_eo (map f l) = (map f (fst (split_eo l)), map f (snd (split_eo l))).
Proof.
  induction l as [|a l IH]; [reflexivity|].
  cbn [map]. rewrite !split_eo_cons, IH. cbn [fst snd map]. reflexivity.
Qed.

Lemma split_eo_Forall {A} (P : A -> Prop) : forall l, Forall P l ->
  Forall P (fst (split_eo l)) /\ Forall P (snd (split_eo l)).
Proof.
  induction l as [|a l IH]; intros H; [cbn; auto|].
  inversion H; subst. rewrite split_eo_cons. cbn [fst snd]. destruct (IH H3). auto.
Qed.

(* ---------------------------------------------------------------- powers of two *)
Lemma is_pow2_pow2 k : is_pow2 (2 ^ k) = true.
Proof.
  unfold is_pow2. rewrite log2_pow2, Nat.eqb_refl, andb_true_r. apply Nat.ltb_lt, pow2_pos.
Qed.

Lemma split_eo_pow2 {A} k (l : list A) : length l = 2 ^ S k ->
  length (fst (split_eo l)) = 2 ^ k /\ length (snd (split_eo l)) = 2 ^ k.
Proof. intros Hl. apply split_eo_length. rewrite Hl. reflexivity. Qed.

Section Spec.
Context {F : Type} (O : FOps F) (L : FLaws O).
Add Field Ffield : (FLaws_field_theory O L).

Local Notation fz := (fzero O).
Local Notation f1 := (fone O).
Local Infix "+f" := (fadd O) (at level 50, left associativity).
Local Infix "-f" := (fsub O) (at level 50, left associativity).
Local Infix "*f" := (fmul O) (at level 40, left associativity).
Local Notation "-f x" := (fneg O x) (at level 35, right associativity).
Local Notation peval := (peval O).
Local Notation fpow := (fpow O).

(* ---------------------------------------------------------------- powers *)
Lemma fpow_pos_spec x e : fpow_pos O x e = fpow x (Pos.to_nat e).
Proof.
  induction e; cbn [fpow_pos].
  - rewrite IHe, Pos2Nat.inj_xI. cbn [FFT.fpow]. rewrite (fpow_sq O L), (fpow_mul_base O L). ring.
  - rewrite IHe, Pos2Nat.inj_xO, (fpow_sq O L), (fpow_mul_base O L). reflexivity.
  - symmetry. apply (fpow_1_r O L).
Qed.

Lemma fpow_N_spec x n : fpow_N O x (N.of_nat n) = fpow x n.
Proof.
  destruct n; [reflexivity|].
  cbn [N.of_nat fpow_N]. rewrite fpow_pos_spec, SuccNat2Pos.id_succ. reflexivity.
Qed.

Lemma fpow_neg_one j : fpow (-f f1) j = if Nat.even j then f1 else -f f1.
Proof.
  induction j as [|j IH]; [reflexivity|].
  rewrite Nat.even_succ, <- Nat.negb_even. cbn [FFT.fpow]. rewrite IH. destruct (Nat.even j); cbn [negb]; ring.
Qed.

Lemma power_series_from_spec : forall n s w,
  power_series_from O s w n = map (fun i => s *f fpow w i) (seq 0 n).
Proof.
  induction n; intros; cbn [power_series_from seq map]; [reflexivity|].
  f_equal; [cbn; ring|].
  rewrite IHn, <- seq_shift, map_map. apply map_ext. intros i. cbn [FFT.fpow]. ring.
Qed.

Lemma get_power_series_spec w n : get_power_series O w n = map (fpow w) (seq 0 n).
Proof.
  unfold get_power_series. rewrite power_series_from_spec. apply map_ext. intros; ring.
Qed.

Lemma get_power_series_length w n : length (get_power_series O w n) = n.
Proof. rewrite get_power_series_spec, map_length, seq_length. reflexivity. Qed.

(* ---------------------------------------------------------------- the decimation lemma: P(x) = Pe(x^2) + x Po(x^2) *)
Lemma peval_split : forall l x,
  peval l x = peval (fst (split_eo l)) (x *f x) +f x *f peval (snd (split_eo l)) (x *f x).
Proof.
  induction l as [|c t IH]; intros x.
  - cbn. ring.
  - rewrite split_eo_cons. cbn [fst snd FFT.peval]. rewrite (IH x). ring.
Qed.

Lemma peval_split_neg l x :
  peval l (-f x) = peval (fst (split_eo l)) (x *f x) -f x *f peval (snd (split_eo l)) (x *f x).
Proof. rewrite peval_split. replace (-f x *f -f x) with (x *f x) by ring. ring. Qed.

(* root condition: w^(2^(k-1)) = -1 for k >= 1, i.e. w is a primitive 2^k-th root of unity *)
Definition root_cond (k : nat) (w : F) : Prop :=
  match k with 0 => True | S k' => fpow w (2 ^ k') = -f f1 end.

Lemma root_cond_sq k w : root_cond (S k) w -> root_cond k (w *f w).
Proof.
  destruct k; cbn [root_cond]; [trivial|]. intros H.
  rewrite <- (fpow_sq O L). exact H.
Qed.

Lemma root_cond_one k w : root_cond (S k) w -> fpow w (2 ^ S k) = f1.
Proof.
  cbn [root_cond]; intros H. rewrite pow2_S, (fpow_add O L), H. ring.
Qed.

(* the second half of the powers of w repeats the first half with the opposite sign *)
Lemma root_cond_half k w i : root_cond (S k) w -> fpow w (2 ^ k + i) = -f fpow w i.
Proof. cbn [root_cond]; intros H. rewrite (fpow_add O L), H. ring. Qed.

Lemma root_cond_inv k w winv : root_cond k w -> w *f winv = f1 -> root_cond k winv.
Proof.
  destruct k; cbn [root_cond]; [trivial|]. intros Hw Hinv.
  assert (H : fpow w (2 ^ k) *f fpow winv (2 ^ k) = f1) by (rewrite <- (fpow_mul_base O L), Hinv; apply (fpow_one O L)).
  rewrite Hw in H. transitivity (-f (-f f1 *f fpow winv (2 ^ k))); [ring | rewrite H; reflexivity].
Qed.

Lemma root_cond_pow : forall d k w, root_cond (k + d) w -> root_cond k (fpow w (2 ^ d)).
Proof.
  induction d as [|d IH]; intros k w H.
  - rewrite Nat.add_0_r in H. change (2 ^ 0) with 1. rewrite (fpow_1_r O L). exact H.
  - rewrite Nat.add_succ_r in H. apply root_cond_sq, IH in H.
    change (2 ^ S d) with (2 * 2 ^ d). rewrite (fpow_sq O L). exact H.
Qed.

(* ---------------------------------------------------------------- (a) fft_rec computes the DFT, every k *)
Lemma fft_rec_S k w l :
  fft_rec O (S k) w l =
    let E := fft_rec O k (w *f w) (fst (split_eo l)) in
    let T := map2 (fmul O) (get_power_series O w (2 ^ k)) (fft_rec O k (w *f w) (snd (split_eo l))) in
    map2 (fadd O) E T ++ map2 (fsub O) E T.
Proof. cbn [fft_rec]. destruct (split_eo l). reflexivity. Qed.

Theorem fft_rec_correct : forall k w l,
  length l = 2 ^ k -> root_cond k w -> fft_rec O k w l = dft O (2 ^ k) w l.
Proof.
  induction k as [|k IH]; intros w l Hlen Hw.
  - destruct l as [|a [|b t]]; cbn in Hlen; try lia.
    cbn. f_equal. ring.
  - destruct (split_eo_pow2 k l Hlen) as [He Ho].
    rewrite fft_rec_S. cbv zeta.
    rewrite (IH _ _ He (root_cond_sq k w Hw)), (IH _ _ Ho (root_cond_sq k w Hw)).
    unfold dft. rewrite get_power_series_spec, !map2_map.
    rewrite pow2_S, seq_app, map_app. cbn [Nat.add].
    rewrite (map_seq_shift _ (2 ^ k) (2 ^ k)).
    f_equal; apply map_ext; intros i; rewrite (fpow_mul_base O L).
    + symmetry. apply peval_split.
    + rewrite (root_cond_half k w i Hw). symmetry. apply peval_split_neg.
Qed.

Lemma dft_length n w l : length (dft O n w l) = n.
Proof. unfold dft. rewrite map_length, seq_length. reflexivity. Qed.

Lemma dft_nth n w l i d : i < n -> nth i (dft O n w l) d = peval l (fpow w i).
Proof. exact (nth_map_seq (fun i => peval l (fpow w i)) n i d). Qed.

(* ---------------------------------------------------------------- scaling and padding: evaluation over a coset *)
Lemma shift_by_series_length : forall p s c, length (shift_by_series O p s c) = length p.
Proof. induction p; intros; cbn; [reflexivity | f_equal; apply IHp]. Qed.

Lemma peval_shift_by_series : forall p s c x,
  peval (shift_by_series O p s c) x = s *f peval p (c *f x).
Proof.
  induction p as [|a t IH]; intros; cbn [shift_by_series FFT.peval]; [ring|].
  rewrite IH. ring.
Qed.

Lemma peval_app : forall a b x, peval (a ++ b) x = peval a x +f fpow x (length a) *f peval b x.
Proof. exact (FieldFacts.peval_app O L). Qed.

Lemma peval_app_zeros p m x : peval (p ++ repeat fz m) x = peval p x.
Proof. rewrite peval_app, (peval_repeat_zero O L). ring. Qed.

(* evaluate_with_offset at the spec level: result[i] = p(offset * g^i), every K *)
Theorem spec_eval_offset_correct : forall K g p offset,
  length p <= 2 ^ K -> root_cond K g ->
  spec_eval_offset O K g p offset = map (fun i => peval p (offset *f fpow g i)) (seq 0 (2 ^ K)).
Proof.
  intros K g p offset Hlen Hg. unfold spec_eval_offset.
  rewrite fft_rec_correct; [| | exact Hg].
  - unfold dft. apply map_ext. intros i.
    rewrite peval_app_zeros, peval_shift_by_series. ring.
  - rewrite app_length, repeat_length, shift_by_series_length. lia.
Qed.

(* ---------------------------------------------------------------- inverse transform *)
Lemma peval_map2_add : forall a b x, length a = length b ->
  peval (map2 (fadd O) a b) x = peval a x +f peval b x.
Proof.
  induction a as [|c t IH]; destruct b; cbn [map2 FFT.peval length]; intros; try lia; [ring|].
  rewrite IH by lia. ring.
Qed.

Lemma peval_map2_sub : forall a b x, length a = length b ->
  peval (map2 (fsub O) a b) x = peval a x -f peval b x.
Proof.
  induction a as [|c t IH]; destruct b; cbn [map2 FFT.peval length]; intros; try lia; [ring|].
  rewrite IH by lia. ring.
Qed.

Lemma peval_twist : forall b s w x,
  peval (map2 (fmul O) (power_series_from O s w (length b)) b) x = s *f peval b (w *f x).
Proof.
  induction b as [|c t IH]; intros; cbn [length power_series_from map2 FFT.peval]; [ring|].
  rewrite IH. ring.
Qed.

Lemma fft_rec_length : forall k w l, length l = 2 ^ k -> length (fft_rec O k w l) = 2 ^ k.
Proof.
  induction k as [|k IH]; intros w l Hlen; [exact Hlen|].
  destruct (split_eo_pow2 k l Hlen) as [He Ho].
  rewrite fft_rec_S. cbv zeta.
  assert (HT : length (map2 (fmul O) (get_power_series O w (2 ^ k)) (fft_rec O k (w *f w) (snd (split_eo l)))) = 2 ^ k)
    by (rewrite map2_length; rewrite get_power_series_length; [reflexivity | symmetry; apply IH, Ho]).
  rewrite app_length, !map2_length, (IH _ _ He) by (rewrite HT; apply IH, He).
  symmetry. apply pow2_S.
Qed.

Fixpoint two_pow_f (k : nat) : F := match k with 0 => f1 | S k' => (f1 +f f1) *f two_pow_f k' end.

(* evaluating the transform at w^-j gives 2^k times the j-th coefficient: by the even/odd structure,
   no sums needed.  winv is any element with w * winv = 1. *)
Lemma idft_coeff : forall k w winv l j,
  length l = 2 ^ k -> root_cond k w -> w *f winv = f1 -> j < 2 ^ k ->
  peval (fft_rec O k w l) (fpow winv j) = two_pow_f k *f nth j l fz.
Proof.
  induction k as [|k IH]; intros w winv l j Hlen Hw Hinv Hj.
  - destruct l as [|a [|b t]]; cbn in Hlen; try lia.
    cbn in Hj. assert (j = 0) by lia. subst j. cbn. ring.
  - destruct (split_eo_pow2 k l Hlen) as [He Ho].
    assert (Hinv2 : (w *f w) *f (winv *f winv) = f1).
    { transitivity ((w *f winv) *f (w *f winv)); [ring | rewrite Hinv; ring]. }
    specialize (IH (w *f w) (winv *f winv)). rewrite pow2_S in Hj.
    rewrite fft_rec_S. cbv zeta.
    set (E := fft_rec O k (w *f w) (fst (split_eo l))).
    set (Od := fft_rec O k (w *f w) (snd (split_eo l))).
    assert (HE : length E = 2 ^ k) by apply (fft_rec_length k _ _ He).
    assert (HO : length Od = 2 ^ k) by apply (fft_rec_length k _ _ Ho).
    set (T := map2 (fmul O) (get_power_series O w (2 ^ k)) Od).
    assert (HT : length T = 2 ^ k) by (unfold T; rewrite map2_length; rewrite get_power_series_length; lia).
    assert (HTx : forall x, peval T x = peval Od (w *f x)).
    { intros x. unfold T, get_power_series. rewrite <- HO at 1. rewrite peval_twist. ring. }
    (* at x = winv^j:  E(x) + T(x) + x^(2^k) (E(x) - T(x)),  with T(x) = Od(w x) and x^(2^k) = (-1)^j *)
    rewrite peval_app, map2_length, peval_map2_add, peval_map2_sub, !HTx, HE by lia.
    rewrite <- (fpow_mul O L), (Nat.mul_comm j), (fpow_mul O L).
    rewrite (root_cond_inv (S k) w winv Hw Hinv : fpow winv (2 ^ k) = -f f1), fpow_neg_one.
    destruct (Nat.even j) eqn:Hev.
    + (* j = 2 j': the Od terms cancel *)
      apply Nat.even_spec in Hev. destruct Hev as [j' ->].
      rewrite (fpow_sq O L). unfold E. rewrite (IH _ j' He (root_cond_sq k w Hw) Hinv2) by lia.
      destruct (split_eo_nth fz l j') as [-> _]. cbn [two_pow_f]. ring.
    + (* j = 2 j' + 1: the E terms cancel, and w x = (winv^2)^j' *)
      assert (Hodd : Nat.odd j = true) by (rewrite <- Nat.negb_even, Hev; reflexivity).
      apply Nat.odd_spec in Hodd. destruct Hodd as [j' ->].
      replace (w *f fpow winv (2 * j' + 1)) with (fpow (winv *f winv) j').
      2:{ rewrite (fpow_add O L), (fpow_sq O L), (fpow_1_r O L).
          transitivity ((w *f winv) *f fpow (winv *f winv) j'); [rewrite Hinv|]; ring. }
      unfold Od. rewrite (IH _ j' Ho (root_cond_sq k w Hw) Hinv2) by lia.
      destruct (split_eo_nth fz l j') as [_ ->]. cbn [two_pow_f]. ring.
Qed.

(* interpolation at the spec level is the inverse of evaluation, every k:
   (1/2^k) * DFT_{w^-1} (DFT_w l) = l *)
Theorem spec_interpolate_inverse : forall k w winv ninv l,
  length l = 2 ^ k -> root_cond k w -> w *f winv = f1 -> two_pow_f k *f ninv = f1 ->
  spec_interpolate O k winv ninv (fft_rec O k w l) = l.
Proof.
  intros k w winv ninv l Hlen Hw Hinv Hn.
  unfold spec_interpolate.
  rewrite fft_rec_correct; [| apply fft_rec_length; exact Hlen | exact (root_cond_inv k w winv Hw Hinv)].
  apply nth_ext with (d := fz) (d' := fz).
  - rewrite map_length, dft_length. auto.
  - rewrite map_length, dft_length. intros j Hj.
    rewrite (nth_indep _ fz ((fun c => c *f ninv) fz)) by (rewrite map_length, dft_length; exact Hj).
    rewrite (map_nth (fun c => c *f ninv)), dft_nth by exact Hj.
    rewrite (idft_coeff k w winv l j Hlen Hw Hinv Hj).
    transitivity ((two_pow_f k *f ninv) *f nth j l fz); [ring | rewrite Hn; ring].
Qed.

End Spec.
