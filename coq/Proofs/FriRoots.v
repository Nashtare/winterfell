(* C15 — the family of two-power roots of unity `B::get_root_of_unity(k)`, k <= TWO_ADICITY, from three facts:
   get_root_of_unity(k+1)^2 = get_root_of_unity(k), get_root_of_unity(1) = -1, and 1 + 1 <> 0.
   Derived: order exactly 2^k (primitive), compatibility rou(j+k)^(2^j) = rou(k), 2^k invertible. *)
From Coq Require Import List Arith Bool Lia Ring Field.
From VBase Require Import FieldOps.
From VModel Require Import Fri.
From VProofs Require Import FieldFacts Pow2Facts FriField.
Import ListNotations.

Section Roots.
Context {F : Type} (O : FOps F) (L : FLaws O).
Add Field FfieldR : (FLaws_field_theory O L).

Local Notation zero := (fzero O).
Local Notation one := (fone O).
Local Infix "+f" := (fadd O) (at level 50, left associativity).
Local Infix "*f" := (fmul O) (at level 40, left associativity).
Local Notation "-f x" := (fneg O x) (at level 35, right associativity).
Local Notation fpow := (fpow O).

(* rou is a 2-adic root-of-unity family of depth K *)
Record rou_family (rou : nat -> F) (K : nat) : Prop := {
  rf_K_pos : 1 <= K;
  rf_sq : forall k, k < K -> rou (S k) *f rou (S k) = rou k;
  rf_1 : rou 1 = -f one;
  rf_two_nz : one +f one <> zero }.

Lemma fpow_neg1_odd e : fpow (-f one) (2 * e + 1) = -f one.
Proof.
  rewrite (fpow_add O L), (fpow_sq O L). replace (-f one *f -f one) with one by ring.
  rewrite (fpow_one O L). cbn. ring.
Qed.

Lemma fnat_add a b : fnat O (a + b) = fnat O a +f fnat O b.
Proof. induction a; cbn [Nat.add fnat]; [ring | rewrite IHa; ring]. Qed.

Section Family.
Variable rou : nat -> F.
Variable K : nat.
Hypothesis R : rou_family rou K.

Lemma rou_pow2 : forall j k, j + k <= K -> fpow (rou (j + k)) (2 ^ j) = rou k.
Proof.
  induction j as [|j IH]; intros k H; cbn [Nat.add Nat.pow].
  - cbn. ring.
  - rewrite (fpow_sq O L), (rf_sq _ _ R) by lia. apply IH. lia.
Qed.

Lemma rou_pow2_sub a j : j <= a <= K -> fpow (rou a) (2 ^ j) = rou (a - j).
Proof. intros H. rewrite <- (rou_pow2 j (a - j)) by lia. now replace (j + (a - j)) with a by lia. Qed.

Lemma rou_order k : k <= K -> fpow (rou k) (2 ^ k) = one.
Proof.
  intros H. rewrite rou_pow2_sub, Nat.sub_diag by lia.
  rewrite <- (rf_sq _ _ R 0), (rf_1 _ _ R) by (pose proof (rf_K_pos _ _ R); lia). ring.
Qed.

Lemma rou_half k : 1 <= k <= K -> fpow (rou k) (2 ^ (k - 1)) = -f one.
Proof. intros H. rewrite rou_pow2_sub by lia. replace (k - (k - 1)) with 1 by lia. apply (rf_1 _ _ R). Qed.

Lemma neg1_neq_1 : -f one <> one.
Proof. intros H. apply (rf_two_nz _ _ R). rewrite <- H at 1. ring. Qed.

(* an odd power of rou (k+1) is not 1 because its 2^k-th power is -1; an even one is a power of rou k *)
Lemma rou_prim : forall k, k <= K -> forall d, 0 < d < 2 ^ k -> fpow (rou k) d <> one.
Proof.
  induction k as [|k IH]; intros Hk d Hd; [cbn in Hd; lia|].
  intros E. destruct (Nat.Even_or_Odd d) as [[e He]|[e He]]; subst d.
  - apply (IH ltac:(lia) e); [cbn [Nat.pow] in Hd; lia|].
    rewrite <- (rf_sq _ _ R k) by lia. now rewrite <- (fpow_sq O L).
  - apply neg1_neq_1. rewrite <- (fpow_neg1_odd e), <- (rou_half (S k)) by lia.
    rewrite <- (fpow_mul O L), Nat.mul_comm, (fpow_mul O L), E. apply (fpow_one O L).
Qed.

(* the inverse-twiddle root of get_inv_twiddles(2^k): root^(2^k - 1) is the inverse of the root *)
Lemma rou_inv k : k <= K -> rou k *f fpow (rou k) (2 ^ k - 1) = one.
Proof.
  intros Hk. pose proof (pow2_nonzero k).
  change (rou k *f fpow (rou k) (2 ^ k - 1)) with (fpow (rou k) (S (2 ^ k - 1))).
  replace (S (2 ^ k - 1)) with (2 ^ k) by lia. now apply rou_order.
Qed.

Lemma rou_root k : k <= K -> root_of_unity O (2 ^ k) (rou k) (fpow (rou k) (2 ^ k - 1)).
Proof. intros Hk. split; [now apply rou_order | now apply rou_prim | now apply rou_inv]. Qed.

(* ... and a primitive 2^k-th root itself: its 2^(k-1)-th power is -1 *)
Lemma rou_inv_half k : 1 <= k <= K -> fpow (fpow (rou k) (2 ^ k - 1)) (2 ^ (k - 1)) = -f one.
Proof.
  intros Hk. rewrite <- (fpow_mul O L), Nat.mul_comm, (fpow_mul O L), rou_half by assumption.
  pose proof (pow2_nonzero (k - 1)).
  replace (2 ^ k - 1) with (2 * (2 ^ (k - 1) - 1) + 1); [apply fpow_neg1_odd|].
  replace k with (S (k - 1)) at 2 by lia. cbn [Nat.pow]. lia.
Qed.

Lemma rou_nonzero k : k <= K -> rou k <> zero.
Proof.
  intros Hk Hz. apply (fl_one_neq_zero O L). rewrite <- (rou_inv k Hk), Hz. ring.
Qed.

(* the points offset * rou(k)^i of a coset *)
Lemma coset_point_nonzero k offset i : k <= K -> offset <> zero -> offset *f fpow (rou k) i <> zero.
Proof. intros Hk Ho. apply (fmul_nonzero O L); [assumption | apply (fpow_nonzero O L), rou_nonzero, Hk]. Qed.

Lemma fnat_pow2_nonzero k : fnat O (2 ^ k) <> zero.
Proof.
  induction k as [|k IH]; cbn [Nat.pow].
  - cbn. intros H. apply (fl_one_neq_zero O L). rewrite <- H. ring.
  - replace (2 * 2 ^ k) with (2 ^ k + 2 ^ k) by lia. rewrite fnat_add.
    replace (fnat O (2 ^ k) +f fnat O (2 ^ k)) with ((one +f one) *f fnat O (2 ^ k)) by ring.
    apply (fmul_nonzero O L); [apply (rf_two_nz _ _ R) | assumption].
Qed.

End Family.
End Roots.
