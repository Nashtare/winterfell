(* C11 — the frequency-domain MDS multiplication (mds_f64_12x12.rs / mds_f64_8x8.rs, generated as VGen.Mds12 / Mds8):
   for limbs in [0, 2^32] every i64/u64 intermediate of `mds_multiply_freq` is in range (all generated `_ok` side
   conditions hold) and the result is the INTEGER circulant matrix-vector product; hence `mds_multiply` on raw words
   (hand model over the generated code) returns MDS * state mod M, canonical.
   Method: `i12_*` / `i8_*` below are the generated definitions with every `swrap 64` erased (ideal integer
   arithmetic; mechanically derived from Gen/Mds12.v, Gen/Mds8.v); each generated function equals its ideal twin under
   interval hypotheses (one `lia` per checked operation), and the ideal composition equals the matrix product by `ring`. *)
From VBase Require Import MachInt.
From VGen Require Import Mds12 Mds8.
From VModel Require Import RescueConsts Rescue.
Open Scope Z_scope.

Definition i12_fft2_real (x : (Z * Z)) : (Z * Z) :=
  ((Z.add ((fst x)) ((snd x))), (Z.sub ((fst x)) ((snd x)))).

Definition i12_ifft2_real_unreduced (y : (Z * Z)) : (Z * Z) :=
  (wrap 64 ((Z.add (fst y) (snd y))), wrap 64 ((Z.sub (fst y) (snd y)))).

Definition i12_fft4_real (x : (Z * Z * Z * Z)) : (Z * (Z * Z) * Z) :=
  let '(z0, z2) := i12_fft2_real (fst (fst (fst x)), snd (fst x)) in
  let '(z1, z3) := i12_fft2_real (snd (fst (fst x)), snd x) in
  let y0 := (Z.add z0 z1) in
  let y1 := (z2, (Z.opp z3)) in
  let y2 := (Z.sub z0 z1) in
  (y0, y1, y2).

Definition i12_ifft4_real_unreduced (y : (Z * (Z * Z) * Z)) : (Z * Z * Z * Z) :=
  let z0 := (Z.add (fst (fst y)) (snd y)) in
  let z1 := (Z.sub (fst (fst y)) (snd y)) in
  let z2 := fst (snd (fst y)) in
  let z3 := (Z.opp (snd (snd (fst y)))) in
  let '(x0, x2) := i12_ifft2_real_unreduced (z0, z2) in
  let '(x1, x3) := i12_ifft2_real_unreduced (z1, z3) in
  (x0, x1, x2, x3).

Definition i12_MDS_FREQ_BLOCK_ONE : (Z * Z * Z) := (16, 8, 16).

Definition i12_MDS_FREQ_BLOCK_TWO : ((Z * Z) * (Z * Z) * (Z * Z)) := (((Z.opp 1), 2), ((Z.opp 1), 1), (4, 8)).

Definition i12_MDS_FREQ_BLOCK_THREE : (Z * Z * Z) := ((Z.opp 8), 1, 1).

Definition i12_block1 (x : (Z * Z * Z)) (y : (Z * Z * Z)) : (Z * Z * Z) :=
  let '(x0, x1, x2) := x in
  let '(y0, y1, y2) := y in
  let z0 := (Z.add ((Z.add ((Z.mul x0 y0)) ((Z.mul x1 y2)))) ((Z.mul x2 y1))) in
  let z1 := (Z.add ((Z.add ((Z.mul x0 y1)) ((Z.mul x1 y0)))) ((Z.mul x2 y2))) in
  let z2 := (Z.add ((Z.add ((Z.mul x0 y2)) ((Z.mul x1 y1)))) ((Z.mul x2 y0))) in
  (z0, z1, z2).

Definition i12_block2 (x : ((Z * Z) * (Z * Z) * (Z * Z))) (y : ((Z * Z) * (Z * Z) * (Z * Z))) : ((Z * Z) * (Z * Z) * (Z * Z)) :=
  let '((x0r, x0i), (x1r, x1i), (x2r, x2i)) := x in
  let '((y0r, y0i), (y1r, y1i), (y2r, y2i)) := y in
  let x0s := (Z.add x0r x0i) in
  let x1s := (Z.add x1r x1i) in
  let x2s := (Z.add x2r x2i) in
  let y0s := (Z.add y0r y0i) in
  let y1s := (Z.add y1r y1i) in
  let y2s := (Z.add y2r y2i) in
  let m0 := ((Z.mul x0r y0r), (Z.mul x0i y0i)) in
  let m1 := ((Z.mul x1r y2r), (Z.mul x1i y2i)) in
  let m2 := ((Z.mul x2r y1r), (Z.mul x2i y1i)) in
  let z0r := (Z.add ((Z.add ((Z.sub (fst m0) (snd m0))) ((Z.sub ((Z.sub ((Z.mul x1s y2s)) (fst m1))) (snd m1))))) ((Z.sub ((Z.sub ((Z.mul x2s y1s)) (fst m2))) (snd m2)))) in
  let z0i := (Z.add ((Z.add ((Z.sub ((Z.sub ((Z.mul x0s y0s)) (fst m0))) (snd m0))) ((Z.add ((Z.opp (fst m1))) (snd m1))))) ((Z.add ((Z.opp (fst m2))) (snd m2)))) in
  let z0 := (z0r, z0i) in
  let m0 := ((Z.mul x0r y1r), (Z.mul x0i y1i)) in
  let m1 := ((Z.mul x1r y0r), (Z.mul x1i y0i)) in
  let m2 := ((Z.mul x2r y2r), (Z.mul x2i y2i)) in
  let z1r := (Z.add ((Z.add ((Z.sub (fst m0) (snd m0))) ((Z.sub (fst m1) (snd m1))))) ((Z.sub ((Z.sub ((Z.mul x2s y2s)) (fst m2))) (snd m2)))) in
  let z1i := (Z.add ((Z.add ((Z.sub ((Z.sub ((Z.mul x0s y1s)) (fst m0))) (snd m0))) ((Z.sub ((Z.sub ((Z.mul x1s y0s)) (fst m1))) (snd m1))))) ((Z.add ((Z.opp (fst m2))) (snd m2)))) in
  let z1 := (z1r, z1i) in
  let m0 := ((Z.mul x0r y2r), (Z.mul x0i y2i)) in
  let m1 := ((Z.mul x1r y1r), (Z.mul x1i y1i)) in
  let m2 := ((Z.mul x2r y0r), (Z.mul x2i y0i)) in
  let z2r := (Z.add ((Z.add ((Z.sub (fst m0) (snd m0))) ((Z.sub (fst m1) (snd m1))))) ((Z.sub (fst m2) (snd m2)))) in
  let z2i := (Z.add ((Z.add ((Z.sub ((Z.sub ((Z.mul x0s y2s)) (fst m0))) (snd m0))) ((Z.sub ((Z.sub ((Z.mul x1s y1s)) (fst m1))) (snd m1))))) ((Z.sub ((Z.sub ((Z.mul x2s y0s)) (fst m2))) (snd m2)))) in
  let z2 := (z2r, z2i) in
  (z0, z1, z2).

Definition i12_block3 (x : (Z * Z * Z)) (y : (Z * Z * Z)) : (Z * Z * Z) :=
  let '(x0, x1, x2) := x in
  let '(y0, y1, y2) := y in
  let z0 := (Z.sub ((Z.sub ((Z.mul x0 y0)) ((Z.mul x1 y2)))) ((Z.mul x2 y1))) in
  let z1 := (Z.sub ((Z.add ((Z.mul x0 y1)) ((Z.mul x1 y0)))) ((Z.mul x2 y2))) in
  let z2 := (Z.add ((Z.add ((Z.mul x0 y2)) ((Z.mul x1 y1)))) ((Z.mul x2 y0))) in
  (z0, z1, z2).

Definition i12_mds_multiply_freq (state : (Z * Z * Z * Z * Z * Z * Z * Z * Z * Z * Z * Z)) : (Z * Z * Z * Z * Z * Z * Z * Z * Z * Z * Z * Z) :=
  let '(s0, s1, s2, s3, s4, s5, s6, s7, s8, s9, s10, s11) := state in
  let '(u0, u1, u2) := i12_fft4_real (s0, s3, s6, s9) in
  let '(u4, u5, u6) := i12_fft4_real (s1, s4, s7, s10) in
  let '(u8, u9, u10) := i12_fft4_real (s2, s5, s8, s11) in
  let '(v0, v4, v8) := i12_block1 (u0, u4, u8) i12_MDS_FREQ_BLOCK_ONE in
  let '(v1, v5, v9) := i12_block2 (u1, u5, u9) i12_MDS_FREQ_BLOCK_TWO in
  let '(v2, v6, v10) := i12_block3 (u2, u6, u10) i12_MDS_FREQ_BLOCK_THREE in
  let '(s0, s3, s6, s9) := i12_ifft4_real_unreduced (v0, v1, v2) in
  let '(s1, s4, s7, s10) := i12_ifft4_real_unreduced (v4, v5, v6) in
  let '(s2, s5, s8, s11) := i12_ifft4_real_unreduced (v8, v9, v10) in
  (s0, s1, s2, s3, s4, s5, s6, s7, s8, s9, s10, s11).

Definition i8_fft2_real (x : (Z * Z)) : (Z * Z) :=
  ((Z.add ((fst x)) ((snd x))), (Z.sub ((fst x)) ((snd x)))).

Definition i8_ifft2_real_unreduced (y : (Z * Z)) : (Z * Z) :=
  (wrap 64 ((Z.add (fst y) (snd y))), wrap 64 ((Z.sub (fst y) (snd y)))).

Definition i8_fft4_real (x : (Z * Z * Z * Z)) : (Z * (Z * Z) * Z) :=
  let '(z0, z2) := i8_fft2_real (fst (fst (fst x)), snd (fst x)) in
  let '(z1, z3) := i8_fft2_real (snd (fst (fst x)), snd x) in
  let y0 := (Z.add z0 z1) in
  let y1 := (z2, (Z.opp z3)) in
  let y2 := (Z.sub z0 z1) in
  (y0, y1, y2).

Definition i8_ifft4_real_unreduced (y : (Z * (Z * Z) * Z)) : (Z * Z * Z * Z) :=
  let z0 := (Z.add (fst (fst y)) (snd y)) in
  let z1 := (Z.sub (fst (fst y)) (snd y)) in
  let z2 := fst (snd (fst y)) in
  let z3 := (Z.opp (snd (snd (fst y)))) in
  let '(x0, x2) := i8_ifft2_real_unreduced (z0, z2) in
  let '(x1, x3) := i8_ifft2_real_unreduced (z1, z3) in
  (x0, x1, x2, x3).

Definition i8_MDS_FREQ_BLOCK_ONE : (Z * Z) := (16, 8).

Definition i8_MDS_FREQ_BLOCK_TWO : ((Z * Z) * (Z * Z)) := ((8, (Z.opp 4)), ((Z.opp 1), 1)).

Definition i8_MDS_FREQ_BLOCK_THREE : (Z * Z) := ((Z.opp 1), 1).

Definition i8_block1 (x : (Z * Z)) (y : (Z * Z)) : (Z * Z) :=
  let '(x0, x1) := x in
  let '(y0, y1) := y in
  let z0 := (Z.add ((Z.mul x0 y0)) ((Z.mul x1 y1))) in
  let z1 := (Z.add ((Z.mul x0 y1)) ((Z.mul x1 y0))) in
  (z0, z1).

Definition i8_block2 (x : ((Z * Z) * (Z * Z))) (y : ((Z * Z) * (Z * Z))) : ((Z * Z) * (Z * Z)) :=
  let '((x0r, x0i), (x1r, x1i)) := x in
  let '((y0r, y0i), (y1r, y1i)) := y in
  let x0s := (Z.add x0r x0i) in
  let x1s := (Z.add x1r x1i) in
  let y0s := (Z.add y0r y0i) in
  let y1s := (Z.add y1r y1i) in
  let m0 := ((Z.mul x0r y0r), (Z.mul x0i y0i)) in
  let m1 := ((Z.mul x1r y1r), (Z.mul x1i y1i)) in
  let z0r := (Z.add ((Z.sub (fst m0) (snd m0))) ((Z.sub ((Z.sub ((Z.mul x1s y1s)) (fst m1))) (snd m1)))) in
  let z0i := (Z.add ((Z.sub ((Z.sub ((Z.mul x0s y0s)) (fst m0))) (snd m0))) ((Z.add ((Z.opp (fst m1))) (snd m1)))) in
  let z0 := (z0r, z0i) in
  let m0 := ((Z.mul x0r y1r), (Z.mul x0i y1i)) in
  let m1 := ((Z.mul x1r y0r), (Z.mul x1i y0i)) in
  let z1r := (Z.add ((Z.sub (fst m0) (snd m0))) ((Z.sub (fst m1) (snd m1)))) in
  let z1i := (Z.add ((Z.sub ((Z.sub ((Z.mul x0s y1s)) (fst m0))) (snd m0))) ((Z.sub ((Z.sub ((Z.mul x1s y0s)) (fst m1))) (snd m1)))) in
  let z1 := (z1r, z1i) in
  (z0, z1).

Definition i8_block3 (x : (Z * Z)) (y : (Z * Z)) : (Z * Z) :=
  let '(x0, x1) := x in
  let '(y0, y1) := y in
  let z0 := (Z.sub ((Z.mul x0 y0)) ((Z.mul x1 y1))) in
  let z1 := (Z.add ((Z.mul x0 y1)) ((Z.mul x1 y0))) in
  (z0, z1).

Definition i8_mds_multiply_freq (state : (Z * Z * Z * Z * Z * Z * Z * Z)) : (Z * Z * Z * Z * Z * Z * Z * Z) :=
  let '(s0, s1, s2, s3, s4, s5, s6, s7) := state in
  let '(u0, u1, u2) := i8_fft4_real (s0, s2, s4, s6) in
  let '(u4, u5, u6) := i8_fft4_real (s1, s3, s5, s7) in
  let '(v0, v4) := i8_block1 (u0, u4) i8_MDS_FREQ_BLOCK_ONE in
  let '(v1, v5) := i8_block2 (u1, u5) i8_MDS_FREQ_BLOCK_TWO in
  let '(v2, v6) := i8_block3 (u2, u6) i8_MDS_FREQ_BLOCK_THREE in
  let '(s0, s2, s4, s6) := i8_ifft4_real_unreduced (v0, v1, v2) in
  let '(s1, s3, s5, s7) := i8_ifft4_real_unreduced (v4, v5, v6) in
  (s0, s1, s2, s3, s4, s5, s6, s7).

Lemma swrap64_id x : - 2 ^ 63 <= x < 2 ^ 63 -> swrap 64 x = x.
Proof. intros H. unfold swrap. change (2 ^ (64 - 1)) with (2 ^ 63). rewrite Z.mod_small by lia. lia. Qed.
Lemma in_s64_true x : - 2 ^ 63 <= x < 2 ^ 63 -> in_s 64 x = true.
Proof. intros H. unfold in_s. change (2 ^ (64 - 1)) with (2 ^ 63). apply andb_true_intro. split; [apply Z.leb_le | apply Z.ltb_lt]; lia. Qed.
Lemma neq_min_true x : - 2 ^ 63 < x -> negb (Z.eqb x (-9223372036854775808)) = true.
Proof. intros H. apply negb_true_iff. apply Z.eqb_neq. lia. Qed.

(* remove every `swrap 64 e` innermost-first, proving the i64 range of e from the interval hypotheses *)
Ltac kill_swrap :=
  repeat match goal with
  | |- context[swrap 64 ?e] => lazymatch e with context[swrap] => fail | _ => rewrite (swrap64_id e) by lia end
  end.
(* use an instance t of a lemma `ranges -> f x = g x /\ f_ok x = true`: ranges by `side`, then rewrite with both *)
Ltac twin t side :=
  let E := fresh "E" in let O := fresh "O" in destruct t as (E & O); [side .. | rewrite ?E, ?O; clear E O].

(* a generated function and its `_ok` agree with the ideal twin: unfold everything down to the arithmetic, then one
   range fact per wrapping operation and one per check *)
Ltac by_ranges :=
  cbv - [swrap wrap in_s negb andb Z.eqb Z.add Z.sub Z.mul Z.opp];
  kill_swrap; split; [reflexivity|];
  repeat lazymatch goal with |- andb _ _ = true => apply andb_true_intro; split end;
  first [apply in_s64_true | apply neq_min_true]; lia.

Definition L32 (x : Z) : Prop := 0 <= x <= 2 ^ 32.            (* a limb as passed by mds_multiply (even 2^32 itself) *)
Definition B35 (x : Z) : Prop := - 2 ^ 35 <= x <= 2 ^ 35.      (* outputs of the 4-point real FFT of limbs *)
Definition B45 (x : Z) : Prop := - 2 ^ 45 <= x <= 2 ^ 45.      (* outputs of block1/2/3 *)

(* ------------------------------------------------------------------------------------------------ 12 x 12 *)
Lemma fft4_12 a b c d : L32 a -> L32 b -> L32 c -> L32 d ->
  mds12_fft4_real (a, b, c, d) = i12_fft4_real (a, b, c, d) /\ mds12_fft4_real_ok (a, b, c, d) = true.
Proof. unfold L32. intros. by_ranges. Qed.

Lemma block1_12 x0 x1 x2 : B35 x0 -> B35 x1 -> B35 x2 ->
  mds12_block1 (x0, x1, x2) mds12_MDS_FREQ_BLOCK_ONE = i12_block1 (x0, x1, x2) i12_MDS_FREQ_BLOCK_ONE /\
  mds12_block1_ok (x0, x1, x2) mds12_MDS_FREQ_BLOCK_ONE = true.
Proof. unfold B35. intros. by_ranges. Qed.

Lemma block2_12 x0r x0i x1r x1i x2r x2i : B35 x0r -> B35 x0i -> B35 x1r -> B35 x1i -> B35 x2r -> B35 x2i ->
  mds12_block2 ((x0r, x0i), (x1r, x1i), (x2r, x2i)) mds12_MDS_FREQ_BLOCK_TWO = i12_block2 ((x0r, x0i), (x1r, x1i), (x2r, x2i)) i12_MDS_FREQ_BLOCK_TWO /\
  mds12_block2_ok ((x0r, x0i), (x1r, x1i), (x2r, x2i)) mds12_MDS_FREQ_BLOCK_TWO = true.
Proof. unfold B35. intros. by_ranges. Qed.

Lemma block3_12 x0 x1 x2 : B35 x0 -> B35 x1 -> B35 x2 ->
  mds12_block3 (x0, x1, x2) mds12_MDS_FREQ_BLOCK_THREE = i12_block3 (x0, x1, x2) i12_MDS_FREQ_BLOCK_THREE /\
  mds12_block3_ok (x0, x1, x2) mds12_MDS_FREQ_BLOCK_THREE = true.
Proof. unfold B35. intros. by_ranges. Qed.

Lemma ifft4_12 a b c d : B45 a -> B45 b -> B45 c -> B45 d ->
  mds12_ifft4_real_unreduced (a, (b, c), d) = i12_ifft4_real_unreduced (a, (b, c), d) /\
  mds12_ifft4_real_unreduced_ok (a, (b, c), d) = true.
Proof. unfold B45. intros. by_ranges. Qed.

(* mds_freq_exact: the integer circulant product, with all 12-point intermediates in range *)
Theorem freq12_exact s0 s1 s2 s3 s4 s5 s6 s7 s8 s9 s10 s11 : L32 s0 -> L32 s1 -> L32 s2 -> L32 s3 -> L32 s4 -> L32 s5 -> L32 s6 -> L32 s7 -> L32 s8 -> L32 s9 -> L32 s10 -> L32 s11 ->
  mds12_mds_multiply_freq (s0, s1, s2, s3, s4, s5, s6, s7, s8, s9, s10, s11) =
    (7 * s0 + 23 * s1 + 8 * s2 + 26 * s3 + 13 * s4 + 10 * s5 + 9 * s6 + 7 * s7 + 6 * s8 + 22 * s9 + 21 * s10 + 8 * s11,
     8 * s0 + 7 * s1 + 23 * s2 + 8 * s3 + 26 * s4 + 13 * s5 + 10 * s6 + 9 * s7 + 7 * s8 + 6 * s9 + 22 * s10 + 21 * s11,
     21 * s0 + 8 * s1 + 7 * s2 + 23 * s3 + 8 * s4 + 26 * s5 + 13 * s6 + 10 * s7 + 9 * s8 + 7 * s9 + 6 * s10 + 22 * s11,
     22 * s0 + 21 * s1 + 8 * s2 + 7 * s3 + 23 * s4 + 8 * s5 + 26 * s6 + 13 * s7 + 10 * s8 + 9 * s9 + 7 * s10 + 6 * s11,
     6 * s0 + 22 * s1 + 21 * s2 + 8 * s3 + 7 * s4 + 23 * s5 + 8 * s6 + 26 * s7 + 13 * s8 + 10 * s9 + 9 * s10 + 7 * s11,
     7 * s0 + 6 * s1 + 22 * s2 + 21 * s3 + 8 * s4 + 7 * s5 + 23 * s6 + 8 * s7 + 26 * s8 + 13 * s9 + 10 * s10 + 9 * s11,
     9 * s0 + 7 * s1 + 6 * s2 + 22 * s3 + 21 * s4 + 8 * s5 + 7 * s6 + 23 * s7 + 8 * s8 + 26 * s9 + 13 * s10 + 10 * s11,
     10 * s0 + 9 * s1 + 7 * s2 + 6 * s3 + 22 * s4 + 21 * s5 + 8 * s6 + 7 * s7 + 23 * s8 + 8 * s9 + 26 * s10 + 13 * s11,
     13 * s0 + 10 * s1 + 9 * s2 + 7 * s3 + 6 * s4 + 22 * s5 + 21 * s6 + 8 * s7 + 7 * s8 + 23 * s9 + 8 * s10 + 26 * s11,
     26 * s0 + 13 * s1 + 10 * s2 + 9 * s3 + 7 * s4 + 6 * s5 + 22 * s6 + 21 * s7 + 8 * s8 + 7 * s9 + 23 * s10 + 8 * s11,
     8 * s0 + 26 * s1 + 13 * s2 + 10 * s3 + 9 * s4 + 7 * s5 + 6 * s6 + 22 * s7 + 21 * s8 + 8 * s9 + 7 * s10 + 23 * s11,
     23 * s0 + 8 * s1 + 26 * s2 + 13 * s3 + 10 * s4 + 9 * s5 + 7 * s6 + 6 * s7 + 22 * s8 + 21 * s9 + 8 * s10 + 7 * s11)
  /\ mds12_mds_multiply_freq_ok (s0, s1, s2, s3, s4, s5, s6, s7, s8, s9, s10, s11) = true.
Proof.
  intros. unfold mds12_mds_multiply_freq, mds12_mds_multiply_freq_ok.
  repeat match goal with |- context[mds12_fft4_real (?a, ?b, ?c, ?d)] => twin (fft4_12 a b c d) assumption end.
  cbv [i12_fft4_real i12_fft2_real fst snd].
  unfold L32 in *.
  match goal with |- context[mds12_block1 (?x0, ?x1, ?x2) _] => twin (block1_12 x0 x1 x2) ltac:(unfold B35; lia) end.
  match goal with |- context[mds12_block2 ((?x0r, ?x0i), (?x1r, ?x1i), (?x2r, ?x2i)) _] =>
    twin (block2_12 x0r x0i x1r x1i x2r x2i) ltac:(unfold B35; lia) end.
  match goal with |- context[mds12_block3 (?x0, ?x1, ?x2) _] => twin (block3_12 x0 x1 x2) ltac:(unfold B35; lia) end.
  cbv [i12_block1 i12_block2 i12_block3 i12_MDS_FREQ_BLOCK_ONE i12_MDS_FREQ_BLOCK_TWO i12_MDS_FREQ_BLOCK_THREE fst snd].
  repeat match goal with |- context[mds12_ifft4_real_unreduced (?a, (?b, ?c), ?d)] => twin (ifft4_12 a b c d) ltac:(unfold B45; lia) end.
  cbv [i12_ifft4_real_unreduced i12_ifft2_real_unreduced fst snd andb].
  repeat match goal with |- context[wrap 64 ?e] => rewrite (wrap_small 64 e) by lia end.
  split; [|reflexivity].
  repeat (f_equal; try lia).
Qed.

(* ------------------------------------------------------------------------------------------------ 8 x 8 *)
Lemma fft4_8 a b c d : L32 a -> L32 b -> L32 c -> L32 d ->
  mds8_fft4_real (a, b, c, d) = i8_fft4_real (a, b, c, d) /\ mds8_fft4_real_ok (a, b, c, d) = true.
Proof. unfold L32. intros. by_ranges. Qed.

Lemma block1_8 x0 x1 : B35 x0 -> B35 x1 ->
  mds8_block1 (x0, x1) mds8_MDS_FREQ_BLOCK_ONE = i8_block1 (x0, x1) i8_MDS_FREQ_BLOCK_ONE /\
  mds8_block1_ok (x0, x1) mds8_MDS_FREQ_BLOCK_ONE = true.
Proof. unfold B35. intros. by_ranges. Qed.

Lemma block2_8 x0r x0i x1r x1i : B35 x0r -> B35 x0i -> B35 x1r -> B35 x1i ->
  mds8_block2 ((x0r, x0i), (x1r, x1i)) mds8_MDS_FREQ_BLOCK_TWO = i8_block2 ((x0r, x0i), (x1r, x1i)) i8_MDS_FREQ_BLOCK_TWO /\
  mds8_block2_ok ((x0r, x0i), (x1r, x1i)) mds8_MDS_FREQ_BLOCK_TWO = true.
Proof. unfold B35. intros. by_ranges. Qed.

Lemma block3_8 x0 x1 : B35 x0 -> B35 x1 ->
  mds8_block3 (x0, x1) mds8_MDS_FREQ_BLOCK_THREE = i8_block3 (x0, x1) i8_MDS_FREQ_BLOCK_THREE /\
  mds8_block3_ok (x0, x1) mds8_MDS_FREQ_BLOCK_THREE = true.
Proof. unfold B35. intros. by_ranges. Qed.

Lemma ifft4_8 a b c d : B45 a -> B45 b -> B45 c -> B45 d ->
  mds8_ifft4_real_unreduced (a, (b, c), d) = i8_ifft4_real_unreduced (a, (b, c), d) /\
  mds8_ifft4_real_unreduced_ok (a, (b, c), d) = true.
Proof. unfold B45. intros. by_ranges. Qed.

(* mds_freq_exact: the integer circulant product, with all 8-point intermediates in range *)
Theorem freq8_exact s0 s1 s2 s3 s4 s5 s6 s7 : L32 s0 -> L32 s1 -> L32 s2 -> L32 s3 -> L32 s4 -> L32 s5 -> L32 s6 -> L32 s7 ->
  mds8_mds_multiply_freq (s0, s1, s2, s3, s4, s5, s6, s7) =
    (23 * s0 + 8 * s1 + 13 * s2 + 10 * s3 + 7 * s4 + 6 * s5 + 21 * s6 + 8 * s7,
     8 * s0 + 23 * s1 + 8 * s2 + 13 * s3 + 10 * s4 + 7 * s5 + 6 * s6 + 21 * s7,
     21 * s0 + 8 * s1 + 23 * s2 + 8 * s3 + 13 * s4 + 10 * s5 + 7 * s6 + 6 * s7,
     6 * s0 + 21 * s1 + 8 * s2 + 23 * s3 + 8 * s4 + 13 * s5 + 10 * s6 + 7 * s7,
     7 * s0 + 6 * s1 + 21 * s2 + 8 * s3 + 23 * s4 + 8 * s5 + 13 * s6 + 10 * s7,
     10 * s0 + 7 * s1 + 6 * s2 + 21 * s3 + 8 * s4 + 23 * s5 + 8 * s6 + 13 * s7,
     13 * s0 + 10 * s1 + 7 * s2 + 6 * s3 + 21 * s4 + 8 * s5 + 23 * s6 + 8 * s7,
     8 * s0 + 13 * s1 + 10 * s2 + 7 * s3 + 6 * s4 + 21 * s5 + 8 * s6 + 23 * s7)
  /\ mds8_mds_multiply_freq_ok (s0, s1, s2, s3, s4, s5, s6, s7) = true.
Proof.
  intros. unfold mds8_mds_multiply_freq, mds8_mds_multiply_freq_ok.
  repeat match goal with |- context[mds8_fft4_real (?a, ?b, ?c, ?d)] => twin (fft4_8 a b c d) assumption end.
  cbv [i8_fft4_real i8_fft2_real fst snd].
  unfold L32 in *.
  match goal with |- context[mds8_block1 (?x0, ?x1) _] => twin (block1_8 x0 x1) ltac:(unfold B35; lia) end.
  match goal with |- context[mds8_block2 ((?x0r, ?x0i), (?x1r, ?x1i)) _] => twin (block2_8 x0r x0i x1r x1i) ltac:(unfold B35; lia) end.
  match goal with |- context[mds8_block3 (?x0, ?x1) _] => twin (block3_8 x0 x1) ltac:(unfold B35; lia) end.
  cbv [i8_block1 i8_block2 i8_block3 i8_MDS_FREQ_BLOCK_ONE i8_MDS_FREQ_BLOCK_TWO i8_MDS_FREQ_BLOCK_THREE fst snd].
  repeat match goal with |- context[mds8_ifft4_real_unreduced (?a, (?b, ?c), ?d)] => twin (ifft4_8 a b c d) ltac:(unfold B45; lia) end.
  cbv [i8_ifft4_real_unreduced i8_ifft2_real_unreduced fst snd andb].
  repeat match goal with |- context[wrap 64 ?e] => rewrite (wrap_small 64 e) by lia end.
  split; [|reflexivity].
  repeat (f_equal; try lia).
Qed.

(* ------------------------------------------------------------------------------------------------ the u128 fold *)
(* s = l + (h << 32) folded with 2^64 = 2^32 - 1 (mod M), then one conditional subtraction: the canonical residue *)
Lemma mds_fold_spec l h : 0 <= l < 2 ^ 41 -> 0 <= h < 2 ^ 41 ->
  mds_fold l h = (l + h * 2 ^ 32) mod M64 /\ mds_fold_ok l h = true.
Proof.
  intros Hl Hh.
  assert (Hs128 : shl 128 h 32 = h * 2 ^ 32).
  { unfold shl. apply Z.mod_small. lia. }
  unfold mds_fold, mds_fold_ok. rewrite Hs128. cbv zeta.
  set (s := l + h * 2 ^ 32).
  assert (Hs : 0 <= s < 2 ^ 74) by (unfold s; lia).
  unfold shr.
  pose proof (Z.div_mod s (2 ^ 64) ltac:(lia)) as Hdm.
  pose proof (Z.mod_pos_bound s (2 ^ 64) ltac:(lia)) as Hr.
  set (q := s / 2 ^ 64) in *. set (r := s mod 2 ^ 64) in *.
  assert (Hq : 0 <= q < 2 ^ 10).
  { split; [apply Z.div_pos; lia | apply Z.div_lt_upper_bound; lia]. }
  rewrite (wrap_small 64 q) by lia.
  change (wrap 64 s) with r.
  assert (Hsh : shl 64 q 32 = q * 2 ^ 32) by (unfold shl; apply Z.mod_small; lia).
  rewrite Hsh.
  rewrite (wrap_small 64 (q * 2 ^ 32 - q)) by lia.
  set (z := q * 2 ^ 32 - q).
  assert (Hz : 0 <= z < 2 ^ 42) by (unfold z; lia).
  assert (HM : M64 = 2 ^ 64 - 2 ^ 32 + 1) by reflexivity.
  assert (Hdecomp : s = M64 * q + (r + z)) by (unfold z; lia).
  split.
  - unfold ovf_add, ovf_sub.
    destruct (Z.leb_spec (2 ^ 64) (r + z)) as [Hov|Hov].
    + (* the addition overflowed: res = r + z - 2^64 + (2^32 - 1) = r + z - M, already canonical *)
      assert (E1 : (r + z) mod 2 ^ 64 = r + z - 2 ^ 64).
      { symmetry. apply (Z.mod_unique _ _ 1); lia. }
      rewrite E1. change (b2z true) with 1. change (wrap 32 (0 - 1)) with (2 ^ 32 - 1).
      rewrite (wrap_small 64 (r + z - 2 ^ 64 + (2 ^ 32 - 1))) by lia.
      destruct (Z.ltb_spec (r + z - 2 ^ 64 + (2 ^ 32 - 1)) M64) as [Hlt|Hge]; [|lia].
      apply (Z.mod_unique _ _ (q + 1)); lia.
    + rewrite (Z.mod_small (r + z) (2 ^ 64)) by lia.
      change (b2z false) with 0. change (wrap 32 (0 - 0)) with 0. rewrite Z.add_0_r.
      rewrite (wrap_small 64 (r + z)) by lia.
      destruct (Z.ltb_spec (r + z) M64) as [Hlt|Hge].
      * apply (Z.mod_unique _ _ q); lia.
      * (* the case the unrepaired code got wrong: r + z in [M, 2^64) needs the final subtraction *)
        assert (E2 : (r + z - M64) mod 2 ^ 64 = r + z - M64) by (apply Z.mod_small; lia).
        rewrite E2. apply (Z.mod_unique _ _ (q + 1)); lia.
  - unfold in_u. apply andb_true_intro. split; apply andb_true_intro; split;
      (apply Z.leb_le || apply Z.ltb_lt); fold s; fold z; lia.
Qed.

(* the reduction WITHOUT the final conditional subtraction (the code before the C11 repair) was not canonical *)
Definition mds_fold_unrepaired (l h : Z) : Z :=
  let s := l + shl 128 h 32 in
  let s_hi := wrap 64 (shr s 64) in
  let s_lo := wrap 64 s in
  let z := wrap 64 (shl 64 s_hi 32 - s_hi) in
  let '(res, over) := ovf_add 64 s_lo z in
  wrap 64 (res + wrap 32 (0 - b2z over)).
Lemma mds_fold_unrepaired_refuted : exists l h, 0 <= l < 2 ^ 41 /\ 0 <= h < 2 ^ 41 /\ M64 <= mds_fold_unrepaired l h.
Proof.
  exists 12884901890, 4294967292.
  assert (E : mds_fold_unrepaired 12884901890 4294967292 = M64 + 1) by (vm_compute; reflexivity).
  rewrite E. unfold M64. lia.
Qed.

Lemma hi_lo_split a : 0 <= a < 2 ^ 64 -> 0 <= hi32 a < 2 ^ 32 /\ 0 <= lo32 a < 2 ^ 32 /\ a = lo32 a + hi32 a * 2 ^ 32.
Proof.
  intros H. unfold hi32, lo32, shr, wrap.
  pose proof (Z.div_mod a (2 ^ 32) ltac:(lia)). pose proof (Z.mod_pos_bound a (2 ^ 32) ltac:(lia)).
  repeat split; try lia.
  all: try (apply Z.div_pos; lia). all: try (apply Z.div_lt_upper_bound; lia).
Qed.

Definition word (a : Z) : Prop := 0 <= a < 2 ^ 64.

(* split every word of the context into its 32-bit halves, kept as opaque names; the `_freq` calls of the goal on limbs
   are then rewritten with the lemma `freq`, and every mds_fold with mds_fold_spec *)
Ltac split_words :=
  repeat match goal with H : word ?a |- _ =>
    let h := fresh "h" in let l := fresh "l" in
    destruct (hi_lo_split a H) as (? & ? & ?); set (h := hi32 a) in *; set (l := lo32 a) in *; clearbody h l; clear H
  end.
Ltac fold_all := repeat match goal with |- context[mds_fold ?l ?h] => twin (mds_fold_spec l h) lia end.
Ltac rows_equal :=
  repeat match goal with |- (?x mod M64 :: _) = (?y mod M64 :: _) => replace x with y by lia; apply f_equal end; reflexivity.

Lemma canonical_product (f : list Z -> list Z) m st (ok : bool) : f st = mat_vec M64 m st /\ ok = true ->
  f st = mat_vec M64 m st /\ ok = true /\ Forall (fun w => 0 <= w < M64) (f st).
Proof.
  intros (E & O). split; [exact E|]. split; [exact O|]. rewrite E. unfold mat_vec. apply Forall_forall. intros w Hw.
  apply in_map_iff in Hw. destruct Hw as (r & <- & _). apply Z.mod_pos_bound. reflexivity.
Qed.

(* mds_multiply on raw internal words = MDS * state mod M (canonical), no checked operation out of range *)
Theorem mds12_multiply_list : forall st, length st = 12%nat -> Forall word st ->
  mds12_multiply st = mat_vec M64 rp64_MDS st /\ mds12_multiply_ok st = true /\ Forall (fun w => 0 <= w < M64) (mds12_multiply st).
Proof.
  intros st Hl Hw. apply canonical_product. do 12 (destruct st as [|? st]; [discriminate|]). destruct st; [|discriminate]. clear Hl.
  repeat match goal with H : Forall _ (_ :: _) |- _ => inversion H; clear H; subst end.
  unfold mds12_multiply, mds12_multiply_ok. split_words.
  repeat match goal with |- context[mds12_mds_multiply_freq (?x0, ?x1, ?x2, ?x3, ?x4, ?x5, ?x6, ?x7, ?x8, ?x9, ?x10, ?x11)] =>
    twin (freq12_exact x0 x1 x2 x3 x4 x5 x6 x7 x8 x9 x10 x11) ltac:(unfold L32; lia)
  end.
  cbv [forallb fst snd andb]. fold_all. split; [|reflexivity].
  cbv [mat_vec map rp64_MDS dotZ combine fold_right fst snd]. rows_equal.
Qed.

Theorem mds8_multiply_list : forall st, length st = 8%nat -> Forall word st ->
  mds8_multiply st = mat_vec M64 jive_MDS st /\ mds8_multiply_ok st = true /\ Forall (fun w => 0 <= w < M64) (mds8_multiply st).
Proof.
  intros st Hl Hw. apply canonical_product. do 8 (destruct st as [|? st]; [discriminate|]). destruct st; [|discriminate]. clear Hl.
  repeat match goal with H : Forall _ (_ :: _) |- _ => inversion H; clear H; subst end.
  unfold mds8_multiply, mds8_multiply_ok. split_words.
  repeat match goal with |- context[mds8_mds_multiply_freq (?x0, ?x1, ?x2, ?x3, ?x4, ?x5, ?x6, ?x7)] =>
    twin (freq8_exact x0 x1 x2 x3 x4 x5 x6 x7) ltac:(unfold L32; lia)
  end.
  cbv [forallb fst snd andb]. fold_all. split; [|reflexivity].
  cbv [mat_vec map jive_MDS dotZ combine fold_right fst snd]. rows_equal.
Qed.
