(* C17 — from validity of the trace to the polynomial form of comp_def, through C01's air_quotient_exists
   (Proofs/StarkComplete.v): when the combined transition numerator is a polynomial N vanishing on the non-exempt steps
   and every boundary group's numerator is a polynomial vanishing on the group's steps, comp_def agrees outside the
   trace domain with a coefficient list Q of at most m coefficients.  With Proofs/CompositionFFT.v this gives the
   capstone without the hypothesis that such a list exists (Section Final). *)
From Coq Require Import List Arith Bool Ring Field ZArith.
From VBase Require Import FieldOps.
From VModel Require Import Composition.
From VModel Require Stark FFT.
From VProofs Require StarkPoly StarkComplete FFTSpec FFTEval FFTOffset.
From VProofs Require Import CompositionIndex CompositionVerifier CompositionTable CompositionFFT.
Import ListNotations.

Section Valid.
Context {F : Type} (O : FOps F) (L : FLaws O).
Add Ring Fr : (FLaws_ring_theory O L).
Local Notation fz := (fzero O).
Local Notation f1 := (fone O).
Local Infix "+f" := (fadd O) (at level 50, left associativity).
Local Infix "-f" := (fsub O) (at level 50, left associativity).
Local Infix "*f" := (fmul O) (at level 40, left associativity).
Local Infix "/f" := (fdiv O) (at level 40, left associativity).
Local Notation rsum := (rsum O).
Local Notation rprod := (rprod O).

Variable n : nat.
Variable rou : nat -> F.
Variable tmain : list F -> list F -> list F -> list F.
Variable taux : list F -> list F -> list F -> list F -> list F -> list F -> list F.
Variable ppolys : list (list F).
Variable exemptions : nat.
Variable tcoef : list F.
Variable main_groups aux_groups : list (@BGroup F).
Variable rands : list F.
Variable has_aux : bool.
Variable tpolys apolys : list (list F).
Local Notation g := (gtrace n rou).
Local Notation comp_def := (comp_def O n rou tmain taux ppolys exemptions tcoef main_groups aux_groups rands has_aux tpolys apolys).

(* the numerators as polynomials: this is where "the constraint evaluators are polynomial maps of the frame and the
   periodic values" and "the trace columns are polynomials" enter *)
Variable N : list F.
Hypothesis N_spec : forall z,
  peval O N z = rsum (map (fun ca => snd ca *f fst ca)
                          (combine (def_constraints O n rou tmain taux ppolys rands has_aux tpolys apolys z) tcoef)).
Variable Bm Rm Ba Ra : @BGroup F -> list F.      (* numerator polynomial and zero set of each group's divisor *)
Definition group_numer (polys : list (list F)) (gr : @BGroup F) (z : F) : F :=
  rsum (map (fun c => bc_cc c *f (peval O (nth (bc_col c) polys []) z -f def_bc_value O c z)) (bg_cs gr)).
Hypothesis Bm_spec : forall gr, In gr main_groups -> forall z, peval O (Bm gr) z = group_numer tpolys gr z.
Hypothesis Rm_spec : forall gr, In gr main_groups -> forall z,
  Stark.pprod O (Rm gr) z = cpow O z (dv_a (bg_div gr)) -f dv_b (bg_div gr).
Hypothesis Ba_spec : forall gr, In gr aux_groups -> forall z, peval O (Ba gr) z = group_numer apolys gr z.
Hypothesis Ra_spec : forall gr, In gr aux_groups -> forall z,
  Stark.pprod O (Ra gr) z = cpow O z (dv_a (bg_div gr)) -f dv_b (bg_div gr).

Definition bs_of : list (list F * list F) :=
  map (fun gr => (Bm gr, Rm gr)) main_groups ++ (if has_aux then map (fun gr => (Ba gr, Ra gr)) aux_groups else []).

Lemma pprod_rprod z : forall l, Stark.pprod O (map (cpow O g) l) z = rprod (map (fun k => z -f cpow O g k) l).
Proof. induction l as [|a l IH]; simpl; [|rewrite IH]; reflexivity. Qed.

Lemma bsum_app z : forall a b, StarkComplete.bsum O (a ++ b) z = StarkComplete.bsum O a z +f StarkComplete.bsum O b z.
Proof. induction a as [|[B R] t IH]; intros b; simpl; [ring | rewrite IH; ring]. Qed.

Lemma bsum_groups (B R : @BGroup F -> list F) polys z : forall gs,
  (forall gr, In gr gs -> peval O (B gr) z = group_numer polys gr z) ->
  (forall gr, In gr gs -> Stark.pprod O (R gr) z = cpow O z (dv_a (bg_div gr)) -f dv_b (bg_div gr)) ->
  StarkComplete.bsum O (map (fun gr => (B gr, R gr)) gs) z = rsum (map (fun gr => def_group O polys gr z) gs).
Proof.
  induction gs as [|gr gs IH]; intros HB HR; simpl; [reflexivity|].
  rewrite IH; [| intros; apply HB; now right | intros; apply HR; now right].
  f_equal. change (Stark.peval O (B gr) z) with (peval O (B gr) z).
  rewrite (HB gr (or_introl eq_refl)), (HR gr (or_introl eq_refl)).
  unfold def_group, group_numer. rewrite (rsum_div O L), (fl_div_def O L). reflexivity.
Qed.

(* comp_def is C01's `combined` *)
Lemma comp_def_combined z : comp_def z = StarkComplete.combined O g n exemptions N bs_of z.
Proof.
  unfold Composition.comp_def, StarkComplete.combined. f_equal.
  - unfold def_transition. rewrite (rsum_div O L), (fl_div_def O L), <- N_spec.
    unfold def_tdiv. rewrite (finv_div O L).
    unfold StarkPoly.exempt. change (Stark.fpow O g) with (cpow O g). rewrite pprod_rprod.
    change (Stark.peval O N z) with (peval O N z). change (Stark.fpow O z n) with (cpow O z n). ring.
  - unfold def_boundary, bs_of. rewrite bsum_app.
    rewrite (bsum_groups Bm Rm tpolys z main_groups); [| intros; now apply Bm_spec | intros; now apply Rm_spec].
    f_equal. destruct has_aux; [|reflexivity].
    symmetry. apply bsum_groups; intros; [now apply Ba_spec | now apply Ra_spec].
Qed.

(* validity: the numerators vanish where the constraints are enforced *)
Hypothesis g_primitive : StarkPoly.primitive_root O g n.
Hypothesis n_pos : 0 < n.
Hypothesis exemptions_le : exemptions <= n.
Variable m : nat.
Hypothesis N_vanishes : forall i, i < n - exemptions -> peval O N (cpow O g i) = fz.     (* transitions hold *)
Hypothesis N_len : length N - (n - exemptions) <= m.
Hypothesis bs_ok : Forall (fun br => NoDup (snd br) /\ incl (snd br) (Stark.domain O g n) /\
                                     (forall r0, In r0 (snd br) -> peval O (fst br) r0 = fz) /\   (* assertions hold *)
                                     length (fst br) - length (snd br) <= m) bs_of.

Theorem comp_def_is_poly :
  exists Q, length Q <= m /\ forall z, ~ In z (Stark.domain O g n) -> peval O Q z = comp_def z.
Proof.
  destruct (StarkComplete.air_quotient_exists O L g n exemptions N bs_of m g_primitive n_pos exemptions_le
              N_vanishes N_len bs_ok) as [Q [Hl HQ]].
  exists Q. split; [exact Hl|]. intros z Hz. rewrite comp_def_combined. symmetry. apply (HQ z Hz).
Qed.
End Valid.

(* Validity of the trace in polynomial form, as comp_def_is_poly takes it: N is the combined transition numerator and
   vanishes on the non-exempt steps; Bm/Ba are the boundary groups' numerators and Rm/Ra the zeros of their divisors, on
   which the numerators vanish; every quotient has at most m coefficients. *)
Record ValidNumer {F : Type} (O : FOps F) (n : nat) (rou : nat -> F) tmain taux (ppolys : list (list F)) (exemptions : nat)
  (tcoef : list F) (main_groups aux_groups : list (@BGroup F)) (rands : list F) (has_aux : bool) (tpolys apolys : list (list F))
  (N : list F) (Bm Rm Ba Ra : @BGroup F -> list F) (m : nat) : Prop := mkValidNumer {
  vn_g_primitive : StarkPoly.primitive_root O (gtrace n rou) n;
  vn_Bm_spec : forall gr, In gr main_groups -> forall z, peval O (Bm gr) z = group_numer O tpolys gr z;
  vn_Rm_spec : forall gr, In gr main_groups -> forall z,
    Stark.pprod O (Rm gr) z = fsub O (cpow O z (dv_a (bg_div gr))) (dv_b (bg_div gr));
  vn_N_vanishes : forall i, i < n - exemptions -> peval O N (cpow O (gtrace n rou) i) = fzero O;
  vn_N_len : length N - (n - exemptions) <= m;
  vn_Ba_spec : forall gr, In gr aux_groups -> forall z, peval O (Ba gr) z = group_numer O apolys gr z;
  vn_Ra_spec : forall gr, In gr aux_groups -> forall z,
    Stark.pprod O (Ra gr) z = fsub O (cpow O z (dv_a (bg_div gr))) (dv_b (bg_div gr));
  vn_N_spec : forall z, peval O N z = rsum O (map (fun ca => fmul O (snd ca) (fst ca))
    (combine (def_constraints O n rou tmain taux ppolys rands has_aux tpolys apolys z) tcoef));
  vn_bs_ok : Forall (fun br => NoDup (snd br) /\ incl (snd br) (Stark.domain O (gtrace n rou) n) /\
                               (forall r0, In r0 (snd br) -> peval O (fst br) r0 = fzero O) /\
                               length (fst br) - length (snd br) <= m)
                    (bs_of main_groups aux_groups has_aux Bm Rm Ba Ra)
}.

Lemma valid_numer_poly {F : Type} (O : FOps F) (L : FLaws O) {n rou tmain taux ppolys exemptions tcoef main_groups aux_groups
  rands has_aux tpolys apolys N Bm Rm Ba Ra m} :
  0 < n -> exemptions <= n ->
  ValidNumer O n rou tmain taux ppolys exemptions tcoef main_groups aux_groups rands has_aux tpolys apolys N Bm Rm Ba Ra m ->
  exists Q, length Q <= m /\ forall z, ~ In z (Stark.domain O (gtrace n rou) n) ->
    peval O Q z = comp_def O n rou tmain taux ppolys exemptions tcoef main_groups aux_groups rands has_aux tpolys apolys z.
Proof.
  intros Hn He [Hg HBm HRm HNv HNl HBa HRa HN Hbs].
  exact (comp_def_is_poly O L n rou tmain taux ppolys exemptions tcoef main_groups aux_groups rands has_aux tpolys apolys
           N HN Bm Rm Ba Ra HBm HRm HBa HRa Hg Hn He m HNv HNl Hbs).
Qed.

(* The capstone with interpolation from C09 (CompositionFFT) and the coefficient list from validity (comp_def_is_poly):
   properties C17_composition_is_definition (single segment) and C17_composition_is_definition_aux. *)
Section Final.
Context {F : Type} (O : FOps F) (L : FLaws O).
Local Notation fz := (fzero O).
Local Notation f1 := (fone O).
Local Infix "*f" := (fmul O) (at level 40, left associativity).

Variable n ceb ldeb r : nat.
Variable offset : F.
Variable rou : nat -> F.
Variable wlde ginv : F.
Hypothesis n_pos : n <> 0.
Hypothesis ceb_pos : ceb <> 0.
Hypothesis r_pos : r <> 0.
Hypothesis ldeb_eq : ldeb = ceb * r.
Local Notation ce_size := (ce_size n ceb).
Local Notation wce := (wce n ceb rou).
Local Notation g := (gtrace n rou).
Hypothesis wlde_order : cpow O wlde (lde_size n ldeb) = f1.
Hypothesis wlde_wce : cpow O wlde r = wce.
Hypothesis wlde_g : cpow O wlde ldeb = g.
Hypothesis ginv_spec : ginv *f g = f1.
Hypothesis g_primitive : StarkPoly.primitive_root O g n.

Variable num_main : nat.
Variable tmain : list F -> list F -> list F -> list F.
Variable taux : list F -> list F -> list F -> list F -> list F -> list F -> list F.
Variable ppolys : list (list F).
Variable exemptions : nat.
Variable tcoef : list F.
Variable main_groups aux_groups : list (@BGroup F).
Variable rands : list F.
Variable tpolys apolys lde_main lde_aux : list (list F).
Hypothesis tmain_len : forall cur nxt pv, length (tmain cur nxt pv) = num_main.
Hypothesis exemptions_le : exemptions <= n.
Hypothesis poly_len_pos : forall p, In p ppolys -> length p <> 0.
Hypothesis poly_len_div_n : forall p, In p ppolys -> length p * (n / length p) = n.
Hypothesis poly_len_div_max : forall p, In p ppolys -> exists q, fold_left Nat.max (map (@length F) ppolys) 0 = length p * q.
Hypothesis rou_compat : forall p, In p ppolys -> rou (length p * ceb) = cpow O wce (n / length p).
Hypothesis main_ok : forall gr, In gr main_groups ->
  div_ok n ceb (bg_div gr) /\ forall c, In c (bg_cs gr) -> bc_ok O n ceb ginv tpolys c.
Hypothesis lde_main_ok : lde_rows_of O n ldeb offset wlde lde_main tpolys.

Variable two_adicity K : nat.
Variable rouk : nat -> F.
Variable itw : list F.
Hypothesis ce_pow2 : ce_size = 2 ^ S K.
Hypothesis K_adic : S K <= two_adicity.
Hypothesis rouk_ce : rouk (S K) = wce.
Hypothesis wce_root : FFTSpec.root_cond O (S K) wce.
Hypothesis itw_get : FFT.get_inv_twiddles O two_adicity rouk (2 ^ S K) = Some itw.
Hypothesis offset_nz : offset <> fz.
Hypothesis n_invertible : FFTSpec.two_pow_f O (S K) *f FFTOffset.n_inv O (S K) = f1.

(* the ce coset is disjoint from the trace domain *)
Hypothesis ce_off_domain : forall i, i < ce_size -> ~ In (ce_x O n ceb offset rou i) (Stark.domain O g n).
Variable num_cols m : nat.
Hypothesis m_le_ce : m <= ce_size.
Hypothesis m_le_cols : m <= num_cols * n.
Hypothesis n_lt_ce : n < ce_size.

(* validity, as in Section Valid *)
Variable N : list F.
Variable Bm Rm Ba Ra : @BGroup F -> list F.
Hypothesis Bm_spec : forall gr, In gr main_groups -> forall z, peval O (Bm gr) z = group_numer O tpolys gr z.
Hypothesis Rm_spec : forall gr, In gr main_groups -> forall z,
  Stark.pprod O (Rm gr) z = fsub O (cpow O z (dv_a (bg_div gr))) (dv_b (bg_div gr)).
Hypothesis N_vanishes : forall i, i < n - exemptions -> peval O N (cpow O g i) = fz.
Hypothesis N_len : length N - (n - exemptions) <= m.

Local Notation comp_def has_aux :=
  (comp_def O n rou tmain taux ppolys exemptions tcoef main_groups aux_groups rands has_aux tpolys apolys).
Local Notation evaluate has_aux :=
  (evaluate O n ceb ldeb offset rou num_main tmain taux ppolys exemptions tcoef main_groups aux_groups rands has_aux
            lde_main lde_aux (fun _ v => v)).
Local Notation interp := (interp_fft O two_adicity itw offset).
Local Notation groups_ok has_aux :=
  (Forall (fun br => NoDup (snd br) /\ incl (snd br) (Stark.domain O g n) /\
                     (forall r0, In r0 (snd br) -> peval O (fst br) r0 = fz) /\
                     length (fst br) - length (snd br) <= m) (bs_of main_groups aux_groups has_aux Bm Rm Ba Ra)).
Local Notation N_is_numerator has_aux :=
  (forall z, peval O N z = rsum O (map (fun ca => snd ca *f fst ca)
     (combine (def_constraints O n rou tmain taux ppolys rands has_aux tpolys apolys z) tcoef))).
Local Notation conclusion has_aux :=
  (exists Q evals cols,
    length Q <= m
    /\ evaluate has_aux = Some evals
    /\ composition_poly_new n interp evals num_cols = Some cols
    /\ (forall z, recombine O n (cp_evaluate_at O cols z) z = peval O Q z)
    /\ (forall z, ~ In z (Stark.domain O g n) -> recombine O n (cp_evaluate_at O cols z) z = comp_def has_aux z)).

(* both prover paths: validity makes comp_def a polynomial Q; a table holding comp_def on the ce coset interpolates to Q *)
Lemma valid_of_table has_aux :
  ValidNumer O n rou tmain taux ppolys exemptions tcoef main_groups aux_groups rands has_aux tpolys apolys N Bm Rm Ba Ra m ->
  evaluate has_aux = Some (map (fun i => comp_def has_aux (ce_x O n ceb offset rou i)) (seq 0 ce_size)) ->
  conclusion has_aux.
Proof.
  intros V Htab.
  destruct (valid_numer_poly O L (proj1 (Nat.neq_0_lt_0 n) n_pos) exemptions_le V) as [Q [HQl HQ]].
  destruct (composition_is_definition_table O L n ceb ldeb offset rou n_pos num_main tmain taux ppolys exemptions tcoef
              main_groups aux_groups rands tpolys apolys lde_main lde_aux two_adicity K rouk itw ce_pow2 K_adic rouk_ce wce_root
              itw_get offset_nz n_invertible (fun z => ~ In z (Stark.domain O g n)) Q num_cols ce_off_domain (Nat.le_trans _ _ _ HQl m_le_ce)
              (Nat.le_trans _ _ _ HQl m_le_cols) n_lt_ce has_aux Htab HQ)
    as [evals [cols [H1 [H2 [H3 H4]]]]].
  exists Q, evals, cols. auto.
Qed.

Section WithAux.
Hypothesis aux_ok : forall gr, In gr aux_groups ->
  div_ok n ceb (bg_div gr) /\ forall c, In c (bg_cs gr) -> bc_ok O n ceb ginv apolys c.
Hypothesis lde_aux_ok : lde_rows_of O n ldeb offset wlde lde_aux apolys.
Hypothesis Ba_spec : forall gr, In gr aux_groups -> forall z, peval O (Ba gr) z = group_numer O apolys gr z.
Hypothesis Ra_spec : forall gr, In gr aux_groups -> forall z,
  Stark.pprod O (Ra gr) z = fsub O (cpow O z (dv_a (bg_div gr))) (dv_b (bg_div gr)).
Hypothesis N_spec : N_is_numerator true.
Hypothesis bs_ok : groups_ok true.

Theorem composition_is_definition_valid_aux : conclusion true.
Proof.
  apply valid_of_table; [now constructor|].
  apply (evaluate_spec_aux O L n ceb ldeb r offset rou wlde ginv); assumption.
Qed.
End WithAux.

Section MainOnly.
Hypothesis aux_empty : aux_groups = [].
Hypothesis N_spec : N_is_numerator false.
Hypothesis bs_ok : groups_ok false.

Theorem composition_is_definition_valid_main : conclusion false.
Proof.
  apply valid_of_table.
  - constructor; try assumption; rewrite aux_empty; intros gr [].
  - apply (evaluate_spec_main O L n ceb ldeb r offset rou wlde ginv); try assumption.
    rewrite aux_empty. intros gr [].
Qed.
End MainOnly.
End Final.
