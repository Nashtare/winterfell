(* Round trips [read (write v ++ rest) = Ok (v, rest)] of the primitive codecs of Model/Codec.v, of the vint64
   encoding of usize, and of the generic combinators (Option, Vec, arrays, tuples, String, BTreeMap/BTreeSet),
   each combinator proved once from the round trips of its components.  Property C12. *)
From VBase Require Import MachInt.
From VModel Require Import Codec.
From VProofs Require Export ListFacts Pow2Facts BytesFacts.
From VProofs Require Import MachIntFacts.
Open Scope Z_scope.

(* round trip of a codec: decoding returns the value AND exactly the bytes that follow the encoding *)
Definition RT {A} (w : A -> bytes) (r : Rd A) (wf : A -> Prop) : Prop :=
  forall v rest, wf v -> r (w v ++ rest) = Ok (v, rest).

Lemma bind_ok {A B} (r : Rd A) (f : A -> Rd B) bs a bs' :
  r bs = Ok (a, bs') -> bind r f bs = f a bs'.
Proof. intros H. unfold bind. now rewrite H. Qed.

Lemma ret_ok {A} (a : A) bs : ret a bs = Ok (a, bs).
Proof. reflexivity. Qed.

Lemma len_app a b : len (a ++ b) = len a + len b.
Proof. unfold len. rewrite app_length. lia. Qed.

Lemma len_nonneg a : 0 <= len a.
Proof. unfold len. lia. Qed.

(* ------------------------------------------------------------------------------------- byte source *)
Lemma take_app a rest : take (length a) (a ++ rest) = Some (a, rest).
Proof. induction a as [|x a IH]; cbn [take length app]; [reflexivity | now rewrite IH]. Qed.

Lemma take_length n bs h t : take n bs = Some (h, t) -> bs = h ++ t /\ length h = n.
Proof.
  revert bs h t. induction n as [|n IH]; intros bs h t H; cbn [take] in H.
  - inversion H. subst. auto.
  - destruct bs as [|b r]; [discriminate|].
    destruct (take n r) as [[h' t']|] eqn:E; [|discriminate].
    inversion H. subst. destruct (IH _ _ _ E) as [-> <-]. auto.
Qed.

Lemma read_array_app a rest : read_array (length a) (a ++ rest) = Ok (a, rest).
Proof. unfold read_array. now rewrite take_app. Qed.

Lemma read_slice_app a rest : read_slice (len a) (a ++ rest) = Ok (a, rest).
Proof.
  unfold read_slice. rewrite len_app.
  pose proof (len_nonneg rest).
  destruct (Z.leb_spec (len a) (len a + len rest)); [|lia].
  unfold len at 1. rewrite Nat2Z.id. apply read_array_app.
Qed.

Lemma read_slice_app' a n rest : len a = n -> read_slice n (a ++ rest) = Ok (a, rest).
Proof. intros <-. apply read_slice_app. Qed.

Lemma read_u8_app b rest : read_u8 (write_u8 b ++ rest) = Ok (b, rest).
Proof. reflexivity. Qed.

(* --------------------------------------------------------------------------------- fixed-width ints *)
Lemma rt_uint k x rest : 0 <= x < 256 ^ Z.of_nat k -> read_uint k (write_uint k x ++ rest) = Ok (x, rest).
Proof.
  intros Hx. unfold read_uint, write_uint.
  rewrite (bind_ok _ _ _ (to_le_bytes k x) rest).
  - unfold ret. now rewrite of_to_le_bytes.
  - rewrite <- (to_le_bytes_length k x) at 1. apply read_array_app.
Qed.

Lemma rt_u8 : RT write_u8 read_u8 (fun _ => True).
Proof. intros v rest _. reflexivity. Qed.
Lemma rt_u16 : RT write_u16 read_u16 (fun x => 0 <= x < 2 ^ 16).
Proof. intros v rest H. apply rt_uint. exact H. Qed.
Lemma rt_u32 : RT write_u32 read_u32 (fun x => 0 <= x < 2 ^ 32).
Proof. intros v rest H. apply rt_uint. exact H. Qed.
Lemma rt_u64 : RT write_u64 read_u64 (fun x => 0 <= x < 2 ^ 64).
Proof. intros v rest H. apply rt_uint. exact H. Qed.
Lemma rt_u128 : RT write_u128 read_u128 (fun x => 0 <= x < 2 ^ 128).
Proof. intros v rest H. apply rt_uint. exact H. Qed.

Lemma rt_bool : RT write_bool read_bool (fun _ => True).
Proof. intros [|] rest _; reflexivity. Qed.

Lemma write_uint_length k x : length (write_uint k x) = k.
Proof. apply to_le_bytes_length. Qed.

(* ------------------------------------------------------------------------------------------ vint64 *)
(* encoded_len in closed form: L <= 8 bytes carry 7L value bits (the other L bits, a one above L-1 zeros, spell the
   length), 9 bytes carry all 64 *)
Definition vlen_spec (v : Z) : Z :=
  if v <? 2 ^ 7 then 1 else if v <? 2 ^ 14 then 2 else if v <? 2 ^ 21 then 3 else if v <? 2 ^ 28 then 4
  else if v <? 2 ^ 35 then 5 else if v <? 2 ^ 42 then 6 else if v <? 2 ^ 49 then 7 else if v <? 2 ^ 56 then 8
  else 9.

Lemma encoded_len_log k : 0 <= k < 64 ->
  9 - Z.min (sat_sub (64 - (k + 1)) 1 / 7) 8 =
  (if k <? 7 then 1 else if k <? 14 then 2 else if k <? 21 then 3 else if k <? 28 then 4 else if k <? 35 then 5
   else if k <? 42 then 6 else if k <? 49 then 7 else if k <? 56 then 8 else 9).
Proof.
  intros Hk. unfold sat_sub.
  assert (E : Z.max 0 (64 - (k + 1) - 1) = 62 - k \/ (k = 63 /\ Z.max 0 (64 - (k + 1) - 1) = 0)) by lia.
  destruct E as [E | [-> E]]; [|reflexivity].
  rewrite E.
  repeat match goal with |- context [?a <? ?b] => destruct (Z.ltb_spec a b) end;
    try lia; Z.div_mod_to_equations; lia.
Qed.

Lemma encoded_len_spec v : 0 <= v < 2 ^ 64 -> encoded_len v = vlen_spec v.
Proof.
  intros Hv. unfold encoded_len, clz.
  destruct (Z.leb_spec v 0) as [H0 | H0].
  - assert (v = 0) by lia. subst. reflexivity.
  - pose proof (Z.log2_nonneg v) as Hl0.
    assert (Hl : Z.log2 v < 64) by (apply Z.log2_lt_pow2; lia).
    rewrite encoded_len_log by lia.
    unfold vlen_spec.
    repeat match goal with
           | |- context [Z.log2 v <? ?b] =>
             let H := fresh in
             destruct (Z.ltb_spec (Z.log2 v) b) as [H | H];
             [apply Z.log2_lt_pow2 in H; [|lia] | apply Z.log2_le_pow2 in H; [|lia]]
           end;
    repeat match goal with |- context [v <? ?b] => destruct (Z.ltb_spec v b) end;
    try reflexivity; lia.
Qed.

Lemma encoded_len_1_9 v : 1 <= encoded_len v <= 9.
Proof.
  unfold encoded_len, sat_sub.
  assert (0 <= Z.max 0 (clz 64 v - 1) / 7) by (apply Z.div_pos; lia). lia.
Qed.

(* the short forms: L bytes, 1 <= L <= 8, value below 2^(7L); the encoding (2v+1) * 2^(L-1) fits into L bytes *)
Lemma encoded_len_short v : 0 <= v < 2 ^ 56 -> 1 <= encoded_len v <= 8 /\ v < 2 ^ (7 * encoded_len v).
Proof.
  intros Hv. rewrite encoded_len_spec by lia. unfold vlen_spec.
  repeat match goal with |- context [v <? ?b] => destruct (Z.ltb_spec v b) end; lia.
Qed.

Lemma enc_bounds v L : 0 <= v < 2 ^ (7 * L) -> 1 <= L -> 0 <= (2 * v + 1) * 2 ^ (L - 1) < 2 ^ (8 * L).
Proof.
  intros Hv HL. assert (0 < 2 ^ (L - 1)) by (apply Z.pow_pos_nonneg; lia).
  replace (8 * L) with (1 + 7 * L + (L - 1)) by lia. rewrite !Z.pow_add_r by lia. change (2 ^ 1) with 2.
  split; [nia | apply Z.mul_lt_mono_pos_r; lia].
Qed.

Lemma write_usize_short v L : 0 <= v < 2 ^ (7 * L) -> 1 <= L <= 8 -> encoded_len v = L ->
  write_usize v = to_le_bytes (Z.to_nat L) ((2 * v + 1) * 2 ^ (L - 1)).
Proof.
  intros Hv HL E. unfold write_usize. rewrite E.
  destruct (Z.eqb_spec L 9); [lia|].
  rewrite firstn_to_le_bytes by lia. f_equal.
  assert (H56 : 2 ^ (7 * L) <= 2 ^ 56) by (apply Z.pow_le_mono_r; lia).
  assert (H64 : 2 ^ (8 * L) <= 2 ^ 64) by (apply Z.pow_le_mono_r; lia).
  pose proof (enc_bounds v L Hv ltac:(lia)).
  unfold shl. rewrite (Z.mod_small (v * 2 ^ 1)), lor_shifted_small by lia.
  change (2 ^ 1) with 2. rewrite (Z.mul_comm v 2). apply Z.mod_small. lia.
Qed.

Lemma read_usize_short v L rest : 0 <= v < 2 ^ (7 * L) -> 1 <= L <= 8 ->
  read_usize (to_le_bytes (Z.to_nat L) ((2 * v + 1) * 2 ^ (L - 1)) ++ rest) = Ok (v, rest).
Proof.
  intros Hv HL.
  pose proof (enc_bounds v L Hv ltac:(lia)) as Henc.
  set (enc := (2 * v + 1) * 2 ^ (L - 1)) in *.
  assert (Hp : 0 < 2 ^ (L - 1)) by (apply Z.pow_pos_nonneg; lia).
  (* the first byte is (an odd number) * 2^(L-1): its trailing zeros give the length *)
  assert (Hctz : ctz 8 (enc mod 256) = L - 1).
  { replace (enc mod 256) with ((2 * v + 1) mod 2 ^ (9 - L) * 2 ^ (L - 1)).
    - apply ctz_odd_shl; [lia|].
      rewrite <- Z.bit0_odd, Z.mod_pow2_bits_low, Z.bit0_odd, Z.add_comm, Z.odd_add_mul_2 by lia. reflexivity.
    - assert (0 < 2 ^ (9 - L)) by (apply Z.pow_pos_nonneg; lia).
      rewrite <- Z.mul_mod_distr_r, <- Z.pow_add_r by lia. replace (9 - L + (L - 1)) with 8 by lia. reflexivity. }
  destruct (Z.to_nat L) as [|n] eqn:EL; [lia|].
  unfold read_usize. unfold bind at 1. cbn [to_le_bytes app peek_u8].
  rewrite Hctz. replace (L - 1 + 1) with L by lia.
  destruct (Z.eqb_spec L 9); [lia|].
  (* re-fold the encoding and read the slice *)
  change (enc mod 256 :: to_le_bytes n (enc / 256) ++ rest) with (to_le_bytes (S n) enc ++ rest).
  assert (HlenL : len (to_le_bytes (S n) enc) = L) by (unfold len; rewrite to_le_bytes_length; lia).
  unfold bind at 1. unfold bind at 1.
  rewrite (read_slice_app' _ _ rest HlenL). unfold ret at 1.
  rewrite of_to_le_bytes
    by (rewrite <- EL, Z2Nat.id by lia; change 256 with (2 ^ 8); rewrite <- Z.pow_mul_r by lia; exact Henc).
  assert (Hshr : shr enc L = v).
  { unfold shr, enc. replace (2 ^ L) with (2 * 2 ^ (L - 1)) by (rewrite <- Z.pow_succ_r by lia; f_equal; lia).
    rewrite Z.div_mul_cancel_r, Z.add_comm, Z.mul_comm, Z.div_add by lia. reflexivity. }
  rewrite Hshr.
  assert (H56 : 2 ^ (7 * L) <= 2 ^ 56) by (apply Z.pow_le_mono_r; lia).
  unfold usize_max. destruct (Z.gtb_spec v (2 ^ 64 - 1)); [lia | reflexivity].
Qed.

Lemma write_usize_long v : 2 ^ 56 <= v < 2 ^ 64 -> write_usize v = 0 :: to_le_bytes 8 v.
Proof.
  intros Hv. unfold write_usize. rewrite encoded_len_spec by lia. unfold vlen_spec.
  repeat match goal with |- context [v <? ?b] => destruct (Z.ltb_spec v b); [lia|] end.
  reflexivity.
Qed.

Theorem vint64_rt v rest : 0 <= v < 2 ^ 64 -> read_usize (write_usize v ++ rest) = Ok (v, rest).
Proof.
  intros Hv. destruct (Z.ltb_spec v (2 ^ 56)).
  - destruct (encoded_len_short v ltac:(lia)) as [HL Hlt].
    rewrite (write_usize_short v (encoded_len v)) by (try reflexivity; lia).
    apply read_usize_short; lia.
  - rewrite write_usize_long by lia.
    unfold read_usize. unfold bind at 1. cbn [app peek_u8].
    change (ctz 8 0 + 1) with 9. cbn [Z.eqb Pos.eqb].
    unfold bind at 1. unfold bind at 1. cbn [read_u8].
    fold (write_uint 8 v). rewrite rt_uint by (change (256 ^ Z.of_nat 8) with (2 ^ 64); lia).
    unfold usize_max. destruct (Z.gtb_spec v (2 ^ 64 - 1)); [lia | reflexivity].
Qed.

Theorem vint64_len v : 0 <= v < 2 ^ 64 -> len (write_usize v) = encoded_len v.
Proof.
  intros Hv.
  pose proof (encoded_len_1_9 v) as Hr.
  unfold write_usize.
  destruct (Z.eqb_spec (encoded_len v) 9) as [E | NE].
  - rewrite E. reflexivity.
  - unfold len. rewrite firstn_length, to_le_bytes_length. lia.
Qed.

(* prefix-freeness / injectivity of the encoder: immediate from the round trip *)
Theorem vint64_prefix_free a b ra rb : 0 <= a < 2 ^ 64 -> 0 <= b < 2 ^ 64 ->
  write_usize a ++ ra = write_usize b ++ rb -> a = b /\ ra = rb.
Proof.
  intros Ha Hb E.
  pose proof (vint64_rt a ra Ha) as H1. rewrite E, (vint64_rt b rb Hb) in H1.
  inversion H1. auto.
Qed.

Lemma rt_usize : RT write_usize read_usize (fun v => 0 <= v < 2 ^ 64).
Proof. intros v rest H. now apply vint64_rt. Qed.

(* ------------------------------------------------------------------------------ read_many / write_many *)
Fixpoint nat_loop {S} (n : nat) (step : S -> Result S) (s : S) : Result S :=
  match n with
  | O => Ok s
  | Datatypes.S n' => match step s with Ok s' => nat_loop n' step s' | e => e end
  end.

Lemma nat_loop_add {S} a b (step : S -> Result S) s :
  nat_loop (a + b) step s = match nat_loop a step s with Ok s' => nat_loop b step s' | e => e end.
Proof.
  revert s. induction a as [|a IH]; intros s; cbn [nat_loop Nat.add]; [reflexivity|].
  destruct (step s); auto.
Qed.

Lemma pos_loop_nat {S} p (step : S -> Result S) s : pos_loop p step s = nat_loop (Pos.to_nat p) step s.
Proof.
  revert s. induction p as [p IH | p IH |]; intros s; cbn [pos_loop].
  - rewrite Pos2Nat.inj_xI. cbn [nat_loop]. destruct (step s) as [s1| |]; auto.
    replace (2 * Pos.to_nat p)%nat with (Pos.to_nat p + Pos.to_nat p)%nat by lia.
    rewrite nat_loop_add, <- IH. destruct (pos_loop p step s1); auto.
  - rewrite Pos2Nat.inj_xO.
    replace (2 * Pos.to_nat p)%nat with (Pos.to_nat p + Pos.to_nat p)%nat by lia.
    rewrite nat_loop_add, <- IH. destruct (pos_loop p step s); auto.
  - change (Pos.to_nat 1) with 1%nat. cbn [nat_loop]. destruct (step s); auto.
Qed.

Lemma write_many_cons {A} (w : A -> bytes) a l : write_many w (a :: l) = w a ++ write_many w l.
Proof. reflexivity. Qed.

Lemma write_many_app {A} (w : A -> bytes) l1 l2 : write_many w (l1 ++ l2) = write_many w l1 ++ write_many w l2.
Proof. unfold write_many. apply flat_map_app. Qed.

(* read_many as the plain n-fold recursion (equal to the binary recursion of the model by read_many_spec);
   reasoning about arbitrary input goes through this form *)
Fixpoint read_many_nat {A} (r : Rd A) (n : nat) : Rd (list A) :=
  fun bs => match n with
            | O => Ok ([], bs)
            | S n' => match r bs with
                      | Ok (a, bs') => match read_many_nat r n' bs' with
                                       | Ok (l, bs'') => Ok (a :: l, bs'')
                                       | Err e => Err e
                                       | Panic => Panic
                                       end
                      | Err e => Err e
                      | Panic => Panic
                      end
            end.

Lemma nat_loop_read_many_nat {A} (r : Rd A) n acc bs :
  nat_loop n (rm_step r) (acc, bs) =
  match read_many_nat r n bs with
  | Ok (l, bs') => Ok (rev l ++ acc, bs')
  | Err e => Err e
  | Panic => Panic
  end.
Proof.
  revert acc bs. induction n as [|n IH]; intros acc bs; [reflexivity|].
  cbn [nat_loop read_many_nat]. unfold rm_step at 1. cbn [fst snd].
  destruct (r bs) as [[a bs']| |]; auto.
  rewrite IH. destruct (read_many_nat r n bs') as [[l bs'']| |]; auto.
  cbn [rev]. now rewrite <- app_assoc.
Qed.

Theorem read_many_spec {A} (r : Rd A) n bs : read_many r (Z.of_nat n) bs = read_many_nat r n bs.
Proof.
  unfold read_many. destruct (Z.of_nat n) as [|p|p] eqn:E.
  - destruct n; [reflexivity | discriminate].
  - rewrite pos_loop_nat. replace (Pos.to_nat p) with n by lia.
    rewrite nat_loop_read_many_nat.
    destruct (read_many_nat r n bs) as [[l bs']| |]; auto.
    now rewrite app_nil_r, rev_involutive.
  - lia.
Qed.

(* [r] reads one [w]-encoded value of the domain [D] and accepts it exactly when [ok] holds; [RT] is the case where
   everything is accepted *)
Definition Exact {A} (w : A -> bytes) (r : Rd A) (D : A -> Prop) (ok : A -> bool) : Prop :=
  forall a rest, D a -> r (w a ++ rest) = if ok a then Ok (a, rest) else Err Invalid.

Lemma read_many_nat_exact {A} (w : A -> bytes) (r : Rd A) (D : A -> Prop) (ok : A -> bool) :
  Exact w r D ok -> forall l rest, Forall D l ->
  read_many_nat r (length l) (write_many w l ++ rest) = if forallb ok l then Ok (l, rest) else Err Invalid.
Proof.
  intros Hx l. induction l as [|a l IH]; intros rest Hd; [reflexivity|].
  inversion Hd as [|? ? Ha Hl]; subst.
  cbn [length read_many_nat forallb]. rewrite write_many_cons, <- app_assoc, (Hx a _ Ha).
  destruct (ok a); cbn [andb]; [|reflexivity].
  rewrite (IH rest Hl). destruct (forallb ok l); reflexivity.
Qed.

Lemma read_many_exact {A} (w : A -> bytes) (r : Rd A) (D : A -> Prop) (ok : A -> bool) :
  Exact w r D ok -> forall l rest, Forall D l ->
  read_many r (Z.of_nat (length l)) (write_many w l ++ rest) = if forallb ok l then Ok (l, rest) else Err Invalid.
Proof. intros Hx l rest Hd. rewrite read_many_spec. now apply read_many_nat_exact with (D := D). Qed.

Lemma rt_many {A} (w : A -> bytes) (r : Rd A) (wf : A -> Prop) :
  RT w r wf -> forall l rest, Forall wf l ->
  read_many r (Z.of_nat (length l)) (write_many w l ++ rest) = Ok (l, rest).
Proof.
  intros Hrt l rest Hwf. rewrite (read_many_exact w r wf (fun _ => true) Hrt l rest Hwf).
  replace (forallb (fun _ => true) l) with true by (symmetry; apply forallb_forall; auto). reflexivity.
Qed.

(* ---------------------------------------------------------------------------------------- combinators *)
Ltac rt_next_by H tac := rewrite <- ?app_assoc; erewrite bind_ok by (apply H; tac).
Ltac rt_next H := rt_next_by H auto.
Ltac rt_next_usize := rt_next_by rt_usize ltac:(cbv beta; unfold len in *; lia).

Lemma rt_option {A} (w : A -> bytes) (r : Rd A) wf :
  RT w r wf -> RT (write_option w) (read_option r) (fun o => match o with Some v => wf v | None => True end).
Proof.
  intros H [v|] rest Hwf; unfold write_option, read_option.
  - rt_next rt_bool. cbn iota. rt_next H. reflexivity.
  - rt_next rt_bool. reflexivity.
Qed.

Lemma rt_pair {A B} wa (ra : Rd A) wfa wb (rb : Rd B) wfb :
  RT wa ra wfa -> RT wb rb wfb -> RT (write_pair wa wb) (read_pair ra rb) (fun p => wfa (fst p) /\ wfb (snd p)).
Proof.
  intros Ha Hb [a b] rest [Hwa Hwb]. unfold write_pair, read_pair. cbn [fst snd] in *.
  rt_next Ha. rt_next Hb. reflexivity.
Qed.

Lemma rt_triple {A B C} wa (ra : Rd A) wfa wb (rb : Rd B) wfb wc (rc : Rd C) wfc :
  RT wa ra wfa -> RT wb rb wfb -> RT wc rc wfc ->
  RT (write_triple wa wb wc) (read_triple ra rb rc) (fun t => wfa (fst (fst t)) /\ wfb (snd (fst t)) /\ wfc (snd t)).
Proof.
  intros Ha Hb Hc [[a b] c] rest (Hwa & Hwb & Hwc). unfold write_triple, read_triple. cbn [fst snd] in *.
  rt_next Ha. rt_next Hb. rt_next Hc. reflexivity.
Qed.

Lemma rt_vec {A} (w : A -> bytes) (r : Rd A) wf :
  RT w r wf -> RT (write_vec w) (read_vec_of r) (fun l => Z.of_nat (length l) < 2 ^ 64 /\ Forall wf l).
Proof.
  intros H l rest [Hlen Hwf]. unfold write_vec, read_vec_of.
  rt_next_usize.
  now apply (rt_many w r wf).
Qed.

Lemma rt_arr {A} (w : A -> bytes) (r : Rd A) wf (c : nat) :
  RT w r wf -> RT (write_arr w) (fun bs => read_arr r (Z.of_nat c) bs) (fun l => length l = c /\ Forall wf l).
Proof.
  intros H l rest [<- Hwf]. unfold write_arr, read_arr. now apply (rt_many w r wf).
Qed.

Lemma write_many_u8 s : write_many write_u8 s = s.
Proof. induction s as [|b s IH]; [reflexivity|]. rewrite write_many_cons, IH. reflexivity. Qed.

Lemma rt_string (utf8_valid : bytes -> bool) :
  RT write_string (read_string utf8_valid) (fun s => len s < 2 ^ 64 /\ utf8_valid s = true).
Proof.
  intros s rest [Hlen Hu]. unfold write_string, read_string.
  rt_next_usize.
  unfold len. erewrite bind_ok by (apply (rt_many write_u8 read_u8 (fun _ => True) rt_u8); apply Forall_forall; auto).
  now rewrite Hu.
Qed.

Lemma rt_unit : RT write_unit read_unit (fun _ => True).
Proof. intros [] rest _. reflexivity. Qed.

Lemma rt_tup1 {A} wa (ra : Rd A) wfa : RT wa ra wfa -> RT (write_tup1 wa) (read_tup1 ra) wfa.
Proof. intros Ha a rest Hwa. unfold write_tup1, read_tup1. rt_next Ha. reflexivity. Qed.

Lemma rt_tup4 {A B C D} wa (ra : Rd A) wfa wb (rb : Rd B) wfb wc (rc : Rd C) wfc wd (rd : Rd D) wfd :
  RT wa ra wfa -> RT wb rb wfb -> RT wc rc wfc -> RT wd rd wfd ->
  RT (write_tup4 wa wb wc wd) (read_tup4 ra rb rc rd)
     (fun t => let '(a, b, c, d) := t in wfa a /\ wfb b /\ wfc c /\ wfd d).
Proof.
  intros Ha Hb Hc Hd [[[a b] c] d] rest (Hwa & Hwb & Hwc & Hwd). unfold write_tup4, read_tup4.
  rt_next Ha. rt_next Hb. rt_next Hc. rt_next Hd. reflexivity.
Qed.

Lemma rt_tup5 {A B C D E} wa (ra : Rd A) wfa wb (rb : Rd B) wfb wc (rc : Rd C) wfc wd (rd : Rd D) wfd
    we (re : Rd E) wfe :
  RT wa ra wfa -> RT wb rb wfb -> RT wc rc wfc -> RT wd rd wfd -> RT we re wfe ->
  RT (write_tup5 wa wb wc wd we) (read_tup5 ra rb rc rd re)
     (fun t => let '(a, b, c, d, e) := t in wfa a /\ wfb b /\ wfc c /\ wfd d /\ wfe e).
Proof.
  intros Ha Hb Hc Hd He [[[[a b] c] d] e] rest (Hwa & Hwb & Hwc & Hwd & Hwe). unfold write_tup5, read_tup5.
  rt_next Ha. rt_next Hb. rt_next Hc. rt_next Hd. rt_next He. reflexivity.
Qed.

Lemma rt_tup6 {A B C D E F} wa (ra : Rd A) wfa wb (rb : Rd B) wfb wc (rc : Rd C) wfc wd (rd : Rd D) wfd
    we (re : Rd E) wfe wf_ (rf : Rd F) wff :
  RT wa ra wfa -> RT wb rb wfb -> RT wc rc wfc -> RT wd rd wfd -> RT we re wfe -> RT wf_ rf wff ->
  RT (write_tup6 wa wb wc wd we wf_) (read_tup6 ra rb rc rd re rf)
     (fun t => let '(a, b, c, d, e, f) := t in wfa a /\ wfb b /\ wfc c /\ wfd d /\ wfe e /\ wff f).
Proof.
  intros Ha Hb Hc Hd He Hf [[[[[a b] c] d] e] f] rest (Hwa & Hwb & Hwc & Hwd & Hwe & Hwf).
  unfold write_tup6, read_tup6.
  rt_next Ha. rt_next Hb. rt_next Hc. rt_next Hd. rt_next He. rt_next Hf. reflexivity.
Qed.

Lemma rt_tup6_ints a b c d e f rest :
  0 <= b < 2 ^ 16 -> 0 <= c < 2 ^ 32 -> 0 <= d < 2 ^ 64 -> 0 <= e < 2 ^ 128 -> 0 <= f < 2 ^ 64 ->
  read_tup6 read_u8 read_u16 read_u32 read_u64 read_u128 read_usize
    (write_tup6 write_u8 write_u16 write_u32 write_u64 write_u128 write_usize (a, b, c, d, e, f) ++ rest)
  = Ok ((a, b, c, d, e, f), rest).
Proof.
  intros Hb Hc Hd He Hf.
  apply (rt_tup6 _ _ _ _ _ _ _ _ _ _ _ _ _ _ _ _ _ _ rt_u8 rt_u16 rt_u32 rt_u64 rt_u128 rt_usize (a, b, c, d, e, f) rest).
  cbv beta iota. tauto.
Qed.

(* the element-by-element loop of `impl Serializable for [T]` writes what write_many writes *)
Lemma fold_left_append {A} (w : A -> bytes) l acc :
  fold_left (fun target e => target ++ w e) l acc = acc ++ write_many w l.
Proof.
  revert acc. induction l as [|a l IH]; intros acc; cbn [fold_left].
  - unfold write_many. cbn [flat_map]. now rewrite app_nil_r.
  - rewrite IH, write_many_cons, app_assoc. reflexivity.
Qed.

Lemma write_slice_is_write_vec {A} (w : A -> bytes) l : write_slice w l = write_vec w l.
Proof. unfold write_slice, write_vec. apply fold_left_append. Qed.

Lemma rt_slice {A} (w : A -> bytes) (r : Rd A) wf :
  RT w r wf -> RT (write_slice w) (read_vec_of r) (fun l => Z.of_nat (length l) < 2 ^ 64 /\ Forall wf l).
Proof. intros H l rest Hwf. rewrite write_slice_is_write_vec. now apply (rt_vec w r wf H). Qed.

Lemma write_str_is_write_string s : write_str s = write_string s.
Proof. reflexivity. Qed.

Lemma rt_str (utf8_valid : bytes -> bool) :
  RT write_str (read_string utf8_valid) (fun s => len s < 2 ^ 64 /\ utf8_valid s = true).
Proof. intros s rest Hwf. rewrite write_str_is_write_string. now apply rt_string. Qed.

Lemma rt_blob k : RT (write_blob k) (read_blob k) (fun b => len b < 256 ^ Z.of_nat k).
Proof.
  intros b rest Hb. unfold write_blob, read_blob, read_vec, write_bytes.
  pose proof (len_nonneg b).
  assert (E : wrap (8 * Z.of_nat k) (len b) = len b).
  { apply wrap_small. rewrite Z.pow_mul_r by lia. change (2 ^ 8) with 256. lia. }
  rewrite E. rewrite <- app_assoc. erewrite bind_ok by (apply rt_uint; lia).
  apply read_slice_app.
Qed.

(* --------------------------------------------------------------------------------- BTreeMap / BTreeSet *)
Section OrderedProofs.
  Context {K V : Type} (ltb : K -> K -> bool).
  Hypothesis ltb_irrefl : forall a, ltb a a = false.
  Hypothesis ltb_trans : forall a b c, ltb a b = true -> ltb b c = true -> ltb a c = true.
  Hypothesis ltb_asym : forall a b, ltb a b = true -> ltb b a = false.

  Definition keys_below (m : list (K * V)) (k : K) : Prop := Forall (fun kv => ltb (fst kv) k = true) m.

  Lemma map_insert_last k v m : keys_below m k -> map_insert ltb k v m = m ++ [(k, v)].
  Proof.
    induction m as [|[k' v'] m IH]; intros H; [reflexivity|].
    inversion H as [|? ? Hk Hm]; subst. cbn [fst] in Hk.
    cbn [map_insert app]. rewrite (ltb_asym _ _ Hk), Hk, IH by exact Hm. reflexivity.
  Qed.

  Fixpoint sorted_map (m : list (K * V)) : Prop :=
    match m with
    | [] => True
    | (k, _) :: r => Forall (fun kv => ltb k (fst kv) = true) r /\ sorted_map r
    end.

  Lemma fold_insert_sorted l acc :
    sorted_map l -> (forall kv, In kv l -> keys_below acc (fst kv)) ->
    fold_left (fun m kv => map_insert ltb (fst kv) (snd kv) m) l acc = acc ++ l.
  Proof.
    revert acc. induction l as [|[k v] l IH]; intros acc Hs Hb; cbn [fold_left]; [now rewrite app_nil_r|].
    destruct Hs as [Hk Hs]. cbn [fst snd].
    rewrite map_insert_last by (apply (Hb (k, v)); now left).
    rewrite IH; [now rewrite <- app_assoc | exact Hs |].
    intros kv Hin. unfold keys_below. apply Forall_app. split.
    - specialize (Hb kv (or_intror Hin)). exact Hb.
    - constructor; [|constructor]. cbn [fst]. rewrite Forall_forall in Hk. now apply Hk.
  Qed.

  Lemma map_from_iter_sorted l : sorted_map l -> map_from_iter ltb l = l.
  Proof.
    intros Hs. unfold map_from_iter. rewrite fold_insert_sorted; [reflexivity | exact Hs |].
    intros kv _. constructor.
  Qed.

  Lemma rt_map wk (rk : Rd K) wfk wv (rv : Rd V) wfv :
    RT wk rk wfk -> RT wv rv wfv ->
    RT (write_map wk wv) (read_map ltb rk rv)
       (fun m => Z.of_nat (length m) < 2 ^ 64 /\ sorted_map m /\ Forall (fun kv => wfk (fst kv) /\ wfv (snd kv)) m).
  Proof.
    intros Hk Hv m rest (Hlen & Hs & Hwf). unfold write_map, read_map.
    rt_next_usize.
    erewrite bind_ok by (apply (rt_many _ _ _ (rt_pair _ _ _ _ _ _ Hk Hv)); exact Hwf).
    unfold ret. now rewrite map_from_iter_sorted.
  Qed.

  Lemma set_insert_last k m : Forall (fun k' => ltb k' k = true) m -> set_insert ltb k m = m ++ [k].
  Proof.
    induction m as [|k' m IH]; intros H; [reflexivity|].
    inversion H as [|? ? Hk Hm]; subst.
    cbn [set_insert app]. rewrite (ltb_asym _ _ Hk), Hk, IH by exact Hm. reflexivity.
  Qed.

  Fixpoint sorted_set (m : list K) : Prop :=
    match m with [] => True | k :: r => Forall (fun k' => ltb k k' = true) r /\ sorted_set r end.

  Lemma fold_set_insert_sorted l acc :
    sorted_set l -> (forall k, In k l -> Forall (fun k' => ltb k' k = true) acc) ->
    fold_left (fun m k => set_insert ltb k m) l acc = acc ++ l.
  Proof.
    revert acc. induction l as [|k l IH]; intros acc Hs Hb; cbn [fold_left]; [now rewrite app_nil_r|].
    destruct Hs as [Hk Hs].
    rewrite set_insert_last by (apply Hb; now left).
    rewrite IH; [now rewrite <- app_assoc | exact Hs |].
    intros k' Hin. apply Forall_app. split.
    - apply Hb. now right.
    - constructor; [|constructor]. rewrite Forall_forall in Hk. now apply Hk.
  Qed.

  Lemma rt_set wk (rk : Rd K) wfk :
    RT wk rk wfk ->
    RT (write_set wk) (read_set ltb rk) (fun m => Z.of_nat (length m) < 2 ^ 64 /\ sorted_set m /\ Forall wfk m).
  Proof.
    intros Hk m rest (Hlen & Hs & Hwf). unfold write_set, read_set.
    rt_next_usize.
    erewrite bind_ok by (apply (rt_many _ _ _ Hk); exact Hwf).
    unfold ret, set_from_iter. rewrite fold_set_insert_sorted; [reflexivity | exact Hs |].
    intros k _. constructor.
  Qed.
End OrderedProofs.
