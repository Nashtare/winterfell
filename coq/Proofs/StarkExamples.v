(* C01 — non-vacuity: a concrete instance (the field Z/17, trace length 8, generator 2) satisfying every hypothesis of
   the stage theorems and of the capstone, and the concrete witness of the refuted degree equality. *)
From Coq Require Import List Arith Bool ZArith Lia Ring Field.
From VBase Require Import FieldOps ZpOps.
From VModel Require Import Stark.
From VProofs Require Import NumTheoryFermat NumTheoryPrime ZpLaws FieldFacts StarkPoly StarkDeep StarkComplete.
Import ListNotations.
Open Scope nat_scope.

Definition O17 : FOps (Zp 17%Z) := zpT_ops 17%Z (prime_gt1 17%Z prime_17).
Definition L17 : FLaws O17 := zpT_laws 17%Z prime_17 eq_refl.
Definition e17 (v : Z) : Zp 17%Z := fofz O17 v.
Definition g17 : Zp 17 := e17 2%Z.

Add Ring R17 : (FLaws_ring_theory O17 L17).

Ltac zp_eq := apply zp_val_inj; vm_compute; reflexivity.
Ltac zp_neq H := apply (f_equal (@zp_val 17%Z)) in H; vm_compute in H; discriminate.

Lemma g17_primitive : primitive_root O17 g17 8.
Proof.
  split; [zp_eq|]. intros i j Hi Hj E.
  do 8 (destruct i as [|i]; [do 8 (destruct j as [|j]; [first [reflexivity | zp_neq E]|]); lia|]). lia.
Qed.

(* ---- quotient_is_poly with a NON-ZERO numerator: N = prod_{i<7} (x - g^i) vanishes on the 7 non-exempt steps only *)
Example quotient_is_poly_nonvacuous :
  let N := roots_poly O17 (domain O17 g17 7) in
  peval O17 N (fpow O17 g17 7) <> fzero O17 /\
  exists Q, length Q = length N - (8 - 1) /\
    (forall x, peval O17 N x = fmul O17 (pprod O17 (domain O17 g17 (8 - 1)) x) (peval O17 Q x)) /\
    (forall x, fmul O17 (peval O17 N x) (pprod O17 (exempt O17 g17 8 1) x)
               = fmul O17 (fsub O17 (fpow O17 x 8) (fone O17)) (peval O17 Q x)).
Proof.
  split. { intros H. zp_neq H. }
  apply (quotient_is_poly O17 L17 g17 8 1); [exact g17_primitive | lia | lia |].
  intros i Hi. rewrite (roots_poly_peval O17 L17). apply (pprod_root O17 L17). apply (In_domain O17). exists i. split; [lia | reflexivity].
Qed.

(* ---- the degenerate valid trace: one constant column 5 with constraint next - current = 0 and assertion T[0] = 5 *)
Definition T5 : list (Zp 17%Z) := e17 5%Z :: repeat (fzero O17) 7.
Definition H0 : list (Zp 17%Z) := repeat (fzero O17) 8.

Lemma T5_eval x : peval O17 T5 x = e17 5%Z.
Proof. unfold T5. cbn [Stark.peval repeat]. ring. Qed.

(* the trace is VALID: the transition constraint holds on every step and the assertion holds *)
Lemma T5_valid : (forall i, peval O17 T5 (fpow O17 g17 (S i)) = peval O17 T5 (fpow O17 g17 i)) /\
                 peval O17 T5 (fpow O17 g17 0) = e17 5%Z.
Proof. split; intros; now rewrite !T5_eval. Qed.

(* deep_degree_eq_refuted: a valid trace whose DEEP polynomial has degree 0 < n - 2 = 6 for EVERY coin: the snapshot's
   `assert_eq!(trace_length - 2, deep_composition_poly.degree())` fires (the replayed panic `left: 14, right: 0`
   is the same trace at length 16); the repaired assertion holds *)
Theorem deep_degree_eq_refuted :
  exists (n : nat) (g : Zp 17%Z) (Ts Hs : list (list (Zp 17%Z))),
    primitive_root O17 g n /\ Forall (fun p => length p = n) Ts /\ Forall (fun p => length p = n) Hs /\
    (forall T, In T Ts -> forall i, peval O17 T (fpow O17 g (S i)) = peval O17 T (fpow O17 g i)) /\
    forall (c : @Coin (Zp 17%Z)) cur nxt hz,
      degree_of O17 (deep_poly O17 n g c Ts Hs cur nxt hz) < n - 2 /\
      deep_assert O17 true n (deep_poly O17 n g c Ts Hs cur nxt hz) = false /\
      deep_assert O17 false n (deep_poly O17 n g c Ts Hs cur nxt hz) = true.
Proof.
  exists 8, g17, [T5], [H0]. split; [exact g17_primitive|].
  assert (HT : Forall (fun p : list (Zp 17%Z) => length p = 8) [T5]) by (repeat constructor).
  assert (HH : Forall (fun p : list (Zp 17%Z) => length p = 8) [H0]) by (repeat constructor).
  split; [exact HT|]. split; [exact HH|]. split.
  { intros T [<-|[]] i. apply T5_valid. }
  intros c cur nxt hz.
  assert (TZ : Forall (tail_zeros O17) [T5]). { repeat constructor. }
  assert (HZ : Forall (tail_zeros O17) [H0]). { repeat constructor. }
  destruct (deep_assert_strict_fires O17 L17 8 g17 c [T5] [H0] cur nxt hz ltac:(lia) TZ HZ) as [E1 E2].
  split; [rewrite E1; lia|]. split; [exact E2|].
  apply (deep_assert_lax_holds O17 L17); [lia | exact HT | exact HH].
Qed.

(* ---- an instance of the capstone: transparent commitments (the committed data itself) and a transparent FRI (the
   polynomial itself), so that every stage hypothesis is a true statement about concrete functions *)
Fixpoint leqb (a b : list (Zp 17%Z)) : bool :=
  match a, b with [], [] => true | x :: a', y :: b' => feqb O17 x y && leqb a' b' | _, _ => false end.
Lemma leqb_refl a : leqb a a = true.
Proof. induction a; cbn [leqb]; [reflexivity|]. now rewrite (feqb_refl O17 L17). Qed.

Definition air5 (x : Zp 17%Z) (cur nxt : list (Zp 17%Z)) : Zp 17%Z :=
  fadd O17
    (fmul O17 (fmul O17 (fsub O17 (nth 0 nxt (fzero O17)) (nth 0 cur (fzero O17))) (pprod O17 (exempt O17 g17 8 1) x))
              (finv O17 (fsub O17 (fpow O17 x 8) (fone O17))))
    (fmul O17 (fsub O17 (nth 0 cur (fzero O17)) (e17 5%Z)) (finv O17 (fsub O17 x (fone O17)))).

Definition coin5 : @Coin (Zp 17%Z) := mkCoin (e17 6%Z) [e17 7%Z] [e17 11%Z] [e17 3%Z; e17 5%Z].

Lemma air5_T5 x : air5 x (evals O17 [T5] x) (evals O17 [T5] (fmul O17 x g17)) = peval O17 [] x.
Proof. unfold air5. cbn [evals map nth]. rewrite !T5_eval. cbn [Stark.peval]. ring. Qed.
Lemma coin5_z_off_domain : ~ In (c_z coin5) (domain O17 g17 8).
Proof.
  cbn [c_z coin5]. intros H. apply (In_domain O17) in H. destruct H as (i & Hi & E).
  do 8 (destruct i as [|i]; [zp_neq E|]). lia.
Qed.
Lemma coin5_z_nz : c_z coin5 <> fzero O17.
Proof. intros E. zp_neq E. Qed.
Lemma coin5_zg_nz : fmul O17 (c_z coin5) g17 <> fzero O17.
Proof. intros E. zp_neq E. Qed.
Lemma coin5_xs_NoDup : NoDup (c_xs coin5).
Proof. cbn [c_xs coin5]. constructor; [intros [E|[]]; zp_neq E | constructor; [intros [] | constructor]]. Qed.

Fixpoint lleqb (a b : list (list (Zp 17%Z))) : bool :=
  match a, b with [], [] => true | x :: a', y :: b' => leqb x y && lleqb a' b' | _, _ => false end.
Lemma lleqb_refl a : lleqb a a = true.
Proof. induction a; cbn [lleqb]; [reflexivity|]. now rewrite leqb_refl. Qed.

Example stark_complete_nonvacuous :
  exists pf,
    prove O17 (list (list (Zp 17%Z))) unit (list (Zp 17%Z)) (fun cs => cs) (fun _ _ => tt) (fun d _ => d) air5 (fun _ => repeat (fzero O17) 16)
          (mkParams 8 g17 1 false false) coin5 [T5] = Done pf /\
    verify O17 (list (list (Zp 17%Z))) unit (list (Zp 17%Z)) (fun d xs rows _ => lleqb rows (map (evals O17 d) xs))
           (fun pf _ xs evs => leqb evs (map (peval O17 pf) xs)) air5 (mkParams 8 g17 1 false false) coin5 pf = None.
Proof.
  apply (stark_complete_core O17 L17 (list (list (Zp 17%Z))) unit (list (Zp 17%Z)) (fun cs => cs) (fun _ _ => tt)
           (fun d xs rows _ => lleqb rows (map (evals O17 d) xs)) (fun d _ => d) (fun pf _ xs evs => leqb evs (map (peval O17 pf) xs))
           air5 (fun _ => repeat (fzero O17) 16) 8 1 16 g17 [e17 3%Z; e17 5%Z]) with (dbg := false) (Q := []).
  - intros cs xs _ _ _ _. apply lleqb_refl.
  - intros d xs _ _ _ _ _. apply leqb_refl.
  - lia.
  - lia.
  - simpl; lia.
  - discriminate.
  - repeat constructor.
  - simpl; lia.
  - intros x _. apply air5_T5.
  - reflexivity.
  - reflexivity.
  - exact coin5_z_off_domain.
  - exact coin5_z_nz.
  - exact coin5_zg_nz.
  - intros x H. exact H.
  - exact coin5_xs_NoDup.
  - discriminate.
  - simpl; lia.
  - cbn [c_xs c_z coin5]. intros x [<-|[<-|[]]]; split; intros E; zp_neq E.
Qed.
