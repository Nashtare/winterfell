(* C20 — coefficient-level semantics: finite sums over indices (gsum) and the convolution `conv p q k` =
   sum_{i<=k} p_i q_{k-i}, the k-th coefficient of the product of two coefficient lists (zero-padded).
   Statements about coefficient LISTS (normal forms up to trailing zeros), which over finite fields are
   stronger than identities of polynomial functions. *)
From Coq Require Import List Arith Bool Lia Ring Field.
From VBase Require Import FieldOps.
From VModel Require Import Polynom.
From VProofs Require Import PolyBase.
Import ListNotations.

Section Coeff.
Context {F : Type} (O : FOps F) (L : FLaws O).
Local Notation zero := (fzero O).
Local Notation one := (fone O).
Local Notation "a +f b" := (fadd O a b) (at level 50, left associativity).
Local Notation "a -f b" := (fsub O a b) (at level 50, left associativity).
Local Notation "a *f b" := (fmul O a b) (at level 40, left associativity).

Add Ring Fring : (FLaws_ring_theory O L).

Definition coeff (p : list F) (k : nat) : F := nth k p zero.

Fixpoint gsum (T : nat -> F) (k : nat) : F := match k with 0 => zero | S k' => gsum T k' +f T k' end.

Lemma gsum_ext T U : forall k, (forall i, i < k -> T i = U i) -> gsum T k = gsum U k.
Proof. induction k; intros H; simpl. reflexivity. rewrite IHk, (H k) by (intros; try apply H; lia). reflexivity. Qed.

Lemma gsum_zero T : forall k, (forall i, i < k -> T i = zero) -> gsum T k = zero.
Proof. induction k; intros H; simpl. reflexivity. rewrite IHk, (H k) by (intros; try apply H; lia). ring. Qed.

Lemma gsum_add T U : forall k, gsum (fun i => T i +f U i) k = gsum T k +f gsum U k.
Proof. induction k; simpl. ring. rewrite IHk. ring. Qed.

Lemma gsum_sub T U : forall k, gsum (fun i => T i -f U i) k = gsum T k -f gsum U k.
Proof. induction k; simpl. ring. rewrite IHk. ring. Qed.

Lemma gsum_single T m : forall k, (forall i, i < k -> i <> m -> T i = zero) ->
  gsum T k = if m <? k then T m else zero.
Proof.
  induction k as [|k IH]; intros H. reflexivity.
  cbn [gsum]. rewrite IH by (intros; apply H; lia).
  destruct (Nat.ltb_spec m k), (Nat.ltb_spec m (S k)); try lia.
  - rewrite (H k) by lia. ring.
  - assert (m = k) by lia. subst. ring.
  - rewrite (H k) by lia. ring.
Qed.

(* k-th coefficient of the product *)
Definition conv (p q : list F) (k : nat) : F := gsum (fun i => coeff p i *f coeff q (k - i)) (S k).

Lemma coeff_overflow p k : length p <= k -> coeff p k = zero.
Proof. intros. unfold coeff. now apply nth_overflow. Qed.

Lemma coeff_nil k : coeff [] k = zero.
Proof. unfold coeff. destruct k; reflexivity. Qed.

Lemma coeff_snoc q c i : coeff (q ++ [c]) i = coeff q i +f (if i =? length q then c else zero).
Proof.
  unfold coeff. destruct (Nat.lt_ge_cases i (length q)).
  - rewrite app_nth1 by assumption. destruct (Nat.eqb_spec i (length q)); [lia|ring].
  - rewrite app_nth2 by assumption. rewrite (nth_overflow q) by assumption.
    destruct (Nat.eqb_spec i (length q)).
    + subst. rewrite Nat.sub_diag. simpl. ring.
    + rewrite nth_overflow by (simpl; lia). ring.
Qed.

Lemma conv_ext p p' q q' k : (forall i, coeff p i = coeff p' i) -> (forall i, coeff q i = coeff q' i) ->
  conv p q k = conv p' q' k.
Proof. intros Hp Hq. unfold conv. apply gsum_ext. intros. now rewrite Hp, Hq. Qed.

Lemma conv_snoc q c b k :
  conv (q ++ [c]) b k = conv q b k +f (if length q <=? k then c *f coeff b (k - length q) else zero).
Proof.
  unfold conv.
  rewrite (gsum_ext _ (fun i => coeff q i *f coeff b (k - i)
                                +f (if i =? length q then c else zero) *f coeff b (k - i)))
    by (intros; rewrite coeff_snoc; ring).
  rewrite gsum_add. f_equal.
  rewrite (gsum_single _ (length q)).
  - destruct (Nat.ltb_spec (length q) (S k)), (Nat.leb_spec (length q) k); try lia; [|reflexivity].
    rewrite Nat.eqb_refl. reflexivity.
  - intros i _ Hi. destruct (Nat.eqb_spec i (length q)); [lia|ring].
Qed.

Lemma conv_nil_l b k : conv [] b k = zero.
Proof. unfold conv. apply gsum_zero. intros. rewrite coeff_nil. ring. Qed.

(* above (length q - 1) + (degree bound of b) the product has no coefficients *)
Lemma conv_high q b n k : (forall j, n < j -> coeff b j = zero) -> length q + n <= k -> conv q b k = zero.
Proof.
  intros Hb Hk. unfold conv. apply gsum_zero. intros i Hi.
  destruct (Nat.lt_ge_cases i (length q)).
  - rewrite (Hb (k - i)) by lia. ring.
  - rewrite (coeff_overflow q i) by assumption. ring.
Qed.

Lemma conv_high_deg q b m n k : (forall j, m < j -> coeff q j = zero) -> (forall j, n < j -> coeff b j = zero) ->
  m + n < k -> conv q b k = zero.
Proof.
  intros Hq Hb Hk. unfold conv. apply gsum_zero. intros i Hi.
  destruct (Nat.le_gt_cases i m).
  - rewrite (Hb (k - i)) by lia. ring.
  - rewrite (Hq i) by lia. ring.
Qed.

(* leading coefficient of a product *)
Lemma conv_top q b m n : (forall j, m < j -> coeff q j = zero) -> (forall j, n < j -> coeff b j = zero) ->
  conv q b (m + n) = coeff q m *f coeff b n.
Proof.
  intros Hq Hb. unfold conv. rewrite (gsum_single _ m).
  - destruct (Nat.ltb_spec m (S (m + n))); [|lia]. now replace (m + n - m) with n by lia.
  - intros i Hi Him. destruct (Nat.lt_ge_cases i m).
    + rewrite (Hb (m + n - i)) by lia. ring.
    + rewrite (Hq i) by lia. ring.
Qed.

(* coefficients of add and sub *)
Lemma pointwise_nth (op : F -> F -> F) a b i : op zero zero = zero ->
  nth i (map (fun i => op (coeff_or_zero O a i) (coeff_or_zero O b i)) (seq 0 (Nat.max (length a) (length b)))) zero
  = op (nth i a zero) (nth i b zero).
Proof.
  intros H0. destruct (Nat.lt_ge_cases i (Nat.max (length a) (length b))) as [H|H].
  - rewrite nth_map_seq by assumption. unfold coeff_or_zero.
    destruct (Nat.ltb_spec i (length a)), (Nat.ltb_spec i (length b));
      rewrite ?(nth_overflow a zero) by lia; rewrite ?(nth_overflow b zero) by lia; reflexivity.
  - rewrite !nth_overflow by (rewrite ?map_length, ?seq_length; lia). now symmetry.
Qed.

Lemma add_nth a b i : nth i (add O a b) zero = nth i a zero +f nth i b zero.
Proof. apply (pointwise_nth (fadd O)). ring. Qed.

Lemma sub_nth a b i : nth i (sub O a b) zero = nth i a zero -f nth i b zero.
Proof. apply (pointwise_nth (fsub O)). ring. Qed.

Lemma conv_sub_l p p' q k : conv (sub O p p') q k = conv p q k -f conv p' q k.
Proof.
  unfold conv. rewrite <- gsum_sub. apply gsum_ext. intros i _. unfold coeff at 1.
  rewrite sub_nth. unfold coeff. ring.
Qed.

Lemma last_nz_spec poly n :
  match last_nz O poly n with
  | Some i => i < n /\ nth i poly zero <> zero /\ forall k, i < k < n -> nth k poly zero = zero
  | None => forall k, k < n -> nth k poly zero = zero
  end.
Proof.
  induction n as [|n IH]; simpl. intros; lia.
  destruct (feqb O (nth n poly zero) zero) eqn:E.
  - apply (feqb_true O L) in E. destruct (last_nz O poly n) as [i|].
    + destruct IH as (H1 & H2 & H3). repeat split; auto.
      intros k Hk. destruct (Nat.eq_dec k n); subst; auto. apply H3; lia.
    + intros k Hk. destruct (Nat.eq_dec k n); subst; auto. apply IH; lia.
  - apply (feqb_false O L) in E. repeat split; auto. intros; lia.
Qed.

(* over the whole list the bound disappears: entries past the end are zero *)
Lemma last_nz_all poly :
  match last_nz O poly (length poly) with
  | Some i => i < length poly /\ nth i poly zero <> zero /\ forall k, i < k -> nth k poly zero = zero
  | None => forall k, nth k poly zero = zero
  end.
Proof.
  pose proof (last_nz_spec poly (length poly)) as H. destruct (last_nz O poly (length poly)) as [i|].
  - destruct H as (H1 & H2 & H3). repeat split; auto.
    intros k Hk. destruct (Nat.lt_ge_cases k (length poly)); [apply H3; lia | now apply nth_overflow].
  - intros k. destruct (Nat.lt_ge_cases k (length poly)); [now apply H | now apply nth_overflow].
Qed.

(* a coefficient list is either the zero polynomial or has a non-zero coefficient *)
Lemma coeffs_dec p : (forall k, coeff p k = zero) \/ (exists k, coeff p k <> zero).
Proof.
  pose proof (last_nz_all p) as H. destruct (last_nz O p (length p)) as [i|].
  - right. exists i. tauto.
  - left. exact H.
Qed.

End Coeff.
