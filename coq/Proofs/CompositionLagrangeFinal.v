(* C17 — the Lagrange capstone as ONE closed statement.  All four premises of
   composition_is_definition_lagrange_partial are instantiated from their theorems: the table with the Lagrange hook
   (evaluate_spec_aux + lagrange_evaluate_spec + evaluate_with_lagrange), the polynomial form of comp_def (comp_def_is_poly,
   C01), the polynomial form of lag_def for the honest kernel column (lag_def_is_poly_honest, C01 + C16) and the
   interpolation round trip (interp_fft_roundtrip, C09).  stdlib style. *)
From Coq Require Import List Arith Bool Lia ZArith.
From VBase Require Import MachInt FieldOps.
From VModel Require Import Composition CompositionLagrange.
From VModel Require Stark FFT Enforce EnforceLagrange.
From VProofs Require StarkPoly StarkComplete StarkLagrangeRows FFTSpec FFTEval FFTOffset.
From VProofs Require Import CompositionBase CompositionIndex CompositionVerifier CompositionTable CompositionFFT CompositionValid
  CompositionLagrange CompositionLagrangeTable CompositionLagrangePoly CompositionLagrangeHonest.
Import ListNotations.
Local Open Scope nat_scope.

Section LagFinal.
Context {F : Type} (O : FOps F) (L : FLaws O).
Local Notation fz := (fzero O).

Variable n ceb ldeb r : nat.
Variable offset : F.
Variable rou : nat -> F.
Variable wlde ginv : F.
Local Notation ce_size := (ce_size n ceb).
Local Notation g := (gtrace n rou).
Hypothesis setting : CeSetting O n ceb ldeb r rou wlde.
Hypothesis ginv_spec : fmul O ginv g = fone O.

Variable num_main : nat.
Variable tmain : list F -> list F -> list F -> list F.
Variable taux : list F -> list F -> list F -> list F -> list F -> list F -> list F.
Variable ppolys : list (list F).
Variable exemptions : nat.
Variable tcoef : list F.
Variable main_groups aux_groups : list (@BGroup F).
Variable rands : list F.
Variable tpolys apolys lde_main lde_aux : list (list F).
Hypothesis tmain_len : forall cur nxt pv, length (tmain cur nxt pv) = num_main.
Hypothesis exemptions_le : exemptions <= n.
Hypothesis periodic_ok : PeriodicOk O n ceb rou ppolys.
Hypothesis main_ok : forall gr, In gr main_groups ->
  div_ok n ceb (bg_div gr) /\ forall c, In c (bg_cs gr) -> bc_ok O n ceb ginv tpolys c.
Hypothesis lde_main_ok : lde_rows_of O n ldeb offset wlde lde_main tpolys.
Hypothesis aux_ok : forall gr, In gr aux_groups ->
  div_ok n ceb (bg_div gr) /\ forall c, In c (bg_cs gr) -> bc_ok O n ceb ginv apolys c.
Hypothesis lde_aux_ok : lde_rows_of O n ldeb offset wlde lde_aux apolys.

Variable two_adicity K : nat.
Variable rouk : nat -> F.
Variable itw : list F.
Hypothesis fft_setting : FftSetting O n ceb offset rou two_adicity K rouk itw.

Hypothesis ce_off_domain : forall i, i < ce_size -> ~ In (ce_x O n ceb offset rou i) (Stark.domain O g n).
Variable num_cols m : nat.
Hypothesis m_le_ce : m <= ce_size.
Hypothesis m_le_cols : m <= num_cols * n.
Hypothesis n_lt_ce : n < ce_size.

Variable N : list F.
Variable Bm Rm Ba Ra : @BGroup F -> list F.
Hypothesis valid :
  ValidNumer O n rou tmain taux ppolys exemptions tcoef main_groups aux_groups rands true tpolys apolys N Bm Rm Ba Ra m.

Local Notation comp_def has_aux :=
  (comp_def O n rou tmain taux ppolys exemptions tcoef main_groups aux_groups rands has_aux tpolys apolys).
Local Notation evaluate has_aux :=
  (evaluate O n ceb ldeb offset rou num_main tmain taux ppolys exemptions tcoef main_groups aux_groups rands has_aux
            lde_main lde_aux (fun _ v => v)).
Local Notation interp := (interp_fft O two_adicity itw offset).

(* the Lagrange kernel column: v = log2 n random elements, the HONEST column eq(r, bits of the row), its polynomial Lp, its
   extension over the LDE coset, the constraints LagrangeKernelTransitionConstraints::new builds *)
Variable v : nat.
Hypothesis n_eq : n = 2 ^ v.
Variable Lp lde_lag rr : list F.
Variable t : EnforceLagrange.LagTC (F := F).
Variable lb : F.
Hypothesis rr_len : length rr = v.
Hypothesis coef_len : length (EnforceLagrange.l_coef t) = v.
Hypothesis div_len : length (EnforceLagrange.l_div t) = v.
Hypothesis v_lt_64 : v < 64.
Hypothesis Lp_interp : forall i, i < n ->
  peval O Lp (cpow O g i) = nth i (StarkLagrangeRows.kernel_col O v rr) fz.
Hypothesis lde_lag_len : length lde_lag = lde_size n ldeb.
Hypothesis lde_lag_spec : forall j, j < lde_size n ldeb -> nth_error lde_lag j = Some (peval O Lp (fmul O (cpow O wlde j) offset)).
Hypothesis Lp_len_ce : length Lp <= ce_size.
Hypothesis Lp_len_cols : length Lp <= num_cols * n.
(* the ce coset avoids the zeros of the Lagrange divisors (it avoids the trace domain, which contains them) *)
Hypothesis ce_lag_good : forall i, i < ce_size -> lag_good O v (ce_x O n ceb offset rou i).

Local Notation lag_def := (lag_def O n rou v Lp t rr lb).

Theorem composition_is_definition_lagrange :
  exists lag Q evals cols,
    lagrange_evaluate O n ceb ldeb offset rou v lde_lag t rr lb = Some lag
    /\ Composition.evaluate O n ceb ldeb offset rou num_main tmain taux ppolys exemptions tcoef main_groups aux_groups rands true
                lde_main lde_aux (lagrange_acc_of O lag) = Some evals
    /\ composition_poly_new n interp evals num_cols = Some cols
    /\ (forall z, recombine O n (cp_evaluate_at O cols z) z = peval O Q z)
    /\ (forall z, ~ In z (Stark.domain O g n) -> lag_good O v z ->
          recombine O n (cp_evaluate_at O cols z) z = fadd O (comp_def true z) (lag_def z)).
Proof.
  destruct setting as [n_pos ceb_pos r_pos ldeb_eq wlde_order wlde_wce wlde_g].
  destruct periodic_ok as [? ? ? ?].
  assert (Htab : evaluate true = Some (map (fun i => comp_def true (ce_x O n ceb offset rou i)) (seq 0 ce_size)))
    by (apply (evaluate_spec_aux O L n ceb ldeb r offset rou wlde ginv); assumption).
  assert (Hpow : forall idx, idx < v -> 2 ^ idx * (ce_size / 2 ^ idx) = ce_size).
  { intros idx Hi. unfold Composition.ce_size. rewrite n_eq.
    replace (2 ^ v * ceb) with (2 ^ idx * (2 ^ (v - idx) * ceb)).
    - set (A := 2 ^ (v - idx) * ceb). rewrite (Nat.mul_comm (2 ^ idx) A) at 1.
      rewrite Nat.div_mul by (apply Nat.pow_nonzero; lia). lia.
    - rewrite Nat.mul_assoc, <- Nat.pow_add_r. f_equal. f_equal. lia. }
  assert (Hlag : lagrange_evaluate O n ceb ldeb offset rou v lde_lag t rr lb
                 = Some (map (fun i => lag_def (ce_x O n ceb offset rou i)) (seq 0 ce_size)))
    by (apply (lagrange_evaluate_spec O L n ceb ldeb r offset rou wlde); assumption).
  pose proof (evaluate_with_lagrange O n ceb ldeb offset rou num_main tmain taux ppolys exemptions tcoef main_groups aux_groups rands
                true lde_main lde_aux _ (fun i => lag_def (ce_x O n ceb offset rou i)) Htab) as Hev.
  destruct (valid_numer_poly O L (proj1 (Nat.neq_0_lt_0 n) n_pos) exemptions_le valid) as [Qc [HQcl HQc]].
  destruct valid as [g_primitive _ _ _ _ _ _ _ _].
  destruct (lag_def_is_poly_honest O L n v rou n_eq g_primitive Lp rr rr_len Lp_interp t lb) as [Ql [HQll HQl]].
  destruct (composition_is_definition_lagrange_partial O L n ceb offset rou n_pos interp (fft_setting_roundtrip O L fft_setting)
              num_cols n_lt_ce (comp_def true) lag_def (fun z => ~ In z (Stark.domain O g n)) (lag_good O v) Qc Ql _ Hev HQc
              (fun z Hz => eq_sym (HQl z Hz)))
    as [evals [cols [E1 [E2 [E3 E4]]]]].
  - intros i Hi. split; [now apply ce_off_domain | now apply ce_lag_good].
  - lia.
  - lia.
  - eexists. exists (Stark.padd O Qc Ql), evals, cols.
    split; [exact Hlag|]. split; [exact E1|]. split; [exact E2|]. split; [exact E3 | exact E4].
Qed.
End LagFinal.
