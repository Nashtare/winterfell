(* C01 — completeness of the protocol WITH a Lagrange-kernel column (Model/StarkLagrange.v).  Re-uses the stage lemmas of
   Proofs/StarkPoly.v / StarkDeep.v / StarkComplete.v and adds only the Lagrange terms: the DEEP term (T_l - p_S) / Z_S
   and the Lagrange constraint terms of the OOD equation. *)
From Coq Require Import List Arith Bool Lia Ring Field ZArith.
From VBase Require Import MachInt FieldOps.
From VModel Require Import Stark StarkLagrange.
From VModel Require Enforce EnforceLagrange Composition.
From VProofs Require Import FieldFacts ListFacts Pow2Facts StarkPoly StarkDeep StarkComplete.
From VProofs Require CompositionBase CompositionLagrange CompositionLagrangePoly StarkLagrangeRows.
Import ListNotations.
Local Open Scope nat_scope.

Section LagAlg.
Context {F : Type} (O : FOps F) (L : FLaws O).
Local Notation zero := (fzero O).
Local Notation one := (fone O).
Local Notation "a +f b" := (fadd O a b) (at level 50, left associativity).
Local Notation "a -f b" := (fsub O a b) (at level 50, left associativity).
Local Notation "a *f b" := (fmul O a b) (at level 40, left associativity).
Local Notation peval := (peval O).
Local Notation fpow := (fpow O).
Local Notation pprod := (pprod O).
Local Notation evals := (evals O).
Add Field FfieldL : (FLaws_field_theory O L).

(* ---------------------------------------------------------------- syn_div_roots_in_place *)
Lemma syn_roots_shape n : 0 < n -> forall roots p, roots <> [] -> length p = n -> top_zero O n (syn_roots O p roots).
Proof.
  intros Hn. induction roots as [|r t IH]; intros p Hne Hl; [congruence|].
  cbn [syn_roots]. pose proof (top_zero_syn1 O L n p r Hn Hl) as S.
  destruct t as [|r' t']; [exact S|]. apply IH; [discriminate | exact (proj1 S)].
Qed.

Lemma syn_roots_eval : forall roots p, NoDup roots -> (forall r, In r roots -> peval p r = zero) ->
  forall x, peval p x = pprod roots x *f peval (syn_roots O p roots) x.
Proof.
  induction roots as [|r t IH]; intros p Hnd Hv x; cbn [syn_roots Stark.pprod]; [ring|].
  inversion Hnd as [|? ? Hnr Hnd']; subst.
  set (q := fst (syn1 O p r)).
  assert (Hq : forall y, peval p y = (y -f r) *f peval q y).
  { intros y. pose proof (syn1_quotient O L p r y) as E. fold q in E. rewrite (Hv r (or_introl eq_refl)) in E.
    transitivity (peval p y -f zero); [ring | exact E]. }
  assert (Hqv : forall r', In r' t -> peval q r' = zero).
  { intros r' Hr'. apply (quotient_root O L p q r r' (Hq r')); [intros ->; contradiction | apply Hv; now right]. }
  rewrite (Hq x), (IH q Hnd' Hqv x). ring.
Qed.

(* ---------------------------------------------------------------- the opening points of the kernel column *)
Lemma lag_pts_length g z v : length (lag_pts O g z v) = S v.
Proof. unfold lag_pts. cbn [length]. now rewrite map_length, seq_length. Qed.

Lemma lag_pts_head g z v x : 1 <= v -> ~ In x (lag_pts O g z v) -> x <> z /\ x <> z *f g.
Proof.
  intros Hv Hx. destruct v as [|v']; [lia|]. split; intros ->; apply Hx; [now left|].
  right. left. cbn [Stark.fpow Nat.pow]. ring.
Qed.

Lemma lag_pts_NoDup g n v z : n = 2 ^ v -> primitive_root O g n -> z <> zero -> NoDup (lag_pts O g z v).
Proof.
  intros Hn [_ Hinj] Hz.
  assert (E : lag_pts O g z v = map (fun e => z *f fpow g e) (0 :: map (fun i => 2 ^ i) (seq 0 v))).
  { unfold lag_pts. cbn [map Stark.fpow]. f_equal; [ring|]. rewrite map_map. apply map_ext. intros i. ring. }
  rewrite E. apply NoDup_map_inj_in.
  - assert (Hb : forall e, In e (0 :: map (fun i => 2 ^ i) (seq 0 v)) -> e < n).
    { intros e [<-|He]; [rewrite Hn; pose proof (Nat.pow_nonzero 2 v); lia|].
      apply in_map_iff in He. destruct He as (i & <- & Hi). apply in_seq in Hi. rewrite Hn. apply Nat.pow_lt_mono_r; lia. }
    intros a b Ha Hb' Hab. apply Hinj; [now apply Hb | now apply Hb|]. now apply (fmul_cancel_l O L z).
  - constructor.
    + intros Hin. apply in_map_iff in Hin. destruct Hin as (i & Hi & _). pose proof (Nat.pow_nonzero 2 i). lia.
    + apply NoDup_map_inj_in; [|apply seq_NoDup]. intros a b _ _ Hab. apply (Nat.pow_inj_r 2) in Hab; [exact Hab | lia].
Qed.

(* ---------------------------------------------------------------- the DEEP term of the kernel column *)
Variable interp_pts : list F -> list F -> list F.
(* C20 (polynom::interpolate): on distinct points the result passes through the points and has at most |xs| coefficients *)
Hypothesis interp_pts_spec : forall xs ys, NoDup xs -> length ys = length xs ->
  length (interp_pts xs ys) <= length xs /\
  forall m, m < length xs -> peval (interp_pts xs ys) (nth m xs zero) = nth m ys zero.

Lemma peval_psub a b x : peval (psub O a b) x = peval a x -f peval b x.
Proof. unfold psub. rewrite (peval_padd O L), (peval_pscale O L). ring. Qed.

Section OnePoint.
Variables (n v : nat) (g z : F) (Lp : list F).
Hypothesis n_eq : n = 2 ^ v.
Hypothesis g_prim : primitive_root O g n.
Hypothesis z_nz : z <> zero.
Hypothesis Lp_len : length Lp = n.
Hypothesis v_pos : 1 <= v.
Let xs := lag_pts O g z v.
Let lf := lag_frame O g v Lp z.
Let pS := interp_pts xs lf.
Let N := psub O Lp pS.

Lemma xs_NoDup : NoDup xs. Proof. exact (lag_pts_NoDup g n v z n_eq g_prim z_nz). Qed.
Lemma lf_length : length lf = length xs. Proof. unfold lf, lag_frame. now rewrite map_length. Qed.
Lemma Sv_le_n : S v <= n. Proof. rewrite n_eq. pose proof (Nat.pow_gt_lin_r 2 v). lia. Qed.

Lemma N_length : length N = n.
Proof.
  unfold N, psub. rewrite (padd_length O), (pscale_length O), Lp_len.
  destruct (interp_pts_spec xs lf xs_NoDup lf_length) as [Hl _]. fold pS in Hl.
  unfold xs in Hl. rewrite lag_pts_length in Hl. pose proof Sv_le_n. lia.
Qed.

Lemma N_vanishes r : In r xs -> peval N r = zero.
Proof.
  intros Hr. destruct (In_nth xs r zero Hr) as (m & Hm & <-).
  unfold N. rewrite peval_psub.
  destruct (interp_pts_spec xs lf xs_NoDup lf_length) as [_ Hp]. fold pS in Hp. rewrite (Hp m Hm).
  change lf with (map (peval Lp) xs).
  rewrite (nth_indep (map (peval Lp) xs) zero (peval Lp zero)) by (now rewrite map_length). rewrite map_nth. ring.
Qed.

(* (T_l - p_S) = Z_S * quotient, and the quotient keeps n coefficients with a zero top one *)
Lemma deep_lag_eval lcc x :
  pprod xs x *f peval (deep_lag O interp_pts lcc Lp xs lf) x = (peval Lp x -f peval pS x) *f lcc.
Proof.
  unfold deep_lag. fold pS N. rewrite (peval_pscale O L).
  pose proof (syn_roots_eval xs N xs_NoDup N_vanishes x) as E. unfold N at 1 in E. rewrite peval_psub in E.
  rewrite E. ring.
Qed.

Lemma deep_lag_shape lcc : top_zero O n (deep_lag O interp_pts lcc Lp xs lf).
Proof.
  unfold deep_lag. fold pS N. apply (top_zero_pscale O L), syn_roots_shape.
  - pose proof Sv_le_n. lia.
  - discriminate.
  - exact N_length.
Qed.

Lemma deep_trace_lag_shape gam lcc Ts cur nxt : 0 < n -> Forall (fun p => length p = n) Ts ->
  top_zero O n (padd O (deep_lag O interp_pts lcc Lp xs lf) (deep_trace O n g z gam Ts cur nxt)).
Proof.
  intros Hn HTs. apply (top_zero_padd O L n _ _ Hn); [apply deep_lag_shape | now apply (deep_trace_shape O L)].
Qed.

(* the Lagrange analogue of deep_trace_eval: at a queried x that is none of the opening points, the verifier's recomputation of
   the trace part is the value of the prover's trace part with the kernel column's term added *)
Lemma v_trace_lag_eval gam lcc Ts x : 0 < n -> ~ In x xs ->
  peval (padd O (deep_lag O interp_pts lcc Lp xs lf) (deep_trace O n g z gam Ts (evals Ts z) (evals Ts (z *f g)))) x
  = v_trace_lag O interp_pts g v z x gam lcc (evals (Ts ++ [Lp]) x) (evals Ts z) (evals Ts (z *f g)) lf.
Proof.
  intros Hn Hx. destruct (lag_pts_head g z v x v_pos Hx) as [X1 X2].
  rewrite (peval_padd O L), (deep_trace_eval O L n g z gam Ts Hn x X1 X2).
  unfold v_trace_lag, v_trace. fold xs pS.
  assert (Ee : evals (Ts ++ [Lp]) x = evals Ts x ++ [peval Lp x]) by (unfold Stark.evals; now rewrite map_app).
  rewrite Ee, removelast_last, last_last.
  pose proof (deep_lag_eval lcc x) as E.
  set (Qx := peval (deep_lag O interp_pts lcc Lp xs lf) x) in *.
  (* xs = z :: g^1 z :: rest *)
  destruct v as [|v']; [lia|].
  assert (Exs : xs = z :: (fpow g 1 *f z) :: map (fun i => fpow g (2 ^ i) *f z) (seq 1 v')) by reflexivity.
  set (rest := map (fun i => fpow g (2 ^ i) *f z) (seq 1 v')) in *.
  rewrite Exs in E, Hx. cbn [skipn]. rewrite Exs. cbn [skipn Stark.pprod] in *.
  apply (fsub_neq_zero O L) in X1, X2.
  assert (H3 : pprod rest x <> zero). { apply (pprod_nonroot O L). intros Hin. apply Hx. now do 2 right. }
  set (t1 := dot O gam (map (fun p => fst p -f snd p) (combine (evals Ts x) (evals Ts z)))).
  set (t2 := dot O gam (map (fun p => fst p -f snd p) (combine (evals Ts x) (evals Ts (z *f g))))).
  set (R := pprod rest x) in *. set (lv := peval Lp x) in *. set (ps := peval pS x) in *.
  assert (E' : (lv -f ps) *f lcc = (x -f z) *f ((x -f z *f g) *f R) *f Qx).
  { rewrite <- E. cbn [Stark.fpow]. ring. }
  rewrite E'. field. repeat split; assumption.
Qed.
End OnePoint.

(* ---------------------------------------------------------------- the honest kernel column *)
(* From "the kernel column is the honest one" to the premises of the core theorem: C16 (rows) -> StarkLagrangeRows (points) -> C17
   (each Lagrange quotient is a polynomial, lag_def is ONE coefficient list) -> the combined quotient Qc + Ql. *)
Section ValidLag.
Variables (n v : nat) (g : F).
Hypothesis n_eq : n = 2 ^ v.
Hypothesis g_prim : primitive_root O g n.
Variable lc : @LagC F.
(* the shape LagrangeKernelTransitionConstraints::new produces (C16_lagrange_count): v coefficients, v divisors x^(2^idx) - 1 *)
Hypothesis coef_len : length (EnforceLagrange.l_coef (lc_t lc)) = v.
Hypothesis rr_len : length (lc_rr lc) = v.
Hypothesis div_len : length (EnforceLagrange.l_div (lc_t lc)) = v.
Hypothesis div_spec : forall idx, idx < v ->
  nth idx (EnforceLagrange.l_div (lc_t lc)) (Enforce.mkD [] []) = Enforce.mkD [((2 ^ Z.of_nat idx)%Z, one)] [].
Hypothesis v_lt_64 : v < 64.

Local Notation ldef_on := (CompositionLagrange.lag_def_on O v (lc_t lc) (lc_rr lc) (lc_lb lc)).

(* the verifier's (C16) evaluation of the Lagrange constraints is defined on every frame of v + 1 entries and is C17's lag_def_on *)
Lemma lag_eval_is_def c x : length c = S v -> lag_eval O lc c x = Some (ldef_on c x).
Proof.
  intros Hc. unfold lag_eval.
  destruct (CompositionLagrange.verifier_lagrange_agrees O L 1 1 1 1 ltac:(lia) ltac:(lia) ltac:(lia) eq_refl v
              (repeat zero (Composition.lde_size 1 1)) (repeat_length _ _) (lc_t lc) (lc_rr lc) (lc_lb lc)
              coef_len rr_len div_len div_spec v_lt_64 c x Hc) as [E1 E2].
  rewrite E1, E2. reflexivity.
Qed.

Lemma lag_frame_length Lp x : length (lag_frame O g v Lp x) = S v.
Proof. unfold lag_frame. now rewrite map_length, lag_pts_length. Qed.

Lemma lag_tot_is_def Lp x :
  lag_tot O lc (lag_frame O g v Lp x) x = CompositionLagrange.lag_def O n (fun _ => g) v Lp (lc_t lc) (lc_rr lc) (lc_lb lc) x.
Proof.
  unfold lag_tot. rewrite (lag_eval_is_def _ x (lag_frame_length Lp x)).
  unfold CompositionLagrange.lag_def. f_equal.
  unfold lag_frame, lag_pts, CompositionLagrange.lag_frame, Composition.gtrace. cbn [map]. now rewrite map_map.
Qed.

(* off the trace domain no Lagrange divisor vanishes *)
Lemma off_domain_lag_good x : 0 < n -> ~ In x (domain O g n) -> CompositionLagrangePoly.lag_good O v x.
Proof.
  intros Hn Hx.
  assert (Hxn : fpow x n <> one).
  { intros E. apply (pprod_nonroot O L _ _ Hx). rewrite (domain_vanishing O L g n g_prim Hn), E. ring. }
  split.
  - intros ->. apply Hxn. apply (fpow_one O L).
  - intros idx Hi E. apply Hxn.
    replace n with (2 ^ idx * 2 ^ (v - idx)) by (rewrite n_eq, <- Nat.pow_add_r; f_equal; lia).
    rewrite (fpow_mul O L). change (Composition.cpow O x (2 ^ idx)) with (fpow x (2 ^ idx)) in E. rewrite E.
    apply (fpow_one O L).
Qed.

(* the HONEST kernel column: Lp takes the values of C16's lag_kernel_col on the trace domain *)
Variable Lp : list F.
Hypothesis Lp_honest : forall i, i < n -> peval Lp (fpow g i) = nth i (kernel_col O (lc_rr lc) v) zero.

Theorem honest_lag_quotient : 0 < n ->
  exists Ql, length Ql <= length Lp /\
    forall x, ~ In x (domain O g n) -> lag_tot O lc (lag_frame O g v Lp x) x = peval Ql x.
Proof.
  intros Hn.
  destruct (CompositionLagrangePoly.lag_def_is_poly O L n v g n_eq g_prim Lp (lc_rr lc) rr_len
              (StarkLagrangeRows.honest_numer_vanishes O L n v g n_eq (lc_rr lc) rr_len Lp Lp_honest)
              (StarkLagrangeRows.honest_first_cell O L n v g n_eq (lc_rr lc) rr_len Lp Lp_honest Hn)
              (fun _ => g) eq_refl (lc_t lc) (lc_lb lc)) as (Ql & Hl & HQl).
  exists Ql. split; [exact Hl|]. intros x Hx. rewrite lag_tot_is_def. apply HQl. now apply off_domain_lag_good.
Qed.
End ValidLag.

End LagAlg.

(* ================================================================================================ *)
Section CompleteLag.
Context {F : Type} (O : FOps F) (L : FLaws O).
Local Notation zero := (fzero O).
Local Notation "a +f b" := (fadd O a b) (at level 50, left associativity).
Local Notation "a *f b" := (fmul O a b) (at level 40, left associativity).
Local Notation peval := (peval O).
Local Notation evals := (evals O).

Variables (Digest Opening FriProof : Type).
Variable commit : list (list F) -> Digest.
Variable open_prove : list (list F) -> list F -> Opening.
Variable open_ok : Digest -> list F -> list (list F) -> Opening -> bool.
Variable fri_prove : list F -> list F -> FriProof.
Variable fri_verify : FriProof -> nat -> list F -> list F -> bool.
Variable air_eval : F -> list F -> list F -> F.
Variable interp_ce : (F -> F) -> list F.
Variable interp_pts : list F -> list F -> list F.

Variables (n cols ce_size v : nat) (g : F).
Variable ce_coset : list F.
Variable lde : list F.

(* ---- stage hypotheses: the SAME Merkle / FRI ones as in Proofs/StarkComplete.v (discharged from C10 / C15 in Proofs/StarkInst.v),
   plus C20's interpolation through distinct points *)
Hypothesis merkle_complete : forall (cs : list (list F)) xs, incl xs lde -> NoDup xs -> xs <> [] -> length xs <= 255 ->
  open_ok (commit cs) xs (map (evals cs) xs) (open_prove cs xs) = true.
Hypothesis fri_complete : forall d xs, length d = n -> last d zero = zero -> incl xs lde -> xs <> [] -> length xs <= 255 ->
  fri_verify (fri_prove d xs) (n - 2) xs (map (peval d) xs) = true.
Hypothesis interp_pts_spec : forall xs ys, NoDup xs -> length ys = length xs ->
  length (interp_pts xs ys) <= length xs /\
  forall m, m < length xs -> peval (interp_pts xs ys) (nth m xs zero) = nth m ys zero.

Local Notation prove_lag := (prove_lag O interp_pts Digest Opening FriProof commit open_prove fri_prove air_eval interp_ce).
Local Notation verify_lag := (verify_lag O interp_pts Digest Opening FriProof open_ok fri_verify air_eval).

(* the combined constraint evaluation of an AIR with a kernel column, as a function of the point *)
Definition cfun (lc : LagC) (Ts : list (list F)) (Lp : list F) (x : F) : F :=
  air_eval x (evals Ts x) (evals Ts (x *f g)) +f lag_tot O lc (lag_frame O g v Lp x) x.

Theorem stark_complete_lagrange_core (dbg : bool) (lc : @LagC F) (cP cV : @Coin F) (lcc : F)
    (Ts : list (list F)) (Lp : list F) (Q : list F) :
  n = 2 ^ v -> 2 <= v -> primitive_root O g n -> 1 <= cols -> n * cols <= ce_size ->
  Ts <> [] -> Forall (fun p => length p = n) Ts -> length Lp = n ->
  length Q <= n * cols ->
  (forall x, ~ In x (domain O g n) -> cfun lc Ts Lp x = peval Q x) ->
  interp_ce (cfun lc Ts Lp) = Q ++ repeat zero (ce_size - length Q) ->
  (* the OOD frame of the kernel column has the shape the Lagrange constraints index into (v + 1 entries, v constraints) *)
  lag_eval O lc (lag_frame O g v Lp (c_z cP)) (c_z cP) <> None ->
  cV = cP ->
  ~ In (c_z cP) (domain O g n) -> c_z cP <> zero -> c_z cP *f g <> zero ->
  incl (c_xs cP) lde -> NoDup (c_xs cP) -> c_xs cP <> [] -> length (c_xs cP) <= 255 ->
  (* the query points are none of the opening points z, g z, g^2 z, g^4 z, .. of the kernel column *)
  (forall x, In x (c_xs cP) -> ~ In x (lag_pts O g (c_z cP) v)) ->
  exists pf, prove_lag (mkParams n g cols false dbg) v lc cP lcc Ts Lp = Done pf /\
             verify_lag (mkParams n g cols false dbg) v lc cV lcc pf = VAccept.
Proof.
  intros Hnv Hv Hg Hcols Hce HTs HTl HLl HQl HQ EH Hle -> Hz Hz0 Hzg0 Hxs Hnd Hne H255 Hxz.
  pose proof (succ_lt_pow2 v Hv) as Hsv. rewrite <- Hnv in Hsv.
  assert (Hn0 : 0 < n) by lia. assert (Hv1 : 1 <= v) by lia.
  set (z := c_z cP) in *.
  set (H := interp_ce (cfun lc Ts Lp)) in *.
  destruct (composition_columns O L n cols ce_size Q H Hn0 Hcols HQl Hce EH) as (Cdeg & Ccols & S2 & Cood).
  set (Hs := segment H n cols) in *.
  set (cur := evals Ts z). set (nxt := evals Ts (z *f g)). set (hz := evals Hs z).
  set (lf := lag_frame O g v Lp z). set (xs := lag_pts O g z v).
  set (d0 := padd O (deep_lag O interp_pts lcc Lp xs lf) (deep_trace O n g z (c_gamma cP) Ts cur nxt)).
  set (d := deep_constraints O z (c_delta cP) Hs hz d0).
  pose proof (deep_trace_lag_shape O L interp_pts interp_pts_spec n v g z Lp Hnv Hg Hz0 HLl Hv1 (c_gamma cP) lcc Ts cur nxt Hn0 HTl)
    as D0. fold xs lf d0 in D0.
  pose proof (deep_constraints_shape O L n z Hn0 (c_delta cP) Hs hz d0 S2 D0) as D. fold d in D.
  set (Tall := Ts ++ [Lp]).
  exists (mkProofL Digest Opening FriProof (commit Tall) (commit Hs) cur nxt hz lf
            (map (evals Tall) (c_xs cP)) (map (evals Hs) (c_xs cP))
            (open_prove Tall (c_xs cP)) (open_prove Hs (c_xs cP)) (fri_prove d (c_xs cP))).
  split.
  - unfold StarkLagrange.prove_lag. cbn [p_n p_g p_cols p_strict p_dbg]. fold z. fold (cfun lc Ts Lp). fold H.
    rewrite Cdeg, andb_false_r. fold Hs. rewrite Ccols.
    cbn [negb]. destruct Ts as [|T0 Ts']; [congruence|].
    replace (n <? 2) with false by (symmetry; apply Nat.ltb_ge; lia).
    rewrite (feqb_neq O L z zero Hz0), (feqb_neq O L (z *f g) zero Hzg0). cbn [orb].
    fold cur nxt hz lf xs d0 d.
    replace (length xs <? length Lp) with true
      by (symmetry; apply Nat.ltb_lt; unfold xs; rewrite lag_pts_length, HLl; exact Hsv).
    cbn [negb]. rewrite (top_zero_assert O L n d0 D0), (top_zero_assert O L n d D). reflexivity.
  - unfold StarkLagrange.verify_lag.
    cbn [p_n p_g pl_cur pl_nxt pl_hz pl_lframe pl_trace_root pl_comp_root pl_trows pl_hrows pl_topen pl_hopen pl_fri]. fold z lf.
    destruct (lag_eval O lc lf z) as [lv|] eqn:Elv; [|exfalso; exact (Hle Elv)].
    (* the OOD consistency equation, Lagrange terms included *)
    assert (E1 : air_eval z cur nxt +f lv = peval Q z).
    { rewrite <- (HQ z Hz). unfold cfun. fold z cur nxt lf. unfold lag_tot. now rewrite Elv. }
    rewrite E1, (Cood z : ood_lhs O n z 0 hz = peval Q z), (feqb_refl O L). cbn [negb].
    rewrite (merkle_complete Tall _ Hxs Hnd Hne H255), (merkle_complete Hs _ Hxs Hnd Hne H255). cbn [negb].
    rewrite (fri_accepts_rows O FriProof fri_prove fri_verify n lde fri_complete d); try assumption; [reflexivity|].
    intros x Hx. destruct (lag_pts_head O L g z v x Hv1 (Hxz x Hx)) as [X1 _].
    unfold d, hz. rewrite (deep_constraints_eval O L z x X1). f_equal. unfold d0, cur, nxt, lf. symmetry.
    exact (v_trace_lag_eval O L interp_pts interp_pts_spec n v g z Lp Hnv Hg Hz0 HLl Hv1 (c_gamma cP) lcc Ts x Hn0 (Hxz x Hx)).
Qed.

(* stark_complete_lagrange_partial: a valid trace of an AIR WITH a Lagrange-kernel column — the ordinary (main + aux) part is valid
   (its combined constraint evaluation is a polynomial Qc fitting the composition columns, as in stark_complete_partial) and the
   kernel column is the honest one for the random elements rr that the GKR step handed to BOTH sides — is proved and accepted.
   "_partial": the stages Merkle / FRI / point interpolation are the named hypotheses above; the two further stage hypotheses of
   Proofs/StarkComplete.v (interpolation over the ce coset C09, coset off the trace domain) are the first two premises. *)
Theorem stark_complete_lagrange_partial (dbg : bool) (lc : @LagC F) (cP cV : @Coin F) (lcc : F)
    (Ts : list (list F)) (Lp : list F) (Qc : list F) :
  (forall f Q, length Q <= ce_size -> (forall x, In x ce_coset -> f x = peval Q x) ->
     interp_ce f = Q ++ repeat zero (ce_size - length Q)) ->
  (forall x, In x ce_coset -> ~ In x (domain O g n)) ->
  n = 2 ^ v -> 2 <= v -> v < 64 -> primitive_root O g n -> 1 <= cols -> n * cols <= ce_size ->
  Ts <> [] -> Forall (fun p => length p = n) Ts -> length Lp = n ->
  (* valid ordinary part *)
  length Qc <= n * cols ->
  (forall x, ~ In x (domain O g n) -> air_eval x (evals Ts x) (evals Ts (x *f g)) = peval Qc x) ->
  (* the Lagrange constraints have the shape LagrangeKernelTransitionConstraints::new builds (C16_lagrange_count) *)
  length (EnforceLagrange.l_coef (lc_t lc)) = v -> length (lc_rr lc) = v -> length (EnforceLagrange.l_div (lc_t lc)) = v ->
  (forall idx, idx < v ->
     nth idx (EnforceLagrange.l_div (lc_t lc)) (Enforce.mkD [] []) = Enforce.mkD [((2 ^ Z.of_nat idx)%Z, fone O)] []) ->
  (* honest kernel column *)
  (forall i, i < n -> peval Lp (fpow O g i) = nth i (kernel_col O (lc_rr lc) v) zero) ->
  (* transcript (C04) and GKR (outside the library): the verifier works with the prover's coin values and the same lc *)
  cV = cP ->
  ~ In (c_z cP) (domain O g n) -> c_z cP <> zero -> c_z cP *f g <> zero ->
  incl (c_xs cP) lde -> NoDup (c_xs cP) -> c_xs cP <> [] -> length (c_xs cP) <= 255 ->
  (forall x, In x (c_xs cP) -> ~ In x (lag_pts O g (c_z cP) v)) ->
  exists pf, prove_lag (mkParams n g cols false dbg) v lc cP lcc Ts Lp = Done pf /\
             verify_lag (mkParams n g cols false dbg) v lc cV lcc pf = VAccept.
Proof.
  intros interp_complete coset_off_domain.
  intros Hnv Hv Hv64 Hg Hcols Hce HTs HTl HLl HQcl HQc Hcl Hrl Hdl Hds Hhon Hc Hz Hz0 Hzg0 Hxs Hnd Hne H255 Hxz.
  assert (Hn0 : 0 < n) by (rewrite Hnv; pose proof (Nat.pow_nonzero 2 v); lia).
  destruct (honest_lag_quotient O L n v g Hnv Hg lc Hcl Hrl Hdl Hds Hv64 Lp Hhon Hn0) as (Ql & HQll & HQl).
  set (Q := padd O Qc Ql).
  assert (HQlen : length Q <= n * cols) by (unfold Q; rewrite (padd_length O); nia).
  assert (HQ : forall x, ~ In x (domain O g n) -> cfun lc Ts Lp x = peval Q x).
  { intros x Hx. unfold cfun, Q. rewrite (peval_padd O L), (HQc x Hx), (HQl x Hx). reflexivity. }
  apply (stark_complete_lagrange_core dbg lc cP cV lcc Ts Lp Q); try assumption.
  - apply interp_complete; [lia|]. intros x Hx. apply HQ. now apply coset_off_domain.
  - rewrite (lag_eval_is_def O L n v Hnv lc Hcl Hrl Hdl Hds Hv64 _ _ (lag_frame_length O v g Lp (c_z cP))). discriminate.
Qed.

End CompleteLag.
