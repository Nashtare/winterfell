(* C17 — the verifier's `evaluate_constraints` (code structure: merged linear combinations, one division per
   divisor, accumulation loops) equals the mathematical definition `comp_def` (one quotient per constraint) when it
   is given the frame of the trace polynomials.  Arbitrary field with FLaws. *)
From Coq Require Import List Arith Bool Ring Field ZArith.
From VBase Require Import FieldOps.
From VModel Require Import Composition.
From VProofs Require Import ListFacts CompositionBase.
Import ListNotations.

Section Verifier.
Context {F : Type} (O : FOps F) (L : FLaws O).
Add Field Ff : (FLaws_field_theory O L).

Local Notation fz := (fzero O).
Local Notation f1 := (fone O).
Local Infix "+f" := (fadd O) (at level 50, left associativity).
Local Infix "-f" := (fsub O) (at level 50, left associativity).
Local Infix "*f" := (fmul O) (at level 40, left associativity).
Local Infix "/f" := (fdiv O) (at level 40, left associativity).
Local Notation cpow := (cpow O).
Local Notation peval := (peval O).
Local Notation horner := (horner O).
Local Notation rsum := (rsum O).
Local Notation rprod := (rprod O).
Local Notation lincomb := (lincomb O).

Lemma rsum_div {A} (g : A -> F) k l : rsum (map (fun v => g v /f k) l) = rsum (map g l) /f k.
Proof.
  rewrite (fl_div_def O L). rewrite <- (rsum_scale O L).
  apply (rsum_map_ext O). intros; apply (fl_div_def O L).
Qed.

Lemma lincomb_nil_r e : lincomb e [] = fz.
Proof. unfold Composition.lincomb. now rewrite combine_nil. Qed.

Lemma lincomb_zeros k coefs : lincomb (repeat fz k) coefs = fz.
Proof.
  rewrite (lincomb_rsum O L). revert coefs. induction k; intros coefs; simpl; [reflexivity|].
  destruct coefs; simpl; [reflexivity|]. rewrite IHk. ring.
Qed.

Lemma fdiv_1 a : a /f f1 = a.
Proof. field; apply (fl_one_neq_zero O L). Qed.

Variable n : nat.
Variable rou : nat -> F.
Variable num_main num_aux : nat.
Variable tmain : list F -> list F -> list F -> list F.
Variable taux : list F -> list F -> list F -> list F -> list F -> list F -> list F.
Variable ppolys : list (list F).
Variable exemptions : nat.
Variable tcoef : list F.
Variable main_groups aux_groups : list (@BGroup F).
Variable rands : list F.
Variable tpolys apolys : list (list F).

Local Notation gtrace := (gtrace n rou).

Lemma periodic_at_def x : periodic_at O n ppolys x = def_periodic O n ppolys x.
Proof. unfold periodic_at, def_periodic. apply map_ext. intros; apply (horner_peval O L). Qed.

Lemma bc_value_def c x : bc_value_at O c x = def_bc_value O c x.
Proof.
  unfold bc_value_at, def_bc_value. destruct (bc_poly c) as [|v [|w t]]; cbn [length Nat.eqb nth].
  - apply (horner_peval O L).
  - reflexivity.
  - apply (horner_peval O L).
Qed.

Lemma tdiv_def x : div_evaluate_at O (tdiv O n rou exemptions) x = def_tdiv O n rou exemptions x.
Proof.
  unfold div_evaluate_at, tdiv, div_from_transition, div_exemptions_at, def_tdiv. cbn [dv_a dv_b dv_ex].
  rewrite (fold_mul_rprod O L (fun e => x -f e)), map_map.
  f_equal; ring.
Qed.

Lemma bg_evaluate_at_def polys g x :
  dv_ex (bg_div g) = [] ->
  (forall c, In c (bg_cs g) -> bc_col c < length polys) ->
  bg_evaluate_at O g (map (fun T => peval T x) polys) x = Some (def_group O polys g x).
Proof.
  intros Hex Hcol. unfold bg_evaluate_at.
  rewrite (acc_opt_some O L _ (fun c => bc_evaluate_at O c x (peval (nth (bc_col c) polys []) x) *f bc_cc c)).
  2:{ intros c Hc. rewrite nth_error_map. rewrite (nth_error_nth' polys [] (Hcol c Hc)). reflexivity. }
  f_equal. unfold def_group. rewrite rsum_div.
  unfold div_evaluate_at, div_exemptions_at. rewrite Hex. cbn [fold_left].
  rewrite fdiv_1. f_equal; [|ring].
  transitivity (rsum (map (fun c => bc_evaluate_at O c x (peval (nth (bc_col c) polys []) x) *f bc_cc c) (bg_cs g))); [ring|].
  apply (rsum_map_ext O). intros c _. unfold bc_evaluate_at. rewrite bc_value_def. ring.
Qed.

Lemma groups_acc polys groups x r0 :
  (forall g, In g groups -> dv_ex (bg_div g) = []) ->
  (forall g c, In g groups -> In c (bg_cs g) -> bc_col c < length polys) ->
  acc_opt O (fun g => bg_evaluate_at O g (map (fun T => peval T x) polys) x) groups (Some r0)
  = Some (r0 +f rsum (map (fun g => def_group O polys g x) groups)).
Proof.
  intros Hex Hcol. apply (acc_opt_some O L). intros g Hg.
  apply bg_evaluate_at_def; [now apply Hex | intros c Hc; now apply (Hcol g)].
Qed.

(* TransitionConstraints::combine_evaluations = sum of the individual quotients *)
Lemma combine_evaluations_def t1 t2 x : length t1 = num_main ->
  combine_evaluations O n rou num_main exemptions tcoef t1 t2 x
  = rsum (map (fun ca => snd ca *f fst ca /f def_tdiv O n rou exemptions x) (combine (t1 ++ t2) tcoef)).
Proof.
  intros Hlen. unfold combine_evaluations. rewrite tdiv_def, rsum_div. f_equal.
  rewrite combine_app_l, map_app, (rsum_app O L), Hlen.
  fold (main_coef num_main tcoef). fold (aux_coef num_main tcoef).
  rewrite <- !(lincomb_rsum O L).
  destruct (aux_coef num_main tcoef) eqn:E; [|reflexivity].
  rewrite lincomb_nil_r. ring.
Qed.

Hypothesis groups_no_exemptions :
  forall g, In g (main_groups ++ aux_groups) -> dv_ex (bg_div g) = [].          (* ConstraintDivisor::from_assertion *)
Hypothesis main_cols : forall g c, In g main_groups -> In c (bg_cs g) -> bc_col c < length tpolys.
Hypothesis aux_cols : forall g c, In g aux_groups -> In c (bg_cs g) -> bc_col c < length apolys.
Hypothesis tmain_len : forall cur nxt pv, length (tmain cur nxt pv) = num_main.     (* the result buffer's length *)

Local Notation evaluate_constraints :=
  (evaluate_constraints O n rou num_main tmain taux num_aux ppolys exemptions tcoef main_groups aux_groups rands
                        (fun _ => None)).
Local Notation comp_def has_aux :=
  (comp_def O n rou tmain taux ppolys exemptions tcoef main_groups aux_groups rands has_aux tpolys apolys).
Local Notation cur := (def_cur O tpolys).
Local Notation nxt := (def_nxt O n rou tpolys).
Local Notation acur := (def_acur O apolys).
Local Notation anxt := (def_anxt O n rou apolys).

Theorem verifier_eval_agrees_aux : forall z,
  evaluate_constraints (cur z) (nxt z) (Some (acur z, anxt z)) z = Some (comp_def true z).
Proof.
  intros z. unfold Composition.evaluate_constraints, def_cur, def_acur. cbv zeta.
  rewrite groups_acc.
  2:{ intros g Hg. apply groups_no_exemptions. apply in_or_app; now left. }
  2:{ exact main_cols. }
  rewrite groups_acc.
  2:{ intros g Hg. apply groups_no_exemptions. apply in_or_app; now right. }
  2:{ exact aux_cols. }
  f_equal. unfold Composition.comp_def, def_transition, def_boundary, def_constraints, def_cur, def_acur.
  rewrite combine_evaluations_def by apply tmain_len.
  rewrite periodic_at_def. ring.
Qed.

(* aux frame absent: `t_evaluations2` stays zero, whatever coefficients follow the first num_main *)
Theorem verifier_eval_agrees_main : forall z,
  evaluate_constraints (cur z) (nxt z) None z = Some (comp_def false z).
Proof.
  intros z. unfold Composition.evaluate_constraints, def_cur. cbv zeta.
  rewrite groups_acc.
  2:{ intros g Hg. apply groups_no_exemptions. apply in_or_app; now left. }
  2:{ exact main_cols. }
  f_equal. unfold Composition.comp_def, def_transition, def_boundary, def_constraints, def_cur.
  rewrite app_nil_r.
  unfold combine_evaluations. rewrite tdiv_def, rsum_div.
  rewrite lincomb_zeros, periodic_at_def.
  set (t1 := tmain _ _ _).
  rewrite (combine_firstn_l t1), (tmain_len _ _ _ : length t1 = num_main).
  fold (main_coef num_main tcoef). rewrite <- (lincomb_rsum O L).
  destruct (aux_coef num_main tcoef); [ring|].
  replace (lincomb t1 (main_coef num_main tcoef) +f fz) with (lincomb t1 (main_coef num_main tcoef)) by ring.
  ring.
Qed.

End Verifier.
