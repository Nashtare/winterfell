(* C17 — the mixed model (E != B) of the multi-segment prover path equals the single-field model over the extension field
   applied to the embedded inputs (evaluate_mixed_full_embeds); hence the `_ext` table theorem and capstone for the
   multi-segment case.  stdlib style. *)
From Coq Require Import List Arith Bool Ring Field ZArith.
From VBase Require Import FieldOps.
From VModel Require Import Composition CompositionMixed CompositionMixedWhole CompositionMixedFull.
From VProofs Require Import ListFacts CompositionBase CompositionIndex CompositionTable CompositionMixed CompositionMixedWhole.
Import ListNotations.

Section Full.
Context {B E : Type} (OB : FOps B) (OE : FOps E) (LB : FLaws OB) (LE : FLaws OE).
Variable emb : B -> E.
Variable mul_base : E -> B -> E.
Hypothesis H : Emb OB OE emb mul_base.
Add Ring RE : (FLaws_ring_theory OE LE).

Local Notation emul := (emb_mul _ _ _ _ H).

Variable n ceb ldeb : nat.
Variable offset : B.
Variable rou : nat -> B.
Local Notation rouE := (fun m => emb (rou m)).
Local Notation offE := (emb offset).

(* ---------------------------------------------------------------- divisor equality: the merge tests
   `&g.divisor == group.divisor()` on base-field divisors; the embedded divisors compare the same because emb is injective *)
Lemma feqb_emb a b : feqb OE (emb a) (emb b) = feqb OB a b.
Proof.
  destruct (feqb OB a b) eqn:Eb.
  - apply (fl_eqb_spec OB LB) in Eb. subst. now apply (fl_eqb_spec OE LE).
  - destruct (feqb OE (emb a) (emb b)) eqn:Ee; [|reflexivity].
    apply (fl_eqb_spec OE LE) in Ee. apply (emb_inj _ _ _ _ H) in Ee. subst.
    assert (T : feqb OB b b = true) by now apply (fl_eqb_spec OB LB). congruence.
Qed.

Lemma div_eqb_emb d e : div_eqb OE (embD emb d) (embD emb e) = div_eqb OB d e.
Proof.
  unfold div_eqb, embD. cbn [dv_a dv_b dv_ex]. rewrite feqb_emb, !map_length. f_equal.
  generalize (dv_ex e). induction (dv_ex d) as [|a l IH]; intros [|b l']; cbn [map combine forallb]; try reflexivity.
  cbn [fst snd]. now rewrite feqb_emb, IH.
Qed.

(* ---------------------------------------------------------------- merged groups *)
Definition embAG (ag : @AGm B E) : @AG E :=
  match ag with (d, m, a) => (embD emb d, map (embBC emb) m, map (embBCa emb) a) end.

Lemma ag_merge_emb : forall ps g,
  ag_merge OE (map embAG ps) (embGa emb g) = map embAG (ag_merge_m OB ps g).
Proof.
  induction ps as [|[[d m] a] t IH]; intros g; cbn [map ag_merge ag_merge_m embAG].
  - reflexivity.
  - cbn [embGa bg_div bg_cs]. rewrite div_eqb_emb. destruct (div_eqb OB d (ga_div g)); cbn [map embAG].
    + now rewrite map_app.
    + f_equal. apply IH.
Qed.

Lemma ags_emb mg ag :
  ags OE (map (embG emb) mg) (map (embGa emb) ag) = map embAG (ags_m OB mg ag).
Proof.
  unfold ags, ags_m.
  assert (E0 : map (fun g : @BGroup E => (bg_div g, bg_cs g, @nil (@BC E))) (map (embG emb) mg)
               = map embAG (map (fun g : @BGm B E => (gm_div g, gm_cs g, @nil (@BCa B E))) mg)).
  { rewrite !map_map. apply map_ext. intros g. reflexivity. }
  rewrite E0. generalize (map (fun g : @BGm B E => (gm_div g, gm_cs g, @nil (@BCa B E))) mg).
  induction ag as [|g gs IH]; intros l; cbn [map fold_left]; [reflexivity|].
  rewrite ag_merge_emb. apply IH.
Qed.

(* ---------------------------------------------------------------- auxiliary evaluations *)
Lemma peval_mb_spec p b : peval_mb OE mul_base p b = peval OE p (emb b).
Proof. induction p; simpl; [reflexivity|]. rewrite IHp, (emb_mul_base _ _ _ _ H). ring. Qed.

Lemma horner_mb_spec p b : horner_mb OE mul_base p b = horner OE p (emb b).
Proof.
  unfold horner_mb, horner. generalize (fzero OE). induction (rev p) as [|c l IH]; intros a0; cbn [fold_left]; [reflexivity|].
  rewrite (emb_mul_base _ _ _ _ H). apply IH.
Qed.

Lemma eval_poly_with_offset_mb_spec p off blowup :
  eval_poly_with_offset_mb OB OE mul_base rou p off blowup = eval_poly_with_offset OE rouE p (emb off) blowup.
Proof.
  unfold eval_poly_with_offset_mb, eval_poly_with_offset, power_series.
  rewrite <- (emb_one _ _ _ _ H), <- (emb_power_series_from OB OE emb mul_base H), map_map.
  apply map_ext. intros w. now rewrite peval_mb_spec, emul.
Qed.

Lemma ag_evaluate_all_emb ag cur acur step x :
  pg_evaluate_all OE (realize OE n ceb offE rouE (embAG ag)) (map emb cur) acur step (emb x)
  = ag_evaluate_all OB OE mul_base n ceb offset rou ag cur acur step x.
Proof.
  destruct ag as [[d m] a]. unfold pg_evaluate_all, ag_evaluate_all.
  assert (Em : pg_evaluate_main OE (realize OE n ceb offE rouE (embAG (d, m, a))) (map emb cur) step (emb x)
               = gm_evaluate_main OB OE mul_base n ceb offset rou (mkBGm d m) cur step x).
  { rewrite <- (emb_gm_evaluate_main OB OE LB LE emb mul_base H). reflexivity. }
  rewrite Em. cbn [embAG realize pg_aux_single pg_aux_small pg_aux_large].
  rewrite !filter_map_comm, !map_map, !(acc_opt_map OE).
  (* embBCa keeps the value polynomial: the class filters on both sides are convertible *)
  apply (acc_opt_cong OE); [|apply (acc_opt_cong OE); [|apply (acc_opt_cong OE); [|reflexivity]]].
  - intros c _. unfold large_aux_eval, large_new. cbn [embBCa bc_col bc_poly bc_first bc_cc].
    now rewrite eval_poly_with_offset_mb_spec.
  - intros c _. unfold small_aux_eval, small_eval, small_new. cbn [embBCa bc_col bc_poly bc_xoff bc_cc pc_col pc_poly pc_xoff pc_cc].
    now rewrite horner_mb_spec, emul.
  - intros c _. reflexivity.
Qed.

(* ---------------------------------------------------------------- rows and the whole table *)
Variable num_main : nat.
Variable tmainB : list B -> list B -> list B -> list B.
Variable tmainE : list E -> list E -> list E -> list E.
Variable tauxM : list B -> list B -> list E -> list E -> list B -> list E -> list E.
Variable tauxE : list E -> list E -> list E -> list E -> list E -> list E -> list E.
(* the AIR's evaluators commute with the embedding (generic-in-the-field polynomial maps with base-field coefficients) *)
Hypothesis tmain_commutes : forall cur nxt pv, tmainE (map emb cur) (map emb nxt) (map emb pv) = map emb (tmainB cur nxt pv).
Hypothesis taux_commutes : forall cur nxt ac an pv rs,
  tauxE (map emb cur) (map emb nxt) ac an (map emb pv) rs = tauxM cur nxt ac an pv rs.
Variable ppolys : list (list B).
Variable exemptions : nat.
Variable tcoef : list E.
Variable main_groups : list (@BGm B E).
Variable aux_groups : list (@BGa B E).
Variable rands : list E.
Variable lde_main : list (list B).
Variable lde_aux : list (list E).

Local Notation evalE :=
  (evaluate OE n ceb ldeb offE rouE num_main tmainE tauxE (map (map emb) ppolys) exemptions tcoef (map (embG emb) main_groups)
            (map (embGa emb) aux_groups) rands true (map (map emb) lde_main) lde_aux (fun _ v => v)).
Local Notation evalM :=
  (evaluate_mixed_full OB OE mul_base n ceb ldeb offset rou num_main tmainB tauxM ppolys exemptions tcoef main_groups aux_groups
                       rands lde_main lde_aux).

Lemma eval_row_full_emb t (groups : list (@AGm B E)) step :
  eval_row OE n ceb ldeb offE rouE num_main tmainE tauxE tcoef rands true (map (map emb) lde_main) lde_aux (embT emb t)
           (map (realize OE n ceb offE rouE) (map embAG groups)) step
  = eval_row_full_mixed OB OE mul_base n ceb ldeb offset rou num_main tmainB tauxM tcoef rands lde_main lde_aux t groups step.
Proof.
  unfold eval_row, eval_row_full_mixed. rewrite (emb_read_frame emb), (emb_get_ce_x_at OB OE emb mul_base H).
  destruct (read_frame ldeb lde_main _) as [[cur nxt]|]; cbn [option_map fst snd]; [|reflexivity].
  destruct (get_ce_x_at OB n ceb offset rou step) as [x|]; cbn [option_map]; [|reflexivity].
  destruct (read_frame ldeb lde_aux _) as [[acur anxt]|]; [|reflexivity].
  unfold evaluate_main_transition, evaluate_aux_transition. rewrite (emb_pt_get_row emb).
  destruct (pt_get_row t step) as [pv|]; cbn [option_map]; [|reflexivity].
  rewrite tmain_commutes, taux_commutes, <- (lincomb_mixed_embeds OB OE emb mul_base H).
  rewrite !mapM_map.
  rewrite (mapM_ext_in _ (fun ag => ag_evaluate_all OB OE mul_base n ceb offset rou ag cur acur step x))
    by (intros ag _; apply ag_evaluate_all_emb).
  destruct (mapM _ groups); reflexivity.
Qed.

(* the mixed multi-segment evaluate() IS the single-field evaluate over OE on the embedded inputs *)
Theorem evaluate_mixed_full_embeds : evalM = evalE.
Proof.
  unfold evaluate_mixed_full, Composition.evaluate.
  rewrite (emb_ptable_new OB OE emb mul_base H).
  destruct (ptable_new OB n ceb offset rou ppolys) as [t|]; cbn [option_map]; [|reflexivity].
  rewrite prover_groups_realize, ags_emb.
  set (groups := ags_m OB main_groups aux_groups).
  assert (Edivs : tdiv OE n rouE exemptions :: map (@pg_div E) (map (realize OE n ceb offE rouE) (map embAG groups))
                  = map (embD emb) (tdiv OB n rou exemptions :: map (@agm_div B E) groups)).
  { cbn [map]. rewrite (emb_tdiv OB OE emb mul_base H). f_equal. rewrite !map_map. apply map_ext.
    intros [[d m] a]. reflexivity. }
  rewrite Edivs. symmetry. apply (emb_table_tail OB OE LB LE emb mul_base H), eval_row_full_emb.
Qed.

(* ---------------------------------------------------------------- table_row_spec for E != B, multi-segment path: the
   hypotheses about main-segment data are BASE-field hypotheses; the auxiliary segment is extension-field data *)
Section TableExtFull.
Variable r' : nat.
Variable wlde ginv : B.
Hypothesis setting : CeSetting OB n ceb ldeb r' rou wlde.
Hypothesis ginv_spec : fmul OB ginv (gtrace n rou) = fone OB.
Hypothesis tmainE_len : forall cur nxt pv, length (tmainE cur nxt pv) = num_main.
Hypothesis exemptions_le : exemptions <= n.
Hypothesis periodic_ok : PeriodicOk OB n ceb rou ppolys.
Variable tpolys : list (list B).
Variable apolys : list (list E).
Definition div_okB (d : @Div B) : Prop :=
  dv_ex d = [] /\ dv_a d <> 0 /\ dv_a d * (ce_size n ceb / dv_a d) = ce_size n ceb.
Hypothesis main_groups_ok : forall g, In g main_groups ->
  div_okB (gm_div g)
  /\ forall c, In c (gm_cs g) ->
       m_col c < length tpolys /\ length (m_poly c) <> 0 /\ m_xoff c = cpow OB ginv (m_first c) /\ m_first c < n
       /\ length (m_poly c) * (ce_size n ceb / length (m_poly c)) = ce_size n ceb.
Hypothesis aux_groups_ok : forall g, In g aux_groups ->
  div_okB (ga_div g)
  /\ forall c, In c (ga_cs g) ->
       a_col c < length apolys /\ length (a_poly c) <> 0 /\ a_xoff c = cpow OB ginv (a_first c) /\ a_first c < n
       /\ length (a_poly c) * (ce_size n ceb / length (a_poly c)) = ce_size n ceb.
Hypothesis lde_main_ok : lde_rows_of OB n ldeb offset wlde lde_main tpolys.
(* the auxiliary trace LDE: extension-field rows = auxiliary column polynomials on the (embedded) LDE coset *)
Hypothesis lde_aux_ok : lde_rows_of OE n ldeb offE (emb wlde) lde_aux apolys.

Local Notation comp_defE :=
  (comp_def OE n rouE tmainE tauxE (map (map emb) ppolys) exemptions tcoef (map (embG emb) main_groups) (map (embGa emb) aux_groups)
            rands true (map (map emb) tpolys) apolys).

Lemma evalE_spec :
  evalE = Some (map (fun i => comp_defE (ce_x OE n ceb offE rouE i)) (seq 0 (ce_size n ceb))).
Proof.
  destruct (CeSetting_emb OB OE emb mul_base H n ceb ldeb rou r' wlde setting) as [? ? ? ? ? ? ?].
  destruct (periodic_emb OB OE emb mul_base H n ceb rou ppolys periodic_ok) as [? ? ? ?].
  apply (evaluate_spec_aux OE LE n ceb ldeb r' offE rouE (emb wlde) (emb ginv)); try assumption.
  - now apply (ginv_emb OB OE emb mul_base H).
  - now apply (main_groups_ok_emb OB OE emb mul_base H).
  - intros g Hg. apply in_map_iff in Hg. destruct Hg as [g0 [<- Hg0]]. destruct (aux_groups_ok g0 Hg0) as [[Hd1 Hd] Hc].
    split.
    + unfold div_ok, embGa, embD. cbn [bg_div dv_ex dv_a]. now rewrite Hd1.
    + intros c Hcin. cbn [embGa bg_cs] in Hcin. apply in_map_iff in Hcin. destruct Hcin as [c0 [<- Hc0]].
      destruct (Hc c0 Hc0) as [K1 [K2 [K3 [K4 K5]]]].
      unfold bc_ok, embBCa. cbn [bc_col bc_poly bc_xoff bc_first].
      repeat split; try assumption. rewrite K3. apply (emb_cpow OB OE emb mul_base H).
  - now apply (lde_rows_of_emb OB OE emb mul_base H).
Qed.

Theorem table_row_spec_multi_segment_ext :
  evalM = Some (map (fun i => comp_defE (emb (ce_x OB n ceb offset rou i))) (seq 0 (ce_size n ceb))).
Proof.
  rewrite evaluate_mixed_full_embeds, evalE_spec. f_equal. apply map_ext. intros i.
  now rewrite (emb_ce_x OB OE emb mul_base H).
Qed.

(* the capstone for E != B, multi-segment path; premises: the interpolation round trip over E and a coefficient list for
   comp_def over E (as in composition_is_definition_ext) *)
Variable interp : list E -> list E.
Hypothesis interp_roundtrip : forall p, length p = ce_size n ceb ->
  interp (map (fun i => peval OE p (ce_x OE n ceb offE rouE i)) (seq 0 (ce_size n ceb))) = p.
Variable good : E -> Prop.
Variable q : list E.
Variable num_cols : nat.
Hypothesis q_is_def : forall z, good z -> peval OE q z = comp_defE z.
Hypothesis ce_good : forall i, i < ce_size n ceb -> good (ce_x OE n ceb offE rouE i).
Hypothesis q_len_ce : length q <= ce_size n ceb.
Hypothesis q_len_cols : length q <= num_cols * n.
Hypothesis n_lt_ce : n < ce_size n ceb.

Theorem composition_is_definition_aux_ext :
  exists evals cols,
    evalM = Some evals
    /\ composition_poly_new n interp evals num_cols = Some cols
    /\ (forall z, recombine OE n (cp_evaluate_at OE cols z) z = peval OE q z)
    /\ (forall z, good z -> recombine OE n (cp_evaluate_at OE cols z) z = comp_defE z).
Proof.
  rewrite evaluate_mixed_full_embeds.
  exact (composition_core OE LE n ceb offE rouE interp _ comp_defE good q num_cols (cs_n_pos _ _ _ _ _ _ _ setting) n_lt_ce interp_roundtrip
           evalE_spec q_is_def ce_good q_len_ce q_len_cols).
Qed.
End TableExtFull.

End Full.
