(* C17 — the embedding hypotheses `Emb` hold for the quadratic and the cubic extension of f64
   (from C08: q_embed_hom / c_embed_hom, q_mul_base_spec / c_mul_base_spec, f64_x2_correct / f64_x3_correct), and both
   extensions satisfy FLaws (f64_quad_laws / f64_cube_laws), so every C17 theorem instantiates at F := the extension and
   the transport theorems of Proofs/CompositionMixed.v apply. *)
From Coq Require Import List Arith ZArith.
From VBase Require Import FieldOps ZpOps.
From VModel Require Import ExtField Composition CompositionMixed CompositionMixedWhole.
From VProofs Require Import ZpLaws ExtModel ExtConcrete CompositionMixed CompositionMixedWhole.
Import ListNotations.

Theorem quad_f64_emb :
  Emb F64_ops (q_ops F64_ops (f64_x2 F64_ops)) (q_from_base F64_ops) (q_mul_base (f64_x2 F64_ops)).
Proof.
  destruct (q_embed_hom F64_ops F64_laws (f64_x2 F64_ops) _ (f64_x2_correct F64_ops F64_laws)) as (H0 & H1 & Ha & Hs & _ & Hm & Hi).
  constructor; try assumption.
  intros x b. exact (q_mul_base_spec F64_ops (f64_x2 F64_ops) _ (f64_x2_correct F64_ops F64_laws) x b).
Qed.

Theorem cube_f64_emb :
  Emb F64_ops (c_ops F64_ops (f64_x3 F64_ops)) (c_from_base F64_ops) (c_mul_base (f64_x3 F64_ops)).
Proof.
  destruct (c_embed_hom F64_ops F64_laws (f64_x3 F64_ops) _ _ _ _ _ _ _ _ (f64_x3_correct F64_ops F64_laws)) as (H0 & H1 & Ha & Hs & _ & Hm & Hi).
  constructor; try assumption.
  intros x b. exact (c_mul_base_spec F64_ops (f64_x3 F64_ops) _ _ _ _ _ _ _ _ (f64_x3_correct F64_ops F64_laws) x b).
Qed.

(* the mixed evaluate_main_transition over the quadratic extension of f64 is the single-field linear combination on the
   embedded evaluations (an instance of lincomb_mixed_embeds), and likewise every other transported statement *)
Corollary quad_f64_lincomb_mixed evals coefs :
  lincomb_mixed (q_ops F64_ops (f64_x2 F64_ops)) (q_mul_base (f64_x2 F64_ops)) evals coefs
  = lincomb (q_ops F64_ops (f64_x2 F64_ops)) (map (q_from_base F64_ops) evals) coefs.
Proof. exact (lincomb_mixed_embeds F64_ops _ _ _ quad_f64_emb evals coefs). Qed.

(* evaluate_mixed_embeds, table_row_spec_single_segment_ext and composition_is_definition_ext at the quadratic / cubic
   extension of f64 *)
Definition quad_f64_evaluate_mixed_embeds :=
  evaluate_mixed_embeds F64_ops (q_ops F64_ops (f64_x2 F64_ops)) F64_laws f64_quad_laws
                        (q_from_base F64_ops) (q_mul_base (f64_x2 F64_ops)) quad_f64_emb.
Definition cube_f64_evaluate_mixed_embeds :=
  evaluate_mixed_embeds F64_ops (c_ops F64_ops (f64_x3 F64_ops)) F64_laws f64_cube_laws
                        (c_from_base F64_ops) (c_mul_base (f64_x3 F64_ops)) cube_f64_emb.
Definition quad_f64_table_row_spec_ext :=
  table_row_spec_single_segment_ext F64_ops (q_ops F64_ops (f64_x2 F64_ops)) F64_laws f64_quad_laws
                        (q_from_base F64_ops) (q_mul_base (f64_x2 F64_ops)) quad_f64_emb.
Definition cube_f64_table_row_spec_ext :=
  table_row_spec_single_segment_ext F64_ops (c_ops F64_ops (f64_x3 F64_ops)) F64_laws f64_cube_laws
                        (c_from_base F64_ops) (c_mul_base (f64_x3 F64_ops)) cube_f64_emb.
Definition quad_f64_composition_is_definition_ext :=
  composition_is_definition_ext F64_ops (q_ops F64_ops (f64_x2 F64_ops)) F64_laws f64_quad_laws
                        (q_from_base F64_ops) (q_mul_base (f64_x2 F64_ops)) quad_f64_emb.
Definition cube_f64_composition_is_definition_ext :=
  composition_is_definition_ext F64_ops (c_ops F64_ops (f64_x3 F64_ops)) F64_laws f64_cube_laws
                        (c_from_base F64_ops) (c_mul_base (f64_x3 F64_ops)) cube_f64_emb.
