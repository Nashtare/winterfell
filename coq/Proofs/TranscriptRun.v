(* C04 — lemmas about the symbolic coin (Model/Transcript.v): execution over concatenations, the decomposition of both
   generators into rounds (absorb one message, draw the challenges that depend on it) from which it is read off which
   messages every challenge has absorbed, and the main theorems for every proof shape.  stdlib style. *)
From Coq Require Import List Arith Bool Lia.
From VModel Require Import Transcript.
From VProofs Require Import ListFacts.
Import ListNotations.

Lemma sym_eqb_eq a b : sym_eqb a b = true <-> a = b.
Proof.
  destruct a, b; cbn; split; intros H; try reflexivity; try discriminate;
    try (apply Nat.eqb_eq in H; subst; reflexivity);
    try (injection H as ->; apply Nat.eqb_refl).
Qed.

Lemma syms_eqb_eq a b : syms_eqb a b = true <-> a = b.
Proof.
  revert b; induction a as [|x a IH]; intros [|y b]; cbn; split; intros H; try reflexivity; try discriminate.
  - apply andb_true_iff in H as [H1 H2]. apply sym_eqb_eq in H1. apply IH in H2. subst; reflexivity.
  - injection H as -> ->. apply andb_true_iff; split; [apply sym_eqb_eq | apply IH]; reflexivity.
Qed.

Lemma chal_eqb_eq a b : chal_eqb a b = true <-> a = b.
Proof.
  destruct a, b; cbn; split; intros H; try reflexivity; try discriminate;
    try (apply Nat.eqb_eq in H; subst; reflexivity);
    try (injection H as ->; apply Nat.eqb_refl).
Qed.

Lemma chals_eqb_eq a b : chals_eqb a b = true <-> a = b.
Proof.
  revert b; induction a as [|x a IH]; intros [|y b]; cbn; split; intros H; try reflexivity; try discriminate.
  - apply andb_true_iff in H as [H1 H2]. apply chal_eqb_eq in H1. apply IH in H2. subst; reflexivity.
  - injection H as -> ->. apply andb_true_iff; split; [apply chal_eqb_eq | apply IH]; reflexivity.
Qed.

Lemma exec_app st l1 l2 : exec st (l1 ++ l2) = exec (exec st l1) l2.
Proof. revert st; induction l1 as [|[e lab] l1 IH]; intros st; cbn; [reflexivity | apply IH]. Qed.

Lemma run_app st l1 l2 : run st (l1 ++ l2) = run st l1 ++ run (exec st l1) l2.
Proof.
  revert st; induction l1 as [|[e lab] l1 IH]; intros st; cbn; [reflexivity|].
  destruct lab as [c|]; [destruct (out1 st e) as [v|]|]; cbn; rewrite IH; reflexivity.
Qed.

Lemma absorbs_app l1 l2 : absorbs (l1 ++ l2) = absorbs l1 ++ absorbs l2.
Proof. unfold absorbs. apply flat_map_app. Qed.

(* the history of the seed grows by the absorbed symbols; `new` would discard it, hence the hypothesis *)
Lemma hist_exec st l :
  (forall x, In x l -> match fst x with EvNew _ => False | _ => True end) ->
  hist (cs_seed (exec st l)) = hist (cs_seed st) ++ absorbs l.
Proof.
  revert st; induction l as [|[e lab] l IH]; intros st Hn; cbn.
  - now rewrite app_nil_r.
  - rewrite IH by (intros x Hx; apply Hn; now right).
    specialize (Hn (e, lab) (or_introl eq_refl)). cbn in Hn.
    unfold absorbs; cbn. destruct e; cbn; try contradiction; rewrite <- ?app_assoc; reflexivity.
Qed.

Lemma hist_exec_new st l r :
  (forall x, In x r -> match fst x with EvNew _ => False | _ => True end) ->
  hist (cs_seed (exec st ((EvNew l, None) :: r))) = absorbs ((EvNew l, None) :: r).
Proof. intros H. cbn [exec exec1]. rewrite hist_exec by exact H. reflexivity. Qed.

(* every challenge of a list without `new` is derived from a seed whose history is the initial one followed by exactly
   the absorbed symbols of the events before it (plus the nonce for the two nonce-keyed operations) *)
Definition own_nonce (e : event) : list sym :=
  match e with EvCheckPow n => [n] | EvDrawInts n _ => [n] | _ => [] end.

Lemma run_hist_prefix : forall l st c v,
  (forall x, In x l -> match fst x with EvNew _ => False | _ => True end) ->
  In (c, v) (run st l) ->
  exists l1 e l2, l = l1 ++ (e, Some c) :: l2 /\
    hist (cval_term v) = hist (cs_seed st) ++ absorbs l1 ++ own_nonce e.
Proof.
  induction l as [|[e lab] l IH]; intros st c v Hn Hin; cbn in Hin; [contradiction|].
  assert (Hn' : forall x, In x l -> match fst x with EvNew _ => False | _ => True end)
    by (intros x Hx; apply Hn; now right).
  assert (Hrec : In (c, v) (run (exec1 st e) l) ->
          exists l1 e0 l2, (e, lab) :: l = l1 ++ (e0, Some c) :: l2 /\
            hist (cval_term v) = hist (cs_seed st) ++ absorbs l1 ++ own_nonce e0).
  { intros Hin'. destruct (IH _ _ _ Hn' Hin') as (l1 & e0 & l2 & -> & Hh).
    exists ((e, lab) :: l1), e0, l2. split; [reflexivity|].
    rewrite Hh. specialize (Hn (e, lab) (or_introl eq_refl)). cbn in Hn.
    unfold absorbs; cbn [flat_map fst].
    destruct e; cbn; try contradiction; rewrite <- ?app_assoc; reflexivity. }
  destruct lab as [c0|]; [|now apply Hrec].
  destruct (out1 st e) as [v0|] eqn:Ho; [|now apply Hrec].
  destruct Hin as [Heq|Hin]; [|now apply Hrec].
  injection Heq as -> ->.
  exists [], e, l. split; [reflexivity|].
  destruct e; cbn in Ho; try discriminate; injection Ho as <-; cbn; rewrite ?app_nil_r; reflexivity.
Qed.

(* the labels of a run do not depend on the coin state *)
Definition lab1 (x : step) : list chal :=
  match x with
  | (EvDraw _ _, Some c) | (EvCheckPow _, Some c) | (EvDrawInts _ _, Some c) => [c]
  | _ => []
  end.
Definition labs (l : list step) : list chal := flat_map lab1 l.

Lemma labels_run st l : map fst (run st l) = labs l.
Proof.
  revert st; induction l as [|[e lab] l IH]; intros st; cbn; [reflexivity|].
  destruct e, lab; cbn; now rewrite IH.
Qed.

(* ------------------------------------------------------------------------------------------------ *)
(* Rounds.  Between `new` and the proof-of-work check both sides proceed in rounds: one message is absorbed (reseed), then
   the challenges that depend on it are drawn, the draw counter running from 0.  Everything that is proved of the two
   generators for every shape is proved of a list of rounds once, and [prover_split] / [verifier_split] say which rounds
   the generators consist of. *)
Fixpoint draws_from (deg k : nat) (cs : list chal) : list step :=
  match cs with [] => [] | c :: r => draw1 deg k c :: draws_from deg (S k) r end.
Definition round (deg : nat) (r : sym * list chal) : list step := reseed (fst r) :: draws_from deg 0 (snd r).
Definition body (deg : nat) (rs : list (sym * list chal)) : list step := flat_map (round deg) rs.

Lemma draws_from_seq deg from (lab : nat -> chal) n : forall a,
  map (fun j => draw1 deg (from + j) (lab j)) (seq a n) = draws_from deg (from + a) (map lab (seq a n)).
Proof. induction n as [|n IH]; intros a; cbn; [reflexivity|]. rewrite IH, Nat.add_succ_r. reflexivity. Qed.

Lemma draws_eq deg lab n : draws deg lab n = draws_from deg 0 (map lab (seq 0 n)).
Proof. exact (draws_from_seq deg 0 lab n 0). Qed.

Lemma draws_at_eq from deg lab n : draws_at from deg lab n = draws_from deg from (map lab (seq 0 n)).
Proof. unfold draws_at. now rewrite draws_from_seq, Nat.add_0_r. Qed.

Lemma draws_from_app deg c1 : forall k c2,
  draws_from deg k (c1 ++ c2) = draws_from deg k c1 ++ draws_from deg (k + length c1) c2.
Proof. induction c1 as [|c c1 IH]; intros k c2; cbn; [now rewrite Nat.add_0_r|]. now rewrite IH, Nat.add_succ_r. Qed.

Lemma body_app deg r1 r2 : body deg (r1 ++ r2) = body deg r1 ++ body deg r2.
Proof. apply flat_map_app. Qed.

Lemma absorbs_body deg rs : absorbs (body deg rs) = map fst rs.
Proof.
  assert (D : forall cs k, absorbs (draws_from deg k cs) = []) by (induction cs; intros k; cbn; auto).
  induction rs as [|[d cs] rs IH]; [reflexivity|].
  change (body deg ((d, cs) :: rs)) with ([reseed d] ++ draws_from deg 0 cs ++ body deg rs).
  now rewrite !absorbs_app, D, IH.
Qed.

Lemma labs_body deg rs : labs (body deg rs) = flat_map snd rs.
Proof.
  assert (D : forall cs k, labs (draws_from deg k cs) = cs) by (induction cs; intros k; cbn; [|rewrite IHcs]; reflexivity).
  induction rs as [|[d cs] rs IH]; [reflexivity|].
  change (body deg ((d, cs) :: rs)) with ([reseed d] ++ draws_from deg 0 cs ++ body deg rs).
  unfold labs in *. now rewrite !flat_map_app, D, IH.
Qed.

Lemma exec_draws_from deg cs : forall st k, exec st (draws_from deg k cs) = mkCs (cs_seed st) (cs_ctr st + length cs).
Proof.
  induction cs as [|c cs IH]; intros [t a] k; cbn; [now rewrite Nat.add_0_r|]. now rewrite IH, Nat.add_succ_r.
Qed.

Lemma hist_exec_body deg rs : forall st, hist (cs_seed (exec st (body deg rs))) = hist (cs_seed st) ++ map fst rs.
Proof.
  induction rs as [|[d cs] rs IH]; intros st; cbn; [now rewrite app_nil_r|].
  rewrite exec_app, IH, exec_draws_from. cbn. now rewrite <- app_assoc.
Qed.

(* the dependency requirement on a list of rounds: every challenge of a round is one that the protocol places after
   exactly the messages absorbed so far *)
Definition Qdep (s : shape) (cv : chal * cval) : Prop :=
  hist (cval_term (snd cv)) = msgs_before s (fst cv).

Fixpoint deps (s : shape) (H : list sym) (rs : list (sym * list chal)) : Prop :=
  match rs with
  | [] => True
  | (d, cs) :: r => (forall c, In c cs -> msgs_before s c = H ++ [d]) /\ deps s (H ++ [d]) r
  end.

Lemma run_draws_from s deg cs : forall t a k, (forall c, In c cs -> msgs_before s c = hist t) ->
  Forall (Qdep s) (run (mkCs t a) (draws_from deg k cs)).
Proof.
  induction cs as [|c cs IH]; intros t a k Hc; cbn; constructor.
  - unfold Qdep; cbn. symmetry. apply Hc. now left.
  - apply IH. intros c' Hc'. apply Hc. now right.
Qed.

Lemma run_body s deg rs : forall st, deps s (hist (cs_seed st)) rs -> Forall (Qdep s) (run st (body deg rs)).
Proof.
  induction rs as [|[d cs] rs IH]; intros st Hd; cbn; [constructor|]. destruct Hd as [Hc Hd].
  rewrite run_app, exec_draws_from. apply Forall_app. split; [now apply run_draws_from | now apply IH].
Qed.

Lemma deps_app s r1 : forall H r2, deps s H r1 -> deps s (H ++ map fst r1) r2 -> deps s H (r1 ++ r2).
Proof.
  induction r1 as [|[d cs] r1 IH]; intros H r2 H1 H2; cbn in *; [now rewrite app_nil_r in H2|].
  split; [apply H1|]. apply IH; [apply H1|]. now rewrite <- app_assoc.
Qed.

(* ------------------------------------------------------------------------------------------------ *)
(* the rounds of the two generators *)
Definition fri_rounds (i n : nat) : list (sym * list chal) :=
  map (fun j => (FriLayerCommitment j, [FriAlpha j])) (seq i n).

(* main commitment [GKR and auxiliary randomness, auxiliary commitment] composition coefficients; constraint commitment,
   z; the two OOD hashes, DEEP coefficients; one round per FRI layer; the remainder *)
Definition trace_rounds (s : shape) : list (sym * list chal) :=
  if multi_segment s
  then [(TraceCommitment 0, map GkrRand (seq 0 (n_gkr s)) ++ map AuxRand (seq 0 (sh_aux_rands s)));
        (TraceCommitment 1, map CompositionCoeff (seq 0 (n_comp s)))]
  else [(TraceCommitment 0, map CompositionCoeff (seq 0 (n_comp s)))].

Definition rounds (s : shape) : list (sym * list chal) :=
  trace_rounds s
  ++ [(ConstraintCommitment, [OodPoint]); (HashOodTraceFrame, []);
      (HashOodConstraintEvals, map DeepCoeff (seq 0 (n_deep s)))]
  ++ fri_rounds 0 (sh_fri_layers s) ++ [(RemainderCommitment, [])].

(* common prefix / suffix of the two generators (proof device only) *)
Definition pre (s : shape) : list step := (EvNew seed_syms, None) :: body (sh_ext_deg s) (rounds s).

Definition post (s : shape) : list step :=
  [(EvCheckPow PowNonce, Some PowCheck); (EvDrawInts PowNonce (sh_queries s), Some QueryPositions)].

Definition extra (s : shape) : list step := [draw1 (sh_ext_deg s) 0 FriAlphaUnused].

Lemma prover_fri_eq deg n : forall i, prover_fri_layers deg i n = body deg (fri_rounds i n).
Proof. induction n as [|n IH]; intros i; cbn; [reflexivity|]. now rewrite IH. Qed.

(* FriVerifier::new is the prover's layer loop followed by the remainder commitment and one more draw *)
Lemma verifier_fri_new_eq deg L n : forall d, d + n = L ->
  verifier_fri_new deg L d (map FriLayerCommitment (seq d n) ++ [RemainderCommitment])
  = prover_fri_layers deg d n ++ [reseed RemainderCommitment; draw1 deg 0 FriAlphaUnused].
Proof.
  induction n as [|n IH]; intros d Hd; cbn [verifier_fri_new map seq app prover_fri_layers].
  - replace (d <? L) with false by (symmetry; apply Nat.ltb_ge; lia). reflexivity.
  - replace (d <? L) with true by (symmetry; apply Nat.ltb_lt; lia).
    rewrite IH by lia. reflexivity.
Qed.

(* the GKR step draws n_gkr elements when the column is present, nothing otherwise; the verifier's two branches
   (verifier/src/lib.rs: with / without Lagrange kernel column) are the same sequence *)
Lemma prover_gkr_eq s deg :
  match sh_lagrange s with Some (g, _) => draws deg GkrRand g | None => [] end = draws deg GkrRand (n_gkr s).
Proof. unfold n_gkr. destruct (sh_lagrange s) as [[g l]|]; reflexivity. Qed.

Lemma verifier_aux_eq s deg :
  match sh_lagrange s with
  | Some (g, _) => draws deg GkrRand g ++ draws_at g deg AuxRand (sh_aux_rands s) ++ [reseed (TraceCommitment 1)]
  | None => draws deg AuxRand (sh_aux_rands s) ++ [reseed (TraceCommitment 1)]
  end = draws deg GkrRand (n_gkr s) ++ draws_at (n_gkr s) deg AuxRand (sh_aux_rands s) ++ [reseed (TraceCommitment 1)].
Proof. unfold n_gkr. destruct (sh_lagrange s) as [[g l]|]; reflexivity. Qed.

Lemma gkr_aux_eq s deg :
  draws deg GkrRand (n_gkr s) ++ draws_at (n_gkr s) deg AuxRand (sh_aux_rands s)
  = draws_from deg 0 (map GkrRand (seq 0 (n_gkr s)) ++ map AuxRand (seq 0 (sh_aux_rands s))).
Proof. now rewrite draws_eq, draws_at_eq, draws_from_app, map_length, seq_length. Qed.

Lemma prover_split s : prover s = pre s ++ post s.
Proof.
  unfold prover, pre, post, rounds, trace_rounds. cbn zeta.
  rewrite prover_gkr_eq, prover_fri_eq, !body_app.
  destruct (multi_segment s); [rewrite (app_assoc (draws _ GkrRand _)), gkr_aux_eq|];
    rewrite !draws_eq; cbn [body flat_map]; rewrite ?app_nil_r, <- ?app_assoc; cbn [app]; rewrite <- ?app_assoc; reflexivity.
Qed.

Lemma verifier_split s : verifier s = pre s ++ extra s ++ post s.
Proof.
  unfold verifier, pre, post, extra, rounds, trace_rounds, fri_roots. cbn zeta.
  rewrite (verifier_fri_new_eq _ (sh_fri_layers s) (sh_fri_layers s) 0 eq_refl), verifier_aux_eq, prover_fri_eq, !body_app.
  destruct (multi_segment s); [rewrite (app_assoc (draws _ GkrRand _)), gkr_aux_eq|];
    rewrite !draws_eq; cbn [body flat_map]; rewrite ?app_nil_r, <- ?app_assoc; cbn [app]; rewrite <- ?app_assoc; reflexivity.
Qed.

Lemma fri_msgs_S i : fri_msgs (S i) = fri_msgs i ++ [FriLayerCommitment i].
Proof. unfold fri_msgs. rewrite seq_S, map_app. reflexivity. Qed.

Definition H_rem (s : shape) : list sym := upto_deep s ++ fri_msgs (sh_fri_layers s) ++ [RemainderCommitment].

Lemma rounds_msgs s : seed_syms ++ map fst (rounds s) = H_rem s.
Proof.
  unfold rounds, trace_rounds, H_rem, upto_deep, trace_msgs, fri_rounds, fri_msgs. rewrite !map_app, map_map.
  destruct (multi_segment s); reflexivity.
Qed.

Lemma absorbs_pre s : absorbs (pre s) = H_rem s.
Proof. rewrite <- rounds_msgs, <- (absorbs_body (sh_ext_deg s)). reflexivity. Qed.

Lemma pre_state s : exists t, exec cs_init (pre s) = mkCs t 0 /\ hist t = H_rem s.
Proof.
  exists (cs_seed (exec cs_init (pre s))). split.
  - unfold pre, rounds. rewrite !app_assoc, body_app. cbn [exec]. rewrite exec_app. reflexivity.
  - unfold pre. cbn [exec exec1]. rewrite hist_exec_body. apply rounds_msgs.
Qed.

Lemma deps_rounds s : deps s seed_syms (rounds s).
Proof.
  assert (Hfri : forall n i rest, deps s (upto_deep s ++ fri_msgs (i + n)) rest ->
                   deps s (upto_deep s ++ fri_msgs i) (fri_rounds i n ++ rest)).
  { induction n as [|n IH]; intros i rest Hr; [now rewrite Nat.add_0_r in Hr|]. cbn. rewrite <- app_assoc, <- fri_msgs_S. split.
    - intros c [<-|[]]. reflexivity.
    - apply IH. now rewrite Nat.add_succ_r in Hr. }
  assert (Hmap : forall (f : nat -> chal) H l, (forall j, msgs_before s (f j) = H) -> forall c, In c (map f l) -> msgs_before s c = H).
  { intros f H l Hf c Hc. apply in_map_iff in Hc as (j & <- & _). apply Hf. }
  assert (Hup : forall X, (((seed_syms ++ X) ++ [ConstraintCommitment]) ++ [HashOodTraceFrame]) ++ [HashOodConstraintEvals]
                   = (seed_syms ++ X ++ [ConstraintCommitment; HashOodTraceFrame; HashOodConstraintEvals]) ++ fri_msgs 0).
  { intros X. rewrite <- !app_assoc. cbn. reflexivity. }
  assert (Et : seed_syms ++ map fst (trace_rounds s) = seed_syms ++ trace_msgs s)
    by (unfold trace_rounds, trace_msgs; destruct (multi_segment s); reflexivity).
  unfold rounds. apply deps_app; [|rewrite Et; cbn [deps app]; rewrite Hup; repeat split].
  - unfold trace_rounds. destruct (multi_segment s) eqn:Em; cbn [deps]; repeat split.
    + intros c Hc. apply in_app_or in Hc as [Hc|Hc]; revert c Hc; apply Hmap; reflexivity.
    + apply Hmap. intros j. cbn [msgs_before]. unfold trace_msgs. rewrite Em, <- app_assoc. reflexivity.
    + apply Hmap. intros j. cbn [msgs_before]. unfold trace_msgs. now rewrite Em.
  - intros c [<-|[]]. cbn [msgs_before]. now rewrite <- app_assoc.
  - intros c [].
  - apply Hmap. intros j. cbn [msgs_before fri_msgs seq map]. now rewrite app_nil_r.
  - apply (Hfri _ 0). cbn [deps]. split; [intros c []|exact I].
Qed.

(* ------------------------------------------------------------------------------------------------ *)
(* THEOREM challenge_depends_on_all_prior *)
Lemma depends_side s (side : bool) : Forall (Qdep s) (run cs_init (if side then verifier s else prover s)).
Proof.
  assert (Hpre : Forall (Qdep s) (run cs_init (pre s))) by (apply (run_body s _ _ (mkCs (Seed seed_syms) 0)), deps_rounds).
  destruct (pre_state s) as (t & Et & Ht).
  assert (Hpost : forall k, Forall (Qdep s) (run (mkCs t k) (post s))).
  { assert (E : hist t ++ [PowNonce] = msgs_before s PowCheck).
    { rewrite Ht. unfold H_rem. cbn [msgs_before]. now rewrite <- !app_assoc. }
    intros k. repeat constructor; exact E. }
  destruct side; [rewrite verifier_split|rewrite prover_split]; rewrite !run_app, !Forall_app, Et.
  - split; [exact Hpre|]. split; [|apply Hpost]. repeat constructor. exact Ht.
  - split; [exact Hpre|apply Hpost].
Qed.

(* the "contains as subterm" reading: [absorbed_in m t] — m was fed to the coin on the way to seed t *)
Inductive absorbed_in (m : sym) : term -> Prop :=
| ai_seed l : In m l -> absorbed_in m (Seed l)
| ai_reseed_here t : absorbed_in m (Reseed t m)
| ai_reseed_before t d : absorbed_in m t -> absorbed_in m (Reseed t d)
| ai_nonce_here t : absorbed_in m (Nonce t m)
| ai_nonce_before t n : absorbed_in m t -> absorbed_in m (Nonce t n).

Lemma absorbed_in_hist m t : absorbed_in m t <-> In m (hist t).
Proof.
  split.
  - induction 1; cbn; try assumption; apply in_or_app; (now left) || (right; now left).
  - induction t as [l | t IH d | t IH n]; cbn; intros H.
    + now constructor.
    + apply in_app_or in H as [H|[<-|[]]]; [apply ai_reseed_before, IH, H | apply ai_reseed_here].
    + apply in_app_or in H as [H|[<-|[]]]; [apply ai_nonce_before, IH, H | apply ai_nonce_here].
Qed.

Definition precedes (s : shape) (m : sym) (c : chal) : Prop := In m (msgs_before s c).

Theorem challenge_depends_on_all_prior s (side : bool) c v :
  In (c, v) (run cs_init (if side then verifier s else prover s)) ->
  (* the seed the challenge is derived from has absorbed exactly the preceding messages, in protocol order *)
  hist (cval_term v) = msgs_before s c /\
  (* in particular the context, the public inputs and every preceding prover message are subterms *)
  (forall m, precedes s m c -> absorbed_in m (cval_term v)) /\
  absorbed_in CtxElems (cval_term v) /\ absorbed_in PubInputs (cval_term v).
Proof.
  intros Hin.
  assert (Hh : hist (cval_term v) = msgs_before s c).
  { pose proof (depends_side s side) as F. rewrite Forall_forall in F. exact (F (c, v) Hin). }
  split; [exact Hh|]. split; [|split].
  - intros m Hm. apply absorbed_in_hist. rewrite Hh. exact Hm.
  - apply absorbed_in_hist. rewrite Hh. destruct c; cbn; unfold upto_deep; cbn; auto.
  - apply absorbed_in_hist. rewrite Hh. destruct c; cbn; unfold upto_deep; cbn; auto.
Qed.

(* ------------------------------------------------------------------------------------------------ *)
(* the challenges derived by each side are exactly the ones the protocol names (so the theorem above is
   not vacuous for any shape) *)
Lemma labs_app l1 l2 : labs (l1 ++ l2) = labs l1 ++ labs l2.
Proof. apply flat_map_app. Qed.

Lemma labs_pre s :
  labs (pre s) =
    (if multi_segment s then map GkrRand (seq 0 (n_gkr s)) ++ map AuxRand (seq 0 (sh_aux_rands s)) else [])
    ++ map CompositionCoeff (seq 0 (n_comp s)) ++ [OodPoint]
    ++ map DeepCoeff (seq 0 (n_deep s)) ++ map FriAlpha (seq 0 (sh_fri_layers s)).
Proof.
  assert (Hfri : forall l, flat_map snd (map (fun j => (FriLayerCommitment j, [FriAlpha j])) l) = map FriAlpha l)
    by (induction l; cbn; congruence).
  change (labs (pre s)) with (labs (body (sh_ext_deg s) (rounds s))).
  rewrite labs_body. unfold rounds, trace_rounds, fri_rounds. rewrite !flat_map_app, Hfri.
  destruct (multi_segment s); cbn; rewrite ?app_nil_r, <- ?app_assoc; reflexivity.
Qed.

Theorem labels_prover s : map fst (run cs_init (prover s)) = challenges false s.
Proof.
  rewrite labels_run, prover_split, labs_app, labs_pre. unfold challenges.
  rewrite <- !app_assoc. reflexivity.
Qed.

Theorem labels_verifier s : map fst (run cs_init (verifier s)) = challenges true s.
Proof.
  rewrite labels_run, verifier_split, !labs_app, labs_pre. unfold challenges.
  rewrite <- !app_assoc. reflexivity.
Qed.

(* ------------------------------------------------------------------------------------------------ *)
(* THEOREM transcript_agree *)
Lemma absorbs_extra s : absorbs (extra s) = [].
Proof. reflexivity. Qed.

Theorem absorbs_agree s : absorbs (prover s) = absorbs (verifier s).
Proof. rewrite prover_split, verifier_split, !absorbs_app, absorbs_extra. reflexivity. Qed.

Lemma chals_pre (P : chal -> Prop) s :
  (forall j, P (GkrRand j)) -> (forall j, P (AuxRand j)) -> (forall j, P (CompositionCoeff j)) -> P OodPoint ->
  (forall j, P (DeepCoeff j)) -> (forall j, P (FriAlpha j)) -> Forall P (labs (pre s)).
Proof.
  intros Hg Ha Hc Ho Hd Hf. rewrite labs_pre.
  assert (Hm : forall (f : nat -> chal) l, (forall j, P (f j)) -> Forall P (map f l)).
  { intros f l H. apply Forall_forall. intros c Hin. apply in_map_iff in Hin as (j & <- & _). apply H. }
  repeat (apply Forall_app; split); auto.
  destruct (multi_segment s); [apply Forall_app; split|]; auto.
Qed.

Lemma used_pre s st : Forall (fun cv => used (fst cv) = true) (run st (pre s)).
Proof.
  apply (Forall_map fst (fun c => used c = true)). rewrite labels_run. apply chals_pre; reflexivity.
Qed.

Definition usedb (cv : chal * cval) : bool := used (fst cv).

Theorem used_challenges_agree s :
  filter usedb (run cs_init (verifier s)) = run cs_init (prover s).
Proof.
  rewrite prover_split, verifier_split, !run_app, !filter_app.
  rewrite (filter_id usedb) by (apply used_pre).
  f_equal; try (destruct (exec cs_init (pre s)) as [t k]; reflexivity).
Qed.

(* the only verifier challenge the prover does not derive: one FRI alpha, drawn from the seed that has absorbed
   the remainder commitment; nothing later depends on it (same final coin state on both sides) *)
Theorem verifier_extra_alpha s :
  exists t, filter (fun cv => negb (usedb cv)) (run cs_init (verifier s)) = [(FriAlphaUnused, CDraw t 0)]
            /\ hist t = msgs_before s FriAlphaUnused.
Proof.
  destruct (pre_state s) as (t & Et & Ht). exists t. split; [|exact Ht].
  rewrite verifier_split, !run_app, !filter_app, Et.
  assert (E : filter (fun cv => negb (usedb cv)) (run cs_init (pre s)) = []).
  { pose proof (used_pre s cs_init) as Hu. induction Hu as [|x l Hx _ IH]; cbn; [reflexivity|].
    unfold usedb at 1. now rewrite Hx. }
  rewrite E. reflexivity.
Qed.

Theorem final_state_agree s : exec cs_init (prover s) = exec cs_init (verifier s).
Proof.
  rewrite prover_split, verifier_split, !exec_app.
  destruct (exec cs_init (pre s)) as [t k]. reflexivity.
Qed.

Theorem transcript_agree s :
  absorbs (prover s) = absorbs (verifier s)
  /\ filter usedb (run cs_init (verifier s)) = run cs_init (prover s)
  /\ (exists t, filter (fun cv => negb (usedb cv)) (run cs_init (verifier s)) = [(FriAlphaUnused, CDraw t 0)]
                /\ hist t = msgs_before s FriAlphaUnused)
  /\ exec cs_init (prover s) = exec cs_init (verifier s).
Proof.
  split; [apply absorbs_agree|]. split; [apply used_challenges_agree|].
  split; [apply verifier_extra_alpha | apply final_state_agree].
Qed.

(* ------------------------------------------------------------------------------------------------ *)
(* THEOREM pow_before_positions *)
Lemma not_nonce_fri n : ~ In PowNonce (fri_msgs n).
Proof. intros H. unfold fri_msgs in H. apply in_map_iff in H as (j & Hj & _). discriminate. Qed.
Lemma not_nonce_trace s : ~ In PowNonce (trace_msgs s).
Proof.
  unfold trace_msgs. destruct (multi_segment s); cbn; intros H;
    repeat (destruct H as [H|H]; [discriminate|]); exact H.
Qed.
Lemma not_nonce_upto s : ~ In PowNonce (upto_deep s).
Proof.
  unfold upto_deep. rewrite !in_app_iff. pose proof (not_nonce_trace s) as T. cbn.
  intros [H|[H|H]]; [| exact (T H) |]; repeat (destruct H as [H|H]; [discriminate|]); exact H.
Qed.
Lemma nonce_in_msgs s c : In PowNonce (msgs_before s c) -> c = PowCheck \/ c = QueryPositions.
Proof.
  destruct c; auto; intros H; exfalso; cbn [msgs_before] in H;
    rewrite ?in_app_iff in H; cbn [In seed_syms] in H;
    pose proof not_nonce_fri as F; pose proof (not_nonce_upto s); pose proof (not_nonce_trace s);
    intuition (try discriminate; eauto).
Qed.

Theorem pow_before_positions s (side : bool) :
  let l := if side then verifier s else prover s in
  exists t,
    hist t = upto_deep s ++ fri_msgs (sh_fri_layers s) ++ [RemainderCommitment]   (* all commitments absorbed *)
    /\ In (PowCheck, CLz (Nonce t PowNonce)) (run cs_init l)          (* the PoW test hashes that seed with the nonce *)
    /\ In (QueryPositions, CInts (Nonce t PowNonce)) (run cs_init l)  (* positions come from the nonce-keyed seed *)
    /\ (forall v, In (QueryPositions, v) (run cs_init l) -> absorbed_in PowNonce (cval_term v))
    /\ (forall c v, In (c, v) (run cs_init l) -> absorbed_in PowNonce (cval_term v) ->
                    c = PowCheck \/ c = QueryPositions).             (* and nothing else depends on the nonce *)
Proof.
  cbn zeta.
  destruct (pre_state s) as (t & Et & Ht). exists t. split; [exact Ht|].
  assert (Hdep : forall c v, In (c, v) (run cs_init (if side then verifier s else prover s)) ->
                 hist (cval_term v) = msgs_before s c)
    by (intros c v H; exact (proj1 (challenge_depends_on_all_prior s side c v H))).
  assert (Hrun : run cs_init (if side then verifier s else prover s)
                 = run cs_init (pre s) ++ (if side then [(FriAlphaUnused, CDraw t 0)] else [])
                   ++ [(PowCheck, CLz (Nonce t PowNonce)); (QueryPositions, CInts (Nonce t PowNonce))])
    by (destruct side; [rewrite verifier_split|rewrite prover_split]; rewrite !run_app, Et; reflexivity).
  split; [rewrite Hrun; apply in_or_app; right; apply in_or_app; right; now left|].
  split; [rewrite Hrun; apply in_or_app; right; apply in_or_app; right; right; now left|].
  split.
  - intros v Hv. apply absorbed_in_hist. rewrite (Hdep _ _ Hv). cbn [msgs_before].
    apply in_or_app; right. apply in_or_app; right. right; left; reflexivity.
  - intros c v Hv Ha. apply absorbed_in_hist in Ha. rewrite (Hdep _ _ Hv) in Ha.
    exact (nonce_in_msgs s c Ha).
Qed.

(* ------------------------------------------------------------------------------------------------ *)
(* THEOREM absorbed_is_carried *)
Theorem absorbs_prover s : absorbs (prover s) = H_rem s ++ [PowNonce].
Proof. rewrite prover_split, absorbs_app, absorbs_pre. reflexivity. Qed.

(* every absorbed value is a component of the proof (or the verifier's own public inputs), each component is
   absorbed exactly once, in the order it is sent; the commitments absorbed are ALL digests of proof.commitments *)
Theorem absorbed_is_carried s (side : bool) :
  let l := if side then verifier s else prover s in
  map (proof_slot s) (absorbs l) = slots_in_order s
  /\ (let idx := flat_map (fun sl => match sl with SlotCommitment n => [n] | _ => [] end) (map (proof_slot s) (absorbs l))
      in idx = seq 0 (num_commitments s)).
Proof.
  cbn zeta.
  assert (E : absorbs (if side then verifier s else prover s) = H_rem s ++ [PowNonce]).
  { destruct side; [rewrite <- absorbs_agree|]; apply absorbs_prover. }
  rewrite E.
  assert (Hfri : forall g L, map (fun x => SlotCommitment (g + 1 + x)) (seq 0 L) ++ [SlotCommitment (g + 1 + L)]
                             = map SlotCommitment (seq (g + 1) (L + 1))).
  { intros g L. rewrite (Nat.add_1_r L), seq_S, map_app. cbn [map].
    rewrite (map_seq_shift SlotCommitment (g + 1)). reflexivity. }
  assert (Hs : map (proof_slot s) (H_rem s ++ [PowNonce]) = slots_in_order s).
  { unfold H_rem, upto_deep, trace_msgs, slots_in_order, fri_msgs.
    rewrite !map_app, !map_map. cbn [map proof_slot seed_syms app].
    unfold num_trace_segments.
    destruct (multi_segment s); cbn [map seq app]; rewrite Hfri; reflexivity. }
  split; [exact Hs|]. rewrite Hs.
  unfold slots_in_order, num_commitments.
  rewrite !flat_map_app. cbn [flat_map app].
  assert (Hf : forall a n, flat_map (fun sl => match sl with SlotCommitment n0 => [n0] | _ => [] end)
                            (map SlotCommitment (seq a n)) = seq a n).
  { intros a n. revert a. induction n as [|n IH]; intros a; cbn; [reflexivity | now rewrite IH]. }
  rewrite !Hf.
  generalize (num_trace_segments s) (sh_fri_layers s + 1). intros g n.
  rewrite app_nil_r. replace (g + 1 + n) with (g + S n) by lia. rewrite seq_app. f_equal.
  cbn [seq Nat.add]. rewrite Nat.add_1_r. reflexivity.
Qed.

Lemma counters_draws_gen deg (lab : nat -> chal) n : forall a rest,
  counters_ok a (map fst (map (fun j => draw1 deg j (lab j)) (seq a n)) ++ rest) = counters_ok (a + n) rest.
Proof.
  induction n as [|n IH]; intros a rest; cbn.
  - now rewrite Nat.add_0_r.
  - rewrite Nat.eqb_refl. cbn. rewrite IH. f_equal. lia.
Qed.

(* ------------------------------------------------------------------------------------------------ *)
(* soundness of the executable checker used on observed logs *)
Theorem depends_ok_sound s l :
  depends_ok s l = true ->
  forall c v, In (c, v) (run cs_init l) -> hist (cval_term v) = msgs_before s c.
Proof.
  unfold depends_ok. intros H c v Hin.
  rewrite forallb_forall in H. specialize (H (c, v) Hin). cbn in H. now apply syms_eqb_eq.
Qed.

Theorem log_ok_sound side s l :
  log_ok side s l = true ->
  let ls := label (drawn_challenges side s) l in
  map fst (run cs_init ls) = challenges side s
  /\ (forall c v, In (c, v) (run cs_init ls) ->
        hist (cval_term v) = msgs_before s c /\ forall m, precedes s m c -> absorbed_in m (cval_term v)).
Proof.
  unfold log_ok. intros H. cbn zeta.
  apply andb_true_iff in H as [H Hd]. apply andb_true_iff in H as [H Hc]. clear H.
  split; [now apply chals_eqb_eq|].
  intros c v Hin. pose proof (depends_ok_sound _ _ Hd c v Hin) as Hh.
  split; [exact Hh|]. intros m Hm. apply absorbed_in_hist. rewrite Hh. exact Hm.
Qed.

(* observed uses: an accepted log has every observed GKR / auxiliary-randomness use on a draw the protocol gives that purpose
   (the first theorem only splits the conjunction; [uses_ok_spec] says what [uses_ok] means position by position) *)
Theorem log_ok_uses_sound side s l us :
  log_ok_uses side s l us = true ->
  log_ok side s l = true /\ uses_ok (label (drawn_challenges side s) l) us = true.
Proof. unfold log_ok_uses. intros H. apply andb_true_iff in H. exact H. Qed.

Lemma uses_ok_spec : forall ls us, uses_ok ls us = true ->
  forall i e lab, nth_error ls i = Some (e, lab) ->
    match nth_error us i with
    | Some UseGkr => exists j, lab = Some (GkrRand j)
    | Some UseAux => exists j, lab = Some (AuxRand j)
    | Some UseUnobserved => True
    | None => False
    end.
Proof.
  induction ls as [|[e0 lab0] ls IH]; intros [|u us] H i e lab Hn; cbn in H; try discriminate.
  - destruct i; discriminate.
  - apply andb_true_iff in H as [H1 H2].
    destruct i as [|i]; cbn in Hn |- *.
    + injection Hn as <- <-. destruct u; auto; destruct lab0 as [[]|]; try discriminate; eauto.
    + exact (IH us H2 i e lab Hn).
Qed.
