(* C09: the column-batched, segmented LDE (RowMatrix::evaluate_polys_over::<N>, Segment::new, build_segments,
   transpose) equals per-column direct evaluation, for every column count, segment width, size and blowup >= 2.
   The rows `[[B; N]]` run the SAME fft_in_place / permute at the pointwise operations `rows_ops O N`; since the
   structural refinement theorems of FFTRefine/FFTEval use no field law they apply to rows directly, and a column
   projection commutes with the list-level transform. *)
From Coq Require Import List Arith Bool ZArith Lia Ring Field.
From VBase Require Import FieldOps.
From VModel Require Import FFT.
From VProofs Require Import ListFacts Pow2Facts FFTSpec FFTRefine FFTEval FFTOffset.
Import ListNotations.

(* ---------------------------------------------------------------- sequence, chunks of Model/FFT.v *)
Fixpoint sequence_some {A B} (f : A -> option B) (g : A -> B) (l : list A) :
  (forall x, In x l -> f x = Some (g x)) -> sequence (map f l) = Some (map g l).
Proof.
  destruct l as [|a l]; intros H; [reflexivity|].
  cbn [map sequence]. rewrite (H a (or_introl eq_refl)).
  rewrite (sequence_some A B f g l (fun x Hx => H x (or_intror Hx))). reflexivity.
Qed.

Lemma chunks_concat {A} : forall (ls : list (list A)) n fuel,
  (forall l, In l ls -> length l = n) -> 0 < n -> length ls <= fuel -> chunks fuel n (concat ls) = ls.
Proof.
  induction ls as [|l ls IH]; intros n fuel Hn Hpos Hf.
  - destruct fuel; reflexivity.
  - destruct fuel as [|fuel]; [cbn in Hf; lia|].
    assert (Hl : length l = n) by (apply Hn; left; reflexivity).
    cbn [concat chunks]. destruct (l ++ concat ls) as [|y rest] eqn:E.
    { destruct l; cbn in Hl, E; [lia | discriminate]. }
    rewrite <- E. rewrite firstn_app, skipn_app, Hl, Nat.sub_diag. cbn [firstn skipn].
    rewrite app_nil_r, (firstn_all2 l), (skipn_all2 l) by lia. cbn [app]. f_equal.
    apply IH; [intros; apply Hn; right; assumption | exact Hpos | cbn in Hf; lia].
Qed.

Section Rows.
Context {F : Type} (O : FOps F).
Local Notation fz := (fzero O).
Variable N : nat.
Variable tw : list F.
Local Notation OR := (rows_ops O N).
Local Notation rtw := (map (fun t => repeat t N) tw).

(* rows of width N; projection on column t *)
Definition wf_rows (rows : list (list F)) : Prop := Forall (fun r => length r = N) rows.
Definition col (t : nat) (rows : list (list F)) : list F := map (fun r => nth t r fz) rows.

(* the rows Segment::new builds: np computed entries, padded with zeros to width N *)
Lemma padded_rows_wf (g : nat -> nat -> F) np n : np <= N ->
  wf_rows (map (fun ri => map (g ri) (seq 0 np) ++ repeat fz (N - np)) (seq 0 n)).
Proof.
  intros Hnp. apply Forall_forall. intros row (ri & <- & _)%in_map_iff.
  rewrite app_length, map_length, seq_length, repeat_length. lia.
Qed.

Lemma tmul_row t c o : t < N -> length o = N ->
  nth t (tmul OR rtw c o) fz = tmul O tw c (nth t o fz) /\ length (tmul OR rtw c o) = N.
Proof.
  intros Ht Ho. unfold tmul. destruct (c =? 0); [auto|].
  unfold FFT.vget. cbn [rows_ops fmul fzero].
  change (repeat fz N) with ((fun x => repeat x N) fz). rewrite map_nth.
  split.
  - rewrite (map2_nth (fmul O) fz fz fz) by (rewrite ?repeat_length; lia).
    rewrite nth_repeat_lt by exact Ht. reflexivity.
  - rewrite map2_length by (rewrite repeat_length; exact Ho). exact Ho.
Qed.

Lemma bf_list_col t : t < N -> forall E Od c, wf_rows E -> wf_rows Od ->
  col t (bf_list OR rtw c E Od) = bf_list O tw c (col t E) (col t Od) /\ wf_rows (bf_list OR rtw c E Od).
Proof.
  intros Ht. induction E as [|e E IH]; intros Od c HE HO.
  - cbn. split; [reflexivity | constructor].
  - destruct Od as [|o Od]; [cbn; split; [reflexivity | constructor]|].
    inversion HE as [|? ? He HE']; subst. inversion HO as [|? ? Ho HO']; subst.
    destruct (IH Od (S c) HE' HO') as [IH1 IH2].
    destruct (tmul_row t c o Ht Ho) as [T1 T2].
    cbn [bf_list col map]. fold (col t (bf_list OR rtw (S c) E Od)). rewrite IH1.
    cbn [rows_ops fadd fsub].
    rewrite (map2_nth (fadd O) fz fz fz), (map2_nth (fsub O) fz fz fz) by lia.
    rewrite T1. split; [reflexivity|].
    constructor; [rewrite map2_length; lia|]. constructor; [rewrite map2_length; lia|]. exact IH2.
Qed.

Lemma col_split_eo t rows :
  col t (fst (split_eo rows)) = fst (split_eo (col t rows)) /\
  col t (snd (split_eo rows)) = snd (split_eo (col t rows)).
Proof. unfold col. rewrite split_eo_map. cbn [fst snd]. auto. Qed.

(* the list-level transform on rows is the transform of every column *)
Lemma brfft_col t : t < N -> forall k rows, wf_rows rows ->
  col t (brfft OR rtw k rows) = brfft O tw k (col t rows) /\ wf_rows (brfft OR rtw k rows).
Proof.
  intros Ht. induction k as [|k IH]; intros rows Hwf; [cbn; auto|].
  cbn [brfft]. destruct (split_eo_Forall _ rows Hwf) as [We Wo].
  destruct (IH _ We) as [E1 E2]. destruct (IH _ Wo) as [O1 O2].
  destruct (bf_list_col t Ht _ _ 0 E2 O2) as [B1 B2].
  destruct (col_split_eo t rows) as [C1 C2].
  split; [|exact B2]. rewrite B1, E1, O1, C1, C2. reflexivity.
Qed.

Lemma col_nth t rows q : nth q (col t rows) fz = nth t (nth q rows (fzero OR)) fz.
Proof.
  unfold col. destruct (Nat.lt_ge_cases q (length rows)) as [Hq | Hq].
  - rewrite (nth_indep _ fz ((fun r => nth t r fz) (fzero OR))) by (rewrite map_length; exact Hq).
    apply (map_nth (fun r => nth t r fz)).
  - rewrite (nth_overflow (map _ _)) by (rewrite map_length; lia). rewrite (nth_overflow rows) by lia.
    cbn [rows_ops fzero]. destruct (Nat.lt_ge_cases t N).
    + rewrite nth_repeat_lt by assumption. reflexivity.
    + rewrite nth_overflow by (rewrite repeat_length; lia). reflexivity.
Qed.

End Rows.

Section Segments.
Context {F : Type} (O : FOps F) (L : FLaws O).
Add Ring Fring4 : (FLaws_ring_theory O L).

Local Notation fz := (fzero O).
Local Notation f1 := (fone O).
Local Infix "+f" := (fadd O) (at level 50, left associativity).
Local Infix "*f" := (fmul O) (at level 40, left associativity).
Local Notation peval := (peval O).
Local Notation fpow := (fpow O).

Variable root_of_unity : nat -> F.

Lemma shift_by_series_as_map : forall p s c,
  shift_by_series O p s c = map (fun j => nth j p fz *f (s *f fpow c j)) (seq 0 (length p)).
Proof.
  induction p as [|y t IH]; intros s c; [reflexivity|].
  cbn [shift_by_series length seq map nth]. f_equal; [cbn; ring|].
  rewrite IH, <- seq_shift, map_map. apply map_ext. intros j. cbn [nth FFT.fpow]. ring.
Qed.

Variable N : nat.
Local Notation OR := (rows_ops O N).

(* per-chunk offset series of get_evaluation_offsets *)
Definition offs (g offset : F) (n B i : nat) : list F :=
  power_series_from O f1 (fpow_N O g (N.of_nat (permute_index B i)) *f offset) n.

Lemma offs_length g offset n B i : length (offs g offset n B i) = n.
Proof. unfold offs. rewrite (power_series_from_spec O L), map_length, seq_length. reflexivity. Qed.

Lemma get_evaluation_offsets_eq K b g offset :
  root_of_unity (S K + b) = g ->
  get_evaluation_offsets O root_of_unity (2 ^ S K) (2 ^ b) offset
    = concat (map (offs g offset (2 ^ S K) (2 ^ b)) (seq 0 (2 ^ b))).
Proof.
  intros Hg. unfold get_evaluation_offsets. rewrite <- Nat.pow_add_r, log2_pow2, Hg. reflexivity.
Qed.

(* Segment::new: row r, column t of the segment starting at base column po is polys[po + t](offset * g^r) *)
Lemma segment_new_correct (polys : list (list F)) tw K b g offset po :
  0 < N -> (forall p, In p polys -> length p = 2 ^ S K) -> length tw = 2 ^ K -> 0 < b ->
  root_cond O (S K + b) g -> tw_ok O tw (S K) (fpow g (2 ^ b)) -> po < length polys ->
  exists seg,
    segment_new O N polys po (concat (map (offs g offset (2 ^ S K) (2 ^ b)) (seq 0 (2 ^ b)))) tw = Some seg /\
    length seg = 2 ^ (S K + b) /\ wf_rows N seg /\
    forall t r, t < N -> po + t < length polys -> r < 2 ^ (S K + b) ->
      nth t (nth r seg (fzero OR)) fz = peval (nth (po + t) polys []) (offset *f fpow g r).
Proof.
  intros HN Hcols Hlt Hb Hgc Ht Hpo.
  set (n := 2 ^ S K). set (B := 2 ^ b).
  set (offsets := concat (map (offs g offset n B) (seq 0 B))).
  destruct (concat_map_seq fz (offs g offset n B) B n) as [OL _]; [intros; apply offs_length|].
  fold offsets in OL.
  assert (HD : B * n = 2 ^ (S K + b)) by (unfold B, n; rewrite Nat.pow_add_r; lia).
  assert (Hn1 : 0 < n) by apply pow2_pos.
  assert (HB2 : 2 <= B).
  { unfold B. destruct b as [|b']; [lia|]. rewrite pow2_S. pose proof (pow2_pos b'). lia. }
  assert (Hhd : length (hd [] polys) = n).
  { destruct polys as [|c0 rest]; [cbn in Hpo; lia|]. apply Hcols. left. reflexivity. }
  unfold segment_new. rewrite Hhd, OL, HD, is_pow2_pow2. cbn [negb].
  assert (E1 : (n <? 2 ^ (S K + b)) = true) by (apply Nat.ltb_lt; rewrite <- HD; nia).
  assert (E2 : (n =? length tw * 2) = true) by (apply Nat.eqb_eq; unfold n; rewrite Hlt; cbn; lia).
  assert (E3 : (po <? length polys) = true) by (apply Nat.ltb_lt; exact Hpo).
  rewrite E1, E2, E3. cbn [negb].
  set (np := if length polys - po <? N then length polys - po else N).
  assert (Hnp : np <= N).
  { unfold np. destruct (Nat.ltb_spec (length polys - po) N); lia. }
  set (rtw := map (fun t => repeat t N) tw).
  set (dchunk := fun (o_chunk : list F) =>
        map (fun row_idx =>
               map (fun i => nth row_idx (nth (po + i) polys []) fz *f nth row_idx o_chunk fz) (seq 0 np)
               ++ repeat fz (N - np)) (seq 0 n)).
  assert (Hchunks : chunks (2 ^ (S K + b)) n offsets = map (offs g offset n B) (seq 0 B)).
  { unfold offsets. apply chunks_concat.
    - intros l Hin. apply in_map_iff in Hin. destruct Hin as (i & <- & _). apply offs_length.
    - exact Hn1.
    - rewrite map_length, seq_length, <- HD. nia. }
  rewrite Hchunks, map_map.
  assert (Hdl : forall oc, length (dchunk oc) = n) by (intros; unfold dchunk; rewrite map_length, seq_length; reflexivity).
  assert (Hdw : forall oc, wf_rows N (dchunk oc)) by (intros oc; apply (padded_rows_wf O), Hnp).
  set (chunk := fun i => brfft OR rtw (S K) (dchunk (offs g offset n B i))).
  rewrite (map_ext _ chunk).
  2:{ intros i. unfold chunk. apply fft_in_place_top_brfft. apply Hdl. }
  assert (Hcl : forall i, length (chunk i) = n) by (intros i; apply brfft_length, Hdl).
  destruct (permute_concat_nth OR chunk (S K) b (fun i _ => Hcl i)) as [Lp Np]. fold B n in Lp, Np.
  eexists; split; [reflexivity|]. split; [exact Lp|]. split.
  - (* rows keep width N: permute only moves rows *)
    unfold wf_rows. apply Forall_forall. intros row Hin.
    apply (In_nth _ _ (fzero OR)) in Hin. destruct Hin as (r & Hr & <-). rewrite Lp in Hr.
    destruct (Np r Hr) as (_ & Hq & ->).
    destruct (brfft_col O N tw 0 HN (S K) _ (Hdw (offs g offset n B (rev_bits (S K + b) r / n)))) as [_ W].
    apply (proj1 (Forall_forall _ _) W), nth_In. rewrite (Hcl _ : length (brfft OR rtw (S K) _) = n). exact Hq.
  - intros t r Htn Hpt Hr. destruct (Np r Hr) as (_ & _ & ->).
    set (i := rev_bits (S K + b) r / n).
    rewrite <- (col_nth O N).
    unfold chunk. destruct (brfft_col O N tw t Htn (S K) _ (Hdw (offs g offset n B i))) as [Cc _].
    fold rtw in Cc. rewrite Cc.
    assert (Htnp : t < np).
    { unfold np. destruct (Nat.ltb_spec (length polys - po) N); lia. }
    assert (Hlc : length (nth (po + t) polys []) = n) by (apply Hcols, nth_In; exact Hpt).
    assert (Hcolumn : col O t (dchunk (offs g offset n B i))
              = shift_by_series O (nth (po + t) polys []) f1 (fpow g (rev_bits b i) *f offset)).
    { rewrite shift_by_series_as_map, Hlc. unfold col, dchunk. rewrite map_map.
      apply map_ext_in. intros row Hrow. apply in_seq in Hrow.
      rewrite app_nth1 by (rewrite map_length, seq_length; exact Htnp).
      rewrite (nth_map_seq (fun i0 => nth row (nth (po + i0) polys []) fz *f nth row (offs g offset n B i) fz)) by exact Htnp.
      f_equal. unfold offs. rewrite (power_series_from_spec O L).
      rewrite (nth_map_seq (fun i0 => f1 *f fpow (fpow_N O g (N.of_nat (permute_index B i)) *f offset) i0)) by lia.
      unfold B. rewrite permute_index_spec, (fpow_N_spec O L). reflexivity. }
    rewrite Hcolumn. apply (chunk_value O L tw K b g offset); assumption.
Qed.

(* ColMatrix::evaluate_columns_over: every column is evaluated over the coset; every column count, size, blowup *)
Lemma colmatrix_ok_intro (polys : list (list F)) K :
  polys <> [] -> (forall p, In p polys -> length p = 2 ^ S K) -> colmatrix_ok polys = true.
Proof.
  intros Hne Hcols. unfold colmatrix_ok. destruct polys as [|c0 rest]; [contradiction|].
  assert (H0 : length c0 = 2 ^ S K) by (apply Hcols; left; reflexivity).
  rewrite H0, is_pow2_pow2.
  assert (E : (1 <? 2 ^ S K) = true) by (apply Nat.ltb_lt; rewrite pow2_S; pose proof (pow2_pos K); lia).
  rewrite E. cbn [andb]. apply forallb_forall. intros c Hc. apply Nat.eqb_eq. apply Hcols. right. exact Hc.
Qed.

Theorem evaluate_columns_over_correct two_adicity (polys : list (list F)) tw K b g offset :
  polys <> [] -> (forall p, In p polys -> length p = 2 ^ S K) -> length tw = 2 ^ K -> S K + b <= two_adicity ->
  root_of_unity (S K + b) = g -> root_cond O (S K + b) g -> tw_ok O tw (S K) (fpow g (2 ^ b)) -> offset <> fz ->
  evaluate_columns_over O two_adicity root_of_unity polys tw offset (2 ^ b)
    = Some (map (fun p => map (fun i => peval p (offset *f fpow g i)) (seq 0 (2 ^ (S K + b)))) polys).
Proof.
  intros Hne Hcols Hlt Had Hg Hgc Ht Hoff. unfold evaluate_columns_over.
  rewrite (colmatrix_ok_intro polys K Hne Hcols). cbn [negb].
  apply sequence_some. intros p Hp.
  apply (evaluate_poly_with_offset_correct O L two_adicity root_of_unity tw K b g offset p); auto.
Qed.

(* number of segments: ceil(m / N) *)
Lemma nseg_bounds m : 0 < N -> 0 < m ->
  let nseg := if m mod N =? 0 then m / N else m / N + 1 in
  0 < nseg /\ m <= nseg * N /\ (forall i, i < nseg -> i * N < m) /\ (forall c, c < m -> c / N < nseg).
Proof.
  intros HN Hm. pose proof (Nat.div_mod m N ltac:(lia)) as Hdm.
  pose proof (Nat.mod_upper_bound m N ltac:(lia)) as Hmod.
  destruct (Nat.eqb_spec (m mod N) 0) as [E | E]; cbv zeta.
  - rewrite E in Hdm. assert (0 < m / N) by nia. repeat split; try nia.
    intros c Hc. apply Nat.div_lt_upper_bound; lia.
  - repeat split; try nia.
    intros c Hc. pose proof (Nat.div_le_mono c m N ltac:(lia) ltac:(lia)). lia.
Qed.

(* transpose: row r * nseg + s of the result is row r of segment s; rows keep width N *)
Lemma transpose_nth (segs : list (list (list F))) D : segs <> [] ->
  (forall sg, In sg segs -> length sg = D /\ wf_rows N sg) ->
  length (transpose O N segs) = D * length segs /\
  (forall row, In row (transpose O N segs) -> length row = N) /\
  forall r s, r < D -> s < length segs ->
    nth (r * length segs + s) (transpose O N segs) [] = nth r (nth s segs []) (repeat fz N).
Proof.
  intros Hne Hsg. unfold transpose.
  assert (Hhd : length (hd [] segs) = D) by (destruct segs; [contradiction | apply Hsg; left; reflexivity]).
  destruct (Nat.eqb_spec (length segs) 1) as [E | E].
  - destruct segs as [|s0 [|? ?]]; try discriminate. destruct (Hsg s0 (or_introl eq_refl)) as [S2 S3].
    cbn [hd length]. split; [lia|]. split; [exact (proj1 (Forall_forall _ _) S3)|].
    intros r s Hr Hs. assert (s = 0) by lia. subst s. replace (r * 1 + 0) with r by lia.
    cbn [nth]. apply nth_indep. lia.
  - rewrite Hhd.
    destruct (concat_map_seq (@nil F) (fun i => map (fun sg => nth i sg (repeat fz N)) segs) D (length segs))
      as [CL CN]; [intros; apply map_length|].
    split; [exact CL|]. split.
    + intros row Hin. apply in_concat in Hin. destruct Hin as (l & Hl & Hrow).
      apply in_map_iff in Hl. destruct Hl as (i & <- & Hi). apply in_seq in Hi.
      apply in_map_iff in Hrow. destruct Hrow as (sg & <- & Hin).
      destruct (Hsg sg Hin) as [S2 S3]. apply (proj1 (Forall_forall _ _) S3), nth_In. lia.
    + intros r s Hr Hs. rewrite CN by assumption.
      rewrite (nth_indep _ [] ((fun sg => nth r sg (repeat fz N)) [])) by (rewrite map_length; exact Hs).
      apply (map_nth (fun sg => nth r sg (repeat fz N))).
Qed.

Theorem segments_correct (polys : list (list F)) tw K b g offset :
  0 < N -> polys <> [] -> (forall p, In p polys -> length p = 2 ^ S K) -> length tw = 2 ^ K -> 0 < b ->
  root_of_unity (S K + b) = g -> root_cond O (S K + b) g -> tw_ok O tw (S K) (fpow g (2 ^ b)) ->
  exists M, evaluate_polys_over O root_of_unity N polys tw offset (2 ^ b) = Some M /\
    rm_num_rows M = 2 ^ (S K + b) /\ rm_elements_per_row M = length polys /\
    forall c r, c < length polys -> r < 2 ^ (S K + b) ->
      rm_get O M c r = Some (peval (nth c polys []) (offset *f fpow g r)).
Proof.
  intros HN Hne Hcols Hlt Hb Hg Hgc Ht.
  set (m := length polys). set (D := 2 ^ (S K + b)).
  assert (Hm : 0 < m) by (unfold m; destruct polys; [contradiction | cbn; lia]).
  assert (HN0 : (N =? 0) = false) by (apply Nat.eqb_neq; lia).
  assert (Hhd : length (hd [] polys) = 2 ^ S K).
  { destruct polys as [|c0 rest]; [contradiction|]. apply Hcols. left. reflexivity. }
  unfold evaluate_polys_over. rewrite HN0, (colmatrix_ok_intro polys K Hne Hcols). cbn [negb]. rewrite Hhd.
  rewrite (get_evaluation_offsets_eq K b g offset Hg).
  set (offsets := concat (map (offs g offset (2 ^ S K) (2 ^ b)) (seq 0 (2 ^ b)))).
  unfold build_segments. rewrite HN0. fold m.
  destruct (nseg_bounds m HN Hm) as (Hns0 & Hnsw & Hnsi & _).
  set (nseg := if m mod N =? 0 then m / N else m / N + 1) in *.
  set (seg_of := fun i => match segment_new O N polys (i * N) offsets tw with Some sg => sg | None => [] end).
  assert (Hseg : forall i, i < nseg ->
            segment_new O N polys (i * N) offsets tw = Some (seg_of i) /\
            length (seg_of i) = D /\ wf_rows N (seg_of i) /\
            forall t r, t < N -> i * N + t < m -> r < D ->
              nth t (nth r (seg_of i) (fzero OR)) fz = peval (nth (i * N + t) polys []) (offset *f fpow g r)).
  { intros i Hi.
    destruct (segment_new_correct polys tw K b g offset (i * N) HN Hcols Hlt Hb Hgc Ht (Hnsi i Hi))
      as (sg & S1 & S2 & S3 & S4).
    fold offsets in S1. unfold seg_of. rewrite S1. auto. }
  rewrite (sequence_some _ seg_of).
  2:{ intros i Hi. apply in_seq in Hi. apply Hseg. lia. }
  set (segs := map seg_of (seq 0 nseg)).
  assert (Hsl : length segs = nseg) by (unfold segs; rewrite map_length, seq_length; reflexivity).
  unfold from_segments. rewrite HN0, Hsl.
  assert (E1 : (nseg =? 0) = false) by (apply Nat.eqb_neq; lia).
  assert (E2 : (nseg * N <? m) = false) by (apply Nat.ltb_ge; lia).
  rewrite E1, E2. eexists; split; [reflexivity|].
  destruct (transpose_nth segs D) as (TL & TW & TN).
  { intros E. rewrite E in Hsl. cbn in Hsl. lia. }
  { intros sg Hin. apply in_map_iff in Hin. destruct Hin as (i & <- & Hi). apply in_seq in Hi.
    destruct (Hseg i) as (_ & S2 & S3 & _); [lia | auto]. }
  rewrite Hsl in TL, TN.
  pose proof (concat_length_rows _ N TW) as DL. pose proof (concat_nth_rows fz _ N TW) as DN.
  rewrite TL in DL, DN.
  assert (Hrows : length (concat (transpose O N segs)) / (nseg * N) = D).
  { rewrite DL. replace (D * nseg * N) with (D * (nseg * N)) by lia. apply Nat.div_mul. nia. }
  unfold rm_num_rows. cbn [rm_data rm_row_width rm_elements_per_row].
  split; [exact Hrows|]. split; [reflexivity|].
  intros c r Hc Hr. unfold rm_get, rm_num_rows. cbn [rm_data rm_row_width rm_elements_per_row].
  rewrite Hrows.
  assert (E3 : (r <? D) = true) by (apply Nat.ltb_lt; exact Hr).
  assert (E4 : (c <? m) = true) by (apply Nat.ltb_lt; exact Hc).
  rewrite E3, E4. cbn [negb]. f_equal.
  (* column c is column c mod N of segment c / N *)
  destruct (idx_split c nseg N ltac:(lia)) as (Ec & Hsg & Hmod).
  set (sg := c / N) in *. set (t := c mod N) in *.
  replace (r * (nseg * N) + c) with ((r * nseg + sg) * N + t) by nia.
  rewrite DN; [| nia | exact Hmod].
  rewrite TN by assumption. unfold segs. rewrite nth_map_seq by exact Hsg.
  destruct (Hseg sg Hsg) as (_ & _ & _ & S4).
  rewrite S4; [| exact Hmod | lia | exact Hr]. rewrite <- Ec. reflexivity.
Qed.

End Segments.
