(* C17 — where the prover looks a value up by index instead of computing it: the periodic value table, the three
   prover-side representations of a boundary constraint, and the ce domain as every r-th point of the LDE domain.  Each
   lookup is shown to return the value at x_step = offset * w_ce^step.  Arbitrary field with FLaws, arbitrary sizes. *)
From Coq Require Import List Arith Bool Lia Ring Field ZArith.
From VBase Require Import FieldOps.
From VModel Require Import Composition.
From VProofs Require Import ListFacts Pow2Facts CompositionBase.
Import ListNotations.

Section Index.
Context {F : Type} (O : FOps F) (L : FLaws O).
Add Field Ff : (FLaws_field_theory O L).

Local Notation fz := (fzero O).
Local Notation f1 := (fone O).
Local Infix "+f" := (fadd O) (at level 50, left associativity).
Local Infix "-f" := (fsub O) (at level 50, left associativity).
Local Infix "*f" := (fmul O) (at level 40, left associativity).
Local Notation cpow := (cpow O).
Local Notation peval := (peval O).
Local Notation horner := (horner O).

Variable n ceb : nat.
Variable offset : F.
Variable rou : nat -> F.
Hypothesis n_pos : n <> 0.
Hypothesis ceb_pos : ceb <> 0.
Local Notation ce_size := (ce_size n ceb).
Local Notation wce := (wce n ceb rou).
(* all that is needed of w_ce here is w_ce^|ce| = 1, not that it is primitive *)
Hypothesis H_wce_order : cpow wce ce_size = f1.

Lemma ce_size_pos : ce_size <> 0.
Proof. unfold Composition.ce_size. nia. Qed.

Definition ce_x (step : nat) : F := cpow wce step *f offset.

Lemma ce_x_pow step a : cpow (ce_x step) a = cpow (cpow wce step) a *f cpow offset a.
Proof. apply (cpow_mul_base O L). Qed.

(* raising to the a-th power folds the ce domain onto its first |ce| / a points: why get_inv_evaluation tabulates
   1 / (x^a - b) over those only and acc_column reads the table at i % len *)
Lemma ce_x_pow_mod a m i : a * m = ce_size -> cpow (ce_x (i mod m)) a = cpow (ce_x i) a.
Proof.
  intros Hdiv. assert (Hm : m <> 0) by (pose proof ce_size_pos; nia).
  rewrite !ce_x_pow. f_equal. rewrite <- !(cpow_mul O L).
  rewrite (Nat.div_mod i m Hm) at 2.
  replace ((m * (i / m) + i mod m) * a) with (ce_size * (i / m) + i mod m * a) by (rewrite <- Hdiv; lia).
  rewrite (cpow_add O L), (cpow_mul O L wce ce_size), H_wce_order, (cpow_one O L). ring.
Qed.

Lemma get_ce_x_at_spec step : step < ce_size -> get_ce_x_at O n ceb offset rou step = Some (ce_x step).
Proof.
  intros H. unfold get_ce_x_at, ce_domain. now rewrite (power_series_nth O L) by assumption.
Qed.

Lemma get_ce_x_power_at_spec step power oe :
  get_ce_x_power_at O n ceb rou step power oe = Some (cpow (cpow wce step) power *f oe).
Proof.
  unfold get_ce_x_power_at, ce_domain.
  rewrite (power_series_nth O L) by (apply Nat.mod_upper_bound, ce_size_pos).
  rewrite (cpow_mod O L) by (apply ce_size_pos || exact H_wce_order). now rewrite (cpow_mul O L).
Qed.

Lemma eval_poly_with_offset_nth p off blowup i : i < length p * blowup ->
  nth_error (eval_poly_with_offset O rou p off blowup) i
  = Some (peval p (off *f cpow (rou (length p * blowup)) i)).
Proof.
  intros H. unfold eval_poly_with_offset. rewrite nth_error_map, (power_series_nth O L) by assumption.
  reflexivity.
Qed.

Lemma eval_poly_with_offset_length p off blowup :
  length (eval_poly_with_offset O rou p off blowup) = length p * blowup.
Proof. unfold eval_poly_with_offset. now rewrite map_length, (power_series_length O). Qed.

(* the left-hand side is the body of ptable_new's inner loop (`% 0` panics), so that mapM_some applies to it *)
Lemma eval_column_nth p off i : length p <> 0 ->
  match length (eval_poly_with_offset O rou p off ceb) with
  | 0 => None
  | _ => nth_error (eval_poly_with_offset O rou p off ceb) (i mod length (eval_poly_with_offset O rou p off ceb))
  end = Some (peval p (off *f cpow (rou (length p * ceb)) (i mod (length p * ceb)))).
Proof.
  intros Hp. rewrite eval_poly_with_offset_length.
  destruct (length p * ceb) eqn:E; [nia|]. rewrite <- E.
  apply eval_poly_with_offset_nth, Nat.mod_upper_bound. lia.
Qed.

Lemma pt_get_row_concat (rows : list (list F)) len w step : w <> 0 -> len <> 0 -> length rows = len ->
  (forall row, In row rows -> length row = w) ->
  pt_get_row (mkPT (concat rows) len w) step = Some (nth (step mod len) rows []).
Proof.
  intros Hw Hl Hlen Hrows. unfold pt_get_row. cbn [pt_width pt_length pt_values].
  apply Nat.eqb_neq in Hw. rewrite Hw.
  destruct len eqn:E; [congruence|]. rewrite <- E in *.
  assert (Hr : step mod len < len) by now apply Nat.mod_upper_bound.
  rewrite (concat_length_rows _ _ Hrows), Hlen.
  replace (step mod len * w + w <=? len * w) with true by (symmetry; apply Nat.leb_le; nia).
  now rewrite (concat_row _ _ _ Hrows) by lia.
Qed.

Section Periodic.
Variable ppolys : list (list F).
Local Notation max_size := (fold_left Nat.max (map (@length F) ppolys) 0).
(* Cycle lengths are powers of two between 2 and n (the three asserts of `Air::get_periodic_column_polys`), hence
   divide n and the longest cycle; rou_compat is what get_root_of_unity satisfies between two power-of-two sizes.
   No periodic column at all is the other branch of PeriodicValueTable::new (CompositionTable.ptable_spec). *)
Hypothesis polys_nonempty : ppolys <> [].
Hypothesis poly_len_pos : forall p, In p ppolys -> length p <> 0.
Hypothesis poly_len_div_n : forall p, In p ppolys -> length p * (n / length p) = n.
Hypothesis poly_len_div_max : forall p, In p ppolys -> exists q, max_size = length p * q.
Hypothesis rou_compat : forall p, In p ppolys -> rou (length p * ceb) = cpow wce (n / length p).

Lemma max_size_ge : forall p, In p ppolys -> length p <= max_size.
Proof.
  assert (G0 : forall l a, a <= fold_left Nat.max l a).
  { induction l; intros a0; simpl; [lia|]. etransitivity; [|apply IHl]. lia. }
  assert (G : forall l a x, In x l -> x <= fold_left Nat.max l a).
  { induction l; intros a0 x Hx; simpl in *; [tauto|]. destruct Hx as [->|Hx]; [|now apply IHl].
    etransitivity; [|apply G0]. lia. }
  intros p Hp. apply G. now apply in_map.
Qed.

Lemma max_size_pos : max_size <> 0.
Proof.
  assert (Hex : exists p, In p ppolys) by (destruct ppolys; [congruence | eexists; now left]).
  destruct Hex as [p Hp].
  pose proof (max_size_ge p Hp). pose proof (poly_len_pos p Hp). lia.
Qed.

Lemma rou_poly_order p : In p ppolys -> cpow (rou (length p * ceb)) (length p * ceb) = f1.
Proof.
  intros Hp. rewrite (rou_compat p Hp), <- (cpow_mul O L).
  replace (n / length p * (length p * ceb)) with (length p * (n / length p) * ceb) by lia.
  rewrite (poly_len_div_n p Hp). exact H_wce_order.
Qed.

(* column p is evaluated over offset^(n / len p) * <rou (len p * ceb)>, the image of the ce coset under
   x -> x^(n / len p) *)
Lemma periodic_entry p step : In p ppolys ->
  peval p (cpow offset (n / length p) *f cpow (rou (length p * ceb)) (step mod (length p * ceb)))
  = peval p (cpow (ce_x step) (n / length p)).
Proof.
  intros Hp. f_equal. pose proof (poly_len_pos p Hp).
  rewrite (cpow_mod O L) by (try nia; now apply rou_poly_order).
  unfold ce_x. rewrite (cpow_mul_base O L), (rou_compat p Hp), <- !(cpow_mul O L).
  rewrite (Nat.mul_comm step). ring.
Qed.

Definition periodic_spec_row (step : nat) : list F :=
  map (fun p => peval p (cpow (ce_x step) (n / length p))) ppolys.

(* the table exists (no panic) and get_row(step) is, for EVERY step, the list of the periodic columns' values
   p_k(x_step^(n / len p_k)) at x_step = offset * w_ce^step *)
Theorem periodic_row_spec :
  exists t, ptable_new O n ceb offset rou ppolys = Some t /\
            forall step, pt_get_row t step = Some (periodic_spec_row step).
Proof.
  set (rowf := fun i => map (fun p => peval p (cpow offset (n / length p) *f
                                       cpow (rou (length p * ceb)) (i mod (length p * ceb)))) ppolys).
  assert (Hmatch : forall (A : Type) (a b : A), match ppolys with [] => a | _ :: _ => b end = b)
    by (intros; destruct ppolys; [congruence | reflexivity]).
  unfold ptable_new. rewrite Hmatch.
  rewrite (mapM_some _ rowf).
  2:{ intros i _. rewrite mapM_map. apply mapM_some. intros p Hp. apply eval_column_nth. now apply poly_len_pos. }
  eexists; split; [reflexivity|]. intros step.
  pose proof max_size_pos as Hm.
  rewrite pt_get_row_concat.
  - f_equal. rewrite nth_map_seq by (apply Nat.mod_upper_bound; nia).
    unfold rowf, periodic_spec_row. apply map_ext_in. intros p Hp.
    destruct (poly_len_div_max p Hp) as [q Hq]. pose proof (poly_len_pos p Hp).
    replace (max_size * ceb) with (length p * ceb * q) by (rewrite Hq; lia).
    rewrite mod_mod_mul by nia.
    now apply periodic_entry.
  - destruct ppolys; [congruence | discriminate].
  - nia.
  - now rewrite map_length, seq_length.
  - intros row Hrow. apply in_map_iff in Hrow. destruct Hrow as [i [<- _]]. apply map_length.
Qed.
End Periodic.

Section Boundary.
Local Notation gtrace := (gtrace n rou).
(* w_ce^ceb is the trace domain generator, ginv its inverse (BoundaryConstraints::new: inv_g = g.inv()) *)
Hypothesis H_gtrace_compat : cpow wce ceb = gtrace.
Variable ginv : F.
Hypothesis ginv_spec : ginv *f gtrace = f1.

(* the value V(x) every representation must produce: BoundaryConstraint::evaluate_at's assertion value *)
Lemma bc_value_at_peval c x : length (bc_poly c) <> 0 ->
  bc_value_at O c x = peval (bc_poly c) (x *f bc_xoff c).
Proof.
  intros H. unfold bc_value_at. destruct (length (bc_poly c) =? 1) eqn:E.
  - apply Nat.eqb_eq in E. destruct (bc_poly c) as [|v [|? ?]]; simpl in E; try lia.
    simpl. ring.
  - apply horner_peval. exact L.
Qed.

Lemma wce_shift idx step first k : idx + first * ceb = step + k * ce_size ->
  cpow wce idx = cpow wce step *f cpow ginv first.
Proof.
  intros H.
  assert (E : cpow wce idx *f cpow wce (first * ceb) = cpow wce step).
  { rewrite <- (cpow_add O L), H, (cpow_add O L), (Nat.mul_comm k), (cpow_mul O L), H_wce_order, (cpow_one O L). ring. }
  rewrite (Nat.mul_comm first), (cpow_mul O L), H_gtrace_compat in E.
  rewrite <- E.
  assert (G : cpow gtrace first *f cpow ginv first = f1).
  { rewrite <- (cpow_mul_base O L). rewrite (fl_mul_comm O L), ginv_spec. apply (cpow_one O L). }
  transitivity (cpow wce idx *f (cpow gtrace first *f cpow ginv first)); [rewrite G; ring | ring].
Qed.

Variable c : @BC F.
Variable state : list F.
Variable s : F.
Hypothesis state_col : nth_error state (bc_col c) = Some s.           (* column index in range *)
Hypothesis poly_nonempty : length (bc_poly c) <> 0.
(* BoundaryConstraint::new: poly_offset = (first_step, inv_g^first_step), or (0, 1) when first_step = 0 or there is one
   value; Assertion: first_step < stride <= n *)
Hypothesis xoff_spec : bc_xoff c = cpow ginv (bc_first c).
Hypothesis first_lt : bc_first c < n.
(* the value polynomial's length divides the ce domain size (both are powers of two) *)
Hypothesis len_div : length (bc_poly c) * (ce_size / length (bc_poly c)) = ce_size.

Definition bc_spec (x : F) : option F := Some (bc_cc c *f bc_evaluate_at O c x s).

(* at every step of the constraint evaluation domain, the small-polynomial and the large-polynomial representation of
   ANY constraint (any number of values, below or above SMALL_POLY_DEGREE, any first step) and — when there is one
   value — the single-value representation all return cc * BoundaryConstraint::evaluate_at(x_step, state[col]) *)
Theorem boundary_repr_equiv : forall step, step < ce_size ->
  small_eval O (small_new c) state (ce_x step) = bc_spec (ce_x step)
  /\ large_eval O (large_new O n ceb offset rou c) state step = bc_spec (ce_x step)
  /\ (length (bc_poly c) = 1 -> single_eval O (single_new O c) state = bc_spec (ce_x step)).
Proof.
  intros step Hstep. unfold bc_spec, bc_evaluate_at. rewrite bc_value_at_peval by assumption.
  split; [|split].
  - unfold small_eval, small_new. cbn [pc_col pc_poly pc_xoff pc_cc]. rewrite state_col.
    now rewrite (horner_peval O L).
  - unfold large_eval, large_new, large_value_index. cbn [lc_col lc_values lc_step_offset lc_cc].
    rewrite state_col, eval_poly_with_offset_length, len_div.
    set (so := bc_first c * ceb).
    assert (Hso : so < ce_size) by (unfold so, Composition.ce_size; nia).
    set (idx := if 0 <? so then if step <? so then ce_size + step - so else step - so else step).
    assert (Hidx : idx < ce_size /\ exists k, idx + bc_first c * ceb = step + k * ce_size).
    { unfold idx. destruct (0 <? so) eqn:E0.
      - destruct (step <? so) eqn:E1.
        + apply Nat.ltb_lt in E1. split; [lia|]. exists 1. fold so. lia.
        + apply Nat.ltb_ge in E1. split; [lia|]. exists 0. fold so. lia.
      - apply Nat.ltb_ge in E0. split; [lia|]. exists 0. fold so. lia. }
    destruct Hidx as [Hlt [k Hk]].
    pose proof (eval_poly_with_offset_nth (bc_poly c) offset (ce_size / length (bc_poly c)) idx) as E.
    rewrite len_div in E. rewrite (E Hlt). f_equal. f_equal. f_equal. f_equal.
    fold wce. change (rou ce_size) with wce.
    rewrite (wce_shift idx step (bc_first c) k Hk), xoff_spec. unfold ce_x. ring.
  - intros H1. unfold single_eval, single_new. cbn [sc_col sc_value sc_cc]. rewrite state_col.
    destruct (bc_poly c) as [|v [|? ?]]; simpl in H1; try lia. simpl. f_equal. ring.
Qed.
End Boundary.

End Index.

(* The three domains of a proof (trace n, constraint evaluation n * ceb, LDE n * ldeb) and the root-of-unity relations
   of get_root_of_unity: w_lde generates the LDE domain, w_lde^r = w_ce, w_lde^ldeb = g. *)
Record CeSetting {F : Type} (O : FOps F) (n ceb ldeb r : nat) (rou : nat -> F) (wlde : F) : Prop := mkCeSetting {
  cs_n_pos : n <> 0;
  cs_ceb_pos : ceb <> 0;
  cs_r_pos : r <> 0;
  cs_ldeb_eq : ldeb = ceb * r;                               (* the ce blowup divides the LDE blowup *)
  cs_wlde_order : cpow O wlde (lde_size n ldeb) = fone O;
  cs_wlde_wce : cpow O wlde r = wce n ceb rou;
  cs_wlde_g : cpow O wlde ldeb = gtrace n rou
}.

(* Periodic columns as the prover's PeriodicValueTable can handle them: every cycle length divides the trace length and the
   longest cycle, and get_root_of_unity is compatible between the cycle's ce domain and the whole one. *)
Record PeriodicOk {F : Type} (O : FOps F) (n ceb : nat) (rou : nat -> F) (ppolys : list (list F)) : Prop := mkPeriodicOk {
  po_len_pos : forall p, In p ppolys -> length p <> 0;
  po_len_div_n : forall p, In p ppolys -> length p * (n / length p) = n;
  po_len_div_max : forall p, In p ppolys -> exists q, fold_left Nat.max (map (@length F) ppolys) 0 = length p * q;
  po_rou_compat : forall p, In p ppolys -> rou (length p * ceb) = cpow O (wce n ceb rou) (n / length p)
}.

Section Lde.
Context {F : Type} (O : FOps F) (L : FLaws O).
Add Ring Fr2 : (FLaws_ring_theory O L).
Local Infix "*f" := (fmul O) (at level 40, left associativity).
Local Notation cpow := (cpow O).
Context {n ceb ldeb r : nat} {rou : nat -> F} {wlde : F}.
Hypothesis S : CeSetting O n ceb ldeb r rou wlde.
Variable offset : F.
Local Notation ce_size := (ce_size n ceb).
Local Notation lde_size := (lde_size n ldeb).
Local Notation wce := (wce n ceb rou).
Local Notation gtrace := (gtrace n rou).

Lemma lde_size_eq : lde_size = ce_size * r.
Proof. unfold Composition.lde_size, Composition.ce_size. rewrite (cs_ldeb_eq _ _ _ _ _ _ _ S). lia. Qed.

Lemma lde_size_pos : lde_size <> 0.
Proof. destruct S. unfold Composition.lde_size. nia. Qed.

Lemma ce_to_lde_blowup_eq : ce_to_lde_blowup n ceb ldeb = r.
Proof.
  unfold ce_to_lde_blowup. rewrite lde_size_eq, Nat.mul_comm. destruct S. now apply Nat.div_mul, ce_size_pos.
Qed.

Lemma wce_order : cpow wce ce_size = fone O.
Proof.
  rewrite <- (cs_wlde_wce _ _ _ _ _ _ _ S), <- (cpow_mul O L).
  replace (r * ce_size) with lde_size by (rewrite lde_size_eq; lia). apply S.
Qed.

Lemma gtrace_compat : cpow wce ceb = gtrace.
Proof. destruct S as [_ _ _ -> _ <- <-]. rewrite <- (cpow_mul O L). f_equal. lia. Qed.

(* LDE row step * r holds x_step, and k * ldeb rows further (cyclically) g^k * x_step *)
Lemma ce_x_lde step : cpow wlde (step * r) *f offset = ce_x O n ceb offset rou step.
Proof. unfold ce_x. now rewrite (Nat.mul_comm step), (cpow_mul O L), (cs_wlde_wce _ _ _ _ _ _ _ S). Qed.

Lemma ce_x_lde_shift step k :
  cpow wlde ((step * r + ldeb * k) mod lde_size) *f offset = cpow gtrace k *f ce_x O n ceb offset rou step.
Proof.
  rewrite (cpow_mod O L) by (apply lde_size_pos || apply S).
  rewrite (cpow_add O L), (cpow_mul O L wlde ldeb), (cs_wlde_g _ _ _ _ _ _ _ S), <- ce_x_lde. ring.
Qed.

Lemma ce_x_lde_next step :
  cpow wlde ((step * r + ldeb) mod lde_size) *f offset = gtrace *f ce_x O n ceb offset rou step.
Proof.
  replace (step * r + ldeb) with (step * r + ldeb * 1) by lia.
  rewrite ce_x_lde_shift. cbn [Composition.cpow]. ring.
Qed.
End Lde.
