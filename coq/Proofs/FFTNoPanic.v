(* C09: no slice access of fft_in_place / permute / the entry points is out of range.  The CHECKED model
   (Model/FFT.v, Section Checked: every values[i], twiddles[i], swap(i,j), the division by stride and the
   debug_asserts are guards returning None) returns `Some` of the total model under the asserts of the entry
   points, for EVERY size; consequently the checked entry points equal the option-valued entry points on ALL
   inputs, whose panic domain is exactly the failure of their asserts.  No field law is used. *)
From Coq Require Import List Arith Bool ZArith Lia.
From VBase Require Import FieldOps.
From VModel Require Import FFT.
From VProofs Require Import ListFacts Pow2Facts FFTSpec FFTRefine FFTEval FFTSegments.
Import ListNotations.

Lemma fold_c_total {A B} (P : A -> Prop) (fc : A -> B -> option A) (f : A -> B -> A) : forall l a,
  (forall a b, In b l -> P a -> fc a b = Some (f a b) /\ P (f a b)) -> P a ->
  fold_c fc l a = Some (fold_left f l a) /\ P (fold_left f l a).
Proof.
  induction l as [|b l IH]; intros a H Ha; cbn [fold_c fold_left]; [auto|].
  destruct (H a b (or_introl eq_refl) Ha) as [E Pa]. rewrite E.
  apply IH; [intros; apply H; [right|]; assumption | exact Pa].
Qed.

(* values[i], values[j] with both indices in range *)
Lemma both_in_range {A} i j n (x : A) : i < n -> j < n -> (if (i <? n) && (j <? n) then Some x else None) = Some x.
Proof. intros Hi%Nat.ltb_lt Hj%Nat.ltb_lt. rewrite Hi, Hj. reflexivity. Qed.

Lemma is_pow2_inv n : is_pow2 n = true -> exists k, n = 2 ^ k.
Proof.
  unfold is_pow2. intros H. apply andb_prop in H. destruct H as [_ H]. apply Nat.eqb_eq in H.
  exists (Nat.log2 n). symmetry. exact H.
Qed.

Lemma is_pow2_S n : is_pow2 n = true -> Nat.log2 n <> 0 -> exists K, n = 2 ^ S K.
Proof.
  intros [k ->]%is_pow2_inv H. rewrite log2_pow2 in H.
  destruct k as [|K]; [contradiction | exists K; reflexivity].
Qed.

Section NoPanic.
Context {F : Type} (O : FOps F).
Variable dbg : bool.
Local Notation fz := (fzero O).

Lemma fft_in_place_c_eq fuel v tw count s offset :
  fft_in_place_c O dbg fuel v tw count s offset =
    if s =? 0 then None
    else
      let size := length v / s in
      if dbg && negb (is_pow2 size && (offset <? s) && (length v mod size =? 0)) then None
      else
        let values1 :=
          if 2 <? size then
            match fuel with
            | 0 => None
            | S f =>
              if (s =? count) && (count <? MAX_LOOP) then fft_in_place_c O dbg f v tw (2 * count) (2 * s) offset
              else obind (fft_in_place_c O dbg f v tw count (2 * s) offset)
                         (fun v' => fft_in_place_c O dbg f v' tw count (2 * s) (offset + s))
            end
          else Some v in
        obind values1 (fun v1 =>
        obind (fold_c (fun v o => butterfly_c O v o s) (seq offset count) v1) (fun v2 =>
        fold_c
          (fun v i =>
             fold_c (fun v j => match nth_error tw i with
                                | Some t => butterfly_twiddle_c O v t j s
                                | None => None
                                end)
                    (seq (offset + i * (2 * s)) count) v)
          (seq 1 ((size + 1) / 2 - 1)) v2)).
Proof. destruct fuel; reflexivity. Qed.

(* the two loops never leave the slice *)
Lemma phase2_no_panic tw K v1 count s offset :
  0 < s -> length v1 = 2 ^ S K * s -> offset + count <= s -> 2 ^ K <= length tw ->
  obind (fold_c (fun v o => butterfly_c O v o s) (seq offset count) v1) (fun v2 =>
    fold_c
      (fun v i =>
         fold_c (fun v j => match nth_error tw i with
                            | Some t => butterfly_twiddle_c O v t j s
                            | None => None
                            end)
                (seq (offset + i * (2 * s)) count) v)
      (seq 1 (2 ^ K - 1)) v2)
  = Some (fold_left
            (fun v i => fold_left (fun v j => butterfly_twiddle O v (vget O tw i) j s)
                                  (seq (offset + i * (2 * s)) count) v)
            (seq 1 (2 ^ K - 1))
            (fold_left (fun v o => butterfly O v o s) (seq offset count) v1)).
Proof.
  intros Hs Hl Hoc Htw.
  assert (H2s : 2 * s <= length v1) by (rewrite Hl, pow2_S; pose proof (pow2_pos K); nia).
  destruct (fold_c_total (fun a => length a = length v1) (fun v o => butterfly_c O v o s)
              (fun v o => butterfly O v o s) (seq offset count) v1) as [E1 L1]; [| reflexivity |].
  { intros a o Ho%in_seq Ha. split.
    - unfold butterfly_c. apply both_in_range; lia.
    - unfold butterfly. rewrite !lupd_length. exact Ha. }
  rewrite E1. cbn [obind].
  apply (fold_c_total (fun a => length a = length v1)); [| exact L1].
  intros a i Hi%in_seq Ha.
  rewrite (nth_error_nth' tw fz) by lia.
  assert (Hblk : (2 * s) * (i + 1) <= length v1).
  { rewrite Hl, pow2_S. replace ((2 ^ K + 2 ^ K) * s) with ((2 * s) * 2 ^ K) by lia.
    apply Nat.mul_le_mono_l. lia. }
  apply (fold_c_total (fun a => length a = length v1)); [| exact Ha].
  intros a' j Hj%in_seq Ha'. split.
  - unfold butterfly_twiddle_c. apply both_in_range; nia.
  - unfold butterfly_twiddle. rewrite !lupd_length. exact Ha'.
Qed.

Lemma debug_guard k s offset : offset < s ->
  dbg && negb (is_pow2 (2 ^ k) && (offset <? s) && ((2 ^ k * s) mod 2 ^ k =? 0)) = false.
Proof.
  intros Ho%Nat.ltb_lt.
  rewrite is_pow2_pow2, Ho, (Nat.mul_comm (2 ^ k) s), Nat.mod_mul by (pose proof (pow2_pos k); lia).
  apply andb_false_r.
Qed.

Lemma fft_in_place_length tw K fuel v count s offset :
  K <= fuel -> 0 < s -> length v = 2 ^ S K * s -> offset + count <= s ->
  length (fft_in_place O fuel v tw count s offset) = length v.
Proof. intros Hf Hs Hl Hoc. exact (proj1 (fft_in_place_spec O tw K fuel v count s offset Hf Hs Hl Hoc)). Qed.

(* C09_fft_in_place_no_panic: every values[i] / twiddles[i] of fft_in_place is in range, every size, both strategies *)
Theorem fft_in_place_no_panic tw : forall K fuel v count s offset,
  K <= fuel -> 0 < s -> length v = 2 ^ S K * s -> offset < s -> offset + count <= s -> 2 ^ K <= length tw ->
  fft_in_place_c O dbg fuel v tw count s offset = Some (fft_in_place O fuel v tw count s offset).
Proof.
  induction K as [|K IH]; intros fuel v count s offset Hf Hs Hl Ho Hoc Htw;
    rewrite fft_in_place_c_eq, (fft_in_place_eq O tw); cbv zeta;
    rewrite Hl, Nat.div_mul, half_pow2_up, (proj2 (Nat.eqb_neq s 0)), debug_guard by lia.
  - change (2 <? 2 ^ 1) with false. cbv iota. cbn [obind].
    apply (phase2_no_panic tw 0); assumption.
  - rewrite (proj2 (Nat.ltb_lt 2 (2 ^ S (S K)))) by (pose proof (pow2_pos K); cbn; lia).
    destruct fuel as [|f]; [lia|].
    assert (Hl2 : length v = 2 ^ S K * (2 * s)) by (rewrite Hl, (pow2_S (S K)); lia).
    assert (Htw' : 2 ^ K <= length tw) by (rewrite pow2_S in Htw; lia).
    destruct ((s =? count) && (count <? MAX_LOOP)) eqn:Estr.
    + apply andb_prop in Estr. destruct Estr as [Esc%Nat.eqb_eq _]. subst count.
      rewrite IH by lia. cbn [obind].
      apply (phase2_no_panic tw (S K)); try assumption.
      rewrite (fft_in_place_length tw K) by lia. exact Hl.
    + assert (La : length (fft_in_place O f v tw count (2 * s) offset) = length v)
        by (apply (fft_in_place_length tw K); lia).
      rewrite (IH f v count (2 * s) offset) by lia. cbn [obind].
      rewrite IH by (rewrite ?La; lia). cbn [obind].
      apply (phase2_no_panic tw (S K)); try assumption.
      rewrite (fft_in_place_length tw K), La by (rewrite ?La; lia). exact Hl.
Qed.

Lemma power_series_from_length : forall n st b, length (power_series_from O st b n) = n.
Proof. induction n; intros; cbn; [reflexivity | f_equal; apply IHn]. Qed.

(* the debug_asserts of permute_index *)
Lemma permute_index_no_panic n i : is_pow2 n = true -> i < n ->
  permute_index_c dbg n i = Some (permute_index n i).
Proof.
  intros Hp Hi%Nat.ltb_lt. unfold permute_index_c. rewrite Hp, Hi. cbn [andb negb].
  rewrite andb_false_r. reflexivity.
Qed.

(* permute: every swap(i, j) is in range (and the debug_asserts of permute_index hold) *)
Theorem permute_no_panic k v : length v = 2 ^ k -> permute_c O dbg v = Some (permute O v).
Proof.
  intros Hl. unfold permute_c, permute. rewrite Hl.
  apply (fold_c_total (fun a => length a = 2 ^ k)); [| exact Hl].
  intros a i Hi%in_seq Ha. cbv zeta.
  rewrite permute_index_no_panic, permute_index_spec by (apply is_pow2_pow2 || lia).
  pose proof (rev_bits_lt k i) as Hj.
  destruct (i <? rev_bits k i); [| auto].
  split; [unfold swap_c; apply both_in_range; lia | rewrite swap_length; exact Ha].
Qed.

Lemma permute_pow2_no_panic v : is_pow2 (length v) = true -> permute_c O dbg v = Some (permute O v).
Proof. intros [k Hk]%is_pow2_inv. exact (permute_no_panic k v Hk). Qed.

Lemma top_no_panic tw v : is_pow2 (length v) = true -> length v = length tw * 2 ->
  fft_in_place_top_c O dbg v tw = Some (fft_in_place_top O v tw) /\ length (fft_in_place_top O v tw) = length v.
Proof.
  intros [k Hk]%is_pow2_inv Hl. destruct k as [|K]; [cbn in Hk; lia|].
  assert (HK : K <= length v) by (rewrite Hk; pose proof (Nat.pow_gt_lin_r 2 (S K)); lia).
  assert (Htw : 2 ^ K <= length tw) by (rewrite pow2_S in Hk; lia).
  unfold fft_in_place_top_c, fft_in_place_top. split.
  - apply fft_in_place_no_panic with (K := K); lia.
  - apply (fft_in_place_length tw K); lia.
Qed.

Lemma top_shift_no_panic tw p a c : is_pow2 (length p) = true -> length p = length tw * 2 ->
  fft_in_place_top_c O dbg (shift_by_series O p a c) tw = Some (fft_in_place_top O (shift_by_series O p a c) tw) /\
  length (fft_in_place_top O (shift_by_series O p a c) tw) = length p.
Proof. rewrite <- (shift_by_series_length O p a c). apply top_no_panic. Qed.

Variable two_adicity : nat.
Variable root_of_unity : nat -> F.

(* ---------------------------------------------------------------- the checked entry points equal the entry points, ALL inputs *)
Theorem evaluate_poly_checked p tw : evaluate_poly_c O dbg two_adicity p tw = evaluate_poly O two_adicity p tw.
Proof.
  unfold evaluate_poly_c, evaluate_poly.
  apply guard_ext; intros E1%negb_false_iff. apply guard_ext; intros E2%negb_false_iff%Nat.eqb_eq.
  apply guard_ext; intros _.
  destruct (top_no_panic tw p E1 E2) as [T L]. rewrite T. cbn [obind].
  apply permute_pow2_no_panic. rewrite L. exact E1.
Qed.

Theorem interpolate_poly_checked v itw :
  interpolate_poly_c O dbg two_adicity v itw = interpolate_poly O two_adicity v itw.
Proof.
  unfold interpolate_poly_c, interpolate_poly.
  apply guard_ext; intros E1%negb_false_iff. apply guard_ext; intros E2%negb_false_iff%Nat.eqb_eq.
  apply guard_ext; intros _.
  destruct (top_no_panic itw v E1 E2) as [T L]. rewrite T. cbn [obind].
  apply permute_pow2_no_panic. unfold shift_by. rewrite map_length, L. exact E1.
Qed.

Theorem interpolate_poly_with_offset_checked v itw offset :
  interpolate_poly_with_offset_c O dbg two_adicity v itw offset = interpolate_poly_with_offset O two_adicity v itw offset.
Proof.
  unfold interpolate_poly_with_offset_c, interpolate_poly_with_offset.
  apply guard_ext; intros E1%negb_false_iff. apply guard_ext; intros E2%negb_false_iff%Nat.eqb_eq.
  apply guard_ext; intros _. apply guard_ext; intros _.
  destruct (top_no_panic itw v E1 E2) as [T L]. rewrite T. cbn [obind].
  rewrite permute_pow2_no_panic by (rewrite L; exact E1). reflexivity.
Qed.

Theorem evaluate_poly_with_offset_checked p tw offset blowup :
  evaluate_poly_with_offset_c O dbg two_adicity root_of_unity p tw offset blowup
    = evaluate_poly_with_offset O two_adicity root_of_unity p tw offset blowup.
Proof.
  unfold evaluate_poly_with_offset_c, evaluate_poly_with_offset.
  apply guard_ext; intros E1%negb_false_iff. apply guard_ext; intros Eb%negb_false_iff.
  apply guard_ext; intros E2%negb_false_iff%Nat.eqb_eq. apply guard_ext; intros _. apply guard_ext; intros _.
  set (g := root_of_unity (Nat.log2 (length p * blowup))).
  set (ch := fun i => fft_in_place_top O
               (shift_by_series O p (fone O) (fmul O (fpow_N O g (N.of_nat (permute_index blowup i))) offset)) tw).
  rewrite (sequence_some _ ch).
  2:{ intros i Hi%in_seq. rewrite permute_index_no_panic by (exact Eb || lia). cbn [obind].
      apply top_shift_no_panic; assumption. }
  cbn [obind].
  assert (CL : length (concat (map ch (seq 0 blowup))) = length (map ch (seq 0 blowup)) * length p).
  { apply concat_length_rows. intros l (i & <- & _)%in_map_iff. apply top_shift_no_panic; assumption. }
  apply is_pow2_inv in E1, Eb. destruct E1 as [k Hk]. destruct Eb as [b Hb].
  apply (permute_no_panic (b + k)). rewrite CL, map_length, seq_length, Hk, Hb, Nat.pow_add_r. reflexivity.
Qed.

Theorem get_twiddles_checked r n : get_twiddles_c O dbg two_adicity r n = get_twiddles O two_adicity r n.
Proof.
  unfold get_twiddles_c, get_twiddles.
  apply guard_ext; intros E1%negb_false_iff. apply guard_ext; intros _. apply guard_ext; intros E3%Nat.eqb_neq.
  destruct (is_pow2_S n E1 E3) as [K ->]. rewrite half_pow2.
  apply (permute_no_panic K). apply power_series_from_length.
Qed.

(* get_inv_twiddles(n) is get_twiddles(n) for the roots k |-> root_of_unity(k)^(n-1) *)
Lemma get_inv_twiddles_eq r n :
  get_inv_twiddles O two_adicity r n = get_twiddles O two_adicity (fun k => fpow_N O (r k) (N.of_nat (n - 1))) n.
Proof. reflexivity. Qed.

Theorem get_inv_twiddles_checked r n :
  get_inv_twiddles_c O dbg two_adicity r n = get_inv_twiddles O two_adicity r n.
Proof. exact (get_twiddles_checked (fun k => fpow_N O (r k) (N.of_nat (n - 1))) n). Qed.

Theorem infer_degree_checked v offset :
  infer_degree_c O dbg two_adicity root_of_unity v offset = infer_degree O two_adicity root_of_unity v offset.
Proof.
  unfold infer_degree_c, infer_degree.
  do 3 (apply guard_ext; intros _).
  rewrite get_inv_twiddles_checked.
  destruct (get_inv_twiddles O two_adicity root_of_unity (length v)) as [itw|]; cbn [obind]; [|reflexivity].
  rewrite interpolate_poly_with_offset_checked.
  destruct (interpolate_poly_with_offset O two_adicity v itw offset); reflexivity.
Qed.

(* ---------------------------------------------------------------- exact panic domains of the entry points *)
Theorem evaluate_poly_total_iff p tw :
  evaluate_poly O two_adicity p tw <> None <->
  is_pow2 (length p) = true /\ length p = length tw * 2 /\ Nat.log2 (length p) <= two_adicity.
Proof.
  unfold evaluate_poly. rewrite !guard_total, !negb_false_iff, Nat.eqb_eq, Nat.ltb_ge. easy.
Qed.

Theorem interpolate_poly_total_iff v itw :
  interpolate_poly O two_adicity v itw <> None <->
  is_pow2 (length v) = true /\ length v = length itw * 2 /\ Nat.log2 (length v) <= two_adicity.
Proof.
  unfold interpolate_poly. rewrite !guard_total, !negb_false_iff, Nat.eqb_eq, Nat.ltb_ge. easy.
Qed.

Theorem evaluate_poly_with_offset_total_iff p tw offset blowup :
  evaluate_poly_with_offset O two_adicity root_of_unity p tw offset blowup <> None <->
  is_pow2 (length p) = true /\ is_pow2 blowup = true /\ length p = length tw * 2 /\
  Nat.log2 (length p * blowup) <= two_adicity /\ feqb O offset fz = false.
Proof.
  unfold evaluate_poly_with_offset. rewrite !guard_total, !negb_false_iff, Nat.eqb_eq, Nat.ltb_ge. easy.
Qed.

Theorem interpolate_poly_with_offset_total_iff v itw offset :
  interpolate_poly_with_offset O two_adicity v itw offset <> None <->
  is_pow2 (length v) = true /\ length v = length itw * 2 /\ Nat.log2 (length v) <= two_adicity /\
  feqb O offset fz = false.
Proof.
  unfold interpolate_poly_with_offset. rewrite !guard_total, !negb_false_iff, Nat.eqb_eq, Nat.ltb_ge. easy.
Qed.

Theorem get_twiddles_total_iff r n :
  get_twiddles O two_adicity r n <> None <->
  is_pow2 n = true /\ Nat.log2 n <= two_adicity /\ Nat.log2 n <> 0.
Proof.
  unfold get_twiddles. rewrite !guard_total, negb_false_iff, Nat.ltb_ge, Nat.eqb_neq. easy.
Qed.

Lemma get_twiddles_length r n tw : get_twiddles O two_adicity r n = Some tw -> n = length tw * 2.
Proof.
  intros H. destruct (proj1 (get_twiddles_total_iff r n)) as (E1 & _ & E3); [rewrite H; discriminate|].
  destruct (is_pow2_S n E1 E3) as [K ->]. unfold get_twiddles in H. do 3 apply guard_some in H.
  rewrite half_pow2 in H. set (ps := get_power_series O _ _) in H.
  assert (Lp : length (permute O ps) = 2 ^ K) by (apply (permute_spec O K), power_series_from_length).
  injection H as <-. rewrite Lp, pow2_S. lia.
Qed.

Theorem infer_degree_total_iff v offset :
  infer_degree O two_adicity root_of_unity v offset <> None <->
  is_pow2 (length v) = true /\ Nat.log2 (length v) <= two_adicity /\ Nat.log2 (length v) <> 0 /\
  feqb O offset fz = false.
Proof.
  unfold infer_degree. rewrite !guard_total, negb_false_iff, Nat.ltb_ge, get_inv_twiddles_eq.
  set (r := fun k => fpow_N O (root_of_unity k) _).
  pose proof (get_twiddles_total_iff r (length v)) as Ht. pose proof (get_twiddles_length r (length v)) as Hl.
  destruct (get_twiddles O two_adicity r (length v)) as [itw|]; [| intuition congruence].
  (* the remaining assert of interpolate_poly_with_offset, on the number of twiddles, holds by Hl *)
  specialize (Hl itw eq_refl). pose proof (interpolate_poly_with_offset_total_iff v itw offset) as Hi.
  destruct (interpolate_poly_with_offset O two_adicity v itw offset); intuition congruence.
Qed.

End NoPanic.
