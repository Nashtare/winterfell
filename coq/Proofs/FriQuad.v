(* C15 — end-to-end completeness over the quadratic extension fields: the FRI domain lives in the base field and is
   embedded (E::from); the root-of-unity family facts and offset <> 0 are transported through the embedding, which is
   an injective ring homomorphism (C08: ExtModel.q_embed_hom), instead of being recomputed. *)
From Coq Require Import List ZArith Lia.
From VBase Require Import FieldOps ZpOps.
From VModel Require Import ExtField Merkle Fri FriMerkle.
From VProofs Require Import ZpLaws ExtModel ExtConcrete FriMerkleInst FriFields.
Import ListNotations.
Local Open Scope nat_scope.

Section Quad.
Context {F : Type} (O : FOps F) (L : FLaws O) (I : Ext2Impl F) (c : F) (IC : Ext2Correct O I c).
Variable rou : nat -> F.
Variable K : nat.
Hypothesis rou_sq : forall k, k < K -> fmul O (rou (S k)) (rou (S k)) = rou k.
Hypothesis rou_1 : rou 1 = fneg O (fone O).
Hypothesis two_nz : fadd O (fone O) (fone O) <> fzero O.
Variable gen : F.
Hypothesis gen_nz : gen <> fzero O.

Local Notation Q := (q_ops O I).
Local Notation emb := (q_from_base O).

Lemma emb_rou_sq : forall k, k < K -> fmul Q (emb (rou (S k))) (emb (rou (S k))) = emb (rou k).
Proof.
  intros k Hk. destruct (q_embed_hom O L I c IC) as [_ [_ [_ [_ [_ [Hm _]]]]]].
  cbn [q_ops fmul]. rewrite <- Hm. f_equal. now apply rou_sq.
Qed.

Lemma emb_rou_1 : emb (rou 1) = fneg Q (fone Q).
Proof.
  destruct (q_embed_hom O L I c IC) as [_ [H1 [_ [_ [Hn _]]]]].
  cbn [q_ops fneg fone]. rewrite rou_1, Hn, H1. reflexivity.
Qed.

Lemma emb_two_nz : fadd Q (fone Q) (fone Q) <> fzero Q.
Proof.
  destruct (q_embed_hom O L I c IC) as [H0 [H1 [Ha [_ [_ [_ Hinj]]]]]].
  cbn [q_ops fadd fone fzero]. rewrite <- H1, <- Ha, <- H0. intros H. apply Hinj in H. contradiction.
Qed.

Lemma emb_gen_nz : emb gen <> fzero Q.
Proof.
  destruct (q_embed_hom O L I c IC) as [H0 [_ [_ [_ [_ [_ Hinj]]]]]].
  cbn [q_ops fzero]. rewrite <- H0. intros H. apply Hinj in H. contradiction.
Qed.
End Quad.

Section Fields.
Variable dbg : bool.
Variable D : Type.
Variable D_eqb : D -> D -> bool.
Hypothesis D_eqb_spec : forall a b, D_eqb a b = true <-> a = b.
Variable d0 : D.
Variable merge : D -> D -> D.
Variable CS : Type.
Variable cs_reseed : CS -> D -> CS.

Definition Q64 : FOps (Zp P64 * Zp P64) := q_ops F64_ops (f64_x2 F64_ops).
Definition Q128 : FOps (Zp P128 * Zp P128) := q_ops F128_ops (f128_x2 F128_ops).
Definition rouQ64 (k : nat) := q_from_base F64_ops (rouF64 k).
Definition rouQ128 (k : nat) := q_from_base F128_ops (rouF128 k).
Definition genQ64 := q_from_base F64_ops genF64.
Definition genQ128 := q_from_base F128_ops genF128.

Definition fri_complete_f64_quad (hash_elements : list (Zp P64 * Zp P64) -> D) (cs_draw : CS -> CS * draw_res (Zp P64 * Zp P64))
  (draw_total : forall c, exists c' a, cs_draw c = (c', DrawOk a)) :=
  fri_complete_merkle D D_eqb D_eqb_spec d0 merge Q64 f64_quad_laws rouQ64 32 ltac:(lia)
    (emb_rou_sq F64_ops F64_laws _ _ (f64_x2_correct F64_ops F64_laws) rouF64 32 rouF64_sq)
    (emb_rou_1 F64_ops F64_laws _ _ (f64_x2_correct F64_ops F64_laws) rouF64 rouF64_1)
    (emb_two_nz F64_ops F64_laws _ _ (f64_x2_correct F64_ops F64_laws) twoF64)
    genQ64 (emb_gen_nz F64_ops F64_laws _ _ (f64_x2_correct F64_ops F64_laws) genF64 genF64_nz)
    dbg hash_elements CS cs_reseed cs_draw draw_total.

Definition fri_complete_f128_quad (hash_elements : list (Zp P128 * Zp P128) -> D) (cs_draw : CS -> CS * draw_res (Zp P128 * Zp P128))
  (draw_total : forall c, exists c' a, cs_draw c = (c', DrawOk a)) :=
  fri_complete_merkle D D_eqb D_eqb_spec d0 merge Q128 f128_quad_laws rouQ128 40 ltac:(lia)
    (emb_rou_sq F128_ops F128_laws _ _ (f128_x2_correct F128_ops F128_laws) rouF128 40 rouF128_sq)
    (emb_rou_1 F128_ops F128_laws _ _ (f128_x2_correct F128_ops F128_laws) rouF128 rouF128_1)
    (emb_two_nz F128_ops F128_laws _ _ (f128_x2_correct F128_ops F128_laws) twoF128)
    genQ128 (emb_gen_nz F128_ops F128_laws _ _ (f128_x2_correct F128_ops F128_laws) genF128 genF128_nz)
    dbg hash_elements CS cs_reseed cs_draw draw_total.
End Fields.
