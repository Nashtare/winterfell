(* The value polynomial of a boundary constraint (BoundaryConstraint::new / evaluate_at in Model/Enforce.v) reproduces
   the asserted values at the named steps: the inverse DFT of the values interpolates them over the subgroup generated
   by g^stride, and the offset g^-first moves the named steps onto that subgroup. *)
From Coq Require Import ZArith List Bool Lia Ring Field Arith.
From VBase Require Import MachInt FieldOps.
From VModel Require Import Enforce.
From VProofs Require FriField.
From VProofs Require Import FieldFacts EnforceSteps EnforceField.
Import ListNotations.
Open Scope Z_scope.

Section Dft.
  Context {F : Type} (Fo : FOps F) (L : FLaws Fo).
  Add Field Ffield4 : (FLaws_field_theory Fo L).
  Notation pn := (pown Fo).
  Notation "0" := (fzero Fo) : F_scope.
  Notation "1" := (fone Fo) : F_scope.
  Infix "+" := (fadd Fo) : F_scope.
  Infix "*" := (fmul Fo) : F_scope.
  Infix "-" := (fsub Fo) : F_scope.
  Local Open Scope F_scope.

  Fixpoint fsum (f : nat -> F) (m : nat) : F :=
    match m with Datatypes.O => 0 | S m' => fsum f m' + f m' end.

  (* `fsum` and `pown` are convertible with `FriField.fsum` and `Fri.fpow`: the laws of finite and geometric sums are
     proved there, and restated on this file's constants because `rewrite` matches the head constant syntactically *)
  Lemma fsum_ext f h m : (forall i, (i < m)%nat -> f i = h i) -> fsum f m = fsum h m.
  Proof. intros H. eapply FriField.fsum_ext; eassumption. Qed.

  Lemma fsum_scale c f m : fsum (fun i => c * f i) m = c * fsum f m.
  Proof. exact (FriField.fsum_scale Fo L c f m). Qed.

  Lemma fsum_zero m : fsum (fun _ => 0) m = 0.
  Proof. exact (FriField.fsum_zero Fo L m). Qed.

  Lemma fsum_swap (f : nat -> nat -> F) a b :
    fsum (fun i => fsum (fun k => f i k) b) a = fsum (fun k => fsum (fun i => f i k) a) b.
  Proof. exact (FriField.fsum_swap Fo L f a b). Qed.

  Lemma geom_zero r m : pn r m = 1 -> r <> 1 -> fsum (pn r) m = 0.
  Proof. exact (FriField.geom_sum_zero Fo L r m). Qed.

  Lemma fsum_delta (f : nat -> F) j m : (j < m)%nat -> (forall i, (i < m)%nat -> i <> j -> f i = 0) ->
    fsum f m = f j.
  Proof.
    induction m; intros Hj H; [lia|]. cbn [fsum].
    destruct (Nat.eq_dec j m) as [->|Hne].
    - rewrite (fsum_ext f (fun _ => 0)) by (intros; apply H; lia). rewrite fsum_zero. ring.
    - rewrite IHm by (try lia; intros; apply H; lia). rewrite (H m) by lia. ring.
  Qed.

  Lemma poly_eval_sum p y : poly_eval Fo p y = fsum (fun k => nth k p 0 * pn y k) (length p).
  Proof.
    transitivity (Fri.peval Fo p y); [|exact (FriField.peval_fsum Fo L p y)].
    induction p as [|c r IH]; [reflexivity|].
    change (poly_eval Fo (c :: r) y) with (c + poly_eval Fo r y * y). rewrite IH. cbn [Fri.peval]. ring.
  Qed.

  Fixpoint fnat (k : nat) : F := match k with Datatypes.O => 0 | S k' => fnat k' + 1 end.

  Lemma geom_one m : fsum (pn 1) m = fnat m.
  Proof. induction m; cbn [fsum fnat]; [reflexivity|]. rewrite IHm, (pown_1_l Fo L). reflexivity. Qed.

  Lemma fnat_mul a b : fnat (a * b) = fnat a * fnat b.
  Proof.
    induction a; cbn [fnat Nat.mul]; [ring|].
    assert (A : forall x y, fnat (x + y) = fnat x + fnat y).
    { intros x y. induction x; cbn [fnat Nat.add]; [ring|rewrite IHx; ring]. }
    rewrite A, IHa. ring.
  Qed.

  Lemma fnat_pow2_neq_0 k : 1 + 1 <> 0 -> fnat (2 ^ k) <> 0.
  Proof.
    intros H2. induction k; [cbn; intros E; apply (fl_one_neq_zero Fo L); rewrite <- E; ring|].
    rewrite Nat.pow_succ_r', fnat_mul. apply (fmul_nonzero Fo L); [|exact IHk].
    cbn [fnat]. intros E. apply H2. rewrite <- E. ring.
  Qed.

  (* w of exact order m, winv its inverse: the inverse DFT of vals interpolates vals over <w>.  After exchanging the two
     sums the inner one is geometric in winv^i * w^j: it is m for i = j and 0 otherwise *)
  Variables (w winv minv : F) (m : nat).
  Hypothesis Hm0 : (0 < m)%nat.
  Hypothesis Hwm : pn w m = 1.
  Hypothesis Hword : forall i, (0 < i < m)%nat -> pn w i <> 1.
  Hypothesis Hwinv : w * winv = 1.
  Hypothesis Hminv : minv * fnat m = 1.

  Lemma winv_pow i : pn w i * pn winv i = 1.
  Proof. rewrite <- (pown_mul_base Fo L), Hwinv. apply (pown_1_l Fo L). Qed.

  Lemma ratio_pow_m i j : pn (pn winv i * pn w j) m = 1.
  Proof.
    rewrite (pown_mul_base Fo L), <- !(pown_mul Fo L), (Nat.mul_comm i m), (Nat.mul_comm j m), !(pown_mul Fo L).
    rewrite Hwm, (pown_1_l Fo L).
    assert (E : pn winv m = 1).
    { pose proof (winv_pow m) as W. rewrite Hwm in W. rewrite <- W. ring. }
    rewrite E, (pown_1_l Fo L). ring.
  Qed.

  Lemma ratio_eq_1 i j : (i < m)%nat -> (j < m)%nat -> pn winv i * pn w j = 1 -> i = j.
  Proof.
    intros Hi Hj E. apply (pown_g_inj Fo L w m Hm0 Hwm Hword); try assumption.
    transitivity (pn w i * (pn winv i * pn w j)); [rewrite E; ring|].
    transitivity ((pn w i * pn winv i) * pn w j); [ring|]. rewrite winv_pow. ring.
  Qed.

  Theorem idft_interpolates (vals : list F) j : length vals = m -> (j < m)%nat ->
    fsum (fun k => (minv * fsum (fun i => nth i vals 0 * pn (pn winv k) i) m) * pn (pn w j) k) m = nth j vals 0.
  Proof.
    intros Hlen Hj.
    rewrite (fsum_ext _ (fun k => minv * fsum (fun i => nth i vals 0 * pn (pn winv i * pn w j) k) m)).
    2:{ intros k _. rewrite <- (fl_mul_assoc Fo L), (fl_mul_comm Fo L _ (pn (pn w j) k)), <- fsum_scale.
        f_equal. apply fsum_ext. intros i _.
        rewrite (pown_mul_base Fo L), <- !(pown_mul Fo L), (Nat.mul_comm k i), (Nat.mul_comm j k). ring. }
    rewrite fsum_scale, fsum_swap.
    rewrite (fsum_ext _ (fun i => nth i vals 0 * fsum (pn (pn winv i * pn w j)) m))
      by (intros i _; apply fsum_scale).
    rewrite (fsum_delta _ j m Hj).
    - replace (pn winv j * pn w j) with 1 by (rewrite (fl_mul_comm Fo L), winv_pow; reflexivity).
      rewrite geom_one. transitivity (nth j vals 0 * (minv * fnat m)); [ring|]. rewrite Hminv. ring.
    - intros i Hi Hne. rewrite geom_zero; [ring|apply ratio_pow_m|].
      intros E. apply Hne. apply (ratio_eq_1 i j Hi Hj E).
  Qed.
End Dft.

Section Values.
  Context {F : Type} (Fo : FOps F) (L : FLaws Fo).
  Variables (g inv_g : F) (n : Z).
  Hypothesis Hpow2 : exists k, 0 <= k /\ n = 2 ^ k.
  Hypothesis Hgn : fpow Fo g n = fone Fo.
  Hypothesis Hord : forall i, 0 < i < n -> fpow Fo g i <> fone Fo.
  Hypothesis Hinv : fmul Fo g inv_g = fone Fo.        (* inv_g = context.trace_domain_generator.inv() *)

  Add Field Ffield3 : (FLaws_field_theory Fo L).
  Notation pw := (fpow Fo).
  Notation pn := (pown Fo).

  Lemma g_inv_pow a : fmul Fo (pw g a) (pw inv_g a) = fone Fo.
  Proof. rewrite <- (pw_mul_base Fo L), Hinv. apply (pw_one_l Fo L). Qed.

  (* single and periodic assertions: the value polynomial is the constant *)
  Theorem constant_value_spec a v x tv :
    bc_evaluate_at Fo (bc_new Fo a [v] inv_g) x tv = fsub Fo tv v.
  Proof. reflexivity. Qed.

  Lemma bc_evaluate_long c x tv : (2 <= length (bc_poly c))%nat ->
    bc_evaluate_at Fo c x tv = fsub Fo tv (poly_eval Fo (bc_poly c) (fmul Fo x (bc_off c))).
  Proof.
    unfold bc_evaluate_at. destruct (bc_poly c) as [|a [|b r]]; cbn [length]; intros; try lia; reflexivity.
  Qed.

  Lemma idft_length winv minv vals : length (idft Fo winv minv vals) = length vals.
  Proof. unfold idft. rewrite map_length, zrange_length. lia. Qed.

  (* sequence assertions: value j is reproduced at the j-th named step, GIVEN that the coefficient list
     computed by the model's inverse DFT interpolates the values over the subgroup generated by w = g^stride *)
  Theorem assertion_value_spec_partial a vals j tv :
    valid a n -> is_sequence a = true -> Z.of_nat (length vals) = a_nvals a -> 0 <= j < a_nvals a ->
    (forall i, 0 <= i < a_nvals a ->
       poly_eval Fo (idft Fo (pw inv_g (a_stride a)) (finv Fo (fofz Fo (a_nvals a))) vals) (pw (pw g (a_stride a)) i)
       = nth (Z.to_nat i) vals (fzero Fo)) ->
    In (a_first a + j * a_stride a) (steps a n) /\
    bc_evaluate_at Fo (bc_new Fo a vals inv_g) (pw g (a_first a + j * a_stride a)) tv
    = fsub Fo tv (nth (Z.to_nat j) vals (fzero Fo)).
  Proof.
    intros Hv Hseq Hlen Hj Hint.
    destruct (valid_sequence a n Hv Hseq) as (S & Pe & _ & Lm & _ & Ls & Hf).
    split.
    { apply (steps_spec a n _ Hv). unfold names. rewrite S, Pe. exists j. split; [lia|ring]. }
    assert (Hp : bc_poly (bc_new Fo a vals inv_g)
                 = idft Fo (pw inv_g (a_stride a)) (finv Fo (fofz Fo (a_nvals a))) vals).
    { unfold bc_new. cbn [bc_poly]. rewrite Hlen.
      replace (1 <? a_nvals a) with true by (symmetry; apply Z.ltb_lt; lia). reflexivity. }
    rewrite bc_evaluate_long by (rewrite Hp, idft_length; lia).
    rewrite Hp. unfold bc_new at 1. cbn [bc_off]. rewrite Hlen. f_equal.
    assert (Hx : fmul Fo (pw g (a_first a + j * a_stride a)) (snd (bc_poly_offset Fo a (a_nvals a) inv_g))
                 = pw (pw g (a_stride a)) j).
    { rewrite (pw_add Fo L) by nia. rewrite (Z.mul_comm j), <- (pw_pw Fo L g (a_stride a) j) by lia.
      unfold bc_poly_offset. replace (1 <? a_nvals a) with true by (symmetry; apply Z.ltb_lt; lia). cbn [andb].
      destruct (Z.eqb_spec (a_first a) 0) as [E0|E0]; cbn [negb snd].
      - rewrite E0. cbn [fpow]. ring.
      - pose proof (g_inv_pow (a_first a)) as Hgi.
        transitivity (fmul Fo (fmul Fo (pw g (a_first a)) (pw inv_g (a_first a))) (pw (pw g (a_stride a)) j)); [ring|].
        rewrite Hgi. ring. }
    rewrite Hx. apply Hint. exact Hj.
  Qed.

  (* fofz (here `(evaluations.len() as u32).into()` of fft::interpolate_poly) is the canonical image of the naturals:
     not one of the FLaws *)
  Hypothesis Hofz : forall k : nat, fofz Fo (Z.of_nat k) = fnat Fo k.

  Lemma nth_map_zrange_nat (h : Z -> F) hi k d : (k < Z.to_nat hi)%nat ->
    nth k (map h (zrange 0 hi)) d = h (Z.of_nat k).
  Proof. intros Hk. rewrite <- (Nat2Z.id k) at 1. apply nth_map_zrange. lia. Qed.

  Lemma two_neq_0 : 4 <= n -> fadd Fo (fone Fo) (fone Fo) <> fzero Fo.
  Proof.
    intros Hn4 H2. destruct Hpow2 as (k & Hk & En).
    assert (Hk1 : 1 <= k).
    { destruct (Z.eq_dec k 0) as [->|]; [cbn in En; lia|lia]. }
    assert (Eh : n = 2 ^ (k - 1) + 2 ^ (k - 1)).
    { rewrite En. replace k with (1 + (k - 1)) at 1 by lia. rewrite Z.pow_add_r by lia. lia. }
    assert (Hp : 0 < 2 ^ (k - 1)) by (apply Z.pow_pos_nonneg; lia).
    set (h := pw g (2 ^ (k - 1))).
    assert (Hh1 : h <> fone Fo) by (apply Hord; lia).
    assert (Hhh : fmul Fo h h = fone Fo).
    { unfold h. rewrite <- (pw_add Fo L), <- Eh by lia. exact Hgn. }
    pose proof (sq_eq_1 Fo L h Hhh Hh1) as Hm1.
    apply Hh1. rewrite Hm1.
    transitivity (fadd Fo (fneg Fo (fone Fo)) (fadd Fo (fone Fo) (fone Fo))); [rewrite H2; ring|ring].
  Qed.

  Theorem assertion_value_spec a vals j tv :
    valid a n -> is_sequence a = true -> Z.of_nat (length vals) = a_nvals a -> 0 <= j < a_nvals a ->
    In (a_first a + j * a_stride a) (steps a n) /\
    bc_evaluate_at Fo (bc_new Fo a vals inv_g) (pw g (a_first a + j * a_stride a)) tv
    = fsub Fo tv (nth (Z.to_nat j) vals (fzero Fo)).
  Proof.
    intros Hv Hseq Hlen Hj. apply assertion_value_spec_partial; try assumption.
    destruct (valid_sequence a n Hv Hseq) as (_ & _ & Pv & Lm & En & Ls & _).
    intros i Hi.
    set (M := length vals). assert (HM : Z.of_nat M = a_nvals a) by exact Hlen.
    set (w := pw g (a_stride a)). set (winv := pw inv_g (a_stride a)).
    set (minv := finv Fo (fofz Fo (a_nvals a))).
    assert (Hwm : pn w M = fone Fo).
    { unfold w. rewrite <- (fpow_of_nat Fo L), (pw_pw Fo L) by lia. rewrite HM, Z.mul_comm, <- En. exact Hgn. }
    assert (Hword : forall q, (0 < q < M)%nat -> pn w q <> fone Fo).
    { intros q Hq. unfold w. rewrite <- (fpow_of_nat Fo L), (pw_pw Fo L) by lia. apply Hord. nia. }
    assert (Hwinv : fmul Fo w winv = fone Fo) by apply g_inv_pow.
    assert (Hminv : fmul Fo minv (fnat Fo M) = fone Fo).
    { unfold minv. rewrite <- HM, Hofz. apply (fl_inv_l Fo L).
      destruct Pv as (e & He & Ee).
      assert (EM : M = (2 ^ Z.to_nat e)%nat).
      { apply Nat2Z.inj. rewrite HM, Ee. rewrite Nat2Z.inj_pow, Z2Nat.id by lia. reflexivity. }
      rewrite EM. apply (fnat_pow2_neq_0 Fo L). apply two_neq_0. nia. }
    rewrite (poly_eval_sum Fo L), idft_length. fold M.
    rewrite (fsum_ext Fo _ (fun k => fmul Fo (fmul Fo minv (fsum Fo (fun q => fmul Fo (nth q vals (fzero Fo)) (pn (pn winv k) q)) M))
                                          (pn (pn w (Z.to_nat i)) k))).
    - apply (idft_interpolates Fo L w winv minv M); try assumption; try reflexivity; lia.
    - intros k Hk. unfold idft. fold M. rewrite nth_map_zrange_nat by lia.
      rewrite (poly_eval_sum Fo L). fold M. fold winv. fold minv. rewrite (fpow_of_nat Fo L).
      f_equal. unfold w. rewrite (fpow_spec Fo L (pw g (a_stride a)) i). reflexivity.
  Qed.
End Values.
