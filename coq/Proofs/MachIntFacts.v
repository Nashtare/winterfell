(* Facts about Z (mod, div, parity, congruences, low bits) and about the n-bit unsigned operations of Base/MachInt.v
   that the field, codec and Merkle proofs share. *)
From Coq Require Import Zpow_facts.
From VBase Require Import MachInt.
Open Scope Z_scope.

Lemma mod_eq a b q r : 0 <= r < b -> a = q * b + r -> a mod b = r.
Proof. intros H ->. rewrite Z.add_comm, Z.mod_add by lia. apply Z.mod_small; lia. Qed.
Lemma div_eq a b q r : 0 <= r < b -> a = q * b + r -> a / b = q.
Proof. intros H ->. symmetry. apply (Z.div_unique _ b q r); lia. Qed.

Lemma land1 p : Z.land p 1 = p mod 2.
Proof. change 1 with (Z.ones 1) at 1. rewrite Z.land_ones by lia. reflexivity. Qed.

Lemma half_range q : 0 < q -> 0 <= q / 2 /\ 2 * (q / 2) <= q /\ q = 2 * (q / 2) + q mod 2 /\ 0 <= q mod 2 < 2.
Proof.
  intros Hq. pose proof (Z.div_mod q 2 ltac:(lia)). pose proof (Z.mod_pos_bound q 2 ltac:(lia)).
  assert (0 <= q / 2) by (apply Z.div_pos; lia). lia.
Qed.

Lemma odd_sub_odd u v : u mod 2 = 1 -> v mod 2 = 1 -> (u - v) mod 2 = 0.
Proof. intros Hu Hv. rewrite Zminus_mod, Hu, Hv. reflexivity. Qed.

Lemma cong_iff_divide m a b : m <> 0 -> (a mod m = b mod m <-> (m | a - b)).
Proof.
  intros Hm. split.
  - intros H. exists (a / m - b / m).
    pose proof (Z.div_mod a m Hm). pose proof (Z.div_mod b m Hm). lia.
  - intros [c Hc]. replace a with (b + c * m) by lia. apply Z.mod_add. exact Hm.
Qed.

Lemma pow_mod_l m x e : 0 < m -> (x mod m) ^ e mod m = x ^ e mod m.
Proof. intros Hm. symmetry. apply Zpower_mod. exact Hm. Qed.

(* one step of binary exponentiation: the low bit of the exponent goes to the accumulator, the base is squared *)
Lemma pow_halve b q : 0 < q -> b ^ q = b ^ (q mod 2) * (b * b) ^ (q / 2).
Proof.
  intros Hq. destruct (half_range q Hq) as (H2 & _ & E & Hm).
  rewrite E at 1. rewrite Z.pow_add_r, Z.pow_mul_r, Z.pow_2_r by lia. ring.
Qed.

(* 2 is invertible modulo an odd number *)
Lemma odd_divide_half m k : Z.odd m = true -> (m | 2 * k) -> (m | k).
Proof.
  intros [q ->]%Z.odd_spec [c Hc]. exists (k - q * c).
  replace ((k - q * c) * (2 * q + 1)) with (k + q * (2 * k - c * (2 * q + 1))) by ring.
  rewrite Hc. ring.
Qed.

(* halving a congruence  K*x == w  (mod m), m odd:  K may first be made even by adding m *)
Lemma cong_halve m x K w K' w' e : Z.odd m = true -> 2 * K' = K + e * m -> 2 * w' = w ->
  (m | K * x - w) -> (m | K' * x - w').
Proof.
  intros Ho EK Ew [k Hk]. apply (odd_divide_half m _ Ho). exists (k + e * x).
  replace (2 * (K' * x - w')) with ((2 * K') * x - 2 * w') by ring.
  rewrite EK, Ew. replace ((K + e * m) * x - w) with (K * x - w + e * x * m) by ring.
  rewrite Hk. ring.
Qed.

Lemma mod2_cases x : x mod 2 = 0 \/ x mod 2 = 1.
Proof. pose proof (Z.mod_pos_bound x 2). lia. Qed.

Lemma p2_pos l : 0 <= l -> 0 < 2 ^ l.
Proof. intros. apply Z.pow_pos_nonneg; lia. Qed.

Lemma p2_succ l : 0 <= l -> 2 ^ (l + 1) = 2 * 2 ^ l.
Proof. intros. rewrite Z.add_1_r. apply Z.pow_succ_r. assumption. Qed.

Lemma p2_le_mono a b : a <= b -> 2 ^ a <= 2 ^ b.
Proof. intros. apply Z.pow_le_mono_r; lia. Qed.

(* usize::is_power_of_two; the models' is_pow2 functions unfold to the left-hand side *)
Lemma is_pow2_iff x : (0 <? x) && (x =? 2 ^ Z.log2 x) = true <-> exists k, 0 <= k /\ x = 2 ^ k.
Proof.
  rewrite andb_true_iff, Z.ltb_lt, Z.eqb_eq. split.
  - intros [Hp He]. exists (Z.log2 x). split; [apply Z.log2_nonneg | exact He].
  - intros (k & Hk & ->). split; [apply p2_pos, Hk|].
    rewrite Z.log2_pow2 by lia. reflexivity.
Qed.

(* a multiple of 2^k and a number below 2^k have no bit in common, so or-ing them adds them *)
Lemma land_shifted_small a b k : 0 <= k -> 0 <= b < 2 ^ k -> Z.land (a * 2 ^ k) b = 0.
Proof.
  intros Hk Hb. apply Z.bits_inj'. intros n Hn. rewrite Z.land_spec, Z.bits_0.
  destruct (Z_lt_le_dec n k).
  - rewrite Z.mul_pow2_bits_low by lia. reflexivity.
  - rewrite <- (Z.mod_small b (2 ^ k)) by lia. rewrite Z.mod_pow2_bits_high by lia. apply andb_false_r.
Qed.

Lemma lor_shifted_small a b k : 0 <= k -> 0 <= b < 2 ^ k -> Z.lor (a * 2 ^ k) b = a * 2 ^ k + b.
Proof.
  intros Hk Hb. pose proof (land_shifted_small a b k Hk Hb) as L.
  rewrite <- (Z.lxor_lor _ _ L). symmetry. apply Z.add_nocarry_lxor, L.
Qed.

Lemma ctz_range n x : 0 <= n -> 0 <= ctz n x <= n.
Proof.
  intros Hn. unfold ctz. destruct (x =? 0); [lia|].
  set (go := fix go (f : nat) (x k : Z) : Z :=
               match f with O => k | S f' => if Z.odd x then k else go f' (x / 2) (k + 1) end).
  assert (H : forall f y k, k <= go f y k <= k + Z.of_nat f).
  { induction f as [|f IH]; intros y k; cbn [go]; [lia|].
    destruct (Z.odd y); [lia|]. specialize (IH (y / 2) (k + 1)). lia. }
  specialize (H (Z.to_nat n) x 0). lia.
Qed.

Lemma ctz_odd_shl n m k : 0 <= k < n -> Z.odd m = true -> ctz n (m * 2 ^ k) = k.
Proof.
  intros Hk Hm. unfold ctz.
  set (go := fix go (f : nat) (x k : Z) : Z :=
               match f with O => k | S f' => if Z.odd x then k else go f' (x / 2) (k + 1) end).
  assert (H : forall j f acc, (j < f)%nat -> go f (m * 2 ^ Z.of_nat j) acc = acc + Z.of_nat j).
  { induction j as [|j IH]; intros [|f] acc Hf; try lia; cbn [go].
    - change (2 ^ Z.of_nat 0) with 1. rewrite Z.mul_1_r, Hm. lia.
    - replace (m * 2 ^ Z.of_nat (S j)) with (m * 2 ^ Z.of_nat j * 2)
        by (rewrite Nat2Z.inj_succ, Z.pow_succ_r by lia; ring).
      rewrite Z.odd_mul, andb_false_r, Z.div_mul, IH by lia. lia. }
  assert (m <> 0) by (intros ->; discriminate).
  assert (0 < 2 ^ k) by (apply Z.pow_pos_nonneg; lia).
  destruct (Z.eqb_spec (m * 2 ^ k) 0); [nia|].
  rewrite <- (Z2Nat.id k) at 1 by lia. rewrite H by lia. lia.
Qed.

Lemma in_u_iff n x : in_u n x = true <-> 0 <= x < 2 ^ n.
Proof. unfold in_u. rewrite andb_true_iff, Z.leb_le, Z.ltb_lt. reflexivity. Qed.

(* one conditional subtraction reduces [0, 2m) modulo m *)
Lemma reduce_once m x : 0 <= x < 2 * m -> (if x <? m then x else x - m) = x mod m.
Proof.
  intros Hx. destruct (Z.ltb_spec x m).
  - symmetry. apply Z.mod_small. lia.
  - apply Z.mod_unique with 1; lia.
Qed.

(* `if a < b { m - b + a } else { a - b }` on an n-bit unsigned type is subtraction modulo m and cannot overflow *)
Lemma sub_mod_wrap n m a b : m <= 2 ^ n -> 0 <= a < m -> 0 <= b < m ->
  (if a <? b then wrap n (wrap n (m - b) + a) else wrap n (a - b)) = (a - b) mod m /\
  (if a <? b then in_u n (m - b) && in_u n (wrap n (m - b) + a) else in_u n (a - b)) = true.
Proof.
  intros Hm Ha Hb. destruct (Z.ltb_spec a b).
  - rewrite (wrap_small n (m - b)), wrap_small, !(proj2 (in_u_iff n _)) by lia.
    split; [apply Z.mod_unique with (-1); lia|reflexivity].
  - rewrite wrap_small, (proj2 (in_u_iff n _)) by lia.
    split; [symmetry; apply Z.mod_small; lia|reflexivity].
Qed.

(* ------------------------------------------------------------------ elements of order 2^n modulo m *)
(* every 0 < k < 2^n is 2^j * odd with j < n *)
Lemma odd_part n : 0 <= n -> forall k, 0 < k < 2^n -> exists j m, 0 <= j < n /\ 0 <= m /\ k = 2^j * (2 * m + 1).
Proof.
  intros Hn. pattern n. apply natlike_ind; [| |exact Hn].
  - intros k Hk. change (2^0) with 1 in Hk. lia.
  - intros x Hx IH k Hk. rewrite Z.pow_succ_r in Hk by exact Hx.
    pose proof (Z.div_mod k 2 ltac:(lia)) as Hdm. pose proof (Z.mod_pos_bound k 2 ltac:(lia)) as Hm.
    destruct (Z.eq_dec (k mod 2) 0) as [E|E].
    + destruct (IH (k / 2)) as (j & m & Hj & Hm' & Ek); [lia|].
      exists (j + 1), m. split; [lia|split; [exact Hm'|]].
      rewrite Z.pow_add_r, Z.pow_1_r by lia. lia.
    + exists 0, (k / 2). split; [lia|split; [apply Z.div_pos; lia|]]. change (2^0) with 1. lia.
Qed.

Lemma neg1_pow_odd m t : 1 < m -> 0 <= t -> (m - 1) ^ (2 * t + 1) mod m = m - 1.
Proof.
  intros Hm Ht.
  assert (E : (m - 1) ^ 2 mod m = 1).
  { rewrite Z.pow_2_r. replace ((m - 1) * (m - 1)) with (1 + (m - 2) * m) by ring.
    rewrite Z.mod_add by lia. apply Z.mod_small. lia. }
  rewrite Z.pow_add_r, Z.pow_1_r, Z.pow_mul_r by lia.
  rewrite <- Z.mul_mod_idemp_l, Zpower_mod, E, Z.pow_1_l by lia.
  rewrite Z.mul_mod_idemp_l by lia. rewrite Z.mul_1_l. apply Z.mod_small. lia.
Qed.

(* w^(2^(n-1)) = -1  implies that the order of w is exactly 2^n *)
Lemma order_pow2_exact m w n : 2 < m -> 1 <= n -> w ^ 2 ^ (n - 1) mod m = m - 1 ->
  forall k, 0 < k < 2 ^ n -> w ^ k mod m <> 1.
Proof.
  intros Hm Hn Hw k Hk E.
  destruct (odd_part n ltac:(lia) k Hk) as (j & t & Hj & Ht & Ek).
  assert (E1 : w ^ (k * 2 ^ (n - 1 - j)) mod m = 1).
  { rewrite Z.pow_mul_r by (try apply Z.pow_nonneg; lia).
    rewrite Zpower_mod, E, Z.pow_1_l by (try apply Z.pow_nonneg; lia). apply Z.mod_small. lia. }
  assert (E2 : w ^ (2 ^ (n - 1) * (2 * t + 1)) mod m = m - 1).
  { rewrite Z.pow_mul_r by (try apply Z.pow_nonneg; lia).
    rewrite Zpower_mod, Hw by lia. apply neg1_pow_odd; lia. }
  assert (Ee : k * 2 ^ (n - 1 - j) = 2 ^ (n - 1) * (2 * t + 1)).
  { rewrite Ek. replace (n - 1) with (j + (n - 1 - j)) at 2 by lia. rewrite Z.pow_add_r by lia. ring. }
  rewrite Ee, E2 in E1. lia.
Qed.
