(* C02 — non-vacuity: the hypotheses of the soundness theorems are satisfiable (instances over the
   64-bit prime field F64_ops with its proved field laws), and the three library fields satisfy the
   injectivity hypothesis of seed_binds_statement. *)
From Coq Require Import List Arith Bool Lia ZArith Ring.
From VBase Require Import FieldOps ZpOps.
From VModel Require Import Soundness.
From VProofs Require Import FieldFacts ZpLaws SoundnessPoly SoundnessEnforce SoundnessVerifier.
Import ListNotations.

(* the out-of-domain check on a proof with a single composition column: the claimed H_0(z) against the constraint value,
   which does not read the claimed values *)
Section SingleColumn.
Context {F : Type} (O : FOps F) (L : FLaws O).
Variable lt : list F -> list F -> list F -> list F.
Variable la : list F -> list F -> list F -> list F -> list F -> list F -> list F.
Add Ring FrX : (FLaws_ring_theory O L).

Lemma ood_equation_single A C m o cu nx v qt qc ax lg :
  let P := mkProof m o cu nx [v] qt qc ax lg in
  ood_equation_b O lt la A C P = feqb O (evaluate_constraints O lt la A C P) v.
Proof. unfold ood_equation_b. cbn [p_ood_evals ood_reduce Nat.mul fpow]. f_equal. ring. Qed.

Lemma honest_value_accepted A C m o cu nx qt qc ax lg :
  ood_equation_b O lt la A C
    (mkProof m o cu nx [evaluate_constraints O lt la A C (mkProof m o cu nx [] qt qc ax lg)] qt qc ax lg) = true.
Proof. rewrite ood_equation_single. apply (feqb_refl O L). Qed.

Lemma other_value_rejected A C m o cu nx v qt qc ax lg :
  evaluate_constraints O lt la A C (mkProof m o cu nx [] qt qc ax lg) <> v ->
  ood_equation_b O lt la A C (mkProof m o cu nx [v] qt qc ax lg) = false.
Proof.
  intros H. rewrite ood_equation_single. apply not_true_is_false. intros E. exact (H (feqb_true O L _ _ E)).
Qed.

Lemma peval_const c x : peval O [c] x = c.
Proof. cbn [peval]. ring. Qed.

End SingleColumn.

Local Notation O := F64_ops.
Local Notation L := F64_laws.
Local Notation Fe := (Zp P64).

Local Open Scope nat_scope.
Definition e (v : nat) : Fe := fofz O (Z.of_nat v).

Ltac zp_eq := apply zp_val_inj; vm_compute; reflexivity.
Ltac zp_neq := let H := fresh in intro H; apply (f_equal (@zp_val P64)) in H; vm_compute in H; discriminate.

(* A model run over F64_ops is evaluated in three steps.  [flat] unfolds everything but the field operations: what is
   left is the arithmetic expression the run computes.  Division in this field is a^(p-2), 127 modular multiplications
   of 64-bit numbers, which the kernel evaluates slowly; inverses being unique (finv_by), [inverses] replaces each
   inverse by its value w, computed outside the proof term and checked by the one multiplication d * w = 1
   (innermost first, so that no d contains a division).  The rest is evaluated. *)
Ltac flat := lazy -[Zp P64 F64_ops fzero fone fadd fsub fmul fneg fdiv finv fofz].
Ltac inverses :=
  repeat rewrite (fl_div_def F64_ops F64_laws);
  repeat match goal with |- context [finv F64_ops ?d] =>
    lazymatch d with context [finv] => fail | _ => idtac end;
    let w := eval vm_compute in (zp_val (finv F64_ops d)) in
    rewrite (finv_by F64_ops F64_laws d (fofz F64_ops w)) by zp_eq end.

(* a counter: next = cur + 1, one column, one constraint *)
Definition ctr (_ : nat) (cur next : list Fe) : list Fe :=
  [fsub O (fsub O (nth 0 next (fzero O)) (nth 0 cur (fzero O))) (fone O)].

Definition g2 : Fe := fneg O (fone O).                 (* generator of the trace domain of length 2 *)
Definition a0 : @Assertion Fe := mkAsrt ASingle 0 0 0 [e 0].   (* column 0 at step 0 is 0 *)
Definition t_ok : list (list Fe) := [[e 0]; [e 1]].
Definition t_bad : list (list Fe) := [[e 0]; [e 5]].     (* violates the transition at step 0 (non-exempt for k = 1) *)
Definition t_bad_a : list (list Fe) := [[e 7]; [e 8]].   (* violates the assertion *)

Lemma dom2 : NoDup (domain O g2 2).
Proof.
  cbn. constructor; [|constructor; [intros []|constructor]].
  intros [H|[]]. revert H. zp_neq.
Qed.

(* numerators as constant polynomials: they interpolate the single enforced step / asserted step *)
Definition Nc (t : list (list Fe)) (_ : nat) : list Fe := [nth 0 (ctr 0 (row_at t 0) (row_at t 1)) (fzero O)].
Definition Bc (t : list (list Fe)) (a : @Assertion Fe) : list Fe := [fsub O (cell O t 0 0) (e 0)].

Lemma hyp_N t : forall j i, j < 1 -> i < 2 - 1 ->
  peval O (Nc t j) (fpow O g2 i) = nth j (ctr i (row_at t i) (row_at t (S i))) (fzero O).
Proof.
  intros j i Hj Hi. assert (j = 0) by lia. assert (i = 0) by lia. subst. exact (peval_const O L _ _).
Qed.

Lemma hyp_B t : forall a, In a [a0] -> forall sv, In sv (asserted_cells O 2 a) ->
  peval O (Bc t a) (fpow O g2 (fst sv)) = fsub O (cell O t (as_col a) (fst sv)) (snd sv).
Proof. intros a [<-|[]] sv [<-|[]]. exact (peval_const O L _ _). Qed.

Lemma hyp_steps : forall a, In a [a0] ->
  NoDup (map fst (asserted_cells O 2 a)) /\ forall sv, In sv (asserted_cells O 2 a) -> fst sv < 2.
Proof.
  intros a [<-|[]]. cbn. split; [constructor; [intros []|constructor]|]. intros sv [<-|[]]. cbn. lia.
Qed.

Lemma hyp_m : forall i cur next, length (ctr i cur next) = 1.
Proof. reflexivity. Qed.

Lemma valid_iff_divisible_ctr t : valid O ctr t 2 1 [a0] <-> all_divisible O g2 2 1 1 [a0] (Nc t) (Bc t).
Proof. exact (valid_iff_divisible O L ctr g2 2 dom2 t 1 1 [a0] (Nc t) (Bc t) hyp_m (hyp_N t) (hyp_B t) hyp_steps). Qed.

Lemma not_valid t n k : valid_b O ctr t n k [a0] = false -> ~ valid O ctr t n k [a0].
Proof. intros E H. apply (valid_b_spec O L) in H. congruence. Qed.

(* the hypotheses of invalid_trace_not_divisible / valid_iff_divisible hold for a trace with a violated transition,
   for one with a violated assertion, and for a valid one *)
Example invalid_transition_instance :
  ~ valid O ctr t_bad 2 1 [a0] /\ ~ all_divisible O g2 2 1 1 [a0] (Nc t_bad) (Bc t_bad).
Proof.
  rewrite <- valid_iff_divisible_ctr.
  assert (H : ~ valid O ctr t_bad 2 1 [a0]) by (apply not_valid; reflexivity). exact (conj H H).
Qed.

Example invalid_assertion_instance :
  ~ valid O ctr t_bad_a 2 1 [a0] /\ ~ all_divisible O g2 2 1 1 [a0] (Nc t_bad_a) (Bc t_bad_a).
Proof.
  rewrite <- valid_iff_divisible_ctr.
  assert (H : ~ valid O ctr t_bad_a 2 1 [a0]) by (apply not_valid; reflexivity). exact (conj H H).
Qed.

Example valid_instance :
  valid O ctr t_ok 2 1 [a0] /\ all_divisible O g2 2 1 1 [a0] (Nc t_ok) (Bc t_ok).
Proof.
  rewrite <- valid_iff_divisible_ctr.
  assert (H : valid O ctr t_ok 2 1 [a0]) by (apply (valid_b_spec O L); reflexivity). exact (conj H H).
Qed.

(* exempt rows: n = 4, k = 2: transitions 0 and 1 are enforced, rows 0..2 take part in them, row 3 does not *)
Definition t4 : list (list Fe) := [[e 0]; [e 1]; [e 2]; [e 9]].

Example exempt_corruption_instance :
  valid O ctr t4 4 2 [a0] /\ only_exempt 4 2 3 = true /\ is_asserted O 4 [a0] 0 3 = false /\
  valid O ctr (upd_cell t4 0 3 (e 77)) 4 2 [a0].
Proof.
  assert (H : valid O ctr t4 4 2 [a0]) by (apply (valid_b_spec O L); reflexivity).
  split; [exact H|]. split; [reflexivity|]. split; [reflexivity|].
  apply (exempt_corruption_harmless O ctr 4 t4 2 [a0] 0 3 (e 77) H); reflexivity.
Qed.

(* the side conditions are needed: row n-k = 2 is `next` of the last enforced transition, row 0 is asserted *)
Example nonexempt_corruption_breaks :
  only_exempt 4 2 2 = false /\ ~ valid O ctr (upd_cell t4 0 2 (e 77)) 4 2 [a0] /\
  is_asserted O 4 [a0] 0 0 = true /\ ~ valid O ctr (upd_cell t4 0 0 (e 77)) 4 2 [a0].
Proof.
  split; [reflexivity|]. split; [apply not_valid; reflexivity|]. split; [reflexivity|]. apply not_valid; reflexivity.
Qed.

(* counting: H = X, Nn = 0, Dd = 1: the relation polynomial X is not zero, has degree 1, and the out-of-domain
   equation holds at the single point 0 — the bound is attained *)
Example ood_counting_instance :
  let H := [e 0; e 1] in let Nn := [e 0] in let Dd := [e 1] in
  pnonzero O (relation_poly O H Nn Dd) /\ length (relation_poly O H Nn Dd) <= S 1 /\ NoDup [e 0] /\
  (forall z, In z [e 0] -> peval O Dd z <> fzero O /\ peval O H z = fdiv O (peval O Nn z) (peval O Dd z)) /\
  length [e 0] <= 1.
Proof.
  cbv zeta. split; [|split; [|split; [|split]]].
  - exists 1. zp_neq.
  - vm_compute. lia.
  - constructor; [intros []|constructor].
  - intros z [<-|[]]. split; [zp_neq|zp_eq].
  - cbn. lia.
Qed.

(* ALI: d = X, p1 = 1 is not divisible by X, p0 = 0: exactly the coefficient 0 is good *)
Example ali_instance :
  let d := [e 0; e 1] in let p0 := [e 0] in let p1 := [e 1] in
  ~ pdivides O d p1 /\ pdivides O d (padd O p0 (pscale O (e 0) p1)).
Proof.
  cbv zeta. split.
  - intros Hd. pose proof (divides_vanishes O L _ _ Hd (e 0)) as Hv.
    assert (E : peval O [e 0; e 1] (e 0) = fzero O) by zp_eq. specialize (Hv E). revert Hv. zp_neq.
  - exists []. intros i. destruct i as [|[|[|i]]]; zp_eq.
Qed.

(* the decision function: an accepting run (frame values chosen, H_0(z) computed from the equation) and the
   same proof with one out-of-domain value changed (rejected by the out-of-domain check, named RejOod) *)
Definition ctr_e (cur next pers : list Fe) : list Fe := ctr 0 cur next.
(* no auxiliary segment (proofx / proofy) and an auxiliary segment with one column: aux_next = aux_cur + r_0 * main_cur *)
Definition aux_e (mcur mnext acur anext pers rands : list Fe) : list Fe :=
  [fsub O (nth 0 anext (fzero O)) (fadd O (nth 0 acur (fzero O)) (fmul O (nth 0 rands (fzero O)) (nth 0 mcur (fzero O))))].
Definition airx : @AirDesc Fe :=
  mkAir 2 1 g2 [] [mkBGroup 0 1 [mkBCons 0 [e 0] (e 1)]] 1 [mkBGroup 0 1 [mkBCons 0 [e 0] (e 1)]] None.
Definition coinsx : @Coins Fe := mkCoins [e 23] [e 11; e 29] [e 13; e 31] (e 5) [e 17; e 37] [e 19] [e 3; e 4] None.
Definition envx : @Env Fe := mkEnv 7 [[1%Z; 2%Z]] true true true true true (fun _ => true).
Definition proof0 (evals : list Fe) : @ProofObj Fe := mkProof 7 [1%Z; 2%Z] [e 21] [e 34] evals [[e 1]; [e 2]] [[e 8]; [e 9]] None None.
Definition proofx : @ProofObj Fe := proof0 [evaluate_constraints O ctr_e aux_e airx coinsx (proof0 [])].
Definition proofy : @ProofObj Fe := mkProof 7 [1%Z; 2%Z] [e 22] [e 34] (p_ood_evals proofx) [[e 1]; [e 2]] [[e 8]; [e 9]] None None.
Definition auxo : @AuxOpen Fe := mkAuxOpen [e 41] [e 43] [[e 5]; [e 6]].
Definition proof0a (evals : list Fe) : @ProofObj Fe :=
  mkProof 7 [1%Z; 2%Z] [e 21] [e 34] evals [[e 1]; [e 2]] [[e 8]; [e 9]] (Some auxo) None.
Definition proofxa : @ProofObj Fe := proof0a [evaluate_constraints O ctr_e aux_e airx coinsx (proof0a [])].
(* one auxiliary out-of-domain value changed *)
Definition proofya : @ProofObj Fe :=
  mkProof 7 [1%Z; 2%Z] [e 21] [e 34] (p_ood_evals proofxa) [[e 1]; [e 2]] [[e 8]; [e 9]] (Some (mkAuxOpen [e 42] [e 43] [[e 5]; [e 6]])) None.

Example verify_accept_instance :
  verify_model O ctr_e aux_e envx airx coinsx proofx = Accept /\
  verify_model O ctr_e aux_e envx airx coinsx proofy = RejOod /\
  verify_model O ctr_e aux_e (mkEnv 9 [[1%Z; 2%Z]] true true true true true (fun _ => true)) airx coinsx proofx = RejField /\
  verify_model O ctr_e aux_e (mkEnv 7 [[1%Z; 3%Z]] true true true true true (fun _ => true)) airx coinsx proofx = RejOptions /\
  verify_model O ctr_e aux_e (mkEnv 7 [[1%Z; 2%Z]] true true true false true (fun _ => true)) airx coinsx proofx = RejTraceQuery /\
  verify_model O ctr_e aux_e (mkEnv 7 [[1%Z; 2%Z]] true true true true true (fun _ => false)) airx coinsx proofx = RejFri.
Proof.
  assert (Hx : ood_equation_b O ctr_e aux_e airx coinsx proofx = true) by apply (honest_value_accepted O L).
  assert (Hy : ood_equation_b O ctr_e aux_e airx coinsx proofy = false).
  { apply (other_value_rejected O L). flat. inverses. zp_neq. }
  unfold verify_model. rewrite Hx, Hy. repeat split.
Qed.

(* the same with an auxiliary segment: accepted; an auxiliary out-of-domain value changed: RejOod; the auxiliary terms do
   enter the out-of-domain equation (the value differs from the one without auxiliary segment) *)
Example verify_accept_instance_aux :
  verify_model O ctr_e aux_e envx airx coinsx proofxa = Accept /\
  verify_model O ctr_e aux_e envx airx coinsx proofya = RejOod /\
  p_ood_evals proofxa <> p_ood_evals proofx /\
  length (deep_evaluations O airx coinsx proofxa) = 2 /\
  deep_evaluations O airx coinsx proofxa <> deep_evaluations O airx coinsx proofya.
Proof.
  assert (Hx : ood_equation_b O ctr_e aux_e airx coinsx proofxa = true) by apply (honest_value_accepted O L).
  assert (Hy : ood_equation_b O ctr_e aux_e airx coinsx proofya = false).
  { apply (other_value_rejected O L). flat. inverses. zp_neq. }
  unfold verify_model. rewrite Hx, Hy. split; [reflexivity|]. split; [reflexivity|]. split; [|split; [reflexivity|]].
  (* both pairs of lists differ in their first entry *)
  all: intros H; apply (f_equal (hd (fzero O))) in H; revert H; flat; inverses; zp_neq.
Qed.

(* the injectivity hypothesis of seed_binds_statement holds in the three library fields *)
Local Open Scope Z_scope.
Lemma zp_ofz_inj p (Hp : 1 < p) : 2^32 <= p ->
  forall a b, 0 <= a < 2^32 -> 0 <= b < 2^32 -> fofz (zpT_ops p Hp) a = fofz (zpT_ops p Hp) b -> a = b.
Proof.
  intros Hbig a b Ha Hb E. apply (f_equal (@zp_val p)) in E.
  cbn [fofz zpT_ops zp_mk zp_val proj1_sig] in E. rewrite !Z.mod_small in E by lia. exact E.
Qed.

Lemma F64_ofz_inj : forall a b, 0 <= a < 2^32 -> 0 <= b < 2^32 -> fofz F64_ops a = fofz F64_ops b -> a = b.
Proof. apply zp_ofz_inj. unfold P64. lia. Qed.
Lemma F62_ofz_inj : forall a b, 0 <= a < 2^32 -> 0 <= b < 2^32 -> fofz F62_ops a = fofz F62_ops b -> a = b.
Proof. apply zp_ofz_inj. unfold P62. lia. Qed.
Lemma F128_ofz_inj : forall a b, 0 <= a < 2^32 -> 0 <= b < 2^32 -> fofz F128_ops a = fofz F128_ops b -> a = b.
Proof. apply zp_ofz_inj. unfold P128. lia. Qed.

Example seed_instance :
  shape_ok (mkShape 3 None 64) /\ shape_ok (mkShape 3 (Some (2, 1)) 64) /\ opts_ok (mkOpts 28 8 0 1 4 31) /\
  seed_of O (mkShape 3 None 64) (fofz O 1) (fofz O 4294967295) (mkOpts 28 8 0 1 4 31) [] <>
  seed_of O (mkShape 3 None 64) (fofz O 1) (fofz O 4294967295) (mkOpts 29 8 0 1 4 31) [].
Proof.
  unfold shape_ok, opts_ok, u8. cbn [sh_width sh_len sh_aux o_queries o_blowup o_grinding o_ext o_fold o_rem].
  repeat split; try lia.
  intros H. apply (seed_binds_statement O F64_ofz_inj) in H.
  - destruct H as [_ [_ [_ [H _]]]]. discriminate.
  - unfold shape_ok, u8; cbn; lia.
  - unfold shape_ok, u8; cbn; lia.
  - unfold opts_ok, u8; cbn; lia.
  - unfold opts_ok, u8; cbn; lia.
Qed.
