(* C15 — folding over a whole coset and the remainder interpolation: fft_rec (the model's radix-2 inverse FFT) = idft;
   apply_drp on the evaluations of f over offset*<g> returns the evaluations of sum_j alpha^j f_j over the folded coset, in
   the order the code produces (re-labelled, as the code calls the next points offset * g_next^i: the evaluations of
   [fold_next] over offset*<g_next>); interpolate_poly_with_offset on the evaluations of a polynomial returns its
   coefficients.  Any field with FLaws and the root-of-unity family of Proofs/FriRoots.v. *)
From Coq Require Import List Arith Bool Lia Ring Field.
From VBase Require Import FieldOps.
From VModel Require Import Fri.
From VProofs Require Import FieldFacts ListFacts Pow2Facts FriIdx FriField FriInterp FriRoots.
Import ListNotations.

Section Coset.
Context {F : Type} (O : FOps F) (L : FLaws O).
Add Field FfieldC : (FLaws_field_theory O L).

Local Notation zero := (fzero O).
Local Notation one := (fone O).
Local Infix "+f" := (fadd O) (at level 50, left associativity).
Local Infix "-f" := (fsub O) (at level 50, left associativity).
Local Infix "*f" := (fmul O) (at level 40, left associativity).
Local Notation "-f x" := (fneg O x) (at level 35, right associativity).
Local Notation peval := (peval O).
Local Notation fpow := (fpow O).

(* ---------------------------------------------------------------- fft_rec = idft *)
(* Proofs/FFTSpec.v proves the same for Model/FFT.v, whose split_eo recurses one element at a time and is not
   convertible with the two-at-a-time split_eo of Model/Fri.v *)
Lemma split_eo_cons2 (a b : F) t :
  split_eo (a :: b :: t) = (a :: fst (split_eo t), b :: snd (split_eo t)).
Proof. cbn [split_eo]. now destruct (split_eo t). Qed.

Lemma split_eo_length : forall n (l : list F), length l = 2 * n ->
  length (fst (split_eo l)) = n /\ length (snd (split_eo l)) = n.
Proof.
  induction n as [|n IH]; intros l H.
  - destruct l; [split; reflexivity | cbn in H; lia].
  - destruct l as [|a [|b t]]; cbn [length] in H; try lia.
    rewrite split_eo_cons2. cbn [fst snd length]. destruct (IH t ltac:(lia)). split; lia.
Qed.

Lemma peval_split : forall n (l : list F) x, length l = 2 * n ->
  peval l x = peval (fst (split_eo l)) (x *f x) +f x *f peval (snd (split_eo l)) (x *f x).
Proof.
  induction n as [|n IH]; intros l x H.
  - destruct l; [cbn; ring | cbn in H; lia].
  - destruct l as [|a [|b t]]; cbn [length] in H; try lia.
    rewrite split_eo_cons2. cbn [fst snd Fri.peval]. rewrite (IH t x) by lia. ring.
Qed.

Theorem fft_rec_idft : forall k w l, length l = 2 ^ k ->
  (k = 0 \/ fpow w (2 ^ (k - 1)) = -f one) -> fft_rec O k w l = idft O (2 ^ k) w l.
Proof.
  induction k as [|k IH]; intros w l Hlen Hw.
  - destruct l as [|a [|b t]]; cbn in Hlen; try lia. cbn. f_equal. ring.
  - destruct Hw as [Hw|Hw]; [lia|]. replace (S k - 1) with k in Hw by lia.
    cbn [fft_rec]. destruct (split_eo l) as [e o] eqn:Hs.
    assert (Hl2 : length l = 2 * 2 ^ k) by (rewrite Hlen; cbn; lia).
    destruct (split_eo_length (2 ^ k) l Hl2) as [He Ho]. rewrite Hs in He, Ho. cbn [fst snd] in He, Ho.
    assert (Hw2 : k = 0 \/ fpow (w *f w) (2 ^ (k - 1)) = -f one).
    { destruct k as [|k']; [now left | right]. replace (S k' - 1) with k' by lia.
      rewrite <- (fpow_sq O L), <- Hw. f_equal; cbn; lia. }
    rewrite (IH (w *f w) e He Hw2), (IH (w *f w) o Ho Hw2).
    rewrite !(idft_map O L), (power_series_from_map O L), !map2_map_same.
    replace (2 ^ S k) with (2 ^ k + 2 ^ k) by (cbn; lia).
    rewrite seq_app, map_app. cbn [Nat.add]. rewrite (map_seq_shift _ (2 ^ k)).
    pose proof (peval_split (2 ^ k) l) as PS. rewrite Hs in PS. cbn [fst snd] in PS.
    f_equal; apply map_ext; intros i.
    + rewrite (PS (fpow w i) Hl2), (fpow_mul_base O L). ring.
    + rewrite (PS (fpow w (2 ^ k + i)) Hl2), (fpow_add O L), Hw, !(fpow_mul_base O L).
      replace (-f one *f fpow w i *f (-f one *f fpow w i)) with (fpow w i *f fpow w i) by ring. ring.
Qed.

(* ---------------------------------------------------------------- chunks of a coefficient list *)
Lemma chunks_exact : forall m N (l : list F) fuel, N <> 0 -> length l = m * N -> length l <= fuel ->
  concat (chunks fuel N l) = l /\ Forall (fun c => length c = N) (chunks fuel N l) /\ length (chunks fuel N l) = m.
Proof.
  induction m as [|m IH]; intros N l fuel HN Hlen Hf.
  - destruct l; [|cbn in Hlen; lia]. destruct fuel; cbn; auto.
  - destruct fuel as [|fuel]; [cbn in Hlen; lia|]. destruct l as [|a l']; [cbn in Hlen; lia|].
    cbn [chunks]. set (l := a :: l') in *.
    assert (Hs : length (skipn N l) = m * N) by (rewrite skipn_length, Hlen; cbn; lia).
    assert (Hfn : length (firstn N l) = N) by (rewrite firstn_length, Hlen; cbn; lia).
    destruct (IH N (skipn N l) fuel HN Hs) as [A [B C]].
    { rewrite Hs. cbn in Hlen. unfold l in Hf. cbn [length] in Hf. nia. }
    cbn [concat length]. rewrite A, firstn_skipn, C. repeat split; auto.
Qed.

Lemma peval_concat_chunks N y X : fpow y N = X -> forall cs, Forall (fun c => length c = N) cs ->
  peval (concat cs) y = peval (map (fun c => peval c y) cs) X.
Proof.
  intros HX. induction 1 as [|c cs Hc _ IH]; [reflexivity|].
  cbn [concat map Fri.peval]. rewrite (peval_app O L), Hc, HX, IH. reflexivity.
Qed.

(* ---------------------------------------------------------------- the root family *)
Variable rou : nat -> F.
Variable K : nat.
Hypothesis K_pos : 1 <= K.
Hypothesis rou_sq : forall k, k < K -> rou (S k) *f rou (S k) = rou k.
Hypothesis rou_1 : rou 1 = -f one.
Hypothesis two_nz : one +f one <> zero.

Local Notation rouR := (Build_rou_family O rou K K_pos rou_sq rou_1 two_nz).

Definition coset_evals (P : list F) (offset g : F) (n : nat) : list F :=
  map (fun j => peval P (offset *f fpow g j)) (seq 0 n).

Lemma coset_evals_length P offset g n : length (coset_evals P offset g n) = n.
Proof. unfold coset_evals. now rewrite map_length, seq_length. Qed.

Lemma coset_evals_nth P offset g n j : j < n -> nth j (coset_evals P offset g n) zero = peval P (offset *f fpow g j).
Proof. apply (nth_map_seq (fun j => peval P (offset *f fpow g j))). Qed.

Lemma get_rou_ok k : 1 <= k <= K -> get_rou rou K k = Ok (rou k).
Proof.
  intros H. unfold get_rou. rewrite (eqb0_false k) by lia.
  destruct (K <? k) eqn:E2; [apply Nat.ltb_lt in E2; lia | reflexivity].
Qed.

Lemma inv_twiddle_root_ok k : 1 <= k <= K ->
  inv_twiddle_root O rou K (2 ^ k) = Ok (fpow (rou k) (2 ^ k - 1)).
Proof.
  intros H. unfold inv_twiddle_root. rewrite is_pow2_pow2, log2_pow2, get_rou_ok by assumption.
  cbn [negb bind]. now rewrite (fexp_spec O L).
Qed.

(* ---------------------------------------------------------------- apply_drp, row by row (any values) *)
Section Drp.
Variables rho f : nat.
Hypothesis f_pos : 1 <= f.
Hypothesis rf_le : rho + f <= K.
Local Notation r := (2 ^ rho).
Local Notation N := (2 ^ f).
Local Notation g := (rou (rho + f)).
Local Notation w := (rou f).
Local Notation winv := (fpow (rou f) (2 ^ f - 1)).

Lemma r_nonzero : r <> 0. Proof. apply Nat.pow_nonzero; lia. Qed.

Theorem apply_drp_rows : forall E offset alpha, offset <> zero ->
  apply_drp O rou K N (map (row_of zero N r E) (seq 0 r)) offset alpha
  = Ok (map (fun i => drp_row O N winv (finv O (fnat O N)) (finv O (offset *f fpow g i)) alpha (row_of zero N r E i))
            (seq 0 r)).
Proof.
  intros E offset alpha Hoff. unfold apply_drp, get_inv_offsets.
  rewrite map_length, seq_length, <- Nat.pow_add_r.
  unfold ilog2. rewrite (eqb0_false _ (pow2_nonzero (rho + f))). cbn [bind].
  rewrite log2_pow2, get_rou_ok by lia. cbn [bind].
  rewrite inv_twiddle_root_ok by lia. cbn [bind]. f_equal.
  rewrite (power_series_from_map O L). rewrite <- (map_id (seq 0 r)) at 1.
  rewrite map_map, map2_map_same. apply map_ext_in. intros i Hi. f_equal.
  assert (Hg : g <> zero) by (apply (rou_nonzero O L rou K rouR); lia).
  pose proof (fpow_nonzero O L g i Hg).
  replace (fpow (finv O g) i) with (fpow (finv O g) i *f fpow g i *f finv O (fpow g i)) by (field; assumption).
  rewrite (fpow_inv O L g i Hg). field. split; assumption.
Qed.

Lemma g_pow_r : fpow g r = w. Proof. apply (rou_pow2 O L rou K rouR). lia. Qed.

Lemma row_of_coset P offset i : i < r ->
  row_of zero N r (coset_evals P offset g (r * N)) i = map (peval P) (row_nodes O N w (offset *f fpow g i)).
Proof.
  intros Hi. unfold row_of, row_nodes. rewrite map_map. apply map_ext_in. intros j Hj. apply in_seq in Hj.
  rewrite coset_evals_nth by nia. f_equal.
  rewrite (fpow_add O L), Nat.mul_comm, (fpow_mul O L), g_pow_r. ring.
Qed.

(* apply_drp over the whole coset: for f = concat cs (coefficient chunks of length N, i.e.
   f(y) = sum_m y^(mN) c_m(y)), the output is the list of evaluations of the folded polynomial
   sum_m X^m c_m(alpha) = sum_j alpha^j f_j(X) at the folded points X_i = (offset g^i)^N, i = 0 .. r-1 *)
Theorem apply_drp_coset : forall cs offset alpha, offset <> zero -> Forall (fun c => length c = N) cs ->
  let P := concat cs in
  let evals := coset_evals P offset g (r * N) in
  transpose_slice zero N evals = Ok (map (row_of zero N r evals) (seq 0 r)) /\
  apply_drp O rou K N (map (row_of zero N r evals) (seq 0 r)) offset alpha
  = Ok (map (fun i => peval (map (fun c => peval c alpha) cs) (fpow (offset *f fpow g i) N)) (seq 0 r)).
Proof.
  intros cs offset alpha Hoff Hcs P evals. split.
  - apply transpose_slice_rows; [apply pow2_nonzero | unfold evals; now rewrite coset_evals_length].
  - rewrite apply_drp_rows by assumption. f_equal. apply map_ext_in. intros i Hi. apply in_seq in Hi.
    assert (Hx : offset *f fpow g i <> zero) by (apply (coset_point_nonzero O L rou K rouR); [lia | assumption]).
    destruct (rou_root O L rou K rouR f ltac:(lia)) as [w_pow w_prim w_inv].
    unfold evals. rewrite row_of_coset by lia.
    set (x := offset *f fpow g i) in *.
    set (A := fold_slices O (fpow x N) cs).
    assert (EA : map (peval P) (row_nodes O N w x) = map (peval A) (row_nodes O N w x)).
    { unfold row_nodes. rewrite !map_map. apply map_ext. intros j. unfold P, A.
      rewrite (peval_fold_slices O L).
      apply (peval_concat_chunks N); [|assumption]. apply (row_point_pow O L N w w_pow). }
    rewrite EA, (drp_row_identity O L N w winv w_pow w_prim w_inv (fnat_pow2_nonzero O L rou K rouR f)).
    + unfold A. apply (peval_fold_slices O L).
    + assumption.
    + unfold A. apply fold_slices_length. intros c Hc. rewrite Forall_forall in Hcs. now rewrite (Hcs c Hc).
Qed.

(* the re-labelled view: the code calls the points of the next layer offset * g_next^i *)
Definition fold_next (alpha offset : F) (P : list F) : list F :=
  scale_series O (map (fun c => peval c alpha) (chunks (length P) N P)) one (fpow offset (N - 1)).

Lemma fold_next_length alpha offset P m : length P = m * N -> length (fold_next alpha offset P) = m.
Proof.
  intros H. unfold fold_next. rewrite scale_series_length, map_length.
  now destruct (chunks_exact m N P (length P) (pow2_nonzero f) H (le_n _)) as [_ [_ C]].
Qed.

Theorem apply_drp_coset_relabelled : forall P m offset alpha, offset <> zero -> length P = m * N ->
  let evals := coset_evals P offset g (r * N) in
  apply_drp O rou K N (map (row_of zero N r evals) (seq 0 r)) offset alpha
  = Ok (coset_evals (fold_next alpha offset P) offset (rou rho) r).
Proof.
  intros P m offset alpha Hoff Hlen evals.
  destruct (chunks_exact m N P (length P) (pow2_nonzero f) Hlen (le_n _)) as [A [B _]].
  pose proof (apply_drp_coset (chunks (length P) N P) offset alpha Hoff B) as [_ H].
  cbv zeta in H. rewrite A in H. unfold evals. rewrite H. f_equal. unfold coset_evals.
  apply map_ext. intros i. unfold fold_next. rewrite (peval_scale_series O L).
  replace (one *f peval (map (fun c => peval c alpha) (chunks (length P) N P)) (fpow offset (N - 1) *f (offset *f fpow (rou rho) i)))
    with (peval (map (fun c => peval c alpha) (chunks (length P) N P)) (fpow offset (N - 1) *f (offset *f fpow (rou rho) i))) by ring.
  f_equal. rewrite (fpow_mul_base O L).
  pose proof (pow2_nonzero f). replace N with (S (N - 1)) at 1 by lia. cbn [Fri.fpow].
  rewrite <- (fpow_mul O L), (Nat.mul_comm i), (fpow_mul O L).
  replace (fpow g N) with (rou rho); [ring|].
  symmetry. rewrite Nat.add_comm. apply (rou_pow2 O L rou K rouR). lia.
Qed.

End Drp.

(* ---------------------------------------------------------------- the remainder interpolation *)
Theorem interpolate_coset : forall mu P offset, 1 <= mu <= K -> offset <> zero -> length P <= 2 ^ mu ->
  interpolate_poly_with_offset O rou K (coset_evals P offset (rou mu) (2 ^ mu)) offset
  = Ok (P ++ repeat zero (2 ^ mu - length P)).
Proof.
  intros mu P offset Hmu Hoff HP. unfold interpolate_poly_with_offset.
  rewrite coset_evals_length, inv_twiddle_root_ok by assumption. cbn [bind].
  rewrite (feqb_neq O L offset zero Hoff). f_equal. rewrite log2_pow2.
  set (m := 2 ^ mu). set (w := rou mu). set (winv := fpow w (m - 1)).
  set (evals := coset_evals P offset w m).
  destruct (rou_root O L rou K rouR mu ltac:(lia)) as [Wp Wprim Wi]. fold m w winv in Wp, Wprim, Wi.
  rewrite (fft_rec_idft mu winv evals (coset_evals_length _ _ _ _) (or_intror (rou_inv_half O L rou K rouR mu Hmu))).
  fold m.
  (* the scaled inverse DFT and P, padded, have m coefficients and agree on the m points of the coset *)
  set (C := scale_series O (idft O m winv evals) (finv O (fnat O m)) (finv O offset)).
  assert (LC : length C = m) by (unfold C; rewrite scale_series_length; apply (idft_length O L)).
  rewrite <- LC. apply (interp_unique_coeffs O L (row_nodes O m w offset)).
  - rewrite (row_nodes_length O), LC. lia.
  - lia.
  - apply (row_nodes_NoDup O L m w winv Wprim Wi). assumption.
  - intros x Hx. unfold row_nodes in Hx. apply in_map_iff in Hx. destruct Hx as [j [<- Hj]]. apply in_seq in Hj.
    unfold C. rewrite (row_poly_interpolates O L m w winv Wp Wprim Wi offset evals j Hoff).
    + unfold evals. apply coset_evals_nth. lia.
    + apply (fnat_pow2_nonzero O L rou K rouR).
    + unfold evals. apply coset_evals_length.
    + lia.
Qed.

End Coset.
