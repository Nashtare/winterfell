(* C20 — base lemmas: polynomial semantics `peval`, powers, checked list accesses, loop combinators.
   Everything is stated for an arbitrary `FOps F` satisfying `FLaws`. *)
From Coq Require Import List Arith Bool Lia Ring Field.
From VBase Require Import FieldOps.
From VModel Require Import Polynom.
From VProofs Require Export FieldFacts ListFacts.
Import ListNotations.

(* ------------------------------------------------------------------ lists: get / set / upd *)
Section Lists.
Context {A : Type}.

Lemma upd_length (l : list A) i v : length (upd l i v) = length l.
Proof. revert i; induction l; destruct i; simpl; auto. Qed.

Lemma get_ok (l : list A) i d : i < length l -> get l i = Ok (nth i l d).
Proof.
  unfold get; intros H. destruct (nth_error l i) eqn:E.
  - f_equal. symmetry. apply nth_error_nth; assumption.
  - apply nth_error_None in E. lia.
Qed.

Lemma get_panic (l : list A) i : length l <= i -> get l i = Panic.
Proof. unfold get; intros H. apply nth_error_None in H. now rewrite H. Qed.

Lemma get_ok_inv (l : list A) i v : get l i = Ok v -> i < length l /\ forall d, nth i l d = v.
Proof.
  unfold get; destruct (nth_error l i) eqn:E; [|discriminate]. intros H; inversion H; subst.
  split. apply nth_error_Some; congruence. intros d; now apply nth_error_nth.
Qed.

Lemma get_app_r (l1 l2 : list A) k : get (l1 ++ l2) (length l1 + k) = get l2 k.
Proof. unfold get. rewrite nth_error_app2 by lia. now replace (length l1 + k - length l1) with k by lia. Qed.

Lemma get_app_mid (l1 l2 : list A) v : get (l1 ++ v :: l2) (length l1) = Ok v.
Proof. rewrite <- (Nat.add_0_r (length l1)). apply get_app_r. Qed.

Lemma set_ok (l : list A) i v : i < length l -> set l i v = Ok (upd l i v).
Proof. unfold set; intros H. apply Nat.ltb_lt in H. now rewrite H. Qed.

Lemma set_panic (l : list A) i v : length l <= i -> set l i v = Panic.
Proof. unfold set; intros H. apply Nat.ltb_ge in H. now rewrite H. Qed.

Lemma upd_app_mid (l1 l2 : list A) v w : upd (l1 ++ v :: l2) (length l1) w = l1 ++ w :: l2.
Proof. induction l1; simpl; congruence. Qed.

Lemma upd_app_l (l1 l2 : list A) i w : i < length l1 -> upd (l1 ++ l2) i w = upd l1 i w ++ l2.
Proof. revert i; induction l1; simpl; intros i H; [lia|]. destruct i; simpl; auto. rewrite IHl1; auto; lia. Qed.

Lemma upd_app_r (l1 l2 : list A) i w : length l1 <= i -> upd (l1 ++ l2) i w = l1 ++ upd l2 (i - length l1) w.
Proof.
  revert i; induction l1; simpl; intros i H. now rewrite Nat.sub_0_r.
  destruct i; [lia|]. simpl. rewrite IHl1; auto; lia.
Qed.

Lemma nth_upd_same (l : list A) i v d : i < length l -> nth i (upd l i v) d = v.
Proof. revert i; induction l; simpl; intros i H; [lia|]. destruct i; simpl; auto. apply IHl; lia. Qed.

Lemma nth_upd_other (l : list A) i k v d : k <> i -> nth k (upd l i v) d = nth k l d.
Proof.
  revert i k; induction l; simpl; intros i k H; auto.
  destruct i, k; simpl; auto; try lia.
Qed.

Lemma firstn_upd_lt (l : list A) i n v : i < n -> firstn n (upd l i v) = upd (firstn n l) i v.
Proof.
  revert i n; induction l; intros i n H; simpl. now rewrite firstn_nil.
  destruct n; [lia|]. destruct i; simpl; auto. rewrite IHl; auto; lia.
Qed.

Lemma firstn_upd_ge (l : list A) i n v : n <= i -> firstn n (upd l i v) = firstn n l.
Proof.
  revert i n; induction l; intros i n H; simpl; auto.
  destruct n; auto. destruct i; [lia|]. simpl. rewrite IHl; auto; lia.
Qed.

Lemma skipn_upd_lt (l : list A) i n v : i < n -> skipn n (upd l i v) = skipn n l.
Proof.
  revert i n; induction l; intros i n H; simpl. now rewrite skipn_nil.
  destruct n; [lia|]. destruct i; simpl; auto. apply IHl; lia.
Qed.

End Lists.

Lemma get_map_seq {B} (g : nat -> B) n k : k < n -> get (map g (seq 0 n)) k = Ok (g k).
Proof.
  intros H. rewrite (get_ok _ k (g 0)) by now rewrite map_length, seq_length. now rewrite nth_map_seq.
Qed.

Lemma get_map {A B} (f : A -> B) (l : list A) k d : k < length l -> get (map f l) k = Ok (f (nth k l d)).
Proof.
  intros H. rewrite (get_ok _ k (f d)) by now rewrite map_length. now rewrite map_nth.
Qed.

Lemma zip_with_length {A B C} (f : A -> B -> C) : forall a b, length a <= length b -> length (zip_with f a b) = length a.
Proof.
  induction a; intros b H. reflexivity. destruct b; [simpl in H; lia|]. simpl. rewrite IHa; auto. simpl in H; lia.
Qed.

Lemma zip_with_nth {A B C} (f : A -> B -> C) da db dc : forall a b i, length a = length b -> i < length a ->
  nth i (zip_with f a b) dc = f (nth i a da) (nth i b db).
Proof.
  induction a; destruct b; simpl; intros i H Hi; try discriminate; try lia.
  destruct i; auto. apply IHa; lia.
Qed.

(* the shape of add_in_place, mul_acc and mul_acc_mixed: assert_eq on the lengths, then an element-wise update *)
Lemma zip_checked_spec {A B C} (f : A -> B -> C) da db dc a b :
  let r := if length a =? length b then Ok (zip_with f a b) else Panic in
  (length a = length b ->
     exists l, r = Ok l /\ length l = length a /\ forall i, i < length a -> nth i l dc = f (nth i a da) (nth i b db)) /\
  (r <> Panic <-> length a = length b).
Proof.
  cbv zeta. split.
  - intros H. rewrite (proj2 (Nat.eqb_eq _ _) H). eexists. split; [reflexivity|].
    split. apply zip_with_length; lia. intros i Hi. now apply zip_with_nth.
  - destruct (Nat.eqb_spec (length a) (length b)); split; intros; auto; try discriminate. congruence.
Qed.

Lemma zip_with_app_tail {A B} (f : A -> B -> A) : forall (a : list A) (b c : list B), length a <= length b ->
  zip_with f a (b ++ c) = zip_with f a b.
Proof.
  induction a as [|a0 a IH]; intros b c H. reflexivity.
  destruct b as [|b0 b]; [simpl in H; lia|]. simpl. f_equal. apply IH. simpl in H; lia.
Qed.

Lemma mapM_nth {A B} (f : A -> Result B) d : forall (xs : list A) (g : nat -> B),
  (forall k, k < length xs -> f (nth k xs d) = Ok (g k)) -> mapM f xs = Ok (map g (seq 0 (length xs))).
Proof.
  induction xs as [|h t IH]; intros g H. reflexivity.
  cbn [mapM length seq map]. pose proof (H 0 ltac:(simpl; lia)) as H0. simpl in H0. rewrite H0. cbn [bind].
  rewrite (IH (fun k => g (S k))). 2: { intros k Hk. apply (H (S k)). simpl; lia. }
  cbn [bind]. rewrite <- seq_shift, map_map. reflexivity.
Qed.

Lemma mapM_panic {A B} (f : A -> Result B) : forall (xs : list A) x, In x xs -> f x = Panic -> mapM f xs = Panic.
Proof.
  induction xs as [|h t IH]; intros x Hin Hx. destruct Hin.
  cbn [mapM]. destruct (f h) eqn:E; [|reflexivity]. cbn [bind].
  destruct Hin as [->|Hin]; [congruence|]. now rewrite (IH x Hin Hx).
Qed.

(* bind inversion *)
Lemma bind_ok {A B} (r : Result A) (f : A -> Result B) v :
  bind r f = Ok v -> exists a, r = Ok a /\ f a = Ok v.
Proof. destruct r; simpl; intros H; [eauto|discriminate]. Qed.

Lemma for_up_snoc {St} (body : nat -> St -> Result St) i n s :
  for_up i (S n) body s = bind (for_up i n body s) (fun s' => body (i + n) s').
Proof.
  revert i s; induction n; intros i s.
  - simpl. rewrite Nat.add_0_r. destruct (body i s); reflexivity.
  - change (for_up i (S (S n)) body s) with
      (match body i s with Ok s' => for_up (S i) (S n) body s' | Panic => Panic end).
    change (for_up i (S n) body s) with
      (match body i s with Ok s' => for_up (S i) n body s' | Panic => Panic end).
    destruct (body i s); [|reflexivity]. rewrite IHn. now rewrite Nat.add_succ_comm.
Qed.

Lemma for_up_add {St} (body : nat -> St -> Result St) i n : forall m s,
  for_up i (n + m) body s = bind (for_up i n body s) (fun s' => for_up (i + n) m body s').
Proof.
  induction m as [|m IH]; intros s.
  - rewrite Nat.add_0_r. destruct (for_up i n body s); reflexivity.
  - rewrite Nat.add_succ_r, for_up_snoc, IH. destruct (for_up i n body s) as [s'|]; [|reflexivity].
    cbn [bind]. rewrite for_up_snoc. now rewrite Nat.add_assoc.
Qed.

Lemma for_down_ext {St} (f g : nat -> St -> Result St) : (forall i s, f i s = g i s) ->
  forall n s, for_down n f s = for_down n g s.
Proof. intros H. induction n; intros s; cbn [for_down]; [reflexivity|]. rewrite H. destruct (g n s); auto. Qed.

(* Hoare rule for `for_up`: an invariant indexed by the loop counter *)
Lemma for_up_inv {St} (P : nat -> St -> Prop) (body : nat -> St -> Result St) n : forall i s,
  P i s -> (forall k s, i <= k < i + n -> P k s -> exists s', body k s = Ok s' /\ P (S k) s') ->
  exists s', for_up i n body s = Ok s' /\ P (i + n) s'.
Proof.
  induction n as [|n IH]; intros i s H0 Hstep.
  - exists s. now rewrite Nat.add_0_r.
  - destruct (Hstep i s ltac:(lia) H0) as (s1 & E1 & H1). cbn [for_up]. rewrite E1.
    rewrite <- Nat.add_succ_comm. apply IH; [exact H1|]. intros k s2 Hk. apply Hstep. lia.
Qed.

(* ------------------------------------------------------------------ field layer *)
Section Field.
Context {F : Type} (O : FOps F) (L : FLaws O).
Local Notation zero := (fzero O).
Local Notation one := (fone O).
Local Notation "a +f b" := (fadd O a b) (at level 50, left associativity).
Local Notation "a -f b" := (fsub O a b) (at level 50, left associativity).
Local Notation "a *f b" := (fmul O a b) (at level 40, left associativity).

Add Field Ffield : (FLaws_field_theory O L).

Lemma fmul_0_l a : zero *f a = zero. Proof. exact (FieldFacts.fmul_0_l O L a). Qed.
Lemma fmul_0_r a : a *f zero = zero. Proof. exact (FieldFacts.fmul_0_r O L a). Qed.

(* powers *)
Fixpoint fpow (x : F) (n : nat) : F := match n with 0 => one | S n' => x *f fpow x n' end.

Lemma fpow_add x a b : fpow x (a + b) = fpow x a *f fpow x b.
Proof. exact (FieldFacts.fpow_add O L x a b). Qed.

Lemma fpow_S_r x n : fpow x (S n) = fpow x n *f x.
Proof. exact (FieldFacts.fpow_S_r O L x n). Qed.

(* polynomial semantics: Σ c_i x^i *)
Fixpoint peval (p : list F) (x : F) : F :=
  match p with [] => zero | c :: t => c +f x *f peval t x end.

(* the same as an explicit sum over indices *)
Fixpoint psum (p : list F) (x : F) (i n : nat) : F :=
  match n with 0 => zero | S n' => nth i p zero *f fpow x i +f psum p x (S i) n' end.

Lemma peval_app p q x : peval (p ++ q) x = peval p x +f fpow x (length p) *f peval q x.
Proof. exact (FieldFacts.peval_app O L p q x). Qed.

Lemma peval_psum_aux p : forall q x, psum (q ++ p) x (length q) (length p) = fpow x (length q) *f peval p x.
Proof.
  induction p; intros q x; simpl. ring.
  rewrite app_nth2 by lia. rewrite Nat.sub_diag. simpl.
  pose proof (IHp (q ++ [a]) x) as G. rewrite last_length, <- app_assoc in G. simpl in G. rewrite G. ring.
Qed.

Lemma peval_psum p x : peval p x = psum p x 0 (length p).
Proof. pose proof (peval_psum_aux p [] x) as H. simpl in H. rewrite H. ring. Qed.

Lemma peval_repeat_zero n x : peval (repeat zero n) x = zero.
Proof. exact (FieldFacts.peval_repeat_zero O L n x). Qed.

Lemma peval_upd l k v x : k < length l ->
  peval (upd l k v) x = peval l x +f (v -f nth k l zero) *f fpow x k.
Proof.
  revert k; induction l; simpl; intros k H; [lia|].
  destruct k; simpl. ring. rewrite IHl by lia. ring.
Qed.

Lemma peval_firstn_S l m x : m < length l ->
  peval (firstn (S m) l) x = peval (firstn m l) x +f nth m l zero *f fpow x m.
Proof.
  intros H. rewrite (firstn_S_nth l m zero H). rewrite peval_app. simpl.
  rewrite firstn_length_le by lia. ring.
Qed.

Lemma peval_firstn_all l n x : length l <= n -> peval (firstn n l) x = peval l x.
Proof. intros H. now rewrite firstn_all2. Qed.

Lemma peval_snoc l c x : peval (l ++ [c]) x = peval l x +f c *f fpow x (length l).
Proof. exact (FieldFacts.peval_snoc O L l c x). Qed.

(* read-modify-write of one coefficient *)
Lemma rmw_ok (r : list F) k (g : F -> F) :
  k < length r ->
  (rk <- get r k;; set r k (g rk)) = Ok (upd r k (g (nth k r zero))).
Proof. intros H. rewrite (get_ok r k zero H). simpl. now apply set_ok. Qed.

Lemma peval_rmw_add r k s x : k < length r ->
  peval (upd r k (nth k r zero +f s)) x = peval r x +f s *f fpow x k.
Proof. intros H. rewrite peval_upd by assumption. ring. Qed.

End Field.
