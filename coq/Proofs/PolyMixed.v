(* C20 — the mixed instantiations eval<B,E> / eval_many<B,E> / mul_acc<F,E>: a base-field coefficient list
   evaluated at an extension point, base values accumulated into extension values. *)
From Coq Require Import List Arith Bool.
From VBase Require Import FieldOps.
From VModel Require Import Polynom.
From VProofs Require Import PolyBase PolyArith.
Import ListNotations.

Section Mixed.
Context {B E : Type} (OE : FOps E) (LE : FLaws OE).

Lemma eval_mixed_eq_eval (from : B -> E) p x : eval_mixed OE from p x = eval OE (map from p) x.
Proof.
  unfold eval_mixed, eval. rewrite <- map_rev. generalize (fzero OE).
  induction (rev p) as [|c t IH]; intros acc; [reflexivity|apply IH].
Qed.

(* eval<B,E>(p, x) = sum from(p_i) x^i : the polynomial is embedded coefficient by coefficient *)
Lemma eval_mixed_spec (from : B -> E) p x : eval_mixed OE from p x = peval OE (map from p) x.
Proof. now rewrite eval_mixed_eq_eval, (eval_horner OE LE). Qed.

Lemma eval_many_mixed_spec (from : B -> E) p xs :
  eval_many_mixed OE from p xs = map (peval OE (map from p)) xs.
Proof. unfold eval_many_mixed. apply map_ext. intros. apply eval_mixed_spec. Qed.

Lemma mul_acc_mixed_spec (mul_base : E -> B -> E) (zb : B) a b c :
  (length a = length b ->
     exists r, mul_acc_mixed OE mul_base a b c = Ok r /\ length r = length a /\
               forall i, i < length a -> nth i r (fzero OE) = fadd OE (nth i a (fzero OE)) (mul_base c (nth i b zb))) /\
  (mul_acc_mixed OE mul_base a b c <> Panic <-> length a = length b).
Proof. exact (zip_checked_spec _ (fzero OE) zb (fzero OE) a b). Qed.

(* when mul_base is multiplication by the embedded element (C08_ext_mul_base_spec for the five extensions),
   mul_acc<F,E> is mul_acc<E,E> on the embedded vector *)
Lemma mul_acc_mixed_embed (mul_base : E -> B -> E) (from : B -> E) a b c :
  (forall e y, mul_base e y = fmul OE e (from y)) ->
  mul_acc_mixed OE mul_base a b c = mul_acc OE a (map from b) c.
Proof.
  intros H. unfold mul_acc_mixed, mul_acc. rewrite map_length.
  destruct (length a =? length b); [|reflexivity]. f_equal.
  revert b. induction a as [|x a IH]; intros [|y b]; simpl; auto. now rewrite H, IH.
Qed.

End Mixed.
