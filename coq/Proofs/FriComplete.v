(* C15 — end-to-end completeness of the MODEL prover and verifier (Model/Fri.v): deg f <= bound and a well-formed schedule
   ==> run_verifier (prove f) = Ok, for every non-empty query list (duplicates and positions colliding after folding
   included).  The honest transcript is built layer by layer ([chain]) and every phase of prover and verifier is run along
   it.  Hypotheses about the externals (Section level): Merkle completeness (the statements of C10_batch_complete /
   C10_new_ok for the abstract tree functions) and totality of the coin's draw. *)
From Coq Require Import List Arith Bool Lia Ring Field.
From VBase Require Import FieldOps.
From VModel Require Import Fri.
From VProofs Require Import ListFacts Pow2Facts FriIdx FriField FriInterp FriRoots FriCoset FriAccept.
Import ListNotations.

Local Arguments mkVCh {F D MN}.
Local Arguments mkVS {F D MN}.
Local Arguments mkVerifier {F D}.
Local Arguments v_commitments {F D}.
Local Arguments v_alphas {F D}.
Local Arguments v_options {F D}.
Local Arguments v_partitions {F D}.
Local Arguments folding_roots_of {F} O {D}.

Section Complete.
Context {F : Type} (O : FOps F) (L : FLaws O).
Add Field FfieldK : (FLaws_field_theory O L).

Local Notation zero := (fzero O).
Local Notation one := (fone O).
Local Infix "+f" := (fadd O) (at level 50, left associativity).
Local Infix "*f" := (fmul O) (at level 40, left associativity).
Local Notation "-f x" := (fneg O x) (at level 35, right associativity).
Local Notation peval := (peval O).
Local Notation fpow := (fpow O).

Variable rou : nat -> F.
Variable K : nat.
Hypothesis K_pos : 1 <= K.
Hypothesis rou_sq : forall k, k < K -> rou (S k) *f rou (S k) = rou k.
Hypothesis rou_1 : rou 1 = -f one.
Hypothesis two_nz : one +f one <> zero.
Variable gen_offset : F.
Hypothesis offset_nz : gen_offset <> zero.
Variable dbg : bool.

Variable D : Type.
Variable D_eqb : D -> D -> bool.
Hypothesis D_eqb_spec : forall a b, D_eqb a b = true <-> a = b.
Variable hash_elements : list F -> D.
Variable MT MN : Type.
Variable mt_new : list D -> option MT.
Variable mt_root : MT -> D.
Variable mt_prove_batch : MT -> list nat -> option MN.
Variable mt_verify_batch : D -> list nat -> list D -> MN -> nat -> auth_res.
Variable CS : Type.
Variable cs_reseed : CS -> D -> CS.
Variable cs_draw : CS -> CS * draw_res F.

(* Merkle completeness: C10_new_ok and C10_batch_complete, for the abstract functions *)
Hypothesis merkle_new_ok : forall leaves d, 1 <= d -> length leaves = 2 ^ d -> exists t, mt_new leaves = Some t.
Hypothesis merkle_batch_complete : forall leaves t d indexes dflt,
  mt_new leaves = Some t -> length leaves = 2 ^ d -> 1 <= d <= 62 ->
  indexes <> [] -> length indexes <= 255 -> NoDup indexes -> (forall i, In i indexes -> i < length leaves) ->
  exists nodes, mt_prove_batch t indexes = Some nodes /\
    mt_verify_batch (mt_root t) indexes (map (fun i => nth i leaves dflt) indexes) nodes d = AuthOk.
(* the public coin always yields an element (DefaultRandomCoin fails after 1000 rejected candidates) *)
Hypothesis draw_total : forall c, exists c' a, cs_draw c = (c', DrawOk a).

(* schedule parameters: folding 2^f, blowup 2^b *)
Variable f b remmax : nat.
Hypothesis f_pos : 1 <= f.
Hypothesis f_supported : supported_folding (2 ^ f) = true.
Local Notation N := (2 ^ f).
Local Notation opts := (mkOpts (2 ^ b) (2 ^ f) remmax).
Local Notation winv := (fpow (rou f) (2 ^ f - 1)).

Local Notation rouR := (Build_rou_family O rou K K_pos rou_sq rou_1 two_nz).

Lemma Nnz : N <> 0. Proof. apply pow2_nonzero. Qed.

(* one layer of size 2^a': rows, next layer *)
Definition rowsE (a' : nat) (E : list F) : list (list F) :=
  map (row_of zero N (2 ^ (a' - f)) E) (seq 0 (2 ^ (a' - f))).
Definition nextE (a' : nat) (E : list F) (alpha : F) : list F :=
  map (fun q => drp_row O N winv (finv O (fnat O N)) (finv O (gen_offset *f fpow (rou a') q)) alpha
                 (row_of zero N (2 ^ (a' - f)) E q)) (seq 0 (2 ^ (a' - f))).

Lemma pow_split a' : f <= a' -> 2 ^ a' = 2 ^ (a' - f) * N.
Proof. intros H. rewrite <- Nat.pow_add_r. f_equal. lia. Qed.

Lemma nextE_length a' E alpha : length (nextE a' E alpha) = 2 ^ (a' - f).
Proof. unfold nextE. now rewrite map_length, seq_length. Qed.

Lemma rowsE_length a' E : length (rowsE a' E) = 2 ^ (a' - f).
Proof. unfold rowsE. now rewrite map_length, seq_length. Qed.

Lemma rowsE_rows a' E r : In r (rowsE a' E) -> length r = N.
Proof. unfold rowsE. intros H. apply in_map_iff in H. destruct H as [q [<- _]]. apply row_of_length. Qed.

Lemma transpose_ok a' E : f <= a' -> length E = 2 ^ a' -> transpose_slice zero N E = Ok (rowsE a' E).
Proof. intros Hf Hl. apply transpose_slice_rows; [apply Nnz | now rewrite Hl, pow_split]. Qed.

Lemma apply_drp_ok a' E alpha : f <= a' <= K ->
  apply_drp O rou K N (rowsE a' E) gen_offset alpha = Ok (nextE a' E alpha).
Proof.
  intros H. unfold rowsE, nextE.
  pose proof (apply_drp_rows O L rou K K_pos rou_sq rou_1 two_nz (a' - f) f f_pos ltac:(lia) E gen_offset alpha offset_nz) as A.
  replace (a' - f + f) with a' in A by lia. exact A.
Qed.

(* ---------------------------------------------------------------- the honest transcript *)
Record lrec : Type := mkL { l_tree : MT; l_E : list F; l_alpha : F; l_nodes : MN; l_pos : list nat; l_d : nat }.

(* chain a' E coin Pos ls El cl Pl al: committing to and opening the layers ls one after the other leads from the
   evaluations E over 2^a' points, coin state coin and positions Pos to El over 2^al points, cl and Pl *)
Inductive chain : nat -> list F -> CS -> list nat -> list lrec -> list F -> CS -> list nat -> nat -> Prop :=
| ch_nil : forall a' E coin Pos, chain a' E coin Pos [] E coin Pos a'
| ch_cons : forall a' E coin Pos t alpha nodes coin' ls El cl Pl al,
    mt_new (map hash_elements (rowsE a' E)) = Some t ->
    cs_draw (cs_reseed coin (mt_root t)) = (coin', DrawOk alpha) ->
    mt_prove_batch t (fold_positions_core Pos (2 ^ (a' - f))) = Some nodes ->
    mt_verify_batch (mt_root t) (fold_positions_core Pos (2 ^ (a' - f)))
      (map hash_elements (map (row_of zero N (2 ^ (a' - f)) E) (fold_positions_core Pos (2 ^ (a' - f))))) nodes (a' - f) = AuthOk ->
    chain (a' - f) (nextE a' E alpha) coin' (fold_positions_core Pos (2 ^ (a' - f))) ls El cl Pl al ->
    chain a' E coin Pos (mkL t E alpha nodes (fold_positions_core Pos (2 ^ (a' - f))) (a' - f) :: ls) El cl Pl al.

(* properties of a position list that are preserved by folding *)
Definition pos_ok (a' : nat) (Pos : list nat) : Prop :=
  Pos <> [] /\ length Pos <= 255 /\ forall p, In p Pos -> p < 2 ^ a'.

Lemma dedup_length_le l : length (dedup l) <= length l.
Proof. induction l as [|x l IH]; cbn; [lia|]. pose proof (filter_length_le (fun y => negb (y =? x)) (dedup l)). lia. Qed.

Lemma folded_ok a' Pos : f < a' -> pos_ok a' Pos ->
  let fd := fold_positions_core Pos (2 ^ (a' - f)) in
  pos_ok (a' - f) fd /\ NoDup fd /\ fold_positions Pos (2 ^ a') N = Ok fd.
Proof.
  intros Hf [Hne [Hlen Hin]] fd.
  pose proof (pow2_nonzero (a' - f)) as Hr. pose proof (pow2_div_pow2 a' f ltac:(lia)) as Hdiv.
  destruct (fold_positions_spec Pos (2 ^ a') N Nnz) as [l [Hl [El [Hnd [Hrange Hmem]]]]]; [left; now rewrite Hdiv|].
  rewrite Hdiv in *. assert (Efd : fd = l) by (unfold fd; rewrite fold_positions_core_dedup; now rewrite El).
  rewrite Efd. repeat split; auto.
  - destruct Pos as [|p Pos]; [contradiction|]. rewrite El. cbn. discriminate.
  - rewrite El. pose proof (dedup_length_le (map (fun p => p mod 2 ^ (a' - f)) Pos)). rewrite map_length in *. lia.
Qed.

Lemma nth_map_hash_rows a' E q dflt : q < 2 ^ (a' - f) ->
  nth q (map hash_elements (rowsE a' E)) dflt = hash_elements (row_of zero N (2 ^ (a' - f)) E q).
Proof.
  intros Hq. unfold rowsE. rewrite map_map. now rewrite nth_map_seq.
Qed.

(* the chain exists for every well-formed schedule *)
Lemma chain_exists : forall k a' E coin Pos, k * f < a' -> a' <= 62 -> length E = 2 ^ a' -> pos_ok a' Pos ->
  exists ls El cl Pl, chain a' E coin Pos ls El cl Pl (a' - k * f) /\ length ls = k /\
                      length El = 2 ^ (a' - k * f) /\ pos_ok (a' - k * f) Pl.
Proof.
  induction k as [|k IH]; intros a' E coin Pos Hk Ha HE HP.
  - exists [], E, coin, Pos. cbn [Nat.mul]. rewrite Nat.sub_0_r. repeat split; auto using ch_nil; apply HP.
  - assert (Hf : f < a') by (cbn in Hk; nia).
    destruct (folded_ok a' Pos Hf HP) as [HP' [Hnd _]].
    set (fd := fold_positions_core Pos (2 ^ (a' - f))) in *.
    destruct (merkle_new_ok (map hash_elements (rowsE a' E)) (a' - f)) as [t Ht]; [lia | now rewrite map_length, rowsE_length|].
    destruct (draw_total (cs_reseed coin (mt_root t))) as [coin' [alpha Hd]].
    destruct HP' as [Hne' [Hlen' Hin']].
    destruct (merkle_batch_complete _ t (a' - f) fd (hash_elements []) Ht) as [nodes [Hpb Hvb]];
      [now rewrite map_length, rowsE_length | lia | assumption | assumption | assumption
      | intros i Hi; rewrite map_length, rowsE_length; now apply Hin' |].
    assert (Eleaves : map (fun i => nth i (map hash_elements (rowsE a' E)) (hash_elements [])) fd
                      = map hash_elements (map (row_of zero N (2 ^ (a' - f)) E) fd)).
    { rewrite map_map. apply map_ext_in. intros q Hq. apply nth_map_hash_rows. now apply Hin'. }
    rewrite Eleaves in Hvb.
    destruct (IH (a' - f) (nextE a' E alpha) coin' fd) as [ls [El [cl [Pl [Hc [Hls [HEl HPl]]]]]]];
      [cbn in Hk; nia | lia | apply nextE_length | repeat split; assumption |].
    exists (mkL t E alpha nodes fd (a' - f) :: ls), El, cl, Pl.
    replace (a' - S k * f) with (a' - f - k * f) by (cbn; lia).
    repeat split; auto; try apply HPl.
    + eapply ch_cons; eassumption.
    + cbn. now rewrite Hls.
Qed.

(* a chain that starts from a layer of 2^a' evaluations, a' <= K, with more than length ls * f levels left and an
   admissible position list *)
Definition wf_chain a' E coin Pos ls El cl Pl al : Prop :=
  chain a' E coin Pos ls El cl Pl al /\ length ls * f < a' <= K /\ length E = 2 ^ a' /\ pos_ok a' Pos.

(* induction along such a chain: the step comes with the facts about the folded positions that every use needs *)
Lemma wf_chain_ind (Q : nat -> list F -> CS -> list nat -> list lrec -> list F -> CS -> list nat -> nat -> Prop) :
  (forall a' E coin Pos, Q a' E coin Pos [] E coin Pos a') ->
  (forall a' E coin Pos t alpha nodes coin' ls El cl Pl al,
     let fd := fold_positions_core Pos (2 ^ (a' - f)) in
     f < a' <= K -> length E = 2 ^ a' -> pos_ok a' Pos ->
     pos_ok (a' - f) fd -> fold_positions Pos (2 ^ a') N = Ok fd ->
     mt_new (map hash_elements (rowsE a' E)) = Some t ->
     cs_draw (cs_reseed coin (mt_root t)) = (coin', DrawOk alpha) ->
     mt_prove_batch t fd = Some nodes ->
     mt_verify_batch (mt_root t) fd (map hash_elements (map (row_of zero N (2 ^ (a' - f)) E) fd)) nodes (a' - f) = AuthOk ->
     wf_chain (a' - f) (nextE a' E alpha) coin' fd ls El cl Pl al ->
     Q (a' - f) (nextE a' E alpha) coin' fd ls El cl Pl al ->
     Q a' E coin Pos (mkL t E alpha nodes fd (a' - f) :: ls) El cl Pl al) ->
  forall a' E coin Pos ls El cl Pl al, wf_chain a' E coin Pos ls El cl Pl al -> Q a' E coin Pos ls El cl Pl al.
Proof.
  intros Hnil Hcons a' E coin Pos ls El cl Pl al [Hc [Hk [HE HP]]].
  induction Hc as [a' E coin Pos | a' E coin Pos t alpha nodes coin' ls El cl Pl al Ht Hd Hpb Hvb Hc IH]; [apply Hnil|].
  cbn [length] in Hk. assert (Hf : f < a' <= K) by nia.
  destruct (folded_ok a' Pos (proj1 Hf) HP) as [HP' [_ Hfold]].
  assert (Hk' : length ls * f < a' - f <= K) by nia.
  apply (Hcons a' E coin Pos t alpha nodes coin' ls El cl Pl al); try assumption.
  - repeat split; [assumption | lia | lia | apply nextE_length | apply HP'..].
  - apply IH; [assumption | apply nextE_length | assumption].
Qed.

(* ---------------------------------------------------------------- prover: commit phase *)
Local Notation prover := (@prover F MT).
Local Notation pchannel := (pchannel D CS).
Local Notation build_layers_loop := (build_layers_loop O rou K gen_offset D hash_elements MT mt_new mt_root CS cs_reseed cs_draw).

Definition layers_of (ls : list lrec) : list (@fri_layer F MT) :=
  map (fun l => mkLayer MT (l_tree l) (concat (map (row_of zero N (length (l_E l) / N) (l_E l)) (seq 0 (length (l_E l) / N))))) ls.
Definition roots_of (ls : list lrec) : list D := map (fun l => mt_root (l_tree l)) ls.
Definition alphas_of (ls : list lrec) : list F := map l_alpha ls.

Lemma chain_prover : forall a' E coin Pos ls El cl Pl al, wf_chain a' E coin Pos ls El cl Pl al ->
  forall (p : prover) comm,
  build_layers_loop (length ls) N p (mkPCh D CS coin comm) E
  = Ok (mkProver MT (pr_options MT p) (pr_layers MT p ++ layers_of ls) (pr_remainder MT p),
        mkPCh D CS cl (comm ++ roots_of ls), El).
Proof.
  intros a' E coin Pos ls El cl Pl al H.
  induction H as [a' E coin Pos | a' E coin Pos t alpha nodes coin' ls El cl Pl al fd Hf HE HP HP' Hfold Ht Hd Hpb Hvb Hc IH]
    using wf_chain_ind; intros p comm.
  - cbn. rewrite !app_nil_r. destruct p; reflexivity.
  - cbn [length Fri.build_layers_loop]. unfold build_layer.
    rewrite (transpose_ok a' E) by (assumption || lia). cbn [bind]. rewrite Ht. cbn [of_option bind].
    unfold pc_draw_alpha, pc_commit. cbn [pc_coin pc_commitments]. rewrite Hd. cbn [bind].
    rewrite apply_drp_ok by lia. cbn [bind]. rewrite IH.
    cbn [pr_options pr_layers pr_remainder]. rewrite <- !app_assoc.
    cbn [app layers_of roots_of map l_tree l_E]. unfold rowsE.
    rewrite HE, pow2_div_pow2 by lia. reflexivity.
Qed.

(* ---------------------------------------------------------------- prover: query phase *)
Definition opened_rows (l : lrec) : list (list F) := map (row_of zero N (2 ^ l_d l) (l_E l)) (l_pos l).
Definition pls_of (ls : list lrec) : list (@proof_layer F MN) :=
  map (fun l => mkPL (concat (opened_rows l)) (l_nodes l)) ls.

Lemma opened_rows_len l r : In r (opened_rows l) -> length r = N.
Proof. unfold opened_rows. intros H. apply in_map_iff in H. destruct H as [q [<- _]]. apply row_of_length. Qed.

Lemma chain_query : forall a' E coin Pos ls El cl Pl al, wf_chain a' E coin Pos ls El cl Pl al ->
  query_layers MT MN mt_prove_batch N (layers_of ls) Pos (2 ^ a') = Ok (pls_of ls).
Proof.
  intros a' E coin Pos ls El cl Pl al H.
  induction H as [a' E coin Pos | a' E coin Pos t alpha nodes coin' ls El cl Pl al fd Hf HE HP [Hne [Hlen Hin]] Hfold Ht Hd Hpb Hvb Hc IH]
    using wf_chain_ind; [reflexivity|].
  unfold layers_of; cbn [map]; fold (layers_of ls); cbn [Fri.query_layers l_tree l_E]. rewrite Hfold. cbn [bind].
  unfold query_layer. cbn [fl_tree fl_evals]. rewrite Hpb. cbn [of_option bind].
  rewrite HE, pow2_div_pow2 by lia. fold (rowsE a' E).
  rewrite (group_slice_concat (rowsE a' E) N Nnz (rowsE_rows a' E)). cbn [bind].
  rewrite (mapM_idx_map (rowsE a' E) (row_of zero N (2 ^ (a' - f)) E) fd).
  2:{ intros q Hq. specialize (Hin q Hq). unfold rowsE.
      rewrite nth_error_map, (nth_error_nth' (seq 0 (2 ^ (a' - f))) 0) by now rewrite seq_length.
      now rewrite seq_nth. }
  cbn [bind].
  assert (Hnil : is_nil (map (row_of zero N (2 ^ (a' - f)) E) fd) = false) by (destruct fd; [contradiction | reflexivity]).
  rewrite Hnil, IH. reflexivity.
Qed.

(* ---------------------------------------------------------------- verifier channel: parsing *)
Definition qs_of (ls : list lrec) : list (list F) := map (fun l => concat (opened_rows l)) ls.
Definition mps_of (ls : list lrec) : list (list D * MN * nat) :=
  map (fun l => (map hash_elements (opened_rows l), l_nodes l, l_d l)) ls.

Lemma chain_parse : forall a' E coin Pos ls El cl Pl al, wf_chain a' E coin Pos ls El cl Pl al ->
  parse_layers D hash_elements MN N (2 ^ a') (pls_of ls) = Some (Some (qs_of ls, mps_of ls)).
Proof.
  intros a' E coin Pos ls El cl Pl al H.
  induction H as [a' E coin Pos | a' E coin Pos t alpha nodes coin' ls El cl Pl al fd Hf HE HP [Hne [Hlen Hin]] Hfold Ht Hd Hpb Hvb Hc IH]
    using wf_chain_ind; [reflexivity|].
  unfold pls_of; cbn [map]; fold (pls_of ls); cbn [Fri.parse_layers].
  assert (Hlt : (2 ^ a' <? N) = false) by (apply Nat.ltb_ge, Nat.pow_le_mono_r; lia).
  rewrite Hlt, pow2_div_pow2 by lia. unfold parse_layer. cbn [pl_values pl_nodes].
  set (l0 := mkL t E alpha nodes fd (a' - f)).
  pose proof (concat_length_rows (opened_rows l0) N (opened_rows_len l0)) as Hcl.
  assert (Hol : length (opened_rows l0) = length fd) by (unfold opened_rows; cbn; apply map_length).
  assert (Hfd : length fd <> 0) by (destruct fd; [contradiction | discriminate]).
  rewrite (eqb0_false N Nnz), Hcl, Nat.mod_mul, Nat.div_mul by apply Nnz. cbn [Nat.eqb negb].
  rewrite Hol, (eqb0_false _ Hfd), <- Hol, <- Hcl.
  rewrite (chunks_concat (opened_rows l0) N _ Nnz (opened_rows_len l0) (le_n _)).
  rewrite (eqb0_false _ (pow2_nonzero (a' - f))), log2_pow2, (eqb0_false (a' - f)) by lia.
  rewrite map_length, Hol. destruct (255 <? length fd) eqn:E4; [apply Nat.ltb_lt in E4; lia|].
  rewrite IH. reflexivity.
Qed.

(* ---------------------------------------------------------------- verifier: the challenges *)
Lemma chain_alphas : forall a' E coin Pos ls El cl Pl al, chain a' E coin Pos ls El cl Pl al ->
  forall tail depth last e, length ls * f <= e ->
  draw_alphas D CS cs_reseed cs_draw coin (roots_of ls ++ tail) depth last (2 ^ e) N
  = bind (draw_alphas D CS cs_reseed cs_draw cl tail (depth + length ls) last (2 ^ (e - length ls * f)) N)
         (fun r => Ok (fst r, alphas_of ls ++ snd r)).
Proof.
  induction 1 as [a' E coin Pos | a' E coin Pos t alpha nodes coin' ls El cl Pl al Ht Hd Hpb Hvb Hc IH];
    intros tail depth last e He.
  - cbn [length roots_of alphas_of map app Nat.mul]. rewrite Nat.add_0_r, Nat.sub_0_r.
    destruct (draw_alphas D CS cs_reseed cs_draw coin tail depth last (2 ^ e) N) as [[c al0]| |]; reflexivity.
  - unfold roots_of, alphas_of; cbn [map app]; fold (roots_of ls); fold (alphas_of ls).
    cbn [Fri.draw_alphas l_tree l_alpha]. rewrite Hd.
    assert (Hfe : f <= e) by (cbn in He; nia).
    rewrite (eqb0_false N Nnz), pow2_mod_pow2 by assumption. cbn [Nat.eqb negb]. rewrite andb_false_r.
    rewrite pow2_div_pow2 by assumption. rewrite IH by (cbn in He; nia).
    cbn [length]. replace (depth + S (length ls)) with (S depth + length ls) by lia.
    replace (e - f - length ls * f) with (e - S (length ls) * f) by (cbn; lia).
    destruct (draw_alphas D CS cs_reseed cs_draw cl tail _ last _ N) as [[c al0]| |]; reflexivity.
Qed.

(* ---------------------------------------------------------------- verifier: the layer loop *)
Definition evals_at (E : list F) (Pos : list nat) : list F := map (fun p => nth p E zero) Pos.

Lemma nextE_nth a' E alpha q : q < 2 ^ (a' - f) ->
  nth q (nextE a' E alpha) zero
  = drp_row O N winv (finv O (fnat O N)) (finv O (gen_offset *f fpow (rou a') q)) alpha (row_of zero N (2 ^ (a' - f)) E q).
Proof.
  intros Hq. unfold nextE. now rewrite nth_map_seq.
Qed.

Lemma layer_values_agree a' E alpha fd : f < a' <= K -> (forall q, In q fd -> q < 2 ^ (a' - f)) ->
  map2 (fun x r => interp_eval O x r alpha)
       (map (row_xs O gen_offset (map (fun j => fpow (rou f) j) (seq 0 N)) (rou a')) fd)
       (map (row_of zero N (2 ^ (a' - f)) E) fd)
  = evals_at (nextE a' E alpha) fd.
Proof.
  intros Ha Hin. rewrite map2_map_same. unfold evals_at. apply map_ext_in. intros q Hq.
  rewrite nextE_nth by now apply Hin.
  destruct (rou_root O L rou K rouR f ltac:(lia)) as [w_pow w_prim w_inv].
  rewrite <- (verifier_row_eq_prover_row O L N (rou f) winv w_pow w_prim w_inv (fnat_pow2_nonzero O L rou K rouR f)).
  - f_equal. unfold row_xs, row_nodes. rewrite map_map. apply map_ext. intros j. rewrite (fexp_spec O L). ring.
  - apply (coset_point_nonzero O L rou K rouR); [lia | assumption].
  - apply row_of_length.
Qed.

Local Notation layers_loop := (layers_loop O gen_offset dbg D MN mt_verify_batch).

Lemma chain_verify : forall a' E coin Pos ls El cl Pl al, wf_chain a' E coin Pos ls El cl Pl al ->
  forall (v : @verifier F D) pre_c tail_c pre_a tail_a ptail qtail rem e cmts,
  length ls * f <= e ->
  v_commitments v = pre_c ++ roots_of ls ++ tail_c -> v_alphas v = pre_a ++ alphas_of ls ++ tail_a ->
  length pre_a = length pre_c -> v_options v = opts -> v_partitions v = 1 ->
  layers_loop (length ls) N v (map (fun j => fpow (rou f) j) (seq 0 N)) (length pre_c)
    (mkVS (rou a') (2 ^ a') (2 ^ e) Pos (evals_at E Pos) (mkVCh cmts (mps_of ls ++ ptail) (qs_of ls ++ qtail) rem 1))
  = Ok (mkVS (rou al) (2 ^ al) (2 ^ (e - length ls * f)) Pl (evals_at El Pl) (mkVCh cmts ptail qtail rem 1)).
Proof.
  intros a' E coin Pos ls El cl Pl al H.
  induction H as [a' E coin Pos | a' E coin Pos t alpha nodes coin' ls El cl Pl al fd Hf HE HP HP' Hfold Ht Hd Hpb Hvb Hc IH]
    using wf_chain_ind; intros v pre_c tail_c pre_a tail_a ptail qtail rem e cmts He Hvc Hva Hpre Hvo Hvp.
  - cbn. now rewrite Nat.sub_0_r.
  - cbn [length Fri.layers_loop]. cbn [length] in He.
    set (l0 := mkL t E alpha nodes fd (a' - f)).
    set (s1 := mkVS (rou (a' - f)) (2 ^ (a' - f)) (2 ^ (e - f)) fd (evals_at (nextE a' E alpha) fd)
                    (mkVCh cmts (mps_of ls ++ ptail) (qs_of ls ++ qtail) rem 1)).
    assert (Hstep : Fri.layer_step O gen_offset dbg D MN mt_verify_batch N v (map (fun j => fpow (rou f) j) (seq 0 N)) (length pre_c)
              (mkVS (rou a') (2 ^ a') (2 ^ e) Pos (evals_at E Pos)
                 (mkVCh cmts (mps_of (l0 :: ls) ++ ptail) (qs_of (l0 :: ls) ++ qtail) rem 1)) = Ok s1).
    { apply (layer_step_accepts O L gen_offset dbg D MN mt_verify_batch).
      destruct HP as [_ [_ HinP]]. destruct HP' as [Hne' [Hlen' Hin']].
      exists fd, fd, (mt_root t), (map hash_elements (opened_rows l0)), nodes, (a' - f), (concat (opened_rows l0)),
             (opened_rows l0), alpha.
      cbn [vs_positions vs_size vs_chan vs_evals vs_mdp1 vs_gen vc_proofs vc_queries].
      rewrite Hvo, Hvp. cbn [fo_folding].
      split; [exact Hfold|]. split; [reflexivity|].
      split; [rewrite Hvc, nth_error_app2, Nat.sub_diag by lia; reflexivity|].
      split; [reflexivity|]. split; [exact Hvb|]. split; [reflexivity|].
      split; [apply (group_slice_concat _ N Nnz (opened_rows_len l0))|].
      split.
      { unfold opened_rows, l0. cbn [l_d l_E l_pos]. unfold fd.
        rewrite (pow_split a') by lia. apply get_query_values_layout; [apply Nnz | apply pow2_nonzero |].
        intros p Hp. rewrite <- (pow_split a') by lia. now apply HinP. }
      split; [unfold opened_rows, l0; cbn [l_pos]; rewrite map_length; destruct dbg; lia|].
      split; [rewrite Hva, nth_error_app2, Hpre, Nat.sub_diag by lia; reflexivity|].
      split; [apply pow2_mod_pow2; nia|].
      unfold s1. rewrite (fexp_spec O L), (rou_pow2_sub O L rou K rouR a' f), !pow2_div_pow2 by nia. f_equal.
      symmetry. unfold opened_rows, l0. cbn [l_d l_E l_pos]. apply layer_values_agree; [lia | assumption]. }
    rewrite Hstep. cbn [bind]. unfold s1.
    replace (S (length pre_c)) with (length (pre_c ++ [mt_root t])) by (rewrite app_length; cbn; lia).
    rewrite (IH v (pre_c ++ [mt_root t]) tail_c (pre_a ++ [alpha]) tail_a ptail qtail rem (e - f) cmts).
    + replace (e - f - length ls * f) with (e - length (l0 :: ls) * f) by (cbn [length Nat.mul]; lia). reflexivity.
    + nia.
    + rewrite Hvc, <- app_assoc. reflexivity.
    + rewrite Hva, <- app_assoc. reflexivity.
    + rewrite !app_length, Hpre. reflexivity.
    + assumption.
    + assumption.
Qed.

(* ---------------------------------------------------------------- the polynomial invariant *)
Lemma chain_poly : forall a' E coin Pos ls El cl Pl al, chain a' E coin Pos ls El cl Pl al ->
  forall P m, length ls * f < a' -> a' <= K -> E = coset_evals O P gen_offset (rou a') (2 ^ a') ->
  length P = m * N ^ length ls ->
  exists Pk, El = coset_evals O Pk gen_offset (rou al) (2 ^ al) /\ length Pk = m.
Proof.
  induction 1 as [a' E coin Pos | a' E coin Pos t alpha nodes coin' ls El cl Pl al Ht Hd Hpb Hvb Hc IH];
    intros P m Hk Ha HE HP.
  - exists P. split; [assumption|]. cbn in HP. lia.
  - assert (Hf : f < a') by (cbn in Hk; nia).
    apply (IH (fold_next O f alpha gen_offset P) m); [cbn in Hk; nia | lia | |].
    + pose proof (apply_drp_ok a' E alpha ltac:(lia)) as A1.
      assert (HP' : length P = m * N ^ length ls * N) by (rewrite HP; cbn [length Nat.pow]; lia).
      pose proof (apply_drp_coset_relabelled O L rou K K_pos rou_sq rou_1 two_nz (a' - f) f f_pos ltac:(lia)
                    P (m * N ^ length ls) gen_offset alpha offset_nz HP') as A2.
      cbv zeta in A2. replace (a' - f + f) with a' in A2 by lia. rewrite <- (pow_split a') in A2 by lia.
      rewrite <- HE in A2. unfold rowsE in A1. rewrite A1 in A2. injection A2 as A2. exact A2.
    + apply (fold_next_length O). rewrite HP. cbn [length Nat.pow]. lia.
Qed.

(* ---------------------------------------------------------------- end to end *)
Local Notation prove := (prove O rou K gen_offset D hash_elements MT MN mt_new mt_root mt_prove_batch CS cs_reseed cs_draw).
Local Notation run_verifier := (run_verifier O rou K gen_offset dbg D D_eqb hash_elements MN mt_verify_batch CS cs_reseed cs_draw).

Lemma query_from_chain : forall a' E coin Pos ls El cl Pl al, wf_chain a' E coin Pos ls El cl Pl al ->
  match layers_of ls with
  | [] => Ok []
  | l0 :: _ => if negb (supported_folding N) then Panic
               else query_layers MT MN mt_prove_batch N (layers_of ls) Pos (length (fl_evals MT l0))
  end = Ok (pls_of ls).
Proof.
  intros a' E coin Pos ls El cl Pl al H. pose proof (chain_query _ _ _ _ _ _ _ _ _ H) as Q.
  destruct H as [Hc [Hk [HE HP]]].
  destruct Hc as [a' E coin Pos | a' E coin Pos t alpha nodes coin' ls El cl Pl al Ht Hd Hpb Hvb Hc']; [reflexivity|].
  assert (Hf : f < a') by (cbn in Hk; nia).
  unfold layers_of at 1. cbn [map]. rewrite f_supported. cbn [negb fl_evals l_E].
  rewrite HE, pow2_div_pow2 by lia. fold (rowsE a' E).
  rewrite (concat_length_rows (rowsE a' E) N (rowsE_rows a' E)), rowsE_length, <- (pow_split a') by lia.
  exact Q.
Qed.

(* the situation after the commit phase of an honest run: the schedule has k layers, the chain ls of committed layers
   leads from the evaluations to the last layer El on a domain of size 2^(a - k f), and El is the evaluation of Pk *)
Record honest_run a k coin0 evals positions ls El cl Pl Pk : Prop := {
  hr_layers : num_fri_layers opts (2 ^ a) = Some k;
  hr_blowup : b <= a - k * f;
  hr_chain : wf_chain a evals coin0 positions ls El cl Pl (a - k * f);
  hr_len : length ls = k;
  hr_last : El = coset_evals O Pk gen_offset (rou (a - k * f)) (2 ^ (a - k * f));
  hr_rem : length Pk = 2 ^ (a - k * f - b);
  hr_pos : pos_ok (a - k * f) Pl }.

Lemma prove_ok : forall a k coin0 evals positions ls El cl Pl Pk,
  honest_run a k coin0 evals positions ls El cl Pl Pk ->
  exists p', prove opts coin0 evals positions = Ok (roots_of ls ++ [hash_elements Pk], mkProof (pls_of ls) Pk 1, p').
Proof.
  intros a k coin0 evals positions ls El cl Pl Pk [Hnl Hb Hc Hls HElp HPk _].
  pose proof Hc as [_ [Hk [HE _]]]. rewrite Hls in Hk. set (mu := a - k * f) in *.
  unfold Fri.prove, build_layers. cbn [prover_new pr_layers is_nil negb pr_options].
  rewrite HE, Hnl. cbn [of_option bind fo_folding]. rewrite f_supported. cbn [negb]. rewrite andb_false_r.
  rewrite <- Hls, (chain_prover _ _ _ _ _ _ _ _ _ Hc).
  unfold prover_new. cbn [bind pr_options pr_layers pr_remainder app]. unfold set_remainder. cbn [pr_options fo_blowup].
  (* the remainder: interpolating the last layer gives back Pk, padded; the first 2^mu / 2^b coefficients are Pk *)
  rewrite HElp, (interpolate_coset O L rou K K_pos rou_sq rou_1 two_nz mu Pk gen_offset ltac:(lia) offset_nz)
    by (rewrite HPk; apply Nat.pow_le_mono_r; lia).
  cbn [bind]. rewrite (eqb0_false _ (pow2_nonzero b)), coset_evals_length, pow2_div_pow2, <- HPk, firstn_app_exact by lia.
  cbn [bind pr_layers pr_options pr_remainder pc_commit pc_coin pc_commitments app].
  unfold build_proof. cbn [pr_remainder pr_layers pr_options fo_folding].
  assert (Hnil : is_nil Pk = false) by (destruct Pk; [pose proof (pow2_nonzero (mu - b)); cbn in HPk; lia | reflexivity]).
  rewrite Hnil, (query_from_chain _ _ _ _ _ _ _ _ _ Hc). cbn [bind].
  rewrite HPk, is_pow2_pow2. cbn [negb]. eexists. reflexivity.
Qed.

Lemma verify_ok : forall a k coin0 evals positions ls El cl Pl Pk,
  honest_run a k coin0 evals positions ls El cl Pl Pk ->
  run_verifier true opts coin0 (mkProof (pls_of ls) Pk 1) (roots_of ls ++ [hash_elements Pk]) (2 ^ (a - b) - 1) (2 ^ a)
    (evals_at evals positions) positions
  = RunVerdict (Ok tt).
Proof.
  intros a k coin0 evals positions ls El cl Pl Pk [Hnl Hb Hc Hls HElp HPk HPl].
  pose proof Hc as [Hch [Hk [HE Hpos]]]. rewrite Hls in Hk. set (mu := a - k * f) in *.
  set (rc := hash_elements Pk). set (cs := roots_of ls ++ [rc]).
  assert (Hrl : length (roots_of ls) = k) by (unfold roots_of; now rewrite map_length).
  (* ---------------- channel *)
  unfold Fri.run_verifier, channel_new. cbn [fp_remainder fp_layers fp_partitions fo_folding].
  rewrite HPk, !is_pow2_pow2. cbn [negb].
  assert (HN2 : (N <=? 1) = false) by (apply Nat.leb_gt; pose proof (pow2_ge_2 f f_pos); lia).
  rewrite HN2, (chain_parse _ _ _ _ _ _ _ _ _ Hc).
  (* ---------------- FriVerifier::new *)
  unfold verifier_new. cbn [fo_blowup fo_folding vc_commitments vc_proofs vc_queries vc_remainder vc_partitions].
  assert (Hmd : 2 ^ (a - b) - 1 + 1 = 2 ^ (a - b)) by (pose proof (pow2_nonzero (a - b)); lia).
  rewrite Hmd, next_pow2_pow2, <- Nat.pow_add_r. replace (a - b + b) with a by lia.
  unfold ilog2. rewrite (eqb0_false _ (pow2_nonzero a)). cbn [bind].
  rewrite log2_pow2, get_rou_ok by lia. cbn [bind].
  unfold cs at 1. rewrite (chain_alphas _ _ _ _ _ _ _ _ _ Hch) by (rewrite Hls; lia).
  cbn [Fri.draw_alphas Nat.add].
  destruct (draw_total (cs_reseed cl rc)) as [cx [ax Hdx]]. rewrite Hdx.
  pose proof (eqb0_false N Nnz) as EN. rewrite EN.
  assert (Hlast : (length ls =? length cs - 1) = true).
  { apply Nat.eqb_eq. unfold cs. rewrite app_length, Hrl, Hls. cbn. lia. }
  rewrite Hlast. cbn [negb andb bind fst snd].
  (* ---------------- verify: the layers *)
  unfold verify_gen. cbn [v_options fo_folding].
  unfold evals_at at 1. rewrite map_length, Nat.eqb_refl. cbn [negb]. rewrite f_supported.
  unfold Fri.verify_generic_gen. rewrite EN. cbn [v_options v_domain_size].
  rewrite Hnl. cbn [of_option bind v_domain_generator v_max_poly_degree]. rewrite Hmd.
  set (v := mkVerifier (2 ^ (a - b) - 1) (2 ^ a) (rou a) cs (alphas_of ls ++ [ax]) opts 1).
  assert (Hloop : Fri.layers_loop O gen_offset dbg D MN mt_verify_batch k N v (folding_roots_of O N v) 0
            (mkVS (rou a) (2 ^ a) (2 ^ (a - b)) positions (evals_at evals positions)
                  (mkVCh [] (mps_of ls) (qs_of ls) Pk 1))
          = Ok (mkVS (rou mu) (2 ^ mu) (2 ^ (a - b - k * f)) Pl (evals_at El Pl) (mkVCh [] [] [] Pk 1))).
  { destruct (le_lt_dec f a) as [Hfa|Hfa].
    - assert (Hroots : folding_roots_of O N v = map (fun j => fpow (rou f) j) (seq 0 N)).
      { unfold folding_roots_of, v. cbn [v_domain_generator v_domain_size]. apply map_ext. intros j.
        rewrite (fexp_spec O L), pow2_div_pow2, (fpow_mul O L), (rou_pow2_sub O L rou K rouR) by lia.
        now replace (a - (a - f)) with f by lia. }
      rewrite Hroots, <- Hls.
      pose proof (chain_verify _ _ _ _ _ _ _ _ _ Hc v [] [rc] [] [ax] [] [] Pk (a - b) []) as CV.
      rewrite !app_nil_r in CV. cbn [length app] in CV. rewrite Hls in *. apply CV; auto; lia.
    - assert (Hk0 : k = 0) by nia. destruct ls; [|rewrite Hk0 in Hls; discriminate].
      unfold mu in *. clear mu. rewrite Hk0 in *. cbn [Nat.mul] in *. rewrite !Nat.sub_0_r in *.
      inversion Hch; subst. reflexivity. }
  rewrite Hloop. cbn [bind].
  (* ---------------- verify: the remainder *)
  unfold Fri.verify_remainder, v. cbn [vs_chan vc_remainder v_commitments vs_mdp1 vs_gen vs_positions vs_evals].
  unfold cs. rewrite nth_error_app2, Hrl, Nat.sub_diag by lia. cbn [nth_error].
  fold rc. rewrite (proj2 (D_eqb_spec rc rc) eq_refl). cbn [negb andb].
  assert (Hlt : (2 ^ (a - b - k * f) <? length Pk) = false).
  { apply Nat.ltb_ge. rewrite HPk. apply Nat.pow_le_mono_r; unfold mu; lia. }
  rewrite Hlt.
  assert (Hrem : remainder_check O gen_offset Pk (rou mu) Pl (evals_at El Pl) = true).
  { apply (remainder_check_spec O L gen_offset). intros i p e Hp He.
    unfold evals_at in He. rewrite nth_error_map, Hp in He. injection He as <-.
    rewrite HElp, coset_evals_nth, (fexp_spec O L); [reflexivity|].
    destruct HPl as [_ [_ Hin]]. apply Hin. eapply nth_error_In; eassumption. }
  rewrite Hrem. reflexivity.
Qed.

Theorem fri_complete : forall a k P positions coin0,
  num_fri_layers opts (2 ^ a) = Some k -> k * f < a -> b <= a - k * f -> a <= K -> a <= 62 ->
  length P = 2 ^ (a - b) -> pos_ok a positions ->
  let evals := coset_evals O P gen_offset (rou a) (2 ^ a) in
  exists cs proof p',
    prove opts coin0 evals positions = Ok (cs, proof, p') /\
    run_verifier true opts coin0 proof cs (2 ^ (a - b) - 1) (2 ^ a) (evals_at evals positions) positions
    = RunVerdict (Ok tt).
Proof.
  intros a k P positions coin0 Hnl Hkf Hb HaK Ha62 HP Hpos evals.
  assert (HE : length evals = 2 ^ a) by apply coset_evals_length.
  destruct (chain_exists k a evals coin0 positions Hkf Ha62 HE Hpos) as [ls [El [cl [Pl [Hc [Hls [HEl HPl]]]]]]].
  (* the last layer is the evaluation of a polynomial with 2^(a - k f - b) coefficients *)
  destruct (chain_poly _ _ _ _ _ _ _ _ _ Hc P (2 ^ (a - k * f - b))) as [Pk [HElp HPk]];
    [rewrite Hls; assumption | assumption | reflexivity | |].
  { rewrite HP, Hls. replace (N ^ k) with (2 ^ (k * f)) by (rewrite Nat.mul_comm, Nat.pow_mul_r; reflexivity).
    rewrite <- Nat.pow_add_r. f_equal. lia. }
  assert (H : honest_run a k coin0 evals positions ls El cl Pl Pk).
  { split; try assumption. split; [assumption | split; [rewrite Hls; lia | split; assumption]]. }
  destruct (prove_ok _ _ _ _ _ _ _ _ _ _ H) as [p' Hprove].
  exists (roots_of ls ++ [hash_elements Pk]), (mkProof (pls_of ls) Pk 1), p'.
  split; [exact Hprove | exact (verify_ok _ _ _ _ _ _ _ _ _ _ H)].
Qed.

End Complete.
