(* C01 — the DEEP composition polynomial: the prover's construction (prover/src/composer/mod.rs) evaluates to
   what the verifier recomputes from the queried rows and the OOD frame (verifier/src/composer.rs), its
   quotients are polynomials, and its degree is AT MOST n - 2 (not always equal). *)
From Coq Require Import List Arith Bool Lia Ring Field.
From VBase Require Import FieldOps.
From VModel Require Import Stark.
From VProofs Require Import FieldFacts StarkPoly.
Import ListNotations.

Section Deep.
Context {F : Type} (O : FOps F) (L : FLaws O).
Local Notation zero := (fzero O).
Local Notation one := (fone O).
Local Notation "a +f b" := (fadd O a b) (at level 50, left associativity).
Local Notation "a -f b" := (fsub O a b) (at level 50, left associativity).
Local Notation "a *f b" := (fmul O a b) (at level 40, left associativity).
Local Notation peval := (peval O).
Local Notation fpow := (fpow O).
Local Notation syn1 := (syn1 O).
Local Notation padd := (padd O).
Local Notation pscale := (pscale O).
Local Notation sub_const := (sub_const O).
Local Notation evals := (evals O).
Local Notation dot := (dot O).
Local Notation lincomb := (lincomb O).

Add Field Ffield2 : (FLaws_field_theory O L).

(* ------------------------------------------------------------------ list-polynomial operations *)
Lemma peval_padd : forall a b x, peval (padd a b) x = peval a x +f peval b x.
Proof. induction a as [|a0 a IH]; intros [|b0 b] x; simpl; try ring. rewrite IH. ring. Qed.
Lemma padd_length : forall a b, length (padd a b) = Nat.max (length a) (length b).
Proof. induction a as [|a0 a IH]; intros [|b0 b]; simpl; try reflexivity. now rewrite IH. Qed.
Lemma peval_pscale k p x : peval (pscale k p) x = peval p x *f k.
Proof. induction p; simpl; [ring | rewrite IHp; ring]. Qed.
Lemma pscale_length k p : length (pscale k p) = length p.
Proof. apply map_length. Qed.

Lemma last_padd : forall a b, length a = length b -> a <> [] -> last (padd a b) zero = last a zero +f last b zero.
Proof.
  induction a as [|a0 a IH]; intros [|b0 b] Hl Hn; try congruence; try (simpl in Hl; discriminate).
  destruct a as [|a1 a]; destruct b as [|b1 b]; try (simpl in Hl; discriminate).
  - reflexivity.
  - change (padd (a0 :: a1 :: a) (b0 :: b1 :: b)) with ((a0 +f b0) :: padd (a1 :: a) (b1 :: b)).
    assert (E : padd (a1 :: a) (b1 :: b) <> []) by (simpl; discriminate).
    destruct (padd (a1 :: a) (b1 :: b)) as [|u v] eqn:Eu; [congruence|].
    change (last ((a0 +f b0) :: u :: v) zero) with (last (u :: v) zero). rewrite <- Eu.
    rewrite IH by (simpl in *; try lia; discriminate). reflexivity.
Qed.
Lemma last_pscale k : forall p, last (pscale k p) zero = last p zero *f k.
Proof.
  induction p as [|c t IH]; [simpl; ring|]. destruct t as [|c1 t1]; [reflexivity|].
  change (pscale k (c :: c1 :: t1)) with ((c *f k) :: pscale k (c1 :: t1)).
  change (pscale k (c1 :: t1)) with ((c1 *f k) :: pscale k t1) in *.
  change (last (c *f k :: c1 *f k :: pscale k t1) zero) with (last (c1 *f k :: pscale k t1) zero).
  rewrite IH. reflexivity.
Qed.

(* ------------------------------------------------------------------ degree_of *)
Lemma allz_false_nonempty p : allz O p = false -> p <> [].
Proof. destruct p; simpl; congruence. Qed.

(* if the top coefficient is zero the degree is at most length - 2 *)
Lemma degree_of_top_zero : forall p, last p zero = zero -> degree_of O p <= length p - 2.
Proof.
  induction p as [|c t IH]; intros Hl; [simpl; lia|].
  cbn [Stark.degree_of]. destruct (allz O t) eqn:Ez; [lia|].
  destruct t as [|c1 t1]; [simpl in Ez; discriminate|].
  change (last (c :: c1 :: t1) zero) with (last (c1 :: t1) zero) in Hl.
  specialize (IH Hl).
  destruct t1 as [|c2 t2].
  - simpl in Hl. subst c1. simpl in Ez. rewrite (feqb_refl O L) in Ez. discriminate.
  - simpl in *. lia.
Qed.
Lemma degree_of_lt_length : forall p, p <> [] -> degree_of O p < length p.
Proof.
  induction p as [|c t IH]; intros Hn; [congruence|].
  cbn [Stark.degree_of]. destruct (allz O t) eqn:Ez; [simpl; lia|].
  specialize (IH (allz_false_nonempty t Ez)). simpl. lia.
Qed.

(* n coefficients with the top one zero: the shape of every DEEP quotient, and what the (repaired) degree
   assertion of the prover accepts *)
Definition top_zero (n : nat) (d : list F) : Prop := length d = n /\ last d zero = zero.

Lemma top_zero_padd n a b : 0 < n -> top_zero n a -> top_zero n b -> top_zero n (padd a b).
Proof.
  intros Hn [La Za] [Lb Zb]. split; [rewrite padd_length; lia|].
  rewrite last_padd, Za, Zb; [ring | lia |]. destruct a; [simpl in La; lia | discriminate].
Qed.
Lemma top_zero_pscale n k p : top_zero n p -> top_zero n (pscale k p).
Proof. intros [Lp Zp]. split; [now rewrite pscale_length | rewrite last_pscale, Zp; ring]. Qed.
Lemma top_zero_syn1 n p w : 0 < n -> length p = n -> top_zero n (fst (syn1 p w)).
Proof.
  intros Hn Hp. destruct (syn1 p w) as [q c] eqn:E. destruct (syn1_spec O L w p q c E) as (_ & H2 & _ & H4).
  split; [simpl; lia|]. apply H4. destruct p; [simpl in Hp; lia | discriminate].
Qed.
Lemma top_zero_assert n d : top_zero n d -> deep_assert O false n d = true.
Proof. intros [Ld Zd]. unfold deep_assert. apply Nat.leb_le. rewrite <- Ld. now apply degree_of_top_zero. Qed.

(* ------------------------------------------------------------------ linear combinations *)
Lemma lincomb_eval x : forall gs ps acc, peval (lincomb gs ps acc) x = peval acc x +f dot gs (evals ps x).
Proof.
  induction gs as [|g gs IH]; intros ps acc; [simpl; ring|].
  destruct ps as [|p ps]; [simpl; ring|].
  cbn [Stark.lincomb Stark.evals map Stark.dot]. fold (evals ps x). rewrite IH, peval_padd, peval_pscale. ring.
Qed.
Lemma lincomb_length n : forall gs ps acc, Forall (fun p => length p = n) ps -> length acc = n ->
  length (lincomb gs ps acc) = n.
Proof.
  induction gs as [|g gs IH]; intros ps acc Hps Hacc; [exact Hacc|].
  destruct ps as [|p ps]; [exact Hacc|]. inversion Hps; subst.
  cbn [Stark.lincomb]. apply IH; [assumption|]. rewrite padd_length, pscale_length. lia.
Qed.
Lemma lincomb_nonempty : forall gs ps acc, acc <> [] -> lincomb gs ps acc <> [].
Proof.
  induction gs as [|g gs IH]; intros ps acc H; [exact H|]. destruct ps as [|p ps]; [exact H|].
  cbn [Stark.lincomb]. apply IH. destruct acc; [congruence|]. destruct (pscale g p); simpl; discriminate.
Qed.

Lemma dot_sub x z : forall Ts gs,
  dot gs (map (fun p => fst p -f snd p) (combine (evals Ts x) (evals Ts z))) = dot gs (evals Ts x) -f dot gs (evals Ts z).
Proof.
  induction Ts as [|T Ts IH]; intros [|g gs]; simpl; try ring. unfold Stark.evals in *. rewrite IH. ring.
Qed.

(* ------------------------------------------------------------------ the trace part *)
Section TracePart.
Variables (n : nat) (g z : F) (gam : list F) (Ts : list (list F)).
Hypothesis Hn : 0 < n.

Let A (x : F) : F := dot gam (evals Ts x).
Let t (v : list F) : list F := sub_const (lincomb gam Ts (repeat zero n)) (dot gam v).

Lemma t_eval v x : peval (t v) x = A x -f dot gam v.
Proof.
  unfold t, A. rewrite (peval_sub_const O L).
  - rewrite lincomb_eval, (peval_repeat_zero O L). ring.
  - apply lincomb_nonempty. destruct n; [lia | simpl; discriminate].
Qed.

(* (T(x) - T(w)) / (x - w) is a polynomial: the quotient computed by syn_div_in_place *)
Lemma deep_trace_quotient w x :
  (x -f w) *f peval (fst (syn1 (t (evals Ts w)) w)) x = A x -f A w.
Proof.
  rewrite <- (syn1_quotient O L), !t_eval. unfold A. ring.
Qed.

Theorem deep_trace_eval x : x <> z -> x <> z *f g ->
  peval (deep_trace O n g z gam Ts (evals Ts z) (evals Ts (z *f g))) x
  = v_trace O g z x gam (evals Ts x) (evals Ts z) (evals Ts (z *f g)).
Proof.
  intros H1 H2. unfold deep_trace, v_trace. fold (t (evals Ts z)) (t (evals Ts (z *f g))).
  rewrite peval_padd, !dot_sub. fold (A x) (A z) (A (z *f g)).
  pose proof (deep_trace_quotient z x) as Q1. pose proof (deep_trace_quotient (z *f g) x) as Q2.
  rewrite <- Q1, <- Q2.
  apply (fsub_neq_zero O L) in H1, H2. field. split; assumption.
Qed.

Hypothesis HTs : Forall (fun p => length p = n) Ts.

Lemma t_length v : length (t v) = n.
Proof. unfold t. rewrite (sub_const_length O). apply lincomb_length; [exact HTs | apply repeat_length]. Qed.

Lemma deep_trace_shape cur nxt : top_zero n (deep_trace O n g z gam Ts cur nxt).
Proof. unfold deep_trace. apply (top_zero_padd n _ _ Hn); apply (top_zero_syn1 n _ _ Hn), t_length. Qed.
End TracePart.

(* ------------------------------------------------------------------ the constraint part *)
Lemma deep_constraints_eval z x : x <> z -> forall dl Hs acc,
  peval (deep_constraints O z dl Hs (evals Hs z) acc) x = peval acc x +f v_constraints O z x dl (evals Hs x) (evals Hs z).
Proof.
  intros Hx dl Hs acc. unfold v_constraints. rewrite dot_sub. revert Hs acc.
  induction dl as [|d dl IH]; intros Hs acc. { simpl. ring. }
  destruct Hs as [|H Hs]. { simpl. ring. }
  cbn [Stark.evals map Stark.deep_constraints Stark.dot]. fold (evals Hs z) (evals Hs x).
  rewrite IH, peval_padd, peval_pscale.
  assert (E : (x -f z) *f peval (fst (syn1 (sub_const H (peval H z)) z)) x = peval H x -f peval H z).
  { rewrite <- (syn1_quotient O L). destruct H as [|h0 H].
    - simpl. ring.
    - rewrite !(peval_sub_const O L) by discriminate. ring. }
  apply (fsub_neq_zero O L) in Hx.
  assert (E2 : peval (fst (syn1 (sub_const H (peval H z)) z)) x = (peval H x -f peval H z) *f finv O (x -f z)).
  { rewrite <- E. field. exact Hx. }
  rewrite E2. ring.
Qed.

Lemma deep_constraints_shape n z : 0 < n -> forall dl Hs hz acc,
  Forall (fun p => length p = n) Hs -> top_zero n acc -> top_zero n (deep_constraints O z dl Hs hz acc).
Proof.
  intros Hn. induction dl as [|d dl IH]; intros Hs hz acc HF Ha; [exact Ha|].
  destruct Hs as [|H Hs]; [exact Ha|]. destruct hz as [|h hz]; [exact Ha|].
  cbn [Stark.deep_constraints]. apply IH; [exact (Forall_inv_tail HF)|].
  apply (top_zero_padd n _ _ Hn Ha), top_zero_pscale, (top_zero_syn1 n _ _ Hn).
  rewrite (sub_const_length O). exact (Forall_inv HF).
Qed.

(* ------------------------------------------------------------------ the whole DEEP polynomial *)
Section Whole.
Variables (n : nat) (g : F) (c : @Coin F) (Ts Hs : list (list F)).
Hypothesis Hn : 0 < n.
Let z := c_z c.
Let D := deep_poly O n g c Ts Hs (evals Ts z) (evals Ts (z *f g)) (evals Hs z).

(* query_consistency: what the verifier recomputes at a queried x from the opened rows and the OOD frame is the
   value of the prover's DEEP polynomial at x *)
Theorem query_consistency x : x <> z -> x <> z *f g ->
  peval D x = v_deep O g c x (evals Ts x) (evals Hs x) (evals Ts z) (evals Ts (z *f g)) (evals Hs z).
Proof.
  intros H1 H2. unfold D, deep_poly, v_deep. fold z.
  rewrite (deep_constraints_eval z x H1), (deep_trace_eval n g z (c_gamma c) Ts Hn x H1 H2). reflexivity.
Qed.

Hypothesis HTs : Forall (fun p => length p = n) Ts.
Hypothesis HHs : Forall (fun p => length p = n) Hs.

Theorem deep_shape cur nxt hz : top_zero n (deep_poly O n g c Ts Hs cur nxt hz).
Proof.
  unfold deep_poly. apply (deep_constraints_shape n _ Hn _ _ _ _ HHs).
  exact (deep_trace_shape n g (c_z c) (c_gamma c) Ts Hn HTs cur nxt).
Qed.

(* deep_degree_le: the degree is at most n - 2 ... *)
Theorem deep_degree_le cur nxt hz : degree_of O (deep_poly O n g c Ts Hs cur nxt hz) <= n - 2.
Proof. destruct (deep_shape cur nxt hz) as [L1 Z1]. rewrite <- L1 at 2. now apply degree_of_top_zero. Qed.

(* ... so the repaired assertion never fires *)
Corollary deep_assert_lax_holds cur nxt hz : deep_assert O false n (deep_poly O n g c Ts Hs cur nxt hz) = true.
Proof. apply top_zero_assert, deep_shape. Qed.
End Whole.

(* ------------------------------------------------------------------ degenerate (constant) traces *)
(* The DEEP polynomial of a trace all of whose columns are constant (and whose composition columns are
   constant, e.g. zero) is the ZERO polynomial, whatever the coin says: its degree is 0, not n - 2. *)
Definition zeros (p : list F) : Prop := Forall (eq zero) p.
Definition tail_zeros (p : list F) : Prop := zeros (tl p).

Lemma zeros_padd : forall a b, zeros a -> zeros b -> zeros (padd a b).
Proof.
  induction a as [|a0 a IH]; intros [|b0 b] Ha Hb; simpl; auto.
  inversion Ha; inversion Hb; subst. constructor; [ring | now apply IH].
Qed.
Lemma zeros_pscale k p : zeros p -> zeros (pscale k p).
Proof. induction 1; simpl; constructor; [subst; ring | assumption]. Qed.
Lemma tail_zeros_padd a b : tail_zeros a -> tail_zeros b -> tail_zeros (padd a b).
Proof. destruct a, b; simpl; auto. unfold tail_zeros. simpl. apply zeros_padd. Qed.
Lemma tail_zeros_pscale k p : tail_zeros p -> tail_zeros (pscale k p).
Proof. destruct p; simpl; auto. unfold tail_zeros. simpl. apply zeros_pscale. Qed.
Lemma zeros_tail_zeros p : zeros p -> tail_zeros p.
Proof. destruct 1; [constructor | assumption]. Qed.
Lemma zeros_repeat n : zeros (repeat zero n).
Proof. induction n; simpl; constructor; auto. Qed.
Lemma tail_zeros_lincomb : forall gs ps acc, Forall tail_zeros ps -> tail_zeros acc -> tail_zeros (lincomb gs ps acc).
Proof.
  induction gs as [|g gs IH]; intros ps acc Hps Hacc; [exact Hacc|]. destruct ps as [|p ps]; [exact Hacc|].
  inversion Hps; subst. cbn [Stark.lincomb]. apply IH; [assumption|]. apply tail_zeros_padd; [assumption|]. now apply tail_zeros_pscale.
Qed.
Lemma syn1_zeros r : forall p, zeros p -> zeros (fst (syn1 p r)) /\ snd (syn1 p r) = zero.
Proof.
  induction p as [|h t IH]; intros Hp; [simpl; split; [constructor | reflexivity]|].
  inversion Hp; subst. destruct (IH H2) as [Z1 Z2]. cbn [Stark.syn1]. destruct (syn1 t r) as [t' c]. simpl in *. subst c.
  split; [constructor; [reflexivity | assumption] | ring].
Qed.
Lemma syn1_tail_zeros r p : tail_zeros p -> zeros (fst (syn1 p r)).
Proof.
  destruct p as [|h t]; [constructor|]. unfold tail_zeros. simpl. intros Ht.
  destruct (syn1_zeros r t Ht) as [Z1 Z2]. destruct (syn1 t r) as [t' c]. simpl in *. subst c. constructor; [reflexivity | assumption].
Qed.
Lemma tail_zeros_sub_const p c : tail_zeros p -> tail_zeros (sub_const p c).
Proof. destruct p; simpl; auto. Qed.
Lemma zeros_allz p : zeros p -> allz O p = true.
Proof. induction 1; simpl; [reflexivity|]. subst. rewrite (feqb_refl O L). assumption. Qed.
Lemma zeros_degree p : zeros p -> degree_of O p = 0.
Proof. destruct 1; [reflexivity|]. cbn [Stark.degree_of]. now rewrite zeros_allz. Qed.

Lemma zeros_deep_constraints z : forall dl Hs hz acc, Forall tail_zeros Hs -> zeros acc -> zeros (deep_constraints O z dl Hs hz acc).
Proof.
  induction dl as [|d dl IH]; intros Hs hz acc HF Ha; [exact Ha|]. destruct Hs as [|H Hs]; [exact Ha|]. destruct hz as [|h hz]; [exact Ha|].
  inversion HF; subst. cbn [Stark.deep_constraints]. apply IH; [assumption|].
  apply zeros_padd; [assumption|]. apply zeros_pscale, syn1_tail_zeros, tail_zeros_sub_const. assumption.
Qed.

Theorem deep_constant_columns_zero n g (c : @Coin F) Ts Hs cur nxt hz :
  Forall tail_zeros Ts -> Forall tail_zeros Hs -> zeros (deep_poly O n g c Ts Hs cur nxt hz).
Proof.
  intros HT HH. unfold deep_poly. apply zeros_deep_constraints; [assumption|]. unfold deep_trace.
  apply zeros_padd; apply syn1_tail_zeros, tail_zeros_sub_const, tail_zeros_lincomb; try assumption;
    apply zeros_tail_zeros, zeros_repeat.
Qed.

(* deep_degree_eq_refuted, general form: for EVERY trace length n >= 3, every coin and every trace with constant
   columns and constant composition columns the snapshot's `assert_eq!(n - 2, degree)` fails *)
Theorem deep_assert_strict_fires n g (c : @Coin F) Ts Hs cur nxt hz : 3 <= n ->
  Forall tail_zeros Ts -> Forall tail_zeros Hs ->
  degree_of O (deep_poly O n g c Ts Hs cur nxt hz) = 0 /\ deep_assert O true n (deep_poly O n g c Ts Hs cur nxt hz) = false.
Proof.
  intros Hn HT HH. pose proof (zeros_degree _ (deep_constant_columns_zero n g c Ts Hs cur nxt hz HT HH)) as E.
  split; [exact E|]. unfold deep_assert. rewrite E. apply Nat.eqb_neq. lia.
Qed.

(* zero padding does not change degree_of (the debug assertion of `segment` looks at the padded interpolant) *)
Lemma allz_app_zeros k : forall a, allz O (a ++ repeat zero k) = allz O a.
Proof.
  induction a as [|c t IH]; simpl.
  - induction k; simpl; [reflexivity|]. now rewrite (feqb_refl O L).
  - now rewrite IH.
Qed.
Lemma degree_of_app_zeros k : forall a, degree_of O (a ++ repeat zero k) = degree_of O a.
Proof.
  induction a as [|c t IH].
  - simpl. apply zeros_degree. apply zeros_repeat.
  - cbn [app Stark.degree_of]. rewrite allz_app_zeros, IH. reflexivity.
Qed.

End Deep.
