(* C19 — the ToyHasher / WideToy instantiations of the coin model: well-formedness of the byte views (the
   hypotheses of the generic theorems are satisfiable) and non-vacuity examples computed by vm_compute. *)
From VBase Require Import MachInt.
From VModel Require Import ToyHash Coin.
From VProofs Require Import ListFacts BytesFacts Coin.
Open Scope Z_scope.

Theorem toy_dbytes_wf d : Forall (fun b => 0 <= b < 256) (toy_dbytes d) /\ length (toy_dbytes d) = 32%nat.
Proof.
  unfold toy_dbytes. split.
  - apply Forall_app. split; [apply to_le_bytes_range|apply Forall_repeat; lia].
  - rewrite app_length, to_le_bytes_length, repeat_length. reflexivity.
Qed.

Theorem wide_dbytes_wf d : Forall (fun b => 0 <= b < 256) (wide_dbytes d).
Proof.
  unfold wide_dbytes. induction d as [|w d IH]; cbn [flat_map]; [constructor|].
  apply Forall_app. split; [apply to_le_bytes_range|exact IH].
Qed.

Lemma wide_hash_length mode bytes : length (wide_dbytes (wide_hash mode bytes)) = 32%nat.
Proof. reflexivity. Qed.

Lemma Zeqb_spec a b : Z.eqb a b = true <-> a = b.
Proof. apply Z.eqb_eq. Qed.

Lemma Forall_weaken_nonneg l : Forall (fun b => 0 <= b < 256) l -> Forall (fun b => 0 <= b) l.
Proof. apply Forall_impl. intros; lia. Qed.

(* The same hash with mask and shift in place of mod and div by powers of two, and the multiplication turned
   round (Pos.mul recurses on its first argument; the constant has 7 one bits): much cheaper to evaluate by
   reduction, which err_candidates does for 1000 candidates. *)
Definition toy_init (n : nat) : Z := Z.lxor 14695981039346656037 (Z.of_nat n).
Definition toy_fin (h : Z) : Z := Z.lxor h (Z.shiftr h 29).
Definition fast_step (h b : Z) : Z := Z.land (1099511628211 * Z.lxor h b + 2654435769) 18446744073709551615.
Definition fast_hash (bytes : list Z) : Z := toy_fin (fold_left fast_step bytes (toy_init (length bytes))).
Fixpoint fast_le_bytes (n : nat) (x : Z) : list Z :=
  match n with O => [] | S n' => Z.land x 255 :: fast_le_bytes n' (Z.shiftr x 8) end.

Lemma fast_step_eq h b : toy_step h b = fast_step h b.
Proof. unfold toy_step, fast_step. rewrite Z.mul_comm. symmetry. apply (Z.land_ones _ 64). lia. Qed.

Lemma fold_fast_step bytes h : fold_left toy_step bytes h = fold_left fast_step bytes h.
Proof. revert h. induction bytes as [|b bytes IH]; intros h; cbn [fold_left]; [reflexivity|]. rewrite fast_step_eq. apply IH. Qed.

Lemma fast_hash_eq bytes : toy_hash bytes = fast_hash bytes.
Proof. unfold toy_hash, fast_hash, toy_fin, toy_init. cbv zeta. rewrite fold_fast_step, Z.shiftr_div_pow2 by lia. reflexivity. Qed.

Lemma fast_le_bytes_eq n x : to_le_bytes n x = fast_le_bytes n x.
Proof.
  revert x. induction n as [|n IH]; intros x; cbn [to_le_bytes fast_le_bytes]; [reflexivity|].
  change 255 with (Z.ones 8). rewrite IH, Z.land_ones, Z.shiftr_div_pow2 by lia. reflexivity.
Qed.

(* Word j of WideToy's digest of (a ++ le8 v), from the hash state [st] reached after the prefix a: candidates that
   differ in the counter v only share the work for a. *)
Definition wide_word (st v j : Z) : Z :=
  fast_hash (j :: fast_le_bytes 8 (toy_fin (fold_left fast_step (fast_le_bytes 8 v) st))).

Lemma wide_hash_words mode a v :
  wide_hash mode (a ++ to_le_bytes 8 v) =
  map (fun j => wide_post mode (wide_word (fold_left fast_step a (toy_init (length a + 8))) v j)) [0; 1; 2; 3].
Proof.
  unfold wide_hash, wide_word. cbv zeta. apply map_ext. intros j.
  rewrite !fast_hash_eq, !fast_le_bytes_eq. unfold fast_hash at 2.
  rewrite fold_left_app, app_length. reflexivity.
Qed.

(* mode 3 turns a word whose low 10 bits are not all zero into 2^64 - 1, which no f64 coefficient may be *)
Lemma wide_post3 w : Z.land w 1023 <> 0 -> wide_post 3 w = 18446744073709551615.
Proof. intros H. apply Z.eqb_neq in H. unfold wide_post. rewrite H. reflexivity. Qed.

Lemma wide_words_reject (f : Z -> Z) : In 18446744073709551615 (map f [0; 1; 2]) ->
  from_random_bytes (fk_f64 3) (firstn 24 (wide_dbytes (map f [0; 1; 2; 3]))) = None.
Proof.
  intros Hin. apply from_random_bytes_rejects with (v := 18446744073709551615); [|discriminate].
  change (In 18446744073709551615 (map (fun w => of_le_bytes (to_le_bytes 8 w)) (map f [0; 1; 2]))).
  apply in_map_iff. exists 18446744073709551615. split; [reflexivity|exact Hin].
Qed.

Lemma wide3_reject s v : length (wide_dbytes s) = 32%nat ->
  existsb (fun j => negb (Z.land (wide_word (fold_left fast_step (wide_dbytes s) (toy_init (32 + 8))) v j) 1023 =? 0)) [0; 1; 2] = true ->
  from_random_bytes (fk_f64 3) (draw_bytes (list Z) (wide_merge_int 3) wide_dbytes (fk_f64 3) s 0 v) = None.
Proof.
  intros Hl Hr. unfold draw_bytes, prng, wide_merge_int. rewrite Z.add_0_l.
  change ((3 =? 4) && (v <? 998 + hd 0 s mod 5)) with false.
  change ((5 <=? 3) && (1 <=? v) && (v <=? 2)) with false. cbv iota.
  rewrite wide_hash_words, Hl. apply wide_words_reject.
  apply existsb_exists in Hr. destruct Hr as [j [Hj Hz]]. apply negb_true_iff, Z.eqb_neq in Hz.
  apply in_map_iff. exists j. split; [apply wide_post3; exact Hz|exact Hj].
Qed.

(* v, v + 1, ..., counted in Z (Z.of_nat of each member of a seq costs its value) *)
Fixpoint zseq (v : Z) (n : nat) : list Z := match n with O => [] | S n' => v :: zseq (v + 1) n' end.

Lemma in_zseq n : forall v i, v <= i < v + Z.of_nat n -> In i (zseq v n).
Proof.
  induction n as [|n IH]; intros v i Hi; [lia|]. cbn [zseq].
  destruct (Z.eq_dec i v) as [->|Hne]; [left; reflexivity|right; apply IH; lia].
Qed.

(* ---------------------------------------------------------------------------------------------- non-vacuity *)
(* every outcome class of every operation is inhabited *)
Local Notation tdraw := (coin_draw Z toy_merge_int toy_dbytes).
Local Notation tints := (coin_draw_integers Z toy_merge_int toy_dbytes).
Local Notation tlz := (coin_check_lz Z toy_merge_int toy_dbytes).
Local Notation wdraw m := (coin_draw (list Z) (wide_merge_int m) wide_dbytes).

Definition c0 : coin Z := toy_coin_new 8 [1; 2; 3].

(* draw: accepted at the second try (the first hash value is >= the f62 modulus) *)
Example draw_ok_after_rejection :
  tdraw (fk_f62 1) c0 = (mkCoin 5323811113220503390 2, Ok [910144776332636229]) /\
  from_random_bytes (fk_f62 1) (firstn 8 (toy_dbytes (toy_merge_int (seed c0) 1))) = None.
Proof. split; vm_compute; reflexivity. Qed.

Example draw_quadratic_ok : tdraw (fk_f64 2) c0 = (mkCoin 5323811113220503390 1, Ok [17124573464518542078; 0]).
Proof. vm_compute. reflexivity. Qed.

(* all 32 bytes are live with the wide twin: three independent coefficients *)
Example draw_cubic_wide_ok : exists c' a b c, wdraw 0 (fk_f64 3) (wide_coin_new 0 8 [1; 2; 3]) = (c', Ok [a; b; c]) /\
  a <> b /\ b <> c /\ 0 < c.
Proof. vm_compute. do 4 eexists. split; [reflexivity|]. repeat split; discriminate || reflexivity. Qed.

(* the 1000 candidates hash the same 32 seed bytes followed by the counter; almost all fall at word 0 *)
Lemma err_candidates :
  let st := fold_left fast_step (wide_dbytes (seed (wide_coin_new 3 8 [1; 2; 3]))) (toy_init (32 + 8)) in
  forallb (fun v => existsb (fun j => negb (Z.land (wide_word st v j) 1023 =? 0)) [0; 1; 2]) (zseq 1 1000) = true.
Proof. vm_compute. reflexivity. Qed.

(* draw: Err after 1000 tries, the counter stays advanced *)
Example draw_err_after_1000 : exists s, wdraw 3 (fk_f64 3) (wide_coin_new 3 8 [1; 2; 3]) = (mkCoin s 1000, Err).
Proof.
  exists (seed (wide_coin_new 3 8 [1; 2; 3])).
  apply (draw_loop_err (list Z) (wide_merge_int 3) wide_dbytes (fk_f64 3) draw_tries (wide_coin_new 3 8 [1; 2; 3])).
  - reflexivity.
  - apply Nat.leb_le. reflexivity.
  - intros i Hi. change (Z.of_nat draw_tries) with 1000 in Hi.
    apply wide3_reject; [apply wide_hash_length|].
    pose proof err_candidates as H. cbv zeta in H. rewrite forallb_forall in H. apply (H i).
    apply in_zseq. lia.
Qed.

(* draw: Panic for an element wider than the digest view (CubeExtension<f128>: 48 > 32), after one PRNG call *)
Example draw_panic_oversize_ex : tdraw (fk_f128 3) c0 = (mkCoin (seed c0) 1, Panic).
Proof. vm_compute. reflexivity. Qed.

Example draw_integers_ok_ex : tints c0 5 8 7 = (mkCoin 12659942608561989065 5, Ok [0; 3; 1; 3; 5]).
Proof. vm_compute. reflexivity. Qed.

(* duplicates are not removed (3 occurs twice above); count = domain size is an error, a non-power of two panics *)
Example draw_integers_err_count : tints c0 8 8 7 = (c0, Err).
Proof. vm_compute. reflexivity. Qed.
Example draw_integers_panic_pow2 : tints c0 3 6 7 = (c0, Panic).
Proof. vm_compute. reflexivity. Qed.
Lemma c0_nonce7 : nonce_seed Z toy_merge_int c0 7 = 12659942608561989065.
Proof. vm_compute. reflexivity. Qed.

(* the 1000 values drawn in these two cases are never looked at: the case table of draw_integers decides *)
Example draw_integers_err_ex : tints c0 1001 2048 7 = (mkCoin 12659942608561989065 1000, Err).
Proof. rewrite draw_integers_spec by lia. cbv zeta. rewrite c0_nonce7. reflexivity. Qed.
Example draw_integers_zero_ex : exists vals, tints c0 0 2 7 = (mkCoin 12659942608561989065 1000, Ok vals) /\ length vals = 1000%nat.
Proof. rewrite <- c0_nonce7. apply draw_integers_zero_count. reflexivity. Qed.

(* proof of work: the search finds nonce 6 for grinding factor 4, nonce 1 has measure 1 only *)
Example grind_ex : toy_grind 200 c0 4 = Some 6 /\ tlz c0 1 = 1 /\ 4 <= tlz c0 6.
Proof. vm_compute. repeat split; discriminate. Qed.

Example run_ex :
  toy_coin_run c0 [OpDraw (fk_f64 1); OpLz 5; OpReseed 77; OpInts 3 16 9; OpDraw (fk_f64 1)] =
  (mkCoin 9081374999639554722 4,
   [OutElem (Ok [17124573464518542078]); OutLz 3; OutUnit; OutInts (Ok [5; 12; 4]); OutElem (Ok [9344925542989793049])]).
Proof. vm_compute. reflexivity. Qed.

(* sensitivity on the instance: changing the seed / the reseed datum / the nonce / the number of draws changes the next element *)
Definition probe (e : list Z) (ops : list (op Z)) : out :=
  last (snd (toy_coin_run (toy_coin_new 8 e) (ops ++ [OpDraw (fk_f64 1)]))) OutUnit.
Example sensitivity_ex :
  let base := probe [1; 2; 3] [OpReseed 77; OpInts 3 16 9] in
  probe [1; 2; 4] [OpReseed 77; OpInts 3 16 9] <> base /\
  probe [1; 2; 3] [OpReseed 78; OpInts 3 16 9] <> base /\
  probe [1; 2; 3] [OpReseed 77; OpInts 3 16 10] <> base /\
  probe [1; 2; 3] [OpReseed 77; OpInts 3 16 9; OpDraw (fk_f64 1)] <> base.
Proof. vm_compute. repeat split; discriminate. Qed.

(* draws before a reseed are forgotten (by design): same element after the reseed *)
Example forgotten_ex :
  probe [1; 2; 3] [OpDraw (fk_f64 1); OpDraw (fk_f62 2); OpReseed 77] = probe [1; 2; 3] [OpReseed 77].
Proof. vm_compute. reflexivity. Qed.

(* The second disjunct of history_inputs_injective is inhabited WITHOUT a collision of the underlying hash:
   ToyHasher (like Blake3/Sha3 in the crate) hashes the plain concatenation in hash_elements and in merge, so
   new([x; d]) and new(e).reseed(d) with x = hash_elements e are the same coin.  find_collision reports it as
   a cross-oracle coincidence. *)
Definition amb_e2 : list Z := [1; 2; 3].
Definition amb_d : Z := 77.
Definition amb_e1 : list Z := [toy_hash_elems 8 amb_e2; amb_d].

Example shape_ambiguity_toy :
  toy_coin_new 8 amb_e1 = fst (toy_coin_run (toy_coin_new 8 amb_e2) [OpReseed amb_d]) /\
  find_collision Z (toy_hash_elems 8) toy_merge toy_merge_int Z.eqb amb_e1 [] amb_e2 [AData amb_d] =
    CrossElemsMerge Z amb_e1 (toy_hash_elems 8 amb_e2) amb_d /\
  valid_collision Z (toy_hash_elems 8) toy_merge toy_merge_int
    (find_collision Z (toy_hash_elems 8) toy_merge toy_merge_int Z.eqb amb_e1 [] amb_e2 [AData amb_d]).
Proof. vm_compute. repeat split; reflexivity. Qed.

(* hypotheses of history_inputs_injective are satisfiable with the first disjunct as conclusion *)
Example injective_ex :
  let c1 := fst (toy_coin_run (toy_coin_new 8 [1; 2; 3]) [OpReseed 77]) in
  let c2 := fst (toy_coin_run (toy_coin_new 8 [1; 2; 3]) [OpReseed 78]) in
  ([1; 2; 3], absorbs Z [OpReseed 77]) <> ([1; 2; 3], absorbs Z [OpReseed 78]) /\ next_input Z c1 <> next_input Z c2.
Proof. vm_compute. split; discriminate. Qed.
