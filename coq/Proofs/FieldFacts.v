(* Facts about an arbitrary field (`FOps F` with `FLaws`) that every group of proofs needs: decidable
   equality, integrality, powers, evaluation of coefficient lists.

   Powers and evaluation are stated for `FFT.fpow` and `FFT.peval`.  The models of the other components
   (Model/Fri.v, Stark.v, Soundness.v, Composition.v `cpow`, Enforce.v ...) and Proofs/PolyBase.v define the
   same two fixpoints again; all copies are convertible, so `exact (fpow_add O L x a b)` closes a goal
   stated with any of them.  `rewrite` matches the head constant syntactically: a file that rewrites with
   these facts on its own model's copy restates the fact with its copy in the statement and proves it by
   `exact`. *)
From Coq Require Import List Arith Bool Lia Ring Field.
From VBase Require Import FieldOps.
From VModel Require Import FFT.
Import ListNotations.

Section Field.
Context {F : Type} (O : FOps F) (L : FLaws O).
Local Notation zero := (fzero O).
Local Notation one := (fone O).
Local Infix "+f" := (fadd O) (at level 50, left associativity).
Local Infix "-f" := (fsub O) (at level 50, left associativity).
Local Infix "*f" := (fmul O) (at level 40, left associativity).
Local Notation fpow := (fpow O).
Local Notation peval := (peval O).

Add Field Ffield : (FLaws_field_theory O L).

Lemma feqb_true a b : feqb O a b = true -> a = b.
Proof. apply (fl_eqb_spec O L). Qed.

Lemma feqb_refl a : feqb O a a = true.
Proof. now apply (fl_eqb_spec O L). Qed.

Lemma feqb_false a b : feqb O a b = false -> a <> b.
Proof. intros H ->. rewrite feqb_refl in H. discriminate. Qed.

Lemma feqb_neq a b : a <> b -> feqb O a b = false.
Proof. intros H. destruct (feqb O a b) eqn:E; [apply feqb_true in E; contradiction | reflexivity]. Qed.

Lemma feq_dec (a b : F) : {a = b} + {a <> b}.
Proof. destruct (feqb O a b) eqn:E; [left; now apply feqb_true | right; now apply feqb_false]. Qed.

Lemma fmul_0_l a : zero *f a = zero.
Proof. ring. Qed.

Lemma fmul_0_r a : a *f zero = zero.
Proof. ring. Qed.

Lemma finv_r a : a <> zero -> a *f finv O a = one.
Proof. intros H. field. exact H. Qed.

Lemma fmul_integral a b : a *f b = zero -> a = zero \/ b = zero.
Proof.
  intros H. destruct (feq_dec a zero) as [Ha|Ha]; [now left | right].
  transitivity (finv O a *f (a *f b)); [field; exact Ha | rewrite H; ring].
Qed.

Lemma fmul_nonzero a b : a <> zero -> b <> zero -> a *f b <> zero.
Proof. intros Ha Hb H. apply fmul_integral in H. tauto. Qed.

Lemma fsub_eq_zero a b : a -f b = zero -> a = b.
Proof. intros H. transitivity (a -f b +f b); [ring | rewrite H; ring]. Qed.

Lemma fsub_diag a : a -f a = zero.
Proof. ring. Qed.

(* ---------------------------------------------------------------- powers *)
Lemma fpow_add x a b : fpow x (a + b) = fpow x a *f fpow x b.
Proof. induction a; cbn [FFT.fpow Nat.add]; [ring | rewrite IHa; ring]. Qed.

Lemma fpow_S_r x n : fpow x (S n) = fpow x n *f x.
Proof. cbn [FFT.fpow]. ring. Qed.

Lemma fpow_1_r x : fpow x 1 = x.
Proof. cbn [FFT.fpow]. ring. Qed.

Lemma fpow_mul_base a b n : fpow (a *f b) n = fpow a n *f fpow b n.
Proof. induction n; cbn [FFT.fpow]; [ring | rewrite IHn; ring]. Qed.

Lemma fpow_one n : fpow one n = one.
Proof. induction n; cbn [FFT.fpow]; [reflexivity | rewrite IHn; ring]. Qed.

Lemma fpow_zero n : n <> 0 -> fpow zero n = zero.
Proof. destruct n; [congruence | intros _; cbn [FFT.fpow]; ring]. Qed.

Lemma fpow_mul x a b : fpow x (a * b) = fpow (fpow x a) b.
Proof.
  induction b; cbn [FFT.fpow].
  - now rewrite Nat.mul_0_r.
  - rewrite <- IHb, <- fpow_add. f_equal. lia.
Qed.

Lemma fpow_sq x n : fpow x (2 * n) = fpow (x *f x) n.
Proof. rewrite fpow_mul. f_equal. cbn [FFT.fpow]. ring. Qed.

Lemma fpow_nonzero x n : x <> zero -> fpow x n <> zero.
Proof.
  intros Hx. induction n; cbn [FFT.fpow]; [apply (fl_one_neq_zero O L) | now apply fmul_nonzero].
Qed.

Lemma fpow_inv x n : x <> zero -> fpow (finv O x) n *f fpow x n = one.
Proof. intros Hx. rewrite <- fpow_mul_base, (fl_inv_l O L) by exact Hx. apply fpow_one. Qed.

(* ---------------------------------------------------------------- evaluation of coefficient lists *)
Lemma peval_app p q x : peval (p ++ q) x = peval p x +f fpow x (length p) *f peval q x.
Proof. induction p; cbn [FFT.peval app length FFT.fpow]; [ring | rewrite IHp; ring]. Qed.

Lemma peval_snoc p c x : peval (p ++ [c]) x = peval p x +f c *f fpow x (length p).
Proof. rewrite peval_app. cbn [FFT.peval]. ring. Qed.

Lemma peval_repeat_zero n x : peval (repeat zero n) x = zero.
Proof. induction n; cbn [FFT.peval repeat]; [reflexivity | rewrite IHn; ring]. Qed.

Lemma peval_zero p : peval p zero = hd zero p.
Proof. destruct p; cbn [FFT.peval hd]; ring. Qed.

Lemma peval_map_scale c p x : peval (map (fun a => c *f a) p) x = c *f peval p x.
Proof. induction p; cbn [FFT.peval map]; [ring | rewrite IHp; ring]. Qed.

(* inverses are unique: a claimed inverse is checked by one multiplication *)
Lemma finv_by d w : d *f w = one -> finv O d = w.
Proof.
  intros H.
  assert (Hd : d <> zero) by (intros ->; apply (fl_one_neq_zero O L); rewrite <- H; ring).
  transitivity (finv O d *f (d *f w)); [rewrite H; ring | field; exact Hd].
Qed.

End Field.
