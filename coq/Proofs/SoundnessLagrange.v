(* C02 — the Lagrange kernel part of the verifier's out-of-domain equation.
   (1) explicit form of eval_lagrange_part (evaluator.rs section 3 through C16's model of air/src/air/lagrange/*, put in
       closed form with C16's lag_new_spec and C17's verifier_lagrange_agrees): ALL log2(n) transition terms
       coef_idx * (r_(v-1-idx) c_0 - (1 - r_(v-1-idx)) c_(v-idx)) / (z^(2^idx) - 1) and the boundary term;
   (2) the variant with the LAST transition constraint dropped (one divisor fewer, the zip of evaluate_and_combine
       stops early): a frame changed in the entry that only the last constraint reads gives the same value — REFUTED that
       this variant rejects it — while the real equation changes;
   (3) instances over the 64-bit field: an accepting run with a Lagrange kernel column, RejGkr, RejOod. *)
From Coq Require Import List Arith Bool Lia ZArith.
From VBase Require Import MachInt FieldOps ZpOps.
From VModel Require Import Soundness.
From VModel Require Enforce EnforceLagrange Composition.
From VProofs Require Import ZpLaws SoundnessExamples.
From VProofs Require EnforceLagrangeProofs CompositionLagrange.
Import ListNotations.
Local Open Scope nat_scope.

Section Lag.
Context {F : Type} (O : FOps F) (L : FLaws O).
Local Notation zero := (fzero O).
Local Notation one := (fone O).
Local Infix "+f" := (fadd O) (at level 50, left associativity).
Local Infix "-f" := (fsub O) (at level 50, left associativity).
Local Infix "*f" := (fmul O) (at level 40, left associativity).

(* transition term idx (constraint k = idx + 1) of the Lagrange kernel constraints on a frame c at the point x *)
Definition lag_term (v : nat) (coefs rr c : list F) (x : F) (idx : nat) : F :=
  nth idx coefs zero *f
  (nth (v - 1 - idx) rr zero *f nth 0 c zero -f (one -f nth (v - 1 - idx) rr zero) *f nth (v - idx) c zero)
  *f finv O (fpow O x (2 ^ idx) -f one).
Definition lag_boundary_term (rr c : list F) (lb x : F) : F :=
  (nth 0 c zero -f EnforceLagrange.lag_assertion_value O rr) *f lb *f finv O (x -f one).

Lemma cpow_fpow x n : Composition.cpow O x n = fpow O x n.
Proof. induction n as [|n IH]; cbn; [reflexivity|now rewrite IH]. Qed.

Lemma lag_new_divisors (coefs : list F) idx : idx < length coefs ->
  nth idx (map (fun i : Z => EnforceLagrangeProofs.lag_div O (i + 1)) (zrange 0 (Z.of_nat (length coefs)))) (Enforce.mkD [] []) =
  Enforce.mkD [((2 ^ Z.of_nat idx)%Z, one)] [].
Proof.
  intros Hi. unfold zrange. rewrite map_map, Z.sub_0_r, Nat2Z.id.
  match goal with |- nth _ (map ?f _) _ = _ => set (ff := f) end.
  rewrite (nth_indep _ _ (ff 0)) by (now rewrite map_length, seq_length).
  rewrite (map_nth ff), seq_nth by exact Hi. unfold ff, EnforceLagrangeProofs.lag_div.
  replace (0 + Z.of_nat (0 + idx) + 1 - 1)%Z with (Z.of_nat idx) by lia. reflexivity.
Qed.

Theorem eval_lagrange_part_explicit (A : AirDesc) (C : Coins) (P : ProofObj) fr lc v :
  p_lagrange P = Some fr -> c_lagrange C = Some lc ->
  length fr = S v -> length (lg_rands lc) = v -> length (lg_cc_trans lc) = v -> v < 64 ->
  eval_lagrange_part O A C P =
  fsum O (map (lag_term v (lg_cc_trans lc) (lg_rands lc) fr (c_z C)) (seq 0 v)) +f
  lag_boundary_term (lg_rands lc) fr (lg_cc_bnd lc) (c_z C).
Proof.
  intros Hfr Hlc Hl Hr Hc Hv.
  unfold eval_lagrange_part, eval_lagrange_part_gen. rewrite Hfr, Hlc.
  rewrite (EnforceLagrangeProofs.lag_new_spec O 0%Z) by lia.
  set (t := EnforceLagrange.mkLTC _ _).
  assert (Hdl : length (EnforceLagrange.l_div t) = v).
  { unfold t. cbn [EnforceLagrange.l_div]. rewrite map_length. unfold zrange. rewrite map_length, seq_length. lia. }
  destruct (CompositionLagrange.verifier_lagrange_agrees O L 1 1 1 1 ltac:(lia) ltac:(lia) ltac:(lia) ltac:(lia) v
              (repeat zero (Composition.lde_size 1 1)) (repeat_length _ _) t (lg_rands lc) (lg_cc_bnd lc)
              Hc Hr Hdl (fun idx Hi => eq_trans (f_equal (fun l => nth idx l _) eq_refl)
                                          (lag_new_divisors (lg_cc_trans lc) idx ltac:(rewrite Hc; exact Hi))) Hv fr (c_z C) Hl) as [E1 E2].
  rewrite E1, E2. reflexivity.
Qed.

(* the variant of (2): LagrangeKernelTransitionConstraints::new builds one divisor fewer *)
Definition lag_new_dropped (coefs : list F) : option (EnforceLagrange.LagTC (F := F)) :=
  match EnforceLagrange.lag_new O coefs with
  | Some t => Some (EnforceLagrange.mkLTC (EnforceLagrange.l_coef t) (removelast (EnforceLagrange.l_div t)))
  | None => None
  end.
End Lag.

(* ------------------------------------------------------------------ instances over the 64-bit field *)
Section Instances.
Local Notation O := F64_ops.
Local Notation Fe := (Zp P64).
Definition e7 (v : nat) : Fe := fofz O (Z.of_nat v).
Definition g4 : Fe := fofz O 281474976710656%Z.          (* 2^48: a generator of the trace domain of length 4 in the 64-bit field *)

Definition lt_e (cur next pers : list Fe) : list Fe := lagfam_trans O cur next pers.
Definition la_e (mc mn ac an pers rands : list Fe) : list Fe := lagfam_aux_trans O mc mn ac an pers rands.
(* trace length 4 (v = 2), one main column, two auxiliary columns, the second one is the Lagrange kernel column *)
Definition air_l : @AirDesc Fe :=
  mkAir 4 1 g4 [] [mkBGroup 0 1 [mkBCons 0 [e7 0] (e7 1)]] 1 [mkBGroup 0 1 [mkBCons 0 [e7 0] (e7 1)]] (Some 1).
Definition lagc : @LagCoins Fe := mkLagCoins [e7 61; e7 67] [e7 71; e7 73] (e7 79) (e7 83).
Definition coins_l : @Coins Fe := mkCoins [e7 23] [e7 11; e7 29] [e7 13; e7 31] (e7 5) [e7 17; e7 37; e7 41] [e7 19] [e7 3; e7 6] (Some lagc).
Definition env_l (gkr : bool) : @Env Fe := mkEnv 7 [[1%Z; 2%Z]] gkr true true true true (fun _ => true).
Definition proof_l0 (frame evals : list Fe) : @ProofObj Fe :=
  mkProof 7 [1%Z; 2%Z] [e7 21] [e7 34] evals [[e7 1]; [e7 2]] [[e7 8]; [e7 9]]
          (Some (mkAuxOpen [e7 43] [e7 47] [[e7 5; e7 55]; [e7 6; e7 66]])) (Some frame).
Definition frame_l : list Fe := [e7 50; e7 51; e7 52].
(* entry 1 = c(g z): read by the LAST transition constraint (k = v = 2) only *)
Definition frame_l' : list Fe := [e7 50; e7 99; e7 52].
Definition proof_l : @ProofObj Fe := proof_l0 frame_l [evaluate_constraints O lt_e la_e air_l coins_l (proof_l0 frame_l [])].
Definition proof_l' : @ProofObj Fe := proof_l0 frame_l' (p_ood_evals proof_l).

(* frame_l' instead of frame_l changes the constraint value: the two values differ in one numerator of the Lagrange part *)
Lemma lagrange_value_changed :
  evaluate_constraints O lt_e la_e air_l coins_l proof_l' <> evaluate_constraints O lt_e la_e air_l coins_l proof_l.
Proof. flat. inverses. zp_neq. Qed.

Example verify_lagrange_instance :
  verify_model O lt_e la_e (env_l true) air_l coins_l proof_l = Accept /\
  verify_model O lt_e la_e (env_l false) air_l coins_l proof_l = RejGkr /\
  verify_model O lt_e la_e (env_l true) air_l coins_l proof_l' = RejOod /\
  length (deep_evaluations O air_l coins_l proof_l) = 2.
Proof.
  assert (Hx : ood_equation_b O lt_e la_e air_l coins_l proof_l = true) by apply (honest_value_accepted O F64_laws).
  assert (Hy : ood_equation_b O lt_e la_e air_l coins_l proof_l' = false).
  { apply (other_value_rejected O F64_laws). exact lagrange_value_changed. }
  unfold verify_model. rewrite Hx, Hy. repeat split.
Qed.

(* the Lagrange terms do enter: the value differs from the one of the same proof without Lagrange frame *)
Example lagrange_part_nonzero : eval_lagrange_part O air_l coins_l proof_l <> fzero O.
Proof. flat. inverses. zp_neq. Qed.

(* frame_l' violates ONLY constraint v = 2 relative to frame_l: numerator 1 is unchanged, numerator 2 changes *)
Example frames_differ_in_last_constraint_only :
  EnforceLagrange.lag_raw O frame_l' (lg_rands lagc) 1 = EnforceLagrange.lag_raw O frame_l (lg_rands lagc) 1 /\
  EnforceLagrange.lag_raw O frame_l' (lg_rands lagc) 2 <> EnforceLagrange.lag_raw O frame_l (lg_rands lagc) 2 /\
  EnforceLagrange.lag_boundary_numerator O (lg_rands lagc) frame_l' (lg_cc_bnd lagc) =
  EnforceLagrange.lag_boundary_numerator O (lg_rands lagc) frame_l (lg_cc_bnd lagc).
Proof.
  split; [reflexivity|]. split; [|reflexivity].
  intros H. apply (f_equal (option_map (@zp_val P64))) in H. vm_compute in H. discriminate.
Qed.

(* REFUTED for the variant with the last constraint dropped: "a frame that violates a Lagrange transition constraint changes
   the out-of-domain value".  The variant gives proof_l' the value of proof_l (so the OOD equation that holds for proof_l
   holds for proof_l'), the real equation does not. *)
Theorem dropped_last_constraint_refuted :
  evaluate_constraints_gen O lt_e la_e (lag_new_dropped O) air_l coins_l proof_l' =
  evaluate_constraints_gen O lt_e la_e (lag_new_dropped O) air_l coins_l proof_l /\
  evaluate_constraints O lt_e la_e air_l coins_l proof_l' <> evaluate_constraints O lt_e la_e air_l coins_l proof_l.
Proof.
  split; [|exact lagrange_value_changed].
  (* the variant's value does not mention entry 1 of the frame *)
  flat. reflexivity.
Qed.
End Instances.
