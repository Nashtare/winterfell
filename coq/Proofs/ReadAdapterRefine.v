(* C13 — ReadAdapter refines SliceReader: induction over the operation list using the invariant of ReadAdapterInv and the
   generic simulation of the provided methods of ReadAdapterSim. *)
From VBase Require Import MachInt.
From VModel Require Import ReadAdapter.
From VProofs Require Import ReadAdapterSim ReadAdapterInv.
Local Open Scope nat_scope.

Definition adapter_rel (s : astate) (u : list byte) : Prop := wf s /\ SI s /\ unread s = u.

(* result of the adapter vs result of the slice reader for operation [o]; [seen_after]: an empty read of the source has been
   observed by the end of the operation *)
Definition res_match (o : op) (seen_after : bool) (ra rs : outcome value) : Prop :=
  ra = rs \/ (is_eor o = true /\ ra = Ok VUnit /\ rs = Err EOF /\ seen_after = false).

Lemma res_match_never_pessimistic : forall o seen ra rs,
  res_match o seen ra rs -> rs = Ok VUnit -> ra = Ok VUnit.
Proof. intros o seen ra rs [E|(_ & _ & E & _)] H; congruence. Qed.

Section Refine.
  Variable grow : nat -> nat -> nat.
  Variable dbg : bool.
  Variable utf8 : list byte -> bool.

  Notation AD := (adapter grow dbg).

  (* lock-step agreement along an operation list.  More than a relation between the two [run] outputs: after every operation
     the adapter's unread bytes are the slice reader's source[pos..] *)
  Fixpoint agree (ops : list op) (a : astate) (t : sstate) : Prop :=
    match ops with
    | [] => True
    | o :: rest =>
        let ra := step AD utf8 o a in
        let rs := step slice_reader utf8 o t in
        res_match o (a_seen (snd ra)) (fst ra) (fst rs) /\
        aborts (fst ra) = false /\
        unread (snd ra) = skipn (s_pos (snd rs)) (s_src (snd rs)) /\
        agree rest (snd ra) (snd rs)
    end.

  Lemma sim_of_ok : forall (A : Type) (m : astate -> outcome A * astate) sp,
    method_ok m sp -> sim astate (list byte) adapter_rel m sp.
  Proof.
    intros A m sp H s u (Hw & HS & Hu). subst u.
    destruct (H s Hw) as (Hw' & HS' & [(a & E & Hsp)|(E & Hu' & Hsp)]); rewrite E.
    - rewrite Hsp. split; [reflexivity|]. split; [exact Hw'|]. split; [now apply HS'|reflexivity].
    - rewrite (Hsp HS). split; [reflexivity|]. split; [exact Hw'|]. split; [now apply HS'|exact Hu'].
  Qed.

  Lemma adapter_step_spec : forall o s u, is_eor o = false -> adapter_rel s u ->
    fst (step AD utf8 o s) = fst (step spec_reader utf8 o u) /\
    adapter_rel (snd (step AD utf8 o s)) (snd (step spec_reader utf8 o u)).
  Proof.
    intros o s u He Hr.
    apply (sim_step astate (list byte) AD spec_reader adapter_rel utf8 (Nat.max 16 (op_arg o))); auto; try lia.
    - apply sim_of_ok, a_u8_ok.
    - apply sim_of_ok, a_peek_ok.
    - intros n _. apply sim_of_ok, a_slice_ok.
    - intros n _. apply sim_of_ok, a_array_ok.
    - intros s1 u1 (Hw & HS & Hu). subst u1. destruct (a_more_spec s1 Hw) as (Hw' & Hu' & HS').
      destruct (HS' HS) as [G1 G2]. simpl. split; [exact G2|]. split; [exact Hw'|]. split; [exact G1|exact Hu'].
  Qed.

  Lemma adapter_eor_spec : forall n s u, adapter_rel s u ->
    adapter_rel (snd (step AD utf8 (CheckEor n) s)) (snd (step spec_reader utf8 (CheckEor n) u)) /\
    res_match (CheckEor n) (a_seen (snd (step AD utf8 (CheckEor n) s)))
              (fst (step AD utf8 (CheckEor n) s)) (fst (step spec_reader utf8 (CheckEor n) u)).
  Proof.
    intros n s u (Hw & HS & Hu). subst u. destruct (a_eor_spec n s Hw) as (Hw' & Ha & Hu' & HS').
    destruct (HS' HS) as [G1 G2]. unfold step, vmap, bind, ret. cbn [r_eor adapter spec_reader].
    destruct (a_eor n s) as [r s'] eqn:E. cbn [fst snd] in *. unfold sp_eor in *. cbn [fst snd] in *.
    destruct G2 as [G2|(G2 & G3 & G4)].
    - rewrite G2. destruct (n <=? length (unread s)); cbn [fst snd].
      + split; [split; [exact Hw'|split; [exact G1|exact Hu']]|left; reflexivity].
      + split; [split; [exact Hw'|split; [exact G1|exact Hu']]|left; reflexivity].
    - subst r. rewrite G3. cbn [fst snd].
      split; [split; [exact Hw'|split; [exact G1|exact Hu']]|]. right. repeat split; auto.
  Qed.

  Lemma safe_of_ok : forall (A : Type) (m : astate -> outcome A * astate) sp, method_ok m sp -> safe astate wf m.
  Proof.
    intros A m sp H s Hw. destruct (H s Hw) as (Hw' & _ & [(a & E & _)|(E & _)]); rewrite E; (split; [reflexivity|exact Hw']).
  Qed.

  (* no operation of the adapter aborts (panic / UB / fuel), for every source: only [wf] is needed *)
  Lemma adapter_safe : forall o, safe astate wf (step AD utf8 o).
  Proof.
    intros o. apply safe_step.
    - eapply safe_of_ok, a_u8_ok.
    - eapply safe_of_ok, a_peek_ok.
    - intros n. eapply safe_of_ok, a_slice_ok.
    - intros n. eapply safe_of_ok, a_array_ok.
    - intros n s Hw. destruct (a_eor_spec n s Hw) as (Hw' & Ha & _). split; assumption.
    - intros s Hw. apply (a_more_spec s Hw).
  Qed.

  Lemma agree_gen : forall B ops a t u, 16 <= B -> Forall (fun o => op_arg o <= B) ops ->
    adapter_rel a u -> slice_rel B t u -> agree ops a t.
  Proof.
    intros B ops. induction ops as [|o ops IH]; intros a t u HB Hops Ha Ht; simpl; [exact I|].
    pose proof (Forall_inv Hops) as Ho. pose proof (Forall_inv_tail Hops) as Hrest.
    destruct (slice_step_spec utf8 B o t u HB Ho Ht) as [Es Rs].
    assert (Hsafe : aborts (fst (step AD utf8 o a)) = false) by (apply adapter_safe; apply Ha).
    destruct (is_eor o) eqn:He.
    - destruct o; try discriminate. destruct (adapter_eor_spec n a u Ha) as [Ra Ma].
      split; [|split; [exact Hsafe|split]].
      + rewrite Es. exact Ma.
      + destruct Ra as (_ & _ & E1). destruct Rs as (_ & E2 & _). now rewrite E1.
      + eapply IH; eauto.
    - destruct (adapter_step_spec o a u He Ha) as [Ea Ra].
      split; [|split; [exact Hsafe|split]].
      + left. now rewrite Ea, Es.
      + destruct Ra as (_ & _ & E1). destruct Rs as (_ & E2 & _). now rewrite E1.
      + eapply IH; eauto.
  Qed.

  Lemma init_rel : forall chunks, sticky chunks -> adapter_rel (a_init chunks) (concat chunks).
  Proof.
    intros chunks H. unfold adapter_rel, a_init, wf, SI, unread, buffer; simpl.
    repeat split; auto; intros; discriminate.
  Qed.

  Theorem adapter_refines_slice : forall chunks ops B,
    sticky chunks -> 16 <= B -> Forall (fun o => op_arg o <= B) ops ->
    (Z.of_nat (length (concat chunks)) + Z.of_nat B < 2 ^ 64)%Z ->
    agree ops (a_init chunks) (s_init (concat chunks)).
  Proof.
    intros chunks ops B Hs HB Hops Hlen. apply (agree_gen B ops _ _ (concat chunks)); auto.
    - now apply init_rel.
    - unfold slice_rel, s_init; simpl. repeat split; auto. lia.
  Qed.

  (* without check_eor both readers are the list semantics of the same bytes: the two output lists are equal *)
  Theorem outputs_equal_without_check_eor : forall chunks ops B,
    sticky chunks -> 16 <= B -> Forall (fun o => op_arg o <= B) ops ->
    (Z.of_nat (length (concat chunks)) + Z.of_nat B < 2 ^ 64)%Z ->
    Forall (fun o => is_eor o = false) ops ->
    run AD utf8 ops (a_init chunks) = run slice_reader utf8 ops (s_init (concat chunks)).
  Proof.
    intros chunks ops B Hs HB Hops Hlen Hne.
    rewrite (run_spec_slice utf8 B ops (s_init (concat chunks)) (concat chunks) HB Hops).
    - apply (sim_run _ _ AD spec_reader adapter_rel utf8 (fun o => is_eor o = false)); [|exact Hne|now apply init_rel].
      intros o He s u. exact (adapter_step_spec o s u He).
    - unfold slice_rel, s_init; simpl. repeat split; auto. lia.
  Qed.

  (* no UB, no panic, no fuel exhaustion: every source (also with empty reads before EOF), every operation sequence *)
  Theorem adapter_never_aborts : forall chunks ops,
    Forall (fun r => aborts r = false) (run AD utf8 ops (a_init chunks)).
  Proof.
    intros chunks ops. apply (safe_run astate AD wf utf8 adapter_safe). unfold wf, a_init; simpl. lia.
  Qed.

  (* check_eor and has_more_bytes consume nothing, for every source (the consuming methods: ReadAdapterCons) *)
  Theorem unread_conserved_by_queries : forall s n, wf s ->
    unread (snd (a_eor n s)) = unread s /\ unread (snd (a_more s)) = unread s.
  Proof.
    intros s n Hw. split; [apply (a_eor_spec n s Hw)|apply (a_more_spec s Hw)].
  Qed.
End Refine.

(* witnesses: non-vacuity, necessity of the side conditions *)
Definition ex_chunks : list (list byte) := [[1; 2; 3]; [4; 5]; []; []]%Z.
Definition ex_ops : list op := [PeekU8; ReadU8; CheckEor 9; ReadSlice 2; ReadU16; HasMore; ReadU8].

Lemma ex_hyps : sticky ex_chunks /\ 16 <= 16 /\ Forall (fun o => op_arg o <= 16) ex_ops /\
  (Z.of_nat (length (concat ex_chunks)) + Z.of_nat 16 < 2 ^ 64)%Z.
Proof.
  split; [simpl; intuition discriminate|]. split; [lia|]. split; [|reflexivity].
  unfold ex_ops. repeat constructor; simpl; lia.
Qed.

(* the allowed difference really occurs: check_eor(5) on a 2-byte stream answers Ok before EOF has been observed *)
Lemma optimistic_witness :
  sticky [[1; 2]%Z] /\
  run (adapter vec_grow true) utf8_valid [CheckEor 5; ReadU8; ReadU8; CheckEor 5] (a_init [[1; 2]%Z]) =
    [Ok VUnit; Ok (VInt 1); Ok (VInt 2); Err EOF] /\
  run slice_reader utf8_valid [CheckEor 5; ReadU8; ReadU8; CheckEor 5] (s_init [1; 2]%Z) =
    [Err EOF; Ok (VInt 1); Ok (VInt 2); Err EOF].
Proof. split; [simpl; intuition discriminate|]. split; vm_compute; reflexivity. Qed.

(* the sticky-EOF hypothesis is necessary: a source that returns an empty read and then more data makes the adapter report
   UnexpectedEOF where the slice reader succeeds (std::io::Read: Ok(0) means end of stream) *)
Lemma empty_read_is_eof_witness :
  ~ sticky [[1]; []; [2]]%Z /\
  run (adapter vec_grow true) utf8_valid [ReadSlice 2; ReadSlice 2] (a_init [[1]; []; [2]]%Z) =
    [Err EOF; Ok (VBytes [1; 2]%Z)] /\
  run slice_reader utf8_valid [ReadSlice 2; ReadSlice 2] (s_init [1; 2]%Z) = [Ok (VBytes [1; 2]%Z); Err EOF].
Proof.
  split; [simpl; intros (_ & H & _); specialize (H eq_refl); discriminate|]. split; vm_compute; reflexivity.
Qed.

(* two-level path: the read_array starts with one byte in the local buffer and needs two more reads of the source (fall-back
   of read_exact); the later calls are served from the local buffer *)
Lemma straddle_example :
  run (adapter vec_grow true) utf8_valid [ReadSlice 2; ReadArray 4; ReadU16; ReadUsize; HasMore]
      (a_init [[1; 2; 3]; [4; 5]; [6; 7; 8; 3; 9]]%Z) =
  run slice_reader utf8_valid [ReadSlice 2; ReadArray 4; ReadU16; ReadUsize; HasMore] (s_init [1; 2; 3; 4; 5; 6; 7; 8; 3; 9]%Z).
Proof. vm_compute. reflexivity. Qed.
