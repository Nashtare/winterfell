(* No reader of the model can panic on a byte string: every Panic of the model sits in a constructor assert, and
   the readers validate before calling the constructors.  Property C12 (overlaps C06). *)
From VBase Require Import MachInt.
From VModel Require Import Codec.
From VProofs Require Import CodecPrim CodecTypes.
Open Scope Z_scope.

Definition any {A} : A -> Prop := fun _ => True.

Lemma safe_any {A} (P : A -> Prop) r : safeP P r -> safeP any r.
Proof. apply safe_weaken. intros; exact I. Qed.

Lemma safe_peek_u8 : safeP (fun b => 0 <= b < 256) peek_u8.
Proof. intros [|b r] H; cbn; auto. inversion H; subst. auto. Qed.

Lemma safe_if {A} (P : A -> Prop) (c : bool) (r1 r2 : Rd A) : safeP P r1 -> safeP P r2 -> safeP P (if c then r1 else r2).
Proof. destruct c; auto. Qed.

Lemma safe_read_bool : safeP any read_bool.
Proof.
  unfold read_bool. eapply safe_bind; [apply safe_read_u8|]. intros b _.
  repeat apply safe_if; try apply safe_fail; apply safe_ret; exact I.
Qed.

Lemma safe_read_usize : safeP any read_usize.
Proof.
  unfold read_usize. eapply safe_bind; [apply safe_peek_u8|]. intros fb _.
  eapply (safe_bind any).
  - apply safe_if.
    + eapply safe_bind; [apply safe_read_u8|]. intros _ _. apply (safe_any _ _ (safe_read_uint 8)).
    + eapply safe_bind; [apply safe_read_slice|]. intros v _. apply safe_ret. exact I.
  - intros r _. apply safe_if; [apply safe_fail | apply safe_ret; exact I].
Qed.

Lemma safe_read_many_nat {A} (P : A -> Prop) (r : Rd A) n :
  safeP P r -> safeP (fun l => Forall P l /\ length l = n) (read_many_nat r n).
Proof.
  intros Hr. induction n as [|n IH]; intros bs Hbs; cbn [read_many_nat]; [auto|].
  specialize (Hr bs Hbs). destruct (r bs) as [[a bs']| |]; auto. destruct Hr as [Pa Hbs'].
  specialize (IH bs' Hbs'). destruct (read_many_nat r n bs') as [[l bs'']| |]; auto.
  destruct IH as [[Hl Hn] Hb]. cbn [length]. auto.
Qed.

Lemma safe_read_many_len {A} (P : A -> Prop) (r : Rd A) n :
  safeP P r -> safeP (fun l => Forall P l /\ Z.of_nat (length l) = Z.max 0 n) (read_many r n).
Proof.
  intros Hr. destruct (Z_le_gt_dec n 0) as [Hn | Hn].
  - intros bs Hbs. unfold read_many. destruct n; try lia; cbn; repeat split; auto.
  - intros bs Hbs. rewrite <- (Z2Nat.id n) by lia. rewrite read_many_spec.
    pose proof (safe_read_many_nat P r (Z.to_nat n) Hr bs Hbs) as H.
    destruct (read_many_nat r (Z.to_nat n) bs) as [[l rest]| |]; auto.
    destruct H as [[Hl Hlen] Hb]. repeat split; auto. lia.
Qed.

Lemma safe_read_many {A} (P : A -> Prop) (r : Rd A) n : safeP P r -> safeP (Forall P) (read_many r n).
Proof. intros Hr. eapply safe_weaken; [|apply (safe_read_many_len P r n Hr)]. now intros l [Hl _]. Qed.

Lemma safe_read_option {A} (P : A -> Prop) (r : Rd A) : safeP P r -> safeP any (read_option r).
Proof.
  intros Hr. unfold read_option. eapply safe_bind; [apply safe_read_bool|]. intros c _.
  apply safe_if; [|apply safe_ret; exact I].
  eapply safe_bind; [exact Hr|]. intros v _. apply safe_ret. exact I.
Qed.

Lemma safe_read_vec_of {A} (P : A -> Prop) (r : Rd A) : safeP P r -> safeP (Forall P) (read_vec_of r).
Proof.
  intros Hr. unfold read_vec_of. eapply safe_bind; [apply safe_read_usize|]. intros n _. now apply safe_read_many.
Qed.

Lemma safe_read_blob k : safeP is_bytes (read_blob k).
Proof. unfold read_blob, read_vec. eapply safe_bind; [apply safe_read_uint|]. intros n _. apply safe_read_slice. Qed.

Lemma safe_read_string u : safeP any (read_string u).
Proof.
  unfold read_string. eapply safe_bind; [apply safe_read_usize|]. intros n _.
  eapply safe_bind; [apply (safe_read_many _ _ n safe_read_u8)|]. intros d _.
  apply safe_if; [apply safe_ret; exact I | apply safe_fail].
Qed.

Lemma safe_read_felt k M : safeP any (read_felt k M).
Proof.
  unfold read_felt. eapply safe_bind; [apply safe_read_uint|]. intros v _.
  apply safe_if; [apply safe_fail | apply safe_ret; exact I].
Qed.

Theorem read_Context_no_panic : safeP any read_Context.
Proof.
  unfold read_Context. eapply safe_bind; [apply read_TraceInfo_no_panic|]. intros t _.
  eapply safe_bind; [apply safe_read_u8|]. intros n _.
  apply safe_if; [apply safe_fail|].
  eapply safe_bind; [apply safe_read_slice|]. intros m _.
  eapply safe_bind; [apply read_ProofOptions_no_panic|]. intros o _.
  repeat apply safe_if; try apply safe_fail. apply safe_ret. exact I.
Qed.

Lemma read_Context_with (Q : TraceInfo -> Prop) : safeP Q read_TraceInfo ->
  safeP (fun c => Q (ctx_trace_info c) /\ wf_ProofOptions (ctx_options c) /\ 1 <= len (ctx_modulus c) <= 255 /\
                  Context_new (ctx_modulus c) (ctx_trace_info c) (ctx_options c) = Ok c) read_Context.
Proof.
  intros HQ. unfold read_Context. eapply safe_bind; [exact HQ|]. intros t Ht.
  eapply safe_bind; [apply safe_read_u8|]. intros n Hn.
  destruct (n =? 0) eqn:C0; [apply safe_fail|].
  eapply (safe_bind (fun m => len m = n)).
  { eapply safe_weaken; [|apply (safe_read_slice_len n); cbv beta in Hn; lia]. cbv beta. intros m [_ Hl]. exact Hl. }
  intros m Hm.
  eapply safe_bind; [apply read_ProofOptions_no_panic|]. intros o Ho.
  destruct (ti_length t >? 2 ^ 32 - 1) eqn:C1; [apply safe_fail|].
  destruct ((ti_length t * po_blowup_factor o <=? usize_max) && (ti_length t * po_blowup_factor o <=? 2 ^ 32 - 1)) eqn:C2;
    [|apply safe_fail].
  apply safe_ret. cbn [ctx_trace_info ctx_options ctx_modulus].
  apply andb_prop in C2. destruct C2 as [C2 C3].
  apply Z.eqb_neq in C0. cbv beta in Hn.
  repeat split; auto; try lia.
  unfold Context_new, assert_. rewrite C2, C3.
  rewrite Z.gtb_ltb in C1. apply Z.ltb_ge in C1. destruct (Z.leb_spec (ti_length t) (2 ^ 32 - 1)); [reflexivity | lia].
Qed.

(* whatever the reader returns, Context::new accepts (on the trace info and options just read).  The modulus may
   be 255 bytes long, one more than the writer's assert and wf_Context allow. *)
Theorem read_Context_total :
  safeP (fun c => wf_TraceInfo (ctx_trace_info c) /\ wf_ProofOptions (ctx_options c) /\ 1 <= len (ctx_modulus c) <= 255 /\
                  Context_new (ctx_modulus c) (ctx_trace_info c) (ctx_options c) = Ok c) read_Context.
Proof. exact (read_Context_with wf_TraceInfo read_TraceInfo_no_panic). Qed.

Theorem read_Queries_no_panic : safeP any read_Queries.
Proof.
  unfold read_Queries. eapply safe_bind; [apply safe_read_blob|]. intros v _.
  eapply safe_bind; [apply safe_read_blob|]. intros p _. apply safe_ret. exact I.
Qed.

Theorem read_OodFrame_no_panic : safeP any read_OodFrame.
Proof.
  unfold read_OodFrame. eapply safe_bind; [apply safe_read_blob|]. intros t _.
  eapply safe_bind; [apply safe_read_blob|]. intros l _.
  eapply safe_bind; [apply safe_read_blob|]. intros e _. apply safe_ret. exact I.
Qed.

Theorem read_FriProofLayer_no_panic : safeP any read_FriProofLayer.
Proof.
  unfold read_FriProofLayer. eapply safe_bind; [apply (safe_read_uint 4)|]. intros n _.
  apply safe_if; [apply safe_fail|].
  eapply safe_bind; [apply safe_read_slice|]. intros v _.
  eapply safe_bind; [apply safe_read_blob|]. intros p _. apply safe_ret. exact I.
Qed.

Theorem read_FriProof_no_panic : safeP any read_FriProof.
Proof.
  unfold read_FriProof. eapply safe_bind; [apply safe_read_u8|]. intros n _.
  eapply safe_bind; [apply (safe_read_many _ _ n read_FriProofLayer_no_panic)|]. intros layers _.
  eapply safe_bind; [apply safe_read_blob|]. intros r _.
  eapply safe_bind; [apply safe_read_u8|]. intros np _.
  apply safe_if; [apply safe_fail | apply safe_ret; exact I].
Qed.

Theorem read_Proof_no_panic : safeP any read_Proof.
Proof.
  unfold read_Proof. eapply safe_bind; [apply read_Context_no_panic|]. intros c _.
  eapply safe_bind; [apply safe_read_u8|]. intros nuq _.
  eapply safe_bind; [apply (safe_read_blob 2)|]. intros com _.
  eapply safe_bind; [apply (safe_read_many _ _ _ read_Queries_no_panic)|]. intros tq _.
  eapply safe_bind; [apply read_Queries_no_panic|]. intros cq _.
  eapply safe_bind; [apply read_OodFrame_no_panic|]. intros ood _.
  eapply safe_bind; [apply read_FriProof_no_panic|]. intros fri _.
  eapply safe_bind; [apply (safe_read_uint 8)|]. intros nonce _.
  eapply safe_bind; [apply (safe_read_option _ _ (safe_read_vec_of _ _ safe_read_u8))|]. intros gkr _.
  apply safe_ret. exact I.
Qed.
