(* C20 — uniqueness of interpolation (interpolate o eval_many = id, via the root bound of C02:
   SoundnessPoly.agree_bound) and exact-division corollaries for the synthetic divisions. *)
From Coq Require Import List Arith Bool Lia Ring Field.
From VBase Require Import FieldOps.
From VModel Require Import Polynom Soundness.
From VProofs Require Import PolyBase PolyCoeff PolyArith PolyDiv PolyRoots PolyInterp SoundnessPoly.
Import ListNotations.

Section Unique.
Context {F : Type} (O : FOps F) (L : FLaws O).
Local Notation zero := (fzero O).
Local Notation one := (fone O).
Local Notation "a +f b" := (fadd O a b) (at level 50, left associativity).
Local Notation "a -f b" := (fsub O a b) (at level 50, left associativity).
Local Notation "a *f b" := (fmul O a b) (at level 40, left associativity).
Local Notation peval := (PolyBase.peval O).

Add Field Ffield : (FLaws_field_theory O L).

(* the two developments define the same evaluation function *)
Lemma peval_bridge p x : Soundness.peval O p x = peval p x.
Proof. induction p as [|c p IH]; simpl. reflexivity. now rewrite IH. Qed.

(* two coefficient lists of length <= n that agree on n distinct points are equal coefficient by coefficient *)
Lemma agree_coeffs (xs a b : list F) : NoDup xs -> length a <= length xs -> length b <= length xs ->
  (forall x, In x xs -> peval a x = peval b x) -> forall i, nth i a zero = nth i b zero.
Proof.
  intros Hnd Ha Hb Hag i.
  destruct (SoundnessPoly.feq_dec O L (nth i a zero) (nth i b zero)) as [E|E]; [exact E|exfalso].
  destruct xs as [|x0 xs'].
  - simpl in *. destruct a, b; simpl in *; try lia. destruct i; apply E; reflexivity.
  - assert (Hne : ~ SoundnessPoly.peqv O a b) by (intros Hp; apply E; apply (Hp i)).
    assert (Hag' : forall r, In r (x0 :: xs') -> Soundness.peval O a r = Soundness.peval O b r)
      by (intros r Hr; rewrite !peval_bridge; now apply Hag).
    pose proof (SoundnessPoly.agree_bound O L a b (length xs') (x0 :: xs') Ha Hb Hne Hnd Hag') as Hbound.
    simpl in Hbound. lia.
Qed.

(* the interpolant is unique: any coefficient list of length n through the points IS the result *)
Theorem interpolate_unique dbg xs ys q : NoDup xs -> length ys = length xs -> length q = length xs ->
  (forall m, m < length xs -> peval q (nth m xs zero) = nth m ys zero) ->
  interpolate O dbg xs ys false = Ok q.
Proof.
  intros Hnd Hl Hq Hev.
  destruct (interpolate_spec O L dbg xs ys Hnd Hl) as (r & Hr & Hlr & _ & Hrv).
  rewrite Hr. f_equal. apply (nth_ext _ _ zero zero). lia.
  intros i _. apply (agree_coeffs xs); auto; try lia.
  intros x Hx. destruct (In_nth xs x zero Hx) as (m & Hm & <-). now rewrite Hrv, Hev.
Qed.

(* hence interpolate o eval_many = id on coefficient lists of length <= n (padded with zeros to length n) *)
Theorem interpolate_eval_many dbg xs p : NoDup xs -> length p <= length xs ->
  interpolate O dbg xs (eval_many O p xs) false = Ok (p ++ repeat zero (length xs - length p)).
Proof.
  intros Hnd Hp. rewrite (eval_many_spec O L).
  apply interpolate_unique; [exact Hnd | apply map_length | rewrite app_length, repeat_length; lia |].
  intros m Hm. rewrite (nth_indep (map (peval p) xs) zero (peval p zero)) by (rewrite map_length; exact Hm).
  rewrite map_nth.
  rewrite (peval_app O L), (peval_repeat_zero O L). ring.
Qed.

(* with remove_leading_zeros = true the padding disappears: the result is p without its leading zeros *)
Lemma last_nz_ext (a b : list F) : forall n, (forall i, i < n -> nth i a zero = nth i b zero) ->
  last_nz O a n = last_nz O b n.
Proof.
  induction n as [|n IH]; intros H. reflexivity.
  cbn [last_nz]. rewrite (H n) by lia. rewrite IH by (intros; apply H; lia). reflexivity.
Qed.

Lemma last_nz_zeros_above (a : list F) m : forall k, (forall i, m <= i -> nth i a zero = zero) ->
  last_nz O a (m + k) = last_nz O a m.
Proof.
  induction k as [|k IH]; intros H. now rewrite Nat.add_0_r.
  rewrite Nat.add_succ_r. cbn [last_nz]. rewrite (H (m + k)) by lia. rewrite (feqb_refl O L). now apply IH.
Qed.

Lemma remove_leading_zeros_app_zeros p k :
  remove_leading_zeros O (p ++ repeat zero k) = remove_leading_zeros O p.
Proof.
  unfold remove_leading_zeros. rewrite app_length, repeat_length.
  rewrite last_nz_zeros_above.
  2: { intros i Hi. rewrite app_nth2 by lia. apply nth_repeat. }
  rewrite (last_nz_ext (p ++ repeat zero k) p) by (intros; now rewrite app_nth1).
  pose proof (last_nz_all O L p) as H.
  destruct (last_nz O p (length p)) as [i|]; [|reflexivity].
  destruct H as (Hi & _). rewrite firstn_app. replace (i + 1 - length p) with 0 by lia. simpl. now rewrite app_nil_r.
Qed.

Theorem interpolate_eval_many_rlz dbg xs p : NoDup xs -> length p <= length xs ->
  interpolate O dbg xs (eval_many O p xs) true = Ok (remove_leading_zeros O p).
Proof.
  intros Hnd Hp.
  assert (Hl : length (eval_many O p xs) = length xs) by (unfold eval_many; apply map_length).
  destruct (interpolate_spec O L dbg xs (eval_many O p xs) Hnd Hl) as (r & Hr & _ & Hrl & _).
  rewrite (interpolate_eval_many dbg xs p Hnd Hp) in Hr. inversion Hr; subst r.
  rewrite Hrl. now rewrite remove_leading_zeros_app_zeros.
Qed.

(* ------------------------------------------------------------------ exact synthetic division *)
(* a zero top coefficient passes through one division step *)
Lemma syn_lin_app_zero r : forall p, syn_lin O (p ++ [zero]) r = (fst (syn_lin O p r) ++ [zero], snd (syn_lin O p r)).
Proof.
  induction p as [|h t IH]; simpl.
  - f_equal. ring.
  - rewrite IH. destruct (syn_lin O t r) as [t' c]. reflexivity.
Qed.

Lemma syn_lin_app_zeros r k : forall p,
  syn_lin O (p ++ repeat zero k) r = (fst (syn_lin O p r) ++ repeat zero k, snd (syn_lin O p r)).
Proof.
  induction k as [|k IH]; intros p.
  - simpl. rewrite !app_nil_r. now destruct (syn_lin O p r).
  - cbn [repeat]. rewrite repeat_cons, app_assoc, syn_lin_app_zero, IH. simpl. now rewrite <- app_assoc.
Qed.

(* (x - b) * q divided by (x - b): the quotient is q (padded to the slice length), the remainder 0 *)
Theorem syn_div_exact_linear q b : q <> [] -> b <> zero ->
  syn_div_in_place_full O (linmul O q b) 1 b = Ok (q ++ [zero], [zero]).
Proof.
  intros Hq Hb. rewrite (syn_div_full_unfold1 O L).
  - now rewrite (syn_lin_linmul O L).
  - exact Hb.
  - rewrite linmul_length. destruct q; [congruence|simpl; lia].
Qed.

(* prod (x - r_i) * q divided by the list of roots: quotient q padded with m zeros, all m remainders 0 *)
Lemma syn_roots_loop_exact : forall roots q k,
  syn_roots_loop O (fold_left (linmul O) roots q ++ repeat zero k) roots
  = (q ++ repeat zero (length roots + k), repeat zero (length roots)).
Proof.
  induction roots as [|r rs IH]; intros q k. reflexivity.
  cbn [syn_roots_loop fold_left length]. rewrite (fold_linmul_comm O L).
  rewrite syn_lin_app_zeros, (syn_lin_linmul O L). cbn [fst snd].
  rewrite <- app_assoc. change ([zero] ++ repeat zero k) with (repeat zero (S k)).
  rewrite IH. cbn [repeat]. do 2 f_equal. f_equal. lia.
Qed.

Theorem syn_div_roots_exact roots q : roots <> [] -> q <> [] ->
  syn_div_roots_in_place O (fold_left (linmul O) roots q) roots = Ok (q ++ repeat zero (length roots)).
Proof.
  intros Hr Hq. unfold syn_div_roots_in_place, syn_div_roots_in_place_full.
  destruct roots as [|r0 rs]; [congruence|].
  rewrite (fold_linmul_length O). destruct (Nat.ltb_spec (length (r0 :: rs)) (length q + length (r0 :: rs))) as [H|H].
  - cbn [negb bind]. pose proof (syn_roots_loop_exact (r0 :: rs) q 0) as E.
    simpl (repeat zero 0) in E. rewrite app_nil_r, Nat.add_0_r in E. rewrite E. reflexivity.
  - destruct q; [congruence|]. simpl in H. lia.
Qed.

End Unique.
