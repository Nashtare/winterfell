(* C05 — what the model verifier (Model/Fri.v verify_generic, repaired code) enforces: it accepts IFF (a) every layer
   opening authenticates against the layer commitment, (b) the values carried into a layer are the opened ones and the value
   carried on is the interpolant of the opened row at that layer's alpha, (c) no degree truncation at any layer,
   (d) |remainder| <= allowed, (e) the remainder evaluates to the last folded values at every folded position, (f) the
   remainder hashes to the commitment that follows the layer commitments; each is read off the code by inverting the model
   function.  The unrepaired verifier is the same WITHOUT (f), and the adaptive-remainder attack is a theorem about it. *)
From Coq Require Import List Arith Bool Lia.
From VBase Require Import FieldOps.
From VModel Require Import Fri.
Import ListNotations.

Local Arguments mkVCh {F D MN}.
Local Arguments vc_commitments {F D MN}.
Local Arguments vc_proofs {F D MN}.
Local Arguments vc_queries {F D MN}.
Local Arguments vc_remainder {F D MN}.
Local Arguments vc_partitions {F D MN}.
Local Arguments mkVS {F D MN}.
Local Arguments vs_gen {F D MN}.
Local Arguments vs_size {F D MN}.
Local Arguments vs_mdp1 {F D MN}.
Local Arguments vs_positions {F D MN}.
Local Arguments vs_evals {F D MN}.
Local Arguments vs_chan {F D MN}.
Local Arguments v_max_poly_degree {F D}.
Local Arguments v_domain_size {F D}.
Local Arguments v_domain_generator {F D}.
Local Arguments v_commitments {F D}.
Local Arguments v_alphas {F D}.
Local Arguments v_options {F D}.
Local Arguments v_partitions {F D}.
Local Arguments folding_roots_of {F} O {D}.

Section Accept.
Context {F : Type} (O : FOps F) (L : FLaws O).
Variable gen_offset : F.
Variable dbg : bool.
Variable D : Type.
Variable D_eqb : D -> D -> bool.
Hypothesis D_eqb_spec : forall a b, D_eqb a b = true <-> a = b.
Variable hash_elements : list F -> D.
Variable MN : Type.
Variable mt_verify_batch : D -> list nat -> list D -> MN -> nat -> auth_res.

Local Notation verifier := (@verifier F D).
Local Notation vchannel := (@vchannel F D MN).
Local Notation vstate := (@vstate F D MN).
Local Notation layer_step := (layer_step O gen_offset dbg D MN mt_verify_batch).
Local Notation layers_loop := (layers_loop O gen_offset dbg D MN mt_verify_batch).
Local Notation verify_remainder := (verify_remainder O gen_offset D D_eqb hash_elements MN).
Local Notation verify_generic_gen := (verify_generic_gen O gen_offset dbg D D_eqb hash_elements MN mt_verify_batch).

Lemma list_feqb_spec : forall a b, list_feqb O a b = true <-> a = b.
Proof.
  induction a as [|x a IH]; destruct b as [|y b]; cbn; try (split; [discriminate | discriminate]); [tauto|].
  rewrite andb_true_iff, IH, (fl_eqb_spec O L). split; [intros [-> ->]; reflexivity | intros [= -> ->]; auto].
Qed.

Lemma bind_Ok {A B} (r : res A) (f : A -> res B) b :
  bind r f = Ok b <-> exists a, r = Ok a /\ f a = Ok b.
Proof.
  destruct r; cbn; split; try (intros [a0 [H _]]; discriminate); try discriminate.
  - eauto.
  - intros [a0 [[= ->] H]]. exact H.
Qed.

(* the channel after one layer has been read *)
Definition chan_tail (c : vchannel) : vchannel :=
  mkVCh (vc_commitments c) (tl (vc_proofs c)) (tl (vc_queries c)) (vc_remainder c) (vc_partitions c).

(* ---------------------------------------------------------------- one layer *)
Definition layer_accepts (N : nat) (v : verifier) (roots : list F) (depth : nat) (s s' : vstate) : Prop :=
  exists folded indexes commitment leaves nodes d q rows alpha,
    fold_positions (vs_positions s) (vs_size s) (fo_folding (v_options v)) = Ok folded /\
    map_positions_to_indexes folded (vs_size s) (fo_folding (v_options v)) (v_partitions v) = Ok indexes /\
    nth_error (v_commitments v) depth = Some commitment /\
    hd_error (vc_proofs (vs_chan s)) = Some (leaves, nodes, d) /\
    (* (a) the opening authenticates against the layer commitment *)
    mt_verify_batch commitment indexes leaves nodes d = AuthOk /\
    hd_error (vc_queries (vs_chan s)) = Some q /\
    group_slice N q = Ok rows /\
    (* (b) the values carried into this layer are the ones found in the opened rows *)
    get_query_values N rows (vs_positions s) folded (vs_size s) = Ok (vs_evals s) /\
    (if dbg then length rows = length folded else length folded <= length rows) /\
    nth_error (v_alphas v) depth = Some alpha /\
    (* (c) no degree truncation *)
    vs_mdp1 s mod N = 0 /\
    (* (b) the value carried to the next layer is the interpolant of the opened row at alpha *)
    s' = mkVS (fexp O (vs_gen s) N) (vs_size s / N) (vs_mdp1 s / N) folded
              (map2 (fun x r => interp_eval O x r alpha) (map (row_xs O gen_offset roots (vs_gen s)) folded) rows)
              (chan_tail (vs_chan s)).

Lemma idx_Ok {A} (l : list A) i a : idx l i = Ok a <-> nth_error l i = Some a.
Proof. unfold idx. destruct (nth_error l i); cbn; split; congruence. Qed.

Theorem layer_step_accepts : forall N v roots depth s s',
  layer_step N v roots depth s = Ok s' <-> layer_accepts N v roots depth s s'.
Proof.
  intros N v roots depth s s'. unfold Fri.layer_step, layer_accepts. split.
  - intros H.
    apply bind_Ok in H. destruct H as [folded [Hf H]].
    apply bind_Ok in H. destruct H as [indexes [Hi H]].
    apply bind_Ok in H. destruct H as [commitment [Hc H]]. apply idx_Ok in Hc.
    apply bind_Ok in H. destruct H as [[ch' rows] [Hr H]].
    apply bind_Ok in H. destruct H as [qv [Hq H]].
    unfold read_layer_queries in Hr.
    destruct (vc_proofs (vs_chan s)) as [|[[leaves nodes] d] proofs'] eqn:Ep; [discriminate|].
    destruct (mt_verify_batch commitment indexes leaves nodes d) eqn:Ea; try discriminate.
    destruct (vc_queries (vs_chan s)) as [|q queries'] eqn:Eq; [discriminate|].
    apply bind_Ok in Hr. destruct Hr as [rows0 [Hg Hr]]. injection Hr as <- <-.
    destruct (list_feqb O (vs_evals s) qv) eqn:El; cbn [negb] in H; [|discriminate].
    apply list_feqb_spec in El. subst qv.
    rewrite map_length in H.
    destruct (dbg && negb (length folded =? length rows0)) eqn:Ed; [discriminate|].
    destruct (length rows0 <? length folded) eqn:Elt; [discriminate|].
    apply bind_Ok in H. destruct H as [alpha [Hal H]]. apply idx_Ok in Hal.
    destruct (vs_mdp1 s mod N =? 0) eqn:Em; cbn [negb] in H; [|discriminate].
    injection H as <-.
    exists folded, indexes, commitment, leaves, nodes, d, q, rows0, alpha.
    repeat split; auto.
    + apply Nat.ltb_ge in Elt. destruct dbg; cbn in Ed; [|assumption].
      apply negb_false_iff, Nat.eqb_eq in Ed. lia.
    + now apply Nat.eqb_eq.
    + unfold chan_tail. rewrite Ep, Eq. reflexivity.
  - intros [folded [indexes [commitment [leaves [nodes [d [q [rows [alpha
      [Hf [Hi [Hc [Hp [Ha [Hq [Hg [Hqv [Hlen [Hal [Hm ->]]]]]]]]]]]]]]]]]]]].
    rewrite Hf. cbn [bind]. rewrite Hi. cbn [bind].
    apply idx_Ok in Hc. rewrite Hc. cbn [bind]. unfold read_layer_queries.
    destruct (vc_proofs (vs_chan s)) as [|pr proofs'] eqn:Ep; [discriminate|]. injection Hp as ->.
    rewrite Ha.
    destruct (vc_queries (vs_chan s)) as [|q0 queries'] eqn:Eq; [discriminate|]. injection Hq as ->.
    rewrite Hg. cbn [bind]. rewrite Hqv. cbn [bind].
    rewrite (proj2 (list_feqb_spec _ _) eq_refl). cbn [negb].
    rewrite map_length.
    assert (E1 : dbg && negb (length folded =? length rows) = false).
    { destruct dbg; [|reflexivity]. cbn. rewrite Hlen, Nat.eqb_refl. reflexivity. }
    rewrite E1.
    assert (E2 : (length rows <? length folded) = false).
    { apply Nat.ltb_ge. destruct dbg; lia. }
    rewrite E2. apply idx_Ok in Hal. rewrite Hal. cbn [bind].
    rewrite Hm. cbn [Nat.eqb negb]. unfold chan_tail. rewrite Ep, Eq. reflexivity.
Qed.

(* ---------------------------------------------------------------- all layers *)
Fixpoint layers_accept (k N : nat) (v : verifier) (roots : list F) (depth : nat) (s s' : vstate) : Prop :=
  match k with
  | 0 => s' = s
  | S k' => exists s1, layer_accepts N v roots depth s s1 /\ layers_accept k' N v roots (S depth) s1 s'
  end.

Theorem layers_loop_accepts : forall k N v roots depth s s',
  layers_loop k N v roots depth s = Ok s' <-> layers_accept k N v roots depth s s'.
Proof.
  induction k as [|k IH]; intros N v roots depth s s'; cbn [Fri.layers_loop layers_accept].
  - split; [intros [= ->] | intros ->]; reflexivity.
  - rewrite bind_Ok. split; intros [s1 [A B]]; exists s1.
    + split; [now apply layer_step_accepts | now apply IH].
    + split; [now apply layer_step_accepts | now apply IH].
Qed.

(* ---------------------------------------------------------------- remainder *)
(* (e): the remainder polynomial evaluates to the carried value at every folded position (pairs of the zip) *)
Definition remainder_agrees (remainder : list F) (g : F) (positions : list nat) (evals : list F) : Prop :=
  forall i p e, nth_error positions i = Some p -> nth_error evals i = Some e ->
    peval O remainder (fmul O gen_offset (fexp O g p)) = e.

Lemma remainder_check_spec : forall remainder g positions evals,
  remainder_check O gen_offset remainder g positions evals = true <-> remainder_agrees remainder g positions evals.
Proof.
  intros remainder g. unfold remainder_agrees.
  induction positions as [|p ps IH]; intros evals; cbn [remainder_check].
  - split; [intros _ [|i] ? ? H; discriminate | reflexivity].
  - destruct evals as [|e es].
    + split; [intros _ i ? ? _ H; destruct i; discriminate | reflexivity].
    + rewrite andb_true_iff, (fl_eqb_spec O L), IH. unfold eval_horner. split.
      * intros [A B] [|i] p0 e0 Hp He; cbn in Hp, He; [congruence | eauto].
      * intros H. split; [apply (H 0); reflexivity | intros i p0 e0 Hp He; apply (H (S i)); assumption].
Qed.

Definition remainder_accepts (check_commitment : bool) (v : verifier) (num_layers : nat) (s : vstate) : Prop :=
  let remainder := vc_remainder (vs_chan s) in
  (* (f) the remainder is bound to the commitment sent after the layer commitments *)
  (check_commitment = true -> nth_error (v_commitments v) num_layers = Some (hash_elements remainder)) /\
  (* (d) *)
  length remainder <= vs_mdp1 s /\
  (* (e) *)
  remainder_agrees remainder (vs_gen s) (vs_positions s) (vs_evals s).

Theorem verify_remainder_accepts : forall check v num_layers s,
  verify_remainder check v num_layers s = Ok tt <-> remainder_accepts check v num_layers s.
Proof.
  intros check v num_layers s. unfold Fri.verify_remainder, remainder_accepts. cbv zeta.
  set (rem := vc_remainder (vs_chan s)).
  (* the commitment test *)
  assert (Hc : check && negb (match nth_error (v_commitments v) num_layers with
                              | Some c => D_eqb c (hash_elements rem) | None => false end) = false
               <-> (check = true -> nth_error (v_commitments v) num_layers = Some (hash_elements rem))).
  { destruct check; cbn [andb]; [|split; [discriminate | reflexivity]].
    rewrite negb_false_iff. destruct (nth_error (v_commitments v) num_layers) as [c|].
    - rewrite D_eqb_spec. split; [intros -> _; reflexivity | intros H; now injection (H eq_refl)].
    - split; [discriminate | intros H; discriminate (H eq_refl)]. }
  destruct (check && negb _) eqn:Ec.
  - split; [discriminate|]. intros [H _]. apply Hc in H. discriminate.
  - destruct (vs_mdp1 s <? length rem) eqn:El.
    + apply Nat.ltb_lt in El. split; [discriminate | intros [_ [H _]]; lia].
    + apply Nat.ltb_ge in El. rewrite <- remainder_check_spec.
      destruct (remainder_check O gen_offset _ _ _ _); [tauto|].
      split; [discriminate | intros [_ [_ H]]; discriminate].
Qed.

(* ---------------------------------------------------------------- the verifier *)
Definition initial_state (v : verifier) (ch : vchannel) (evaluations : list F) (positions : list nat) : vstate :=
  mkVS (v_domain_generator v) (v_domain_size v) (v_max_poly_degree v + 1) positions evaluations ch.

Definition fri_accepts (check_commitment : bool) (N : nat) (v : verifier) (ch : vchannel)
  (evaluations : list F) (positions : list nat) : Prop :=
  N <> 0 /\
  exists num_layers s,
    num_fri_layers (v_options v) (v_domain_size v) = Some num_layers /\
    layers_accept num_layers N v (folding_roots_of O N v) 0 (initial_state v ch evaluations positions) s /\
    remainder_accepts check_commitment v num_layers s.

Theorem fri_accept_iff_gen : forall check N v ch evaluations positions,
  verify_generic_gen check N v ch evaluations positions = Ok tt <->
  fri_accepts check N v ch evaluations positions.
Proof.
  intros check N v ch evaluations positions. unfold Fri.verify_generic_gen, fri_accepts.
  destruct (N =? 0) eqn:EN.
  - apply Nat.eqb_eq in EN. split; [discriminate | intros [H _]; contradiction].
  - apply Nat.eqb_neq in EN. rewrite bind_Ok. split.
    + intros [nl [Hn H]]. split; [assumption|].
      destruct (num_fri_layers (v_options v) (v_domain_size v)) as [k|]; [|discriminate]. injection Hn as <-.
      apply bind_Ok in H. destruct H as [s [Hl Hr]]. exists k, s.
      split; [reflexivity|]. split; [now apply layers_loop_accepts | now apply verify_remainder_accepts].
    + intros [_ [k [s [Hk [Hl Hr]]]]]. exists k. rewrite Hk. split; [reflexivity|].
      apply bind_Ok. exists s. split; [now apply layers_loop_accepts | now apply verify_remainder_accepts].
Qed.

(* the repaired verifier: conditions (a)-(f) *)
Corollary fri_accept_iff : forall N v ch evaluations positions,
  verify_generic O gen_offset dbg D D_eqb hash_elements MN mt_verify_batch N v ch evaluations positions = Ok tt <->
  fri_accepts true N v ch evaluations positions.
Proof. intros. apply fri_accept_iff_gen. Qed.

(* the verifier before the repair: the same WITHOUT (f) *)
Corollary fri_accept_iff_unrepaired : forall N v ch evaluations positions,
  verify_generic_unrepaired O gen_offset dbg D D_eqb hash_elements MN mt_verify_batch N v ch evaluations positions = Ok tt <->
  fri_accepts false N v ch evaluations positions.
Proof. intros. apply fri_accept_iff_gen. Qed.

(* every transcript accepted by the repaired verifier is accepted by the unrepaired one *)
Corollary repaired_implies_unrepaired : forall N v ch evaluations positions,
  fri_accepts true N v ch evaluations positions -> fri_accepts false N v ch evaluations positions.
Proof.
  intros N v ch e p [HN [k [s [A [B [C1 [C2 C3]]]]]]]. split; [assumption|]. exists k, s.
  split; [assumption|]. split; [assumption|]. split; [discriminate | auto].
Qed.

(* ---------------------------------------------------------------- the remainder is read only at the end *)
Definition with_remainder (c : vchannel) (r : list F) : vchannel :=
  mkVCh (vc_commitments c) (vc_proofs c) (vc_queries c) r (vc_partitions c).
Definition state_with_remainder (s : vstate) (r : list F) : vstate :=
  mkVS (vs_gen s) (vs_size s) (vs_mdp1 s) (vs_positions s) (vs_evals s) (with_remainder (vs_chan s) r).

Lemma layer_accepts_with_remainder N v roots depth s s' r :
  layer_accepts N v roots depth s s' ->
  layer_accepts N v roots depth (state_with_remainder s r) (state_with_remainder s' r).
Proof.
  intros [folded [indexes [commitment [leaves [nodes [d [q [rows [alpha H]]]]]]]]].
  exists folded, indexes, commitment, leaves, nodes, d, q, rows, alpha. cbn.
  decompose [and] H. subst s'. repeat split; auto.
Qed.

Lemma layers_accept_with_remainder : forall k N v roots depth s s' r,
  layers_accept k N v roots depth s s' ->
  layers_accept k N v roots depth (state_with_remainder s r) (state_with_remainder s' r).
Proof.
  induction k as [|k IH]; intros N v roots depth s s' r; cbn [layers_accept].
  - intros ->. reflexivity.
  - intros [s1 [A B]]. exists (state_with_remainder s1 r).
    split; [now apply layer_accepts_with_remainder | now apply IH].
Qed.

(* The adaptive-remainder attack on the UNREPAIRED verifier: if a transcript is accepted, then the same
   transcript with ANY other remainder that is short enough and takes the same values at the folded last-layer
   positions (e.g. R + c * prod (x - x_p), or the interpolant through the opened values — both computable once
   the positions are known) is accepted as well; the commitments are irrelevant. *)
Theorem adaptive_remainder_accepted_unrepaired : forall N v ch evaluations positions r',
  fri_accepts false N v ch evaluations positions ->
  (forall num_layers s,
     num_fri_layers (v_options v) (v_domain_size v) = Some num_layers ->
     layers_accept num_layers N v (folding_roots_of O N v) 0 (initial_state v ch evaluations positions) s ->
     length r' <= vs_mdp1 s /\ remainder_agrees r' (vs_gen s) (vs_positions s) (vs_evals s)) ->
  fri_accepts false N v (with_remainder ch r') evaluations positions.
Proof.
  intros N v ch evaluations positions r' [HN [k [s [Hk [Hl _]]]]] Hr.
  split; [assumption|]. exists k, (state_with_remainder s r'). split; [assumption|]. split.
  - apply (layers_accept_with_remainder k N v _ 0 _ s r') in Hl. exact Hl.
  - destruct (Hr k s Hk Hl) as [A B]. split; [discriminate|]. split; assumption.
Qed.

(* ... and the repaired verifier rejects it with RemainderCommitmentMismatch unless the new remainder hashes
   to the committed value *)
Theorem adaptive_remainder_rejected : forall N v ch evaluations positions r' num_layers,
  num_fri_layers (v_options v) (v_domain_size v) = Some num_layers ->
  nth_error (v_commitments v) num_layers <> Some (hash_elements r') ->
  ~ fri_accepts true N v (with_remainder ch r') evaluations positions.
Proof.
  intros N v ch evaluations positions r' nl Hn Hne [_ [k [s [Hk [Hl [Hf _]]]]]].
  rewrite Hn in Hk. injection Hk as <-. specialize (Hf eq_refl).
  assert (E : vc_remainder (vs_chan s) = r').
  { clear Hf Hne Hn.
    assert (G : forall k depth s0 s1, layers_accept k N v (folding_roots_of O N v) depth s0 s1 ->
                vc_remainder (vs_chan s1) = vc_remainder (vs_chan s0)).
    { induction k as [|k IH]; intros depth s0 s1; cbn [layers_accept].
      - intros ->. reflexivity.
      - intros [s2 [A B]]. rewrite (IH _ _ _ B).
        destruct A as [? [? [? [? [? [? [? [? [? A]]]]]]]]]. decompose [and] A. subst s2. reflexivity. }
    rewrite (G _ _ _ _ Hl). reflexivity. }
  rewrite E in Hf. contradiction.
Qed.

End Accept.
