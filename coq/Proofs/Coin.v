(* C19 — lemmas about the coin model (Model/Coin.v).  stdlib style.
   Everything is proved for arbitrary hash oracles (Section variables); no collision resistance is assumed. *)
From VBase Require Import MachInt.
From VModel Require Import ToyHash Coin.
From VProofs Require Import ListFacts BytesFacts MachIntFacts.
Open Scope Z_scope.

(* ---------------------------------------------------------------------------------------------- integers: is_pow2, ctz *)

Lemma land_pow2_mask a k : 0 <= k -> Z.land a (2 ^ k - 1) = a mod 2 ^ k.
Proof. intros Hk. replace (2 ^ k - 1) with (Z.ones k) by (rewrite Z.ones_equiv; lia). apply Z.land_ones; assumption. Qed.

Lemma is_pow2_spec x : is_pow2 x = true <-> exists k, 0 <= k /\ x = 2 ^ k.
Proof.
  unfold is_pow2. rewrite andb_true_iff, Z.ltb_lt, Z.eqb_eq. split.
  - intros [Hpos Hl]. exists (Z.log2 x). split; [apply Z.log2_nonneg|].
    destruct (Z.log2_spec x Hpos) as [Hlo Hhi].
    destruct (Z.eq_dec x (2 ^ Z.log2 x)) as [|Hne]; [assumption|exfalso].
    assert (Hb1 : Z.testbit x (Z.log2 x) = true) by (apply Z.bit_log2; lia).
    assert (Hl2 : Z.log2 (x - 1) = Z.log2 x).
    { apply Z.log2_unique; [apply Z.log2_nonneg|]. rewrite Z.pow_succ_r in Hhi by apply Z.log2_nonneg.
      rewrite <- Z.add_1_r, Z.pow_add_r, Z.pow_1_r by (try apply Z.log2_nonneg; lia). lia. }
    assert (Hb2 : Z.testbit (x - 1) (Z.log2 x) = true).
    { rewrite <- Hl2. apply Z.bit_log2.
      assert (0 < 2 ^ Z.log2 x) by (apply Z.pow_pos_nonneg; [lia|apply Z.log2_nonneg]). lia. }
    assert (Hb : Z.testbit (Z.land x (x - 1)) (Z.log2 x) = true) by (rewrite Z.land_spec, Hb1, Hb2; reflexivity).
    rewrite Hl, Z.bits_0 in Hb. discriminate.
  - intros [k [Hk ->]]. assert (0 < 2 ^ k) by (apply Z.pow_pos_nonneg; lia).
    split; [assumption|]. rewrite land_pow2_mask by assumption. apply Z.mod_same. lia.
Qed.

Definition ctz_go : nat -> Z -> Z -> Z :=
  fix go (f : nat) (x k : Z) : Z :=
    match f with O => k | S f' => if Z.odd x then k else go f' (x / 2) (k + 1) end.

Lemma ctz_unfold n x : ctz n x = if x =? 0 then n else ctz_go (Z.to_nat n) x 0.
Proof. reflexivity. Qed.

Lemma ctz_go_range f x k : k <= ctz_go f x k <= k + Z.of_nat f.
Proof.
  revert x k. induction f as [|f IH]; intros x k; cbn [ctz_go]; [lia|].
  destruct (Z.odd x); [lia|]. specialize (IH (x / 2) (k + 1)). lia.
Qed.

(* the value returned by ctz_go divides x exactly that many times: x = 2^(r-k) * odd *)
Lemma ctz_go_spec f x k : 0 < x < 2 ^ Z.of_nat f -> 0 <= k ->
  let r := ctz_go f x k in x mod 2 ^ (r - k) = 0 /\ Z.odd (x / 2 ^ (r - k)) = true.
Proof.
  revert x k. induction f as [|f IH]; intros x k Hx Hk; cbn [ctz_go].
  - simpl in Hx. lia.
  - destruct (Z.odd x) eqn:Ho.
    + rewrite Z.sub_diag. cbn. rewrite Z.mod_1_r, Z.div_1_r. auto.
    + pose proof (Z.div2_odd x) as He. rewrite Ho, Z.div2_div, Z.add_0_r in He.
      assert (Hx2 : 0 < x / 2 < 2 ^ Z.of_nat f).
      { rewrite Nat2Z.inj_succ, Z.pow_succ_r in Hx by lia. lia. }
      specialize (IH (x / 2) (k + 1) Hx2 ltac:(lia)). cbv zeta in IH.
      pose proof (ctz_go_range f (x / 2) (k + 1)) as Hr.
      set (r := ctz_go f (x / 2) (k + 1)) in *.
      replace (r - k) with (Z.succ (r - (k + 1))) by lia.
      rewrite Z.pow_succ_r by lia. destruct IH as [IH1 IH2].
      assert (Hp : 0 < 2 ^ (r - (k + 1))) by (apply Z.pow_pos_nonneg; lia).
      split.
      * rewrite He at 1. rewrite Z.mul_mod_distr_l by lia. rewrite IH1. lia.
      * rewrite He at 1. rewrite Z.div_mul_cancel_l by lia. exact IH2.
Qed.

Theorem ctz_spec n x : 0 <= n -> 0 < x < 2 ^ n ->
  x mod 2 ^ ctz n x = 0 /\ Z.odd (x / 2 ^ ctz n x) = true.
Proof.
  intros Hn Hx. rewrite ctz_unfold. destruct (x =? 0) eqn:E; [apply Z.eqb_eq in E; lia|].
  pose proof (ctz_go_spec (Z.to_nat n) x 0) as H. rewrite Z2Nat.id in H by assumption.
  specialize (H Hx ltac:(lia)). cbv zeta in H. rewrite Z.sub_0_r in H. exact H.
Qed.

(* x = 0 is included: ctz n 0 = n *)
Theorem ctz_ge_iff n x t : 0 <= t <= n -> 0 <= x < 2 ^ n -> (t <= ctz n x <-> x mod 2 ^ t = 0).
Proof.
  intros Ht Hx. destruct (Z.eq_dec x 0) as [->|Hne].
  - rewrite ctz_unfold. cbn [Z.eqb]. rewrite Z.mod_0_l; [lia|]. assert (0 < 2 ^ t) by (apply Z.pow_pos_nonneg; lia). lia.
  - assert (Hn : 0 <= n) by lia.
    destruct (ctz_spec n x Hn ltac:(lia)) as [Hd Ho]. pose proof (ctz_range n x Hn) as Hr.
    set (r := ctz n x) in *.
    assert (Hpr : 0 < 2 ^ r) by (apply Z.pow_pos_nonneg; lia).
    assert (Hpt : 0 < 2 ^ t) by (apply Z.pow_pos_nonneg; lia).
    split.
    + intros Hle. apply Z.mod_divide; [lia|]. apply Z.divide_trans with (2 ^ r).
      * exists (2 ^ (r - t)). rewrite <- Z.pow_add_r by lia. f_equal. lia.
      * apply Z.mod_divide; [lia|assumption].
    + intros Hm. destruct (Z_le_gt_dec t r) as [|Hgt]; [assumption|exfalso].
      (* 2^(r+1) | x contradicts oddness of x / 2^r *)
      apply Z.mod_divide in Hm; [|lia]. destruct Hm as [q Hq].
      assert (Hx' : x = (q * 2 ^ (t - r - 1) * 2) * 2 ^ r).
      { rewrite Hq. replace t with ((t - r - 1) + 1 + r) at 1 by lia.
        rewrite !Z.pow_add_r by lia. rewrite Z.pow_1_r. ring. }
      rewrite Hx' in Ho. rewrite Z.div_mul in Ho by lia.
      rewrite Z.mul_comm, Z.odd_mul in Ho. cbn in Ho. discriminate.
Qed.

(* ---------------------------------------------------------------------------------------------- from_random_bytes *)

Lemma chunks_length eb k l : length (chunks eb k l) = k.
Proof. revert l. induction k; intros l; cbn; [reflexivity|now rewrite IHk]. Qed.

Lemma chunks_Forall P eb k l : Forall P l -> Forall (Forall P) (chunks eb k l).
Proof.
  revert l. induction k; intros l H; cbn; constructor.
  - apply Forall_firstn; assumption.
  - apply IHk, Forall_skipn; assumption.
Qed.

Theorem from_random_bytes_valid k bytes e : from_random_bytes k bytes = Some e ->
  length bytes = elem_bytes k /\ length e = fk_deg k /\ Forall (fun v => v < fk_M k) e /\
  e = map of_le_bytes (chunks (fk_eb k) (fk_deg k) bytes).
Proof.
  unfold from_random_bytes. destruct (Nat.eqb (length bytes) (elem_bytes k)) eqn:El; cbn [negb]; [|discriminate].
  destruct (forallb _ _) eqn:Ef; [|discriminate]. intros [= <-].
  apply Nat.eqb_eq in El. rewrite map_length, chunks_length. repeat split; try assumption.
  rewrite forallb_forall in Ef. apply Forall_forall. intros v Hv. apply Z.ltb_lt, Ef, Hv.
Qed.

Theorem from_random_bytes_nonneg k bytes e : Forall (fun b => 0 <= b) bytes ->
  from_random_bytes k bytes = Some e -> Forall (fun v => 0 <= v) e.
Proof.
  intros Hb H. apply from_random_bytes_valid in H. destruct H as (_ & _ & _ & ->).
  apply Forall_forall. intros v Hv. apply in_map_iff in Hv. destruct Hv as [ch [<- Hin]].
  apply of_le_bytes_nonneg.
  pose proof (chunks_Forall (fun b => 0 <= b) (fk_eb k) (fk_deg k) bytes Hb) as Hc.
  rewrite Forall_forall in Hc. apply Hc, Hin.
Qed.

(* exact acceptance condition: the rejection test is "some coefficient >= M" and nothing else *)
Theorem from_random_bytes_accepts k bytes : length bytes = elem_bytes k ->
  Forall (fun v => v < fk_M k) (map of_le_bytes (chunks (fk_eb k) (fk_deg k) bytes)) ->
  from_random_bytes k bytes = Some (map of_le_bytes (chunks (fk_eb k) (fk_deg k) bytes)).
Proof.
  intros Hl Hf. unfold from_random_bytes. rewrite Hl, Nat.eqb_refl. cbn [negb].
  replace (forallb _ _) with true; [reflexivity|]. symmetry. apply forallb_forall.
  rewrite Forall_forall in Hf. intros v Hv. apply Z.ltb_lt, Hf, Hv.
Qed.

Theorem from_random_bytes_rejects k bytes v :
  In v (map of_le_bytes (chunks (fk_eb k) (fk_deg k) bytes)) -> fk_M k <= v -> from_random_bytes k bytes = None.
Proof.
  intros Hin Hge. unfold from_random_bytes. destruct (negb _); [reflexivity|].
  destruct (forallb _ _) eqn:Ef; [|reflexivity]. rewrite forallb_forall in Ef.
  specialize (Ef v Hin). apply Z.ltb_lt in Ef. lia.
Qed.

Section CoinProofs.
  Variable D : Type.
  Variable hash_elements : list Z -> D.
  Variable merge : D -> D -> D.
  Variable merge_with_int : D -> Z -> D.
  Variable dbytes : D -> list Z.

  Local Notation coin := (coin D).
  Local Notation next := (coin_next D merge_with_int).
  Local Notation le64 := (le64 D dbytes).
  Local Notation check_lz := (coin_check_lz D merge_with_int dbytes).
  Local Notation draw_loop := (draw_loop D merge_with_int dbytes).
  Local Notation draw := (coin_draw D merge_with_int dbytes).
  Local Notation ints_loop := (ints_loop D merge_with_int dbytes).
  Local Notation draw_integers := (coin_draw_integers D merge_with_int dbytes).
  Local Notation reseed := (coin_reseed D merge).
  Local Notation new := (coin_new D hash_elements).
  Local Notation step := (step D merge merge_with_int dbytes).
  Local Notation run := (run D merge merge_with_int dbytes).
  Local Notation op := (op D).

  (* the digest handed out by the j-th PRNG call after the state (s, cnt) *)
  Definition prng (s : D) (cnt : Z) (j : Z) : D := merge_with_int s (cnt + j).
  (* the slice of it that draw::<E> looks at *)
  Definition draw_bytes (k : fkind) (s : D) (cnt j : Z) : list Z := firstn (elem_bytes k) (dbytes (prng s cnt j)).

  Lemma next_spec c c' d : next c = Some (c', d) ->
    seed c' = seed c /\ counter c' = counter c + 1 /\ d = prng (seed c) (counter c) 1 /\ counter c + 1 < 2 ^ 64.
  Proof.
    unfold coin_next, prng. destruct (counter c + 1 <? 2 ^ 64) eqn:E; [|discriminate].
    intros [= <- <-]. apply Z.ltb_lt in E. cbn. auto.
  Qed.

  Lemma next_some c : counter c + 1 < 2 ^ 64 ->
    next c = Some (mkCoin (seed c) (counter c + 1), prng (seed c) (counter c) 1).
  Proof. intros H. unfold coin_next, prng. apply Z.ltb_lt in H. rewrite H. reflexivity. Qed.

  Lemma next_none c : 2 ^ 64 <= counter c + 1 -> next c = None.
  Proof. intros H. unfold coin_next. apply Z.ltb_ge in H. rewrite H. reflexivity. Qed.

  (* ---------------------------------------------------------------------------------------------- draw *)

  Lemma draw_bytes_shift k s cnt j : draw_bytes k s (cnt + 1) j = draw_bytes k s cnt (1 + j).
  Proof. unfold draw_bytes, prng. rewrite Z.add_assoc. reflexivity. Qed.

  Theorem draw_loop_spec k f c c' r : draw_loop k f c = (c', r) ->
    counter c + Z.of_nat f < 2 ^ 64 -> (elem_bytes k <= 32)%nat ->
    seed c' = seed c /\
    match r with
    | Ok e => exists j, 1 <= j <= Z.of_nat f /\ counter c' = counter c + j /\
                        from_random_bytes k (draw_bytes k (seed c) (counter c) j) = Some e /\
                        forall i, 1 <= i < j -> from_random_bytes k (draw_bytes k (seed c) (counter c) i) = None
    | Err => counter c' = counter c + Z.of_nat f /\
             forall i, 1 <= i <= Z.of_nat f -> from_random_bytes k (draw_bytes k (seed c) (counter c) i) = None
    | Panic => False
    end.
  Proof.
    revert c c' r. induction f as [|f IH]; intros c c' r H Hov Hsz; cbn [Coin.draw_loop] in H.
    - injection H as <- <-. split; [reflexivity|]. split; [cbn; lia|]. intros i Hi. cbn in Hi. lia.
    - rewrite Nat2Z.inj_succ in *. rewrite next_some in H by lia.
      replace (32 <? elem_bytes k)%nat with false in H by (symmetry; apply Nat.ltb_ge; assumption).
      fold (draw_bytes k (seed c) (counter c) 1) in H.
      destruct (from_random_bytes k (draw_bytes k (seed c) (counter c) 1)) as [e|] eqn:Ef.
      + injection H as <- <-. split; [reflexivity|]. exists 1. cbn [counter]. repeat split; try lia; try assumption.
      + apply IH in H; [|cbn [counter]; lia|assumption]. cbn [seed counter] in H. destruct H as [Hs Hr].
        split; [assumption|].
        (* candidates 1..m of the remaining loop are candidates 2..m+1 of this one *)
        assert (Hsh : forall m,
                  (forall i, 1 <= i <= m -> from_random_bytes k (draw_bytes k (seed c) (counter c + 1) i) = None) ->
                  forall i, 1 <= i <= m + 1 -> from_random_bytes k (draw_bytes k (seed c) (counter c) i) = None).
        { intros m Hm i Hi. destruct (Z.eq_dec i 1) as [->|Hne]; [assumption|].
          replace i with (1 + (i - 1)) by lia. rewrite <- draw_bytes_shift. apply Hm. lia. }
        destruct r as [e| |]; [| |assumption].
        * destruct Hr as (j & Hj & Hc & Hv & Hn). exists (1 + j). rewrite <- draw_bytes_shift.
          repeat split; try lia; [assumption|]. intros i Hi. apply (Hsh (j - 1)); [|lia].
          intros i' Hi'. apply Hn. lia.
        * destruct Hr as [Hc Hn]. split; [lia|]. exact (Hsh _ Hn).
  Qed.

  (* converse of the Err case: a run of [f] rejected candidates is the whole loop *)
  Lemma draw_loop_err k f c : counter c + Z.of_nat f < 2 ^ 64 -> (elem_bytes k <= 32)%nat ->
    (forall i, 1 <= i <= Z.of_nat f -> from_random_bytes k (draw_bytes k (seed c) (counter c) i) = None) ->
    draw_loop k f c = (mkCoin (seed c) (counter c + Z.of_nat f), Err).
  Proof.
    intros Hov Hsz Hrej. destruct (draw_loop k f c) as [c' r] eqn:E.
    destruct (draw_loop_spec k f c c' r E Hov Hsz) as [Hs Hr]. destruct r as [e| |]; [| |contradiction].
    - destruct Hr as (j & Hj & _ & He & _). rewrite Hrej in He by lia. discriminate.
    - destruct Hr as [Hc _]. destruct c'. cbn in Hs, Hc. rewrite Hs, Hc. reflexivity.
  Qed.

  (* what holds without the overflow and size hypotheses of draw_loop_spec *)
  Lemma draw_loop_state k f c : 0 <= counter c ->
    seed (fst (draw_loop k f c)) = seed c /\
    counter c <= counter (fst (draw_loop k f c)) <= counter c + Z.of_nat f.
  Proof.
    revert c. induction f as [|f IH]; intros c Hc; cbn [Coin.draw_loop].
    - cbn. split; [reflexivity|lia].
    - rewrite Nat2Z.inj_succ. destruct (next c) as [[c1 d]|] eqn:En; [|cbn; split; [reflexivity|lia]].
      apply next_spec in En. destruct En as (Hs & Hk & _ & _).
      destruct (32 <? elem_bytes k)%nat; [cbn [fst]; split; [exact Hs|lia]|].
      destruct (from_random_bytes _ _); [cbn [fst]; split; [exact Hs|lia]|].
      specialize (IH c1 ltac:(lia)). destruct IH as [IH1 IH2]. split; [congruence|lia].
  Qed.

  Lemma draw_loop_ok k f c c' e : draw_loop k f c = (c', Ok e) ->
    exists d, from_random_bytes k (firstn (elem_bytes k) (dbytes d)) = Some e.
  Proof.
    revert c. induction f as [|f IH]; intros c H; cbn [Coin.draw_loop] in H; [discriminate|].
    destruct (next c) as [[c1 d]|]; [|discriminate].
    destruct (32 <? elem_bytes k)%nat; [discriminate|].
    destruct (from_random_bytes _ _) as [e'|] eqn:Ef; [|eapply IH; eassumption].
    injection H as <- <-. exists d. exact Ef.
  Qed.

  (* every element returned by draw is valid, for all hash oracles, all states (no side condition at all) *)
  Theorem draw_loop_valid k f c c' e : draw_loop k f c = (c', Ok e) ->
    length e = fk_deg k /\ Forall (fun v => v < fk_M k) e.
  Proof.
    intros H. destruct (draw_loop_ok k f c c' e H) as [d Hd].
    apply from_random_bytes_valid in Hd. destruct Hd as (_ & Hl & Hv & _). split; assumption.
  Qed.

  Theorem draw_loop_nonneg k f c c' e : (forall d, Forall (fun b => 0 <= b) (dbytes d)) ->
    draw_loop k f c = (c', Ok e) -> Forall (fun v => 0 <= v) e.
  Proof.
    intros Hb H. destruct (draw_loop_ok k f c c' e H) as [d Hd].
    eapply from_random_bytes_nonneg; [|exact Hd]. apply Forall_firstn, Hb.
  Qed.

  (* an element type wider than the 32-byte view panics at the slice, after one PRNG call: the counter has advanced.
     By draw_loop_spec the only other panic of draw is counter overflow. *)
  Lemma draw_loop_panic_oversize k f c : (32 < elem_bytes k)%nat -> counter c + 1 < 2 ^ 64 ->
    draw_loop k (S f) c = (mkCoin (seed c) (counter c + 1), Panic).
  Proof.
    intros Hsz Hov. cbn [Coin.draw_loop]. rewrite next_some by assumption.
    apply Nat.ltb_lt in Hsz. rewrite Hsz. reflexivity.
  Qed.

  Theorem draw_panic_oversize k c : (32 < elem_bytes k)%nat -> counter c + 1 < 2 ^ 64 ->
    draw k c = (mkCoin (seed c) (counter c + 1), Panic).
  Proof. intros. unfold coin_draw, draw_tries. apply draw_loop_panic_oversize; assumption. Qed.

  Lemma draw_loop_advances k f c : 0 <= counter c -> counter c + 1 < 2 ^ 64 ->
    counter c + 1 <= counter (fst (draw_loop k (S f) c)).
  Proof.
    intros H0 Hov. cbn [Coin.draw_loop]. rewrite next_some by assumption.
    destruct (32 <? elem_bytes k)%nat; [cbn; lia|]. destruct (from_random_bytes _ _); [cbn; lia|].
    pose proof (draw_loop_state k f (mkCoin (seed c) (counter c + 1)) ltac:(cbn; lia)) as H. cbn [counter] in H. lia.
  Qed.

  Theorem draw_advances k c : 0 <= counter c -> counter c + 1 < 2 ^ 64 ->
    counter c + 1 <= counter (fst (draw k c)).
  Proof. intros. unfold coin_draw, draw_tries. apply draw_loop_advances; assumption. Qed.

  (* ---------------------------------------------------------------------------------------------- draw_integers *)

  (* the j-th integer produced after state (s, cnt) *)
  Definition int_at (s : D) (cnt mask : Z) (j : nat) : Z := Z.land (le64 (prng s cnt (Z.of_nat j))) mask.
  Definition ints_vals (s : D) (cnt mask : Z) (m : nat) : list Z := map (int_at s cnt mask) (seq 1 m).

  Lemma ints_vals_length s cnt mask m : length (ints_vals s cnt mask m) = m.
  Proof. unfold ints_vals. now rewrite map_length, seq_length. Qed.

  Lemma ints_vals_shift s cnt mask m :
    ints_vals s cnt mask (S m) = int_at s cnt mask 1 :: ints_vals s (cnt + 1) mask m.
  Proof.
    unfold ints_vals. cbn [seq map]. f_equal. rewrite <- seq_shift, map_map. apply map_ext. intros j.
    unfold int_at, prng. do 3 f_equal. lia.
  Qed.

  (* Iterations of the loop with fuel f when [need] more values are wanted: it stops as soon as the length
     equals n, which never happens when need < 1 (or need > f); then it runs f times. *)
  Definition ints_count (f : nat) (need : Z) : nat :=
    if (1 <=? need) && (need <=? Z.of_nat f) then Z.to_nat need else f.

  Lemma ints_count_S f need :
    ints_count (S f) need = if need =? 1 then 1%nat else S (ints_count f (need - 1)).
  Proof.
    unfold ints_count. rewrite Nat2Z.inj_succ.
    destruct (Z.eqb_spec need 1), (Z.leb_spec 1 need), (Z.leb_spec need (Z.succ (Z.of_nat f))),
      (Z.leb_spec 1 (need - 1)), (Z.leb_spec (need - 1) (Z.of_nat f)); cbn [andb]; lia.
  Qed.

  Lemma ints_loop_spec f c mask n acc : counter c + Z.of_nat f < 2 ^ 64 ->
    let m := ints_count f (n - Z.of_nat (length acc)) in
    ints_loop f c mask n acc =
      Some (mkCoin (seed c) (counter c + Z.of_nat m), acc ++ ints_vals (seed c) (counter c) mask m).
  Proof.
    revert c acc. induction f as [|f IH]; intros c acc Hov; cbv zeta; cbn [Coin.ints_loop].
    - replace (ints_count 0 _) with 0%nat.
      + cbn. rewrite app_nil_r, Z.add_0_r. destruct c; reflexivity.
      + unfold ints_count. destruct (Z.leb_spec 1 (n - Z.of_nat (length acc))), (Z.leb_spec (n - Z.of_nat (length acc)) (Z.of_nat 0));
          cbn [andb]; lia.
    - rewrite Nat2Z.inj_succ in Hov. rewrite next_some, ints_count_S by lia.
      fold (le64 (prng (seed c) (counter c) 1)).
      rewrite app_length. cbn [length]. rewrite Nat.add_1_r, Nat2Z.inj_succ.
      destruct (Z.eqb_spec (Z.succ (Z.of_nat (length acc))) n) as [En|En];
        destruct (Z.eqb_spec (n - Z.of_nat (length acc)) 1) as [E1|E1]; try lia.
      + reflexivity.
      + rewrite IH by (cbn [counter]; lia). cbv zeta. cbn [seed counter].
        rewrite app_length. cbn [length]. rewrite Nat.add_1_r, Nat2Z.inj_succ.
        replace (n - Z.succ (Z.of_nat (length acc))) with (n - Z.of_nat (length acc) - 1) by lia.
        rewrite ints_vals_shift, <- app_assoc, Nat2Z.inj_succ. cbn [app]. do 3 f_equal. lia.
  Qed.

  Definition nonce_seed (c : coin) (nonce : Z) : D := merge_with_int (seed c) nonce.

  (* the complete case table of draw_integers: any dom, any n >= 0 *)
  Theorem draw_integers_spec c n dom nonce : 0 <= n ->
    let s' := nonce_seed c nonce in
    draw_integers c n dom nonce =
      if negb (is_pow2 dom) then (c, Panic)
      else if dom <=? n then (c, Err)
      else if n =? 0 then (mkCoin s' 1000, Ok (ints_vals s' 0 (dom - 1) 1000))
      else if n <=? 1000 then (mkCoin s' n, Ok (ints_vals s' 0 (dom - 1) (Z.to_nat n)))
      else (mkCoin s' 1000, Err).
  Proof.
    intros Hn. cbv zeta. unfold coin_draw_integers. fold (nonce_seed c nonce).
    destruct (is_pow2 dom); cbn [negb]; [|reflexivity].
    rewrite Z.ltb_antisym, negb_involutive. destruct (dom <=? n); [reflexivity|].
    rewrite ints_loop_spec by (cbn [counter]; change (Z.of_nat draw_tries) with 1000; lia).
    cbv zeta. cbn [seed counter length app]. rewrite ints_vals_length, Z.sub_0_r, Z.add_0_l.
    unfold ints_count. change (Z.of_nat draw_tries) with 1000.
    destruct (Z.eqb_spec n 0) as [->|E0]; [reflexivity|].
    destruct (Z.leb_spec 1 n); [|lia]. cbn [andb].
    destruct (Z.leb_spec n 1000).
    - rewrite Z2Nat.id, Z.ltb_irrefl by lia. reflexivity.
    - change (Z.of_nat draw_tries) with 1000. destruct (Z.ltb_spec 1000 n); [reflexivity|lia].
  Qed.

  (* each value is the PRNG word reduced modulo the domain size, hence in [0, dom) *)
  Lemma int_at_mod s cnt k j : 0 <= k -> int_at s cnt (2 ^ k - 1) j = le64 (prng s cnt (Z.of_nat j)) mod 2 ^ k.
  Proof. intros Hk. unfold int_at. apply land_pow2_mask; assumption. Qed.

  Lemma ints_vals_range s cnt k m : 0 <= k -> Forall (fun v => 0 <= v < 2 ^ k) (ints_vals s cnt (2 ^ k - 1) m).
  Proof.
    intros Hk. apply Forall_forall. intros v Hv. unfold ints_vals in Hv. apply in_map_iff in Hv.
    destruct Hv as [j [<- _]]. rewrite int_at_mod by assumption. apply Z.mod_pos_bound.
    apply Z.pow_pos_nonneg; lia.
  Qed.

  (* the contract of the property text (which asks for counts 1..255), on the whole range where it holds: counts
     1..1000 below a power-of-two domain size *)
  Theorem draw_integers_ok c n dom nonce : is_pow2 dom = true -> 1 <= n <= 1000 -> n < dom ->
    exists vals, draw_integers c n dom nonce = (mkCoin (nonce_seed c nonce) n, Ok vals) /\
                 Z.of_nat (length vals) = n /\ Forall (fun v => 0 <= v < dom) vals /\
                 vals = map (fun j => le64 (prng (nonce_seed c nonce) 0 (Z.of_nat j)) mod dom) (seq 1 (Z.to_nat n)).
  Proof.
    intros Hp Hn Hlt. apply is_pow2_spec in Hp as Hk. destruct Hk as [k [Hk ->]].
    rewrite draw_integers_spec by lia. cbv zeta. rewrite Hp. cbn [negb].
    destruct (Z.leb_spec (2 ^ k) n); [lia|]. destruct (Z.eqb_spec n 0); [lia|]. destruct (Z.leb_spec n 1000); [|lia].
    eexists. split; [reflexivity|]. rewrite ints_vals_length. split; [lia|]. split.
    - apply ints_vals_range; assumption.
    - unfold ints_vals. apply map_ext. intros j. apply int_at_mod; assumption.
  Qed.

  Theorem draw_integers_panic_iff c n dom nonce : 0 <= n ->
    (snd (draw_integers c n dom nonce) = Panic <-> ~ exists k, 0 <= k /\ dom = 2 ^ k).
  Proof.
    intros Hn. rewrite draw_integers_spec, <- is_pow2_spec by assumption. cbv zeta.
    destruct (is_pow2 dom); cbn [negb].
    - split; [|intros H; contradiction H; reflexivity].
      destruct (dom <=? n); [|destruct (n =? 0); [|destruct (n <=? 1000)]]; discriminate.
    - split; [intros _ H; discriminate H|reflexivity].
  Qed.

  Theorem draw_integers_err_iff c n dom nonce : 0 <= n ->
    (snd (draw_integers c n dom nonce) = Err <-> (is_pow2 dom = true /\ (dom <= n \/ 1000 < n))).
  Proof.
    intros Hn. rewrite draw_integers_spec by assumption. cbv zeta.
    destruct (is_pow2 dom); cbn [negb]; [|split; [discriminate|intros [H _]; discriminate H]].
    destruct (Z.leb_spec dom n); [|destruct (Z.eqb_spec n 0); [|destruct (Z.leb_spec n 1000)]]; cbn [snd];
      (split; [intros He; (discriminate He || (split; [reflexivity|lia]))|intros [_ He]; (reflexivity || lia)]).
  Qed.

  (* the quirk outside the property's quantifier: zero requested values -> 1000 values *)
  Theorem draw_integers_zero_count c dom nonce : is_pow2 dom = true ->
    exists vals, draw_integers c 0 dom nonce = (mkCoin (nonce_seed c nonce) 1000, Ok vals) /\ length vals = 1000%nat.
  Proof.
    intros Hp. rewrite draw_integers_spec by lia. cbv zeta. rewrite Hp. cbn [negb].
    unfold is_pow2 in Hp. apply andb_true_iff in Hp. destruct Hp as [Hp _]. apply Z.ltb_lt in Hp.
    destruct (Z.leb_spec dom 0); [lia|]. cbn [Z.eqb]. eexists. split; [reflexivity|]. apply ints_vals_length.
  Qed.

  Lemma draw_integers_state c n dom nonce : 0 <= n ->
    let c' := fst (draw_integers c n dom nonce) in
    (is_pow2 dom && (n <? dom) = true -> seed c' = nonce_seed c nonce /\ 0 <= counter c' <= 1000) /\
    (is_pow2 dom && (n <? dom) = false -> c' = c).
  Proof.
    intros Hn. cbv zeta. rewrite draw_integers_spec by assumption. cbv zeta. rewrite Z.ltb_antisym.
    destruct (is_pow2 dom); cbn [negb andb]; [|split; [discriminate|reflexivity]].
    destruct (dom <=? n); cbn [negb]; [split; [discriminate|reflexivity]|].
    split; [intros _|discriminate].
    destruct (n =? 0); [cbn [fst seed counter]; split; [reflexivity|lia]|].
    destruct (Z.leb_spec n 1000); cbn [fst seed counter]; (split; [reflexivity|lia]).
  Qed.

  (* ---------------------------------------------------------------------------------------------- check_leading_zeros, PoW *)

  Theorem check_lz_pure c v : fst (step c (OpLz v)) = c.
  Proof. reflexivity. Qed.

  Theorem check_lz_range c v : 0 <= check_lz c v <= 64.
  Proof. unfold coin_check_lz. apply ctz_range. lia. Qed.

  (* meaning of the measure: 2^t divides the little-endian u64 head of hash(seed || nonce) *)
  Theorem check_lz_ge_iff c v t : (forall d, Forall (fun b => 0 <= b < 256) (dbytes d)) -> 0 <= t <= 64 ->
    (t <= check_lz c v <-> le64 (merge_with_int (seed c) v) mod 2 ^ t = 0).
  Proof.
    intros Hb Ht. unfold coin_check_lz. apply ctz_ge_iff; [assumption|].
    unfold Coin.le64. pose proof (of_le_bytes_range (firstn 8 (dbytes (merge_with_int (seed c) v)))
                                    (Forall_firstn _ 8 _ (Hb _))) as H.
    destruct H as [H0 H1]. split; [assumption|].
    eapply Z.lt_le_trans; [exact H1|]. change (2 ^ 64) with (256 ^ 8).
    apply Z.pow_le_mono_r; [lia|]. rewrite firstn_length. lia.
  Qed.

  Local Notation search_pred := (pow_search_pred D merge_with_int dbytes).
  Local Notation verifier_accepts := (pow_verifier_accepts D merge_with_int dbytes).
  Local Notation grind_from := (grind_from D merge_with_int dbytes).
  Local Notation grind := (grind D merge_with_int dbytes).

  Theorem pow_pred_agree c gf nonce : search_pred c gf nonce = verifier_accepts c gf nonce.
  Proof.
    unfold pow_search_pred, pow_verifier_accepts. destruct (Z.leb_spec gf (check_lz c nonce));
      destruct (Z.ltb_spec (check_lz c nonce) gf); try reflexivity; lia.
  Qed.

  Lemma grind_from_sound f c gf n0 n : grind_from f c gf n0 = Some n ->
    n0 <= n < 2 ^ 64 - 1 /\ verifier_accepts c gf n = true /\
    forall m, n0 <= m < n -> verifier_accepts c gf m = false.
  Proof.
    revert n0. induction f as [|f IH]; intros n0 H; cbn [Coin.grind_from] in H; [discriminate|].
    destruct (n0 <? 2 ^ 64 - 1) eqn:Eb; [|discriminate]. apply Z.ltb_lt in Eb.
    destruct (search_pred c gf n0) eqn:Ep.
    - injection H as <-. rewrite pow_pred_agree in Ep. repeat split; try lia; try assumption.
    - apply IH in H. destruct H as (Hr & Ha & Hm). repeat split; try lia; try assumption.
      intros m Hm'. destruct (Z.eq_dec m n0) as [->|Hne]; [rewrite <- pow_pred_agree; assumption|].
      apply Hm. lia.
  Qed.

  Lemma grind_from_complete f c gf n0 n : n0 <= n < n0 + Z.of_nat f -> n < 2 ^ 64 - 1 ->
    verifier_accepts c gf n = true -> exists n', grind_from f c gf n0 = Some n' /\ n' <= n.
  Proof.
    revert n0. induction f as [|f IH]; intros n0 Hr Hb Ha; [cbn in Hr; lia|].
    cbn [Coin.grind_from]. replace (n0 <? 2 ^ 64 - 1) with true by (symmetry; apply Z.ltb_lt; lia).
    destruct (search_pred c gf n0) eqn:Ep; [exists n0; split; [reflexivity|lia]|].
    assert (n <> n0) by (intros ->; rewrite pow_pred_agree in Ep; congruence).
    rewrite Nat2Z.inj_succ in Hr. apply IH; try assumption. lia.
  Qed.

  (* The nonce found by the prover's search passes the verifier's test on a coin in the same state, is the
     least such nonce >= 1, and its measure is the trailing-zero count of the head of the very seed that
     draw_integers(.., nonce) installs for the query positions. *)
  Theorem pow_measure_agree fuel c gf nonce : grind fuel c gf = Some nonce ->
    1 <= nonce < 2 ^ 64 - 1 /\
    verifier_accepts c gf nonce = true /\
    (forall m, 1 <= m < nonce -> verifier_accepts c gf m = false) /\
    (forall n dom, 0 <= n -> is_pow2 dom && (n <? dom) = true ->
       check_lz c nonce = ctz 64 (le64 (seed (fst (draw_integers c n dom nonce))))).
  Proof.
    intros H. apply grind_from_sound in H. destruct H as (Hr & Ha & Hm).
    split; [lia|]. split; [exact Ha|]. split; [exact Hm|].
    intros n dom Hn Hv. destruct (draw_integers_state c n dom nonce Hn) as [Hs _]. destruct (Hs Hv) as [-> _].
    reflexivity.
  Qed.

  Theorem grind_complete fuel c gf nonce : 1 <= nonce <= Z.of_nat fuel -> nonce < 2 ^ 64 - 1 ->
    verifier_accepts c gf nonce = true -> exists n', grind fuel c gf = Some n' /\ n' <= nonce.
  Proof. intros Hr Hb Ha. unfold Coin.grind. apply grind_from_complete; try assumption. lia. Qed.

  (* ---------------------------------------------------------------------------------------------- histories *)

  Lemma run_app c a b :
    run c (a ++ b) = let (c1, o1) := run c a in let (c2, o2) := run c1 b in (c2, o1 ++ o2).
  Proof.
    revert c. induction a as [|o a IH]; intros c; cbn [app Coin.run].
    - destruct (run c b). reflexivity.
    - destruct (step c o) as [c1 x]. rewrite IH. destruct (run c1 a) as [c2 o1]. destruct (run c2 b). reflexivity.
  Qed.

  (* equal histories => equal final states and equal outputs (the model has no hidden input) *)
  Theorem coin_deterministic e1 e2 ops1 ops2 : e1 = e2 -> ops1 = ops2 -> run (new e1) ops1 = run (new e2) ops2.
  Proof. intros -> ->. reflexivity. Qed.

  Lemma run_length c ops : length (snd (run c ops)) = length ops.
  Proof.
    revert c. induction ops as [|o ops IH]; intros c; cbn [Coin.run]; [reflexivity|].
    destruct (step c o) as [c1 x]. specialize (IH c1). destruct (run c1 ops). cbn in *. f_equal. exact IH.
  Qed.

  (* outputs of a prefix of the history do not depend on what is done later *)
  Theorem outputs_causal c a b : firstn (length a) (snd (run c (a ++ b))) = snd (run c a).
  Proof.
    rewrite run_app. pose proof (run_length c a) as Hl.
    destruct (run c a) as [c1 o1]. destruct (run c1 b) as [c2 o2]. cbn [snd] in *.
    rewrite <- Hl, firstn_app, Nat.sub_diag, firstn_all. cbn. apply app_nil_r.
  Qed.

  Local Notation absorb := (absorb D).
  Local Notation absorb_step := (absorb_step D merge merge_with_int).
  Local Notation chain_seed := (chain_seed D hash_elements merge merge_with_int).
  Local Notation op_absorb := (@op_absorb D).
  Local Notation absorbs := (@absorbs D).

  Definition wf_op (o : op) : Prop := match o with OpInts n _ _ => 0 <= n | _ => True end.

  Lemma step_state c o : wf_op o -> 0 <= counter c ->
    seed (fst (step c o)) = fold_left absorb_step (op_absorb o) (seed c) /\
    0 <= counter (fst (step c o)) <= counter c + 1000.
  Proof.
    intros Hw Hc. destruct o as [d|k|n dom nonce|v]; cbn [Coin.step Coin.op_absorb fold_left].
    - cbn. split; [reflexivity|lia].
    - unfold coin_draw. pose proof (draw_loop_state k draw_tries c Hc) as H.
      change (Z.of_nat draw_tries) with 1000 in H.
      destruct (draw_loop k draw_tries c) as [c' r]. cbn [fst] in *. split; [tauto|lia].
    - cbn in Hw. destruct (draw_integers_state c n dom nonce Hw) as [H1 H2].
      destruct (draw_integers c n dom nonce) as [c' r]. cbn [fst] in *.
      destruct (is_pow2 dom && (n <? dom)).
      + destruct (H1 eq_refl) as [-> ?]. cbn. split; [reflexivity|lia].
      + rewrite (H2 eq_refl). cbn. split; [reflexivity|lia].
    - cbn. split; [reflexivity|lia].
  Qed.

  Lemma run_state c ops : Forall wf_op ops -> 0 <= counter c ->
    seed (fst (run c ops)) = fold_left absorb_step (absorbs ops) (seed c) /\
    0 <= counter (fst (run c ops)) <= counter c + 1000 * Z.of_nat (length ops).
  Proof.
    intros Hw. revert c. induction Hw as [|o ops Ho _ IH]; intros c Hc; cbn [Coin.run length].
    - cbn. split; [reflexivity|lia].
    - destruct (step_state c o Ho Hc) as [Hs Hc1]. destruct (step c o) as [c1 x]. cbn [fst] in *.
      specialize (IH c1 ltac:(lia)). destruct (run c1 ops) as [c2 xs]. cbn [fst] in *.
      unfold Coin.absorbs. cbn [flat_map]. rewrite fold_left_app, <- Hs, Nat2Z.inj_succ. split; [apply IH|lia].
  Qed.

  (* the seed after a history is the hash chain over the absorbed data, nothing else *)
  Theorem seed_of_history e ops : Forall wf_op ops -> seed (fst (run (new e) ops)) = chain_seed e (absorbs ops).
  Proof. intros Hw. destruct (run_state (new e) ops Hw) as [H _]; [cbn; lia|]. exact H. Qed.

  (* the counter grows by at most 1000 per operation, so the u64 never overflows in < 2^64/1000 operations ... *)
  Theorem counter_bound c ops : Forall wf_op ops -> 0 <= counter c ->
    0 <= counter (fst (run c ops)) <= counter c + 1000 * Z.of_nat (length ops).
  Proof. intros Hw Hc. apply run_state; assumption. Qed.

  (* ... and it is the number of PRNG calls since the last absorb: it is reset by reseed *)
  Definition is_reader (o : op) : Prop := match o with OpDraw _ | OpLz _ => True | _ => False end.

  Theorem draws_before_reseed_forgotten c pre d : Forall is_reader pre -> 0 <= counter c ->
    fst (run c (pre ++ [OpReseed d])) = reseed c d.
  Proof.
    intros Hp. revert c. induction Hp as [|o pre Ho _ IH]; intros c Hc; cbn [app Coin.run]; [reflexivity|].
    assert (Hr : wf_op o /\ op_absorb o = []) by (destruct o; try contradiction; (split; [exact I|reflexivity])).
    destruct Hr as [Hw Ha]. destruct (step_state c o Hw Hc) as [Hs Hc1]. rewrite Ha in Hs. cbn [fold_left] in Hs.
    destruct (step c o) as [c1 x]. cbn [fst] in *.
    specialize (IH c1 ltac:(lia)). destruct (run c1 (pre ++ [OpReseed d])) as [c2 xs]. cbn [fst] in *.
    rewrite IH. unfold coin_reseed. rewrite Hs. reflexivity.
  Qed.

  (* consequently everything after the reseed is the same whatever was drawn before it *)
  Corollary outputs_after_reseed_independent c pre1 pre2 d rest :
    Forall is_reader pre1 -> Forall is_reader pre2 -> 0 <= counter c ->
    run (fst (run c (pre1 ++ [OpReseed d]))) rest = run (fst (run c (pre2 ++ [OpReseed d]))) rest.
  Proof. intros H1 H2 Hc. rewrite !draws_before_reseed_forgotten by assumption. reflexivity. Qed.

  (* a draw strictly advances the counter: one more draw since the last reseed => a different hash input *)
  Theorem extra_draw_changes_input c k : 0 <= counter c -> counter c + 1 < 2 ^ 64 ->
    next_input D (fst (step c (OpDraw k))) <> next_input D c.
  Proof.
    intros Hc Hov. cbn [Coin.step]. pose proof (draw_advances k c Hc Hov) as H.
    destruct (draw k c) as [c' r]. cbn [fst] in *. unfold next_input. intros [= _ He]. lia.
  Qed.

  Theorem more_draws_larger_counter c ks : 0 <= counter c ->
    counter c + 1000 * Z.of_nat (length ks) < 2 ^ 64 ->
    counter c + Z.of_nat (length ks) <= counter (fst (run c (map (@OpDraw D) ks))).
  Proof.
    revert c. induction ks as [|k ks IH]; intros c Hc Hov; cbn [map Coin.run length].
    - cbn. lia.
    - cbn [length] in Hov. rewrite Nat2Z.inj_succ in *. cbn [Coin.step].
      pose proof (draw_advances k c Hc ltac:(lia)) as Ha.
      pose proof (draw_loop_state k draw_tries c Hc) as Hs. change (Z.of_nat draw_tries) with 1000 in Hs.
      unfold coin_draw in *.
      destruct (draw_loop k draw_tries c) as [c1 r]. cbn [fst] in *.
      specialize (IH c1 ltac:(lia) ltac:(lia)). destruct (run c1 (map (@OpDraw D) ks)) as [c2 xs]. cbn [fst] in *. lia.
  Qed.

  (* ---------------------------------------------------------------------------------------------- injectivity of hash inputs *)
  Variable deqb : D -> D -> bool.
  Hypothesis deqb_spec : forall a b, deqb a b = true <-> a = b.

  Local Notation find_collision_rev := (find_collision_rev D hash_elements merge merge_with_int deqb).
  Local Notation find_collision := (find_collision D hash_elements merge merge_with_int deqb).
  Local Notation valid_collision := (valid_collision D hash_elements merge merge_with_int).

  Lemma zlist_eqb_spec a b : zlist_eqb a b = true <-> a = b.
  Proof.
    unfold zlist_eqb. rewrite andb_true_iff, Nat.eqb_eq. split.
    - intros [Hl Hf]. revert b Hl Hf. induction a as [|x a IH]; intros [|y b] Hl Hf; try discriminate; [reflexivity|].
      cbn in Hf. apply andb_true_iff in Hf. destruct Hf as [Hx Hf]. apply Z.eqb_eq in Hx. cbn in Hx. subst y.
      f_equal. apply IH; [cbn in Hl; lia|assumption].
    - intros <-. split; [reflexivity|]. induction a as [|x a IH]; [reflexivity|]. cbn. rewrite Z.eqb_refl. exact IH.
  Qed.

  Lemma chain_seed_snoc e p a : chain_seed e (rev (a :: p)) = absorb_step (chain_seed e (rev p)) a.
  Proof. unfold Coin.chain_seed. cbn [rev]. rewrite fold_left_app. reflexivity. Qed.

  Lemma find_collision_rev_valid e1 r1 e2 r2 :
    (e1, r1) <> (e2, r2) -> chain_seed e1 (rev r1) = chain_seed e2 (rev r2) ->
    valid_collision (find_collision_rev e1 r1 e2 r2).
  Proof.
    revert r2. induction r1 as [|a1 p1 IH]; intros [|a2 p2] Hne Heq.
    - cbn [Coin.find_collision_rev]. destruct (zlist_eqb e1 e2) eqn:E.
      + apply zlist_eqb_spec in E. subst. contradiction.
      + cbn. split; [|exact Heq]. intros ->. rewrite (proj2 (zlist_eqb_spec e2 e2) eq_refl) in E. discriminate.
    - rewrite chain_seed_snoc in Heq. destruct a2; cbn in *; exact Heq.
    - rewrite chain_seed_snoc in Heq. destruct a1; cbn in *; symmetry; exact Heq.
    - rewrite !chain_seed_snoc in Heq. destruct a1 as [d1|n1], a2 as [d2|n2]; cbn [Coin.find_collision_rev].
      + destruct (deqb _ _ && deqb d1 d2) eqn:E.
        * apply andb_true_iff in E. destruct E as [Es Ed]. apply deqb_spec in Es, Ed. subst d2.
          apply IH; [|exact Es]. intros [= -> ->]. contradiction.
        * cbn in *. split; [|exact Heq]. intros [= Hs Hd].
          rewrite (proj2 (deqb_spec _ _) Hs), (proj2 (deqb_spec _ _) Hd) in E. discriminate.
      + cbn in *. exact Heq.
      + cbn in *. symmetry. exact Heq.
      + destruct (deqb _ _ && (n1 =? n2)) eqn:E.
        * apply andb_true_iff in E. destruct E as [Es Ed]. apply deqb_spec in Es. apply Z.eqb_eq in Ed. subst n2.
          apply IH; [|exact Es]. intros [= -> ->]. contradiction.
        * cbn in *. split; [|exact Heq]. intros [= Hs Hd].
          rewrite (proj2 (deqb_spec _ _) Hs), Hd, Z.eqb_refl in E. discriminate.
  Qed.

  Theorem chain_seed_injective_or_collision e1 a1 e2 a2 : (e1, a1) <> (e2, a2) ->
    chain_seed e1 a1 <> chain_seed e2 a2 \/ valid_collision (find_collision e1 a1 e2 a2).
  Proof.
    intros Hne. destruct (deqb (chain_seed e1 a1) (chain_seed e2 a2)) eqn:E.
    - right. apply deqb_spec in E. unfold Coin.find_collision. apply find_collision_rev_valid.
      + intros [= -> Hr]. apply (f_equal (@rev _)) in Hr. rewrite !rev_involutive in Hr. subst. contradiction.
      + rewrite !rev_involutive. exact E.
    - left. intros Heq. apply deqb_spec in Heq. congruence.
  Qed.

  (* Histories of the same shape (same sequence of reseed / draw_integers absorbs): the exhibited collision is
     a collision of ONE oracle (two different argument tuples of hash_elements, of merge, or of merge_with_int),
     never a cross-oracle coincidence.  For histories of different shapes a coincidence such as
     hash_elements e = merge a b is possible without any collision of the underlying hash function: the sponge
     Rescue hashers (Rp64_256, Rp62_248) compute merge(a, b) as hash_elements(a ++ b) and the byte hashers hash the
     plain concatenation in all three functions (see Proofs/CoinToy.v, shape_ambiguity_toy). *)
  Definition absorb_kind (a : absorb) : bool := match a with AData _ => true | ANonce _ => false end.
  Definition is_cross (x : collision D) : bool :=
    match x with
    | CrossElemsMerge _ _ _ _ | CrossElemsMergeInt _ _ _ _ | CrossMergeMergeInt _ _ _ _ _ => true
    | _ => false
    end.

  Lemma find_collision_rev_same_shape e1 r1 e2 r2 : map absorb_kind r1 = map absorb_kind r2 ->
    is_cross (find_collision_rev e1 r1 e2 r2) = false.
  Proof.
    revert r2. induction r1 as [|a1 p1 IH]; intros [|a2 p2] Hk; cbn in Hk; try discriminate.
    - cbn [Coin.find_collision_rev]. destruct (zlist_eqb e1 e2); reflexivity.
    - injection Hk as Hk1 Hk2. destruct a1, a2; cbn in Hk1; try discriminate; cbn [Coin.find_collision_rev].
      + destruct (_ && _); [apply IH; assumption|reflexivity].
      + destruct (_ && _); [apply IH; assumption|reflexivity].
  Qed.

  Theorem same_shape_collision_is_proper e1 a1 e2 a2 : map absorb_kind a1 = map absorb_kind a2 ->
    is_cross (find_collision e1 a1 e2 a2) = false.
  Proof.
    intros Hk. unfold Coin.find_collision. apply find_collision_rev_same_shape.
    rewrite !map_rev. f_equal. exact Hk.
  Qed.

  (* Two histories that differ in the seed elements, in any absorbed reseed datum or nonce (or in the
     number / order of absorbs), or in the number of PRNG calls since the last absorb, feed different
     (seed, counter) pairs to merge_with_int at the next draw — unless find_collision returns an
     explicit collision / cross-oracle coincidence of the hash oracles. *)
  Theorem history_inputs_injective e1 ops1 e2 ops2 : Forall wf_op ops1 -> Forall wf_op ops2 ->
    let c1 := fst (run (new e1) ops1) in
    let c2 := fst (run (new e2) ops2) in
    (e1, absorbs ops1) <> (e2, absorbs ops2) \/ counter c1 <> counter c2 ->
    next_input D c1 <> next_input D c2 \/
    valid_collision (find_collision e1 (absorbs ops1) e2 (absorbs ops2)).
  Proof.
    intros Hw1 Hw2 c1 c2 [Hne|Hc].
    - destruct (chain_seed_injective_or_collision _ _ _ _ Hne) as [Hs|Hcol]; [left|right; exact Hcol].
      unfold next_input, c1, c2. rewrite !seed_of_history by assumption. intros [= Hs' _]. contradiction.
    - left. unfold next_input. intros [= _ He]. lia.
  Qed.
End CoinProofs.

(* The model depends on its hash oracles only through their values: two oracle triples that agree pointwise give
   the same runs (no hidden state, no dependence on anything but the history). *)
Section OracleExt.
  Variable D : Type.
  Variables (m1 m2 : D -> D -> D) (i1 i2 : D -> Z -> D) (b1 b2 : D -> list Z).
  Hypothesis Hm : forall a b, m1 a b = m2 a b.
  Hypothesis Hi : forall a n, i1 a n = i2 a n.
  Hypothesis Hb : forall a, b1 a = b2 a.

  Lemma next_ext c : coin_next D i1 c = coin_next D i2 c.
  Proof. unfold coin_next. rewrite Hi. reflexivity. Qed.

  Lemma draw_loop_ext k f c : draw_loop D i1 b1 k f c = draw_loop D i2 b2 k f c.
  Proof.
    revert c. induction f as [|f IH]; intros c; cbn [draw_loop]; [reflexivity|].
    rewrite next_ext. destruct (coin_next D i2 c) as [[c' d]|]; [|reflexivity].
    rewrite Hb. destruct (32 <? elem_bytes k)%nat; [reflexivity|]. destruct (from_random_bytes _ _); [reflexivity|apply IH].
  Qed.

  Lemma ints_loop_ext f c mask n acc : ints_loop D i1 b1 f c mask n acc = ints_loop D i2 b2 f c mask n acc.
  Proof.
    revert c acc. induction f as [|f IH]; intros c acc; cbn [ints_loop]; [reflexivity|].
    rewrite next_ext. destruct (coin_next D i2 c) as [[c' d]|]; [|reflexivity].
    unfold le64. rewrite Hb. destruct (_ =? n); [reflexivity|apply IH].
  Qed.

  Lemma step_ext c o : step D m1 i1 b1 c o = step D m2 i2 b2 c o.
  Proof.
    destruct o as [d|k|n dom nonce|v]; cbn [step].
    - unfold coin_reseed. rewrite Hm. reflexivity.
    - unfold coin_draw. rewrite draw_loop_ext. reflexivity.
    - unfold coin_draw_integers. rewrite Hi, ints_loop_ext. reflexivity.
    - unfold coin_check_lz, le64. rewrite Hi, Hb. reflexivity.
  Qed.

  Theorem run_oracle_ext c ops : run D m1 i1 b1 c ops = run D m2 i2 b2 c ops.
  Proof.
    revert c. induction ops as [|o ops IH]; intros c; cbn [run]; [reflexivity|].
    rewrite step_ext. destruct (step D m2 i2 b2 c o) as [c1 x]. rewrite IH. reflexivity.
  Qed.
End OracleExt.
