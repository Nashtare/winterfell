(* C20 — eval (Horner), add, sub, mul_by_scalar, mul, degree_of, remove_leading_zeros. *)
From Coq Require Import List Arith Bool Lia Ring Field.
From VBase Require Import FieldOps.
From VModel Require Import Polynom.
From VProofs Require Import PolyBase PolyCoeff.
Import ListNotations.

Section Arith.
Context {F : Type} (O : FOps F) (L : FLaws O).
Local Notation zero := (fzero O).
Local Notation one := (fone O).
Local Notation "a +f b" := (fadd O a b) (at level 50, left associativity).
Local Notation "a -f b" := (fsub O a b) (at level 50, left associativity).
Local Notation "a *f b" := (fmul O a b) (at level 40, left associativity).
Local Notation peval := (peval O).
Local Notation fpow := (fpow O).
Local Notation coeff := (coeff O).
Local Notation conv := (conv O).

Add Field Ffield : (FLaws_field_theory O L).

(* ------------------------------------------------------------------ eval *)
Lemma eval_horner p x : eval O p x = peval p x.
Proof.
  unfold eval. induction p as [|c t IH]; simpl. reflexivity.
  rewrite fold_left_app. simpl. rewrite IH. ring.
Qed.

Lemma eval_many_spec p xs : eval_many O p xs = map (peval p) xs.
Proof. unfold eval_many. apply map_ext. intros; apply eval_horner. Qed.

(* ------------------------------------------------------------------ add / sub *)
Lemma cz_S a i : coeff_or_zero O a (S i) = coeff_or_zero O (tl a) i.
Proof. unfold coeff_or_zero. destruct a; simpl; reflexivity. Qed.

Lemma cz_0 a : coeff_or_zero O a 0 = hd zero a.
Proof. unfold coeff_or_zero. destruct a; simpl; reflexivity. Qed.

Lemma peval_hd_tl a x : peval a x = hd zero a +f x *f peval (tl a) x.
Proof. destruct a; simpl; ring. Qed.

Lemma pointwise_spec (op : F -> F -> F) k x :
  (forall u v, op u v = u +f k *f v) ->
  forall n a b, length a <= n -> length b <= n ->
  peval (map (fun i => op (coeff_or_zero O a i) (coeff_or_zero O b i)) (seq 0 n)) x
  = peval a x +f k *f peval b x.
Proof.
  intros Hop. induction n as [|n IH]; intros a b Ha Hb.
  - destruct a; [|simpl in Ha; lia]. destruct b; [|simpl in Hb; lia]. simpl. ring.
  - cbn [seq map]. rewrite <- seq_shift. rewrite map_map. cbn [PolyBase.peval].
    rewrite (map_ext _ (fun i => op (coeff_or_zero O (tl a) i) (coeff_or_zero O (tl b) i)))
      by (intros; now rewrite !cz_S).
    rewrite IH by (destruct a, b; simpl in *; lia).
    rewrite !cz_0, Hop. rewrite (peval_hd_tl a), (peval_hd_tl b). ring.
Qed.

Lemma add_spec a b x : peval (add O a b) x = peval a x +f peval b x.
Proof.
  unfold add. rewrite (pointwise_spec (fadd O) one x); [ring| intros; ring | lia | lia].
Qed.

Lemma sub_spec a b x : peval (sub O a b) x = peval a x -f peval b x.
Proof.
  unfold sub. rewrite (pointwise_spec (fsub O) (fneg O one) x); [ring| intros; ring | lia | lia].
Qed.

Lemma add_length a b : length (add O a b) = Nat.max (length a) (length b).
Proof. unfold add. now rewrite map_length, seq_length. Qed.

Lemma sub_length a b : length (sub O a b) = Nat.max (length a) (length b).
Proof. unfold sub. now rewrite map_length, seq_length. Qed.

(* ------------------------------------------------------------------ mul_by_scalar *)
Lemma mul_by_scalar_spec p k x : peval (mul_by_scalar O p k) x = k *f peval p x.
Proof. unfold mul_by_scalar. induction p; simpl. ring. rewrite IHp. ring. Qed.

Lemma mul_by_scalar_length p k : length (mul_by_scalar O p k) = length p.
Proof. unfold mul_by_scalar. apply map_length. Qed.

(* ------------------------------------------------------------------ mul *)
Definition mul_inner_body (a b : list F) (i : nat) : nat -> list F -> Result (list F) :=
  fun j r =>
    ai <- get a i;; bj <- get b j;;
    let s := ai *f bj in
    rij <- get r (i + j);;
    set r (i + j) (rij +f s).

Lemma mul_unfold a b :
  mul O a b = for_up 0 (length a) (fun i r => for_up 0 (length b) (mul_inner_body a b i) r)
                (repeat zero (length a + length b - 1)).
Proof. reflexivity. Qed.

(* one row of the product: r += a_i x^i b, coefficient by coefficient and as a polynomial function *)
Lemma mul_inner a b i ai r : get a i = Ok ai -> i + length b <= length r ->
  exists r', for_up 0 (length b) (mul_inner_body a b i) r = Ok r' /\ length r' = length r /\
    (forall k, coeff r' k
               = coeff r k +f (if (i <=? k) && (k <? i + length b) then ai *f coeff b (k - i) else zero)) /\
    (forall x, peval r' x = peval r x +f ai *f fpow x i *f peval b x).
Proof.
  intros Hai Hlen.
  destruct (for_up_inv (fun j r' => length r' = length r /\
      (forall k, coeff r' k = coeff r k +f (if (i <=? k) && (k <? i + j) then ai *f coeff b (k - i) else zero)) /\
      (forall x, peval r' x = peval r x +f ai *f fpow x i *f peval (firstn j b) x))
    (mul_inner_body a b i) (length b) 0 r) as (r' & Hr' & Hl' & Hc' & Hp').
  - split; [reflexivity|]. split.
    + intros k. rewrite Nat.add_0_r. destruct (Nat.leb_spec i k), (Nat.ltb_spec k i); simpl; try lia; ring.
    + intros x. simpl. ring.
  - intros j r1 Hj (Hl & Hc & Hp).
    exists (upd r1 (i + j) (nth (i + j) r1 zero +f ai *f nth j b zero)). split.
    { unfold mul_inner_body. rewrite Hai, (get_ok b j zero) by lia. cbn [bind]. cbv zeta.
      apply (rmw_ok O r1 (i + j) (fun rij => rij +f ai *f nth j b zero)). lia. }
    split. { now rewrite upd_length. } split.
    + intros k. specialize (Hc k). unfold PolyCoeff.coeff in *. destruct (Nat.eq_dec k (i + j)) as [->|Hne].
      * rewrite nth_upd_same, Hc by lia. replace (i + j - i) with j by lia.
        destruct (Nat.leb_spec i (i + j)), (Nat.ltb_spec (i + j) (i + j)), (Nat.ltb_spec (i + j) (i + S j));
          simpl; try lia; ring.
      * rewrite nth_upd_other, Hc by assumption.
        destruct (Nat.leb_spec i k), (Nat.ltb_spec k (i + j)), (Nat.ltb_spec k (i + S j)); simpl; try lia; reflexivity.
    + intros x. rewrite (peval_rmw_add O L), Hp, (peval_firstn_S O L b j), (fpow_add O L) by lia. ring.
  - exists r'. cbn [Nat.add] in Hc', Hp'. rewrite firstn_all in Hp'. auto.
Qed.

(* the crate's mul computes the convolution r_k = sum_{i<=k} a_i b_{k-i}, hence the product of the polynomial
   functions; after i rows the accumulator holds the product of the first i coefficients of a with b *)
Lemma mul_run a b : exists r, mul O a b = Ok r /\ length r = length a + length b - 1 /\
  (forall k, coeff r k = conv a b k) /\ (forall x, peval r x = peval a x *f peval b x).
Proof.
  rewrite mul_unfold. set (n := length a + length b - 1).
  destruct (for_up_inv (fun i r => length r = n /\ (forall k, coeff r k = conv (firstn i a) b k) /\
                                   (forall x, peval r x = peval (firstn i a) x *f peval b x))
    (fun i r => for_up 0 (length b) (mul_inner_body a b i) r) (length a) 0 (repeat zero n)) as (r & Hr & Hl & Hc & Hp).
  - split; [apply repeat_length|]. split.
    + intros k. rewrite (conv_nil_l O L). apply nth_repeat.
    + intros x. rewrite (peval_repeat_zero O L). simpl. ring.
  - intros i r Hi (Hl & Hc & Hp).
    destruct (mul_inner a b i (nth i a zero) r (get_ok a i zero ltac:(lia)) ltac:(lia)) as (r' & Hr' & Hl' & Hc' & Hp').
    exists r'. split; [exact Hr'|]. split; [congruence|].
    rewrite (firstn_S_nth a i zero) by lia. split.
    + intros k. rewrite Hc', Hc, (conv_snoc O L), firstn_length_le by lia. f_equal.
      destruct (Nat.leb_spec i k); [|reflexivity]. destruct (Nat.ltb_spec k (i + length b)); [reflexivity|].
      rewrite (coeff_overflow O b) by lia. simpl. ring.
    + intros x. rewrite Hp', Hp, (peval_snoc O L), firstn_length_le by lia. ring.
  - exists r. cbn [Nat.add] in Hc, Hp. rewrite firstn_all in Hc, Hp. auto.
Qed.

Lemma mul_spec a b r x : mul O a b = Ok r -> peval r x = peval a x *f peval b x.
Proof. intros H. destruct (mul_run a b) as (r' & Hr & _ & _ & Hp). rewrite H in Hr. inversion Hr; subst. apply Hp. Qed.

Lemma mul_total a b : mul O a b <> Panic.
Proof. destruct (mul_run a b) as (r & Hr & _). rewrite Hr. discriminate. Qed.

Lemma mul_length a b r : mul O a b = Ok r -> length r = length a + length b - 1.
Proof. intros H. destruct (mul_run a b) as (r' & Hr & Hl & _). rewrite H in Hr. inversion Hr; subst. exact Hl. Qed.

Lemma mul_unrepaired_total_iff a b : mul_unrepaired O a b <> Panic <-> (a <> [] \/ b <> []).
Proof.
  unfold mul_unrepaired. destruct a, b; simpl; split; intros H; try tauto; try (right; discriminate);
    try (left; discriminate); try (apply mul_total).
Qed.

(* ------------------------------------------------------------------ degree_of / remove_leading_zeros *)
Lemma zeros_above_split (l : list F) : forall n, (forall k, n <= k -> nth k l zero = zero) ->
  l = firstn n l ++ repeat zero (length l - n).
Proof.
  induction l as [|c t IH]; intros n H. now rewrite firstn_nil.
  destruct n.
  - simpl. f_equal. apply (H 0); lia.
    rewrite (IH 0) at 1. simpl. now rewrite Nat.sub_0_r. intros k Hk. apply (H (S k)); lia.
  - simpl. f_equal. apply IH. intros k Hk. apply (H (S k)); lia.
Qed.

(* full characterisation of degree_of *)
Lemma degree_of_spec poly :
  (forall k, degree_of O poly < k -> nth k poly zero = zero) /\
  ((exists k, nth k poly zero <> zero) -> degree_of O poly < length poly /\ nth (degree_of O poly) poly zero <> zero) /\
  ((forall k, nth k poly zero = zero) -> degree_of O poly = 0).
Proof.
  unfold degree_of. pose proof (last_nz_all O L poly) as H.
  destruct (last_nz O poly (length poly)) as [i|].
  - destruct H as (H1 & H2 & H3). repeat split; auto. intros Hz. exfalso. apply H2, Hz.
  - repeat split; [intros k _; apply H | exfalso; destruct H0 as (k & Hk); apply Hk, H ..].
Qed.

Lemma degree_of_ge p k : coeff p k <> zero -> k <= degree_of O p.
Proof.
  intros H. destruct (Nat.le_gt_cases k (degree_of O p)); auto. exfalso. apply H.
  now apply (proj1 (degree_of_spec p)).
Qed.

Lemma degree_of_pos_nz poly : 0 < degree_of O poly ->
  nth (degree_of O poly) poly zero <> zero /\ degree_of O poly < length poly.
Proof.
  unfold degree_of. pose proof (last_nz_all O L poly) as H.
  destruct (last_nz O poly (length poly)); [|lia]. intros _. tauto.
Qed.

Lemma degree_of_lt poly : poly <> [] -> degree_of O poly < length poly.
Proof.
  unfold degree_of. pose proof (last_nz_all O L poly) as H.
  destruct (last_nz O poly (length poly)). tauto. intros Hn. destruct poly; [congruence|simpl; lia].
Qed.

Lemma degree_of_split poly :
  poly = firstn (S (degree_of O poly)) poly ++ repeat zero (length poly - S (degree_of O poly)).
Proof. apply zeros_above_split. intros k Hk. apply (proj1 (degree_of_spec poly)). lia. Qed.

Lemma peval_zeros_tail (l l1 : list F) k x : l = l1 ++ repeat zero k -> peval l x = peval l1 x.
Proof. intros ->. rewrite (peval_app O L), (peval_repeat_zero O L). ring. Qed.

Lemma peval_firstn_degree poly x : peval (firstn (S (degree_of O poly)) poly) x = peval poly x.
Proof. symmetry. eapply peval_zeros_tail. apply degree_of_split. Qed.

(* remove_leading_zeros: the input is the output followed by zeros only, the output does not end in zero *)
Lemma remove_leading_zeros_spec values :
  let r := remove_leading_zeros O values in
  values = r ++ repeat zero (length values - length r) /\
  (r = [] \/ last r zero <> zero) /\
  (forall x, peval r x = peval values x).
Proof.
  cbv zeta. unfold remove_leading_zeros. pose proof (last_nz_all O L values) as H.
  destruct (last_nz O values (length values)) as [i|].
  - destruct H as (H1 & H2 & H3).
    assert (Hs : values = firstn (i + 1) values ++ repeat zero (length values - (i + 1)))
      by (apply zeros_above_split; intros k Hk; apply H3; lia).
    assert (Hl : length (firstn (i + 1) values) = i + 1) by (rewrite firstn_length; lia).
    split. { rewrite Hl. exact Hs. }
    split.
    + right. rewrite Nat.add_1_r. rewrite (firstn_S_nth values i zero H1). rewrite last_last. exact H2.
    + intros x. symmetry. eapply peval_zeros_tail. exact Hs.
  - assert (Hs : values = firstn 0 values ++ repeat zero (length values - 0))
      by (apply zeros_above_split; intros k _; apply H).
    simpl in *. rewrite Nat.sub_0_r in *. split; [exact Hs|]. split; [now left|].
    intros x. symmetry. eapply (peval_zeros_tail values []). exact Hs.
Qed.

End Arith.
