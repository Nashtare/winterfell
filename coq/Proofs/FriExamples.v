(* C05 / C15 — non-vacuity: a concrete run of the executable instantiation (Model/FriInst.v: f64 on canonical
   residues, ToyHasher, Merkle model, DefaultRandomCoin model).  The model prover's proof for the evaluations of
   3 + x over the coset 7*<g> of size 8 (blowup 2, folding 2, remainder max degree 1: one FRI layer), queried at
   positions 1, 5, 6 (1 and 5 collide after folding), is accepted by the model verifier; with the remainder changed
   after the fact the repaired verifier answers RemainderCommitmentMismatch. *)
From Coq Require Import List ZArith.
From VBase Require Import FieldOps ZpOps.
From VModel Require Import Fri FriInst.
Import ListNotations.

Definition ex_opts := mkOpts 2 2 1.
Definition ex_positions : list nat := [1; 5; 6]%nat.
Definition ex_evals : list Z :=
  map (fun i => ((3 + 7 * zpow_mod P64 (rou64 3) (Z.of_nat i)) mod P64)%Z) (seq 0 8).
Definition ex_run (tamper : Z) : option (nat * run_res * run_res) :=
  match prove64 ex_opts (coin0 8) ex_evals ex_positions with
  | Ok (cs, proof, _) =>
      let proof' := mkProof (fp_layers proof) (map (fun c => ((c + tamper) mod P64)%Z) (fp_remainder proof)) 1 in
      let at_pos := map (fun p => nth p ex_evals 0%Z) ex_positions in
      Some (length (fp_layers proof),
            verif64 true true ex_opts (coin0 8) proof' cs 3 8 at_pos ex_positions,
            verif64 true false ex_opts (coin0 8) proof' cs 3 8 at_pos ex_positions)
  | _ => None
  end.

(* Values shared by the two runs are evaluated once, as transparent witnesses the runs compute with: the evaluations
   (the definition recomputes the root of unity for every point) and the prover's output. *)
Definition ex_evals_val : {l | ex_evals = l}.
Proof.
  eexists. unfold ex_evals.
  let w := eval vm_compute in (rou64 3) in replace (rou64 3) with w by (vm_compute; reflexivity).
  vm_compute. reflexivity.
Defined.

Definition ex_proved : {r | prove64 ex_opts (coin0 8) (proj1_sig ex_evals_val) ex_positions = Ok r}.
Proof. eexists. vm_compute. reflexivity. Defined.

Lemma ex_honest_accepted : ex_run 0 = Some (1%nat, RunVerdict (Ok tt), RunVerdict (Ok tt)).
Proof. unfold ex_run. rewrite (proj2_sig ex_evals_val), (proj2_sig ex_proved). vm_compute. reflexivity. Qed.

Lemma ex_changed_remainder_rejected :
  ex_run 1 = Some (1%nat, RunVerdict (Err RemainderCommitmentMismatch), RunVerdict (Err InvalidRemainderFolding)).
Proof. unfold ex_run. rewrite (proj2_sig ex_evals_val), (proj2_sig ex_proved). vm_compute. reflexivity. Qed.
