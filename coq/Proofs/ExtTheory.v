(* C08 — generic theory of the quadratic extension F[x]/(x^2 - x - c) and the cubic extension
   F[x]/(x^3 - u x - v) over an arbitrary field (`FLaws O`), in the shape used by the generated
   `impl ExtensibleField<N>` bodies:  reference ("schoolbook product reduced by the irreducible") multiplications
   `qs_mul c`, `cs_mul u v`, Frobenius maps `qs_frob`, `cs_frob k..`, ring laws, automorphism laws, norm,
   units.  Proofs/ExtModel.v ties the generated terms to these. *)
From Coq Require Import ZArith List Bool Ring Field.
From VBase Require Import FieldOps.
From VModel Require Import ExtField.
From VProofs Require Import FieldFacts.
Import ListNotations.

(* ------------------------------------------------------------------ what QuadExtension and CubeExtension share:
   a commutative ring whose `square` is the product, with the wrappers' exp and div on top *)
Section RingPow.
Context {E : Type} {e0 e1 : E} {add mul sub : E -> E -> E} {neg : E -> E}.
Hypothesis R : ring_theory e0 e1 add mul sub neg (@eq E).
Variable sq : E -> E.
Hypothesis sq_mul : forall a, sq a = mul a a.
Variable eqb : E -> E -> bool.
Hypothesis eqb_spec : forall a b, eqb a b = true <-> a = b.
Add Ring Rring : R.

Fixpoint r_pow (a : E) (n : nat) : E := match n with 0%nat => e1 | S n' => mul a (r_pow a n') end.
(* the shape of FieldElement::exp_vartime in Model/ExtField.v *)
Fixpoint r_exp_loop (r b : E) (p : positive) : E :=
  match p with
  | xH => mul r b
  | xO p' => r_exp_loop r (sq b) p'
  | xI p' => r_exp_loop (mul r b) (sq b) p'
  end.
Definition r_exp (a : E) (power : Z) : E :=
  match power with
  | Zpos p => if eqb a e0 then e0 else r_exp_loop e1 a p
  | _ => e1
  end.

Lemma r_pow_add : forall a n m, r_pow a (n + m) = mul (r_pow a n) (r_pow a m).
Proof. intros a n m. induction n as [|n IH]; cbn [r_pow Nat.add]; [|rewrite IH]; ring. Qed.
Lemma r_pow_sq : forall a n, r_pow (mul a a) n = r_pow a (n + n).
Proof. intros a n. rewrite r_pow_add. induction n as [|n IH]; cbn [r_pow]; [|rewrite IH]; ring. Qed.
Lemma r_exp_loop_spec : forall p r b, r_exp_loop r b p = mul r (r_pow b (Pos.to_nat p)).
Proof.
  induction p as [p IH|p IH|]; intros r b; cbn [r_exp_loop].
  - rewrite IH, sq_mul, r_pow_sq, Pos2Nat.inj_xI. cbn [Nat.mul r_pow]. rewrite Nat.add_0_r. ring.
  - rewrite IH, sq_mul, r_pow_sq, Pos2Nat.inj_xO. cbn [Nat.mul]. rewrite Nat.add_0_r. reflexivity.
  - change (Pos.to_nat 1) with 1%nat. cbn [r_pow]. ring.
Qed.
(* exp / exp_vartime = repeated multiplication *)
Lemma r_exp_spec : forall a e, r_exp a e = r_pow a (Z.to_nat e).
Proof.
  intros a [|p|p]; [reflexivity| |reflexivity].
  unfold r_exp. rewrite Z2Nat.inj_pos, r_exp_loop_spec. destruct (eqb a e0) eqn:Z0; [|ring].
  apply eqb_spec in Z0. subst a. destruct (Pos2Nat.is_succ p) as [n ->]. cbn [r_pow]. ring.
Qed.

(* a unit is no zero divisor; division by a unit *)
Lemma r_unit_cancel : forall a ia b, mul a ia = e1 -> mul a b = e0 -> b = e0.
Proof.
  intros a ia b U H. transitivity (mul (mul a ia) b); [rewrite U; ring|].
  transitivity (mul ia (mul a b)); [ring|rewrite H; ring].
Qed.
Lemma r_div_spec : forall (inv : E -> option E) a b,
  (exists ib, inv b = Some ib /\ mul b ib = e1) ->
  exists d, match inv b with Some ib => Some (mul a ib) | None => None end = Some d /\ mul d b = a.
Proof.
  intros inv a b (ib & -> & M). eexists; split; [reflexivity|].
  transitivity (mul a (mul b ib)); [ring|rewrite M; ring].
Qed.
End RingPow.

(* FLaws is a commutative ring plus what is said about double, square, inv, div and == *)
Lemma flaws_of_ring : forall {E : Type} (X : FOps E),
  ring_theory (fzero X) (fone X) (fadd X) (fmul X) (fsub X) (fneg X) (@eq E) ->
  (forall a, fdouble X a = fadd X a a) -> (forall a, fsquare X a = fmul X a a) -> fone X <> fzero X ->
  (forall a, a <> fzero X -> fmul X (finv X a) a = fone X) -> finv X (fzero X) = fzero X ->
  (forall a b, fdiv X a b = fmul X a (finv X b)) -> (forall a b, feqb X a b = true <-> a = b) -> FLaws X.
Proof. intros E X R. destruct R. constructor; assumption. Qed.

Section Theory.
Context {F : Type} (O : FOps F) (L : FLaws O).

Local Notation zero := (fzero O).
Local Notation one := (fone O).
Local Notation "a +f b" := (fadd O a b) (at level 50, left associativity).
Local Notation "a -f b" := (fsub O a b) (at level 50, left associativity).
Local Notation "a *f b" := (fmul O a b) (at level 40, left associativity).
Local Notation "-f a" := (fneg O a) (at level 35, right associativity).

Add Field Ffield : (FLaws_field_theory O L).

(* ------------------------------------------------------------------ base-field facts *)
Lemma q_eq_dec : forall a b : F * F, {a = b} + {a <> b}.
Proof. decide equality; apply (feq_dec O L). Qed.
Lemma c_eq_dec : forall a b : F * F * F, {a = b} + {a <> b}.
Proof. decide equality; [apply (feq_dec O L) | apply q_eq_dec]. Qed.

Lemma feqb_false : forall a b, a <> b -> feqb O a b = false.
Proof. exact (feqb_neq O L). Qed.

Lemma f_mul_neq0 : forall a b, a <> zero -> b <> zero -> a *f b <> zero.
Proof. exact (fmul_nonzero O L). Qed.

(* ================================================================== quadratic: x^2 = x + c *)
Section Quadratic.
Variable c : F.

(* (a0 + a1 x)(b0 + b1 x) = a0b0 + (a0b1 + a1b0) x + a1b1 x^2,  x^2 = x + c *)
Definition qs_mul (a b : F * F) : F * F :=
  (fst a *f fst b +f c *f (snd a *f snd b), fst a *f snd b +f snd a *f fst b +f snd a *f snd b).
(* x |-> 1 - x (the other root of x^2 - x - c) *)
Definition qs_frob (a : F * F) : F * F := (fst a +f snd a, -f snd a).

Local Notation qadd := (q_add O).
Local Notation qsub := (q_sub O).
Local Notation qneg := (q_neg O).
Local Notation q0 := (q_zero O).
Local Notation q1 := (q_one O).
Local Notation emb := (q_from_base O).

Ltac qcrush :=
  intros;
  repeat match goal with a : (F * F)%type |- _ => destruct a end;
  unfold qs_mul, qs_frob, q_add, q_sub, q_neg, q_zero, q_one, q_from_base, q_double in *;
  cbn [fst snd] in *;
  try rewrite !(fl_double_def O L); try rewrite !(fl_square_def O L).

Lemma qs_ring : @ring_theory (F * F)%type q0 q1 qadd qs_mul qsub qneg (@eq (F * F)).
Proof. constructor; qcrush; f_equal; ring. Qed.

Lemma qs_distr : forall a b d, qs_mul (qadd a b) d = qadd (qs_mul a d) (qs_mul b d).
Proof. exact (Rdistr_l qs_ring). Qed.
Lemma q_double_add : forall a, q_double O a = qadd a a.
Proof. qcrush; reflexivity. Qed.

(* the base field embedding is multiplicative *)
Lemma qs_embed_mul : forall x y, emb (x *f y) = qs_mul (emb x) (emb y).
Proof. qcrush; f_equal; ring. Qed.

Lemma qs_mul_base : forall a b, qs_mul a (emb b) = (fst a *f b, snd a *f b).
Proof. qcrush; f_equal; ring. Qed.

(* Frobenius / conjugation *)
Lemma qs_frob_add : forall a b, qs_frob (qadd a b) = qadd (qs_frob a) (qs_frob b).
Proof. qcrush; f_equal; ring. Qed.
Lemma qs_frob_mul : forall a b, qs_frob (qs_mul a b) = qs_mul (qs_frob a) (qs_frob b).
Proof. qcrush; f_equal; ring. Qed.
Lemma qs_frob_base : forall x, qs_frob (emb x) = emb x.
Proof. qcrush; f_equal; ring. Qed.
Lemma qs_frob_one : qs_frob q1 = q1.
Proof. qcrush; f_equal; ring. Qed.
Lemma qs_frob_invol : forall a, qs_frob (qs_frob a) = a.
Proof. qcrush; f_equal; ring. Qed.
(* fixes exactly the base field (no side condition is needed: x0 + x1 = x0 already forces x1 = 0) *)
Lemma qs_frob_fixes_exactly_base : forall a, qs_frob a = a <-> snd a = zero.
Proof.
  intros [a0 a1]; unfold qs_frob; cbn [fst snd]. split.
  - intros H. injection H as H0 H1.
    transitivity ((a0 +f a1) -f a0); [ring|]. rewrite H0. ring.
  - intros ->. f_equal; ring.
Qed.
(* the image of x is a root of the same polynomial: (1-x)^2 = (1-x) + c *)
Lemma qs_frob_root : let phi' := qs_frob (zero, one) in qs_mul phi' phi' = qadd phi' (emb c).
Proof. cbv zeta. qcrush; f_equal; ring. Qed.

(* norm *)
Definition qs_norm0 (a : F * F) : F := fst a *f fst a +f fst a *f snd a -f c *f (snd a *f snd a).

Lemma qs_norm_in_base : forall a, qs_mul a (qs_frob a) = emb (qs_norm0 a).
Proof. unfold qs_norm0. qcrush; f_equal; ring. Qed.

(* irreducibility of x^2 - x - c  <=>  the discriminant 1 + 4c is not a square *)
Definition qs_disc : F := one +f (c +f c +f c +f c).

Lemma qs_norm_nonzero :
  (forall s, s *f s <> qs_disc) -> forall a, a <> q0 -> qs_norm0 a <> zero.
Proof.
  intros NS [a0 a1] Ha HN. unfold qs_norm0, qs_disc in *; cbn [fst snd] in *.
  destruct (feq_dec O L a1 zero) as [E|E].
  - subst a1. assert (H : a0 *f a0 = zero).
    { rewrite <- HN. ring. }
    destruct (fmul_integral O L _ _ H); subst; apply Ha; reflexivity.
  - apply (NS ((a0 +f a0 +f a1) *f finv O a1)).
    transitivity (((one +f one) +f (one +f one)) *f (a0 *f a0 +f a0 *f a1 -f c *f (a1 *f a1)) *f (finv O a1 *f finv O a1)
                  +f (one +f (c +f c +f c +f c))).
    + field. exact E.
    + rewrite HN. ring.
Qed.

(* the hand model of QuadExtension::inv, on the reference multiplication *)
Definition qs_inv (a : F * F) : F * F :=
  let n := qs_frob a in let d := finv O (qs_norm0 a) in (fst n *f d, snd n *f d).

Lemma qs_inv_spec : forall a, qs_norm0 a <> zero -> qs_mul a (qs_inv a) = q1.
Proof.
  intros [a0 a1] H. unfold qs_inv, qs_mul, qs_frob, q_one, qs_norm0 in *; cbn [fst snd] in *.
  f_equal; field; exact H.
Qed.

(* no zero divisors, from units *)
Lemma qs_no_zero_div :
  (forall s, s *f s <> qs_disc) -> forall a b, qs_mul a b = q0 -> a = q0 \/ b = q0.
Proof.
  intros NS a b H. destruct (q_eq_dec a q0) as [E|E]; [left; exact E|right].
  exact (r_unit_cancel qs_ring a (qs_inv a) b (qs_inv_spec a (qs_norm_nonzero NS a E)) H).
Qed.

End Quadratic.

(* ================================================================== cubic: x^3 = u x + v *)
Section Cubic.
Variables u v : F.

Local Notation c0 := (@c0 F).
Local Notation c1 := (@c1 F).
Local Notation c2 := (@c2 F).

(* (a0 + a1 x + a2 x^2)(b0 + b1 x + b2 x^2) = sum_k d_k x^k,  x^3 = u x + v,  x^4 = u x^2 + v x *)
Definition cs_mul (a b : F * F * F) : F * F * F :=
  let d0 := c0 a *f c0 b in
  let d1 := c0 a *f c1 b +f c1 a *f c0 b in
  let d2 := c0 a *f c2 b +f c1 a *f c1 b +f c2 a *f c0 b in
  let d3 := c1 a *f c2 b +f c2 a *f c1 b in
  let d4 := c2 a *f c2 b in
  (d0 +f v *f d3, d1 +f u *f d3 +f v *f d4, d2 +f u *f d4).

Local Notation cadd := (c_add O).
Local Notation csub := (c_sub O).
Local Notation cneg := (c_neg O).
Local Notation z3 := (c_zero O).
Local Notation o3 := (c_one O).
Local Notation emb := (c_from_base O).

Ltac ccrush :=
  intros;
  repeat match goal with a : (F * F * F)%type |- _ => destruct a as [[? ?] ?] end;
  unfold cs_mul, c_add, c_sub, c_neg, c_zero, c_one, c_from_base, c_double, ExtField.c0, ExtField.c1, ExtField.c2 in *;
  cbn [fst snd] in *;
  try rewrite !(fl_double_def O L); try rewrite !(fl_square_def O L).
Ltac c3 := f_equal; [f_equal|]; ring.

Lemma cs_ring : @ring_theory (F * F * F)%type z3 o3 cadd cs_mul csub cneg (@eq (F * F * F)).
Proof. constructor; ccrush; c3. Qed.

Add Ring Ering : cs_ring.

Lemma cs_mul_assoc : forall a b d, cs_mul a (cs_mul b d) = cs_mul (cs_mul a b) d.
Proof. exact (Rmul_assoc cs_ring). Qed.
Lemma cs_distr : forall a b d, cs_mul (cadd a b) d = cadd (cs_mul a d) (cs_mul b d).
Proof. exact (Rdistr_l cs_ring). Qed.
Lemma c_double_add : forall a, c_double O a = cadd a a.
Proof. ccrush; reflexivity. Qed.
Lemma cs_mul_zero : forall a, cs_mul z3 a = z3.
Proof. intros. ring. Qed.

Lemma cs_embed_add : forall x y, emb (x +f y) = cadd (emb x) (emb y).
Proof. ccrush; c3. Qed.
Lemma cs_embed_mul : forall x y, emb (x *f y) = cs_mul (emb x) (emb y).
Proof. ccrush; c3. Qed.

Lemma cs_mul_base : forall a b, cs_mul a (emb b) = (c0 a *f b, c1 a *f b, c2 a *f b).
Proof. ccrush; c3. Qed.

(* the generator and the defining relation: phi^3 = u phi + v *)
Definition phi : F * F * F := (zero, one, zero).
Definition phi2 : F * F * F := (zero, zero, one).
Lemma cs_phi_sq : cs_mul phi phi = phi2.
Proof. unfold phi, phi2. ccrush; c3. Qed.
Lemma cs_phi_root : cs_mul phi (cs_mul phi phi) = cadd (cs_mul (emb u) phi) (emb v).
Proof. unfold phi. ccrush; c3. Qed.

(* ---------- Frobenius as the linear map with matrix columns (1,0,0), psi, chi ---------- *)
Section Frob.
Variables k01 k02 k11 k12 k21 k22 : F.

Definition cs_frob (x : F * F * F) : F * F * F :=
  (c0 x +f k01 *f c1 x +f k02 *f c2 x, k11 *f c1 x +f k12 *f c2 x, k21 *f c1 x +f k22 *f c2 x).
Definition psi : F * F * F := (k01, k11, k21).
Definition chi : F * F * F := (k02, k12, k22).

(* the constant equations (finitely many; discharged by vm_compute for the concrete constants):
   psi^2 = chi, psi^3 = u psi + v (psi is a root of the irreducible polynomial), frob^2(psi) = phi *)
Record Frob3Consts : Prop := {
  fc_sq : cs_mul psi psi = chi;
  fc_root : cs_mul psi chi = cadd (cs_mul (emb u) psi) (emb v);
  fc_ord3 : cs_frob (cs_frob psi) = phi
}.

Lemma cs_frob_lin : forall x,
  cs_frob x = cadd (cadd (emb (c0 x)) (cs_mul (emb (c1 x)) psi)) (cs_mul (emb (c2 x)) chi).
Proof. unfold cs_frob, psi, chi. ccrush; c3. Qed.

Lemma cs_frob_add : forall a b, cs_frob (cadd a b) = cadd (cs_frob a) (cs_frob b).
Proof. unfold cs_frob. ccrush; c3. Qed.
Lemma cs_frob_base : forall x, cs_frob (emb x) = emb x.
Proof. unfold cs_frob. ccrush; c3. Qed.
Lemma cs_frob_one : cs_frob o3 = o3.
Proof. unfold cs_frob. ccrush; c3. Qed.
Lemma cs_frob_phi : cs_frob phi = psi /\ cs_frob phi2 = chi.
Proof. unfold cs_frob, phi, phi2, psi, chi. split; ccrush; c3. Qed.
Lemma cs_frob_mul_base_l : forall x a, cs_frob (cs_mul (emb x) a) = cs_mul (emb x) (cs_frob a).
Proof. unfold cs_frob. ccrush; c3. Qed.

Lemma cs_decompose : forall a,
  a = cadd (cadd (emb (c0 a)) (cs_mul (emb (c1 a)) phi)) (cs_mul (emb (c2 a)) phi2).
Proof. unfold phi, phi2. ccrush; c3. Qed.

(* product of two elements written on (1, p, q) with an arbitrary multiplication table for p, q *)
Lemma cs_expand : forall A0 A1 A2 B0 B1 B2 p q : F * F * F,
  cs_mul (cadd (cadd A0 (cs_mul A1 p)) (cs_mul A2 q)) (cadd (cadd B0 (cs_mul B1 p)) (cs_mul B2 q)) =
  cadd (cadd (cadd (cadd (cadd (cs_mul A0 B0)
    (cs_mul (cadd (cs_mul A0 B1) (cs_mul A1 B0)) p))
    (cs_mul (cadd (cs_mul A0 B2) (cs_mul A2 B0)) q))
    (cs_mul (cs_mul A1 B1) (cs_mul p p)))
    (cs_mul (cadd (cs_mul A1 B2) (cs_mul A2 B1)) (cs_mul p q)))
    (cs_mul (cs_mul A2 B2) (cs_mul q q)).
Proof. intros. ring. Qed.

Hypothesis K : Frob3Consts.

Lemma cs_chi_sq : cs_mul chi chi = cadd (cs_mul (emb u) chi) (cs_mul (emb v) psi).
Proof.
  rewrite <- (fc_sq K) at 1.
  transitivity (cs_mul psi (cs_mul psi chi)); [ring|].
  rewrite (fc_root K). rewrite <- (fc_sq K). ring.
Qed.

(* components of a reference product, embedded *)
Lemma cs_mul_embed_components : forall a b,
  let A0 := emb (c0 a) in let A1 := emb (c1 a) in let A2 := emb (c2 a) in
  let B0 := emb (c0 b) in let B1 := emb (c1 b) in let B2 := emb (c2 b) in
  let U := emb u in let V := emb v in
  let D3 := cadd (cs_mul A1 B2) (cs_mul A2 B1) in
  let D4 := cs_mul A2 B2 in
  emb (c0 (cs_mul a b)) = cadd (cs_mul A0 B0) (cs_mul V D3) /\
  emb (c1 (cs_mul a b)) = cadd (cadd (cadd (cs_mul A0 B1) (cs_mul A1 B0)) (cs_mul U D3)) (cs_mul V D4) /\
  emb (c2 (cs_mul a b)) = cadd (cadd (cadd (cs_mul A0 B2) (cs_mul A1 B1)) (cs_mul A2 B0)) (cs_mul U D4).
Proof.
  intros a b. cbv zeta. repeat rewrite <- ?cs_embed_mul, <- ?cs_embed_add. repeat split; reflexivity.
Qed.

Theorem cs_frob_mul : forall a b, cs_frob (cs_mul a b) = cs_mul (cs_frob a) (cs_frob b).
Proof.
  intros a b.
  rewrite (cs_frob_lin a), (cs_frob_lin b), cs_expand.
  rewrite (fc_sq K), (fc_root K), cs_chi_sq.
  rewrite (cs_frob_lin (cs_mul a b)).
  destruct (cs_mul_embed_components a b) as (E0 & E1 & E2). cbv zeta in E0, E1, E2.
  rewrite E0, E1, E2.
  ring.
Qed.

Lemma cs_frob2_chi : cs_frob (cs_frob chi) = phi2.
Proof.
  rewrite <- (fc_sq K). rewrite !cs_frob_mul. rewrite (fc_ord3 K). apply cs_phi_sq.
Qed.

Theorem cs_frob_order3 : forall a, cs_frob (cs_frob (cs_frob a)) = a.
Proof.
  intros a. rewrite (cs_frob_lin a).
  rewrite !cs_frob_add, !cs_frob_mul_base_l, !cs_frob_base.
  rewrite (fc_ord3 K), cs_frob2_chi. symmetry. apply cs_decompose.
Qed.

Lemma cs_frob_inj : forall a b, cs_frob a = cs_frob b -> a = b.
Proof.
  intros a b H. rewrite <- (cs_frob_order3 a), <- (cs_frob_order3 b), H. reflexivity.
Qed.

Lemma cs_frob_zero : cs_frob z3 = z3.
Proof. unfold cs_frob. ccrush; c3. Qed.

(* fixes exactly the base field: a 2x2 minor of (matrix - identity) is non-zero *)
Definition cs_fix_det : F := (k11 -f one) *f (k22 -f one) -f k12 *f k21.

Theorem cs_frob_fixes_exactly_base :
  cs_fix_det <> zero -> forall a, cs_frob a = a <-> (c1 a = zero /\ c2 a = zero).
Proof.
  intros D [[a0 a1] a2]. unfold cs_frob, cs_fix_det in *; cbn [ExtField.c0 ExtField.c1 ExtField.c2 fst snd] in *. split.
  - intros H. injection H as H0 H1 H2.
    assert (E1 : (k11 -f one) *f a1 +f k12 *f a2 = zero).
    { transitivity ((k11 *f a1 +f k12 *f a2) -f a1); [ring|]. rewrite H1. ring. }
    assert (E2 : k21 *f a1 +f (k22 -f one) *f a2 = zero).
    { transitivity ((k21 *f a1 +f k22 *f a2) -f a2); [ring|]. rewrite H2. ring. }
    assert (D1 : ((k11 -f one) *f (k22 -f one) -f k12 *f k21) *f a1 = zero).
    { transitivity ((k22 -f one) *f ((k11 -f one) *f a1 +f k12 *f a2) -f k12 *f (k21 *f a1 +f (k22 -f one) *f a2)); [ring|].
      rewrite E1, E2. ring. }
    assert (D2 : ((k11 -f one) *f (k22 -f one) -f k12 *f k21) *f a2 = zero).
    { transitivity ((k11 -f one) *f (k21 *f a1 +f (k22 -f one) *f a2) -f k21 *f ((k11 -f one) *f a1 +f k12 *f a2)); [ring|].
      rewrite E1, E2. ring. }
    destruct (fmul_integral O L _ _ D1) as [?|?]; [contradiction|].
    destruct (fmul_integral O L _ _ D2) as [?|?]; [contradiction|]. split; assumption.
  - intros [-> ->]. c3.
Qed.

(* norm: a * frob a * frob^2 a is fixed by frob, hence in the base field (the two debug_asserts of inv) *)
Definition cs_numerator (a : F * F * F) : F * F * F := cs_mul (cs_frob a) (cs_frob (cs_frob a)).
Definition cs_norm (a : F * F * F) : F * F * F := cs_mul a (cs_numerator a).

Lemma cs_norm_fixed : forall a, cs_frob (cs_norm a) = cs_norm a.
Proof.
  intros a. unfold cs_norm, cs_numerator. rewrite !cs_frob_mul, cs_frob_order3. ring.
Qed.

Theorem cs_norm_in_base : cs_fix_det <> zero -> forall a, cs_norm a = emb (c0 (cs_norm a)).
Proof.
  intros D a. destruct (proj1 (cs_frob_fixes_exactly_base D (cs_norm a)) (cs_norm_fixed a)) as [H1 H2].
  destruct (cs_norm a) as [[n0 n1] n2]. cbn [ExtField.c0 ExtField.c1 ExtField.c2 fst snd] in *. subst.
  reflexivity.
Qed.

Lemma cs_norm_mul : forall a b, cs_norm (cs_mul a b) = cs_mul (cs_norm a) (cs_norm b).
Proof. intros. unfold cs_norm, cs_numerator. rewrite !cs_frob_mul. ring. Qed.

Lemma cs_norm_one : cs_norm o3 = o3.
Proof. unfold cs_norm, cs_numerator. rewrite !cs_frob_one. ring. Qed.

(* units have non-zero norm *)
Lemma cs_unit_norm : cs_fix_det <> zero ->
  forall a b, cs_mul a b = o3 -> c0 (cs_norm a) <> zero.
Proof.
  intros D a b H N0.
  assert (E : cs_mul (cs_norm a) (cs_norm b) = o3) by (rewrite <- cs_norm_mul, H; apply cs_norm_one).
  rewrite (cs_norm_in_base D a), N0 in E.
  replace (emb zero) with z3 in E by reflexivity.
  rewrite cs_mul_zero in E. inversion E as [[E0]]. apply (fl_one_neq_zero O L). symmetry. exact E0.
Qed.

(* the hand model of CubeExtension::inv on the reference multiplication *)
Definition cs_inv (a : F * F * F) : F * F * F :=
  let n := cs_numerator a in let d := finv O (c0 (cs_norm a)) in (c0 n *f d, c1 n *f d, c2 n *f d).

Theorem cs_inv_spec_partial : cs_fix_det <> zero ->
  forall a, c0 (cs_norm a) <> zero -> cs_mul a (cs_inv a) = o3.
Proof.
  intros D a N. unfold cs_inv.
  rewrite <- (cs_mul_base (cs_numerator a) (finv O (c0 (cs_norm a)))).
  rewrite cs_mul_assoc. fold (cs_norm a). rewrite (cs_norm_in_base D a) at 1.
  rewrite <- cs_embed_mul.
  rewrite (finv_r O L) by exact N. reflexivity.
Qed.

(* ---------- the cubic has no root in F, from "psi = phi^p" ----------
   If r in F is a root of f = x^3 - u x - v, evaluation at r is a ring homomorphism E -> F.  When psi = phi^p and
   r^p = r (Fermat), evaluating psi gives r, i.e. r is also a root of h(t) = k21 t^2 + (k11 - 1) t + k01.
   Pseudo-division  h2^2 f = (h2 t - h1) h + (e1 t + e0)  then forces e1 r = - e0, and
   e1^3 f(r) = (-e0)^3 - u (-e0) e1^2 - v e1^3 =: cs_res, a constant: cs_res <> 0 refutes the root. *)
Definition cs_h0 : F := k01.
Definition cs_h1 : F := k11 -f one.
Definition cs_h2 : F := k21.
Definition cs_e1 : F := cs_h1 *f cs_h1 -f cs_h0 *f cs_h2 -f u *f (cs_h2 *f cs_h2).
Definition cs_e0 : F := cs_h0 *f cs_h1 -f v *f (cs_h2 *f cs_h2).
Definition cs_res : F :=
  (-f cs_e0) *f (-f cs_e0) *f (-f cs_e0) -f u *f (-f cs_e0) *f (cs_e1 *f cs_e1) -f v *f (cs_e1 *f cs_e1 *f cs_e1).

Lemma cs_common_root_res : forall r,
  r *f r *f r -f u *f r -f v = zero -> k01 +f k11 *f r +f k21 *f (r *f r) = r -> cs_res = zero.
Proof.
  intros r Hf Hh.
  assert (Hh' : cs_h2 *f (r *f r) +f cs_h1 *f r +f cs_h0 = zero).
  { unfold cs_h0, cs_h1, cs_h2. transitivity ((k01 +f k11 *f r +f k21 *f (r *f r)) -f r); [ring|]. rewrite Hh. ring. }
  assert (E : cs_e1 *f r = -f cs_e0).
  { transitivity (cs_h2 *f cs_h2 *f (r *f r *f r -f u *f r -f v)
                  -f (cs_h2 *f r -f cs_h1) *f (cs_h2 *f (r *f r) +f cs_h1 *f r +f cs_h0) -f cs_e0).
    - unfold cs_e1, cs_e0. ring.
    - rewrite Hf, Hh'. ring. }
  unfold cs_res. rewrite <- E.
  transitivity (cs_e1 *f cs_e1 *f cs_e1 *f (r *f r *f r -f u *f r -f v)); [ring|]. rewrite Hf. ring.
Qed.

End Frob.

(* ---------- units: x^3 - u x - v has no root  =>  every non-zero element is a unit ---------- *)
Definition cs_poly (r : F) : F := r *f r *f r -f u *f r -f v.
Definition cs_no_root : Prop := forall r, cs_poly r <> zero.

(* homogeneous form: y^3 - u y z^2 - v z^3 <> 0 for z <> 0 *)
Lemma cs_no_root_hom : cs_no_root -> forall y z, z <> zero ->
  y *f y *f y -f u *f y *f (z *f z) -f v *f (z *f z *f z) <> zero.
Proof.
  intros NR y z Hz H. apply (NR (y *f finv O z)). unfold cs_poly.
  transitivity ((y *f y *f y -f u *f y *f (z *f z) -f v *f (z *f z *f z)) *f (finv O z *f finv O z *f finv O z)).
  - field. exact Hz.
  - rewrite H. ring.
Qed.

Definition cs_unit (a : F * F * F) : Prop := exists b, cs_mul a b = o3.

Lemma cs_unit_deg0 : forall k, k <> zero -> cs_unit (emb k).
Proof.
  intros k Hk. exists (emb (finv O k)).
  rewrite <- cs_embed_mul, (finv_r O L) by exact Hk. reflexivity.
Qed.

Lemma cs_unit_factor : forall a b d, cs_mul a b = d -> cs_unit d -> cs_unit a.
Proof.
  intros a b d H [e He]. exists (cs_mul b e). rewrite cs_mul_assoc, H. exact He.
Qed.

(* (a0 + a1 x)(a0^2 - u a1^2 - a0 a1 x + a1^2 x^2) = a0^3 - u a0 a1^2 + v a1^3  (= -a1^3 f(-a0/a1)) *)
Lemma cs_unit_deg1 : cs_no_root -> forall a0 a1, a1 <> zero -> cs_unit (a0, a1, zero).
Proof.
  intros NR a0 a1 H1.
  apply (cs_unit_factor _ (a0 *f a0 -f u *f (a1 *f a1), -f (a0 *f a1), a1 *f a1)
                          (emb (a0 *f a0 *f a0 -f u *f a0 *f (a1 *f a1) +f v *f (a1 *f a1 *f a1)))).
  - ccrush; c3.
  - apply cs_unit_deg0. intros H.
    apply (cs_no_root_hom NR (-f a0) a1 H1).
    transitivity (-f (a0 *f a0 *f a0 -f u *f a0 *f (a1 *f a1) +f v *f (a1 *f a1 *f a1))); [ring|].
    rewrite H. ring.
Qed.

(* (a2 x - a1)(a0 + a1 x + a2 x^2) = (v a2^2 - a0 a1) + (u a2^2 + a0 a2 - a1^2) x *)
Theorem cs_all_units : cs_no_root -> forall a, a <> z3 -> cs_unit a.
Proof.
  intros NR [[a0 a1] a2] Ha.
  destruct (feq_dec O L a2 zero) as [E2|E2].
  - subst a2. destruct (feq_dec O L a1 zero) as [E1|E1].
    + subst a1. apply (cs_unit_deg0 a0). intros ->. apply Ha. reflexivity.
    + apply cs_unit_deg1; assumption.
  - set (A := u *f (a2 *f a2) +f a0 *f a2 -f a1 *f a1).
    set (B := v *f (a2 *f a2) -f a0 *f a1).
    assert (P : cs_mul (a0, a1, a2) (-f a1, a2, zero) = (B, A, zero)).
    { unfold A, B. ccrush; c3. }
    apply (cs_unit_factor _ _ _ P).
    destruct (feq_dec O L A zero) as [EA|EA].
    + rewrite EA. destruct (feq_dec O L B zero) as [EB|EB].
      * exfalso. apply (cs_no_root_hom NR a1 a2 E2).
        transitivity (a2 *f (-f B) -f a1 *f A); [unfold A, B; ring|]. rewrite EA, EB. ring.
      * apply (cs_unit_deg0 B EB).
    + apply cs_unit_deg1; assumption.
Qed.

Theorem cs_no_zero_div : cs_no_root -> forall a b, cs_mul a b = z3 -> a = z3 \/ b = z3.
Proof.
  intros NR a b H. destruct (c_eq_dec a z3) as [E|E]; [left; exact E|right].
  destruct (cs_all_units NR a E) as [e He]. exact (r_unit_cancel cs_ring a e b He H).
Qed.

(* evaluation at a root of the cubic is multiplicative *)
Definition cs_ev (r : F) (a : F * F * F) : F := c0 a +f c1 a *f r +f c2 a *f (r *f r).

Lemma cs_ev_mul : forall r, cs_poly r = zero -> forall a b, cs_ev r (cs_mul a b) = cs_ev r a *f cs_ev r b.
Proof.
  intros r Hr a b. unfold cs_poly in Hr.
  transitivity (cs_ev r (cs_mul a b) +f
                ((c1 a *f c2 b +f c2 a *f c1 b) +f (c2 a *f c2 b) *f r) *f (r *f r *f r -f u *f r -f v)).
  - rewrite Hr. ring.
  - unfold cs_ev. ccrush. ring.
Qed.
Lemma cs_ev_one : forall r, cs_ev r o3 = one.
Proof. intros. unfold cs_ev. ccrush. ring. Qed.
Lemma cs_ev_phi : forall r, cs_ev r phi = r.
Proof. intros. unfold cs_ev, phi. ccrush. ring. Qed.

End Cubic.
End Theory.
