(* C15 — the root-of-unity family facts of Proofs/FriRoots.v, discharged for the two base fields of the crate with
   their actual constants (TWO_ADIC_ROOT_OF_UNITY, TWO_ADICITY, GENERATOR: Model/FriInst.v rou64 / rou128), over the
   sigma-type prime fields F64_ops / F128_ops that satisfy FLaws (Proofs/ZpLaws.v); and fri_complete for them. *)
From Coq Require Import List ZArith Lia.
From VBase Require Import FieldOps ZpOps.
From VModel Require Import Merkle Fri FriMerkle FriInst.
From VProofs Require Import NumTheoryFermat ZpLaws FriMerkleInst.
From VProofs Require F64Consts F128Ops.
Import ListNotations.
Local Open Scope nat_scope.

Definition rouF64 (k : nat) : Zp P64 := fofz F64_ops (rou64 k).
Definition rouF128 (k : nat) : Zp P128 := fofz F128_ops (rou128 k).
Definition genF64 : Zp P64 := fofz F64_ops 7%Z.
Definition genF128 : Zp P128 := fofz F128_ops 3%Z.

(* rou_zp k = root^(2^(adicity-k)) mod p: squaring doubles the exponent, and k = 1 is the square root -1 of 1 *)
Section Rou.
Variables (p : Z) (Hp : (1 < p)%Z) (root : Z) (adicity : nat).
Let ops := zpT_ops p Hp.
Let rou (k : nat) : Zp p := fofz ops (rou_zp p root adicity k).

Lemma rou_zp_sq k : k < adicity -> fmul ops (rou (S k)) (rou (S k)) = rou k.
Proof.
  intros Hk. apply zp_val_inj. cbn [zp_val fmul fofz rou ops zpT_ops zp_mk proj1_sig]. unfold rou_zp.
  replace (adicity - k) with (S (adicity - S k)) by lia.
  rewrite Nat2Z.inj_succ, Z.pow_succ_r, !zpow_mod_spec by lia.
  rewrite !Z.mod_mod, <- Z.mul_mod, <- Z.pow_add_r by lia.
  f_equal. f_equal. lia.
Qed.

Lemma rou_zp_1 : 0 < adicity -> (root ^ 2 ^ (Z.of_nat adicity - 1) mod p = p - 1)%Z ->
  rou 1 = fneg ops (fone ops).
Proof.
  intros Ha H. apply zp_val_inj. cbn [zp_val fneg fone fofz rou ops zpT_ops zp_mk proj1_sig]. unfold rou_zp.
  rewrite Nat2Z.inj_sub by lia. change (Z.of_nat 1) with 1%Z. rewrite zpow_mod_spec, H by lia.
  rewrite (Z.mod_small 1), Z.mod_small by lia.
  apply Z.mod_unique with (-1)%Z; lia.
Qed.
End Rou.

Lemma rouF64_sq : forall k, k < 32 -> fmul F64_ops (rouF64 (S k)) (rouF64 (S k)) = rouF64 k.
Proof. exact (rou_zp_sq P64 _ _ 32). Qed.
Lemma rouF64_1 : rouF64 1 = fneg F64_ops (fone F64_ops).
Proof.
  apply rou_zp_1; [lia|]. rewrite <- zpow_mod_spec by (unfold P64; lia). exact (proj2 F64Consts.f64_root_order).
Qed.
Lemma twoF64 : fadd F64_ops (fone F64_ops) (fone F64_ops) <> fzero F64_ops.
Proof. intros H. apply (f_equal zp_val) in H. vm_compute in H. discriminate. Qed.
Lemma genF64_nz : genF64 <> fzero F64_ops.
Proof. intros H. apply (f_equal zp_val) in H. vm_compute in H. discriminate. Qed.

Lemma rouF128_sq : forall k, k < 40 -> fmul F128_ops (rouF128 (S k)) (rouF128 (S k)) = rouF128 k.
Proof. exact (rou_zp_sq P128 _ _ 40). Qed.
Lemma rouF128_1 : rouF128 1 = fneg F128_ops (fone F128_ops).
Proof. apply rou_zp_1; [lia|]. exact (proj2 F128Ops.f128_root_pow). Qed.
Lemma twoF128 : fadd F128_ops (fone F128_ops) (fone F128_ops) <> fzero F128_ops.
Proof. intros H. apply (f_equal zp_val) in H. vm_compute in H. discriminate. Qed.
Lemma genF128_nz : genF128 <> fzero F128_ops.
Proof. intros H. apply (f_equal zp_val) in H. vm_compute in H. discriminate. Qed.

Section Fields.
Variable dbg : bool.
Variable D : Type.
Variable D_eqb : D -> D -> bool.
Hypothesis D_eqb_spec : forall a b, D_eqb a b = true <-> a = b.
Variable d0 : D.
Variable merge : D -> D -> D.
Variable CS : Type.
Variable cs_reseed : CS -> D -> CS.

Definition fri_complete_f64 (hash_elements : list (Zp P64) -> D) (cs_draw : CS -> CS * draw_res (Zp P64))
  (draw_total : forall c, exists c' a, cs_draw c = (c', DrawOk a)) :=
  fri_complete_merkle D D_eqb D_eqb_spec d0 merge F64_ops F64_laws rouF64 32 ltac:(lia) rouF64_sq rouF64_1 twoF64
    genF64 genF64_nz dbg hash_elements CS cs_reseed cs_draw draw_total.

Definition fri_complete_f128 (hash_elements : list (Zp P128) -> D) (cs_draw : CS -> CS * draw_res (Zp P128))
  (draw_total : forall c, exists c' a, cs_draw c = (c', DrawOk a)) :=
  fri_complete_merkle D D_eqb D_eqb_spec d0 merge F128_ops F128_laws rouF128 40 ltac:(lia) rouF128_sq rouF128_1 twoF128
    genF128 genF128_nz dbg hash_elements CS cs_reseed cs_draw draw_total.
End Fields.
