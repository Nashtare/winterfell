(* C02 — the verifier's decision: what acceptance implies; the counting lemmas behind the out-of-domain
   check and the random linear combination; the statement is bound into the coin seed.
   Generic over every [FOps F] with [FLaws]. *)
From Coq Require Import List Arith Bool Lia Ring Field ZArith.
From VBase Require Import FieldOps.
From VModel Require Import Soundness.
From VProofs Require Import SoundnessPoly SoundnessEnforce.
From VProofs Require ListFacts.
Import ListNotations.

Section Verifier.
Context {F : Type} (O : FOps F) (L : FLaws O).
Local Notation zero := (fzero O).
Local Notation one := (fone O).
Local Infix "+f" := (fadd O) (at level 50, left associativity).
Local Infix "-f" := (fsub O) (at level 50, left associativity).
Local Infix "*f" := (fmul O) (at level 40, left associativity).
Add Field Ff3 : (FLaws_field_theory O L).

Local Notation fpow := (fpow O).
Local Notation peval := (peval O).
Local Notation coeff := (coeff O).
Local Notation padd := (padd O).
Local Notation pscale := (pscale O).
Local Notation pmul := (pmul O).
Local Notation peqv := (peqv O).
Local Notation pdivides := (pdivides O).
Local Notation pnonzero := (pnonzero O).

Variable eval_trans : list F -> list F -> list F -> list F.
Variable eval_aux_trans : list F -> list F -> list F -> list F -> list F -> list F -> list F.

(* ------------------------------------------------------------------ acceptance *)
Definition ood_equation (A : AirDesc) (C : Coins) (P : ProofObj) : Prop :=
  evaluate_constraints O eval_trans eval_aux_trans A C P = ood_reduce O (air_n A) (c_z C) 0 (p_ood_evals P).

(* every failed check is named: the verdict is Accept exactly when all checks pass *)
Theorem verify_accept_iff E A C P :
  verify_model O eval_trans eval_aux_trans E A C P = Accept <->
  (Z.eqb (e_modulus E) (p_modulus P) && existsb (zlist_eqb (p_options P)) (e_acceptable E) &&
   match air_lagrange A with Some _ => e_gkr_ok E | None => true end &&
   ood_equation_b O eval_trans eval_aux_trans A C P && e_fri_commit_ok E && e_pow_ok E && e_trace_auth E && e_cons_auth E &&
   e_fri E (deep_evaluations O A C P) = true).
Proof.
  unfold verify_model.
  destruct (Z.eqb _ _); cbn [negb andb]; [|split; discriminate].
  destruct (existsb _ _); cbn [negb andb]; [|split; discriminate].
  destruct (air_lagrange A); [destruct (e_gkr_ok E)|]; cbn [negb andb]; try (split; discriminate).
  all: destruct (ood_equation_b _ _ _ _ _ _); cbn [negb andb]; [|split; discriminate].
  all: destruct (e_fri_commit_ok E); cbn [negb andb]; [|split; discriminate].
  all: destruct (e_pow_ok E); cbn [negb andb]; [|split; discriminate].
  all: destruct (e_trace_auth E); cbn [negb andb]; [|split; discriminate].
  all: destruct (e_cons_auth E); cbn [negb andb]; [|split; discriminate].
  all: destruct (e_fri E _); cbn [negb andb]; split; auto; discriminate.
Qed.

Theorem verify_accept_implies E A C P :
  verify_model O eval_trans eval_aux_trans E A C P = Accept ->
  e_modulus E = p_modulus P /\
  (exists o, In o (e_acceptable E) /\ zlist_eqb (p_options P) o = true) /\
  (air_lagrange A <> None -> e_gkr_ok E = true) /\
  ood_equation A C P /\
  e_fri_commit_ok E = true /\ e_pow_ok E = true /\
  e_trace_auth E = true /\ e_cons_auth E = true /\
  e_fri E (deep_evaluations O A C P) = true.
Proof.
  intros H. apply verify_accept_iff in H. rewrite !andb_true_iff in H.
  destruct H as [[[[[[[[H1 H2] H3] H4] H5] H6] H7] H8] H9]. repeat split; try assumption.
  - now apply Z.eqb_eq.
  - apply existsb_exists in H2. destruct H2 as [o [Ho1 Ho2]]. now exists o.
  - destruct (air_lagrange A); [intros _; exact H3 | congruence].
  - now apply (fl_eqb_spec O L).
Qed.

(* the value attached to a query position is the DEEP quotient of the opened row against the OOD frame.
   col_terms with a shifted identity index map is the dot product with the coefficients from that offset on
   (an index beyond the coefficient list reads zero, a dot product stops at the shorter list: the same value) *)
Definition diffs (row ood : list F) : list F := map (fun vo => fst vo -f snd vo) (combine row ood).

Lemma dot_nil_r cs : dot O cs [] = zero.
Proof. now destruct cs. Qed.

Lemma dot_skipn_cons cc m d ds :
  dot O (skipn m cc) (d :: ds) = nth m cc zero *f d +f dot O (skipn (S m) cc) ds.
Proof.
  revert m; induction cc as [|c cc IH]; intros m.
  - rewrite !skipn_nil. destruct m; cbn [dot nth]; ring.
  - destruct m as [|m]; [reflexivity | apply IH].
Qed.

Lemma col_terms_dot cc k i row ood :
  col_terms O cc (fun j => k + j) i row ood = dot O (skipn (k + i) cc) (diffs row ood).
Proof.
  revert i ood; induction row as [|v row IH]; intros i [|o ood]; unfold diffs; cbn [col_terms combine map];
    try (now rewrite dot_nil_r).
  rewrite IH. fold (diffs row ood). rewrite dot_skipn_cons, Nat.add_succ_r. cbn [fst snd]. ring.
Qed.

Lemma col_terms_main_dot cc row ood :
  col_terms O cc (fun i => i) 0 row ood = dot O cc (diffs row ood).
Proof. exact (col_terms_dot cc 0 0 row ood). Qed.

(* numerator of the auxiliary columns of one frame row *)
Definition aux_dot (C : Coins) (w : nat) (ar ood : list F) : F := dot O (skipn w (cc_deep_trace C)) (diffs ar ood).

Lemma deep_trace_at_spec C P zg row arow x :
  x -f c_z C <> zero -> x -f zg <> zero ->
  deep_trace_at O C P zg row arow x =
  match p_aux P, arow with
  | Some ax, Some ar =>
      fdiv O (dot O (cc_deep_trace C) (diffs row (p_ood_cur P)) +f aux_dot C (length row) ar (ax_cur ax)) (x -f c_z C) +f
      fdiv O (dot O (cc_deep_trace C) (diffs row (p_ood_next P)) +f aux_dot C (length row) ar (ax_next ax)) (x -f zg)
  | _, _ =>
      fdiv O (dot O (cc_deep_trace C) (diffs row (p_ood_cur P))) (x -f c_z C) +f
      fdiv O (dot O (cc_deep_trace C) (diffs row (p_ood_next P))) (x -f zg)
  end.
Proof.
  intros H1 H2. unfold deep_trace_at, deep_trace_at_gen, aux_dot. rewrite !col_terms_main_dot.
  destruct (p_aux P) as [ax|]; [destruct arow as [ar|]|].
  - unfold deep_coeff_index_aux.
    rewrite !(col_terms_dot (cc_deep_trace C) (length row) 0), Nat.add_0_r. field. split; assumption.
  - field. split; assumption.
  - field. split; assumption.
Qed.

Lemma deep_evaluations_length A C P :
  length (p_q_trace P) = length (c_xs C) -> length (p_q_cons P) = length (c_xs C) ->
  length (deep_evaluations O A C P) = length (c_xs C).
Proof. intros H1 H2. unfold deep_evaluations. rewrite map_length, !combine_length, seq_length. lia. Qed.

Lemma deep_evaluations_nth A C P q rt rc x :
  nth_error (p_q_trace P) q = Some rt -> nth_error (p_q_cons P) q = Some rc -> nth_error (c_xs C) q = Some x ->
  nth_error (deep_evaluations O A C P) q =
  Some (deep_trace_at O C P (c_z C *f air_g A) rt (cut_aux_row A (aux_row_at P q)) x +f
        deep_lagrange_at O A C P (c_z C *f air_g A) (aux_row_at P q) x +f deep_cons_at O C P rc x).
Proof.
  unfold deep_evaluations. intros H1 H2 H3.
  rewrite nth_error_map.
  assert (Hq : q < length (p_q_trace P)) by (apply nth_error_Some; rewrite H1; discriminate).
  assert (Hs : nth_error (seq 0 (length (p_q_trace P))) q = Some q).
  { rewrite (nth_error_nth' _ 0) by (now rewrite seq_length). now rewrite seq_nth. }
  rewrite (ListFacts.nth_error_combine _ _ q q (rt, rc, x) Hs
             (ListFacts.nth_error_combine _ _ q (rt, rc) x (ListFacts.nth_error_combine _ _ q rt rc H1 H2) H3)).
  reflexivity.
Qed.

(* ------------------------------------------------------------------ the out-of-domain check
   sum_i z^(i*n) * H_i(z) is the evaluation of the composition polynomial H = sum_i X^(i*n) * H_i *)
Definition pshift (m : nat) (p : list F) : list F := repeat zero m ++ p.
Fixpoint combine_cols (n i : nat) (hs : list (list F)) : list F :=
  match hs with [] => [] | h :: r => padd (pshift (i * n) h) (combine_cols n (S i) r) end.

Lemma peval_pshift m p x : peval (pshift m p) x = fpow x m *f peval p x.
Proof.
  unfold pshift. induction m as [|m IH]; cbn [repeat app Soundness.peval Soundness.fpow].
  - ring.
  - rewrite IH. ring.
Qed.

Theorem ood_reduce_is_evaluation n z hs i :
  ood_reduce O n z i (map (fun h => peval h z) hs) = peval (combine_cols n i hs) z.
Proof.
  revert i; induction hs as [|h r IH]; intros i; cbn [map ood_reduce combine_cols].
  - reflexivity.
  - rewrite (peval_padd O L), peval_pshift, IH. reflexivity.
Qed.

(* Counting: let H be the committed composition polynomial, Nn the combined numerator and Dd the divisor, all
   as polynomials.  If H * Dd - Nn is not the zero polynomial (the quotient relation is not an identity), at most
   deg-many points z (outside the zeros of Dd) satisfy the out-of-domain equation H(z) = Nn(z) / Dd(z). *)
Definition relation_poly (H Nn Dd : list F) : list F := padd (pmul H Dd) (pscale (fneg O one) Nn).

Theorem ood_counting_partial (H Nn Dd : list F) (D : nat) (zs : list F) :
  pnonzero (relation_poly H Nn Dd) -> length (relation_poly H Nn Dd) <= S D ->
  NoDup zs ->
  (forall z, In z zs -> peval Dd z <> zero /\ peval H z = fdiv O (peval Nn z) (peval Dd z)) ->
  length zs <= D.
Proof.
  intros Hnz Hlen Hnd Hz. apply (roots_bound O L (relation_poly H Nn Dd) D zs Hnz Hlen Hnd).
  intros z Hin. destruct (Hz z Hin) as [Hd He].
  unfold relation_poly. rewrite (peval_padd O L), (peval_pmul O L), (peval_pscale O L), He. field. exact Hd.
Qed.

(* if the relation IS an identity the equation holds at every point outside the zeros of Dd (completeness side) *)
Theorem ood_identity_everywhere (H Nn Dd : list F) z :
  (forall i, coeff (relation_poly H Nn Dd) i = zero) -> peval Dd z <> zero ->
  peval H z = fdiv O (peval Nn z) (peval Dd z).
Proof.
  intros Hz Hd.
  assert (E : peval (relation_poly H Nn Dd) z = zero).
  { rewrite (peqv_peval O L (relation_poly H Nn Dd) []); [reflexivity|].
    intros i. rewrite Hz. unfold Soundness.coeff. now destruct i. }
  unfold relation_poly in E. rewrite (peval_padd O L), (peval_pmul O L), (peval_pscale O L) in E.
  assert (E2 : peval H z *f peval Dd z = peval Nn z).
  { apply (fsub_eq_zero O L). rewrite <- E. ring. }
  rewrite <- E2. field. exact Hd.
Qed.

(* ------------------------------------------------------------------ acceptance, read on polynomials.
   If the out-of-domain frame sent by the prover consists of evaluations of polynomials for which the transition
   constraints evaluate to N_j(z) (what an honest frame of composed numerators N_j gives) and the H_i(z) are
   evaluations of the committed columns H_i, then the accepted out-of-domain equation is the polynomial relation
   H(z) = (sum_j alpha_j N_j)(z) / D(z) + boundary terms, with D the vanishing polynomial of the enforced steps. *)
Lemma dot_peval_lincomb cc (Ns : list (list F)) z :
  dot O cc (map (fun p => peval p z) Ns) = peval (lincomb O cc Ns) z.
Proof.
  revert Ns; induction cc as [|c cc IH]; intros [|p Ns]; cbn [dot map lincomb Soundness.peval]; try reflexivity.
  rewrite (peval_padd O L), (peval_pscale O L), IH. reflexivity.
Qed.

Theorem accept_gives_polynomial_relation E A C P (Ns Hs : list (list F)) :
  verify_model O eval_trans eval_aux_trans E A C P = Accept ->
  0 < air_n A -> NoDup (domain O (air_g A) (air_n A)) -> fpow (air_g A) (air_n A) = one ->
  ~ In (c_z C) (trans_exempt O (air_g A) (air_n A) (air_k A)) ->
  eval_trans (p_ood_cur P) (p_ood_next P) (periodic_at O A (c_z C)) = map (fun p => peval p (c_z C)) Ns ->
  p_ood_evals P = map (fun h => peval h (c_z C)) Hs ->
  peval (combine_cols (air_n A) 0 Hs) (c_z C) =
  fdiv O (peval (lincomb O (firstn (air_nt_main A) (cc_trans C)) Ns) (c_z C) +f
          match p_aux P with
          | None => zero
          | Some ax => dot O (skipn (air_nt_main A) (cc_trans C))
                         (eval_aux_trans (p_ood_cur P) (p_ood_next P) (ax_cur ax) (ax_next ax)
                                         (periodic_at O A (c_z C)) (c_aux_rands C))
          end)
         (peval (trans_divisor_poly O (air_g A) (air_n A) (air_k A)) (c_z C))
  +f eval_boundary_part O A C P +f eval_lagrange_part O A C P.
Proof.
  intros Hacc Hn Hnd Hg Hz Hfr Hev.
  destruct (verify_accept_implies E A C P Hacc) as [_ [_ [_ [Hood _]]]].
  unfold ood_equation, evaluate_constraints, evaluate_constraints_gen, eval_transition_part in Hood.
  fold (eval_lagrange_part O A C P) in Hood.
  rewrite Hev, ood_reduce_is_evaluation in Hood. rewrite <- Hood.
  rewrite Hfr, dot_peval_lincomb.
  rewrite (SoundnessEnforce.trans_divisor_eval_spec O L (air_g A) (air_n A) Hnd (air_k A) (c_z C) Hn Hg Hz).
  destruct (p_aux P) as [ax|]; [reflexivity|].
  f_equal. f_equal. f_equal. ring.
Qed.

(* ------------------------------------------------------------------ the random linear combination (ALI)
   On every line in the direction of a non-divisible polynomial p1 at most ONE coefficient makes the
   combination divisible.  (Fibering F^k over the other k-1 coordinates gives |good| <= |F|^(k-1).) *)
Theorem ali_fiber_unique (d p0 p1 : list F) (a b : F) :
  ~ pdivides d p1 ->
  pdivides d (padd p0 (pscale a p1)) -> pdivides d (padd p0 (pscale b p1)) -> a = b.
Proof.
  intros Hn Ha Hb. destruct (feq_dec O L a b) as [E|E]; [exact E|]. exfalso. apply Hn.
  assert (Hab : a -f b <> zero) by (intros H; apply E; now apply (fsub_eq_zero O L)).
  pose proof (pdivides_padd O L d _ _ Ha (pdivides_pscale O L d (fneg O one) _ Hb)) as Hd.
  apply (pdivides_pscale O L d (finv O (a -f b))) in Hd.
  eapply (pdivides_peqv O); [|exact Hd].
  intros i. rewrite (coeff_pscale O L), (coeff_padd O L), (coeff_pscale O L), !(coeff_padd O L), !(coeff_pscale O L).
  field. exact Hab.
Qed.

Corollary ali_counting_line (d p0 p1 : list F) (good : list F) :
  ~ pdivides d p1 -> NoDup good ->
  (forall a, In a good -> pdivides d (padd p0 (pscale a p1))) -> length good <= 1.
Proof.
  intros Hn Hnd Hg. destruct good as [|a [|b r]]; cbn [length]; try lia.
  exfalso. inversion Hnd as [|? ? Hnotin _]; subst. apply Hnotin. left.
  symmetry. apply (ali_fiber_unique d p0 p1 a b Hn); apply Hg; cbn; auto.
Qed.

End Verifier.

(* ------------------------------------------------------------------ the statement is bound into the seed *)
Section Seed.
Context {F : Type} (O : FOps F).
Open Scope Z_scope.

(* E::from(u32) is injective on u32 values (true for fields with more than 2^32 elements) *)
Hypothesis Hinj : forall a b, 0 <= a < 2^32 -> 0 <= b < 2^32 -> fofz O a = fofz O b -> a = b.

Definition u8 (x : Z) : Prop := 0 <= x < 256.
Definition shape_ok (s : Shape) : Prop :=
  u8 (sh_width s) /\ 0 <= sh_len s < 2^32 /\
  match sh_aux s with None => True | Some (aw, ar) => u8 aw /\ u8 ar end.
Definition opts_ok (o : Opts) : Prop :=
  u8 (o_queries o) /\ u8 (o_blowup o) /\ 0 <= o_grinding o < 2^32 /\ u8 (o_ext o) /\ u8 (o_fold o) /\ u8 (o_rem o).

Lemma tinfo_buf_range s : shape_ok s -> 0 <= tinfo_buf s < 2^32.
Proof.
  unfold shape_ok, tinfo_buf, u8. destruct s as [w [[aw ar]|] l]; cbn; intros; lia.
Qed.

Lemma tinfo_buf_inj s s' : shape_ok s -> shape_ok s' -> sh_len s = sh_len s' -> tinfo_buf s = tinfo_buf s' -> s = s'.
Proof.
  unfold shape_ok, tinfo_buf, u8. destruct s as [w [[aw ar]|] l], s' as [w' [[aw' ar']|] l']; cbn; intros H H' El E.
  - assert (w = w' /\ aw = aw' /\ ar = ar') as [-> [-> ->]] by lia. now subst.
  - exfalso. lia.
  - exfalso. lia.
  - assert (w = w') as -> by lia. now subst.
Qed.

Lemma opt_buf_range o : opts_ok o -> 0 <= opt_buf o < 2^32.
Proof. unfold opts_ok, opt_buf, u8. intros. lia. Qed.

Theorem seed_binds_statement s m1 m2 o pub s' m1' m2' o' pub' :
  shape_ok s -> shape_ok s' -> opts_ok o -> opts_ok o' ->
  seed_of O s m1 m2 o pub = seed_of O s' m1' m2' o' pub' ->
  s = s' /\ m1 = m1' /\ m2 = m2' /\ o = o' /\ pub = pub'.
Proof.
  intros Hs Hs' Ho Ho' E. unfold seed_of in E. cbn [app] in E.
  injection E as E1 E2 E3 E4 E5 E6 E7 E8 E9.
  pose proof (tinfo_buf_range s Hs). pose proof (tinfo_buf_range s' Hs').
  pose proof (opt_buf_range o Ho). pose proof (opt_buf_range o' Ho').
  apply Hinj in E1; [|assumption|assumption].
  assert (El : sh_len s = sh_len s') by (apply Hinj; [apply Hs|apply Hs'|exact E2]).
  apply Hinj in E5; [|assumption|assumption].
  unfold opts_ok, u8 in Ho, Ho'.
  apply Hinj in E6; [|lia|lia]. apply Hinj in E7; [|lia|lia]. apply Hinj in E8; [|lia|lia].
  repeat split; auto.
  - now apply tinfo_buf_inj.
  - destruct o as [q b gr e f r], o' as [q' b' gr' e' f' r']. cbn in *. unfold opt_buf in E5. cbn in E5.
    assert (e = e' /\ f = f' /\ r = r') as [-> [-> ->]] by lia. now subst.
Qed.

(* the family's public inputs: assertion value lists with a length prefix *)
Theorem flat_avals_inj (a b : list (list F)) :
  Forall (fun l => Z.of_nat (length l) < 2^32) a -> Forall (fun l => Z.of_nat (length l) < 2^32) b ->
  length a = length b -> flat_avals O a = flat_avals O b -> a = b.
Proof.
  revert b; induction a as [|x a IH]; intros [|y b] Ha Hb Hl E; cbn in *; try discriminate; [reflexivity|].
  inversion Ha; inversion Hb; subst. injection E as E1 E2.
  apply Hinj in E1; [|lia|lia]. apply Nat2Z.inj in E1.
  assert (Hxy : x = y /\ flat_avals O a = flat_avals O b).
  { clear -E1 E2. revert y E1 E2. induction x as [|u x IHx]; intros [|v y] E1 E2; cbn in *; try discriminate; [now split|].
    injection E2 as -> E2. destruct (IHx y ltac:(lia) E2) as [-> R]. now split. }
  destruct Hxy as [-> R]. f_equal. apply IH; auto.
Qed.
End Seed.
