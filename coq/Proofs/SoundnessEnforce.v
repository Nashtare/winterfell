(* C02 — enforcement layer: trace validity (reference predicate) vs divisibility of the constraint
   numerators by their divisors; corruption of cells that only take part in exempt transitions;
   the divisor evaluation code of the verifier equals the vanishing polynomial of the enforced steps.
   Generic over every [FOps F] with [FLaws]. *)
From Coq Require Import List Arith Bool Lia Ring Field.
From VBase Require Import FieldOps.
From VModel Require Import Soundness.
From VProofs Require Import SoundnessPoly.
From VProofs Require ListFacts.
Import ListNotations.

Section Lists.
  Context {A : Type}.
  Lemma upd_nth_length (l : list A) i v : length (upd_nth l i v) = length l.
  Proof. revert i; induction l; destruct i; simpl; auto. Qed.
  Lemma nth_upd_nth_other (l : list A) i j v d : i <> j -> nth j (upd_nth l i v) d = nth j l d.
  Proof. revert i j; induction l; destruct i, j; simpl; intros; auto; try lia. Qed.
  Lemma nth_upd_nth_same (l : list A) i v d : i < length l -> nth i (upd_nth l i v) d = v.
  Proof. revert i; induction l; destruct i; simpl; intros; auto; try lia. apply IHl; lia. Qed.
End Lists.

Section Enforce.
Context {F : Type} (O : FOps F) (L : FLaws O).
Local Notation zero := (fzero O).
Local Notation one := (fone O).
Local Infix "+f" := (fadd O) (at level 50, left associativity).
Local Infix "-f" := (fsub O) (at level 50, left associativity).
Local Infix "*f" := (fmul O) (at level 40, left associativity).
Add Field Ff2 : (FLaws_field_theory O L).

Local Notation fpow := (fpow O).
Local Notation peval := (peval O).
Local Notation zpoly := (zpoly O).
Local Notation domain := (domain O).
Local Notation peqv := (peqv O).
Local Notation pdivides := (pdivides O).

(* ------------------------------------------------------------------ validity as a proposition *)
Variable trans : nat -> list F -> list F -> list F.

Definition valid (t : list (list F)) (n k : nat) (asserts : list (@Assertion F)) : Prop :=
  (forall i, i < n - k -> forall e, In e (trans i (row_at t i) (row_at t (S i))) -> e = zero) /\
  (forall a, In a asserts -> forall sv, In sv (asserted_cells O n a) -> cell O t (as_col a) (fst sv) = snd sv).

Lemma feqb_iff a b : feqb O a b = true <-> a = b.
Proof. apply (fl_eqb_spec O L). Qed.

Theorem valid_b_spec t n k asserts : valid_b O trans t n k asserts = true <-> valid t n k asserts.
Proof.
  unfold valid_b, valid, trans_ok_b, assertion_ok_b. rewrite andb_true_iff, !forallb_forall. split.
  - intros [H1 H2]. split.
    + intros i Hi e He. specialize (H1 i). rewrite in_seq in H1. specialize (H1 ltac:(lia)).
      rewrite forallb_forall in H1. apply feqb_iff, H1, He.
    + intros a Ha sv Hsv. specialize (H2 a Ha). rewrite forallb_forall in H2. apply feqb_iff, H2, Hsv.
  - intros [H1 H2]. split.
    + intros i Hi. rewrite in_seq in Hi. rewrite forallb_forall. intros e He. apply feqb_iff. apply (H1 i); [lia|exact He].
    + intros a Ha. rewrite forallb_forall. intros sv Hsv. apply feqb_iff. now apply H2.
Qed.

(* ------------------------------------------------------------------ the trace domain *)
Variable g : F.
Variable n : nat.
Hypothesis Hdom : NoDup (domain g n).       (* g generates a group of order at least n *)

Lemma domain_nth i : i < n -> nth i (domain g n) zero = fpow g i.
Proof. exact (ListFacts.nth_map_seq (fpow g) n i zero). Qed.

Lemma domain_inj i j : i < n -> j < n -> fpow g i = fpow g j -> i = j.
Proof.
  intros Hi Hj E. rewrite <- (domain_nth i Hi), <- (domain_nth j Hj) in E.
  apply (proj1 (NoDup_nth (domain g n) zero) Hdom); rewrite ?domain_length; auto.
Qed.

Lemma in_trans_roots k i : i < n - k -> In (fpow g i) (trans_roots O g n k).
Proof.
  intros Hi. unfold trans_roots, Soundness.domain. rewrite firstn_map, ListFacts.firstn_seq by lia.
  apply in_map, in_seq. lia.
Qed.

Lemma trans_roots_spec k x : In x (trans_roots O g n k) <-> exists i, i < n - k /\ x = fpow g i.
Proof.
  unfold trans_roots, Soundness.domain. rewrite firstn_map, ListFacts.firstn_seq by lia. rewrite in_map_iff. split.
  - intros [i [E Hi]]. apply in_seq in Hi. exists i. split; [lia|now symmetry].
  - intros [i [Hi E]]. exists i. split; [now symmetry|apply in_seq; lia].
Qed.

Lemma trans_roots_NoDup k : NoDup (trans_roots O g n k).
Proof.
  unfold trans_roots. rewrite <- (firstn_skipn (n - k) (domain g n)) in Hdom.
  apply ListFacts.NoDup_app_l in Hdom. exact Hdom.
Qed.

(* ------------------------------------------------------------------ transition constraints:
   [N j] is the numerator polynomial of constraint j: it takes on the enforced part of the trace domain
   the values of the constraint on the frames of the trace *)
Section Transition.
  Variable t : list (list F).
  Variable k : nat.
  Variable m : nat.                                    (* number of transition constraints *)
  Variable N : nat -> list F.
  Hypothesis Hm : forall i cur next, length (trans i cur next) = m.
  Hypothesis HN : forall j i, j < m -> i < n - k ->
    peval (N j) (fpow g i) = nth j (trans i (row_at t i) (row_at t (S i))) zero.

  Lemma divisible_transition_holds j i : j < m -> i < n - k ->
    pdivides (trans_divisor_poly O g n k) (N j) -> nth j (trans i (row_at t i) (row_at t (S i))) zero = zero.
  Proof.
    intros Hj Hi Hd. rewrite <- (HN j i Hj Hi).
    apply (divides_vanishes O L _ _ Hd). apply (zpoly_root O L). now apply in_trans_roots.
  Qed.

  Theorem invalid_transition_not_divisible j i :
    j < m -> i < n - k -> nth j (trans i (row_at t i) (row_at t (S i))) zero <> zero ->
    ~ pdivides (trans_divisor_poly O g n k) (N j).
  Proof. intros Hj Hi Hv Hd. exact (Hv (divisible_transition_holds j i Hj Hi Hd)). Qed.

  Theorem transitions_hold_iff_divisible :
    (forall i, i < n - k -> forall e, In e (trans i (row_at t i) (row_at t (S i))) -> e = zero) <->
    (forall j, j < m -> pdivides (trans_divisor_poly O g n k) (N j)).
  Proof.
    split.
    - intros H j Hj. apply (zpoly_divides O L); [apply trans_roots_NoDup|].
      intros r Hr. apply trans_roots_spec in Hr. destruct Hr as [i [Hi ->]].
      rewrite (HN j i Hj Hi). apply (H i Hi). apply nth_In. now rewrite Hm.
    - intros H i Hi e He. apply (In_nth _ _ zero) in He. destruct He as [j [Hj <-]]. rewrite Hm in Hj.
      exact (divisible_transition_holds j i Hj Hi (H j Hj)).
  Qed.
End Transition.

(* ------------------------------------------------------------------ boundary constraints:
   [B] is the numerator polynomial T_col - V of an assertion: on every asserted step it takes the value
   (cell - asserted value) *)
Definition asserted_roots (a : @Assertion F) : list F := map (fun sv => fpow g (fst sv)) (asserted_cells O n a).

Lemma asserted_roots_bnd a :
  asserted_roots a =
  match as_kind a with
  | ASingle => bnd_roots O g (as_first a) (as_stride a) 1
  | _ => bnd_roots O g (as_first a) (as_stride a) (n / as_stride a)
  end.
Proof.
  unfold asserted_roots, asserted_cells, bnd_roots. destruct (as_kind a); cbn [map seq fst].
  - now rewrite Nat.mul_0_l, Nat.add_0_r.
  - rewrite map_map. reflexivity.
  - rewrite map_map. reflexivity.
Qed.

Section Boundary.
  Variable t : list (list F).
  Variable a : @Assertion F.
  Variable B : list F.
  Hypothesis HB : forall sv, In sv (asserted_cells O n a) ->
    peval B (fpow g (fst sv)) = cell O t (as_col a) (fst sv) -f snd sv.

  Lemma fsub_zero_iff x y : x -f y = zero <-> x = y.
  Proof. split; [apply (fsub_eq_zero O L)|intros ->; ring]. Qed.

  Lemma divisible_assertion_holds sv : In sv (asserted_cells O n a) ->
    pdivides (zpoly (asserted_roots a)) B -> cell O t (as_col a) (fst sv) = snd sv.
  Proof.
    intros Hin Hd. apply fsub_zero_iff. rewrite <- (HB sv Hin).
    apply (divides_vanishes O L _ _ Hd). apply (zpoly_root O L). unfold asserted_roots.
    apply (in_map (fun sv => fpow g (fst sv))) in Hin. exact Hin.
  Qed.

  Theorem invalid_assertion_not_divisible sv :
    In sv (asserted_cells O n a) -> cell O t (as_col a) (fst sv) <> snd sv ->
    ~ pdivides (zpoly (asserted_roots a)) B.
  Proof. intros Hin Hv Hd. exact (Hv (divisible_assertion_holds sv Hin Hd)). Qed.

  Hypothesis Hsteps : NoDup (map fst (asserted_cells O n a)) /\ forall sv, In sv (asserted_cells O n a) -> fst sv < n.

  Lemma asserted_roots_NoDup : NoDup (asserted_roots a).
  Proof.
    destruct Hsteps as [Hnd Hlt]. unfold asserted_roots. rewrite <- (map_map fst (fpow g)).
    apply ListFacts.NoDup_map_inj_in; [|exact Hnd]. intros i j Hi Hj.
    apply in_map_iff in Hi, Hj. destruct Hi as (sv & <- & Hi), Hj as (sv' & <- & Hj). apply domain_inj; now apply Hlt.
  Qed.

  Theorem assertion_holds_iff_divisible :
    (forall sv, In sv (asserted_cells O n a) -> cell O t (as_col a) (fst sv) = snd sv) <->
    pdivides (zpoly (asserted_roots a)) B.
  Proof.
    split.
    - intros H. apply (zpoly_divides O L); [apply asserted_roots_NoDup|].
      intros r Hr. unfold asserted_roots in Hr. apply in_map_iff in Hr. destruct Hr as [sv [<- Hin]].
      rewrite (HB sv Hin). apply fsub_zero_iff. now apply H.
    - intros Hd sv Hin. exact (divisible_assertion_holds sv Hin Hd).
  Qed.
End Boundary.

(* ------------------------------------------------------------------ the whole statement *)
Section Whole.
  Variable t : list (list F).
  Variable k m : nat.
  Variable asserts : list (@Assertion F).
  Variable N : nat -> list F.
  Variable B : @Assertion F -> list F.
  Hypothesis Hm : forall i cur next, length (trans i cur next) = m.
  Hypothesis HN : forall j i, j < m -> i < n - k ->
    peval (N j) (fpow g i) = nth j (trans i (row_at t i) (row_at t (S i))) zero.
  Hypothesis HB : forall a, In a asserts -> forall sv, In sv (asserted_cells O n a) ->
    peval (B a) (fpow g (fst sv)) = cell O t (as_col a) (fst sv) -f snd sv.
  Hypothesis Hsteps : forall a, In a asserts ->
    NoDup (map fst (asserted_cells O n a)) /\ forall sv, In sv (asserted_cells O n a) -> fst sv < n.

  Definition all_divisible : Prop :=
    (forall j, j < m -> pdivides (trans_divisor_poly O g n k) (N j)) /\
    (forall a, In a asserts -> pdivides (zpoly (asserted_roots a)) (B a)).

  Theorem valid_iff_divisible : valid t n k asserts <-> all_divisible.
  Proof.
    unfold valid, all_divisible.
    rewrite (transitions_hold_iff_divisible t k m N Hm HN). split.
    - intros [H1 H2]. split; [exact H1|]. intros a Ha.
      apply (assertion_holds_iff_divisible t a (B a) (HB a Ha) (Hsteps a Ha)). now apply H2.
    - intros [H1 H2]. split; [exact H1|]. intros a Ha.
      apply (assertion_holds_iff_divisible t a (B a) (HB a Ha) (Hsteps a Ha)). now apply H2.
  Qed.

  (* either kind of violation makes one numerator non-divisible *)
  Theorem invalid_trace_not_divisible : ~ valid t n k asserts -> ~ all_divisible.
  Proof. intros H Hd. apply H. now apply valid_iff_divisible. Qed.
End Whole.

(* ------------------------------------------------------------------ corruption of one cell *)
Lemma row_at_upd_other (t : list (list F)) c i v j : j <> i -> row_at (upd_cell t c i v) j = row_at t j.
Proof. intros H. unfold upd_cell, row_at. apply nth_upd_nth_other. congruence. Qed.

Lemma cell_upd_other (t : list (list F)) c i v c' i' : (c', i') <> (c, i) -> cell O (upd_cell t c i v) c' i' = cell O t c' i'.
Proof.
  intros H. unfold cell. destruct (Nat.eq_dec i' i) as [->|Hi].
  - assert (Hc : c <> c') by congruence.
    unfold upd_cell, row_at. destruct (Nat.lt_ge_cases i (length t)) as [Hl|Hl].
    + rewrite nth_upd_nth_same by exact Hl. now apply nth_upd_nth_other.
    + assert (E : forall (l : list (list F)) i v, length l <= i -> upd_nth l i v = l).
      { induction l; destruct i0; simpl; intros; auto; try lia. f_equal. apply IHl. lia. }
      rewrite E by exact Hl. reflexivity.
  - now rewrite row_at_upd_other.
Qed.

Lemma is_asserted_false asserts c i :
  is_asserted O n asserts c i = false ->
  forall a, In a asserts -> forall sv, In sv (asserted_cells O n a) -> (as_col a, fst sv) <> (c, i).
Proof.
  unfold is_asserted. intros H a Ha sv Hsv E. inversion E as [[E1 E2]].
  assert (T : existsb (fun a => (as_col a =? c) && existsb (fun sv => fst sv =? i) (asserted_cells O n a)) asserts = true); [|congruence].
  apply existsb_exists. exists a. split; [exact Ha|]. apply andb_true_iff. split; [now apply Nat.eqb_eq|].
  apply existsb_exists. exists sv. split; [exact Hsv|now apply Nat.eqb_eq].
Qed.

(* A cell of step i with n-k < i < n is `current` of transition i and `next` of transition i-1, both exempt
   (n-k-1 is the last enforced transition).  If it is not asserted, any value keeps the trace valid. *)
Theorem exempt_corruption_harmless t k asserts c i v :
  valid t n k asserts -> only_exempt n k i = true -> is_asserted O n asserts c i = false ->
  valid (upd_cell t c i v) n k asserts.
Proof.
  intros [H1 H2] Hex Has. unfold only_exempt in Hex. apply andb_true_iff in Hex. destruct Hex as [Hlo Hhi].
  apply Nat.ltb_lt in Hlo. apply Nat.ltb_lt in Hhi. split.
  - intros j Hj e He. rewrite !row_at_upd_other in He by lia. now apply (H1 j Hj).
  - intros a Ha sv Hsv. rewrite cell_upd_other; [now apply H2|]. now apply (is_asserted_false asserts c i Has).
Qed.

(* the converse direction of the classification: a cell of an enforced row can break validity (so the side
   condition of exempt_corruption_harmless is not vacuous); see the Examples *)

(* ------------------------------------------------------------------ the divisor evaluation code
   ConstraintDivisor::evaluate_at for from_transition: (x^n - 1) / prod_{exempt} (x - e) equals the vanishing
   polynomial of the enforced steps at every x that is not an exemption point *)
Lemma peval_zpoly_app a b x : peval (zpoly (a ++ b)) x = peval (zpoly a) x *f peval (zpoly b) x.
Proof. rewrite !(peval_zpoly_pprod O L). exact (StarkPoly.pprod_app O L a b x). Qed.

Theorem trans_divisor_eval_spec k x :
  0 < n -> fpow g n = one -> ~ In x (trans_exempt O g n k) ->
  trans_divisor_eval O g n k x = peval (trans_divisor_poly O g n k) x.
Proof.
  intros Hn Hg Hx. unfold trans_divisor_eval, trans_divisor_poly.
  rewrite (xn_minus_one_factors O L g n Hn Hdom Hg x).
  rewrite <- (firstn_skipn (n - k) (domain g n)) at 1. fold (trans_roots O g n k). fold (trans_exempt O g n k).
  rewrite peval_zpoly_app. rewrite <- (peval_zpoly O L (trans_exempt O g n k) x).
  pose proof (zpoly_nonroot O L x _ Hx) as Hnz.
  field. exact Hnz.
Qed.

End Enforce.
