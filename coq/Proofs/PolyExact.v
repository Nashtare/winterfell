(* C20 — uniqueness of quotient and remainder on COEFFICIENT LISTS and the exact-division theorems:
   a = q0 * b (coefficient-wise) => div a b = q0, remainder 0;   p = q * (x^a - b) => syn_div p a b = q, remainder 0;
   coefficient semantics of the `mul` model (convolution). *)
From Coq Require Import List Arith Bool Lia Ring Field.
From VBase Require Import FieldOps.
From VModel Require Import Polynom.
From VProofs Require Import PolyBase PolyCoeff PolyArith PolyDiv.
Import ListNotations.

Section Exact.
Context {F : Type} (O : FOps F) (L : FLaws O).
Local Notation zero := (fzero O).
Local Notation one := (fone O).
Local Notation "a +f b" := (fadd O a b) (at level 50, left associativity).
Local Notation "a -f b" := (fsub O a b) (at level 50, left associativity).
Local Notation "a *f b" := (fmul O a b) (at level 40, left associativity).
Local Notation coeff := (coeff O).
Local Notation conv := (conv O).

Add Field Ffield : (FLaws_field_theory O L).

(* ------------------------------------------------------------------ uniqueness of (q, r) *)
Lemma divmod_unique b n q1 q2 r1 r2 :
  coeff b n <> zero -> (forall j, n < j -> coeff b j = zero) ->
  (forall k, n <= k -> coeff r1 k = zero) -> (forall k, n <= k -> coeff r2 k = zero) ->
  (forall k, conv q1 b k +f coeff r1 k = conv q2 b k +f coeff r2 k) ->
  (forall k, coeff q1 k = coeff q2 k) /\ (forall k, coeff r1 k = coeff r2 k).
Proof.
  intros Hlead Hhigh Hr1 Hr2 Heq.
  assert (HD : forall k, coeff (sub O q1 q2) k = zero).
  { destruct (coeffs_dec O L (sub O q1 q2)) as [H|H]; [exact H|exfalso].
    destruct (proj1 (proj2 (degree_of_spec O L (sub O q1 q2))) H) as (_ & Hm).
    pose proof (proj1 (degree_of_spec O L (sub O q1 q2))) as Habove.
    set (m := degree_of O (sub O q1 q2)) in *.
    pose proof (conv_top O L (sub O q1 q2) b m n Habove Hhigh) as Ht.
    rewrite (conv_sub_l O L) in Ht.
    pose proof (Heq (m + n)) as E. rewrite (Hr1 (m + n)), (Hr2 (m + n)) in E by lia.
    assert (Hz : conv q1 b (m + n) -f conv q2 b (m + n) = zero).
    { transitivity ((conv q1 b (m + n) +f zero) -f (conv q2 b (m + n) +f zero)). ring. rewrite E. ring. }
    rewrite Hz in Ht. symmetry in Ht. apply (fmul_integral O L) in Ht.
    destruct Ht as [Ht|Ht]; [apply Hm; exact Ht | apply Hlead; exact Ht]. }
  assert (Hq : forall k, coeff q1 k = coeff q2 k).
  { intros k. specialize (HD k). unfold PolyCoeff.coeff in *. rewrite (sub_nth O L) in HD.
    now apply (fsub_eq_zero O L). }
  split; [exact Hq|]. intros k.
  pose proof (Heq k) as E. rewrite (conv_ext O q1 q2 b b k Hq (fun _ => eq_refl)) in E.
  transitivity ((conv q2 b k +f coeff r1 k) -f conv q2 b k). ring. rewrite E. ring.
Qed.

(* ------------------------------------------------------------------ exact long division *)
Theorem div_exact a b q0 :
  coeff b (degree_of O b) <> zero -> (exists j, coeff q0 j <> zero) ->
  (forall k, coeff a k = conv q0 b k) ->
  exists q aw, div_full O a b = Ok (q, aw) /\
    (forall k, coeff q k = coeff q0 k) /\
    (forall k, coeff (firstn (degree_of O b) aw) k = zero) /\
    degree_of O a = degree_of O q0 + degree_of O b /\
    length q = degree_of O q0 + 1.
Proof.
  intros Hlead Hq0 Ha.
  pose proof (proj1 (degree_of_spec O L b)) as Hbhigh.
  destruct (proj1 (proj2 (degree_of_spec O L q0)) Hq0) as (_ & Hq0top).
  pose proof (proj1 (degree_of_spec O L q0)) as Hq0high.
  set (n := degree_of O b) in *. set (m0 := degree_of O q0) in *.
  assert (Htop : coeff a (m0 + n) <> zero).
  { rewrite Ha, (conv_top O L q0 b m0 n Hq0high Hbhigh). now apply (fmul_nonzero O L). }
  assert (Hda : degree_of O a = m0 + n).
  { apply Nat.le_antisymm; [|now apply (degree_of_ge O L)].
    destruct (Nat.le_gt_cases (degree_of O a) (m0 + n)); auto. exfalso.
    destruct (proj1 (proj2 (degree_of_spec O L a)) (ex_intro (fun k => nth k a zero <> zero) (m0 + n) Htop)) as (_ & Hnz). apply Hnz.
    change (coeff a (degree_of O a) = zero). rewrite Ha. now apply (conv_high_deg O L q0 b m0 n). }
  destruct (div_full_run O L a b ltac:(fold n; lia) Hlead) as (q & aw & E & Hlen & _ & _ & Hc).
  exists q, aw. split; [exact E|]. fold n in Hc.
  destruct (divmod_unique b n q q0 (firstn n aw) [] Hlead Hbhigh) as (H1 & H2).
  - intros k Hk. unfold PolyCoeff.coeff. apply nth_overflow. rewrite firstn_length. lia.
  - intros k _. apply (coeff_nil O).
  - intros k. rewrite <- Hc, (coeff_nil O), Ha. ring.
  - split; [exact H1|]. split. { intros k. rewrite H2. apply (coeff_nil O). }
    split; [exact Hda|].
    rewrite Hlen. fold n. lia. intros ->. apply Htop. apply (coeff_nil O).
Qed.

(* ------------------------------------------------------------------ exact division by x^a - b, a >= 2 *)
Lemma sd_loop_pt a g : 1 <= a -> forall m s s', m + a <= length s ->
  for_down m (sd_body O a g) s = Ok s' ->
  length s' = length s /\
  forall k, coeff s' k = if k <? m then coeff s k +f g (coeff s' (k + a)) else coeff s k.
Proof.
  intros Ha. induction m as [|i IH]; intros s s' Hlen H.
  - simpl in H. inversion H; subst. split; [reflexivity|]. intros k. reflexivity.
  - set (v := nth i s zero +f g (nth (i + a) s zero)).
    assert (Hstep : sd_body O a g i s = Ok (upd s i v)).
    { unfold sd_body. rewrite (get_ok s i zero) by lia. cbn [bind].
      rewrite (get_ok s (i + a) zero) by lia. cbn [bind]. apply set_ok. lia. }
    cbn [for_down] in H. rewrite Hstep in H.
    destruct (IH (upd s i v) s' ltac:(rewrite upd_length; lia) H) as (Hl & Hp).
    split. { rewrite Hl. apply upd_length. }
    assert (Hge : forall k, i <= k -> coeff s' k = coeff (upd s i v) k).
    { intros k Hk. rewrite Hp. destruct (Nat.ltb_spec k i); [lia|reflexivity]. }
    intros k. destruct (Nat.lt_trichotomy k i) as [Hk|[->|Hk]].
    + rewrite Hp. destruct (Nat.ltb_spec k i), (Nat.ltb_spec k (S i)); try lia.
      unfold PolyCoeff.coeff at 1. rewrite nth_upd_other by lia. reflexivity.
    + destruct (Nat.ltb_spec i (S i)); [|lia]. rewrite (Hge i) by lia. rewrite (Hge (i + a)) by lia.
      unfold PolyCoeff.coeff. rewrite nth_upd_same by lia. rewrite nth_upd_other by lia. reflexivity.
    + destruct (Nat.ltb_spec k (S i)); [lia|]. rewrite (Hge k) by lia.
      unfold PolyCoeff.coeff. now rewrite nth_upd_other by lia.
Qed.

Theorem syn_div_exact_gen p a b q : 2 <= a -> b <> zero -> length q + a <= length p -> q <> [] ->
  (forall k, coeff p k = (if a <=? k then coeff q (k - a) else zero) -f b *f coeff q k) ->
  syn_div_in_place_full O p a b
  = Ok ((q ++ repeat zero (length p - a - length q)) ++ repeat zero a, repeat zero a).
Proof.
  intros Ha Hb Hlen Hq Hp.
  assert (Hlt : a < length p) by (destruct q; [congruence|simpl in Hlen; lia]).
  rewrite (syn_div_full_unfold O L) by (assumption || lia).
  destruct (sd_loop O L a b ltac:(lia) (length p - a) p ltac:(lia)) as (p1 & Hp1 & _). rewrite Hp1. cbn [bind].
  destruct (sd_loop_pt a (fun v => v *f b) ltac:(lia) (length p - a) p p1 ltac:(lia) Hp1) as (Hl1 & Hpt).
  (* by downward induction on k, measured by d: the loop leaves q shifted up by a *)
  assert (Hval : forall d k, length p <= k + d -> coeff p1 k = if a <=? k then coeff q (k - a) else zero).
  { induction d as [|d IHd]; intros k Hk.
    - rewrite (coeff_overflow O p1) by lia. destruct (Nat.leb_spec a k); [|lia].
      symmetry. apply coeff_overflow. lia.
    - destruct (Nat.le_gt_cases (length p) k) as [Hge|Hlt']; [apply IHd; lia|].
      rewrite Hpt. destruct (Nat.ltb_spec k (length p - a)).
      + rewrite (IHd (k + a)) by lia. destruct (Nat.leb_spec a (k + a)); [|lia].
        replace (k + a - a) with k by lia. rewrite Hp. ring.
      + rewrite Hp. rewrite (coeff_overflow O q k) by lia. ring. }
  do 2 f_equal.
  - f_equal. apply (nth_ext _ _ zero zero).
    + rewrite skipn_length, app_length, repeat_length. lia.
    + rewrite skipn_length. intros i Hi. rewrite nth_skipn.
      change (nth (a + i) p1 zero) with (coeff p1 (a + i)).
      rewrite (Hval (length p) (a + i)) by lia. destruct (Nat.leb_spec a (a + i)); [|lia].
      replace (a + i - a) with i by lia. unfold PolyCoeff.coeff.
      destruct (Nat.lt_ge_cases i (length q)).
      * now rewrite app_nth1.
      * rewrite app_nth2 by assumption. rewrite (nth_overflow q) by assumption.
        symmetry. apply nth_repeat.
  - apply (nth_ext _ _ zero zero).
    + rewrite firstn_length, repeat_length. lia.
    + rewrite firstn_length. intros i Hi. rewrite nth_firstn_lt by lia.
      change (nth i p1 zero) with (coeff p1 i). rewrite (Hval (length p) i) by lia.
      destruct (Nat.leb_spec a i); [lia|]. symmetry. apply nth_repeat.
Qed.

(* ------------------------------------------------------------------ coefficient semantics of the `mul` model *)
Theorem mul_coeff a b r : mul O a b = Ok r -> forall k, coeff r k = conv a b k.
Proof. intros H. destruct (mul_run O L a b) as (r' & Hr & _ & Hc & _). rewrite H in Hr. inversion Hr; subst. exact Hc. Qed.

(* exact long division stated with the crate's own product *)
Corollary div_mul_exact q0 b a :
  coeff b (degree_of O b) <> zero -> (exists j, coeff q0 j <> zero) -> mul O q0 b = Ok a ->
  exists q aw, div_full O a b = Ok (q, aw) /\
    (forall k, coeff q k = coeff q0 k) /\ (forall k, coeff (firstn (degree_of O b) aw) k = zero) /\
    length q = degree_of O q0 + 1.
Proof.
  intros Hb Hq Hm. destruct (div_exact a b q0 Hb Hq (mul_coeff q0 b a Hm)) as (q & aw & H1 & H2 & H3 & _ & H5).
  exists q, aw. auto.
Qed.

(* the divisor x^a - b as a coefficient list, and the corollary with the crate's own product *)
Definition xa_minus_b (a : nat) (b : F) : list F := fneg O b :: repeat zero (a - 1) ++ [one].

Lemma coeff_xa_minus_b a b j : 1 <= a ->
  coeff (xa_minus_b a b) j = if j =? 0 then fneg O b else if j =? a then one else zero.
Proof.
  intros Ha. unfold xa_minus_b, PolyCoeff.coeff. destruct j as [|j]; [reflexivity|]. cbn [nth]. change (S j =? 0) with false. cbv iota.
  destruct (Nat.lt_ge_cases j (a - 1)).
  - rewrite app_nth1 by now rewrite repeat_length. rewrite nth_repeat.
    destruct (Nat.eqb_spec (S j) a); [lia|reflexivity].
  - rewrite app_nth2 by now rewrite repeat_length. rewrite repeat_length.
    destruct (Nat.eqb_spec (S j) a).
    + replace (j - (a - 1)) with 0 by lia. reflexivity.
    + destruct (j - (a - 1)) as [|d] eqn:E; [lia|]. simpl. now destruct d.
Qed.

Lemma conv_xa_minus_b q a b k : 1 <= a ->
  conv q (xa_minus_b a b) k = (if a <=? k then coeff q (k - a) else zero) -f b *f coeff q k.
Proof.
  intros Ha. unfold PolyCoeff.conv.
  rewrite (gsum_ext O _ (fun i => (if i =? k then fneg O b *f coeff q k else zero)
                                   +f (if (a <=? k) && (i =? k - a) then coeff q (k - a) else zero))).
  2: { intros i Hi. rewrite coeff_xa_minus_b by assumption.
       destruct (Nat.eqb_spec i k) as [Eik|Eik].
       - rewrite Eik, Nat.sub_diag. simpl (0 =? 0).
         destruct (Nat.leb_spec a k), (Nat.eqb_spec k (k - a)); simpl; try lia; ring.
       - destruct (Nat.eqb_spec (k - i) 0); [lia|].
         destruct (Nat.eqb_spec (k - i) a) as [Ea|Ea].
         + destruct (Nat.leb_spec a k); [|lia]. destruct (Nat.eqb_spec i (k - a)) as [Ei|Ei]; [|lia].
           simpl. rewrite Ei. ring.
         + destruct (Nat.leb_spec a k); simpl; [|ring].
           destruct (Nat.eqb_spec i (k - a)); [lia|ring]. }
  rewrite (gsum_add O L).
  rewrite (gsum_single O L (fun i => if i =? k then fneg O b *f coeff q k else zero) k)
    by (intros i _ Hi; destruct (Nat.eqb_spec i k); [lia|reflexivity]).
  rewrite (gsum_single O L (fun i => if (a <=? k) && (i =? k - a) then coeff q (k - a) else zero) (k - a))
    by (intros i _ Hi; destruct (Nat.eqb_spec i (k - a)); [lia|]; now rewrite andb_false_r).
  destruct (Nat.ltb_spec k (S k)); [|lia]. destruct (Nat.ltb_spec (k - a) (S k)); [|lia].
  rewrite !Nat.eqb_refl, andb_true_r. destruct (a <=? k); ring.
Qed.

Corollary syn_div_mul_exact q a b p : 2 <= a -> b <> zero -> q <> [] -> mul O q (xa_minus_b a b) = Ok p ->
  syn_div_in_place_full O p a b = Ok (q ++ repeat zero a, repeat zero a).
Proof.
  intros Ha Hb Hq Hm.
  assert (Hl : length p = length q + a).
  { rewrite (mul_length O L _ _ _ Hm). unfold xa_minus_b. simpl. rewrite app_length, repeat_length. simpl. lia. }
  rewrite (syn_div_exact_gen p a b q Ha Hb ltac:(lia) Hq).
  - replace (length p - a - length q) with 0 by lia. simpl. now rewrite app_nil_r.
  - intros k. rewrite (mul_coeff _ _ _ Hm). apply conv_xa_minus_b. lia.
Qed.

End Exact.
