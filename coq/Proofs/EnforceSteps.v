(* Integer level of Model/Enforce.v: which records the assertion constructors and validate_trace_length accept, the
   steps an accepted assertion names (a residue class modulo its period), that overlaps_with decides "the two name a
   common cell", when prepare_assertions accepts a list, and the bounds on the number of transition exemptions. *)
From Coq Require Import ZArith List Bool Lia.
From VBase Require Import MachInt FieldOps.
From VModel Require Import Enforce.
From VProofs Require Export ListFacts Pow2Facts MachIntFacts.
Import ListNotations.
Open Scope Z_scope.

Definition pow2 (x : Z) : Prop := exists k, 0 <= k /\ x = 2 ^ k.

Lemma enforce_is_pow2_spec x : is_pow2 x = true <-> pow2 x.
Proof. exact (is_pow2_iff x). Qed.

Lemma is_pow2_false x : is_pow2 x = false <-> ~ pow2 x.
Proof.
  rewrite <- enforce_is_pow2_spec. destruct (is_pow2 x); split; intros; try congruence; try (exfalso; auto; fail).
Qed.

Lemma pow2_gt0 x : pow2 x -> 0 < x.
Proof. intros (k & Hk & ->). apply Z.pow_pos_nonneg; lia. Qed.

Lemma pow2_le_divide x y : pow2 x -> pow2 y -> x <= y -> exists c, 0 < c /\ y = x * c.
Proof.
  intros (i & Hi & ->) (j & Hj & ->) Hle.
  assert (i <= j). { apply (Z.pow_le_mono_r_iff 2); lia. }
  exists (2 ^ (j - i)). split; [apply Z.pow_pos_nonneg; lia|].
  rewrite <- Z.pow_add_r by lia. f_equal. lia.
Qed.

Lemma pow2_mul x y : pow2 x -> pow2 y -> pow2 (x * y).
Proof.
  intros (i & Hi & ->) (j & Hj & ->). exists (i + j). split; [lia|].
  rewrite Z.pow_add_r by lia. reflexivity.
Qed.

(* ------------------------------------------------------------------ well-formed and valid assertions *)

(* the invariants established by the three constructors on usize arguments *)
Definition wf (a : Assertion) : Prop :=
  0 <= a_col a /\ 0 <= a_first a /\
  ((a_stride a = 0 /\ a_nvals a = 1) \/
   (pow2 (a_stride a) /\ 2 <= a_stride a /\ a_first a < a_stride a /\ pow2 (a_nvals a))).

Lemma validate_stride_spec stride first :
  validate_stride stride first = true <-> pow2 stride /\ 2 <= stride /\ first < stride.
Proof.
  unfold validate_stride, MIN_STRIDE_LENGTH.
  rewrite !andb_true_iff, enforce_is_pow2_spec, Z.leb_le, Z.ltb_lt. tauto.
Qed.

Lemma mk_single_spec col step a : mk_single col step = Some a <-> a = mkA col step 0 1.
Proof. unfold mk_single, NO_STRIDE. split; [intros [= <-]|intros ->]; reflexivity. Qed.

Lemma mk_periodic_spec col first stride a :
  mk_periodic col first stride = Some a <->
  pow2 stride /\ 2 <= stride /\ first < stride /\ a = mkA col first stride 1.
Proof.
  unfold mk_periodic. destruct (validate_stride stride first) eqn:E.
  - apply validate_stride_spec in E. split; [intros [= <-]; tauto | intros (_ & _ & _ & ->); reflexivity].
  - split; [discriminate|]. intros (H1 & H2 & H3 & _).
    assert (validate_stride stride first = true) by (apply validate_stride_spec; tauto). congruence.
Qed.

Lemma mk_sequence_spec col first stride nvals a :
  mk_sequence col first stride nvals = Some a <->
  pow2 stride /\ 2 <= stride /\ first < stride /\ pow2 nvals /\
  a = mkA col first (if nvals =? 1 then 0 else stride) nvals.
Proof.
  unfold mk_sequence, NO_STRIDE.
  destruct (validate_stride stride first) eqn:E; cbn [andb].
  - apply validate_stride_spec in E. destruct (is_pow2 nvals) eqn:P.
    + pose proof (proj1 (enforce_is_pow2_spec _) P) as P'. pose proof (pow2_gt0 _ P').
      replace (nvals =? 0) with false by (symmetry; apply Z.eqb_neq; lia). cbn [negb andb].
      split; [intros [= <-]; tauto | intros (_ & _ & _ & _ & ->); reflexivity].
    + rewrite andb_false_r. split; [discriminate|]. intros (_ & _ & _ & P' & _).
      apply enforce_is_pow2_spec in P'. congruence.
  - split; [discriminate|]. intros (H1 & H2 & H3 & _).
    assert (validate_stride stride first = true) by (apply validate_stride_spec; tauto). congruence.
Qed.

Lemma constructed_wf a :
  (exists col step, 0 <= col /\ 0 <= step /\ mk_single col step = Some a) \/
  (exists col first stride, 0 <= col /\ 0 <= first /\ mk_periodic col first stride = Some a) \/
  (exists col first stride nvals, 0 <= col /\ 0 <= first /\ mk_sequence col first stride nvals = Some a)
  -> wf a.
Proof.
  intros [(col & step & H1 & H2 & H)|[(col & first & stride & H1 & H2 & H)|(col & first & stride & nvals & H1 & H2 & H)]].
  - apply mk_single_spec in H. subst a. unfold wf; cbn. tauto.
  - apply mk_periodic_spec in H. destruct H as (P & L & Hf & ->). unfold wf; cbn.
    repeat split; try lia. right. repeat split; try assumption. exists 0; split; [lia|reflexivity].
  - apply mk_sequence_spec in H. destruct H as (P & L & Hf & Pn & ->). unfold wf; cbn.
    repeat split; try lia. destruct (Z.eqb_spec nvals 1); [left; split; [reflexivity|assumption]|].
    right. tauto.
Qed.

Lemma wf_constructed a : wf a ->
  (exists col step, 0 <= col /\ 0 <= step /\ mk_single col step = Some a) \/
  (exists col first stride, 0 <= col /\ 0 <= first /\ mk_periodic col first stride = Some a) \/
  (exists col first stride nvals, 0 <= col /\ 0 <= first /\ mk_sequence col first stride nvals = Some a).
Proof.
  destruct a as [c f s v]. unfold wf; cbn. intros (Hc & Hf & [[-> ->]|(P & L & Hl & Pv)]).
  - left. exists c, f. repeat split; assumption.
  - destruct (Z.eq_dec v 1) as [->|Hv].
    + right; left. exists c, f, s. repeat split; try assumption. apply mk_periodic_spec. tauto.
    + right; right. exists c, f, s, v. repeat split; try assumption. apply mk_sequence_spec.
      repeat split; try assumption. replace (v =? 1) with false by (symmetry; apply Z.eqb_neq; lia).
      reflexivity.
Qed.

(* a well-formed assertion is of exactly one kind *)
Lemma wf_kinds a : wf a ->
  (is_single a = true /\ is_periodic a = false /\ is_sequence a = false /\ a_stride a = 0 /\ a_nvals a = 1) \/
  (is_single a = false /\ is_periodic a = true /\ is_sequence a = false /\ a_nvals a = 1 /\
     pow2 (a_stride a) /\ 2 <= a_stride a /\ a_first a < a_stride a) \/
  (is_single a = false /\ is_periodic a = false /\ is_sequence a = true /\ 2 <= a_nvals a /\ pow2 (a_nvals a) /\
     pow2 (a_stride a) /\ 2 <= a_stride a /\ a_first a < a_stride a).
Proof.
  unfold wf, is_single, is_periodic, is_sequence, NO_STRIDE.
  intros (Hc & Hf & [[-> ->]|(P & L & Hl & Pv)]).
  - left. cbn. tauto.
  - replace (a_stride a =? 0) with false by (symmetry; apply Z.eqb_neq; lia). cbn [negb andb].
    destruct (Z.eq_dec (a_nvals a) 1) as [E|E].
    + right; left. rewrite E. cbn. tauto.
    + right; right. pose proof (pow2_gt0 _ Pv).
      replace (a_nvals a =? 1) with false by (symmetry; apply Z.eqb_neq; lia).
      replace (1 <? a_nvals a) with true by (symmetry; apply Z.ltb_lt; lia).
      repeat split; try assumption; lia.
Qed.

(* what validate_trace_length accepts; `n < 2 ^ 64` is the product `values.len() * stride` not overflowing usize *)
Definition length_ok (a : Assertion) (n : Z) : Prop :=
  pow2 n /\
  if is_single a then a_first a < n
  else if is_periodic a then a_stride a <= n
  else a_nvals a * a_stride a = n /\ n < 2 ^ 64.

Lemma validate_trace_length_spec a n : validate_trace_length a n = VOk <-> length_ok a n.
Proof.
  unfold validate_trace_length, length_ok, USIZE_MAX1.
  destruct (is_pow2 n) eqn:P; cbn [negb].
  - apply enforce_is_pow2_spec in P. destruct (is_single a).
    + destruct (Z.leb_spec n (a_first a)); [destruct (2 ^ 63 <? a_first a + 1)|];
        split; try discriminate; try tauto; intros [_ ?]; lia.
    + destruct (is_periodic a).
      * destruct (Z.ltb_spec n (a_stride a)); split; try discriminate; try tauto; intros [_ ?]; lia.
      * destruct (Z.leb_spec (2^64) (a_nvals a * a_stride a)).
        { split; [discriminate|]. intros [_ [? ?]]; lia. }
        destruct (Z.eqb_spec (a_nvals a * a_stride a) n); split; try discriminate; try tauto;
          try (intros _; split; [assumption|]; split; lia); try (intros [_ [? ?]]; lia).
  - apply is_pow2_false in P. split; [discriminate|]. intros [? _]; contradiction.
Qed.

(* an assertion that can be placed against a trace of length n *)
Definition valid (a : Assertion) (n : Z) : Prop := wf a /\ validate_trace_length a n = VOk.

(* by kind; for the periodic and sequence kinds the stride divides n, with quotient m = the number of named steps *)
Lemma valid_cases a n : valid a n ->
  pow2 n /\
  ((is_single a = true /\ a_stride a = 0 /\ a_nvals a = 1 /\ 0 <= a_first a < n) \/
   (is_single a = false /\ pow2 (a_stride a) /\ 2 <= a_stride a /\ 0 <= a_first a < a_stride a /\
    exists m, 0 < m /\ n = m * a_stride a /\
      ((is_periodic a = true /\ a_nvals a = 1 /\ n / a_stride a = m) \/
       (is_periodic a = false /\ a_nvals a = m /\ 2 <= m)))).
Proof.
  intros [W V]. apply validate_trace_length_spec in V. destruct V as [Pn V]. split; [assumption|].
  pose proof W as (Hc & Hf & _).
  destruct (wf_kinds a W) as [(S1 & S2 & S3 & E1 & E2)|[(S1 & S2 & S3 & E & P & L & Hl)|(S1 & S2 & S3 & L2 & Pv & P & L & Hl)]];
    rewrite S1 in V; [|rewrite S2 in V ..].
  - left. repeat split; try assumption.
  - right. repeat split; try assumption.
    destruct (pow2_le_divide _ _ P Pn V) as (c & Hc0 & Ec).
    exists c. repeat split; [assumption|lia|]. left. repeat split; try assumption.
    rewrite Ec. rewrite Z.mul_comm. apply Z.div_mul. lia.
  - right. repeat split; try assumption. destruct V as [V _].
    exists (a_nvals a). repeat split; [lia|lia|]. right. repeat split; try assumption.
Qed.

Lemma valid_sequence a n : valid a n -> is_sequence a = true ->
  is_single a = false /\ is_periodic a = false /\ pow2 (a_nvals a) /\ 2 <= a_nvals a /\
  n = a_nvals a * a_stride a /\ 2 <= a_stride a /\ 0 <= a_first a < a_stride a.
Proof.
  intros Hv Hseq. pose proof Hv as [(_ & _ & [[_ E1]|(_ & _ & _ & Pv)]) _];
    [unfold is_sequence in Hseq; rewrite E1 in Hseq; discriminate|].
  destruct (valid_cases a n Hv) as (_ & [(_ & _ & E1 & _)|(S & _ & Ls & Hf & m & _ & En & [(_ & Ev & _)|(Pe & Ev & Lm)])]);
    try (unfold is_sequence in Hseq; rewrite ?E1, ?Ev in Hseq; discriminate).
  subst m. tauto.
Qed.

(* ------------------------------------------------------------------ the steps an assertion names *)

Definition names (a : Assertion) (n s : Z) : Prop :=
  if is_single a then s = a_first a
  else if is_periodic a then exists i, 0 <= i /\ s = a_first a + i * a_stride a /\ s < n
  else exists i, 0 <= i < a_nvals a /\ s = a_first a + i * a_stride a.

Lemma steps_spec a n s : valid a n -> (In s (steps a n) <-> names a n s).
Proof.
  intros Hv. unfold steps, names.
  destruct (valid_cases a n Hv) as (Pn & [(S & _)|(S & P & L & Hf & m & Hm & En & [(Pe & Ev & Ed)|(Pe & Ev & Lm)])]);
    rewrite S; [|rewrite Pe ..].
  - cbn. split; [intros [<-|[]]; reflexivity | intros ->; left; reflexivity].
  - rewrite in_map_iff. setoid_rewrite In_zrange. rewrite Ed. split.
    + intros (i & <- & Hi). exists i. repeat split; [lia|lia|nia].
    + intros (i & Hi & -> & Hlt). exists i. split; [lia|]. split; [lia|]. nia.
  - rewrite in_map_iff. setoid_rewrite In_zrange. split.
    + intros (i & <- & Hi). exists i. split; [lia|lia].
    + intros (i & Hi & ->). exists i. split; [lia|lia].
Qed.

(* the three kinds described at once: the named steps are the residue class of first_step modulo the period, inside
   [0,n); a single assertion has period n *)
Definition period (a : Assertion) (n : Z) : Z := if is_single a then n else a_stride a.

Lemma valid_period a n : valid a n ->
  pow2 (period a n) /\ 0 <= a_first a < period a n /\
  exists m, 0 < m /\ n = m * period a n /\ get_num_steps a n = Some m.
Proof.
  intros Hv. pose proof Hv as [_ V]. unfold period, get_num_steps. rewrite V.
  destruct (valid_cases a n Hv) as (Pn & [(S & _ & _ & Hf)|(S & P & _ & Hf & m & Hm & En & [(Pe & _ & Ed)|(Pe & Ev & _)])]);
    rewrite S; [|rewrite Pe ..].
  - split; [exact Pn|]. split; [exact Hf|]. exists 1. split; [lia|]. split; [lia|reflexivity].
  - split; [exact P|]. split; [exact Hf|]. exists m. rewrite Ed. auto.
  - split; [exact P|]. split; [exact Hf|]. exists m. rewrite Ev. auto.
Qed.

Lemma steps_period a n s : valid a n -> (In s (steps a n) <-> 0 <= s < n /\ s mod period a n = a_first a).
Proof.
  intros Hv. rewrite (steps_spec a n s Hv). unfold names, period.
  destruct (valid_cases a n Hv) as (Pn & [(S & _ & _ & Hf)|(S & P & L & Hf & m & Hm & En & [(Pe & _)|(Pe & Ev & _)])]);
    rewrite S; [|rewrite Pe ..].
  - split; [intros ->; split; [lia|apply Z.mod_small; lia]|intros [Hs <-]; symmetry; apply Z.mod_small; lia].
  - pose proof (residue_class _ _ s Hf) as [R1 R2]. split.
    + intros (i & Hi & E & Hlt). destruct R1 as [H1 H2]; [exists i; tauto|]. split; [lia|exact H2].
    + intros (Hs & Hmod). destruct R2 as (i & Hi & E); [split; [lia|exact Hmod]|]. exists i. lia.
  - pose proof (residue_class _ _ s Hf) as [R1 R2]. split.
    + intros (i & Hi & E). destruct R1 as [H1 H2]; [exists i; split; [lia|exact E]|]. split; [nia|exact H2].
    + intros (Hs & Hmod). destruct R2 as (i & Hi & E); [split; [lia|exact Hmod]|]. exists i. split; [nia|exact E].
Qed.

Lemma steps_in_domain a n s : valid a n -> In s (steps a n) -> 0 <= s < n.
Proof. intros Hv Hin. apply (steps_period a n s Hv) in Hin. tauto. Qed.

Lemma steps_length a n : valid a n -> get_num_steps a n = Some (Z.of_nat (length (steps a n))).
Proof.
  intros Hv. pose proof Hv as [W V]. unfold get_num_steps, steps. rewrite V.
  destruct (valid_cases a n Hv) as (Pn & [(S & _)|(S & P & L & Hf & m & Hm & En & [(Pe & Ev & Ed)|(Pe & Ev & Lm)])]);
    rewrite S; [|rewrite Pe ..].
  - reflexivity.
  - rewrite map_length, zrange_length. f_equal. lia.
  - rewrite map_length, zrange_length. f_equal. lia.
Qed.

Lemma steps_NoDup a n : valid a n -> NoDup (steps a n).
Proof.
  intros Hv. unfold steps.
  destruct (valid_cases a n Hv) as (Pn & [(S & _)|(S & P & L & Hf & m & Hm & En & _)]); rewrite S.
  - constructor; [intros []|constructor].
  - destruct (is_periodic a); (apply FinFun.Injective_map_NoDup; [|apply zrange_NoDup]); intros x y H; nia.
Qed.

Lemma first_in_steps a n : valid a n -> In (a_first a) (steps a n).
Proof.
  intros Hv. apply (steps_period a n _ Hv). destruct (valid_period a n Hv) as (_ & Hf & m & Hm & En & _).
  split; [nia|apply Z.mod_small; lia].
Qed.

(* ------------------------------------------------------------------ overlaps_with *)

Lemma rem_is_zero_spec x y d : y <= x -> d <> 0 -> rem_is_zero x y d = Some ((x - y) mod d =? 0).
Proof.
  intros H1 H2. unfold rem_is_zero, checked_sub, checked_rem.
  replace (x <? y) with false by (symmetry; apply Z.ltb_ge; lia).
  replace (d =? 0) with false by (symmetry; apply Z.eqb_neq; lia). reflexivity.
Qed.

(* arithmetic core: inside [0,n) a residue class modulo sa meets a class modulo sb (sa | sb | n) iff the residues
   agree modulo sa *)
Lemma class_meet' sa sb fa fb n c m :
  0 < sa -> sb = sa * c -> 0 < c -> n = m * sb -> 0 < m -> 0 <= fa < sa -> 0 <= fb < sb ->
  ((exists s, (0 <= s < n /\ s mod sa = fa) /\ (0 <= s < n /\ s mod sb = fb)) <-> (fb - fa) mod sa = 0).
Proof.
  intros Hsa -> Hc -> Hm Hfa Hfb. split.
  - intros (s & [Hs Ha] & [_ Hb]).
    pose proof (Z.div_mod s (sa * c) ltac:(nia)) as E. rewrite Hb in E.
    assert (Ea : s mod sa = fb mod sa).
    { rewrite E. replace (sa * c * (s / (sa * c)) + fb) with (fb + (c * (s / (sa * c))) * sa) by ring.
      apply Z.mod_add. lia. }
    rewrite Ha in Ea.
    rewrite Zminus_mod, <- Ea, (Z.mod_small fa sa) by lia. rewrite Z.sub_diag. reflexivity.
  - intros H. exists fb. repeat split; try lia; try nia.
    + apply Z.mod_divide in H; [|lia]. destruct H as (q & Hq).
      replace fb with (fa + q * sa) by lia. rewrite Z.mod_add by lia. apply Z.mod_small; lia.
    + apply Z.mod_small. lia.
Qed.

Lemma class_meet sa sb fa fb n c m :
  0 < sa -> sb = sa * c -> 0 < c -> n = m * sb -> 0 < m -> 0 <= fa < sa -> 0 <= fb < sb ->
  ((exists s, (0 <= s < n /\ s mod sa = fa) /\ (0 <= s < n /\ s mod sb = fb)) <-> (fb - fa) mod sa = 0 \/ False) .
Proof. intros. rewrite (class_meet' sa sb fa fb n c m) by assumption. tauto. Qed.

Definition common_cell (a b : Assertion) (n : Z) : Prop :=
  a_col a = a_col b /\ exists s, In s (steps a n) /\ In s (steps b n).

Lemma common_cell_sym a b n : common_cell a b n <-> common_cell b a n.
Proof. unfold common_cell. split; intros (E & s & H1 & H2); (split; [symmetry; exact E|exists s; tauto]). Qed.

(* the two halves of overlaps_with (first a < first b, and the rest) are each other with the arguments exchanged *)
Lemma overlaps_with_sym a b : overlaps_with a b = overlaps_with b a.
Proof.
  unfold overlaps_with. rewrite (Z.eqb_sym (a_col b)), (Z.eqb_sym (a_first b)), (Z.eqb_sym (a_stride b)).
  destruct (negb (a_col a =? a_col b)); [reflexivity|].
  destruct (Z.eqb_spec (a_first a) (a_first b)) as [E|E]; [reflexivity|].
  destruct (a_stride a =? a_stride b); [reflexivity|].
  destruct (Z.ltb_spec (a_first a) (a_first b)), (Z.ltb_spec (a_first b) (a_first a)); try lia; reflexivity.
Qed.

(* the case first a <= first b.  In terms of periods (powers of two, both dividing n): if period a <= period b the
   classes meet iff first b - first a is a multiple of period a, which is what the code computes; if period b <= period a
   and first a < first b < period b they cannot meet, and the code answers false without computing. *)
Lemma overlaps_le a b n : valid a n -> valid b n -> a_first a <= a_first b ->
  exists r, overlaps_with a b = Some r /\ (r = true <-> common_cell a b n).
Proof.
  intros Ha Hb Hle. unfold overlaps_with, common_cell.
  destruct (Z.eqb_spec (a_col a) (a_col b)) as [Ec|Ec]; cbn [negb];
    [|exists false; split; [reflexivity|]; split; [discriminate|tauto]].
  destruct (Z.eqb_spec (a_first a) (a_first b)) as [Ef|Ef].
  { exists true. split; [reflexivity|]. split; [|reflexivity]. intros _. split; [exact Ec|].
    exists (a_first a). split; [|rewrite Ef]; apply first_in_steps; assumption. }
  replace (a_first a <? a_first b) with true by (symmetry; apply Z.ltb_lt; lia).
  destruct (valid_period a n Ha) as (Pa & Hfa & ma & Hma & Ena & _).
  destruct (valid_period b n Hb) as (Pb & Hfb & mb & Hmb & Enb & _).
  set (meet := exists s, (0 <= s < n /\ s mod period a n = a_first a) /\ (0 <= s < n /\ s mod period b n = a_first b)).
  assert (Hst : (a_col a = a_col b /\ exists s, In s (steps a n) /\ In s (steps b n)) <-> meet).
  { unfold meet. split; [intros (_ & s & H1 & H2)|intros (s & H1 & H2); split; [exact Ec|]]; exists s;
      (split; [apply (steps_period a n s Ha)|apply (steps_period b n s Hb)]; assumption). }
  setoid_rewrite Hst.
  assert (D : period b n <= period a n -> exists r, Some false = Some r /\ (r = true <-> meet)).
  { intros Hp. exists false. split; [reflexivity|]. split; [discriminate|]. intros (s & H1 & H2). exfalso.
    destruct (pow2_le_divide _ _ Pb Pa Hp) as (c & Hc & Ec').
    assert (M : exists s, (0 <= s < n /\ s mod period b n = a_first b) /\ (0 <= s < n /\ s mod period a n = a_first a))
      by (exists s; tauto).
    apply (class_meet' _ _ _ _ n c ma) in M; try lia.
    apply Z.mod_divide in M; [|lia]. destruct M as (q & Hq). destruct (Z.le_gt_cases 0 q); nia. }
  assert (M : period a n <= period b n ->
              exists r, rem_is_zero (a_first b) (a_first a) (period a n) = Some r /\ (r = true <-> meet)).
  { intros Hp. rewrite rem_is_zero_spec by lia. eexists. split; [reflexivity|]. rewrite Z.eqb_eq.
    destruct (pow2_le_divide _ _ Pa Pb Hp) as (c & Hc & Ec'). symmetry.
    apply (class_meet' _ _ _ _ n c mb); lia. }
  clearbody meet. unfold period in *.
  destruct (Z.eqb_spec (a_stride a) (a_stride b)) as [Es|Es].
  { (* equal strides, hence equal periods *) apply D. unfold is_single. rewrite Es. lia. }
  destruct (is_single a).
  { (* period a = n is a multiple of period b *) apply D. destruct (is_single b); nia. }
  destruct (is_single b); cbn [orb]; [(* period b = n is a multiple of period a *) apply M; nia|].
  destruct (Z.ltb_spec (a_stride a) (a_stride b)); [apply M|apply D]; lia.
Qed.

Lemma decides_iff (o : option bool) (P : Prop) :
  (exists r, o = Some r /\ (r = true <-> P)) -> (o = Some true <-> P) /\ (o = Some false <-> ~ P).
Proof.
  intros (r & -> & Hr). split; split.
  - intros [= ->]. apply Hr; reflexivity.
  - intros H. f_equal. apply Hr; assumption.
  - intros [= ->] H. apply Hr in H. discriminate.
  - intros H. f_equal. destruct r; [exfalso; apply H, Hr; reflexivity|reflexivity].
Qed.

Theorem overlaps_iff a b n : valid a n -> valid b n ->
  (overlaps_with a b = Some true <-> common_cell a b n) /\
  (overlaps_with a b = Some false <-> ~ common_cell a b n).
Proof.
  intros Ha Hb. apply decides_iff.
  destruct (Z.le_ge_cases (a_first a) (a_first b)) as [H|H]; [apply overlaps_le; assumption|].
  rewrite overlaps_with_sym. destruct (overlaps_le b a n Hb Ha ltac:(lia)) as (r & E & Hr).
  exists r. split; [exact E|]. rewrite Hr. apply common_cell_sym.
Qed.

(* ------------------------------------------------------------------ transition exemptions *)

Lemma exemptions_ok_spec n k ce degs :
  exemptions_ok n k ce degs = true <->
  0 < k /\ k <= n / 2 + 1 /\ forall d, In d degs -> d <= ce - 1 + n /\ k <= ce - 1 + n - d.
Proof.
  unfold exemptions_ok. rewrite !andb_true_iff, Z.ltb_lt, Z.leb_le, forallb_forall. split.
  - intros [[H1 H2] H3]. repeat split; try assumption; specialize (H3 _ H);
      apply andb_true_iff in H3; destruct H3 as [A B]; apply Z.leb_le in A, B; assumption.
  - intros (H1 & H2 & H3). repeat split; try assumption. intros d Hd. destruct (H3 d Hd).
    apply andb_true_iff. split; apply Z.leb_le; assumption.
Qed.

(* an accepted exemption count always leaves enforced steps: at least n/2 - 1 >= 3 of them *)
Theorem exemption_bounds n k ce degs : 8 <= n -> exemptions_ok n k ce degs = true ->
  1 <= k <= n / 2 + 1 /\ k < n /\ n / 2 - 1 <= n - k /\ 3 <= n - k.
Proof.
  intros Hn H. apply exemptions_ok_spec in H. destruct H as (H1 & H2 & _).
  pose proof (Z.div_mod n 2 ltac:(lia)). pose proof (Z.mod_pos_bound n 2 ltac:(lia)). lia.
Qed.

Lemma exemptions_refused n k ce degs : k <= 0 \/ n / 2 + 1 < k -> exemptions_ok n k ce degs = false.
Proof.
  intros H. destruct (exemptions_ok n k ce degs) eqn:E; [|reflexivity].
  apply exemptions_ok_spec in E. lia.
Qed.

(* ------------------------------------------------------------------ prepare_assertions *)

Lemma a_cmp_eq a b : a_cmp a b = Eq ->
  a_stride a = a_stride b /\ a_first a = a_first b /\ a_col a = a_col b.
Proof.
  unfold a_cmp. destruct (Z.eqb_spec (a_stride a) (a_stride b)) as [Es|Es].
  - destruct (Z.eqb_spec (a_first a) (a_first b)) as [Ef|Ef]; intros H; apply Z.compare_eq in H; tauto.
  - intros H. apply Z.compare_eq in H. contradiction.
Qed.

Lemma set_insert_incl a l x : In x (set_insert a l) -> x = a \/ In x l.
Proof.
  induction l as [|b r IH]; cbn [set_insert].
  - intros [<-|[]]. left; reflexivity.
  - destruct (a_cmp a b).
    + intros H. right. exact H.
    + intros [<-|H]; [left; reflexivity|right; exact H].
    + intros [<-|H]; [right; left; reflexivity|]. destruct (IH H); [left; assumption|right; right; assumption].
Qed.

Lemma set_insert_keeps a l x : In x l -> In x (set_insert a l).
Proof.
  induction l as [|b r IH]; cbn [set_insert]; [intros []|].
  destruct (a_cmp a b); intros H; [exact H|right; exact H|].
  destruct H as [<-|H]; [left; reflexivity|right; apply IH; exact H].
Qed.

Lemma set_insert_adds a l : (forall b, In b l -> a_cmp a b <> Eq) -> In a (set_insert a l).
Proof.
  induction l as [|b r IH]; cbn [set_insert]; intros H; [left; reflexivity|].
  destruct (a_cmp a b) eqn:E.
  - exfalso. apply (H b); [left; reflexivity|exact E].
  - left; reflexivity.
  - right. apply IH. intros c Hc. apply H. right; exact Hc.
Qed.

(* the test prepare_go applies to a new assertion: against every accepted assertion of its column overlaps_with
   answers false (neither true nor a panic) *)
Definition ok_against (a : Assertion) (acc : list Assertion) : Prop :=
  forall b, In b acc -> a_col b = a_col a -> overlaps_with b a = Some false.

Lemma prepare_go_cons a r acc w n res :
  prepare_go (a :: r) acc w n = inr res <->
  validate_trace_width a w = true /\ validate_trace_length a n = VOk /\ ok_against a acc /\
  prepare_go r (set_insert a acc) w n = inr res.
Proof.
  cbn [prepare_go]. destruct (validate_trace_width a w); cbn [negb]; [|split; [discriminate|intros (H & _); discriminate]].
  destruct (validate_trace_length a n); try (split; [discriminate|intros (_ & H & _); discriminate]).
  set (same := filter (fun b => a_col b =? a_col a) acc).
  destruct (existsb (fun b => match overlaps_with b a with Some false => false | _ => true end) same) eqn:E.
  - split; [intros H; destruct (existsb (fun b => match overlaps_with b a with None => true | _ => false end) same);
             discriminate H|]. intros (_ & _ & Hok & _). exfalso.
    apply existsb_exists in E. destruct E as (b & Hb & Hov). unfold same in Hb. apply filter_In in Hb.
    destruct Hb as [Hin Hc]. apply Z.eqb_eq in Hc. rewrite (Hok b Hin Hc) in Hov. discriminate.
  - split.
    + intros H. repeat split; try assumption. intros b Hin Hc.
      assert (Hb : In b same) by (unfold same; apply filter_In; split; [assumption|apply Z.eqb_eq; assumption]).
      destruct (overlaps_with b a) as [[|]|] eqn:Ov; try reflexivity; exfalso;
        assert (X : existsb (fun b => match overlaps_with b a with Some false => false | _ => true end) same = true)
          by (apply existsb_exists; exists b; split; [assumption|rewrite Ov; reflexivity]); congruence.
    + intros (_ & _ & _ & H). exact H.
Qed.

Lemma ok_against_no_eq a acc : ok_against a acc -> forall b, In b acc -> a_cmp a b <> Eq.
Proof.
  intros Hok b Hin E. apply a_cmp_eq in E. destruct E as (_ & Ef & Ec).
  specialize (Hok b Hin (eq_sym Ec)). unfold overlaps_with in Hok.
  rewrite <- Ec, Z.eqb_refl in Hok. cbn [negb] in Hok. rewrite Ef, Z.eqb_refl in Hok. discriminate.
Qed.

(* acceptance relative to an accumulator.  The second conjunct compares with the accumulator, the third with the earlier
   elements of the list: an accepted element is really inserted (set_insert_adds), since comparing Equal to a member of
   the set would mean overlapping with it (ok_against_no_eq) *)
Lemma prepare_go_accepts l : forall acc w n,
  (exists res, prepare_go l acc w n = inr res) <->
  Forall (fun a => validate_trace_width a w = true /\ validate_trace_length a n = VOk) l /\
  Forall (fun a => ok_against a acc) l /\
  ForallOrdPairs (fun b a => a_col b = a_col a -> overlaps_with b a = Some false) l.
Proof.
  induction l as [|a r IH]; intros acc w n.
  - split; [intros _; repeat constructor|intros _; eexists; reflexivity].
  - split.
    + intros (res & H). apply prepare_go_cons in H. destruct H as (Hw & Hl & Hok & H).
      destruct (proj1 (IH _ _ _) (ex_intro _ res H)) as (F1 & F2 & F3).
      split; [constructor; [split; assumption|exact F1]|].
      split.
      * constructor; [exact Hok|]. apply Forall_forall. intros x Hx b Hb Hc.
        rewrite Forall_forall in F2. apply (F2 x Hx b); [apply set_insert_keeps; exact Hb|exact Hc].
      * constructor; [|exact F3]. apply Forall_forall. intros x Hx Hc.
        rewrite Forall_forall in F2. apply (F2 x Hx a); [|exact Hc].
        apply set_insert_adds. apply ok_against_no_eq. exact Hok.
    + intros (F1 & F2 & F3). inversion F1 as [|? ? [Hw Hl] F1']; subst.
      inversion F2 as [|? ? Hok F2']; subst. inversion F3 as [|? ? Ha F3']; subst.
      assert (H : exists res, prepare_go r (set_insert a acc) w n = inr res).
      { apply IH. split; [exact F1'|]. split; [|exact F3'].
        apply Forall_forall. intros x Hx b Hb Hc. rewrite Forall_forall in F2', Ha.
        destruct (set_insert_incl _ _ _ Hb) as [->|Hb']; [apply (Ha x Hx Hc)|apply (F2' x Hx b Hb' Hc)]. }
      destruct H as (res & H). exists res. apply prepare_go_cons. repeat split; assumption.
Qed.

(* prepare_assertions accepts a list of well-formed assertions exactly when each fits the trace (column < width,
   valid for the length) and no two of them name a common cell *)
Theorem prepare_accepts_iff l w n : Forall wf l ->
  ((exists res, prepare_assertions l w n = inr res) <->
   Forall (fun a => a_col a < w /\ valid a n) l /\
   ForallOrdPairs (fun b a => ~ common_cell b a n) l).
Proof.
  intros Hwf. unfold prepare_assertions. rewrite prepare_go_accepts.
  assert (Hw : forall a, validate_trace_width a w = true <-> a_col a < w).
  { intros a. unfold validate_trace_width. rewrite negb_true_iff, Z.leb_gt. tauto. }
  rewrite !Forall_forall in *. split.
  - intros (F1 & _ & F3).
    assert (Hv : forall a, In a l -> valid a n) by (intros a Ha; split; [apply Hwf; exact Ha|apply F1; exact Ha]).
    split; [intros a Ha; split; [apply Hw, F1, Ha|apply Hv, Ha]|].
    revert F3. apply ForallOrdPairs_impl_In. intros b a Hb Ha Hov Hcc.
    exact (proj1 (proj2 (overlaps_iff b a n (Hv b Hb) (Hv a Ha))) (Hov (proj1 Hcc)) Hcc).
  - intros (F1 & F3).
    split; [intros a Ha; split; [apply Hw, F1, Ha|apply (F1 a Ha)]|]. split; [intros a _ b []|].
    revert F3. apply ForallOrdPairs_impl_In. intros b a Hb Ha Hn _.
    apply (overlaps_iff b a n (proj2 (F1 b Hb)) (proj2 (F1 a Ha))). exact Hn.
Qed.
