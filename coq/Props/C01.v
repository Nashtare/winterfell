(* C01 — completeness: every valid execution yields a proof that the verifier accepts.
   Only statements, `exact` of lemmas proved in Proofs/Stark*.v, and Print Assumptions.

   FULL property (properties.jsonl C01 / DESIGN.md): for every supported AIR, valid trace, admissible options with a
   well-formed FRI schedule, field, extension and hasher:  prove t = Ok pi /\ verify pi = Ok /\
   verify (from_bytes (to_bytes pi)) = Ok  for the REAL prover/verifier.
   PROVED here: `C01_stark_complete` — the statement for the algebraic model of Model/Stark.v with its stages instantiated
   by the models of the other properties and their premises DISCHARGED from the exported theorems:
     merkle_complete   <- C10_new_ok, C10_build_nodes_spec, C10_batch_complete   (C01_merkle_complete_inst)
     interp_complete, coset_off_domain <- C09_interpolate_with_offset_spec        (C01_interp_complete_inst)
     transcript_agree  <- C04_transcript_agree                                     (C01_transcript_agree_inst)
     divisor zero sets <- C16_transition_divisor_is_polynomial, assertion_evaluate_at (C01_transition/assertion_divisor_inst)
     fri_complete      <- C15_fri_complete (+ C10 for the layer trees)             (C01_fri_complete_inst)
   NO stage premise remains in `C01_stark_complete`.  `C01_stark_complete_generic_fri` keeps an arbitrary FRI stage with
   fri_complete as its one stage premise; the generic
   `C01_stark_complete_partial` / `..._valid_trace_partial` keep all stages as explicit premises (they are premises,
   not axioms).  Lagrange-kernel columns: `C01_stark_complete_lagrange` (end of this file).  Not covered by any theorem
   here: the byte-level round trip (C12), the coin's 1000-try limit (C19); the real code is tied to this model at the shape level and for the DEEP composition
   (correspondence) and by the end-to-end falsifier of checks/c01.py. *)
From Coq Require Import List Arith Bool ZArith Lia.
From VBase Require Import FieldOps.
From VModel Require Import Stark.
From VModel Require Polynom.
From VModel Require FFT Merkle Transcript Enforce Fri.
From VProofs Require FFTSpec FFTEval FFTOffset TranscriptRun TranscriptExamples.
From VProofs Require Import StarkPoly StarkDeep StarkComplete StarkShape StarkTie StarkInst StarkFri StarkExamples StarkInstExample StarkFriExample.
Import ListNotations.

Section Statements.
Context {F : Type} (O : FOps F) (L : FLaws O).
Local Notation zero := (fzero O).
Local Notation one := (fone O).
Local Notation "a -f b" := (fsub O a b) (at level 50, left associativity).
Local Notation "a *f b" := (fmul O a b) (at level 40, left associativity).

(* ---- polynomial layer *)
Theorem C01_root_factor : forall p a, peval O p a = zero ->
  exists q, length q = length p - 1 /\ forall x, peval O p x = (x -f a) *f peval O q x.
Proof. exact (root_factor O L). Qed.

Theorem C01_vanish_divisible : forall roots p, NoDup roots -> (forall r, In r roots -> peval O p r = zero) ->
  exists q, length q = length p - length roots /\ forall x, peval O p x = pprod O roots x *f peval O q x.
Proof. exact (vanish_divisible O L). Qed.

Theorem C01_domain_vanishing : forall g n, primitive_root O g n -> 0 < n ->
  forall x, pprod O (domain O g n) x = fpow O x n -f one.
Proof. exact (domain_vanishing O L). Qed.

(* ---- constraint quotients are polynomials *)
Theorem C01_quotient_is_poly : forall g n e N, primitive_root O g n -> 0 < n -> e <= n ->
  (forall i, i < n - e -> peval O N (fpow O g i) = zero) ->
  exists Q, length Q = length N - (n - e) /\
    (forall x, peval O N x = pprod O (domain O g (n - e)) x *f peval O Q x) /\
    (forall x, peval O N x *f pprod O (exempt O g n e) x = (fpow O x n -f one) *f peval O Q x).
Proof. exact (quotient_is_poly O L). Qed.

Theorem C01_air_quotient_exists : forall g n e N bs m, primitive_root O g n -> 0 < n -> e <= n ->
  (forall i, i < n - e -> peval O N (fpow O g i) = zero) ->
  length N - (n - e) <= m ->
  Forall (fun br => NoDup (snd br) /\ incl (snd br) (domain O g n) /\
                    (forall r, In r (snd br) -> peval O (fst br) r = zero) /\ length (fst br) - length (snd br) <= m) bs ->
  exists Q, length Q <= m /\ forall x, ~ In x (domain O g n) -> combined O g n e N bs x = peval O Q x.
Proof. exact (air_quotient_exists O L). Qed.

(* ---- the OOD consistency equation is an identity in z *)
Theorem C01_ood_equation_holds : forall n cols (Q : list F) k z, 0 < n -> length Q <= n * cols ->
  ood_lhs O n z 0 (evals O (segment (Q ++ repeat zero k) n cols) z) = peval O Q z.
Proof. exact (ood_equation_holds O L). Qed.

(* ---- DEEP composition *)
Theorem C01_deep_quotients_are_polys : forall T z,
  exists q, length q = length T - 1 /\ forall x, peval O T x -f peval O T z = (x -f z) *f peval O q x.
Proof. exact (deep_quotient_is_poly O L). Qed.

Theorem C01_deep_degree_le : forall n g (c : @Coin F) Ts Hs, 0 < n ->
  Forall (fun p => length p = n) Ts -> Forall (fun p => length p = n) Hs ->
  forall cur nxt hz, degree_of O (deep_poly O n g c Ts Hs cur nxt hz) <= n - 2.
Proof. exact (deep_degree_le O L). Qed.

(* the repaired assertion `assert!(degree <= trace_length - 2)` never fires ... *)
Theorem C01_deep_assert_lax_holds : forall n g (c : @Coin F) Ts Hs, 0 < n ->
  Forall (fun p => length p = n) Ts -> Forall (fun p => length p = n) Hs ->
  forall cur nxt hz, deep_assert O false n (deep_poly O n g c Ts Hs cur nxt hz) = true.
Proof. exact (deep_assert_lax_holds O L). Qed.

(* ... while the snapshot's `assert_eq!(trace_length - 2, degree)` fires for EVERY trace with constant columns and
   constant composition columns, every n >= 3 and every coin *)
Theorem C01_deep_assert_strict_refuted_general : forall n g (c : @Coin F) Ts Hs cur nxt hz, 3 <= n ->
  Forall (tail_zeros O) Ts -> Forall (tail_zeros O) Hs ->
  degree_of O (deep_poly O n g c Ts Hs cur nxt hz) = 0 /\ deep_assert O true n (deep_poly O n g c Ts Hs cur nxt hz) = false.
Proof. exact (deep_assert_strict_fires O L). Qed.

Theorem C01_query_consistency : forall n g (c : @Coin F) Ts Hs, 0 < n -> forall x, x <> c_z c -> x <> c_z c *f g ->
  peval O (deep_poly O n g c Ts Hs (evals O Ts (c_z c)) (evals O Ts (c_z c *f g)) (evals O Hs (c_z c))) x
  = v_deep O g c x (evals O Ts x) (evals O Hs x) (evals O Ts (c_z c)) (evals O Ts (c_z c *f g)) (evals O Hs (c_z c)).
Proof. exact (query_consistency O L). Qed.

(* ---- capstone (partial: stage hypotheses are explicit premises) *)
Theorem C01_stark_complete_partial :
  forall (Digest Opening FriProof : Type) (commit : list (list F) -> Digest)
    (open_prove : list (list F) -> list F -> Opening) (open_ok : Digest -> list F -> list (list F) -> Opening -> bool)
    (fri_prove : list F -> list F -> FriProof) (fri_verify : FriProof -> nat -> list F -> list F -> bool)
    (air_eval : F -> list F -> list F -> F) (interp_ce : (F -> F) -> list F)
    (n cols ce_size : nat) (g : F) (ce_coset lde : list F),
  (* merkle_complete (C10 + C09; discharged in C01_stark_complete) *)
  (forall (cs : list (list F)) xs, incl xs lde -> NoDup xs -> xs <> [] -> length xs <= 255 ->
     open_ok (commit cs) xs (map (evals O cs) xs) (open_prove cs xs) = true) ->
  (* fri_complete (C15) *)
  (forall d xs, length d = n -> last d zero = zero -> incl xs lde -> xs <> [] -> length xs <= 255 ->
     fri_verify (fri_prove d xs) (n - 2) xs (map (peval O d) xs) = true) ->
  (* interp_complete (C09) *)
  (forall f Q, length Q <= ce_size -> (forall x, In x ce_coset -> f x = peval O Q x) ->
     interp_ce f = Q ++ repeat zero (ce_size - length Q)) ->
  (* coset_off_domain (C16/C09) *)
  (forall x, In x ce_coset -> ~ In x (domain O g n)) ->
  forall (dbg : bool) (cP cV : @Coin F) (Ts : list (list F)) (Q : list F),
  2 <= n -> 1 <= cols -> n * cols <= ce_size -> Ts <> [] -> Forall (fun p => length p = n) Ts ->
  (* valid trace, through C01_air_quotient_exists and C01_comp_cols_fit *)
  length Q <= n * cols ->
  (forall x, ~ In x (domain O g n) -> air_eval x (evals O Ts x) (evals O Ts (x *f g)) = peval O Q x) ->
  (* transcript_agree (C04) *)
  cV = cP ->
  (* z outside the trace domain, z and z*g non-zero (syn_div_in_place asserts a non-zero divisor point); query points are
     LDE points different from z and z*g  (ASSUMPTION, probability <= 2^-30) *)
  ~ In (c_z cP) (domain O g n) -> c_z cP <> zero -> c_z cP *f g <> zero -> incl (c_xs cP) lde ->
  NoDup (c_xs cP) -> c_xs cP <> [] -> length (c_xs cP) <= 255 ->
  (forall x, In x (c_xs cP) -> x <> c_z cP /\ x <> c_z cP *f g) ->
  exists pf, prove O Digest Opening FriProof commit open_prove fri_prove air_eval interp_ce (mkParams n g cols false dbg) cP Ts = Done pf /\
             verify O Digest Opening FriProof open_ok fri_verify air_eval (mkParams n g cols false dbg) cV pf = None.
Proof. exact (stark_complete_partial O L). Qed.

(* the capstone stated from "all constraints hold on the trace" (composition of C01_air_quotient_exists and the above) *)
Theorem C01_stark_complete_valid_trace_partial :
  forall (Digest Opening FriProof : Type) (commit : list (list F) -> Digest)
    (open_prove : list (list F) -> list F -> Opening) (open_ok : Digest -> list F -> list (list F) -> Opening -> bool)
    (fri_prove : list F -> list F -> FriProof) (fri_verify : FriProof -> nat -> list F -> list F -> bool)
    (air_eval : F -> list F -> list F -> F) (interp_ce : (F -> F) -> list F)
    (n cols ce_size : nat) (g : F) (ce_coset lde : list F),
  (forall (cs : list (list F)) xs, incl xs lde -> NoDup xs -> xs <> [] -> length xs <= 255 ->
     open_ok (commit cs) xs (map (evals O cs) xs) (open_prove cs xs) = true) ->
  (forall d xs, length d = n -> last d zero = zero -> incl xs lde -> xs <> [] -> length xs <= 255 ->
     fri_verify (fri_prove d xs) (n - 2) xs (map (peval O d) xs) = true) ->
  (forall f Q, length Q <= ce_size -> (forall x, In x ce_coset -> f x = peval O Q x) ->
     interp_ce f = Q ++ repeat zero (ce_size - length Q)) ->
  (forall x, In x ce_coset -> ~ In x (domain O g n)) ->
  forall (dbg : bool) (cP cV : @Coin F) (Ts : list (list F)) (e : nat) (N : list F) (bs : list (list F * list F)),
  primitive_root O g n -> 2 <= n -> 1 <= cols -> n * cols <= ce_size ->
  Ts <> [] -> Forall (fun p => length p = n) Ts -> e <= n ->
  (* all transition constraints hold on the non-exempt steps (N = their random linear combination, as a polynomial) *)
  (forall i, i < n - e -> peval O N (fpow O g i) = zero) ->
  length N - (n - e) <= n * cols ->
  (* every boundary constraint group holds on its steps *)
  Forall (fun br => NoDup (snd br) /\ incl (snd br) (domain O g n) /\
                    (forall r, In r (snd br) -> peval O (fst br) r = zero) /\ length (fst br) - length (snd br) <= n * cols) bs ->
  (* the AIR's evaluation of the honest frame is the combined quotient formula of evaluate_constraints *)
  (forall x, ~ In x (domain O g n) -> air_eval x (evals O Ts x) (evals O Ts (x *f g)) = combined O g n e N bs x) ->
  cV = cP ->
  ~ In (c_z cP) (domain O g n) -> c_z cP <> zero -> c_z cP *f g <> zero -> incl (c_xs cP) lde ->
  NoDup (c_xs cP) -> c_xs cP <> [] -> length (c_xs cP) <= 255 ->
  (forall x, In x (c_xs cP) -> x <> c_z cP /\ x <> c_z cP *f g) ->
  exists pf, prove O Digest Opening FriProof commit open_prove fri_prove air_eval interp_ce (mkParams n g cols false dbg) cP Ts = Done pf /\
             verify O Digest Opening FriProof open_ok fri_verify air_eval (mkParams n g cols false dbg) cV pf = None.
Proof. exact (stark_complete_valid_trace_partial O L). Qed.

(* ---- stage premises discharged from the other properties (Proofs/StarkInst.v) *)
(* C16: zero set of an assertion divisor, in polynomial form *)
Theorem C01_coset_vanishing : forall c h m, primitive_root O h m -> 0 < m -> c <> zero ->
  forall x, pprod O (coset O c h m) x = fpow O x m -f fpow O c m.
Proof. exact (coset_vanishing O L). Qed.

(* C09_interpolate_with_offset_spec ==> interp_complete for interp_ce := fft::interpolate_poly_with_offset over offset*<w> *)
Theorem C01_interp_complete_inst : forall (two_adicity : nat) (itw : list F) (K : nat) (w winv offset : F),
  length itw = 2 ^ K -> S K <= two_adicity -> FFTSpec.root_cond O (S K) w -> w *f winv = one ->
  FFTEval.tw_ok O itw (S K) winv -> offset <> zero -> FFTSpec.two_pow_f O (S K) *f FFTOffset.n_inv O (S K) = one ->
  forall f Q, length Q <= ce_size K -> (forall x, In x (ce_coset O K w offset) -> f x = peval O Q x) ->
  interp_ce O two_adicity itw K w offset f = Q ++ repeat zero (ce_size K - length Q).
Proof. exact (interp_complete_inst O L). Qed.

(* C10_new_ok / C10_build_nodes_spec / C10_batch_complete ==> merkle_complete for the Merkle model of C10 *)
Theorem C01_merkle_complete_inst : forall (D : Type) (D_eqb : D -> D -> bool), (forall a b, D_eqb a b = true <-> a = b) ->
  forall (d0 : D) (merge : D -> D -> D) (hash_row : list F -> D) (lde : list F) (depth : nat),
  1 <= depth <= 62 -> length lde = 2 ^ depth ->
  forall (cs : list (list F)) xs, incl xs lde -> NoDup xs -> xs <> [] -> length xs <= 255 ->
  open_ok O D D_eqb merge hash_row lde (commit O D d0 merge hash_row lde cs) xs (map (evals O cs) xs)
          (open_prove O D d0 merge hash_row lde cs xs) = true.
Proof. exact (merkle_complete_inst O L). Qed.

(* C16_transition_divisor_is_polynomial ==> ConstraintDivisor::from_transition(n, e).evaluate_at(x) is the divisor of quotient_is_poly *)
Theorem C01_transition_divisor_inst : forall g (n e : nat) d x,
  (exists k, (0 <= k)%Z /\ Z.of_nat n = (2 ^ k)%Z) -> (Z.of_nat n < 2 ^ 64)%Z ->
  Enforce.fpow O g (Z.of_nat n) = one -> (forall i, (0 < i < Z.of_nat n)%Z -> Enforce.fpow O g i <> one) ->
  e <= n -> Enforce.from_transition O g (Z.of_nat n) (Z.of_nat e) = Some d ->
  Enforce.eval_exemptions O d x <> zero ->
  Enforce.evaluate_at O d x = pprod O (domain O g (n - e)) x.
Proof. exact (transition_divisor_inst O L). Qed.

Theorem C01_assertion_divisor_inst : forall (n : Z) (m : nat) c h x, (n < 2 ^ 64)%Z -> (Z.of_nat m <= n)%Z ->
  primitive_root O h m -> 0 < m -> c <> zero ->
  Enforce.evaluate_at O (Enforce.mkD [(Z.of_nat m, fpow O c m)] []) x = pprod O (coset O c h m) x.
Proof. exact (assertion_divisor_inst O L). Qed.

(* ---- the capstone with the stages instantiated by the models of C10 (Merkle), C09 (FFT interpolation), C04 (transcript) and
   an ARBITRARY FRI stage: remaining STAGE premise: fri_complete (discharged for the FRI model of C15 in C01_stark_complete below).  Everything else below is a shape fact, a fact about the field's roots of
   unity / twiddles, the validity of the trace, or an assumption on the drawn values. *)
Theorem C01_stark_complete_generic_fri :
  forall (D : Type) (D_eqb : D -> D -> bool), (forall a b, D_eqb a b = true <-> a = b) ->
  forall (d0 : D) (merge : D -> D -> D) (hash_row : list F -> D) (lde : list F) (depth : nat),
  1 <= depth <= 62 -> length lde = 2 ^ depth ->
  forall (two_adicity : nat) (rou : nat -> F) (itw : list F) (K : nat) (w offset : F),
  (* w = get_root_of_unity(log2 ce_size) is a primitive root, itw = fft::get_inv_twiddles(ce_size)  (shape via C09_get_inv_twiddles) *)
  S K <= two_adicity -> rou (S K) = w -> FFTSpec.root_cond O (S K) w ->
  FFT.get_inv_twiddles O two_adicity rou (2 ^ S K) = Some itw ->
  offset <> zero -> FFTSpec.two_pow_f O (S K) *f FFTOffset.n_inv O (S K) = one ->
  forall (FriProof : Type) (fri_prove : list F -> list F -> FriProof) (fri_verify : FriProof -> nat -> list F -> list F -> bool)
    (air_eval : F -> list F -> list F -> F) (sem : list (Transcript.chal * Transcript.cval) -> @Coin F)
    (n cols ce_b : nat) (g : F),
  (* fri_complete (C15) — the one remaining stage premise *)
  (forall d xs, length d = n -> last d zero = zero -> incl xs lde -> xs <> [] -> length xs <= 255 ->
     fri_verify (fri_prove d xs) (n - 2) xs (map (peval O d) xs) = true) ->
  forall (dbg : bool) (s : Transcript.shape) (Ts : list (list F)) (e : nat) (N : list F) (bs : list (list F * list F)),
  let cP := coin_prover sem s in
  let cV := coin_verifier sem s in
  primitive_root O g n -> fpow O offset (2 ^ S K) <> one ->
  2 <= n -> 1 <= cols -> 2 ^ S K = n * ce_b -> cols <= ce_b ->
  Ts <> [] -> Forall (fun p => length p = n) Ts -> e <= n ->
  (forall i, i < n - e -> peval O N (fpow O g i) = zero) ->
  length N - (n - e) <= n * cols ->
  Forall (fun br => NoDup (snd br) /\ incl (snd br) (domain O g n) /\
                    (forall r, In r (snd br) -> peval O (fst br) r = zero) /\ length (fst br) - length (snd br) <= n * cols) bs ->
  (forall x, ~ In x (domain O g n) -> air_eval x (evals O Ts x) (evals O Ts (x *f g)) = combined O g n e N bs x) ->
  ~ In (c_z cP) (domain O g n) -> c_z cP <> zero -> c_z cP *f g <> zero ->
  incl (c_xs cP) lde -> NoDup (c_xs cP) -> c_xs cP <> [] -> length (c_xs cP) <= 255 ->
  (forall x, In x (c_xs cP) -> x <> c_z cP /\ x <> c_z cP *f g) ->
  exists pf,
    prove O D (Opening D) FriProof (commit O D d0 merge hash_row lde) (open_prove O D d0 merge hash_row lde)
          fri_prove air_eval (interp_ce O two_adicity itw K w offset) (mkParams n g cols false dbg) cP Ts = Done pf /\
    verify O D (Opening D) FriProof (open_ok O D D_eqb merge hash_row lde) fri_verify air_eval
           (mkParams n g cols false dbg) cV pf = None.
Proof. exact (stark_complete O L). Qed.

(* C15_fri_complete ==> fri_complete for the FRI prover/verifier of Model/Fri.v (layer trees by the Merkle model of C10) *)
Theorem C01_fri_complete_inst :
  forall (rou : nat -> F) (K : nat), 1 <= K -> (forall k, k < K -> rou (S k) *f rou (S k) = rou k) -> rou 1 = fneg O one ->
  fadd O one one <> zero -> forall gen_offset : F, gen_offset <> zero ->
  forall (dbg : bool) (D : Type) (D_eqb : D -> D -> bool), (forall a b, D_eqb a b = true <-> a = b) ->
  forall (hash_elements : list F -> D) (MT MN : Type) (mt_new : list D -> option MT) (mt_root : MT -> D)
    (mt_prove_batch : MT -> list nat -> option MN) (mt_verify_batch : D -> list nat -> list D -> MN -> nat -> Fri.auth_res)
    (CS : Type) (cs_reseed : CS -> D -> CS) (cs_draw : CS -> CS * Fri.draw_res F),
  (forall leaves d, 1 <= d -> length leaves = 2 ^ d -> exists t, mt_new leaves = Some t) ->
  (forall leaves t d indexes dflt, mt_new leaves = Some t -> length leaves = 2 ^ d -> 1 <= d <= 62 ->
     indexes <> [] -> length indexes <= 255 -> NoDup indexes -> (forall i, In i indexes -> i < length leaves) ->
     exists nodes, mt_prove_batch t indexes = Some nodes /\
       mt_verify_batch (mt_root t) indexes (map (fun i => nth i leaves dflt) indexes) nodes d = Fri.AuthOk) ->
  (forall c, exists c' a, cs_draw c = (c', Fri.DrawOk a)) ->
  forall f b remmax, 1 <= f -> Fri.supported_folding (2 ^ f) = true ->
  forall (a k : nat) (coin0 : CS),
  Fri.num_fri_layers (Fri.mkOpts (2 ^ b) (2 ^ f) remmax) (2 ^ a) = Some k -> k * f < a -> b <= a - k * f -> a <= K -> a <= 62 ->
  forall d xs, length d = 2 ^ (a - b) -> 2 <= 2 ^ (a - b) -> incl xs (lde_of O rou gen_offset a) -> xs <> [] -> length xs <= 255 ->
  fri_verify O rou K gen_offset dbg D D_eqb hash_elements MN mt_verify_batch CS cs_reseed cs_draw f b remmax a coin0
    (fri_prove O rou K gen_offset D hash_elements MT MN mt_new mt_root mt_prove_batch CS cs_reseed cs_draw f b remmax a coin0 d xs)
    (2 ^ (a - b) - 2) xs (map (peval O d) xs) = true.
Proof. exact (fri_complete_inst O L). Qed.

(* ---- THE CAPSTONE, EVERY STAGE INSTANTIATED: Merkle model of C10 (trace / constraint / FRI-layer trees), FFT interpolation of
   C09, symbolic transcript of C04, FRI prover and verifier of C15.  NO stage premise remains.  Premises:
     (field)     rou: the two-adic roots of unity (rou_sq, rou_1), 1+1 <> 0, offset <> 0, offset^(ce size) <> 1, 2^(S kc) invertible,
                 rou (S kc) and g primitive roots of the CE / trace domain, itw = get_inv_twiddles;
     (schedule)  the property's well-formed FRI schedule: k layers of exact folding 2^f, k*f < a, blowup 2^b <= remainder domain;
                 a <= two-adicity, a <= 62;  CE domain = n * ce_b >= n * cols;
     (coin)      draw_total: no draw exhausts its 1000 tries (outside the claim);
     (trace)     all transition / boundary constraints hold (numerators vanish on their steps and fit the columns);
     (z)         z outside the trace domain, z and z*g non-zero, <= 255 distinct query points of the LDE domain, different from z, z*g. *)
Theorem C01_stark_complete :
  forall (D : Type) (D_eqb : D -> D -> bool), (forall a b, D_eqb a b = true <-> a = b) ->
  forall (d0 : D) (merge : D -> D -> D) (hash_elements : list F -> D)
    (rou : nat -> F) (K : nat), 1 <= K -> (forall k, k < K -> rou (S k) *f rou (S k) = rou k) -> rou 1 = fneg O one ->
  fadd O one one <> zero -> forall gen_offset : F, gen_offset <> zero ->
  forall (CS : Type) (cs_reseed : CS -> D -> CS) (cs_draw : CS -> CS * Fri.draw_res F),
  (forall c, exists c' a, cs_draw c = (c', Fri.DrawOk a)) ->
  forall (coin0 : CS) (sem : list (Transcript.chal * Transcript.cval) -> @Coin F) (f b remmax a k : nat),
  1 <= f -> Fri.supported_folding (2 ^ f) = true ->
  Fri.num_fri_layers (Fri.mkOpts (2 ^ b) (2 ^ f) remmax) (2 ^ a) = Some k -> k * f < a -> b <= a - k * f -> a <= K -> a <= 62 ->
  forall (two_adicity : nat) (itw : list F) (kc : nat),
  S kc <= two_adicity -> FFTSpec.root_cond O (S kc) (rou (S kc)) ->
  FFT.get_inv_twiddles O two_adicity rou (2 ^ S kc) = Some itw ->
  FFTSpec.two_pow_f O (S kc) *f FFTOffset.n_inv O (S kc) = one ->
  forall (dbg_fri : bool) (air_eval : F -> list F -> list F -> F) (cols ce_b : nat) (g : F)
    (dbg : bool) (s : Transcript.shape) (Ts : list (list F)) (e : nat) (N : list F) (bs : list (list F * list F)),
  let n := 2 ^ (a - b) in
  let lde := lde_of O rou gen_offset a in
  let cP := coin_prover sem s in
  let cV := coin_verifier sem s in
  primitive_root O g n -> fpow O gen_offset (2 ^ S kc) <> one ->
  2 <= n -> 1 <= cols -> 2 ^ S kc = n * ce_b -> cols <= ce_b ->
  Ts <> [] -> Forall (fun p => length p = n) Ts -> e <= n ->
  (forall i, i < n - e -> peval O N (fpow O g i) = zero) ->
  length N - (n - e) <= n * cols ->
  Forall (fun br => NoDup (snd br) /\ incl (snd br) (domain O g n) /\
                    (forall r, In r (snd br) -> peval O (fst br) r = zero) /\ length (fst br) - length (snd br) <= n * cols) bs ->
  (forall x, ~ In x (domain O g n) -> air_eval x (evals O Ts x) (evals O Ts (x *f g)) = combined O g n e N bs x) ->
  ~ In (c_z cP) (domain O g n) -> c_z cP <> zero -> c_z cP *f g <> zero ->
  incl (c_xs cP) lde -> NoDup (c_xs cP) -> c_xs cP <> [] -> length (c_xs cP) <= 255 ->
  (forall x, In x (c_xs cP) -> x <> c_z cP /\ x <> c_z cP *f g) ->
  exists pf,
    prove O D (Opening D) (FriProof D (list (list D)))
          (commit O D d0 merge hash_elements lde) (open_prove O D d0 merge hash_elements lde)
          (fri_prove O rou K gen_offset D hash_elements (Merkle.mtree D) (list (list D)) (mt_new' D d0 merge) (mt_root' D d0)
                     (mt_prove_batch' D d0) CS cs_reseed cs_draw f b remmax a coin0)
          air_eval (interp_ce O two_adicity itw kc (rou (S kc)) gen_offset) (mkParams n g cols false dbg) cP Ts = Done pf /\
    verify O D (Opening D) (FriProof D (list (list D))) (open_ok O D D_eqb merge hash_elements lde)
           (fri_verify O rou K gen_offset dbg_fri D D_eqb hash_elements (list (list D)) (mt_verify_batch' D D_eqb merge)
                       CS cs_reseed cs_draw f b remmax a coin0)
           air_eval (mkParams n g cols false dbg) cV pf = None.
Proof. exact (stark_complete_all_stages O L). Qed.

(* ---- tie to C20's model of polynom::syn_div_in_place (the DEEP quotients are its outputs) *)
Theorem C01_syn_div_in_place_is_syn1 : forall p z, feqb O z zero = false -> 1 < length p ->
  Polynom.syn_div_in_place O p 1 z = Polynom.Ok (fst (syn1 O p z)).
Proof. exact (syn_div_in_place_is_syn1 O). Qed.
End Statements.

Print Assumptions C01_root_factor.
Print Assumptions C01_vanish_divisible.
Print Assumptions C01_domain_vanishing.
Print Assumptions C01_quotient_is_poly.
Print Assumptions C01_air_quotient_exists.
Print Assumptions C01_ood_equation_holds.
Print Assumptions C01_deep_quotients_are_polys.
Print Assumptions C01_deep_degree_le.
Print Assumptions C01_deep_assert_lax_holds.
Print Assumptions C01_deep_assert_strict_refuted_general.
Print Assumptions C01_query_consistency.
Print Assumptions C01_stark_complete_partial.
Print Assumptions C01_stark_complete_valid_trace_partial.
Print Assumptions C01_coset_vanishing.
Print Assumptions C01_interp_complete_inst.
Print Assumptions C01_merkle_complete_inst.
Print Assumptions C01_transition_divisor_inst.
Print Assumptions C01_assertion_divisor_inst.
Print Assumptions C01_stark_complete_generic_fri.
Print Assumptions C01_fri_complete_inst.
Print Assumptions C01_stark_complete.
Print Assumptions C01_syn_div_in_place_is_syn1.

(* ---- refutation of the snapshot's degree EQUALITY on a concrete valid trace (Z/17, n = 8, one constant column) *)
Theorem C01_deep_degree_eq_refuted :
  exists (n : nat) (g : ZpLaws.Zp 17%Z) (Ts Hs : list (list (ZpLaws.Zp 17%Z))),
    primitive_root O17 g n /\ Forall (fun p => length p = n) Ts /\ Forall (fun p => length p = n) Hs /\
    (forall T, In T Ts -> forall i, peval O17 T (fpow O17 g (S i)) = peval O17 T (fpow O17 g i)) /\
    forall (c : @Coin (ZpLaws.Zp 17%Z)) cur nxt hz,
      degree_of O17 (deep_poly O17 n g c Ts Hs cur nxt hz) < n - 2 /\
      deep_assert O17 true n (deep_poly O17 n g c Ts Hs cur nxt hz) = false /\
      deep_assert O17 false n (deep_poly O17 n g c Ts Hs cur nxt hz) = true.
Proof. exact deep_degree_eq_refuted. Qed.
Print Assumptions C01_deep_degree_eq_refuted.

(* ---- non-vacuity *)
Example C01_quotient_is_poly_nonvacuous :
  peval O17 (roots_poly O17 (domain O17 g17 7)) (fpow O17 g17 7) <> fzero O17 /\
  exists Q, length Q = length (roots_poly O17 (domain O17 g17 7)) - (8 - 1) /\
    (forall x, peval O17 (roots_poly O17 (domain O17 g17 7)) x = fmul O17 (pprod O17 (domain O17 g17 (8 - 1)) x) (peval O17 Q x)) /\
    (forall x, fmul O17 (peval O17 (roots_poly O17 (domain O17 g17 7)) x) (pprod O17 (exempt O17 g17 8 1) x)
               = fmul O17 (fsub O17 (fpow O17 x 8) (fone O17)) (peval O17 Q x)).
Proof. exact quotient_is_poly_nonvacuous. Qed.
Print Assumptions C01_quotient_is_poly_nonvacuous.

Example C01_stark_complete_nonvacuous :
  exists pf,
    prove O17 (list (list (ZpLaws.Zp 17%Z))) unit (list (ZpLaws.Zp 17%Z)) (fun cs => cs) (fun _ _ => tt) (fun d _ => d) air5 (fun _ => repeat (fzero O17) 16)
          (mkParams 8 g17 1 false false) coin5 [T5] = Done pf /\
    verify O17 (list (list (ZpLaws.Zp 17%Z))) unit (list (ZpLaws.Zp 17%Z)) (fun d xs rows _ => lleqb rows (map (evals O17 d) xs))
           (fun pf _ xs evs => leqb evs (map (peval O17 pf) xs)) air5 (mkParams 8 g17 1 false false) coin5 pf = None.
Proof. exact stark_complete_nonvacuous. Qed.
Print Assumptions C01_stark_complete_nonvacuous.

(* C04_transcript_agree ==> the coin the verifier uses is the prover's, for every proof shape and every reading `sem` of the
   labelled challenge list into coin values *)
Theorem C01_transcript_agree_inst : forall (F : Type) (sem : list (Transcript.chal * Transcript.cval) -> @Coin F) s,
  coin_verifier sem s = coin_prover sem s.
Proof. exact @transcript_agree_inst. Qed.
Print Assumptions C01_transcript_agree_inst.

(* non-vacuity of C01_stark_complete: an instance over Z/17 (trace length 2, CE/LDE coset 3*<4>, Merkle model with D = Z,
   FFT interpolation, transcript shape s0, transparent FRI, debug profile) in which every hypothesis holds *)
Example C01_stark_complete_instance :
  exists pf,
    prove O17 Z (Opening Z) (list (ZpLaws.Zp 17%Z)) (commit O17 Z 0%Z Z.add (fun _ => 0%Z) lde4) (open_prove O17 Z 0%Z Z.add (fun _ => 0%Z) lde4)
          (fun d _ => d) air2 (interp_ce O17 4 itw2 1 w4 (e17 3%Z))
          (mkParams 2 g2 1 false true) (coin_prover (fun _ => coin2) TranscriptExamples.s0) [T2] = Done pf /\
    verify O17 Z (Opening Z) (list (ZpLaws.Zp 17%Z)) (open_ok O17 Z Z.eqb Z.add (fun _ => 0%Z) lde4)
           fri_v air2
           (mkParams 2 g2 1 false true) (coin_verifier (fun _ => coin2) TranscriptExamples.s0) pf = None.
Proof. exact stark_complete_instance. Qed.
Print Assumptions C01_stark_complete_instance.

(* non-vacuity of C01_stark_complete (all stages): Z/17, rou = (1,16,4,2,6), LDE = CE = 3*<2> (8 points), n = 4, FRI folding 2
   with one layer and a 4-point remainder, Merkle model with D = Z, debug profile *)
Example C01_stark_complete_all_stages_instance :
  exists pf,
    prove O17 Z (Opening Z) (FriProof Z (list (list Z)))
          (commit O17 Z 0%Z Z.add (fun _ => 0%Z) (lde_of O17 rouF (e17 3%Z) 3)) (open_prove O17 Z 0%Z Z.add (fun _ => 0%Z) (lde_of O17 rouF (e17 3%Z) 3))
          (fri_prove O17 rouF 4 (e17 3%Z) Z (fun _ => 0%Z) (Merkle.mtree Z) (list (list Z)) (mt_new' Z 0%Z Z.add) (mt_root' Z 0%Z)
                     (mt_prove_batch' Z 0%Z) unit (fun c _ => c) draw4 1 1 1 3 tt)
          air4 (interp_ce O17 4 itw8 2 (rouF 3) (e17 3%Z))
          (mkParams (2 ^ (3 - 1)) g4 1 false true) (coin_prover (fun _ => coin4) TranscriptExamples.s0) [T4] = Done pf /\
    verify O17 Z (Opening Z) (FriProof Z (list (list Z))) (open_ok O17 Z Z.eqb Z.add (fun _ => 0%Z) (lde_of O17 rouF (e17 3%Z) 3))
           (fri_verify O17 rouF 4 (e17 3%Z) true Z Z.eqb (fun _ => 0%Z) (list (list Z)) (mt_verify_batch' Z Z.eqb Z.add)
                       unit (fun c _ => c) draw4 1 1 1 3 tt)
           air4 (mkParams (2 ^ (3 - 1)) g4 1 false true) (coin_verifier (fun _ => coin4) TranscriptExamples.s0) pf = None.
Proof. exact stark_complete_all_stages_instance. Qed.
Print Assumptions C01_stark_complete_all_stages_instance.

(* ---- admissibility arithmetic (module Shape of Model/Stark.v; tied to the real constructors by the correspondence) *)
Open Scope Z_scope.
Theorem C01_comp_cols_fit : forall n degs e, 0 < n -> 0 <= Shape.comp_degree n degs e ->
  Shape.comp_degree n degs e < Shape.num_comp_cols n degs e * n /\
  (Shape.num_comp_cols n degs e - 1) * n <= Shape.comp_degree n degs e.
Proof. exact comp_cols_fit. Qed.
Print Assumptions C01_comp_cols_fit.

Theorem C01_comp_cols_le_ce : forall n ce degs e, 0 < n -> 1 <= ce -> Shape.exemptions_ok n ce degs e = true ->
  Shape.num_comp_cols n degs e <= ce.
Proof. exact comp_cols_le_ce. Qed.
Print Assumptions C01_comp_cols_le_ce.

Theorem C01_snapshot_cols_exact : forall n degs e, 0 < n -> 0 <= Shape.comp_degree n degs e ->
  Shape.num_comp_cols_snapshot n degs e =
  Shape.num_comp_cols n degs e - (if (Shape.comp_degree n degs e mod n =? 0) && (0 <? Shape.comp_degree n degs e) then 1 else 0).
Proof. exact snapshot_cols_exact. Qed.
Print Assumptions C01_snapshot_cols_exact.

Theorem C01_snapshot_loss_iff_exemptions_eq_degree : forall n d e, 2 <= n -> 1 <= d <= n -> 1 <= e <= n ->
  (Shape.num_comp_cols_snapshot n [(d, [])] e < Shape.num_comp_cols n [(d, [])] e <-> (e = d /\ 2 <= d)).
Proof. exact snapshot_loss_iff_exemptions_eq_degree. Qed.
Print Assumptions C01_snapshot_loss_iff_exemptions_eq_degree.

(* the snapshot's constructors accept a parameter set whose composition polynomial does not fit its columns *)
Theorem C01_snapshot_cols_refuted :
  exists mw log_n blowup e md,
    Shape.ctx_model mw 0 0 log_n blowup 1 0 true (Some e) md [] <> None /\
    Shape.options_ok 1 blowup 0 2 0 = true /\
    0 < Shape.comp_degree (2 ^ log_n) md e /\
    Shape.num_comp_cols_snapshot (2 ^ log_n) md e * 2 ^ log_n <= Shape.comp_degree (2 ^ log_n) md e.
Proof. exact snapshot_cols_refuted. Qed.
Print Assumptions C01_snapshot_cols_refuted.

Theorem C01_exemptions_bound_no_underflow : forall n degs d, 1 <= n -> In d degs -> Shape.degree_ok d = true ->
  Shape.eval_degree n d <= Shape.ce_blowup degs * n - 1 + n.
Proof. exact exemptions_bound_no_underflow. Qed.
Print Assumptions C01_exemptions_bound_no_underflow.

Theorem C01_default_exemption_ok : forall n degs, 2 <= n -> forallb Shape.degree_ok degs = true ->
  Shape.exemptions_ok n (Shape.ce_blowup degs) degs 1 = true.
Proof. exact default_exemption_ok. Qed.
Print Assumptions C01_default_exemption_ok.

(* the property's FRI well-formedness condition: k exact folds, at least `blowup` rows (one coefficient) remain *)
Theorem C01_fri_wellformed_spec : forall lde blowup fold rem, 2 <= fold -> 0 < blowup ->
  Shape.fri_wellformed lde blowup fold rem = true ->
  exists k rem_size, Shape.num_fri_layers lde blowup fold rem = Some k /\ 0 <= k /\ lde = fold ^ k * rem_size /\
                     rem_size <= (rem + 1) * blowup /\ blowup <= rem_size.
Proof. exact fri_wellformed_spec. Qed.
Print Assumptions C01_fri_wellformed_spec.

Example C01_fri_wellformed_example :
  Shape.fri_wellformed 4096 8 4 31 = true /\ Shape.num_fri_layers 4096 8 4 31 = Some 2 /\
  Shape.fri_wellformed 16 2 16 0 = false /\ Shape.fri_wellformed 64 2 8 0 = false.
Proof. exact fri_wellformed_example. Qed.
Print Assumptions C01_fri_wellformed_example.

(* ---- non-vacuity (shape level) *)
Example C01_comp_cols_example :
  Shape.ctx_model 2 0 0 4 8 1 0 true (Some 5) [(9, []); (3, [4])] [] = Some (16 * 8, 8, 16 * 8, 5) /\
  Shape.exemptions_ok 16 8 [(9, []); (3, [4])] 5 = true /\ Shape.comp_degree 16 [(9, []); (3, [4])] 5 = 124.
Proof. exact comp_cols_example. Qed.
Print Assumptions C01_comp_cols_example.

(* ================================================================================================ *)
(* Round "Lagrange in the model" (Model/StarkLagrange.v, Proofs/StarkLagrangeRows.v, Proofs/StarkLagrange.v).            *)
(* The existing capstone C01_stark_complete is untouched.  C01_stark_complete_lagrange_partial keeps the stages Merkle / FRI /  *)
(* ce-interpolation / point interpolation as premises; C01_stark_complete_lagrange (further below) has them instantiated as   *)
(* C01_stark_complete does (C10, C15, C09, C04) plus C20's interpolate.  Outside the library: the GKR step hands the same rr   *)
(* to both sides.                                                                                                            *)
From VModel Require StarkLagrange EnforceLagrange Composition.
From VProofs Require StarkLagrangeRows StarkLagrange StarkLagrangeExample CompositionLagrangePoly.
Local Open Scope nat_scope.

(* (2) row-to-point translation (C17's gap (i)): for the honest kernel column and ANY interpolant Lp of it over the trace domain,
   C17's hypotheses numer_vanishes and first_cell hold, hence every Lagrange quotient is a polynomial *)
Theorem C01_lagrange_honest_numer_vanishes : forall (F : Type) (O : FOps F), FLaws O -> forall (n v : nat) (g : F), n = 2 ^ v ->
  forall rr : list F, length rr = v -> forall Lp : list F,
  (forall i, i < n -> Composition.peval O Lp (Composition.cpow O g i) = nth i (StarkLagrangeRows.kernel_col O v rr) (fzero O)) ->
  forall idx j, idx < v -> j < 2 ^ idx ->
  Composition.peval O (CompositionLagrangePoly.lag_numer_poly O v g Lp rr idx)
                    (Composition.cpow O (CompositionLagrangePoly.hsub O v g idx) j) = fzero O.
Proof. exact @StarkLagrangeRows.honest_numer_vanishes. Qed.
Print Assumptions C01_lagrange_honest_numer_vanishes.

Theorem C01_lagrange_honest_first_cell : forall (F : Type) (O : FOps F), FLaws O -> forall (n v : nat) (g : F), n = 2 ^ v ->
  forall rr : list F, length rr = v -> forall Lp : list F,
  (forall i, i < n -> Composition.peval O Lp (Composition.cpow O g i) = nth i (StarkLagrangeRows.kernel_col O v rr) (fzero O)) ->
  0 < n -> Composition.peval O Lp (fone O) = EnforceLagrange.lag_assertion_value O rr.
Proof. exact @StarkLagrangeRows.honest_first_cell. Qed.
Print Assumptions C01_lagrange_honest_first_cell.

Theorem C01_lagrange_honest_term_is_poly : forall (F : Type) (O : FOps F), FLaws O -> forall (n v : nat) (g : F), n = 2 ^ v ->
  forall rr : list F, length rr = v -> forall Lp : list F,
  (forall i, i < n -> Composition.peval O Lp (Composition.cpow O g i) = nth i (StarkLagrangeRows.kernel_col O v rr) (fzero O)) ->
  StarkPoly.primitive_root O g n -> forall idx, idx < v ->
  exists q, length q = length Lp - 2 ^ idx /\
    forall x, Composition.peval O (CompositionLagrangePoly.lag_numer_poly O v g Lp rr idx) x
              = fmul O (fsub O (Composition.cpow O x (2 ^ idx)) (fone O)) (Composition.peval O q x).
Proof. exact @StarkLagrangeRows.honest_lagrange_term_is_poly. Qed.
Print Assumptions C01_lagrange_honest_term_is_poly.

(* the DEEP term of the kernel column: (T_l - p_S) = Z_S * quotient; the quotient keeps n coefficients with a zero top one *)
Theorem C01_lagrange_deep_term : forall (F : Type) (O : FOps F) (L : FLaws O) (interp_pts : list F -> list F -> list F),
  (forall xs ys, NoDup xs -> length ys = length xs -> length (interp_pts xs ys) <= length xs /\
     forall m, m < length xs -> peval O (interp_pts xs ys) (nth m xs (fzero O)) = nth m ys (fzero O)) ->
  forall (n v : nat) (g z : F) (Lp : list F), n = 2 ^ v -> StarkPoly.primitive_root O g n -> z <> fzero O -> length Lp = n -> 1 <= v ->
  forall lcc,
  let xs := StarkLagrange.lag_pts O g z v in let lf := StarkLagrange.lag_frame O g v Lp z in
  (forall x, fmul O (pprod O xs x) (peval O (StarkLagrange.deep_lag O interp_pts lcc Lp xs lf) x)
             = fmul O (fsub O (peval O Lp x) (peval O (interp_pts xs lf) x)) lcc) /\
  length (StarkLagrange.deep_lag O interp_pts lcc Lp xs lf) = n /\
  last (StarkLagrange.deep_lag O interp_pts lcc Lp xs lf) (fzero O) = fzero O.
Proof.
  intros F O L ip Hip n v g z Lp Hn Hg Hz HL Hv lcc xs lf. split.
  - intros x. exact (StarkLagrange.deep_lag_eval O L ip Hip n v g z Lp Hn Hg Hz lcc x).
  - exact (StarkLagrange.deep_lag_shape O L ip Hip n v g z Lp Hn Hg Hz HL Hv lcc).
Qed.
Print Assumptions C01_lagrange_deep_term.

(* (3) the capstone with a Lagrange-kernel column, PARTIAL: stage premises = the Section hypotheses of Proofs/StarkLagrange.v
   (merkle_complete, fri_complete, interp_pts_spec) and the first two premises of its theorem (interp_complete, coset_off_domain) *)
Section C01LagrangeCapstone.
  Context {F : Type} (O : FOps F) (L : FLaws O).
  Variables (Digest Opening FriProof : Type).
  Variable commit : list (list F) -> Digest.
  Variable open_prove : list (list F) -> list F -> Opening.
  Variable open_ok : Digest -> list F -> list (list F) -> Opening -> bool.
  Variable fri_prove : list F -> list F -> FriProof.
  Variable fri_verify : FriProof -> nat -> list F -> list F -> bool.
  Variable air_eval : F -> list F -> list F -> F.
  Variable interp_ce : (F -> F) -> list F.
  Variable interp_pts : list F -> list F -> list F.
  Variables (n cols ce_size v : nat) (g : F).
  Variable ce_coset : list F.
  Variable lde : list F.
  (* stage premises (C10 / C15 / C20 / C09 / coset) *)
  Hypothesis merkle_complete : forall (cs : list (list F)) xs, incl xs lde -> NoDup xs -> xs <> [] -> length xs <= 255 ->
    open_ok (commit cs) xs (map (evals O cs) xs) (open_prove cs xs) = true.
  Hypothesis fri_complete : forall d xs, length d = n -> last d (fzero O) = fzero O -> incl xs lde -> xs <> [] -> length xs <= 255 ->
    fri_verify (fri_prove d xs) (n - 2) xs (map (peval O d) xs) = true.
  Hypothesis interp_pts_spec : forall xs ys, NoDup xs -> length ys = length xs ->
    length (interp_pts xs ys) <= length xs /\
    forall m, m < length xs -> peval O (interp_pts xs ys) (nth m xs (fzero O)) = nth m ys (fzero O).
  Hypothesis interp_complete : forall f Q, length Q <= ce_size -> (forall x, In x ce_coset -> f x = peval O Q x) ->
    interp_ce f = Q ++ repeat (fzero O) (ce_size - length Q).
  Hypothesis coset_off_domain : forall x, In x ce_coset -> ~ In x (domain O g n).

  Theorem C01_stark_complete_lagrange_partial : forall (dbg : bool) (lc : @StarkLagrange.LagC F) (cP cV : @Coin F) (lcc : F)
      (Ts : list (list F)) (Lp : list F) (Qc : list F),
    n = 2 ^ v -> 2 <= v -> v < 64 -> StarkPoly.primitive_root O g n -> 1 <= cols -> n * cols <= ce_size ->
    Ts <> [] -> Forall (fun p => length p = n) Ts -> length Lp = n ->
    length Qc <= n * cols ->
    (forall x, ~ In x (domain O g n) -> air_eval x (evals O Ts x) (evals O Ts (fmul O x g)) = peval O Qc x) ->
    length (EnforceLagrange.l_coef (StarkLagrange.lc_t lc)) = v -> length (StarkLagrange.lc_rr lc) = v ->
    length (EnforceLagrange.l_div (StarkLagrange.lc_t lc)) = v ->
    (forall idx, idx < v -> nth idx (EnforceLagrange.l_div (StarkLagrange.lc_t lc)) (Enforce.mkD [] [])
                            = Enforce.mkD [((2 ^ Z.of_nat idx)%Z, fone O)] []) ->
    (forall i, i < n -> peval O Lp (fpow O g i) = nth i (StarkLagrange.kernel_col O (StarkLagrange.lc_rr lc) v) (fzero O)) ->
    cV = cP ->
    ~ In (c_z cP) (domain O g n) -> c_z cP <> fzero O -> fmul O (c_z cP) g <> fzero O ->
    incl (c_xs cP) lde -> NoDup (c_xs cP) -> c_xs cP <> [] -> length (c_xs cP) <= 255 ->
    (forall x, In x (c_xs cP) -> ~ In x (StarkLagrange.lag_pts O g (c_z cP) v)) ->
    exists pf,
      StarkLagrange.prove_lag O interp_pts Digest Opening FriProof commit open_prove fri_prove air_eval interp_ce
        (mkParams n g cols false dbg) v lc cP lcc Ts Lp = Done pf /\
      StarkLagrange.verify_lag O interp_pts Digest Opening FriProof open_ok fri_verify air_eval
        (mkParams n g cols false dbg) v lc cV lcc pf = StarkLagrange.VAccept.
  Proof.
    intros dbg lc cP cV lcc Ts Lp Qc.
    exact (StarkLagrange.stark_complete_lagrange_partial O L Digest Opening FriProof commit open_prove open_ok fri_prove fri_verify
             air_eval interp_ce interp_pts n cols ce_size v g ce_coset lde merkle_complete fri_complete interp_pts_spec
             dbg lc cP cV lcc Ts Lp Qc interp_complete coset_off_domain).
  Qed.
End C01LagrangeCapstone.
Print Assumptions C01_stark_complete_lagrange_partial.

(* (3') the capstone with a Lagrange-kernel column, ALL stages instantiated (Proofs/StarkLagrangeInst.v): Merkle = Model/Merkle.v
   (C10), ce-interpolation = fft::interpolate_poly_with_offset (C09), FRI = Model/Fri.v (C15), coin = a function of the symbolic
   challenge list (C04), point interpolation = polynom::interpolate(.., true) of Model/Polynom.v (C20, remove_leading_zeros
   included).  NO stage premise.  Premises: those of C01_stark_complete (hashing, field facts, FRI schedule, shape, draw_total, z and
   query points) with "valid trace" = valid ordinary part (quotient Qc) + HONEST kernel column + the shape of
   LagrangeKernelTransitionConstraints::new, trace length n = 2^v with 2 <= v < 64, and the query points are none of the v + 1
   opening points of the kernel column.  Assumption outside the library: the GKR step hands the same lc_rr to both sides. *)
From VModel Require FFT Merkle Transcript Fri.
From VProofs Require FFTSpec FFTOffset StarkInst StarkFri StarkLagrangeInst.
Theorem C01_stark_complete_lagrange : forall (F : Type) (O : FOps F), FLaws O ->
  forall (D : Type) (D_eqb : D -> D -> bool), (forall a b, D_eqb a b = true <-> a = b) ->
  forall (d0 : D) (merge : D -> D -> D) (hash_elements : list F -> D)
    (rou : nat -> F) (K : nat), 1 <= K -> (forall k, k < K -> fmul O (rou (S k)) (rou (S k)) = rou k) -> rou 1 = fneg O (fone O) ->
  fadd O (fone O) (fone O) <> fzero O -> forall gen_offset : F, gen_offset <> fzero O ->
  forall (CS : Type) (cs_reseed : CS -> D -> CS) (cs_draw : CS -> CS * Fri.draw_res F),
  (forall c, exists c' a, cs_draw c = (c', Fri.DrawOk a)) ->
  forall (coin0 : CS) (sem : list (Transcript.chal * Transcript.cval) -> @Coin F) (f b remmax a k : nat),
  1 <= f -> Fri.supported_folding (2 ^ f) = true ->
  Fri.num_fri_layers (Fri.mkOpts (2 ^ b) (2 ^ f) remmax) (2 ^ a) = Some k -> k * f < a -> b <= a - k * f -> a <= K -> a <= 62 ->
  forall (two_adicity : nat) (itw : list F) (kc : nat),
  S kc <= two_adicity -> FFTSpec.root_cond O (S kc) (rou (S kc)) ->
  FFT.get_inv_twiddles O two_adicity rou (2 ^ S kc) = Some itw ->
  fmul O (FFTSpec.two_pow_f O (S kc)) (FFTOffset.n_inv O (S kc)) = fone O ->
  forall (dbg_fri dbg_interp : bool) (air_eval : F -> list F -> list F -> F) (cols ce_b : nat) (g : F)
    (dbg : bool) (s : Transcript.shape) (lc : @StarkLagrange.LagC F) (lcc : F) (Ts : list (list F)) (Lp Qc : list F),
  let v := a - b in
  let n := 2 ^ v in
  let lde := StarkFri.lde_of O rou gen_offset a in
  let cP := StarkInst.coin_prover sem s in
  let cV := StarkInst.coin_verifier sem s in
  StarkPoly.primitive_root O g n -> fpow O gen_offset (2 ^ S kc) <> fone O ->
  2 <= v -> v < 64 -> 1 <= cols -> 2 ^ S kc = n * ce_b -> cols <= ce_b ->
  Ts <> [] -> Forall (fun p => length p = n) Ts -> length Lp = n ->
  length Qc <= n * cols ->
  (forall x, ~ In x (domain O g n) -> air_eval x (evals O Ts x) (evals O Ts (fmul O x g)) = peval O Qc x) ->
  length (EnforceLagrange.l_coef (StarkLagrange.lc_t lc)) = v -> length (StarkLagrange.lc_rr lc) = v ->
  length (EnforceLagrange.l_div (StarkLagrange.lc_t lc)) = v ->
  (forall idx, idx < v -> nth idx (EnforceLagrange.l_div (StarkLagrange.lc_t lc)) (Enforce.mkD [] [])
                          = Enforce.mkD [((2 ^ Z.of_nat idx)%Z, fone O)] []) ->
  (forall i, i < n -> peval O Lp (fpow O g i) = nth i (StarkLagrange.kernel_col O (StarkLagrange.lc_rr lc) v) (fzero O)) ->
  ~ In (c_z cP) (domain O g n) -> c_z cP <> fzero O -> fmul O (c_z cP) g <> fzero O ->
  incl (c_xs cP) lde -> NoDup (c_xs cP) -> c_xs cP <> [] -> length (c_xs cP) <= 255 ->
  (forall x, In x (c_xs cP) -> ~ In x (StarkLagrange.lag_pts O g (c_z cP) v)) ->
  exists pf,
    StarkLagrange.prove_lag O (StarkLagrange.interp_pts_c20 O dbg_interp) D (StarkInst.Opening D) (StarkFri.FriProof D (list (list D)))
      (StarkInst.commit O D d0 merge hash_elements lde) (StarkInst.open_prove O D d0 merge hash_elements lde)
      (StarkFri.fri_prove O rou K gen_offset D hash_elements (Merkle.mtree D) (list (list D)) (StarkFri.mt_new' D d0 merge) (StarkFri.mt_root' D d0)
                 (StarkFri.mt_prove_batch' D d0) CS cs_reseed cs_draw f b remmax a coin0)
      air_eval (StarkInst.interp_ce O two_adicity itw kc (rou (S kc)) gen_offset) (mkParams n g cols false dbg) v lc cP lcc Ts Lp = Done pf /\
    StarkLagrange.verify_lag O (StarkLagrange.interp_pts_c20 O dbg_interp) D (StarkInst.Opening D) (StarkFri.FriProof D (list (list D)))
      (StarkInst.open_ok O D D_eqb merge hash_elements lde)
      (StarkFri.fri_verify O rou K gen_offset dbg_fri D D_eqb hash_elements (list (list D)) (StarkFri.mt_verify_batch' D D_eqb merge)
                  CS cs_reseed cs_draw f b remmax a coin0)
      air_eval (mkParams n g cols false dbg) v lc cV lcc pf = StarkLagrange.VAccept.
Proof. exact @StarkLagrangeInst.stark_complete_lagrange. Qed.
Print Assumptions C01_stark_complete_lagrange.

(* the model's point interpolation IS C20's polynom::interpolate(xs, ys, true) and meets the stage premise interp_pts_spec *)
Theorem C01_interp_pts_inst : forall (F : Type) (O : FOps F), FLaws O -> forall (dbg : bool) (xs ys : list F),
  NoDup xs -> length ys = length xs ->
  length (StarkLagrange.interp_pts_c20 O dbg xs ys) <= length xs /\
  forall m, m < length xs -> peval O (StarkLagrange.interp_pts_c20 O dbg xs ys) (nth m xs (fzero O)) = nth m ys (fzero O).
Proof. exact @StarkLagrangeInst.interp_pts_c20_spec. Qed.
Print Assumptions C01_interp_pts_inst.

(* (5) non-vacuity: Z/17, n = 8, g = 2, r = (2, 3, 5) *)
Example C01_lagrange_honest_nonvacuous :
  (forall idx j, idx < 3 -> j < 2 ^ idx ->
     Composition.peval StarkExamples.O17 (CompositionLagrangePoly.lag_numer_poly StarkExamples.O17 3 StarkExamples.g17 StarkLagrangeExample.Lp17 StarkLagrangeExample.rr17 idx)
       (Composition.cpow StarkExamples.O17 (CompositionLagrangePoly.hsub StarkExamples.O17 3 StarkExamples.g17 idx) j) = fzero StarkExamples.O17) /\
  Composition.peval StarkExamples.O17 StarkLagrangeExample.Lp17 (fone StarkExamples.O17)
    = EnforceLagrange.lag_assertion_value StarkExamples.O17 StarkLagrangeExample.rr17.
Proof. split; [exact (proj1 StarkLagrangeExample.lagrange_honest_nonvacuous) | exact (proj1 (proj2 StarkLagrangeExample.lagrange_honest_nonvacuous))]. Qed.
Print Assumptions C01_lagrange_honest_nonvacuous.

(* the NON-STAGE hypotheses of C01_stark_complete_lagrange(_partial) are jointly satisfiable (Z/17, n = 8, g = 2, constant column T5
   under air5, honest kernel column for r = (2,3,5), z = 6, queries 3, 5), and on that instance the Lagrange part of the composition
   polynomial exists; the stage hypotheses are instantiated in general by C01_stark_complete_lagrange *)
Example C01_stark_complete_lagrange_hyps_nonvacuous :
  8 = 2 ^ 3 /\ 2 <= 3 /\ 3 < 64 /\ StarkPoly.primitive_root StarkExamples.O17 StarkExamples.g17 8 /\ 8 * 1 <= 16 /\
  [StarkExamples.T5] <> [] /\ Forall (fun p : list (ZpLaws.Zp 17%Z) => length p = 8) [StarkExamples.T5] /\ length StarkLagrangeExample.Lp17 = 8 /\
  (forall x, ~ In x (domain StarkExamples.O17 StarkExamples.g17 8) ->
     StarkExamples.air5 x (evals StarkExamples.O17 [StarkExamples.T5] x) (evals StarkExamples.O17 [StarkExamples.T5] (fmul StarkExamples.O17 x StarkExamples.g17))
     = peval StarkExamples.O17 [] x) /\
  length (EnforceLagrange.l_coef (StarkLagrange.lc_t StarkLagrangeExample.lc17)) = 3 /\ length (StarkLagrange.lc_rr StarkLagrangeExample.lc17) = 3 /\
  length (EnforceLagrange.l_div (StarkLagrange.lc_t StarkLagrangeExample.lc17)) = 3 /\
  (forall idx, idx < 3 -> nth idx (EnforceLagrange.l_div (StarkLagrange.lc_t StarkLagrangeExample.lc17)) (Enforce.mkD [] [])
                          = Enforce.mkD [((2 ^ Z.of_nat idx)%Z, fone StarkExamples.O17)] []) /\
  (forall i, i < 8 -> peval StarkExamples.O17 StarkLagrangeExample.Lp17 (fpow StarkExamples.O17 StarkExamples.g17 i)
                      = nth i (StarkLagrange.kernel_col StarkExamples.O17 (StarkLagrange.lc_rr StarkLagrangeExample.lc17) 3) (fzero StarkExamples.O17)) /\
  ~ In (c_z StarkExamples.coin5) (domain StarkExamples.O17 StarkExamples.g17 8) /\ c_z StarkExamples.coin5 <> fzero StarkExamples.O17 /\
  fmul StarkExamples.O17 (c_z StarkExamples.coin5) StarkExamples.g17 <> fzero StarkExamples.O17 /\
  NoDup (c_xs StarkExamples.coin5) /\ c_xs StarkExamples.coin5 <> [] /\ length (c_xs StarkExamples.coin5) <= 255 /\
  (forall x, In x (c_xs StarkExamples.coin5) -> ~ In x (StarkLagrange.lag_pts StarkExamples.O17 StarkExamples.g17 (c_z StarkExamples.coin5) 3)) /\
  exists Ql, length Ql <= 8 /\
    forall x, ~ In x (domain StarkExamples.O17 StarkExamples.g17 8) ->
      StarkLagrange.lag_tot StarkExamples.O17 StarkLagrangeExample.lc17 (StarkLagrange.lag_frame StarkExamples.O17 StarkExamples.g17 3 StarkLagrangeExample.Lp17 x) x
      = peval StarkExamples.O17 Ql x.
Proof. exact StarkLagrangeExample.lagrange_capstone_hyps_nonvacuous. Qed.
Print Assumptions C01_stark_complete_lagrange_hyps_nonvacuous.
