(* C04 — Fiat–Shamir transcript: challenges depend on all earlier prover messages.
   Only statements, `exact` of lemmas proved in Proofs/Transcript*.v, and Print Assumptions.

   Model: coq/Model/Transcript.v.  [prover s] / [verifier s] are the sequences of RandomCoin operations performed by
   Prover::generate_proof and by verify()/perform_verification()/FriVerifier::new for a proof of shape s (all shapes:
   single / multi segment, with or without a Lagrange-kernel column whose GKR step draws any number g of elements, any
   numbers of constraints, assertions, composition columns, extension degree, FRI layers 0.., grinding, queries).  [run] executes a list symbolically: every challenge gets the
   term it is derived from, [hist t] is the exact sequence of values absorbed into the seed t. *)
From Coq Require Import List Arith Bool ZArith.
From VBase Require Import MachInt.
From VModel Require Import Transcript.
From VProofs Require Import TranscriptRun TranscriptSeed TranscriptExamples TranscriptLoop.
Import ListNotations.

(* ---- transcript_agree ---------------------------------------------------------------------------------------
   Prover and verifier absorb the same values in the same order; every challenge the prover derives is derived by the
   verifier from the same seed term with the same draw index; the verifier derives exactly one more value — the FRI
   alpha drawn after the remainder commitment (layer_alphas[num_layers], never read) — and the coin states after the
   query-position draw coincide, so nothing depends on it. *)
Theorem C04_transcript_agree : forall s : shape,
  absorbs (prover s) = absorbs (verifier s)
  /\ filter usedb (run cs_init (verifier s)) = run cs_init (prover s)
  /\ (exists t, filter (fun cv => negb (usedb cv)) (run cs_init (verifier s)) = [(FriAlphaUnused, CDraw t 0)]
                /\ hist t = msgs_before s FriAlphaUnused)
  /\ exec cs_init (prover s) = exec cs_init (verifier s).
Proof. exact transcript_agree. Qed.
Print Assumptions C04_transcript_agree.

(* the challenges derived are exactly the ones the protocol needs, for every shape (so C04_challenge_depends_on_all_prior
   never quantifies over an empty set: OodPoint, PowCheck and QueryPositions are always present) *)
Theorem C04_challenges_prover : forall s, map fst (run cs_init (prover s)) = challenges false s.
Proof. exact labels_prover. Qed.
Print Assumptions C04_challenges_prover.

Theorem C04_challenges_verifier : forall s, map fst (run cs_init (verifier s)) = challenges true s.
Proof. exact labels_verifier. Qed.
Print Assumptions C04_challenges_verifier.

(* ---- challenge_depends_on_all_prior ------------------------------------------------------------------------------
   [msgs_before s c] is the protocol's requirement (Model/Transcript.v), [precedes s m c := In m (msgs_before s c)].
   The seed of every challenge, on either side, has absorbed exactly the context elements, the public inputs and every
   prover message that precedes the challenge, in protocol order — and nothing else. *)
Theorem C04_challenge_depends_on_all_prior : forall (s : shape) (side : bool) (c : chal) (v : cval),
  In (c, v) (run cs_init (if side then verifier s else prover s)) ->
  hist (cval_term v) = msgs_before s c
  /\ (forall m, precedes s m c -> absorbed_in m (cval_term v))
  /\ absorbed_in CtxElems (cval_term v) /\ absorbed_in PubInputs (cval_term v).
Proof. exact challenge_depends_on_all_prior. Qed.
Print Assumptions C04_challenge_depends_on_all_prior.

(* the induction on the event list behind it, for ANY list of coin operations: a challenge's seed history is the
   absorbed symbols of the events before it (plus its own nonce argument) *)
Theorem C04_history_is_prefix : forall l st c v,
  (forall x, In x l -> match fst x with EvNew _ => False | _ => True end) ->
  In (c, v) (run st l) ->
  exists l1 e l2, l = l1 ++ (e, Some c) :: l2 /\
    hist (cval_term v) = hist (cs_seed st) ++ absorbs l1 ++ own_nonce e.
Proof. exact run_hist_prefix. Qed.
Print Assumptions C04_history_is_prefix.

(* the decision procedure applied to the logs observed on the real prover / verifier is sound for the property *)
Theorem C04_log_ok_sound : forall side s l,
  log_ok side s l = true ->
  let ls := label (drawn_challenges side s) l in
  map fst (run cs_init ls) = challenges side s
  /\ (forall c v, In (c, v) (run cs_init ls) ->
        hist (cval_term v) = msgs_before s c /\ forall m, precedes s m c -> absorbed_in m (cval_term v)).
Proof. exact log_ok_sound. Qed.
Print Assumptions C04_log_ok_sound.

(* ... and it accepts the event lists of both generators, for every shape: a rejection of an observed log is always a
   disagreement between the implementation and the model, never an artefact of the labelling *)
Theorem C04_log_ok_accepts_model : forall (side : bool) s,
  log_ok side s (map fst (if side then verifier s else prover s)) = true.
Proof. exact log_ok_generators. Qed.
Print Assumptions C04_log_ok_accepts_model.

(* observed uses (which values the GKR step / the AIR were handed): an accepted observation puts every observed GKR use on a
   draw the protocol labels GkrRand and every observed auxiliary-randomness use on an AuxRand draw *)
Theorem C04_log_ok_uses_sound : forall side s l us,
  log_ok_uses side s l us = true ->
  log_ok side s l = true /\ uses_ok (label (drawn_challenges side s) l) us = true.
Proof. exact log_ok_uses_sound. Qed.
Print Assumptions C04_log_ok_uses_sound.

Theorem C04_uses_ok_spec : forall ls us, uses_ok ls us = true ->
  forall i e lab, nth_error ls i = Some (e, lab) ->
    match nth_error us i with
    | Some UseGkr => exists j, lab = Some (GkrRand j)
    | Some UseAux => exists j, lab = Some (AuxRand j)
    | Some UseUnobserved => True
    | None => False
    end.
Proof. exact uses_ok_spec. Qed.
Print Assumptions C04_uses_ok_spec.

(* ---- absorbed_is_carried -----------------------------------------------------------------------------------------
   Every absorbed value is a component of the serialized proof (or the verifier's own public inputs): mapping the
   absorbed symbols to their place in `Proof` gives every slot exactly once, in sending order, and the commitment
   digests absorbed are ALL num_trace_segments + 1 + num_fri_layers + 1 digests that Commitments::parse accepts. *)
Theorem C04_absorbed_is_carried : forall (s : shape) (side : bool),
  let l := if side then verifier s else prover s in
  map (proof_slot s) (absorbs l) = slots_in_order s
  /\ (let idx := flat_map (fun sl => match sl with SlotCommitment n => [n] | _ => [] end) (map (proof_slot s) (absorbs l))
      in idx = seq 0 (num_commitments s)).
Proof. exact absorbed_is_carried. Qed.
Print Assumptions C04_absorbed_is_carried.

(* ---- pow_before_positions ---------------------------------------------------------------------------------------- *)
Theorem C04_pow_before_positions : forall (s : shape) (side : bool),
  let l := if side then verifier s else prover s in
  exists t,
    hist t = upto_deep s ++ fri_msgs (sh_fri_layers s) ++ [RemainderCommitment]
    /\ In (PowCheck, CLz (Nonce t PowNonce)) (run cs_init l)
    /\ In (QueryPositions, CInts (Nonce t PowNonce)) (run cs_init l)
    /\ (forall v, In (QueryPositions, v) (run cs_init l) -> absorbed_in PowNonce (cval_term v))
    /\ (forall c v, In (c, v) (run cs_init l) -> absorbed_in PowNonce (cval_term v) ->
                    c = PowCheck \/ c = QueryPositions).
Proof. exact pow_before_positions. Qed.
Print Assumptions C04_pow_before_positions.

(* ---- seed_encoding_inj -------------------------------------------------------------------------------------------
   Arithmetic models of ProofOptions / TraceInfo / Context `to_elements` (integers handed to E::from(u32) and
   E::from_bytes_with_padding; all below 2^32 resp. 256^(ELEMENT_BYTES-1), hence below every supported modulus). *)
Theorem C04_seed_encoding_inj_options : forall o1 o2,
  wf_options o1 -> wf_options o2 -> options_elems o1 = options_elems o2 -> o1 = o2.
Proof. exact options_elems_inj. Qed.
Print Assumptions C04_seed_encoding_inj_options.

(* full statement wanted: wf t1 -> wf t2 -> elems t1 = elems t2 -> t1 = t2.  It is FALSE (`_refuted` below);
   what holds: everything but the metadata bytes is determined, the metadata chunk values are determined, and the
   metadata itself is determined when its length is known. *)
Theorem C04_seed_encoding_inj_trace_info_partial : forall eb t1 t2,
  wf_trace_info t1 -> wf_trace_info t2 -> trace_info_elems eb t1 = trace_info_elems eb t2 ->
  ti_main t1 = ti_main t2 /\ ti_aux t1 = ti_aux t2 /\ ti_rands t1 = ti_rands t2 /\ ti_len t1 = ti_len t2
  /\ map of_le_bytes (chunks (eb - 1) (ti_meta t1)) = map of_le_bytes (chunks (eb - 1) (ti_meta t2)).
Proof. exact trace_info_elems_inj. Qed.
Print Assumptions C04_seed_encoding_inj_trace_info_partial.

Theorem C04_seed_encoding_inj_trace_info_same_meta_len : forall eb t1 t2, (1 < eb)%nat ->
  wf_trace_info t1 -> wf_trace_info t2 -> length (ti_meta t1) = length (ti_meta t2) ->
  trace_info_elems eb t1 = trace_info_elems eb t2 -> t1 = t2.
Proof. exact trace_info_elems_inj_same_meta_len. Qed.
Print Assumptions C04_seed_encoding_inj_trace_info_same_meta_len.

Theorem C04_seed_encoding_inj_trace_info_refuted :
  let t1 := mkTi 1 0 0 8 [1%Z] in let t2 := mkTi 1 0 0 8 [1%Z; 0%Z] in
  wf_trace_info t1 /\ wf_trace_info t2 /\ t1 <> t2 /\ trace_info_elems 8 t1 = trace_info_elems 8 t2.
Proof. exact meta_trailing_zero_collision. Qed.
Print Assumptions C04_seed_encoding_inj_trace_info_refuted.

(* the known class (open finding C04-F1) excluded: forall x, ~ Known x -> P x, plus a member of the class violating P *)
Theorem C04_seed_encoding_inj_trace_info_except_known : forall eb t1 t2, (1 < eb)%nat ->
  wf_trace_info t1 -> wf_trace_info t2 -> ~ known_meta_padding eb t1 t2 ->
  trace_info_elems eb t1 = trace_info_elems eb t2 -> t1 = t2.
Proof. exact trace_info_elems_inj_except_known. Qed.
Print Assumptions C04_seed_encoding_inj_trace_info_except_known.

Theorem C04_seed_encoding_inj_context_except_known : forall eb c1 c2, (1 < eb)%nat ->
  wf_context c1 -> wf_context c2 -> c_modulus c1 = c_modulus c2 ->
  ~ known_meta_padding eb (c_ti c1) (c_ti c2) ->
  context_elems eb c1 = context_elems eb c2 -> c1 = c2.
Proof. exact context_elems_inj_except_known. Qed.
Print Assumptions C04_seed_encoding_inj_context_except_known.

Theorem C04_seed_encoding_known_class_witness :
  exists t1 t2, wf_trace_info t1 /\ wf_trace_info t2 /\ known_meta_padding 8 t1 t2
                /\ trace_info_elems 8 t1 = trace_info_elems 8 t2 /\ t1 <> t2.
Proof. exact known_meta_padding_witness. Qed.
Print Assumptions C04_seed_encoding_known_class_witness.

(* outside the guard `trace_length <= u32::MAX` of Context::new and Context::read_from *)
Theorem C04_seed_encoding_trace_length_truncation :
  let t1 := mkTi 1 0 0 (2 ^ 32) [] in let t2 := mkTi 1 0 0 (2 ^ 33) [] in
  t1 <> t2 /\ trace_info_elems 8 t1 = trace_info_elems 8 t2.
Proof. exact trace_length_truncation_collision. Qed.
Print Assumptions C04_seed_encoding_trace_length_truncation.

Theorem C04_seed_encoding_inj_context_partial : forall eb c1 c2,
  wf_context c1 -> wf_context c2 -> c_modulus c1 = c_modulus c2 ->
  context_elems eb c1 = context_elems eb c2 ->
  ti_main (c_ti c1) = ti_main (c_ti c2) /\ ti_aux (c_ti c1) = ti_aux (c_ti c2)
  /\ ti_rands (c_ti c1) = ti_rands (c_ti c2) /\ ti_len (c_ti c1) = ti_len (c_ti c2)
  /\ map of_le_bytes (chunks (eb - 1) (ti_meta (c_ti c1))) = map of_le_bytes (chunks (eb - 1) (ti_meta (c_ti c2)))
  /\ c_opts c1 = c_opts c2.
Proof. exact context_elems_inj. Qed.
Print Assumptions C04_seed_encoding_inj_context_partial.

Theorem C04_seed_encoding_inj_context_same_meta_len : forall eb c1 c2, (1 < eb)%nat ->
  wf_context c1 -> wf_context c2 -> c_modulus c1 = c_modulus c2 ->
  length (ti_meta (c_ti c1)) = length (ti_meta (c_ti c2)) ->
  context_elems eb c1 = context_elems eb c2 -> c1 = c2.
Proof. exact context_elems_inj_same_meta_len. Qed.
Print Assumptions C04_seed_encoding_inj_context_same_meta_len.

(* the encoding proposed in fixes/c04-trace-meta-length-in-seed.PROPOSED-not-applied.diff (metadata length first) IS injective
   on all well-formed values with at most TraceInfo::MAX_META_LENGTH = 65535 metadata bytes; not tied to /repo's current
   source (patch proposed, not applied) *)
Theorem C04_seed_encoding_inj_trace_info_with_proposed_fix : forall eb t1 t2, (1 < eb)%nat ->
  wf_trace_info t1 -> wf_trace_info t2 ->
  (Z.of_nat (length (ti_meta t1)) <= 65535)%Z -> (Z.of_nat (length (ti_meta t2)) <= 65535)%Z ->
  trace_info_elems_fixed eb t1 = trace_info_elems_fixed eb t2 -> t1 = t2.
Proof. exact trace_info_elems_fixed_inj. Qed.
Print Assumptions C04_seed_encoding_inj_trace_info_with_proposed_fix.

(* ---- non-vacuity and seeded weakenings --------------------------------------------------------------------------- *)
Theorem C04_example_prover_events : map fst (prover s0) = good0 /\ map fst (verifier s0) = good0_verifier.
Proof. exact (conj prover_s0 verifier_s0). Qed.
Print Assumptions C04_example_prover_events.

Theorem C04_example_wf_sat :
  (wf_trace_info (mkTi 20 9 12 4096 [7; 0; 255]%Z) /\ wf_trace_info (mkTi 1 0 0 8 [])) /\ wf_options (mkOpts 30 8 20 1 8 127).
Proof. exact (conj wf_trace_info_sat wf_options_sat). Qed.
Print Assumptions C04_example_wf_sat.

(* Lagrange-kernel shape; the seeded change "verifier takes the auxiliary randomness before the GKR randomness" is rejected *)
Theorem C04_example_lagrange_uses :
  log_ok_uses false s2 (map fst (prover s2)) uses_s2_good = true
  /\ log_ok_uses false s2 (map fst (prover s2)) uses_s2_swapped = false.
Proof. exact (conj log_ok_uses_s2 mutant_aux_rand_before_gkr). Qed.
Print Assumptions C04_example_lagrange_uses.

Theorem C04_example_checker_accepts_model :
  log_ok false s0 good0 = true /\ log_ok true s0 good0_verifier = true
  /\ log_ok false s1 (map fst (prover s1)) = true /\ log_ok true s1 (map fst (verifier s1)) = true.
Proof. exact (conj log_ok_good0 (conj log_ok_good0_verifier log_ok_s1)). Qed.
Print Assumptions C04_example_checker_accepts_model.
