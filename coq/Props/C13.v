(* C13 — the streaming byte reader (ReadAdapter) is equivalent to the in-memory reader (SliceReader).
   Only statements, `exact` of lemmas proved in Proofs/ReadAdapter*.v, and Print Assumptions.

   Vocabulary (definitions in Model/ReadAdapter.v and Proofs/ReadAdapter{Sim,Inv,Refine}.v):
     adapter grow dbg : the ReadAdapter state machine; [grow] = Vec growth policy (any function; capacity >= length is kept by
                        construction), [dbg] = debug assertions on/off;  a_init chunks: fresh adapter over a source whose successive
                        reads return [chunks] (an empty chunk = an empty read; afterwards every read is empty)
     slice_reader     : the SliceReader state machine {source, pos};  s_init bytes
     step R utf8 o    : one call (required or provided ByteReader method) on reader R; [utf8] = String::from_utf8 validity oracle
     unread a         : buf[pos..] ++ BufReader buffer ++ concat (remaining chunks)
     sticky chunks    : no empty chunk is followed by data (std::io::Read: an empty read means end of stream)
     agree ops a t    : for every operation in turn: res_match (equal results, or check_eor: adapter Ok / slice Err EOF while no
                        empty read has been observed), the adapter did not abort, and unread (adapter) = source[pos..] (slice),
                        i.e. every byte is consumed exactly once
     op_arg o         : the length argument of read_slice/read_array/read_vec/read_string/check_eor (0 otherwise);
                        the bound B only excludes `pos + n` overflowing usize inside SliceReader::check_eor. *)
From VBase Require Import MachInt.
From VModel Require Import ReadAdapter.
From VProofs Require Import ReadAdapterSim ReadAdapterInv ReadAdapterRefine ReadAdapterCons ReadAdapterCursor.
Local Open Scope nat_scope.

(* Refinement, all 15 operations (read_u8 peek_u8 read_bool read_u16/32/64/128 read_usize read_slice read_array read_vec
   read_string read_many check_eor has_more_bytes), every byte stream, every sticky chunking, every capacity policy, both
   build profiles, every UTF-8 oracle. *)
Theorem C13_adapter_refines_slice : forall grow dbg utf8 chunks ops B,
  sticky chunks -> 16 <= B -> Forall (fun o => op_arg o <= B) ops ->
  (Z.of_nat (length (concat chunks)) + Z.of_nat B < 2 ^ 64)%Z ->
  agree grow dbg utf8 ops (a_init chunks) (s_init (concat chunks)).
Proof. exact adapter_refines_slice. Qed.
Print Assumptions C13_adapter_refines_slice.

(* What [agree] says about check_eor, unfolded: it is never pessimistic. *)
Theorem C13_res_match_never_pessimistic : forall o seen ra rs,
  res_match o seen ra rs -> rs = Ok VUnit -> ra = Ok VUnit.
Proof. exact res_match_never_pessimistic. Qed.
Print Assumptions C13_res_match_never_pessimistic.

(* Without check_eor in the sequence the two output lists are literally equal. *)
Theorem C13_outputs_equal_without_check_eor : forall grow dbg utf8 chunks ops B,
  sticky chunks -> 16 <= B -> Forall (fun o => op_arg o <= B) ops ->
  (Z.of_nat (length (concat chunks)) + Z.of_nat B < 2 ^ 64)%Z ->
  Forall (fun o => is_eor o = false) ops ->
  run (adapter grow dbg) utf8 ops (a_init chunks) = run slice_reader utf8 ops (s_init (concat chunks)).
Proof. exact outputs_equal_without_check_eor. Qed.
Print Assumptions C13_outputs_equal_without_check_eor.

(* no_ub: for EVERY source (also with empty reads before EOF) no call ends in UB (an unsafe copy from a too short source),
   in a panic (slice index, debug_assert, checked subtraction) or in fuel exhaustion of the model's loop. *)
Theorem C13_no_ub : forall grow dbg utf8 chunks ops,
  Forall (fun r => aborts r = false) (run (adapter grow dbg) utf8 ops (a_init chunks)).
Proof. exact adapter_never_aborts. Qed.
Print Assumptions C13_no_ub.

(* The reference: every SliceReader call is the list semantics on source[pos..]. *)
Theorem C13_slice_reader_is_list_semantics : forall utf8 B o t u, 16 <= B -> op_arg o <= B -> slice_rel B t u ->
  fst (step slice_reader utf8 o t) = fst (step spec_reader utf8 o u) /\
  slice_rel B (snd (step slice_reader utf8 o t)) (snd (step spec_reader utf8 o u)).
Proof. exact slice_step_spec. Qed.
Print Assumptions C13_slice_reader_is_list_semantics.

(* Coverage round: the third reader implementation, `impl ByteReader for std::io::Cursor`, as a party of the equivalence.
   cursor_reader: the state machine {buffer, position: u64}; c_init bytes pos = Cursor::new(bytes) after set_position(pos), where
   pos is ANY u64 (also beyond the end of the buffer); cursor_rel t u: u = buf[min(pos, len)..], len and pos are u64 values.
   Every call (check_eor and has_more_bytes included: Cursor's answers are exact) is the list semantics on the unread bytes;
   no bound on the length arguments is needed (there is no `pos + n` that could overflow). *)
Theorem C13_cursor_is_list_semantics : forall utf8 o t u, cursor_rel t u ->
  fst (step cursor_reader utf8 o t) = fst (step spec_reader utf8 o u) /\
  cursor_rel (snd (step cursor_reader utf8 o t)) (snd (step spec_reader utf8 o u)).
Proof. exact cursor_step_spec. Qed.
Print Assumptions C13_cursor_is_list_semantics.

(* Cursor == SliceReader on every operation sequence (all 15 operations): the same values and the same errors at the same
   points, from any start position; the slice reader is given the bytes from that position on.  B as in the first theorem. *)
Theorem C13_cursor_equals_slice_reader : forall utf8 bytes pos ops B,
  16 <= B -> Forall (fun o => op_arg o <= B) ops ->
  (Z.of_nat (length bytes) + Z.of_nat B < 2 ^ 64)%Z -> (Z.of_nat pos < 2 ^ 64)%Z ->
  run cursor_reader utf8 ops (c_init bytes pos) = run slice_reader utf8 ops (s_init (skipn pos bytes)).
Proof. exact cursor_equals_slice. Qed.
Print Assumptions C13_cursor_equals_slice_reader.

Theorem C13_cursor_never_panics : forall utf8 ops bytes pos,
  (Z.of_nat (length bytes) < 2 ^ 64)%Z -> (Z.of_nat pos < 2 ^ 64)%Z ->
  Forall (fun r => aborts r = false) (run cursor_reader utf8 ops (c_init bytes pos)).
Proof. exact cursor_never_aborts. Qed.
Print Assumptions C13_cursor_never_panics.

Example C13_cursor_beyond_end_witness :
  run cursor_reader utf8_valid [HasMore; CheckEor 0; CheckEor 1; PeekU8; ReadU8; ReadSlice 0; ReadSlice 1; ReadArray 0; ReadU16]
      (c_init [1; 2; 3]%Z 7) =
  [Ok (VBool false); Ok VUnit; Err EOF; Err EOF; Err EOF; Ok (VBytes []); Err EOF; Ok (VBytes []); Err EOF].
Proof. exact cursor_beyond_end_example. Qed.
Print Assumptions C13_cursor_beyond_end_witness.

(* Per call other than check_eor, on any adapter state satisfying the invariant (sticky source): the result and the new unread
   bytes are the list semantics of the unread bytes; the invariant is kept. *)
Theorem C13_adapter_step_is_list_semantics : forall grow dbg utf8 o s u, is_eor o = false -> adapter_rel s u ->
  fst (step (adapter grow dbg) utf8 o s) = fst (step spec_reader utf8 o u) /\
  adapter_rel (snd (step (adapter grow dbg) utf8 o s)) (snd (step spec_reader utf8 o u)).
Proof. exact adapter_step_spec. Qed.
Print Assumptions C13_adapter_step_is_list_semantics.

(* check_eor / has_more_bytes never consume, for every source. *)
Theorem C13_queries_do_not_consume : forall s n, wf s ->
  unread (snd (a_eor n s)) = unread s /\ unread (snd (a_more s)) = unread s.
Proof. exact unread_conserved_by_queries. Qed.
Print Assumptions C13_queries_do_not_consume.

(* Each byte is consumed exactly once, for EVERY source (also with empty reads before EOF): a required method removes from
   [unread] exactly the bytes it returns ([delivered]), in order, and nothing when it fails or only looks. *)
Theorem C13_bytes_conserved_any_source : forall grow dbg,
  conserves a_u8 (fun b => [b]) /\ conserves a_peek (fun _ => []) /\
  (forall n, conserves (a_slice grow n) (fun l => l)) /\ (forall n, conserves (a_array grow dbg n) (fun l => l)) /\
  (forall n s, wf s -> unread (snd (a_eor n s)) = unread s) /\ (forall s, wf s -> unread (snd (a_more s)) = unread s).
Proof. exact required_methods_conserve. Qed.
Print Assumptions C13_bytes_conserved_any_source.

(* For EVERY source: whenever a required method of the adapter succeeds, its value and the bytes left are those of the list
   semantics (= SliceReader) on the unread bytes.  Empty reads before EOF can only cause failures (UnexpectedEOF, nothing
   consumed - previous theorem), never a wrong value or a skipped / repeated byte. *)
Theorem C13_ok_results_exact_any_source : forall grow dbg s, wf s ->
  (forall b, fst (a_u8 s) = Ok b -> (Ok b, unread (snd (a_u8 s))) = sp_u8 (unread s)) /\
  (forall b, fst (a_peek s) = Ok b -> (Ok b, unread (snd (a_peek s))) = sp_peek (unread s)) /\
  (forall n l, fst (a_slice grow n s) = Ok l -> (Ok l, unread (snd (a_slice grow n s))) = sp_take n (unread s)) /\
  (forall n l, fst (a_array grow dbg n s) = Ok l -> (Ok l, unread (snd (a_array grow dbg n s))) = sp_take n (unread s)).
Proof. exact ok_results_exact_any_source. Qed.
Print Assumptions C13_ok_results_exact_any_source.

(* ---- non-vacuity and necessity of the side conditions ---- *)
Example C13_hypotheses_satisfiable : sticky ex_chunks /\ 16 <= 16 /\ Forall (fun o => op_arg o <= 16) ex_ops /\
  (Z.of_nat (length (concat ex_chunks)) + Z.of_nat 16 < 2 ^ 64)%Z.
Proof. exact ex_hyps. Qed.
Print Assumptions C13_hypotheses_satisfiable.

Example C13_optimistic_check_eor_witness :
  sticky [[1; 2]%Z] /\
  run (adapter vec_grow true) utf8_valid [CheckEor 5; ReadU8; ReadU8; CheckEor 5] (a_init [[1; 2]%Z]) =
    [Ok VUnit; Ok (VInt 1); Ok (VInt 2); Err EOF] /\
  run slice_reader utf8_valid [CheckEor 5; ReadU8; ReadU8; CheckEor 5] (s_init [1; 2]%Z) =
    [Err EOF; Ok (VInt 1); Ok (VInt 2); Err EOF].
Proof. exact optimistic_witness. Qed.
Print Assumptions C13_optimistic_check_eor_witness.

Example C13_empty_read_is_eof_witness :
  ~ sticky [[1]; []; [2]]%Z /\
  run (adapter vec_grow true) utf8_valid [ReadSlice 2; ReadSlice 2] (a_init [[1]; []; [2]]%Z) =
    [Err EOF; Ok (VBytes [1; 2]%Z)] /\
  run slice_reader utf8_valid [ReadSlice 2; ReadSlice 2] (s_init [1; 2]%Z) = [Ok (VBytes [1; 2]%Z); Err EOF].
Proof. exact empty_read_is_eof_witness. Qed.
Print Assumptions C13_empty_read_is_eof_witness.
