(* C10 — Merkle openings verify for committed leaves and only for them.
   Only statements, `exact` of lemmas proved in Proofs/Merkle*.v, and Print Assumptions.
   Model: Model/Merkle.v (hand-written from crypto/src/merkle/{mod,proofs}.rs, tied to the source
   by the correspondence run of checks/c10.py).  All theorems are for an ARBITRARY digest type D
   with a decidable equality and an ARBITRARY merge function: no collision resistance is assumed;
   where binding could fail, an explicit collision is computed instead. *)
From Coq Require Import ZArith List Bool.
From VBase Require Import MachInt.
From VModel Require Import Merkle MerkleStrict.
From VProofs Require Import MerkleBase MerkleSingle MerkleIdx MerkleBatch MerkleTotal MerkleBind MerkleRound MerkleFrom MerkleDead MerkleExamples.
Import ListNotations.
Open Scope Z_scope.

Section C10.
Variable D : Type.
Variable D_eqb : D -> D -> bool.
Hypothesis D_eqb_spec : forall a b, D_eqb a b = true <-> a = b.
Variable d0 : D.
Variable merge : D -> D -> D.

(* MerkleTree::new: the node vector satisfies nodes[k] = merge(child 2k, child 2k+1) for every
   internal heap index k (children of the last row are the leaves), for every depth. *)
Theorem C10_build_nodes_spec : forall leaves t,
  mt_new D d0 merge leaves = Ok t ->
  mt_leaves t = leaves /\ exists d, wf_tree D d0 merge d t.
Proof. exact (build_nodes_spec D d0 merge). Qed.

Theorem C10_new_ok : forall leaves (d : nat), (1 <= d)%nat -> zlen leaves = 2 ^ Z.of_nat d ->
  exists t, mt_new D d0 merge leaves = Ok t.
Proof. exact (mt_new_ok D d0 merge). Qed.

Theorem C10_new_too_few : forall leaves, zlen leaves < 2 ->
  mt_new D d0 merge leaves = Err (TooFewLeaves 2 (zlen leaves)).
Proof. exact (mt_new_too_few D d0 merge). Qed.

Theorem C10_new_not_pow2 : forall leaves, 2 <= zlen leaves -> is_pow2 (zlen leaves) = false ->
  mt_new D d0 merge leaves = Err (NumberOfLeavesNotPowerOfTwo (zlen leaves)).
Proof. exact (mt_new_not_pow2 D d0 merge). Qed.

(* single_complete: for every depth 1..62 (a Vec holds at most isize::MAX elements), every tree,
   every in-range position: prove succeeds, the path has depth+1 elements, starts with the
   committed leaf, and verifies against the root. *)
Theorem C10_single_complete : forall leaves t (d : nat) i root,
  mt_new D d0 merge leaves = Ok t -> zlen leaves = 2 ^ Z.of_nat d -> (d <= 62)%nat ->
  mt_root D t = Ok root -> 0 <= i < zlen leaves ->
  exists p, mt_prove D t i = Ok p /\ length p = S d /\
            nth_error p 0 = nth_error leaves (Z.to_nat i) /\
            verify D D_eqb merge root i p = Ok tt.
Proof. exact (single_complete D D_eqb D_eqb_spec d0 merge). Qed.

(* single_binding: two openings of the same length for the same position which both verify
   against the same root are identical (in particular claim the same leaf), or [find_collision]
   returns two different input pairs of merge with the same output.  No hypothesis on merge. *)
Theorem C10_single_binding : forall root index p p',
  verify D D_eqb merge root index p = Ok tt -> verify D D_eqb merge root index p' = Ok tt ->
  length p = length p' ->
  p = p' \/ exists c, find_collision D D_eqb d0 merge index p p' = Some c /\ is_collision D merge c.
Proof. exact (single_binding_paths D D_eqb D_eqb_spec d0 merge). Qed.

(* ... and against a tree: an opening of the tree's depth that verifies against the tree's root is
   the honest path (so it claims the committed leaf) unless a collision is exhibited. *)
Theorem C10_single_binding_tree : forall t (d : nat) i p,
  wf_tree D d0 merge d t -> (d <= 62)%nat ->
  verify D D_eqb merge (hval D d0 t 1) i p = Ok tt -> length p = S d -> 0 <= i ->
  exists hp, mt_prove D t i = Ok hp /\
    (p = hp \/ exists c, find_collision D D_eqb d0 merge i p hp = Some c /\ is_collision D merge c).
Proof. exact (single_binding_tree D D_eqb D_eqb_spec d0 merge). Qed.

(* verify_total: MerkleTree::verify (repaired) never panics, for ANY root, index and path. *)
Theorem C10_verify_total : forall root index p, verify D D_eqb merge root index p <> Panic.
Proof. exact (verify_total D D_eqb merge). Qed.

(* exact outcome of verify on every input *)
Theorem C10_verify_Ok_iff : forall root index p,
  verify D D_eqb merge root index p = Ok tt <->
  2 <= zlen p <= 64 /\ index < 2 ^ (zlen p - 1) /\
  verify_fold D merge (skipn 2 p) (Z.shiftr (index + 2 ^ (zlen p - 1)) 1)
    (merge (nth (Z.to_nat (Z.land index 1)) p d0) (nth (Z.to_nat (1 - Z.land index 1)) p d0)) = root.
Proof. exact (verify_Ok_iff D D_eqb D_eqb_spec d0 merge). Qed.

Theorem C10_verify_short : forall root index p, zlen p < 2 -> verify D D_eqb merge root index p = Err InvalidProof.
Proof. exact (verify_short D D_eqb merge). Qed.

Theorem C10_verify_long : forall root index p, 65 <= zlen p -> verify D D_eqb merge root index p = Err InvalidProof.
Proof. exact (verify_long D D_eqb merge). Qed.

Theorem C10_verify_out_of_range : forall root index p, 2 <= zlen p <= 64 -> 2 ^ (zlen p - 1) <= index ->
  verify D D_eqb merge root index p = Err (LeafIndexOutOfBounds (2 ^ (zlen p - 1)) index).
Proof. exact (verify_out_of_range D D_eqb merge). Qed.

(* batch_complete: for every tree of depth 1..62 and every non-empty list of at most 255 distinct
   in-range positions IN ANY ORDER, prove_batch succeeds, the proof lists the committed leaves in the
   order of the positions, get_root recomputes the root (all structural checks pass, including the
   repaired leaf-count and all-nodes-consumed checks) and verify_batch accepts. *)
Theorem C10_batch_complete : forall leaves t (d : nat) root indexes,
  mt_new D d0 merge leaves = Ok t -> zlen leaves = 2 ^ Z.of_nat d -> (d <= 62)%nat -> mt_root D t = Ok root ->
  indexes <> [] -> zlen indexes <= 255 -> NoDup indexes -> (forall i, In i indexes -> 0 <= i < zlen leaves) ->
  exists p, mt_prove_batch D d0 t indexes = Ok p /\ bp_depth p = Z.of_nat d /\
    length (bp_leaves p) = length indexes /\
    (forall j i, nth_error indexes j = Some i -> nth_error (bp_leaves p) j = nth_error leaves (Z.to_nat i)) /\
    get_root D merge p indexes = Ok root /\
    verify_batch D D_eqb merge root indexes p = Ok tt.
Proof. exact (batch_complete D D_eqb D_eqb_spec d0 merge). Qed.

(* index validation: map_indexes succeeds exactly on duplicate-free in-range lists with depth < 64 *)
Theorem C10_map_indexes_complete : forall indexes depth,
  0 <= depth < 64 -> NoDup indexes -> (forall x, In x indexes -> x < 2 ^ depth) ->
  exists imap, map_indexes indexes depth = Ok imap /\ imap_ok indexes imap /\ length imap = length indexes.
Proof. exact map_indexes_complete. Qed.

Theorem C10_map_indexes_inv : forall indexes depth imap,
  map_indexes indexes depth = Ok imap ->
  depth < 64 /\ NoDup indexes /\ (forall x, In x indexes -> x < 2 ^ depth) /\ imap_ok indexes imap /\
  length imap = length indexes.
Proof. exact map_indexes_inv. Qed.

Theorem C10_map_indexes_total : forall indexes depth, map_indexes indexes depth <> Panic.
Proof. exact map_indexes_not_Panic. Qed.

(* totality: BatchMerkleProof::get_root, MerkleTree::verify_batch and into_paths (repaired) never
   panic, for EVERY proof value (any leaves, any node vectors, any depth byte) and EVERY index list
   of usize values.  Before the repair the Panic domain was: depth >= 64 (debug profile) for all
   three, and additionally i + 2^depth >= 2^64 for some supplied index i for into_paths (replayed,
   notes/C10.findings.json F10c); the repaired code has an empty Panic domain. *)
Theorem C10_get_root_total : forall p indexes, 0 <= bp_depth p -> usize_list indexes ->
  get_root D merge p indexes <> Panic.
Proof. exact (get_root_total D merge). Qed.

Theorem C10_verify_batch_total : forall root p indexes, 0 <= bp_depth p -> usize_list indexes ->
  verify_batch D D_eqb merge root indexes p <> Panic.
Proof. exact (fun root p indexes => verify_batch_total D merge D_eqb root p indexes). Qed.

Theorem C10_into_paths_total : forall p indexes, 0 <= bp_depth p -> usize_list indexes ->
  into_paths D merge p indexes <> Panic.
Proof. exact (into_paths_total D merge). Qed.

(* acceptance implies every structural guard ("duplicated or out-of-range positions, wrong shape yield an
   error"): with C10_get_root_total the outcome on any violation of a guard is an Err *)
Theorem C10_get_root_Ok_guards : forall p indexes r, get_root D merge p indexes = Ok r ->
  indexes <> [] /\ zlen indexes <= 255 /\ zlen indexes = zlen (bp_leaves p) /\ NoDup indexes /\
  (forall i, In i indexes -> i < 2 ^ bp_depth p) /\ bp_depth p < 64 /\
  zlen (normalize_indexes indexes) = zlen (bp_nodes p).
Proof. exact (get_root_Ok_guards D merge). Qed.

(* into_paths_sound: for ANY batch proof value accepted by get_root (depth d >= 1, usize positions),
   into_paths succeeds and returns one path per position, of length d+1, starting with the leaf the
   proof claims for that position, and each path verifies individually (MerkleTree::verify) against
   the root get_root computed. *)
Theorem C10_into_paths_sound : forall (p : bproof D) idx r (d : nat),
  (1 <= d)%nat -> bp_depth p = Z.of_nat d -> usize_list idx ->
  get_root D merge p idx = Ok r ->
  exists paths, into_paths D merge p idx = Ok paths /\ length paths = length idx /\
    forall j i path, nth_error idx j = Some i -> nth_error paths j = Some path ->
      nth_error path 0 = nth_error (bp_leaves p) j /\ length path = S d /\
      verify D D_eqb merge r i path = Ok tt.
Proof. exact (into_paths_sound D D_eqb D_eqb_spec d0 merge). Qed.

(* batch_binding: a batch opening of the tree's depth accepted against the tree's root claims the
   committed leaf at every queried position, or [find_batch_collision] (decompress with into_paths,
   compare each path with the honest path) returns two different merge inputs with equal output.
   No collision resistance assumed. *)
Theorem C10_batch_binding : forall (t : mtree D) (d : nat) idx (p : bproof D),
  wf_tree D d0 merge d t -> (d <= 62)%nat -> usize_list idx ->
  get_root D merge p idx = Ok (hval D d0 t 1) -> bp_depth p = Z.of_nat d ->
  (forall j i, nth_error idx j = Some i -> nth_error (bp_leaves p) j = nth_error (mt_leaves t) (Z.to_nat i))
  \/ exists c, find_batch_collision D D_eqb d0 merge t p idx = Some c /\ is_collision D merge c.
Proof. exact (batch_binding_tree D D_eqb D_eqb_spec d0 merge). Qed.

(* the same for verify_batch, the form Proofs/IntegrityBinding.v uses (merkle_batch_binding); the guard [usize_list idx]
   says that positions are usize values *)
Theorem C10_batch_binding_verify_batch : forall (t : mtree D) (d : nat) (idx : list Z) (p : bproof D),
  wf_tree D d0 merge d t -> (d <= 62)%nat -> usize_list idx ->
  verify_batch D D_eqb merge (hval D d0 t 1) idx p = Ok tt -> bp_depth p = Z.of_nat d ->
  (forall j i, nth_error idx j = Some i -> nth_error (bp_leaves p) j = nth_error (mt_leaves t) (Z.to_nat i))
  \/ exists c, is_collision D merge c.
Proof. exact (batch_binding_verify_batch D D_eqb D_eqb_spec d0 merge). Qed.

(* two batch openings of the same positions and the SAME depth accepted against the same root claim
   the same leaves, or a collision is computed (the shape of Proofs/FriBinding.v merkle_binding; for
   different depths the statement is false: an internal node can be presented as a leaf) *)
Theorem C10_batch_binding_two : forall (p1 p2 : bproof D) idx r (d : nat),
  (1 <= d)%nat -> bp_depth p1 = Z.of_nat d -> bp_depth p2 = Z.of_nat d -> usize_list idx ->
  get_root D merge p1 idx = Ok r -> get_root D merge p2 idx = Ok r ->
  bp_leaves p1 = bp_leaves p2 \/
  exists c, find_batch_collision2 D D_eqb d0 merge p1 p2 idx = Some c /\ is_collision D merge c.
Proof. exact (batch_binding_two D D_eqb D_eqb_spec d0 merge). Qed.

(* into_paths_spec: for every tree (depth 1..62) and every non-empty list of <= 255 distinct in-range
   positions in any order, into_paths (prove_batch t idx) idx is exactly the list of the individual
   prove t i (both equal the explicit honest paths [hpath]) *)
Theorem C10_into_paths_spec : forall (t : mtree D) (d : nat) indexes,
  wf_tree D d0 merge d t -> (d <= 62)%nat ->
  indexes <> [] -> zlen indexes <= 255 -> NoDup indexes -> (forall i, In i indexes -> 0 <= i < 2 ^ Z.of_nat d) ->
  exists p, mt_prove_batch D d0 t indexes = Ok p /\
            into_paths D merge p indexes = Ok (map (hpath D d0 t d) indexes) /\
            mapM (mt_prove D t) indexes = Ok (map (hpath D d0 t d) indexes).
Proof. exact (fun t d indexes WF Hd => into_paths_spec_tree D D_eqb D_eqb_spec d0 merge t d WF Hd indexes). Qed.

(* from_paths_of_proves: for every well-formed tree of depth 1..62 and every non-empty duplicate-free
   in-range list of <= 255 positions IN ANY ORDER, re-compressing the individual paths prove t i (given in
   the order of the position list) with the repaired from_paths yields exactly prove_batch t idx: same
   leaves (in the caller's order), same node vectors, same depth. *)
Theorem C10_from_paths_of_proves : forall (t : mtree D) (d : nat) indexes,
  wf_tree D d0 merge d t -> (d <= 62)%nat ->
  indexes <> [] -> zlen indexes <= 255 -> NoDup indexes -> (forall i, In i indexes -> 0 <= i < 2 ^ Z.of_nat d) ->
  exists p paths, mapM (mt_prove D t) indexes = Ok paths /\ mt_prove_batch D d0 t indexes = Ok p /\
                  from_paths D d0 paths indexes = Ok p.
Proof. exact (fun t d indexes WF Hd => from_paths_of_proves D d0 merge t d WF Hd indexes). Qed.

(* from_into_roundtrip: an honest batch opening decompresses (into_paths) and re-compresses (from_paths)
   to itself, for all depths and all orders of the position list. *)
Theorem C10_from_into_roundtrip : forall (t : mtree D) (d : nat) indexes,
  wf_tree D d0 merge d t -> (d <= 62)%nat ->
  indexes <> [] -> zlen indexes <= 255 -> NoDup indexes -> (forall i, In i indexes -> 0 <= i < 2 ^ Z.of_nat d) ->
  exists p paths, mt_prove_batch D d0 t indexes = Ok p /\ into_paths D merge p indexes = Ok paths /\
                  from_paths D d0 paths indexes = Ok p.
Proof. exact (fun t d indexes WF Hd => from_into_roundtrip D D_eqb D_eqb_spec d0 merge t d WF Hd indexes). Qed.

(* ---------------------------------------------------------------- error branches
   ill_shaped: an opening that violates ANY guard on the position list or on the counts (no positions, more than
   255, a number of leaves different from the number of positions, a duplicated position, a position >= 2^depth,
   depth >= 64, a number of node vectors different from the number of distinct sibling pairs) is an ERROR of
   get_root / verify_batch / into_paths: it is not accepted and it does not panic.  Every proof value, every list
   of usize positions. *)
Theorem C10_get_root_ill_shaped : forall (p : bproof D) indexes, 0 <= bp_depth p -> usize_list indexes ->
  ~ shape_guards D p indexes -> exists e, get_root D merge p indexes = Err e.
Proof. exact (get_root_ill_shaped D merge). Qed.

Theorem C10_verify_batch_ill_shaped : forall root (p : bproof D) indexes, 0 <= bp_depth p -> usize_list indexes ->
  ~ shape_guards D p indexes -> exists e, verify_batch D D_eqb merge root indexes p = Err e.
Proof. exact (verify_batch_ill_shaped D merge D_eqb). Qed.

Theorem C10_into_paths_ill_shaped : forall (p : bproof D) indexes, 0 <= bp_depth p -> usize_list indexes ->
  ~ shape_guards D p indexes -> exists e, into_paths D merge p indexes = Err e.
Proof. exact (into_paths_ill_shaped D merge). Qed.

(* shape_unique: the node vectors too.  Two openings of the same positions and depth that get_root (into_paths)
   lets through have the same number of leaves and node vectors of the same lengths, whatever the digests ... *)
Theorem C10_get_root_shape_unique : forall (p1 p2 : bproof D) indexes r1 r2, bp_depth p1 = bp_depth p2 ->
  get_root D merge p1 indexes = Ok r1 -> get_root D merge p2 indexes = Ok r2 ->
  length (bp_leaves p1) = length (bp_leaves p2) /\ map (@zlen D) (bp_nodes p1) = map (@zlen D) (bp_nodes p2).
Proof. exact (get_root_shape_unique D merge). Qed.

Theorem C10_into_paths_shape_unique : forall (p1 p2 : bproof D) indexes r1 r2, bp_depth p1 = bp_depth p2 ->
  into_paths D merge p1 indexes = Ok r1 -> into_paths D merge p2 indexes = Ok r2 ->
  length (bp_leaves p1) = length (bp_leaves p2) /\ map (@zlen D) (bp_nodes p1) = map (@zlen D) (bp_nodes p2).
Proof. exact (into_paths_shape_unique D merge). Qed.

(* ... hence an opening of the tree's depth accepted by get_root (against ANY root) has exactly the shape of the
   honest opening prove_batch builds for that position list: a missing or surplus leaf, node vector or node at any
   level, a node where the sibling is a queried position, an empty vector where a sibling is needed - all errors
   (by C10_get_root_total never panics). *)
Theorem C10_accepted_has_honest_shape : forall leaves t (d : nat) root indexes (p : bproof D) r,
  mt_new D d0 merge leaves = Ok t -> zlen leaves = 2 ^ Z.of_nat d -> (d <= 62)%nat -> mt_root D t = Ok root ->
  (forall i, In i indexes -> 0 <= i) -> bp_depth p = Z.of_nat d -> get_root D merge p indexes = Ok r ->
  exists hp, mt_prove_batch D d0 t indexes = Ok hp /\
    length (bp_leaves p) = length (bp_leaves hp) /\ map (@zlen D) (bp_nodes p) = map (@zlen D) (bp_nodes hp).
Proof. exact (accepted_has_honest_shape D D_eqb D_eqb_spec d0 merge). Qed.

(* dead_branches: the fourteen `return Err(MerkleTreeError::InvalidProof)` of proofs.rs at lines 154 160 182 186 215
   230 (get_root), 310 316 338 342 373 387 (into_paths), 520 528 (get_path) cannot be reached by any input.  The
   twin model Model/MerkleStrict.v returns an ARBITRARY outcome [dead] at exactly those branches and computes the
   same function; with dead := Panic and the totality theorems: the branches are never executed. *)
Theorem C10_dead_branches_get_root : forall (dead : forall A : Type, res A) (p : bproof D) indexes,
  get_root_s D merge dead p indexes = get_root D merge p indexes.
Proof. exact (get_root_dead D merge). Qed.

Theorem C10_dead_branches_verify_batch : forall (dead : forall A : Type, res A) root (p : bproof D) indexes,
  verify_batch_s D D_eqb merge dead root indexes p = verify_batch D D_eqb merge root indexes p.
Proof. exact (fun dead => verify_batch_dead D merge dead D_eqb). Qed.

Theorem C10_dead_branches_into_paths : forall (dead : forall A : Type, res A) (p : bproof D) indexes,
  0 <= bp_depth p -> usize_list indexes ->
  into_paths_s D merge dead p indexes = into_paths D merge p indexes.
Proof. exact (into_paths_dead D merge). Qed.

(* the last error of get_root (`v.remove(&1).ok_or(InvalidProof)`, line 257) is live only for a depth byte of 0:
   for depth >= 1 a run that passes all_nodes_consumed has computed node 1 *)
Theorem C10_root_present : forall (p : bproof D) idx v ptm, 1 <= bp_depth p -> usize_list idx -> idx <> [] ->
  zlen idx = zlen (bp_leaves p) -> gcore D merge p idx [] = Ok (v, ptm) -> bt_get 1 v <> None.
Proof. exact (gcore_root D merge). Qed.

End C10.

(* regression: the round trip evaluated in the kernel VM on the free merge (digests = binary terms), trees with
   2/4/8 symbolic leaves, 978 duplicate-free position lists incl. every order for <= 4 leaves *)
Example C10_from_into_roundtrip_free_le8 : forall n idx, In (n, idx) roundtrip_cases ->
  exists t p paths, free_tree n = Ok t /\ mt_prove_batch FT (FL (-1)) t idx = Ok p /\
    into_paths FT FN p idx = Ok paths /\ from_paths FT (FL (-1)) paths idx = Ok p.
Proof. exact from_into_roundtrip_free_le8. Qed.

Print Assumptions C10_build_nodes_spec.
Print Assumptions C10_new_ok.
Print Assumptions C10_new_too_few.
Print Assumptions C10_new_not_pow2.
Print Assumptions C10_single_complete.
Print Assumptions C10_single_binding.
Print Assumptions C10_single_binding_tree.
Print Assumptions C10_verify_total.
Print Assumptions C10_verify_Ok_iff.
Print Assumptions C10_verify_short.
Print Assumptions C10_verify_long.
Print Assumptions C10_verify_out_of_range.
Print Assumptions C10_batch_complete.
Print Assumptions C10_map_indexes_complete.
Print Assumptions C10_map_indexes_inv.
Print Assumptions C10_map_indexes_total.
Print Assumptions C10_get_root_total.
Print Assumptions C10_verify_batch_total.
Print Assumptions C10_into_paths_total.
Print Assumptions C10_get_root_Ok_guards.
Print Assumptions C10_into_paths_sound.
Print Assumptions C10_batch_binding.
Print Assumptions C10_batch_binding_verify_batch.
Print Assumptions C10_batch_binding_two.
Print Assumptions C10_into_paths_spec.
Print Assumptions C10_from_paths_of_proves.
Print Assumptions C10_from_into_roundtrip.
Print Assumptions C10_get_root_ill_shaped.
Print Assumptions C10_verify_batch_ill_shaped.
Print Assumptions C10_into_paths_ill_shaped.
Print Assumptions C10_get_root_shape_unique.
Print Assumptions C10_into_paths_shape_unique.
Print Assumptions C10_accepted_has_honest_shape.
Print Assumptions C10_dead_branches_get_root.
Print Assumptions C10_dead_branches_verify_batch.
Print Assumptions C10_dead_branches_into_paths.
Print Assumptions C10_root_present.

(* Non-vacuity: concrete instances satisfying the hypotheses of the theorems above (Proofs/MerkleExamples.v):
   ex_new/ex_single_hyps/ex_single_run (single_complete), ex_binding_hyps/ex_binding_deep (single_binding with
   p <> p': the collision branch is inhabited), ex_batch_hyps/ex_batch_run (batch_complete, unsorted positions),
   ex_surplus_node/ex_surplus_leaf/ex_depth_64/ex_short_path (totality: hostile shapes give Err);
   Proofs/MerkleDead.v: ex_ill_shaped_hyps (each guard violated alone), ex_shape_unique_hyps, ex_strict_runs (the strict twin with
   dead := Panic on openings aimed at the dead branches), ex_depth0. *)
Check ex_single_hyps.
Check ex_binding_hyps.
Check ex_binding_deep.
Check ex_batch_hyps.
Check ex_batch_run.
Check ex_depth_64.
Check ex_batch_binding_hyps.
Check ex_batch_binding_two_hyps.
Check ex_into_paths_spec.
Check ex_ill_shaped_hyps.
Check ex_shape_unique_hyps.
Check ex_strict_runs.
Check ex_depth0.
