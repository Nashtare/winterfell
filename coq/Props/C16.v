(* C16 — constraints are enforced on exactly the intended steps.
   Only statements, `exact` of lemmas proved in Proofs/Enforce*.v (C16_segment_width_glue alone carries its case
   analysis here), Print Assumptions, and non-vacuity Examples.

   Conventions.  Integer level: usize values are Z.  `valid a n` = the record satisfies the invariants the three
   constructors establish (wf) and validate_trace_length a n = VOk.  Field level: any F with FOps/FLaws, any
   n = 2^k < 2^64 and any g of exact multiplicative order n (g^n = 1, g^i <> 1 for 0 < i < n); `fpow` is the
   model of FieldElement::exp.  `evaluate_at` is numerator / denominator with the field's TOTAL division
   (x / 0 = x * inv 0 = 0): what it returns where the denominator vanishes is stated, not hidden. *)
From Coq Require Import ZArith List Bool Lia.
From VBase Require Import MachInt FieldOps.
From VModel Require Import Enforce EnforceLagrange.
From VGen Require Assertions.
From VProofs Require Import EnforceSteps EnforceField EnforceDivisor EnforceValue EnforceInst EnforceGen.
From VProofs Require Import EnforceLagrangeProofs EnforceLagrangeInst.
Import ListNotations.
Open Scope Z_scope.

(* ================================================================== ill-formed assertions are refused *)

(* the constructors accept exactly: stride a power of two >= 2, first < stride, #values a power of two *)
Theorem C16_ill_formed_refused_periodic : forall col first stride a,
  mk_periodic col first stride = Some a <->
  pow2 stride /\ 2 <= stride /\ first < stride /\ a = mkA col first stride 1.
Proof. exact mk_periodic_spec. Qed.
Print Assumptions C16_ill_formed_refused_periodic.

Theorem C16_ill_formed_refused_sequence : forall col first stride nvals a,
  mk_sequence col first stride nvals = Some a <->
  pow2 stride /\ 2 <= stride /\ first < stride /\ pow2 nvals /\
  a = mkA col first (if nvals =? 1 then 0 else stride) nvals.
Proof. exact mk_sequence_spec. Qed.
Print Assumptions C16_ill_formed_refused_sequence.

(* the records the constructors can produce are exactly the well-formed ones *)
Theorem C16_constructed_iff_wf : forall a,
  ((exists col step, 0 <= col /\ 0 <= step /\ mk_single col step = Some a) \/
   (exists col first stride, 0 <= col /\ 0 <= first /\ mk_periodic col first stride = Some a) \/
   (exists col first stride nvals, 0 <= col /\ 0 <= first /\ mk_sequence col first stride nvals = Some a))
  <-> wf a.
Proof. intros a. split; [apply constructed_wf|apply wf_constructed]. Qed.
Print Assumptions C16_constructed_iff_wf.

(* validate_trace_length accepts exactly: n a power of two and (single: step < n | periodic: stride <= n |
   sequence: #values * stride = n < 2^64) *)
Theorem C16_ill_formed_refused_length : forall a n,
  validate_trace_length a n = VOk <->
  pow2 n /\ (if is_single a then a_first a < n
             else if is_periodic a then a_stride a <= n
             else a_nvals a * a_stride a = n /\ n < 2 ^ 64).
Proof. exact validate_trace_length_spec. Qed.
Print Assumptions C16_ill_formed_refused_length.

(* ================================================================== the steps an assertion names *)

(* single: {first}; periodic: first + i*stride below n; sequence: first + i*stride for i < #values *)
Theorem C16_steps_spec : forall a n s, valid a n ->
  (In s (steps a n) <->
   if is_single a then s = a_first a
   else if is_periodic a then exists i, 0 <= i /\ s = a_first a + i * a_stride a /\ s < n
   else exists i, 0 <= i < a_nvals a /\ s = a_first a + i * a_stride a).
Proof. exact steps_spec. Qed.
Print Assumptions C16_steps_spec.

Theorem C16_steps_in_domain_distinct_counted : forall a n, valid a n ->
  (forall s, In s (steps a n) -> 0 <= s < n) /\ NoDup (steps a n) /\
  get_num_steps a n = Some (Z.of_nat (length (steps a n))).
Proof.
  intros a n H. split; [intros s; apply steps_in_domain; exact H|].
  split; [apply steps_NoDup; exact H|apply steps_length; exact H].
Qed.
Print Assumptions C16_steps_in_domain_distinct_counted.

(* ================================================================== overlap *)

(* two assertions valid for a common trace length are reported as overlapping exactly when they name a common cell;
   overlaps_with never panics on them *)
Theorem C16_overlaps_iff : forall a b n, valid a n -> valid b n ->
  (overlaps_with a b = Some true <-> a_col a = a_col b /\ exists s, In s (steps a n) /\ In s (steps b n)) /\
  (overlaps_with a b = Some false <-> ~ (a_col a = a_col b /\ exists s, In s (steps a n) /\ In s (steps b n))).
Proof. exact overlaps_iff. Qed.
Print Assumptions C16_overlaps_iff.

(* prepare_assertions (the validation performed by BoundaryConstraints::new) accepts a list of constructor outputs exactly
   when every assertion fits the trace (column < width, valid for the length) and no two of them name a common cell *)
Theorem C16_prepare_accepts_iff : forall l w n, Forall wf l ->
  ((exists res, prepare_assertions l w n = inr res) <->
   Forall (fun a => a_col a < w /\ valid a n) l /\
   ForallOrdPairs (fun b a => ~ (a_col b = a_col a /\ exists s, In s (steps b n) /\ In s (steps a n))) l).
Proof. exact prepare_accepts_iff. Qed.
Print Assumptions C16_prepare_accepts_iff.

(* the glue in BoundaryConstraints::new: a pair of assertion lists (main segment, auxiliary segment) is accepted exactly when
   each list is accepted against ITS OWN segment's width (main_trace_width for the main list, aux_segment_width for the
   auxiliary list): an auxiliary assertion naming a column >= aux width is refused even if the column is < main + aux width *)
Theorem C16_segment_width_glue : forall main aux mw aw n, Forall wf main -> Forall wf aux ->
  ((exists res, boundary_prepare main aux mw aw n = inr res) <->
   (Forall (fun a => a_col a < mw /\ valid a n) main /\
    ForallOrdPairs (fun b a => ~ (a_col b = a_col a /\ exists s, In s (steps b n) /\ In s (steps a n))) main) /\
   (Forall (fun a => a_col a < aw /\ valid a n) aux /\
    ForallOrdPairs (fun b a => ~ (a_col b = a_col a /\ exists s, In s (steps b n) /\ In s (steps a n))) aux)).
Proof.
  intros main aux mw aw n Hm Ha.
  rewrite <- (prepare_accepts_iff main mw n Hm), <- (prepare_accepts_iff aux aw n Ha). unfold boundary_prepare.
  destruct (prepare_assertions main mw n) as [e|m]; destruct (prepare_assertions aux aw n) as [e'|a]; split.
  - intros (r & E). discriminate.
  - intros ((r & E) & _). discriminate.
  - intros (r & E). discriminate.
  - intros ((r & E) & _). discriminate.
  - intros (r & E). discriminate.
  - intros (_ & (r & E)). discriminate.
  - intros _. split; eexists; reflexivity.
  - intros _. eexists. reflexivity.
Qed.
Print Assumptions C16_segment_width_glue.

Example C16_segment_width_glue_examples :
  boundary_prepare [mkA 2 0 0 1] [mkA 1 0 0 1] 3 2 8 = inr ([mkA 2 0 0 1], [mkA 1 0 0 1]) /\
  boundary_prepare [mkA 0 0 0 1] [mkA 2 0 0 1] 3 2 8 = inl PEWidth /\
  boundary_prepare [mkA 0 0 0 1] [mkA 4 0 0 1] 3 2 8 = inl PEWidth /\
  boundary_prepare [mkA 3 0 0 1] [mkA 0 0 0 1] 3 2 8 = inl PEWidth /\
  boundary_prepare [mkA 0 0 0 1] [mkA 0 0 0 1; mkA 0 0 4 1] 3 2 8 = inl PEOverlap.
Proof. repeat split. Qed.

(* ================================================================== exemption bounds *)

Theorem C16_exemption_bounds_iff : forall n k ce degs,
  exemptions_ok n k ce degs = true <->
  0 < k /\ k <= n / 2 + 1 /\ forall d, In d degs -> d <= ce - 1 + n /\ k <= ce - 1 + n - d.
Proof. exact exemptions_ok_spec. Qed.
Print Assumptions C16_exemption_bounds_iff.

(* every accepted count leaves at least n/2 - 1 >= 3 enforced steps on a trace of length >= 8 *)
Theorem C16_exemption_bounds : forall n k ce degs, 8 <= n -> exemptions_ok n k ce degs = true ->
  1 <= k <= n / 2 + 1 /\ k < n /\ n / 2 - 1 <= n - k /\ 3 <= n - k.
Proof. exact exemption_bounds. Qed.
Print Assumptions C16_exemption_bounds.

(* ================================================================== the model equals the code regenerated from the source *)
(* Gen/Assertions.v is produced by rs2v from air/src/air/assertions/mod.rs on every run: for each Rust function `f`
   a value function `assertions_f` (wrapping arithmetic) and, where the function contains checked arithmetic,
   `assert!`s or unwraps, `assertions_f_ok` (true = the debug build does not panic).  `to_gen` / `of_gen` convert between
   the model's record and the generated record GAssertion (values vector = its length); `usize_a a` = all four
   fields are in [0, 2^64).  With these equalities the theorems above are statements about the generated terms. *)

Theorem C16_gen_single : forall col step,
  mk_single col step = Some (of_gen (Assertions.assertions_single col step tt)).
Proof. exact gen_single. Qed.
Print Assumptions C16_gen_single.

Theorem C16_gen_periodic : forall col first stride,
  mk_periodic col first stride =
  if Assertions.assertions_periodic_ok col first stride tt
  then Some (of_gen (Assertions.assertions_periodic col first stride tt)) else None.
Proof. exact gen_periodic. Qed.
Print Assumptions C16_gen_periodic.

Theorem C16_gen_sequence : forall col first stride nvals,
  mk_sequence col first stride nvals =
  if Assertions.assertions_sequence_ok col first stride nvals
  then Some (of_gen (Assertions.assertions_sequence col first stride nvals)) else None.
Proof. exact gen_sequence. Qed.
Print Assumptions C16_gen_sequence.

Theorem C16_gen_validate_stride : forall stride first col,
  Assertions.assertions_validate_stride_ok stride first col = validate_stride stride first.
Proof. exact gen_validate_stride. Qed.
Print Assumptions C16_gen_validate_stride.

Theorem C16_gen_kinds : forall a,
  Assertions.assertions_is_single (to_gen a) = is_single a /\
  Assertions.assertions_is_periodic (to_gen a) = is_periodic a /\
  Assertions.assertions_is_sequence (to_gen a) = is_sequence a.
Proof. intros a. split; [apply gen_is_single|split; [apply gen_is_periodic|apply gen_is_sequence]]. Qed.
Print Assumptions C16_gen_kinds.

Theorem C16_gen_overlaps_with : forall a b, usize_a a -> usize_a b ->
  overlaps_with a b =
  if Assertions.assertions_overlaps_with_ok (to_gen a) (to_gen b)
  then Some (Assertions.assertions_overlaps_with (to_gen a) (to_gen b)) else None.
Proof. exact gen_overlaps_with. Qed.
Print Assumptions C16_gen_overlaps_with.

Theorem C16_gen_validate_trace_width : forall a w,
  Assertions.assertions_validate_trace_width (to_gen a) w = if validate_trace_width a w then Some tt else None.
Proof. exact gen_validate_trace_width. Qed.
Print Assumptions C16_gen_validate_trace_width.

(* the generated side condition fails exactly where the model answers VOverflow; elsewhere Ok/Err agree *)
Theorem C16_gen_validate_trace_length : forall a n, usize_a a ->
  Assertions.assertions_validate_trace_length_ok (to_gen a) n =
    match validate_trace_length a n with VOverflow => false | _ => true end /\
  (validate_trace_length a n <> VOverflow ->
   Assertions.assertions_validate_trace_length (to_gen a) n =
     match validate_trace_length a n with VOk => Some tt | _ => None end).
Proof.
  intros a n H. split; [apply gen_validate_trace_length_ok; exact H|apply gen_validate_trace_length; exact H].
Qed.
Print Assumptions C16_gen_validate_trace_length.

Theorem C16_gen_get_num_steps : forall a n, usize_a a ->
  get_num_steps a n =
  if Assertions.assertions_get_num_steps_ok (to_gen a) n
  then Some (Assertions.assertions_get_num_steps (to_gen a) n) else None.
Proof. exact gen_get_num_steps. Qed.
Print Assumptions C16_gen_get_num_steps.

(* C16_overlaps_iff restated on the generated code: no panic, and true exactly on a common cell *)
Theorem C16_gen_overlaps_iff : forall a b n, usize_a a -> usize_a b -> valid a n -> valid b n ->
  Assertions.assertions_overlaps_with_ok (to_gen a) (to_gen b) = true /\
  (Assertions.assertions_overlaps_with (to_gen a) (to_gen b) = true <->
   a_col a = a_col b /\ exists s, In s (steps a n) /\ In s (steps b n)).
Proof. exact gen_overlaps_iff. Qed.
Print Assumptions C16_gen_overlaps_iff.

Example C16_gen_nonvacuous :
  usize_a (mkA 0 1 4 1) /\ usize_a (mkA 0 3 8 2) /\
  Assertions.assertions_overlaps_with_ok (to_gen (mkA 0 1 4 1)) (to_gen (mkA 0 5 0 1)) = true /\
  Assertions.assertions_overlaps_with (to_gen (mkA 0 1 4 1)) (to_gen (mkA 0 5 0 1)) = true /\
  Assertions.assertions_get_num_steps_ok (to_gen (mkA 0 3 8 2)) 16 = true /\
  Assertions.assertions_get_num_steps (to_gen (mkA 0 3 8 2)) 16 = 2 /\
  Assertions.assertions_get_num_steps_ok (to_gen (mkA 0 3 8 2)) 32 = false /\
  Assertions.assertions_sequence_ok 0 3 8 2 = true /\ Assertions.assertions_sequence_ok 0 8 8 2 = false /\
  Assertions.assertions_validate_trace_length_ok (to_gen (mkA 0 (2 ^ 64 - 1) 0 1)) 8 = false.
Proof. unfold usize_a, usize; cbn. repeat split; lia. Qed.

(* ================================================================== field level *)
Section Field.
  Context {F : Type} (Fo : FOps F) (L : FLaws Fo).
  Variables (g : F) (n : Z).
  Hypothesis Hpow2 : exists k, 0 <= k /\ n = 2 ^ k.
  Hypothesis Hn64 : n < 2 ^ 64.
  Hypothesis Hgn : fpow Fo g n = fone Fo.
  Hypothesis Hord : forall i, 0 < i < n -> fpow Fo g i <> fone Fo.

  (* ---- transition divisor (x^n - 1) / prod_{s = n-k}^{n-1} (x - g^s) *)

  (* on the trace domain: the numerator vanishes everywhere, the denominator exactly on the last k steps; hence the
     rational function has an uncancelled zero at g^i iff i < n - k *)
  Theorem C16_transition_divisor_zero_set : forall k d i, 0 <= k <= n -> from_transition Fo g n k = Some d -> 0 <= i < n ->
    eval_numerator Fo d (fpow Fo g i) = fzero Fo /\
    (eval_exemptions Fo d (fpow Fo g i) = fzero Fo <-> n - k <= i).
  Proof. intros k d i Hk E Hi. eapply transition_divisor_zero_set; eassumption. Qed.

  (* the quotient is the polynomial Zt k x = prod_{s < n-k} (x - g^s): numerator = Zt * denominator for EVERY x,
     evaluate_at returns Zt wherever the denominator is non-zero, and Zt vanishes exactly at the enforced steps *)
  Theorem C16_transition_divisor_is_polynomial : forall k d x, 0 <= k <= n -> from_transition Fo g n k = Some d ->
    eval_numerator Fo d x = fmul Fo (Zt Fo g n k x) (eval_exemptions Fo d x) /\
    (eval_exemptions Fo d x <> fzero Fo -> evaluate_at Fo d x = Zt Fo g n k x) /\
    (Zt Fo g n k x = fzero Fo <-> exists i, 0 <= i < n - k /\ x = fpow Fo g i).
  Proof.
    intros k d x Hk E. split; [eapply transition_divisor_quotient; eassumption|].
    split; [eapply transition_evaluate_at_agrees; eassumption|].
    eapply Zt_zero_set; eassumption.
  Qed.

  (* the totalisation, stated: on the k exempt steps evaluate_at returns 0/0 := 0 although the quotient polynomial is
     non-zero there; on the whole trace domain the code's evaluate_at is 0 *)
  Theorem C16_transition_evaluate_at_exempt_is_zero : forall k d i, 0 <= k <= n -> from_transition Fo g n k = Some d -> 0 <= i < n ->
    evaluate_at Fo d (fpow Fo g i) = fzero Fo /\
    (n - k <= i -> eval_exemptions Fo d (fpow Fo g i) = fzero Fo /\ Zt Fo g n k (fpow Fo g i) <> fzero Fo).
  Proof. intros k d i Hk E Hi. eapply transition_evaluate_at_on_domain; eassumption. Qed.

  Theorem C16_transition_divisor_degree : forall k d, 0 <= k <= n -> from_transition Fo g n k = Some d ->
    d_degree d = Some (n - k).
  Proof. intros k d Hk E. eapply transition_degree; eassumption. Qed.

  (* ---- assertion divisors x^m - g^(m * first) *)

  Theorem C16_assertion_divisor_zero_set : forall a d i, valid a n -> from_assertion Fo g a n = Some d -> 0 <= i < n ->
    (evaluate_at Fo d (fpow Fo g i) = fzero Fo <-> In i (steps a n)).
  Proof. intros a d i Hv E Hi. eapply assertion_divisor_zero_set; eassumption. Qed.

  (* over the whole field, not only on the trace domain *)
  Theorem C16_assertion_divisor_zero_set_all : forall a d x, valid a n -> from_assertion Fo g a n = Some d ->
    (evaluate_at Fo d x = fzero Fo <-> exists s, In s (steps a n) /\ x = fpow Fo g s).
  Proof. intros a d x Hv E. eapply assertion_divisor_zero_set_all; eassumption. Qed.

  (* from_assertion never panics on a valid assertion; its degree is the number of named steps *)
  Theorem C16_assertion_divisor_defined : forall a, valid a n ->
    exists d, from_assertion Fo g a n = Some d /\ d_degree d = Some (Z.of_nat (length (steps a n))).
  Proof using Hpow2 Hn64 Hgn Hord.
    intros a Hv. destruct (from_assertion_spec Fo g n a Hv) as (m & _ & _ & _ & _ & E).
    eexists. split; [exact E|]. eapply assertion_degree; eassumption.
  Qed.

  (* assertions grouped under the key (stride, first_step) share one divisor *)
  Theorem C16_group_key_sound : forall a b, valid a n -> valid b n -> group_key a = group_key b ->
    from_assertion Fo g a n = from_assertion Fo g b n.
  Proof. intros a b Ha Hb K. eapply group_key_sound; eassumption. Qed.

  (* ---- value polynomial *)

  (* single / periodic: the constant *)
  Theorem C16_assertion_value_constant : forall inv_g a v x tv,
    bc_evaluate_at Fo (bc_new Fo a [v] inv_g) x tv = fsub Fo tv v.
  Proof. intros. reflexivity. Qed.

  (* sequence assertions: for inv_g = g^-1 (context.trace_domain_generator.inv()), values vals, 0 <= j < #values, the
     value polynomial (inverse DFT of vals) evaluated through the domain shift poly_offset at the j-th named step
     g^(first + j*stride) is vals[j]: the boundary constraint there is trace_value - vals[j].
     Hofz: `fofz` (the conversion of the length into a field element) is the canonical image of the naturals --
     not one of the FLaws; that the length is invertible (characteristic <> 2) follows from the order of g. *)
  Theorem C16_assertion_value_spec : forall inv_g a vals j tv,
    fmul Fo g inv_g = fone Fo -> (forall k : nat, fofz Fo (Z.of_nat k) = fnat Fo k) ->
    valid a n -> is_sequence a = true -> Z.of_nat (length vals) = a_nvals a -> 0 <= j < a_nvals a ->
    In (a_first a + j * a_stride a) (steps a n) /\
    bc_evaluate_at Fo (bc_new Fo a vals inv_g) (fpow Fo g (a_first a + j * a_stride a)) tv
    = fsub Fo tv (nth (Z.to_nat j) vals (fzero Fo)).
  Proof. intros inv_g a vals j tv Hinv Hofz Hv Hs Hl Hj. eapply assertion_value_spec; eassumption. Qed.

  (* the same without Hofz, given the interpolation property of the coefficient list (kept: it isolates what the
     domain shift contributes from what the interpolation contributes) *)
  Theorem C16_assertion_value_spec_partial : forall inv_g a vals j tv,
    fmul Fo g inv_g = fone Fo ->
    valid a n -> is_sequence a = true -> Z.of_nat (length vals) = a_nvals a -> 0 <= j < a_nvals a ->
    (forall i, 0 <= i < a_nvals a ->
       poly_eval Fo (idft Fo (fpow Fo inv_g (a_stride a)) (finv Fo (fofz Fo (a_nvals a))) vals)
                 (fpow Fo (fpow Fo g (a_stride a)) i)
       = nth (Z.to_nat i) vals (fzero Fo)) ->
    In (a_first a + j * a_stride a) (steps a n) /\
    bc_evaluate_at Fo (bc_new Fo a vals inv_g) (fpow Fo g (a_first a + j * a_stride a)) tv
    = fsub Fo tv (nth (Z.to_nat j) vals (fzero Fo)).
  Proof. intros inv_g a vals j tv Hinv Hv Hs Hl Hj Hint. eapply assertion_value_spec_partial; eassumption. Qed.
End Field.

Print Assumptions C16_transition_divisor_zero_set.
Print Assumptions C16_transition_divisor_is_polynomial.
Print Assumptions C16_transition_evaluate_at_exempt_is_zero.
Print Assumptions C16_transition_divisor_degree.
Print Assumptions C16_assertion_divisor_zero_set.
Print Assumptions C16_assertion_divisor_zero_set_all.
Print Assumptions C16_assertion_divisor_defined.
Print Assumptions C16_group_key_sound.
Print Assumptions C16_assertion_value_constant.
Print Assumptions C16_assertion_value_spec.
Print Assumptions C16_assertion_value_spec_partial.

(* ================================================================== non-vacuity *)

(* the field-level hypotheses are satisfiable: Z/97, g = 8 of exact order 16 *)
Example C16_field_hypotheses_satisfiable :
  FLaws f97_ops /\ (exists k, 0 <= k /\ 16 = 2 ^ k) /\ 16 < 2 ^ 64 /\
  fpow f97_ops g16 16 = fone f97_ops /\ (forall i, 0 < i < 16 -> fpow f97_ops g16 i <> fone f97_ops).
Proof.
  split; [exact f97_laws|]. split; [exact sixteen_pow2|]. split; [reflexivity|].
  split; [exact g16_pow_16|exact g16_order].
Qed.

(* valid assertions of the three kinds exist for n = 16, overlapping and disjoint ones *)
Example C16_valid_single : valid (mkA 0 5 0 1) 16.
Proof. split; [unfold wf; cbn; lia|reflexivity]. Qed.
Example C16_valid_periodic : valid (mkA 0 1 4 1) 16.
Proof. split; [unfold wf; cbn; repeat split; try lia; right; repeat split; try lia; [exists 2|exists 0]; split; (lia || reflexivity)|reflexivity]. Qed.
Example C16_valid_sequence : valid (mkA 0 3 8 2) 16.
Proof. split; [unfold wf; cbn; repeat split; try lia; right; repeat split; try lia; [exists 3|exists 1]; split; (lia || reflexivity)|reflexivity]. Qed.
Example C16_steps_examples :
  steps (mkA 0 5 0 1) 16 = [5] /\ steps (mkA 0 1 4 1) 16 = [1; 5; 9; 13] /\ steps (mkA 0 3 8 2) 16 = [3; 11].
Proof. repeat split. Qed.
Example C16_overlap_examples :
  overlaps_with (mkA 0 5 0 1) (mkA 0 1 4 1) = Some true /\ overlaps_with (mkA 0 1 4 1) (mkA 0 3 8 2) = Some false /\
  overlaps_with (mkA 0 3 8 2) (mkA 0 3 4 1) = Some true /\ overlaps_with (mkA 0 5 0 1) (mkA 1 1 4 1) = Some false.
Proof. repeat split. Qed.

(* the theorems instantiated on Z/97 and the models run by vm_compute: n = 16, k = 3 exemptions *)
Example C16_transition_instance : forall d i, from_transition f97_ops g16 16 3 = Some d -> 0 <= i < 16 ->
  eval_numerator f97_ops d (fpow f97_ops g16 i) = fzero f97_ops /\
  (eval_exemptions f97_ops d (fpow f97_ops g16 i) = fzero f97_ops <-> 13 <= i).
Proof.
  intros d i E Hi. change 13 with (16 - 3).
  apply (C16_transition_divisor_zero_set f97_ops f97_laws g16 16 sixteen_pow2 eq_refl g16_pow_16 g16_order 3 d i); [lia|exact E|exact Hi].
Qed.
Example C16_transition_run :
  option_map exemption_pattern (from_transition f97_ops g16 16 3)
  = Some [false;false;false;false;false;false;false;false;false;false;false;false;false;true;true;true] /\
  option_map zero_pattern (from_transition f97_ops g16 16 3) = Some (repeat true 16) /\
  option_map (@d_degree F97) (from_transition f97_ops g16 16 3) = Some (Some 13).
Proof. vm_compute. repeat split. Qed.
Example C16_assertion_run :
  option_map zero_pattern (from_assertion f97_ops g16 (mkA 0 1 4 1) 16)
  = Some [false;true;false;false;false;true;false;false;false;true;false;false;false;true;false;false] /\
  option_map zero_pattern (from_assertion f97_ops g16 (mkA 0 3 8 2) 16)
  = Some [false;false;false;true;false;false;false;false;false;false;false;true;false;false;false;false] /\
  option_map zero_pattern (from_assertion f97_ops g16 (mkA 0 5 0 1) 16)
  = Some [false;false;false;false;false;true;false;false;false;false;false;false;false;false;false;false].
Proof. vm_compute. repeat split. Qed.
(* value polynomial of the sequence assertion (column 0, first 3, stride 8, values [10; 20]) at its two steps 3, 11 *)
Example C16_value_run :
  let c := bc_new f97_ops (mkA 0 3 8 2) [mk 10; mk 20] (finv f97_ops g16) in
  map (fun s => val (bc_evaluate_at f97_ops c (fpow f97_ops g16 s) (fzero f97_ops))) [3; 11]
  = [(- 10) mod 97; (- 20) mod 97].
Proof. vm_compute. reflexivity. Qed.
Example C16_prepare_examples :
  prepare_assertions [mkA 0 5 0 1; mkA 0 1 4 1] 1 16 = inl PEOverlap /\
  prepare_assertions [mkA 0 3 8 2; mkA 0 1 4 1; mkA 0 0 0 1] 1 16 = inr [mkA 0 0 0 1; mkA 0 1 4 1; mkA 0 3 8 2] /\
  prepare_assertions [mkA 1 0 0 1] 1 16 = inl PEWidth /\ prepare_assertions [mkA 0 0 8 4] 1 16 = inl PELength.
Proof. repeat split. Qed.
Example C16_value_instance : forall tv,
  bc_evaluate_at f97_ops (bc_new f97_ops (mkA 0 3 8 2) [mk 10; mk 20] (finv f97_ops g16)) (fpow f97_ops g16 (3 + 1 * 8)) tv
  = fsub f97_ops tv (mk 20).
Proof.
  intros tv.
  exact (proj2 (C16_assertion_value_spec f97_ops f97_laws g16 16 sixteen_pow2 g16_pow_16 g16_order (finv f97_ops g16)
                  (mkA 0 3 8 2) [mk 10; mk 20] 1 tv g16_inv f97_fofz C16_valid_sequence eq_refl eq_refl ltac:(cbn; lia))).
Qed.
Example C16_exemptions_example : exemptions_ok 16 9 32 [15] = true /\ exemptions_ok 16 10 32 [15] = false /\ exemptions_ok 16 0 32 [15] = false.
Proof. repeat split. Qed.

(* ================================================================== Lagrange kernel constraints *)
(* air/src/air/lagrange/{transition,boundary,frame,mod}.rs, model Model/EnforceLagrange.v.  Trace length n = 2^v.
   An AIR with a Lagrange kernel column draws `lag_num_coefficients n` = trace_len.ilog2() transition coefficients and
   LagrangeKernelTransitionConstraints::new builds one divisor per coefficient.  Constraint k (numbered from 1, as in
   evaluate_numerators) has the divisor x^(2^(k-1)) - 1 and the numerator r[v-k]*c[0] - (1 - r[v-k])*c[v-k+1], where the
   frame entry c[v-k+1] is the column at g^(2^(v-k)) * x.  `lag_rows n k` (the multiples of n / 2^(k-1)) is the intended
   enforcement domain, `lag_shift n k` = n / 2^k the distance to the second row read, `lag_reads n k i` both rows. *)

Theorem C16_lagrange_number_is_log2 : forall v, 0 <= v -> lag_num_coefficients (2 ^ v) = v.
Proof. exact lag_num_coefficients_spec. Qed.
Print Assumptions C16_lagrange_number_is_log2.

(* the intended enforcement domain of constraint k: the 2^(k-1) multiples of 2^(v-k+1) below n *)
Theorem C16_lagrange_rows_spec : forall v k i, 0 <= v -> 1 <= k <= v ->
  (In i (lag_rows (2 ^ v) k) <-> 0 <= i < 2 ^ v /\ (2 ^ (v - k + 1) | i)) /\
  NoDup (lag_rows (2 ^ v) k) /\ Z.of_nat (length (lag_rows (2 ^ v) k)) = 2 ^ (k - 1).
Proof.
  intros v k i Hv Hk. split; [apply lag_rows_spec; assumption|].
  split; [apply lag_rows_NoDup; assumption|apply lag_rows_length; assumption].
Qed.
Print Assumptions C16_lagrange_rows_spec.

(* the domains are nested and their union is the last one: the rows of even index.  On a row of odd index no Lagrange
   transition constraint is enforced (by design: such a row is only ever the SECOND row of a constraint) *)
Theorem C16_lagrange_union_is_even_rows : forall v i, 1 <= v ->
  ((exists k, 1 <= k <= v /\ In i (lag_rows (2 ^ v) k)) <-> 0 <= i < 2 ^ v /\ (2 | i)) /\
  (forall k, 1 <= k < v -> In i (lag_rows (2 ^ v) k) -> In i (lag_rows (2 ^ v) (k + 1))).
Proof.
  intros v i Hv. split; [apply lag_rows_union; lia|]. intros k Hk. apply lag_rows_nested; lia.
Qed.
Print Assumptions C16_lagrange_union_is_even_rows.

(* coverage: every row except row 0 is the second row of EXACTLY ONE enforced (constraint, row) pair, without
   wrap-around; row 0 never is (it is pinned by the boundary constraint, whose denominator is x - 1) *)
Theorem C16_lagrange_every_row_covered_once : forall v j, 0 <= v -> 0 < j < 2 ^ v ->
  exists k i, (1 <= k <= v /\ In i (lag_rows (2 ^ v) k) /\ j = i + lag_shift (2 ^ v) k) /\
    forall k' i', 1 <= k' <= v -> In i' (lag_rows (2 ^ v) k') -> j = i' + lag_shift (2 ^ v) k' -> k' = k /\ i' = i.
Proof.
  intros v j Hv Hj. destruct (lag_target_exists v Hv j Hj) as (k & i & Hk & Hi & E).
  exists k, i. split; [auto|]. intros k' i' Hk' Hi' E'.
  exact (lag_target_unique v Hv j k' i' k i Hk' Hk Hi' Hi E' E).
Qed.
Print Assumptions C16_lagrange_every_row_covered_once.

Theorem C16_lagrange_row0_exempt : forall v k i, 0 <= v -> 1 <= k <= v -> In i (lag_rows (2 ^ v) k) ->
  0 < i + lag_shift (2 ^ v) k < 2 ^ v /\ (i + lag_shift (2 ^ v) k) mod 2 ^ v = i + lag_shift (2 ^ v) k.
Proof. intros v k i Hv. apply lag_target_in_range. exact Hv. Qed.
Print Assumptions C16_lagrange_row0_exempt.

(* a row of odd index is read by the LAST constraint only (k = v = log2 n, as the successor of an even row) *)
Theorem C16_lagrange_odd_rows_last_only : forall v j k i, 0 <= v -> 1 <= k <= v ->
  In i (lag_rows (2 ^ v) k) -> In j (lag_reads (2 ^ v) k i) -> ~ (2 | j) -> k = v /\ j = i + 1.
Proof. intros v j k i Hv. apply lag_odd_row_last_only. exact Hv. Qed.
Print Assumptions C16_lagrange_odd_rows_last_only.

(* REFUTED: "the first log2(n) - 1 constraints cover every row".  Witness n = 8: the rows 1, 3, 5, 7 are read by no
   enforced instance of constraints 1 and 2; constraint 3 reads each of them exactly once *)
Theorem C16_lagrange_cover_without_last_refuted :
  exists n j, n = 8 /\ 0 < j < n /\
    ~ (exists k i, 1 <= k <= lag_num_coefficients n - 1 /\ In i (lag_rows n k) /\ In j (lag_reads n k i)).
Proof. exact lag_cover_without_last_refuted. Qed.
Print Assumptions C16_lagrange_cover_without_last_refuted.

Theorem C16_lagrange_cover_without_last_refuted_rows : forall j, In j [1; 3; 5; 7] ->
  lag_readers 8 (lag_num_coefficients 8 - 1) j = [] /\ lag_readers 8 (lag_num_coefficients 8) j = [(3, j - 1)].
Proof. exact lag_cover_without_last_refuted_all. Qed.
Print Assumptions C16_lagrange_cover_without_last_refuted_rows.

Section LagrangeField.
  Context {F : Type} (Fo : FOps F) (L : FLaws Fo).
  Variables (g : F) (v : Z).
  Hypothesis Hv : 0 <= v.
  Hypothesis Hv64 : v < 64.
  Hypothesis Hgn : fpow Fo g (2 ^ v) = fone Fo.
  Hypothesis Hord : forall i, 0 < i < 2 ^ v -> fpow Fo g i <> fone Fo.

  (* the number of constraints is log2 n, there are as many divisors as coefficients (the zip of evaluate_and_combine
     drops nothing), and the divisor of constraint k is x^(2^(k-1)) - 1 with no exemption point *)
  Theorem C16_lagrange_count : forall coefs, Z.of_nat (length coefs) = lag_num_coefficients (2 ^ v) ->
    exists t, lag_new Fo coefs = Some t /\ l_coef t = coefs /\
      lag_num_constraints t = v /\ Z.of_nat (length (l_div t)) = v /\
      forall k, 1 <= k <= v -> zidx (l_div t) (k - 1) = Some (mkD [(2 ^ (k - 1), fone Fo)] []).
  Proof. exact (lag_count Fo v Hv Hv64). Qed.

  (* new() panics (debug build: overflow of 2_usize.pow) on more than 64 coefficients, and on no other input *)
  Theorem C16_lagrange_new_defined : forall coefs,
    (Z.of_nat (length coefs) <= 64 -> exists t, lag_new Fo coefs = Some t) /\
    (64 < Z.of_nat (length coefs) -> lag_new Fo coefs = None).
  Proof.
    intros coefs. split; [intros H; eexists; apply (lag_new_spec Fo 0); exact H|apply (lag_new_refuses Fo 0)].
  Qed.

  (* enforcement_exact: constraint k is enforced on EXACTLY the rows of its subgroup -- on the trace domain, and the
     divisor has no other zero in the whole field; its denominator is the constant 1 (no 0/0 totalisation) *)
  Theorem C16_lagrange_enforcement_exact : forall k i, 1 <= k <= v -> 0 <= i < 2 ^ v ->
    (evaluate_at Fo (mkD [(2 ^ (k - 1), fone Fo)] []) (fpow Fo g i) = fzero Fo <-> In i (lag_rows (2 ^ v) k)).
  Proof. exact (lag_enforcement_exact Fo L g v Hv Hv64 Hgn Hord). Qed.

  Theorem C16_lagrange_enforcement_exact_all : forall k x, 1 <= k <= v ->
    (evaluate_at Fo (mkD [(2 ^ (k - 1), fone Fo)] []) x = fzero Fo <->
     exists i, In i (lag_rows (2 ^ v) k) /\ x = fpow Fo g i) /\
    eval_exemptions Fo (mkD [(2 ^ (k - 1), fone Fo)] []) x = fone Fo.
  Proof.
    intros k x Hk. split; [exact (lag_enforcement_exact_all Fo L g v Hv Hv64 Hgn Hord k x Hk)|reflexivity].
  Qed.

  (* the boundary constraint (denominator x - 1) is enforced on row 0 only *)
  Theorem C16_lagrange_boundary_row : forall i, 0 <= i < 2 ^ v ->
    (lag_boundary_denominator Fo (fpow Fo g i) = fzero Fo <-> i = 0).
  Proof. exact (lag_boundary_row Fo L g v Hv Hv64 Hgn Hord). Qed.

  (* which cells a numerator relates: on the frame of row i, numerator k is r[v-k]*col[i] - (1 - r[v-k])*col[i + 2^(v-k)] *)
  Theorem C16_lagrange_numerator_reads : forall col r k i rk, 1 <= k <= v -> zidx r (v - k) = Some rk ->
    lag_raw Fo (lag_frame_at_row Fo col (2 ^ v) v i) r k =
    Some (fsub Fo (fmul Fo rk (nth (Z.to_nat i) col (fzero Fo)))
                  (fmul Fo (fsub Fo (fone Fo) rk) (nth (Z.to_nat ((i + 2 ^ (v - k)) mod 2 ^ v)) col (fzero Fo)))).
  Proof. exact (lag_raw_at_row Fo v Hv). Qed.

  (* the frame from_lagrange_kernel_column_poly builds at a trace-domain point is the frame of that row *)
  Theorem C16_lagrange_frame_from_poly : forall poly col i,
    (forall j, 0 <= j < 2 ^ v -> poly_eval Fo poly (fpow Fo g j) = nth (Z.to_nat j) col (fzero Fo)) -> 0 <= i < 2 ^ v ->
    lag_frame_from_poly Fo g v poly (fpow Fo g i) = lag_frame_at_row Fo col (2 ^ v) v i.
  Proof. exact (lag_frame_from_poly_on_domain Fo L g v Hv Hv64 Hgn Hord). Qed.

  (* completeness: on the Lagrange kernel column every numerator vanishes on every row of its enforcement domain *)
  Theorem C16_lagrange_honest_numerators_vanish : forall r k i, Z.of_nat (length r) = v -> 1 <= k <= v ->
    In i (lag_rows (2 ^ v) k) ->
    lag_raw Fo (lag_frame_at_row Fo (lag_kernel_col Fo r (2 ^ v)) (2 ^ v) v i) r k = Some (fzero Fo).
  Proof. exact (lag_honest_numerator_zero Fo L v Hv). Qed.

  (* soundness of the enforcement domains: ALL v constraints on their domains plus the boundary cell determine the
     column -- every row is constrained *)
  Theorem C16_lagrange_constraints_determine_column : forall col r, Z.of_nat (length r) = v ->
    (forall rb, In rb r -> fsub Fo (fone Fo) rb <> fzero Fo) ->
    nth 0 col (fzero Fo) = lag_assertion_value Fo r ->
    (forall k i, 1 <= k <= v -> In i (lag_rows (2 ^ v) k) ->
       lag_raw Fo (lag_frame_at_row Fo col (2 ^ v) v i) r k = Some (fzero Fo)) ->
    forall j, 0 <= j < 2 ^ v -> nth (Z.to_nat j) col (fzero Fo) = lag_kernel_cell Fo r j.
  Proof. exact (lag_constraints_determine Fo L v Hv). Qed.
End LagrangeField.

Print Assumptions C16_lagrange_count.
Print Assumptions C16_lagrange_new_defined.
Print Assumptions C16_lagrange_enforcement_exact.
Print Assumptions C16_lagrange_enforcement_exact_all.
Print Assumptions C16_lagrange_boundary_row.
Print Assumptions C16_lagrange_numerator_reads.
Print Assumptions C16_lagrange_frame_from_poly.
Print Assumptions C16_lagrange_honest_numerators_vanish.
Print Assumptions C16_lagrange_constraints_determine_column.

(* REFUTED: "the first log2(n) - 1 constraints and the boundary cell determine the column".  Witness over Z/97, n = 8,
   r = (2, 3, 5): the Lagrange kernel column with the cell of row 5 replaced passes constraints 1 and 2 on their whole
   domains and has the asserted cell in row 0 *)
Theorem C16_lagrange_determine_without_last_refuted :
  exists (col r : list F97), Z.of_nat (length r) = 3 /\
    (forall rb, In rb r -> fsub f97_ops (fone f97_ops) rb <> fzero f97_ops) /\
    nth 0 col (fzero f97_ops) = lag_assertion_value f97_ops r /\
    (forall k i, 1 <= k <= 3 - 1 -> In i (lag_rows (2 ^ 3) k) ->
       lag_raw f97_ops (lag_frame_at_row f97_ops col (2 ^ 3) 3 i) r k = Some (fzero f97_ops)) /\
    ~ (forall j, 0 <= j < 2 ^ 3 -> nth (Z.to_nat j) col (fzero f97_ops) = lag_kernel_cell f97_ops r j).
Proof. exact lag_determine_without_last_refuted. Qed.
Print Assumptions C16_lagrange_determine_without_last_refuted.

(* non-vacuity: the hypotheses of the section hold for n = 8 over Z/97 (g = 64 of exact order 8); the model run inside
   Coq: 3 constraints, zero patterns of the three divisors over the trace domain, numerators of the honest and of the
   corrupted column *)
Example C16_lagrange_hypotheses_satisfiable : 0 <= 3 /\ 3 < 64 /\ fpow f97_ops g8 (2 ^ 3) = fone f97_ops /\
  (forall i, 0 < i < 2 ^ 3 -> fpow f97_ops g8 i <> fone f97_ops).
Proof. exact lag_instance_hyps. Qed.
Example C16_lagrange_run :
  option_map (fun t => (lag_num_constraints t, Z.of_nat (length (l_div t)))) (lag_new f97_ops co3) = Some (3, 3) /\
  (forall t, lag_new f97_ops co3 = Some t ->
     lag_zero_pattern8 t 1 = Some [true; false; false; false; false; false; false; false] /\
     lag_zero_pattern8 t 2 = Some [true; false; false; false; true; false; false; false] /\
     lag_zero_pattern8 t 3 = Some [true; false; true; false; true; false; true; false] /\
     lag_zero_pattern8 t 4 = None) /\
  lag_rows 8 1 = [0] /\ lag_rows 8 2 = [0; 4] /\ lag_rows 8 3 = [0; 2; 4; 6] /\
  lag_shift 8 1 = 4 /\ lag_shift 8 2 = 2 /\ lag_shift 8 3 = 1.
Proof. exact lag_run_new. Qed.
Example C16_lagrange_run_numerators :
  raws8 honest8 1 = [Some 0] /\ raws8 honest8 2 = [Some 0; Some 0] /\ raws8 honest8 3 = [Some 0; Some 0; Some 0; Some 0] /\
  raws8 corrupt8 1 = [Some 0] /\ raws8 corrupt8 2 = [Some 0; Some 0] /\
  (exists x, x <> 0 /\ raws8 corrupt8 3 = [Some 0; Some 0; Some x; Some 0]).
Proof. exact lag_run_numerators. Qed.
Example C16_lagrange_determine_instance : forall col,
  nth 0 col (fzero f97_ops) = lag_assertion_value f97_ops r3 ->
  (forall k i, 1 <= k <= 3 -> In i (lag_rows (2 ^ 3) k) ->
     lag_raw f97_ops (lag_frame_at_row f97_ops col (2 ^ 3) 3 i) r3 k = Some (fzero f97_ops)) ->
  forall j, 0 <= j < 2 ^ 3 -> nth (Z.to_nat j) col (fzero f97_ops) = lag_kernel_cell f97_ops r3 j.
Proof. exact lag_determine_instance. Qed.
