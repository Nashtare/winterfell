(* C07 — base field f62 (M = 2^62 - 111*2^39 + 1, Montgomery R = 2^64, lazy range [0, 2M)):
   every operation of math/src/field/f62/mod.rs (generated terms of Gen/F62.v) agrees with integer
   arithmetic modulo M for ALL operands of the lazy range; the checked add, sub, mul operations never
   overflow (the *_ok side conditions); equality and serialization identify exactly equal residues.
   Only statements, `exact` of lemmas proved in Proofs/F62*.v, and Print Assumptions.
     repr62 x := 0 <= x < 2*M62        val62 x := (x * 2^-64) mod M62 *)
From Coq Require Import ZArith Znumtheory.
From VBase Require Import MachInt.
From VGen Require Import F62.
From VProofs Require Import F62Ops F62Exp F62Inv.
Open Scope Z_scope.

(* ---- 1. Montgomery multiplication ---- *)
Theorem C07_f62_mul : forall a b, repr62 a -> repr62 b ->
  repr62 (f62_mul a b) /\ val62 (f62_mul a b) = (val62 a * val62 b) mod M62.
Proof. exact f62_mul_spec. Qed.
Print Assumptions C07_f62_mul.

Theorem C07_f62_mul_ok : forall a b, repr62 a -> repr62 b -> f62_mul_ok a b = true.
Proof. exact f62_mul_ok_spec. Qed.
Print Assumptions C07_f62_mul_ok.

(* the exact bound the reduction needs: a*b < 2^64 * M (used by new with a < 2^64, b = R2 < M) *)
Theorem C07_f62_fn_mul_general : forall a b, 0 <= a -> 0 <= b -> a * b < 2^64 * M62 ->
  repr62 (f62_fn_mul a b) /\ (f62_fn_mul a b * 2^64) mod M62 = (a * b) mod M62 /\
  val62 (f62_fn_mul a b) = (val62 a * val62 b) mod M62 /\ f62_fn_mul_ok a b = true.
Proof. exact fn_mul_spec_mod. Qed.
Print Assumptions C07_f62_fn_mul_general.

Theorem C07_f62_fn_mul_exact : forall a b, 0 <= a -> 0 <= b -> a * b < 2^64 * M62 ->
  exists q, 0 <= q < 2^64 /\ f62_fn_mul a b * 2^64 = a * b + q * M62.
Proof. exact fn_mul_core. Qed.
Print Assumptions C07_f62_fn_mul_exact.

(* ---- 2. add / sub / neg / double ---- *)
Theorem C07_f62_add : forall a b, repr62 a -> repr62 b ->
  repr62 (f62_add a b) /\ val62 (f62_add a b) = (val62 a + val62 b) mod M62.
Proof. exact f62_add_spec. Qed.
Print Assumptions C07_f62_add.
Theorem C07_f62_add_ok : forall a b, repr62 a -> repr62 b -> f62_add_ok a b = true.
Proof. exact f62_add_ok_spec. Qed.
Print Assumptions C07_f62_add_ok.

Theorem C07_f62_sub : forall a b, repr62 a -> repr62 b ->
  repr62 (f62_sub a b) /\ val62 (f62_sub a b) = (val62 a - val62 b) mod M62.
Proof. exact f62_sub_spec. Qed.
Print Assumptions C07_f62_sub.
Theorem C07_f62_sub_ok : forall a b, repr62 a -> repr62 b -> f62_sub_ok a b = true.
Proof. exact f62_sub_ok_spec. Qed.
Print Assumptions C07_f62_sub_ok.

Theorem C07_f62_neg : forall a, repr62 a ->
  repr62 (f62_neg a) /\ val62 (f62_neg a) = (- val62 a) mod M62.
Proof. exact f62_neg_spec. Qed.
Print Assumptions C07_f62_neg.
Theorem C07_f62_neg_ok : forall a, repr62 a -> f62_neg_ok a = true.
Proof. exact f62_neg_ok_spec. Qed.
Print Assumptions C07_f62_neg_ok.

Theorem C07_f62_double : forall a, repr62 a ->
  repr62 (f62_double a) /\ val62 (f62_double a) = (2 * val62 a) mod M62.
Proof. exact f62_double_spec. Qed.
Print Assumptions C07_f62_double.
Theorem C07_f62_double_ok : forall a, repr62 a -> f62_double_ok a = true.
Proof. exact f62_double_ok_spec. Qed.
Print Assumptions C07_f62_double_ok.

(* ---- 3. new / as_int / normalize / eq ---- *)
Theorem C07_f62_new : forall v, 0 <= v < 2^64 ->
  repr62 (f62_new v) /\ val62 (f62_new v) = v mod M62.
Proof. exact f62_new_spec. Qed.
Print Assumptions C07_f62_new.
Theorem C07_f62_new_ok : forall v, 0 <= v < 2^64 -> f62_new_ok v = true.
Proof. exact f62_new_ok_spec. Qed.
Print Assumptions C07_f62_new_ok.

Theorem C07_f62_as_int : forall x, repr62 x -> f62_as_int x = val62 x.
Proof. exact f62_as_int_spec. Qed.
Print Assumptions C07_f62_as_int.
Theorem C07_f62_as_int_canonical : forall x, repr62 x -> 0 <= f62_as_int x < M62.
Proof. exact f62_as_int_canonical. Qed.
Print Assumptions C07_f62_as_int_canonical.
Theorem C07_f62_as_int_ok : forall x, repr62 x -> f62_as_int_ok x = true.
Proof. exact f62_as_int_ok_spec. Qed.
Print Assumptions C07_f62_as_int_ok.
Theorem C07_f62_as_int_new : forall v, 0 <= v < 2^64 -> f62_as_int (f62_new v) = v mod M62.
Proof. exact f62_as_int_new. Qed.
Print Assumptions C07_f62_as_int_new.
Theorem C07_f62_as_int_inj : forall a b, repr62 a -> repr62 b ->
  (f62_as_int a = f62_as_int b <-> val62 a = val62 b).
Proof. exact f62_as_int_inj. Qed.
Print Assumptions C07_f62_as_int_inj.

Theorem C07_f62_normalize : forall x, repr62 x ->
  f62_normalize x = x mod M62 /\ 0 <= f62_normalize x < M62 /\ val62 (f62_normalize x) = val62 x
  /\ f62_normalize_ok x = true.
Proof. exact f62_normalize_spec. Qed.
Print Assumptions C07_f62_normalize.

Theorem C07_f62_eq : forall a b, repr62 a -> repr62 b -> f62_eq a b = (val62 a =? val62 b).
Proof. exact f62_eq_spec. Qed.
Print Assumptions C07_f62_eq.
Theorem C07_f62_eq_ok : forall a b, repr62 a -> repr62 b -> f62_eq_ok a b = true.
Proof. exact f62_eq_ok_spec. Qed.
Print Assumptions C07_f62_eq_ok.

Theorem C07_f62_val_inj_lazy : forall a b, repr62 a -> repr62 b ->
  (val62 a = val62 b <-> (a = b \/ a = b + M62 \/ b = a + M62)).
Proof. exact val62_inj_lazy. Qed.
Print Assumptions C07_f62_val_inj_lazy.

Theorem C07_f62_try_from_u64 : forall v, 0 <= v < 2^64 ->
  match f62_try_from_u64 v with
  | None => M62 <= v
  | Some e => v < M62 /\ repr62 e /\ val62 e = v
  end /\ f62_try_from_u64_ok v = true.
Proof. exact f62_try_from_u64_spec. Qed.
Print Assumptions C07_f62_try_from_u64.

Theorem C07_f62_repr_nonempty : repr62 0 /\ repr62 M62 /\ repr62 (2 * M62 - 1) /\ ~ repr62 (2 * M62).
Proof. exact repr62_nonempty. Qed.
Print Assumptions C07_f62_repr_nonempty.
Theorem C07_f62_two_words_one_residue :
  val62 1 = val62 (M62 + 1) /\ 1 <> M62 + 1 /\ f62_eq 1 (M62 + 1) = true.
Proof. exact val62_two_words. Qed.
Print Assumptions C07_f62_two_words_one_residue.

(* ---- 4. exponentiation ---- *)
Theorem C07_f62_exp : forall a p, repr62 a -> 0 <= p < 2^64 ->
  repr62 (f62_exp a p) /\ val62 (f62_exp a p) = (val62 a ^ p) mod M62.
Proof. exact f62_exp_spec. Qed.
Print Assumptions C07_f62_exp.

(* ---- 5. inversion ---- *)
(* the generated term has exactly the loop structure the proofs are about *)
Theorem C07_f62_inv_structure : forall fuel x, f62_fn_inv fuel x = inv_struct fuel x.
Proof. exact fn_inv_struct. Qed.
Print Assumptions C07_f62_inv_structure.

Theorem C07_f62_inv_zero : forall fuel, f62_fn_inv fuel 0 = Some 0 /\ f62_fn_inv fuel M62 = Some 0.
Proof. exact f62_fn_inv_zero. Qed.
Print Assumptions C07_f62_inv_zero.

(* Full statement: forall x, repr62 x -> exists r, f62_fn_inv 400 x = Some r /\ repr62 r /\
     (val62 r * val62 x) mod M62 = (if val62 x =? 0 then 0 else 1)   (C07_f62_inv_total_unconditional, below).
   In steps: partial correctness for every fuel, termination for units modulo M, hence the full statement
   under `prime M62` (C07_f62_inv_total_if_prime); primality of P62 = M62 (Proofs/NumTheoryPrime.v) is
   plugged in after the constants. *)
Theorem C07_f62_inv_sound_partial : forall fuel x r, repr62 x -> f62_fn_inv fuel x = Some r ->
  repr62 r /\ (val62 r * val62 x) mod M62 = (if val62 x =? 0 then 0 else 1).
Proof. exact f62_inv_sound_partial. Qed.
Print Assumptions C07_f62_inv_sound_partial.

Theorem C07_f62_inv_terminates_unit : forall fuel x, repr62 x ->
  (x mod M62 <> 0 -> rel_prime x M62) -> (66 <= fuel)%nat -> exists r, f62_fn_inv fuel x = Some r.
Proof. exact f62_inv_terminates_unit. Qed.
Print Assumptions C07_f62_inv_terminates_unit.

Theorem C07_f62_inv_terminates_if_prime : forall x, prime M62 -> repr62 x ->
  exists r, f62_fn_inv 400 x = Some r.
Proof. exact f62_inv_terminates. Qed.
Print Assumptions C07_f62_inv_terminates_if_prime.

Theorem C07_f62_inv_total_if_prime : forall x, prime M62 -> repr62 x ->
  exists r, f62_fn_inv 400 x = Some r /\ repr62 r /\
            (val62 r * val62 x) mod M62 = (if val62 x =? 0 then 0 else 1).
Proof. exact f62_inv_total. Qed.
Print Assumptions C07_f62_inv_total_if_prime.

Theorem C07_f62_inv_pub_sound_partial : forall fuel x r, repr62 x -> f62_inv fuel x = Some r ->
  repr62 r /\ (val62 r * val62 x) mod M62 = (if val62 x =? 0 then 0 else 1).
Proof. exact f62_inv_pub_sound_partial. Qed.
Print Assumptions C07_f62_inv_pub_sound_partial.

Theorem C07_f62_div_sound_partial : forall fuel a b q, repr62 a -> repr62 b ->
  f62_div fuel a b = Some q ->
  repr62 q /\ (val62 q * val62 b) mod M62 = (if val62 b =? 0 then 0 else val62 a).
Proof. exact f62_div_sound_partial. Qed.
Print Assumptions C07_f62_div_sound_partial.

Theorem C07_f62_inv_example :
  f62_fn_inv 66 (f62_new 3) = Some 3074498027548486314 /\
  (f62_as_int 3074498027548486314 * 3) mod M62 = 1.
Proof. exact f62_inv_example. Qed.
Print Assumptions C07_f62_inv_example.
Theorem C07_f62_inv_example_lazy :
  f62_fn_inv 66 (f62_new 3 + M62) = Some 3074498027548486314 /\
  f62_fn_inv 66 2 = Some 315222280642146850 /\
  (val62 315222280642146850 * val62 2) mod M62 = 1.
Proof. exact f62_inv_example_lazy. Qed.
Print Assumptions C07_f62_inv_example_lazy.
Theorem C07_f62_unit_hyp_nonempty : rel_prime 2 M62.
Proof. exact rel_prime_hyp_nonempty. Qed.
Print Assumptions C07_f62_unit_hyp_nonempty.

(* ---- 6. constants ---- *)
Theorem C07_f62_modulus : f62_MODULUS = 2^62 - 111 * 2^39 + 1 /\ f62_MODULUS = M62 /\
  f62_MODULUS_BITS = 62 /\ 2^61 <= M62 < 2^62.
Proof. exact f62_modulus_def. Qed.
Print Assumptions C07_f62_modulus.
Theorem C07_f62_Rinv : (2^64 * Rinv62) mod M62 = 1.
Proof. exact Rinv62_ok. Qed.
Print Assumptions C07_f62_Rinv.
Theorem C07_f62_R2 : f62_R2 = 2^128 mod M62.
Proof. exact f62_R2_def. Qed.
Print Assumptions C07_f62_R2.
Theorem C07_f62_R3 : f62_R3 = 2^192 mod M62.
Proof. exact f62_R3_def. Qed.
Print Assumptions C07_f62_R3.
Theorem C07_f62_U : (f62_U * M62 + 1) mod 2^64 = 0 /\ 0 <= f62_U < 2^64.
Proof. exact f62_U_def. Qed.
Print Assumptions C07_f62_U.
Theorem C07_f62_ZERO : val62 f62_ZERO = 0 /\ repr62 f62_ZERO.
Proof. exact (conj val62_ZERO repr62_ZERO). Qed.
Print Assumptions C07_f62_ZERO.
Theorem C07_f62_ONE : val62 f62_ONE = 1 /\ repr62 f62_ONE.
Proof. exact (conj val62_ONE repr62_ONE). Qed.
Print Assumptions C07_f62_ONE.
Theorem C07_f62_generator : val62 f62_GENERATOR = 3 /\ repr62 f62_GENERATOR.
Proof. exact f62_generator_val. Qed.
Print Assumptions C07_f62_generator.
Theorem C07_f62_Mm1_factored : M62 - 1 = 2^39 * 13 * 17 * 37957.
Proof. exact f62_Mm1_factored. Qed.
Print Assumptions C07_f62_Mm1_factored.
Theorem C07_f62_generator_order :
  3 ^ (M62 - 1) mod M62 = 1 /\
  3 ^ ((M62 - 1) / 2) mod M62 <> 1 /\ 3 ^ ((M62 - 1) / 13) mod M62 <> 1 /\
  3 ^ ((M62 - 1) / 17) mod M62 <> 1 /\ 3 ^ ((M62 - 1) / 37957) mod M62 <> 1.
Proof. exact f62_generator_order. Qed.
Print Assumptions C07_f62_generator_order.
Theorem C07_f62_two_adicity :
  f62_TWO_ADICITY = 39 /\ (M62 - 1) mod 2^39 = 0 /\ Z.odd ((M62 - 1) / 2^39) = true.
Proof. exact f62_two_adicity. Qed.
Print Assumptions C07_f62_two_adicity.
Theorem C07_f62_root :
  repr62 f62_TWO_ADIC_ROOT_OF_UNITY /\
  val62 f62_TWO_ADIC_ROOT_OF_UNITY = f62_G /\
  val62 f62_TWO_ADIC_ROOT_OF_UNITY = 3 ^ ((M62 - 1) / 2^39) mod M62.
Proof. exact f62_root_def. Qed.
Print Assumptions C07_f62_root.
Theorem C07_f62_root_order :
  f62_G ^ (2^39) mod M62 = 1 /\ f62_G ^ (2^38) mod M62 = M62 - 1.
Proof. exact f62_root_order. Qed.
Print Assumptions C07_f62_root_order.

(* unconditional total correctness of inversion, with primality of the modulus (Proofs/NumTheoryPrime.v) *)
From VProofs Require Import NumTheoryPrime.
Theorem C07_f62_inv_total_unconditional : forall x, repr62 x ->
  exists r, f62_fn_inv 400 x = Some r /\ repr62 r /\
            (val62 r * val62 x) mod M62 = (if val62 x =? 0 then 0 else 1).
Proof. exact (fun x => f62_inv_total x P62_prime). Qed.
Print Assumptions C07_f62_inv_total_unconditional.

(* ---- trait defaults of math/src/field/traits.rs instantiated for f62 ---- *)
From VProofs Require FieldRoots FieldBytesSpec.
From VModel Require Import FieldBytes.

(* exp_vartime: the generic variable-time loop (f62 overrides only `exp`) *)
Theorem C07_f62_exp_vartime_sound : forall fuel a p r, repr62 a -> 0 <= p < 2^64 ->
  f62_exp_vartime fuel a p = Some r -> repr62 r /\ val62 r = (val62 a ^ p) mod M62.
Proof. exact FieldRoots.R62.f62_exp_vartime_sound. Qed.
Print Assumptions C07_f62_exp_vartime_sound.

Theorem C07_f62_exp_vartime_terminates : forall a p, 0 <= p < 2^64 ->
  exists r, f62_exp_vartime 66 a p = Some r.
Proof. exact FieldRoots.R62.f62_exp_vartime_terminates. Qed.
Print Assumptions C07_f62_exp_vartime_terminates.

Theorem C07_f62_exp_vartime_agrees : forall fuel a p r, repr62 a -> 0 <= p < 2^64 ->
  f62_exp_vartime fuel a p = Some r -> val62 r = val62 (f62_exp a p).
Proof. exact FieldRoots.R62.f62_exp_vartime_agrees. Qed.
Print Assumptions C07_f62_exp_vartime_agrees.

(* get_root_of_unity(n): order exactly 2^n for 1 <= n <= TWO_ADICITY = 39 *)
Theorem C07_f62_get_root_of_unity : forall n, 1 <= n <= 39 ->
  let w := f62_get_root_of_unity n in
  repr62 w /\ val62 w = f62_G ^ 2 ^ (39 - n) mod M62 /\
  val62 w ^ 2 ^ n mod M62 = 1 /\ val62 w ^ 2 ^ (n - 1) mod M62 = M62 - 1 /\
  forall k, 0 < k < 2 ^ n -> val62 w ^ k mod M62 <> 1.
Proof. exact FieldRoots.R62.f62_get_root_of_unity_spec. Qed.
Print Assumptions C07_f62_get_root_of_unity.

Theorem C07_f62_get_root_of_unity_ok : forall n, 0 <= n < 2^32 ->
  f62_get_root_of_unity_ok n = andb (1 <=? n) (n <=? 39).
Proof. exact FieldRoots.R62.f62_get_root_of_unity_ok_spec. Qed.
Print Assumptions C07_f62_get_root_of_unity_ok.

(* from_bytes_with_padding (Model/FieldBytes.v), ELEMENT_BYTES = 8 *)
Theorem C07_f62_from_bytes_with_padding : forall bs, (length bs < 8)%nat -> Forall FieldBytesSpec.byte bs ->
  f62_from_bytes_with_padding bs = FbOk (f62_new (of_le_bytes bs)) /\
  0 <= of_le_bytes bs < 256 ^ (8 - 1) /\
  repr62 (f62_new (of_le_bytes bs)) /\ val62 (f62_new (of_le_bytes bs)) = of_le_bytes bs.
Proof. exact FieldBytesSpec.f62_from_bytes_with_padding_spec. Qed.
Print Assumptions C07_f62_from_bytes_with_padding.

Theorem C07_f62_from_bytes_with_padding_long : forall bs, (8 <= length bs)%nat ->
  f62_from_bytes_with_padding bs = FbAssertLen.
Proof. exact FieldBytesSpec.f62_from_bytes_with_padding_long. Qed.
Print Assumptions C07_f62_from_bytes_with_padding_long.

(* ---- conversions, conjugate, compound assignments, base_element, raw byte view (f62) ---- *)
From VProofs Require FieldConvSpec.

Theorem C07_f62_from_u8 : forall x, 0 <= x < 2^8 ->
  repr62 (f62_from_u8 x) /\ val62 (f62_from_u8 x) = x /\ f62_from_u8_ok x = true.
Proof. exact FieldConvSpec.C62.f62_from_u8_spec. Qed.
Print Assumptions C07_f62_from_u8.

Theorem C07_f62_from_u16 : forall x, 0 <= x < 2^16 ->
  repr62 (f62_from_u16 x) /\ val62 (f62_from_u16 x) = x /\ f62_from_u16_ok x = true.
Proof. exact FieldConvSpec.C62.f62_from_u16_spec. Qed.
Print Assumptions C07_f62_from_u16.

Theorem C07_f62_from_u32 : forall x, 0 <= x < 2^32 ->
  repr62 (f62_from_u32 x) /\ val62 (f62_from_u32 x) = x /\ f62_from_u32_ok x = true.
Proof. exact FieldConvSpec.C62.f62_from_u32_spec. Qed.
Print Assumptions C07_f62_from_u32.

(* u64::from(e) / u128::from(e): the canonical residue, whichever of the two words represents it *)
Theorem C07_f62_to_u64_u128 : forall e, repr62 e ->
  f62_to_u64 e = val62 e /\ f62_to_u128 e = val62 e /\ 0 <= val62 e < M62 /\
  f62_to_u64_ok e = true /\ f62_to_u128_ok e = true.
Proof. exact FieldConvSpec.C62.f62_to_u64_spec. Qed.
Print Assumptions C07_f62_to_u64_u128.

Theorem C07_f62_try_from_bytes : forall bs, length bs = 8%nat -> Forall FieldBytesSpec.byte bs ->
  match f62_try_from_bytes bs with
  | None => M62 <= of_le_bytes bs
  | Some e => of_le_bytes bs < M62 /\ repr62 e /\ val62 e = of_le_bytes bs
  end /\ f62_try_from_bytes_ok bs = true.
Proof. exact FieldConvSpec.C62.f62_try_from_bytes_spec. Qed.
Print Assumptions C07_f62_try_from_bytes.

Theorem C07_f62_conjugate : forall e, f62_conjugate e = e.
Proof. exact FieldConvSpec.C62.f62_conjugate_spec. Qed.
Print Assumptions C07_f62_conjugate.

Theorem C07_f62_assign : forall fuel a b,
  f62_add_assign a b = f62_add a b /\ f62_sub_assign a b = f62_sub a b /\
  f62_mul_assign a b = f62_mul a b /\ f62_div_assign fuel a b = f62_div fuel a b.
Proof. exact FieldConvSpec.C62.f62_assign_spec. Qed.
Print Assumptions C07_f62_assign.

Theorem C07_f62_base_element : forall e i, f62_base_element e i = if i =? 0 then Some e else None.
Proof. exact FieldConvSpec.C62.f62_base_element_spec. Qed.
Print Assumptions C07_f62_base_element.

(* as_bytes / elements_as_bytes expose the LAZY internal word (zero-copy; IS_CANONICAL = false): injective on
   words, so the two words of one residue have different raw bytes.  Serializable and the hashers use as_int. *)
Theorem C07_f62_as_bytes_word_inj : forall a b, repr62 a -> repr62 b ->
  f62_as_bytes a = f62_as_bytes b -> a = b.
Proof. exact FieldConvSpec.C62.f62_as_bytes_word_inj. Qed.
Print Assumptions C07_f62_as_bytes_word_inj.

Theorem C07_f62_as_bytes_not_canonical :
  exists a b, repr62 a /\ repr62 b /\ val62 a = val62 b /\ f62_as_bytes a <> f62_as_bytes b.
Proof. exact FieldConvSpec.C62.f62_as_bytes_not_canonical. Qed.
Print Assumptions C07_f62_as_bytes_not_canonical.
