(* C11 — hash functions implement their specification on every input.
   Only statements, `exact` of lemmas proved in Proofs/Rescue*.v, and Print Assumptions.
   Models: VModel.Rescue (value level: canonical residues; `None` = Rust panic), VModel.ByteHash (BLAKE3/SHA3 wrappers, the
   primitive is a Section variable), VGen.Mds12 / VGen.Mds8 (rs2v translation of the frequency-domain MDS code),
   VModel.RescueConsts (constant tables read from the sources on every run). *)
From VBase Require Import MachInt.
From VGen Require Import Mds12 Mds8.
From VModel Require Import RescueConsts Rescue ByteHash.
From VGen Require Import F64.
From VGen Require F62.
From VProofs Require F62Ops.
From VProofs Require Import F64Red F64Ops RescueSponge RescueSbox RescueMds RescueRaw RescueRawSponge RescueExamples.
Open Scope Z_scope.

(* ===== (a) frequency-domain MDS fast path ============================================================================
   mds_freq_exact: for limbs in [0, 2^32] (mds_multiply passes the 32-bit halves of the state words) the generated
   `mds_multiply_freq` returns the INTEGER circulant matrix-vector product and every checked i64/u64 operation is in
   range (`_ok = true`: no overflow panic in debug, no wrap in release). *)
Theorem C11_mds12_freq_exact : forall s0 s1 s2 s3 s4 s5 s6 s7 s8 s9 s10 s11,
  L32 s0 -> L32 s1 -> L32 s2 -> L32 s3 -> L32 s4 -> L32 s5 -> L32 s6 -> L32 s7 -> L32 s8 -> L32 s9 -> L32 s10 -> L32 s11 ->
  mds12_mds_multiply_freq (s0, s1, s2, s3, s4, s5, s6, s7, s8, s9, s10, s11) =
    (7 * s0 + 23 * s1 + 8 * s2 + 26 * s3 + 13 * s4 + 10 * s5 + 9 * s6 + 7 * s7 + 6 * s8 + 22 * s9 + 21 * s10 + 8 * s11,
     8 * s0 + 7 * s1 + 23 * s2 + 8 * s3 + 26 * s4 + 13 * s5 + 10 * s6 + 9 * s7 + 7 * s8 + 6 * s9 + 22 * s10 + 21 * s11,
     21 * s0 + 8 * s1 + 7 * s2 + 23 * s3 + 8 * s4 + 26 * s5 + 13 * s6 + 10 * s7 + 9 * s8 + 7 * s9 + 6 * s10 + 22 * s11,
     22 * s0 + 21 * s1 + 8 * s2 + 7 * s3 + 23 * s4 + 8 * s5 + 26 * s6 + 13 * s7 + 10 * s8 + 9 * s9 + 7 * s10 + 6 * s11,
     6 * s0 + 22 * s1 + 21 * s2 + 8 * s3 + 7 * s4 + 23 * s5 + 8 * s6 + 26 * s7 + 13 * s8 + 10 * s9 + 9 * s10 + 7 * s11,
     7 * s0 + 6 * s1 + 22 * s2 + 21 * s3 + 8 * s4 + 7 * s5 + 23 * s6 + 8 * s7 + 26 * s8 + 13 * s9 + 10 * s10 + 9 * s11,
     9 * s0 + 7 * s1 + 6 * s2 + 22 * s3 + 21 * s4 + 8 * s5 + 7 * s6 + 23 * s7 + 8 * s8 + 26 * s9 + 13 * s10 + 10 * s11,
     10 * s0 + 9 * s1 + 7 * s2 + 6 * s3 + 22 * s4 + 21 * s5 + 8 * s6 + 7 * s7 + 23 * s8 + 8 * s9 + 26 * s10 + 13 * s11,
     13 * s0 + 10 * s1 + 9 * s2 + 7 * s3 + 6 * s4 + 22 * s5 + 21 * s6 + 8 * s7 + 7 * s8 + 23 * s9 + 8 * s10 + 26 * s11,
     26 * s0 + 13 * s1 + 10 * s2 + 9 * s3 + 7 * s4 + 6 * s5 + 22 * s6 + 21 * s7 + 8 * s8 + 7 * s9 + 23 * s10 + 8 * s11,
     8 * s0 + 26 * s1 + 13 * s2 + 10 * s3 + 9 * s4 + 7 * s5 + 6 * s6 + 22 * s7 + 21 * s8 + 8 * s9 + 7 * s10 + 23 * s11,
     23 * s0 + 8 * s1 + 26 * s2 + 13 * s3 + 10 * s4 + 9 * s5 + 7 * s6 + 6 * s7 + 22 * s8 + 21 * s9 + 8 * s10 + 7 * s11)
  /\ mds12_mds_multiply_freq_ok (s0, s1, s2, s3, s4, s5, s6, s7, s8, s9, s10, s11) = true.
Proof. exact freq12_exact. Qed.
Print Assumptions C11_mds12_freq_exact.

Theorem C11_mds8_freq_exact : forall s0 s1 s2 s3 s4 s5 s6 s7,
  L32 s0 -> L32 s1 -> L32 s2 -> L32 s3 -> L32 s4 -> L32 s5 -> L32 s6 -> L32 s7 ->
  mds8_mds_multiply_freq (s0, s1, s2, s3, s4, s5, s6, s7) =
    (23 * s0 + 8 * s1 + 13 * s2 + 10 * s3 + 7 * s4 + 6 * s5 + 21 * s6 + 8 * s7,
     8 * s0 + 23 * s1 + 8 * s2 + 13 * s3 + 10 * s4 + 7 * s5 + 6 * s6 + 21 * s7,
     21 * s0 + 8 * s1 + 23 * s2 + 8 * s3 + 13 * s4 + 10 * s5 + 7 * s6 + 6 * s7,
     6 * s0 + 21 * s1 + 8 * s2 + 23 * s3 + 8 * s4 + 13 * s5 + 10 * s6 + 7 * s7,
     7 * s0 + 6 * s1 + 21 * s2 + 8 * s3 + 23 * s4 + 8 * s5 + 13 * s6 + 10 * s7,
     10 * s0 + 7 * s1 + 6 * s2 + 21 * s3 + 8 * s4 + 23 * s5 + 8 * s6 + 13 * s7,
     13 * s0 + 10 * s1 + 7 * s2 + 6 * s3 + 21 * s4 + 8 * s5 + 23 * s6 + 8 * s7,
     8 * s0 + 13 * s1 + 10 * s2 + 7 * s3 + 6 * s4 + 21 * s5 + 8 * s6 + 23 * s7)
  /\ mds8_mds_multiply_freq_ok (s0, s1, s2, s3, s4, s5, s6, s7) = true.
Proof. exact freq8_exact. Qed.
Print Assumptions C11_mds8_freq_exact.

Example C11_mds_freq_nonvacuous : L32 0 /\ L32 (2 ^ 32 - 1) /\ L32 (2 ^ 32) /\ word 0 /\ word (2 ^ 64 - 1) /\ word (M64 - 1).
Proof. exact ex_limbs. Qed.
Example C11_mds_freq_extreme_limbs :
  mds12_freq_list (repeat (2 ^ 32) 12) = repeat (160 * 2 ^ 32) 12 /\ mds12_freq_list_ok (repeat (2 ^ 32) 12) = true /\
  mds8_freq_list (repeat (2 ^ 32) 8) = repeat (96 * 2 ^ 32) 8 /\ mds8_freq_list_ok (repeat (2 ^ 32) 8) = true.
Proof. exact ex_freq_extreme. Qed.

(* the u128 recombination + reduction of mds_multiply (REPAIRED code: final conditional subtraction) *)
Theorem C11_mds_fold : forall l h, 0 <= l < 2 ^ 41 -> 0 <= h < 2 ^ 41 ->
  mds_fold l h = (l + h * 2 ^ 32) mod M64 /\ mds_fold_ok l h = true.
Proof. exact mds_fold_spec. Qed.
Print Assumptions C11_mds_fold.

(* mds_multiply on ANY state of u64 internal words = MDS * state mod M with the published MDS table, canonical (< M),
   no checked operation out of range *)
Theorem C11_mds12_multiply : forall st, length st = 12%nat -> Forall word st ->
  mds12_multiply st = mat_vec M64 rp64_MDS st /\ mds12_multiply_ok st = true /\ Forall (fun w => 0 <= w < M64) (mds12_multiply st).
Proof. exact mds12_multiply_list. Qed.
Print Assumptions C11_mds12_multiply.
Theorem C11_mds8_multiply : forall st, length st = 8%nat -> Forall word st ->
  mds8_multiply st = mat_vec M64 jive_MDS st /\ mds8_multiply_ok st = true /\ Forall (fun w => 0 <= w < M64) (mds8_multiply st).
Proof. exact mds8_multiply_list. Qed.
Print Assumptions C11_mds8_multiply.

(* mds_multiply_repr for the code BEFORE the repair (no final subtraction) is refuted: the folded word can be >= M
   (defect F11b, fixed in /repo; replay: from_mont([(M+1)/7, 0, ..]) -> internal word 0xffffffff00000002) *)
Theorem C11_mds_fold_unrepaired_refuted : exists l h, 0 <= l < 2 ^ 41 /\ 0 <= h < 2 ^ 41 /\ M64 <= mds_fold_unrepaired l h.
Proof. exact mds_fold_unrepaired_refuted. Qed.
Print Assumptions C11_mds_fold_unrepaired_refuted.
Example C11_mds_multiply_canonical_on_witness : nth 0 (mds12_multiply ((M64 + 1) / 7 :: repeat 0 11)) 0 = 1.
Proof. exact ex_mds_canonical. Qed.

(* ===== (b) S-boxes =================================================================================================== *)
(* the addition chains of apply_inv_sbox compute x^INV_ALPHA (that exp7 / cube compute x^ALPHA is RescueSbox.exp7_pow /
   cube_pow, stated here only through permutation_spec in (d)) *)
Theorem C11_inv_sbox64_pow : forall p, 1 < p -> forall x, inv_sbox64 p x = x ^ 10540996611094048183 mod p.
Proof. exact inv_sbox64_pow. Qed.
Print Assumptions C11_inv_sbox64_pow.
Theorem C11_inv_sbox62_pow : forall p, 1 < p -> forall x, inv_sbox62 p x = x ^ 3074416663688030891 mod p.
Proof. exact inv_sbox62_pow. Qed.
Print Assumptions C11_inv_sbox62_pow.
Theorem C11_alpha_inverse :
  (rp64_ALPHA * rp64_INV_ALPHA = 1 + 4 * (M64 - 1) /\ rp64_ALPHA = 7 /\ rp64_INV_ALPHA = 10540996611094048183 /\
   jive_ALPHA = 7 /\ jive_INV_ALPHA = 10540996611094048183) /\
  (rp62_ALPHA * rp62_INV_ALPHA = 1 + 2 * (M62 - 1) /\ rp62_ALPHA = 3 /\ rp62_INV_ALPHA = 3074416663688030891).
Proof. exact (conj alpha64_inverse alpha62_inverse). Qed.
Print Assumptions C11_alpha_inverse.

(* inv_sbox_spec / sbox_inv_sbox: for EVERY residue (Fermat + primality of the moduli) *)
Theorem C11_inv_sbox_spec_64 : forall x, 0 <= x < M64 -> exp7 M64 (inv_sbox64 M64 x) = x.
Proof. exact inv_sbox_spec_64. Qed.
Print Assumptions C11_inv_sbox_spec_64.
Theorem C11_sbox_inv_sbox_64 : forall x, 0 <= x < M64 -> inv_sbox64 M64 (exp7 M64 x) = x.
Proof. exact sbox_inv_sbox_64. Qed.
Print Assumptions C11_sbox_inv_sbox_64.
Theorem C11_inv_sbox_spec_62 : forall x, 0 <= x < M62 -> cube M62 (inv_sbox62 M62 x) = x.
Proof. exact inv_sbox_spec_62. Qed.
Print Assumptions C11_inv_sbox_spec_62.
Theorem C11_sbox_inv_sbox_62 : forall x, 0 <= x < M62 -> inv_sbox62 M62 (cube M62 x) = x.
Proof. exact sbox_inv_sbox_62. Qed.
Print Assumptions C11_sbox_inv_sbox_62.
Example C11_sbox_nonvacuous : exp7 M64 (inv_sbox64 M64 (M64 - 1)) = M64 - 1 /\ exp7 M64 (inv_sbox64 M64 0) = 0 /\ cube M62 (inv_sbox62 M62 5) = 5.
Proof. exact ex_sbox. Qed.

(* ===== (c) constant tables =========================================================================================== *)
Theorem C11_inv_mds_spec_rp64 : mat_mul M64 rp64_INV_MDS rp64_MDS = identity 12 /\ mat_mul M64 rp64_MDS rp64_INV_MDS = identity 12.
Proof. exact inv_mds_spec_rp64. Qed.
Print Assumptions C11_inv_mds_spec_rp64.
Theorem C11_inv_mds_spec_jive : mat_mul M64 jive_INV_MDS jive_MDS = identity 8 /\ mat_mul M64 jive_MDS jive_INV_MDS = identity 8.
Proof. exact inv_mds_spec_jive. Qed.
Print Assumptions C11_inv_mds_spec_jive.
Theorem C11_mds_circulant :
  rp64_MDS = circulant [7; 23; 8; 26; 13; 10; 9; 7; 6; 22; 21; 8] /\ jive_MDS = circulant [23; 8; 13; 10; 7; 6; 21; 8].
Proof. exact mds_circulant. Qed.
Print Assumptions C11_mds_circulant.
Theorem C11_tables_wellformed :
  table_ok M64 12 12 rp64_MDS = true /\ table_ok M64 12 12 rp64_INV_MDS = true /\ table_ok M64 7 12 rp64_ARK1 = true /\ table_ok M64 7 12 rp64_ARK2 = true /\
  table_ok M62 12 12 rp62_MDS = true /\ table_ok M62 7 12 rp62_ARK1 = true /\ table_ok M62 7 12 rp62_ARK2 = true /\
  table_ok M64 8 8 jive_MDS = true /\ table_ok M64 8 8 jive_INV_MDS = true /\ table_ok M64 7 8 jive_ARK1 = true /\ table_ok M64 7 8 jive_ARK2 = true.
Proof. exact tables_wellformed. Qed.
Print Assumptions C11_tables_wellformed.

(* ===== (d) permutation_spec: apply_permutation = 7 textbook rounds (x^ALPHA, MDS product, ARK1, x^INV_ALPHA, MDS product,
   ARK2) with the published constants, for EVERY state *)
Theorem C11_permutation_spec_rp64 : forall s,
  rp64_permutation s = textbook_permutation M64 rp64_ALPHA rp64_INV_ALPHA rp64_MDS rp64_ARK1 rp64_ARK2 s.
Proof. exact permutation_spec_rp64. Qed.
Print Assumptions C11_permutation_spec_rp64.
Theorem C11_permutation_spec_rp62 : forall s,
  rp62_permutation s = textbook_permutation M62 rp62_ALPHA rp62_INV_ALPHA rp62_MDS rp62_ARK1 rp62_ARK2 s.
Proof. exact permutation_spec_rp62. Qed.
Print Assumptions C11_permutation_spec_rp62.
Theorem C11_permutation_spec_jive : forall s,
  jive_permutation s = textbook_permutation M64 jive_ALPHA jive_INV_ALPHA jive_MDS jive_ARK1 jive_ARK2 s.
Proof. exact permutation_spec_jive. Qed.
Print Assumptions C11_permutation_spec_jive.
(* raw level: the permutation as the implementation computes it on internal (Montgomery) words -- rs2v-generated f64_mul /
   f64_add / f64_exp7 / f64_new (C07) and the frequency-domain mds_multiply (above) -- returns canonical words whose
   residues (`val`, = as_int by C07_f64_as_int) are the value-level permutation of the input residues, for EVERY state *)
Theorem C11_raw_permutation_spec_rp64 : forall ws, length ws = 12%nat -> Forall repr ws ->
  Forall repr (rp64_raw_permutation ws) /\ map val (rp64_raw_permutation ws) = rp64_permutation (map val ws).
Proof. exact rp64_raw_permutation_spec. Qed.
Print Assumptions C11_raw_permutation_spec_rp64.
Theorem C11_raw_permutation_spec_jive : forall ws, length ws = 8%nat -> Forall repr ws ->
  Forall repr (jive_raw_permutation ws) /\ map val (jive_raw_permutation ws) = jive_permutation (map val ws).
Proof. exact jive_raw_permutation_spec. Qed.
Print Assumptions C11_raw_permutation_spec_jive.
Example C11_raw_permutation_nonvacuous : Forall repr (repeat (M - 1) 12) /\ Forall repr [0; 1; 2; 3; 4; 5; 6; 7].
Proof. exact ex_raw_nonvacuous. Qed.
(* Rp62_248 at the raw level: f62 internal words are LAZY Montgomery words in [0, 2M) (repr62; two words per residue, C07_f62);
   the plain-code permutation (cube, `*r += m * s` MDS loop, addition-chain inverse S-box, constants = new(c)) on such words
   returns words in [0, 2M) whose residues (val62 = as_int, C07_f62_as_int) are the value-level permutation *)
Theorem C11_raw_permutation_spec_rp62 : forall ws, length ws = 12%nat -> Forall F62Ops.repr62 ws ->
  Forall F62Ops.repr62 (rp62_raw_permutation ws) /\
  map F62Ops.val62 (rp62_raw_permutation ws) = rp62_permutation (map F62Ops.val62 ws).
Proof. exact rp62_raw_permutation_spec. Qed.
Print Assumptions C11_raw_permutation_spec_rp62.

(* ===== (d') raw sponges: hash / hash_elements / merge / merge_with_int as executed on internal words ===================
   R w v   :=  repr w   /\ val w = v      (f64: canonical Montgomery word w < M denoting the residue v)
   R62 w v :=  repr62 w /\ val62 w = v    (f62: lazy Montgomery word w < 2M denoting the residue v)
   RLL Rel :=  Forall2 (Forall2 Rel)       (lists of extension elements given by their coefficient lists)
   The raw models (Model/Rescue.v, Section Generic instantiated with the rs2v-generated f64_* / f62_* operations and the raw
   permutations) are related to the value-level models of section (e): outputs are valid internal words denoting exactly
   the value-level digest.  Lengths are bounded by 2^64 (`len as u64`). *)
Theorem C11_raw_hash_elements_spec_rp64 : forall xs vs, RLL R xs vs -> Z.of_nat (length (flatten xs)) < 2 ^ 64 ->
  Forall2 R (rp64_raw_hash_elements xs) (rp64_hash_elements vs).
Proof. exact rp64_raw_hash_elements_spec. Qed.
Print Assumptions C11_raw_hash_elements_spec_rp64.
Theorem C11_raw_hash_spec_rp64 : forall b, bytes b -> Z.of_nat (length b) < 2 ^ 64 ->
  exists r v, rp64_raw_hash b = Some r /\ rp64_hash b = Some v /\ Forall2 R r v.
Proof. exact rp64_raw_hash_spec. Qed.
Print Assumptions C11_raw_hash_spec_rp64.
Theorem C11_raw_merge_spec_rp64 : forall a va b vb, Forall2 R a va -> Forall2 R b vb ->
  Forall2 R (rp64_raw_merge a b) (rp64_merge va vb).
Proof. exact rp64_raw_merge_spec. Qed.
Print Assumptions C11_raw_merge_spec_rp64.
Theorem C11_raw_merge_with_int_spec_rp64 : forall seed vseed v, Forall2 R seed vseed -> 0 <= v < 2 ^ 64 ->
  Forall2 R (rp64_raw_merge_with_int seed v) (rp64_merge_with_int vseed v).
Proof. exact rp64_raw_merge_with_int_spec. Qed.
Print Assumptions C11_raw_merge_with_int_spec_rp64.

Theorem C11_raw_hash_elements_spec_jive : forall xs vs, RLL R xs vs ->
  Forall2 R (jive_raw_hash_elements xs) (jive_hash_elements vs).
Proof. exact jive_raw_hash_elements_spec. Qed.
Print Assumptions C11_raw_hash_elements_spec_jive.
Theorem C11_raw_hash_spec_jive : forall b, bytes b -> Z.of_nat (length b) < 2 ^ 64 ->
  exists r v, jive_raw_hash b = Some r /\ jive_hash b = Some v /\ Forall2 R r v.
Proof. exact jive_raw_hash_spec. Qed.
Print Assumptions C11_raw_hash_spec_jive.
Theorem C11_raw_merge_spec_jive : forall a va b vb, Forall2 R a va -> Forall2 R b vb -> length a = 4%nat -> length b = 4%nat ->
  Forall2 R (jive_raw_merge a b) (jive_merge va vb).
Proof. exact jive_raw_merge_spec. Qed.
Print Assumptions C11_raw_merge_spec_jive.
Theorem C11_raw_merge_with_int_spec_jive : forall seed vseed v, Forall2 R seed vseed -> 0 <= v < 2 ^ 64 ->
  Forall2 R (jive_raw_merge_with_int seed v) (jive_merge_with_int vseed v).
Proof. exact jive_raw_merge_with_int_spec. Qed.
Print Assumptions C11_raw_merge_with_int_spec_jive.

Theorem C11_raw_hash_elements_spec_rp62 : forall xs vs, RLL R62 xs vs -> Z.of_nat (length (flatten xs)) < 2 ^ 64 ->
  Forall2 R62 (rp62_raw_hash_elements xs) (rp62_hash_elements vs).
Proof. exact rp62_raw_hash_elements_spec. Qed.
Print Assumptions C11_raw_hash_elements_spec_rp62.
Theorem C11_raw_hash_spec_rp62 : forall b, bytes b -> Z.of_nat (length b) < 2 ^ 64 ->
  exists r v, rp62_raw_hash b = Some r /\ rp62_hash b = Some v /\ Forall2 R62 r v.
Proof. exact rp62_raw_hash_spec. Qed.
Print Assumptions C11_raw_hash_spec_rp62.
Theorem C11_raw_merge_spec_rp62 : forall a va b vb, Forall2 R62 a va -> Forall2 R62 b vb ->
  Forall2 R62 (rp62_raw_merge a b) (rp62_merge va vb).
Proof. exact rp62_raw_merge_spec. Qed.
Print Assumptions C11_raw_merge_spec_rp62.
Theorem C11_raw_merge_with_int_spec_rp62 : forall seed vseed v, Forall2 R62 seed vseed -> 0 <= v < 2 ^ 64 ->
  Forall2 R62 (rp62_raw_merge_with_int seed v) (rp62_merge_with_int vseed v).
Proof. exact rp62_raw_merge_with_int_spec. Qed.
Print Assumptions C11_raw_merge_with_int_spec_rp62.

(* what the digest BYTES are: Digest::as_bytes writes as_int() of each of the 4 words (and `==` compares residues).
   f64: the words are canonical and as_int = the value-level digest; f62: the words are only in [0, 2M) -- the same
   digest can have different internal words -- but as_int (which normalises) = the value-level digest, canonical. *)
Theorem C11_digest_as_int_f64 : forall ws vs, Forall2 R ws vs -> map f64_as_int ws = vs /\ Forall (fun w => 0 <= w < M64) ws.
Proof. exact R_as_int. Qed.
Print Assumptions C11_digest_as_int_f64.
Theorem C11_digest_as_int_f62 : forall ws vs, Forall2 R62 ws vs -> map F62.f62_as_int ws = vs /\ Forall (fun v => 0 <= v < M62) vs.
Proof. exact R62_as_int. Qed.
Print Assumptions C11_digest_as_int_f62.
Example C11_raw_sponge_nonvacuous : R62 0 0 /\ R62 M62 0 /\ Forall2 R62 [1; M62 + 1] [F62Ops.val62 1; F62Ops.val62 1].
Proof. exact ex_R62_nonvacuous. Qed.
Example C11_raw_new_related : forall v, 0 <= v < 2 ^ 64 -> R (f64_new v) (v mod M64) /\ R62 (F62.f62_new v) (v mod M62).
Proof. exact (fun v H => conj (R_new v H) (R62_new v H)). Qed.

(* round constants: RpJive64_256's ARK1/ARK2 are re-derived on every run from the Rescue-Prime generation procedure
   (SHAKE256("Rescue-XLIX(p,8,4,128)"), checks/c11.py obligation ark:jive-rederived-..., outside Coq); the ARK tables of Rp64_256
   and Rp62_248 are not reproduced by that procedure: they are read from the source on every run and pinned only by the
   known-answer Examples C11_hash_values / C11_hash_pins (digests of [0xAB; 70], replayed from the implementation). *)

(* ===== (e) sponges and encodings ===================================================================================== *)
(* hash_total: hashing a byte string never panics, whatever its length (0, multiples of 7, of the rate, long).
   The code before the repair panicked for every length > 56 that is not a multiple of 7 (defect F11a, fixed in /repo) *)
Theorem C11_hash_total : forall b, bytes b -> rp64_hash b <> None /\ rp62_hash b <> None /\ jive_hash b <> None.
Proof. exact (fun b H => conj (hash_total_rp64 b H) (conj (hash_total_rp62 b H) (hash_total_jive b H))). Qed.
Print Assumptions C11_hash_total.
(* the loop before the repair (in-block index instead of the global chunk index): hash_total is refuted *)
Theorem C11_hash_total_unrepaired_refuted : exists b, bytes b /\ bytes_to_elems_unrepaired M64 b = None.
Proof. exact hash_total_unrepaired_refuted. Qed.
Print Assumptions C11_hash_total_unrepaired_refuted.
Example C11_hash_total_nonvacuous : bytes [] /\ bytes [0; 255; 7] /\ bytes (repeat 171 70).
Proof. exact ex_bytes. Qed.
Example C11_hash_values :
  rp64_hash [] = Some [0; 0; 0; 0] /\ rp64_hash (repeat 171 57) <> None /\
  rp64_hash (repeat 171 70) = Some [9855849550940778158; 16700827844668115349; 2206747521949972729; 1808440846046674605].
Proof. exact ex_hash_values. Qed.
Example C11_hash_pins :
  rp62_hash (repeat 171 70) = Some [718269490133229630; 1272527191177799928; 39996384440040100; 4287254455493316955] /\
  jive_hash (repeat 171 70) = Some [7310329737796519830; 1779878501739986078; 9442396403217558804; 2621743351511437720].
Proof. exact ex_hash_pins. Qed.

(* bytes_encoding_inj: different byte strings are absorbed as different element sequences -- in particular strings
   differing only in length or trailing zero bytes (the statement a non-probabilistic proof can make) *)
Theorem C11_bytes_encoding_inj : forall p, 2 ^ 57 <= p -> forall b1 b2 es, bytes b1 -> bytes b2 ->
  bytes_to_elems p b1 = Some es -> bytes_to_elems p b2 = Some es -> b1 = b2.
Proof. exact bytes_encoding_inj. Qed.
Print Assumptions C11_bytes_encoding_inj.
Theorem C11_moduli_big : 2 ^ 57 <= M64 /\ 2 ^ 57 <= M62.
Proof. exact (conj M64_big M62_big). Qed.
Print Assumptions C11_moduli_big.
Example C11_bytes_encoding_nonvacuous :
  bytes_to_elems M64 [1] = Some [257] /\ bytes_to_elems M64 [1; 0] = Some [65537] /\ bytes_to_elems M64 [] = Some [] /\
  bytes_to_elems M64 [1; 2; 3; 4; 5; 6; 7] = Some [1 + 2 * 2^8 + 3 * 2^16 + 4 * 2^24 + 5 * 2^32 + 6 * 2^40 + 7 * 2^48 + 2^56] /\
  bytes_to_elems M64 [1; 2; 3; 4; 5; 6; 7; 0] = Some [1 + 2 * 2^8 + 3 * 2^16 + 4 * 2^24 + 5 * 2^32 + 6 * 2^40 + 7 * 2^48; 256].
Proof. exact ex_encoding_separates. Qed.

(* hash(bytes) = hash_elements(encoded chunks): same sponge, same capacity convention *)
Theorem C11_hash_is_hash_elements : forall b,
  (forall es, bytes_to_elems M64 b = Some es -> rp64_hash b = Some (rp64_hash_elements (map (fun c => [c]) es))) /\
  (forall es, bytes_to_elems M62 b = Some es -> rp62_hash b = Some (rp62_hash_elements (map (fun c => [c]) es))) /\
  (forall es, bytes_to_elems M64 b = Some es -> jive_hash b = Some (jive_hash_elements (map (fun c => [c]) es))).
Proof. exact (fun b => conj (hash_is_hash_elements_rp64 b) (conj (hash_is_hash_elements_rp62 b) (hash_is_hash_elements_jive b))). Qed.
Print Assumptions C11_hash_is_hash_elements.

(* hash_elements_flatten: hashing extension-field elements = hashing the base-field elements of their flattening
   (base versus extension typing does not matter) *)
Theorem C11_hash_elements_flatten : forall xs,
  rp64_hash_elements xs = rp64_hash_elements (map (fun c => [c]) (flatten xs)) /\
  rp62_hash_elements xs = rp62_hash_elements (map (fun c => [c]) (flatten xs)) /\
  jive_hash_elements xs = jive_hash_elements (map (fun c => [c]) (flatten xs)).
Proof. exact (fun xs => conj (hash_elements_flatten_rp64 xs) (conj (hash_elements_flatten_rp62 xs) (hash_elements_flatten_jive xs))). Qed.
Print Assumptions C11_hash_elements_flatten.

(* RpJive64_256 padding: (capacity flag, xs ++ 1 :: 0..0) is injective in xs for arbitrary elements; for a two-element
   input (one partial block) this is exactly the state handed to the permutation (later blocks: the pad positions are
   overwritten, as coded) *)
Theorem C11_jive_padded_inj : forall xs ys, jive_padded xs = jive_padded ys -> xs = ys.
Proof. exact jive_padded_inj. Qed.
Print Assumptions C11_jive_padded_inj.
Theorem C11_jive_single_block : forall perm x0 x1, 0 <= x0 < M64 -> 0 <= x1 < M64 ->
  hash_elements_jive M64 (mkSponge 8 4 4 0 4 perm) [x0; x1] =
  digest_of (mkSponge 8 4 4 0 4 perm) (perm ([1; 0; 0; 0] ++ snd (jive_padded [x0; x1]))).
Proof. exact jive_single_block. Qed.
Print Assumptions C11_jive_single_block.

(* ... and for EVERY length: hash_elements is the block recursion jive_run (full blocks of 4 added to the rate and permuted;
   a final partial block added to the first r rate positions, the others overwritten with 1, 0.., then permuted), and the
   padded last block is injective in its elements -- also across different lengths -- for a fixed incoming state *)
Theorem C11_jive_hash_elements_blocks : forall p perm, (forall s, length s = 8%nat -> length (perm s) = 8%nat) -> forall xs,
  hash_elements_jive p (mkSponge 8 4 4 0 4 perm) xs =
  digest_of (mkSponge 8 4 4 0 4 perm) (jive_run p perm (length xs) (jive_init p (length xs)) xs).
Proof. exact jive_hash_elements_blocks. Qed.
Print Assumptions C11_jive_hash_elements_blocks.
Theorem C11_jive_pad_last_inj : forall p, 1 < p -> forall st t t', length st = 8%nat ->
  (1 <= length t <= 3)%nat -> (1 <= length t' <= 3)%nat ->
  Forall (fun x => 0 <= x < p) t -> Forall (fun x => 0 <= x < p) t' -> pad_last p st t = pad_last p st t' -> t = t'.
Proof. exact pad_last_inj. Qed.
Print Assumptions C11_jive_pad_last_inj.

(* merge_is_hash_concat: for the two sponge hashers (RpJive64_256::merge is the Jive compression, intentionally not a sponge) *)
Theorem C11_merge_is_hash_concat_rp64 : forall a b, digest_ok M64 a -> digest_ok M64 b ->
  rp64_merge a b = rp64_hash_elements (map (fun c => [c]) (a ++ b)).
Proof. exact merge_is_hash_concat_rp64. Qed.
Print Assumptions C11_merge_is_hash_concat_rp64.
Theorem C11_merge_is_hash_concat_rp62 : forall a b, digest_ok M62 a -> digest_ok M62 b ->
  rp62_merge a b = rp62_hash_elements (map (fun c => [c]) (a ++ b)).
Proof. exact merge_is_hash_concat_rp62. Qed.
Print Assumptions C11_merge_is_hash_concat_rp62.
Example C11_merge_nonvacuous : digest_ok M64 [0; 1; 2; M64 - 1] /\ digest_ok M62 [0; 1; 2; M62 - 1].
Proof. exact ex_digest_ok. Qed.

(* merge_with_int_encoding_inj: the state handed to the permutation is injective in the 64-bit integer (below / at /
   above the modulus; for f62 the quotient value / M ranges over 0..4) *)
Theorem C11_merge_with_int_encoding_inj_rp64 : forall seed v1 v2, length seed = 4%nat -> 0 <= v1 < 2 ^ 64 -> 0 <= v2 < 2 ^ 64 ->
  mwi_state_cnt M64 rp64_sponge seed v1 = mwi_state_cnt M64 rp64_sponge seed v2 -> v1 = v2.
Proof. exact merge_with_int_encoding_inj_rp64. Qed.
Print Assumptions C11_merge_with_int_encoding_inj_rp64.
Theorem C11_merge_with_int_encoding_inj_rp62 : forall seed v1 v2, length seed = 4%nat -> 0 <= v1 < 2 ^ 64 -> 0 <= v2 < 2 ^ 64 ->
  mwi_state_cnt M62 rp62_sponge seed v1 = mwi_state_cnt M62 rp62_sponge seed v2 -> v1 = v2.
Proof. exact merge_with_int_encoding_inj_rp62. Qed.
Print Assumptions C11_merge_with_int_encoding_inj_rp62.
Theorem C11_merge_with_int_encoding_inj_jive : forall seed v1 v2, length seed = 4%nat -> 0 <= v1 < 2 ^ 64 -> 0 <= v2 < 2 ^ 64 ->
  mwi_state_jive M64 seed v1 = mwi_state_jive M64 seed v2 -> v1 = v2.
Proof. exact merge_with_int_encoding_inj_jive. Qed.
Print Assumptions C11_merge_with_int_encoding_inj_jive.
Theorem C11_merge_with_int_is_state : forall seed v,
  rp64_merge_with_int seed v = digest_of rp64_sponge (rp64_permutation (mwi_state_cnt M64 rp64_sponge seed v)) /\
  rp62_merge_with_int seed v = digest_of rp62_sponge (rp62_permutation (mwi_state_cnt M62 rp62_sponge seed v)) /\
  jive_merge_with_int seed v = jive_sum M64 (mwi_state_jive M64 seed v) (jive_permutation (mwi_state_jive M64 seed v)).
Proof. exact (fun seed v => conj (merge_with_int_is_state_rp64 seed v) (conj (merge_with_int_is_state_rp62 seed v) (merge_with_int_is_state_jive seed v))). Qed.
Print Assumptions C11_merge_with_int_is_state.
Example C11_merge_with_int_nonvacuous :
  let st v := mwi_state_cnt M64 rp64_sponge [1; 2; 3; 4] v in
  st (M64 - 1) = [5; 0; 0; 0; 1; 2; 3; 4; M64 - 1; 0; 0; 0] /\ st M64 = [6; 0; 0; 0; 1; 2; 3; 4; 0; 1; 0; 0] /\
  st (M64 + 1) = [6; 0; 0; 0; 1; 2; 3; 4; 1; 1; 0; 0] /\ st 0 = [5; 0; 0; 0; 1; 2; 3; 4; 0; 0; 0; 0] /\
  mwi_state_cnt M62 rp62_sponge [1; 2; 3; 4] (2 ^ 64 - 1) = [1; 2; 3; 4; (2 ^ 64 - 1) mod M62; 4; 0; 0; 0; 0; 0; 6].
Proof. exact ex_mwi_states. Qed.

(* ===== BLAKE3 / SHA3 wrappers: the byte strings handed to the (unmodelled) primitive ================================== *)
Theorem C11_msg_merge_with_int_inj : forall seed v1 v2, 0 <= v1 < 2 ^ 64 -> 0 <= v2 < 2 ^ 64 ->
  msg_merge_with_int seed v1 = msg_merge_with_int seed v2 -> v1 = v2.
Proof. exact msg_merge_with_int_inj. Qed.
Print Assumptions C11_msg_merge_with_int_inj.
Theorem C11_msg_merge_with_int_length : forall seed v, length (msg_merge_with_int seed v) = (length seed + 8)%nat.
Proof. exact msg_merge_with_int_length. Qed.
Print Assumptions C11_msg_merge_with_int_length.
Theorem C11_msg_merge_is_hash_concat : forall d0 d1, msg_merge d0 d1 = msg_hash (d0 ++ d1).
Proof. exact msg_merge_is_hash_concat. Qed.
Print Assumptions C11_msg_merge_is_hash_concat.
Theorem C11_msg_elements_flatten : forall n xs, msg_elements n xs = msg_elements n (map (fun c => [c]) (concat xs)).
Proof. exact msg_elements_flatten. Qed.
Print Assumptions C11_msg_elements_flatten.
Example C11_msg_merge_with_int_layouts :
  length (msg_merge_with_int (repeat 0 32) (2 ^ 64 - 1)) = 40%nat /\ length (msg_merge_with_int (repeat 0 24) 0) = 32%nat /\
  msg_merge_with_int [9] 258 = [9; 2; 1; 0; 0; 0; 0; 0; 0].
Proof. exact ex_msg_mwi. Qed.
