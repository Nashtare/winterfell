(* C12 — serialization round trip for every serializable value.
   Only statements, `exact` of lemmas proved in Proofs/Codec*.v, and Print Assumptions.
   Shape of every round-trip theorem: for every well-formed value v (for ProofOptions, TraceInfo, Context: every
   value the Rust constructors accept; for the other structures: the size bounds their length prefixes need) and
   every continuation [rest] of the byte stream,
       read_T (write_T v ++ rest) = Ok (v, rest)
   i.e. decoding returns an equal value AND consumes exactly the bytes that were written.  The readers are
   the SliceReader/Cursor semantics of the ByteReader interface (ReadAdapter == SliceReader is C13). *)
From VBase Require Import MachInt.
From VModel Require Import Codec.
From VGen Require Serde Limits.
From VProofs Require Import CodecPrim CodecTypes CodecTotal CodecGen CodecExamples.
Open Scope Z_scope.

(* ------------------------------------------------------------------------------- integers and vint64 *)
Theorem C12_rt_u8 : forall v rest, read_u8 (write_u8 v ++ rest) = Ok (v, rest).
Proof. intros v rest. exact (rt_u8 v rest I). Qed.
Print Assumptions C12_rt_u8.

Theorem C12_rt_u16 : forall v rest, 0 <= v < 2 ^ 16 -> read_u16 (write_u16 v ++ rest) = Ok (v, rest).
Proof. exact rt_u16. Qed.
Print Assumptions C12_rt_u16.

Theorem C12_rt_u32 : forall v rest, 0 <= v < 2 ^ 32 -> read_u32 (write_u32 v ++ rest) = Ok (v, rest).
Proof. exact rt_u32. Qed.
Print Assumptions C12_rt_u32.

Theorem C12_rt_u64 : forall v rest, 0 <= v < 2 ^ 64 -> read_u64 (write_u64 v ++ rest) = Ok (v, rest).
Proof. exact rt_u64. Qed.
Print Assumptions C12_rt_u64.

Theorem C12_rt_u128 : forall v rest, 0 <= v < 2 ^ 128 -> read_u128 (write_u128 v ++ rest) = Ok (v, rest).
Proof. exact rt_u128. Qed.
Print Assumptions C12_rt_u128.

Theorem C12_rt_bool : forall (b : bool) rest, read_bool (write_bool b ++ rest) = Ok (b, rest).
Proof. intros b rest. exact (rt_bool b rest I). Qed.
Print Assumptions C12_rt_bool.

(* the whole of u64 (usize on a 64-bit target), including the 9-byte form *)
Theorem C12_vint64_rt : forall v rest, 0 <= v < 2 ^ 64 -> read_usize (write_usize v ++ rest) = Ok (v, rest).
Proof. exact vint64_rt. Qed.
Print Assumptions C12_vint64_rt.
Example C12_vint64_rt_nonvacuous : 0 <= 2 ^ 64 - 1 < 2 ^ 64.
Proof. split; [discriminate | reflexivity]. Qed.

Theorem C12_vint64_len : forall v, 0 <= v < 2 ^ 64 -> len (write_usize v) = encoded_len v.
Proof. exact vint64_len. Qed.
Print Assumptions C12_vint64_len.

Theorem C12_vint64_len_closed_form : forall v, 0 <= v < 2 ^ 64 -> encoded_len v = vlen_spec v.
Proof. exact encoded_len_spec. Qed.
Print Assumptions C12_vint64_len_closed_form.

Theorem C12_vint64_prefix_free : forall a b ra rb, 0 <= a < 2 ^ 64 -> 0 <= b < 2 ^ 64 ->
  write_usize a ++ ra = write_usize b ++ rb -> a = b /\ ra = rb.
Proof. exact vint64_prefix_free. Qed.
Print Assumptions C12_vint64_prefix_free.

(* ---------------------------------------------------------------------------------------- combinators *)
Theorem C12_read_many_is_n_reads : forall A (r : Rd A) n bs, read_many r (Z.of_nat n) bs = read_many_nat r n bs.
Proof. exact @read_many_spec. Qed.
Print Assumptions C12_read_many_is_n_reads.

Theorem C12_rt_option : forall A (w : A -> bytes) (r : Rd A) (wf : A -> Prop),
  (forall v rest, wf v -> r (w v ++ rest) = Ok (v, rest)) ->
  forall o rest, match o with Some v => wf v | None => True end ->
  read_option r (write_option w o ++ rest) = Ok (o, rest).
Proof. exact @rt_option. Qed.
Print Assumptions C12_rt_option.

Theorem C12_rt_vec : forall A (w : A -> bytes) (r : Rd A) (wf : A -> Prop),
  (forall v rest, wf v -> r (w v ++ rest) = Ok (v, rest)) ->
  forall l rest, Z.of_nat (length l) < 2 ^ 64 /\ Forall wf l ->
  read_vec_of r (write_vec w l ++ rest) = Ok (l, rest).
Proof. exact @rt_vec. Qed.
Print Assumptions C12_rt_vec.

Theorem C12_rt_array : forall A (w : A -> bytes) (r : Rd A) (wf : A -> Prop) (c : nat),
  (forall v rest, wf v -> r (w v ++ rest) = Ok (v, rest)) ->
  forall l rest, length l = c /\ Forall wf l ->
  read_arr r (Z.of_nat c) (write_arr w l ++ rest) = Ok (l, rest).
Proof. exact @rt_arr. Qed.
Print Assumptions C12_rt_array.

Theorem C12_rt_pair : forall A B wa (ra : Rd A) (wfa : A -> Prop) wb (rb : Rd B) (wfb : B -> Prop),
  (forall v rest, wfa v -> ra (wa v ++ rest) = Ok (v, rest)) ->
  (forall v rest, wfb v -> rb (wb v ++ rest) = Ok (v, rest)) ->
  forall p rest, wfa (fst p) /\ wfb (snd p) -> read_pair ra rb (write_pair wa wb p ++ rest) = Ok (p, rest).
Proof. exact @rt_pair. Qed.
Print Assumptions C12_rt_pair.

Theorem C12_rt_triple : forall A B C wa (ra : Rd A) (wfa : A -> Prop) wb (rb : Rd B) (wfb : B -> Prop)
    wc (rc : Rd C) (wfc : C -> Prop),
  (forall v rest, wfa v -> ra (wa v ++ rest) = Ok (v, rest)) ->
  (forall v rest, wfb v -> rb (wb v ++ rest) = Ok (v, rest)) ->
  (forall v rest, wfc v -> rc (wc v ++ rest) = Ok (v, rest)) ->
  forall t rest, wfa (fst (fst t)) /\ wfb (snd (fst t)) /\ wfc (snd t) ->
  read_triple ra rb rc (write_triple wa wb wc t ++ rest) = Ok (t, rest).
Proof. exact @rt_triple. Qed.
Print Assumptions C12_rt_triple.

(* every remaining Serializable/Deserializable impl of serde/mod.rs — (), the tuples of arity 1, 4, 5 and
   6, the write-only impls for [T] (read back as Vec<T>) and str (read back as String) *)
Theorem C12_rt_unit : forall (v : unit) rest, read_unit (write_unit v ++ rest) = Ok (v, rest).
Proof. intros v rest. exact (rt_unit v rest I). Qed.
Print Assumptions C12_rt_unit.

Theorem C12_rt_tuple1 : forall A wa (ra : Rd A) (wfa : A -> Prop),
  (forall v rest, wfa v -> ra (wa v ++ rest) = Ok (v, rest)) ->
  forall t rest, wfa t -> read_tup1 ra (write_tup1 wa t ++ rest) = Ok (t, rest).
Proof. exact @rt_tup1. Qed.
Print Assumptions C12_rt_tuple1.

Theorem C12_rt_tuple4 : forall A B C D wa (ra : Rd A) (wfa : A -> Prop) wb (rb : Rd B) (wfb : B -> Prop)
    wc (rc : Rd C) (wfc : C -> Prop) wd (rd : Rd D) (wfd : D -> Prop),
  (forall v rest, wfa v -> ra (wa v ++ rest) = Ok (v, rest)) ->
  (forall v rest, wfb v -> rb (wb v ++ rest) = Ok (v, rest)) ->
  (forall v rest, wfc v -> rc (wc v ++ rest) = Ok (v, rest)) ->
  (forall v rest, wfd v -> rd (wd v ++ rest) = Ok (v, rest)) ->
  forall t rest, (let '(a, b, c, d) := t in wfa a /\ wfb b /\ wfc c /\ wfd d) ->
  read_tup4 ra rb rc rd (write_tup4 wa wb wc wd t ++ rest) = Ok (t, rest).
Proof. exact @rt_tup4. Qed.
Print Assumptions C12_rt_tuple4.

Theorem C12_rt_tuple5 : forall A B C D E wa (ra : Rd A) (wfa : A -> Prop) wb (rb : Rd B) (wfb : B -> Prop)
    wc (rc : Rd C) (wfc : C -> Prop) wd (rd : Rd D) (wfd : D -> Prop) we (re : Rd E) (wfe : E -> Prop),
  (forall v rest, wfa v -> ra (wa v ++ rest) = Ok (v, rest)) ->
  (forall v rest, wfb v -> rb (wb v ++ rest) = Ok (v, rest)) ->
  (forall v rest, wfc v -> rc (wc v ++ rest) = Ok (v, rest)) ->
  (forall v rest, wfd v -> rd (wd v ++ rest) = Ok (v, rest)) ->
  (forall v rest, wfe v -> re (we v ++ rest) = Ok (v, rest)) ->
  forall t rest, (let '(a, b, c, d, e) := t in wfa a /\ wfb b /\ wfc c /\ wfd d /\ wfe e) ->
  read_tup5 ra rb rc rd re (write_tup5 wa wb wc wd we t ++ rest) = Ok (t, rest).
Proof. exact @rt_tup5. Qed.
Print Assumptions C12_rt_tuple5.

Theorem C12_rt_tuple6 : forall A B C D E F wa (ra : Rd A) (wfa : A -> Prop) wb (rb : Rd B) (wfb : B -> Prop)
    wc (rc : Rd C) (wfc : C -> Prop) wd (rd : Rd D) (wfd : D -> Prop) we (re : Rd E) (wfe : E -> Prop)
    wf_ (rf : Rd F) (wff : F -> Prop),
  (forall v rest, wfa v -> ra (wa v ++ rest) = Ok (v, rest)) ->
  (forall v rest, wfb v -> rb (wb v ++ rest) = Ok (v, rest)) ->
  (forall v rest, wfc v -> rc (wc v ++ rest) = Ok (v, rest)) ->
  (forall v rest, wfd v -> rd (wd v ++ rest) = Ok (v, rest)) ->
  (forall v rest, wfe v -> re (we v ++ rest) = Ok (v, rest)) ->
  (forall v rest, wff v -> rf (wf_ v ++ rest) = Ok (v, rest)) ->
  forall t rest, (let '(a, b, c, d, e, f) := t in wfa a /\ wfb b /\ wfc c /\ wfd d /\ wfe e /\ wff f) ->
  read_tup6 ra rb rc rd re rf (write_tup6 wa wb wc wd we wf_ t ++ rest) = Ok (t, rest).
Proof. exact @rt_tup6. Qed.
Print Assumptions C12_rt_tuple6.

(* the instance the harness drives: (u8, u16, u32, u64, u128, usize) — also shows that the hypotheses are satisfiable *)
Theorem C12_rt_tuple6_ints : forall a b c d e f rest,
  0 <= b < 2 ^ 16 -> 0 <= c < 2 ^ 32 -> 0 <= d < 2 ^ 64 -> 0 <= e < 2 ^ 128 -> 0 <= f < 2 ^ 64 ->
  read_tup6 read_u8 read_u16 read_u32 read_u64 read_u128 read_usize
    (write_tup6 write_u8 write_u16 write_u32 write_u64 write_u128 write_usize (a, b, c, d, e, f) ++ rest)
  = Ok ((a, b, c, d, e, f), rest).
Proof. exact rt_tup6_ints. Qed.
Print Assumptions C12_rt_tuple6_ints.

(* [T]: the element-by-element loop writes exactly the bytes of Vec<T>, and they decode as the Vec *)
Theorem C12_slice_writes_vec_bytes : forall A (w : A -> bytes) l, write_slice w l = write_vec w l.
Proof. exact @write_slice_is_write_vec. Qed.
Print Assumptions C12_slice_writes_vec_bytes.

Theorem C12_rt_slice : forall A (w : A -> bytes) (r : Rd A) (wf : A -> Prop),
  (forall v rest, wf v -> r (w v ++ rest) = Ok (v, rest)) ->
  forall l rest, Z.of_nat (length l) < 2 ^ 64 /\ Forall wf l ->
  read_vec_of r (write_slice w l ++ rest) = Ok (l, rest).
Proof. exact @rt_slice. Qed.
Print Assumptions C12_rt_slice.

(* str: read back as String *)
Theorem C12_rt_str : forall (utf8_valid : bytes -> bool) s rest,
  len s < 2 ^ 64 /\ utf8_valid s = true -> read_string utf8_valid (write_str s ++ rest) = Ok (s, rest).
Proof. exact rt_str. Qed.
Print Assumptions C12_rt_str.

(* String: UTF-8 validity is an oracle; a Rust String always satisfies it *)
Theorem C12_rt_string : forall (utf8_valid : bytes -> bool) s rest,
  len s < 2 ^ 64 /\ utf8_valid s = true -> read_string utf8_valid (write_string s ++ rest) = Ok (s, rest).
Proof. exact rt_string. Qed.
Print Assumptions C12_rt_string.

(* BTreeMap / BTreeSet: values are key-sorted association lists (strictly increasing keys) *)
Theorem C12_rt_map : forall K V (ltb : K -> K -> bool),
  (forall a b, ltb a b = true -> ltb b a = false) ->
  forall wk (rk : Rd K) (wfk : K -> Prop) wv (rv : Rd V) (wfv : V -> Prop),
  (forall v rest, wfk v -> rk (wk v ++ rest) = Ok (v, rest)) ->
  (forall v rest, wfv v -> rv (wv v ++ rest) = Ok (v, rest)) ->
  forall m rest, Z.of_nat (length m) < 2 ^ 64 /\ sorted_map ltb m /\ Forall (fun kv => wfk (fst kv) /\ wfv (snd kv)) m ->
  read_map ltb rk rv (write_map wk wv m ++ rest) = Ok (m, rest).
Proof. exact @rt_map. Qed.
Print Assumptions C12_rt_map.

Theorem C12_rt_set : forall K (ltb : K -> K -> bool),
  (forall a b, ltb a b = true -> ltb b a = false) ->
  forall wk (rk : Rd K) (wfk : K -> Prop),
  (forall v rest, wfk v -> rk (wk v ++ rest) = Ok (v, rest)) ->
  forall m rest, Z.of_nat (length m) < 2 ^ 64 /\ sorted_set ltb m /\ Forall wfk m ->
  read_set ltb rk (write_set wk m ++ rest) = Ok (m, rest).
Proof. exact @rt_set. Qed.
Print Assumptions C12_rt_set.

(* ----------------------------------------------------------------- field / extension elements, digests *)
Theorem C12_rt_f64 : forall v rest, 0 <= v < M64 -> read_f64 (write_f64 v ++ rest) = Ok (v, rest).
Proof. exact rt_f64. Qed.
Print Assumptions C12_rt_f64.
Theorem C12_rt_f62 : forall v rest, 0 <= v < M62 -> read_f62 (write_f62 v ++ rest) = Ok (v, rest).
Proof. exact rt_f62. Qed.
Print Assumptions C12_rt_f62.
Theorem C12_rt_f128 : forall v rest, 0 <= v < M128 -> read_f128 (write_f128 v ++ rest) = Ok (v, rest).
Proof. exact rt_f128. Qed.
Print Assumptions C12_rt_f128.

Theorem C12_felt_noncanonical_rejected : forall k M v rest, 0 <= v < 256 ^ Z.of_nat k -> M <= v ->
  read_felt k M (write_uint k v ++ rest) = Err Invalid.
Proof. exact read_felt_rejects. Qed.
Print Assumptions C12_felt_noncanonical_rejected.

Theorem C12_rt_quad : forall w r M, (forall v rest, wf_felt M v -> r (w v ++ rest) = Ok (v, rest)) ->
  forall p rest, wf_felt M (fst p) /\ wf_felt M (snd p) -> read_quad r (write_quad w p ++ rest) = Ok (p, rest).
Proof. exact rt_quad. Qed.
Print Assumptions C12_rt_quad.
Theorem C12_rt_cube : forall w r M, (forall v rest, wf_felt M v -> r (w v ++ rest) = Ok (v, rest)) ->
  forall t rest, wf_felt M (fst (fst t)) /\ wf_felt M (snd (fst t)) /\ wf_felt M (snd t) ->
  read_cube r (write_cube w t ++ rest) = Ok (t, rest).
Proof. exact rt_cube. Qed.
Print Assumptions C12_rt_cube.

Theorem C12_rt_digest : forall n d rest, length d = n -> read_digest n (write_digest d ++ rest) = Ok (d, rest).
Proof. exact rt_digest. Qed.
Print Assumptions C12_rt_digest.
Theorem C12_rt_element_digest : forall d rest, wf_edigest d -> read_edigest (write_edigest d ++ rest) = Ok (d, rest).
Proof. exact rt_edigest. Qed.
Print Assumptions C12_rt_element_digest.

(* --------------------------------------------------------------------------- ProofOptions, TraceInfo *)
Theorem C12_rt_FieldExtension : forall fe rest, read_FieldExtension (write_FieldExtension fe ++ rest) = Ok (fe, rest).
Proof. intros fe rest. exact (rt_FieldExtension fe rest I). Qed.
Print Assumptions C12_rt_FieldExtension.

(* wf_ProofOptions o := o is returned by ProofOptions::new for some arguments of the parameter types *)
Theorem C12_rt_ProofOptions : forall o rest, wf_ProofOptions o -> read_ProofOptions (write_ProofOptions o ++ rest) = Ok (o, rest).
Proof. exact rt_ProofOptions. Qed.
Print Assumptions C12_rt_ProofOptions.
Example C12_rt_ProofOptions_nonvacuous : wf_ProofOptions po_max /\ wf_ProofOptions po_min.
Proof. exact (conj wf_po_max wf_po_min). Qed.

Theorem C12_wf_ProofOptions_explicit : forall o, wf_ProofOptions o <->
  1 <= po_num_queries o <= 255 /\ In (po_blowup_factor o) [2; 4; 8; 16; 32; 64; 128] /\
  0 <= po_grinding_factor o <= 32 /\ In (po_fri_folding_factor o) [2; 4; 8; 16] /\
  In (po_fri_remainder_max_degree o) [0; 1; 3; 7; 15; 31; 63; 127; 255].
Proof. exact wf_ProofOptions_explicit. Qed.
Print Assumptions C12_wf_ProofOptions_explicit.

Theorem C12_narrow_ProofOptions : forall nq bf gf fe ff rd o, 0 <= gf -> 0 <= rd ->
  ProofOptions_new nq bf gf fe ff rd = Ok o -> o = mkPO nq bf gf fe ff rd.
Proof. exact narrow_ProofOptions. Qed.
Print Assumptions C12_narrow_ProofOptions.

(* the reader validates before calling the asserting constructor: no byte string makes it panic, and whatever
   it returns is a value the constructor accepts *)
Theorem C12_read_ProofOptions_total : forall bs, is_bytes bs ->
  match read_ProofOptions bs with Ok (o, rest) => wf_ProofOptions o /\ is_bytes rest | Err _ => True | Panic => False end.
Proof. exact read_ProofOptions_no_panic. Qed.
Print Assumptions C12_read_ProofOptions_total.

(* wf_TraceInfo t := t is returned by TraceInfo::new_multi_segment (hence also by new / with_meta) *)
Theorem C12_rt_TraceInfo : forall t rest, wf_TraceInfo t -> read_TraceInfo (write_TraceInfo t ++ rest) = Ok (t, rest).
Proof. exact rt_TraceInfo. Qed.
Print Assumptions C12_rt_TraceInfo.
Example C12_rt_TraceInfo_nonvacuous :
  wf_TraceInfo (mkTI 255 0 0 8 []) /\ wf_TraceInfo (mkTI 3 2 0 8 []) /\ wf_TraceInfo (mkTI 1 254 255 (2 ^ 63) []) /\
  wf_TraceInfo ti_meta_max.
Proof. exact (conj wf_TraceInfo_255_columns (conj wf_TraceInfo_aux_without_rands (conj wf_TraceInfo_max_length wf_ti_meta_max))). Qed.

Theorem C12_narrow_TraceInfo : forall t, wf_TraceInfo t ->
  wrap 8 (ti_main t) = ti_main t /\ wrap 8 (ti_aux t) = ti_aux t /\ wrap 8 (ti_rands t) = ti_rands t /\
  wrap 8 (Z.log2 (ti_length t)) = Z.log2 (ti_length t) /\ wrap 16 (len (ti_meta t)) = len (ti_meta t) /\
  write_TraceInfo_ok t = true.
Proof. exact narrow_TraceInfo. Qed.
Print Assumptions C12_narrow_TraceInfo.

Theorem C12_read_TraceInfo_total : forall bs, is_bytes bs ->
  match read_TraceInfo bs with Ok (t, rest) => wf_TraceInfo t /\ is_bytes rest | Err _ => True | Panic => False end.
Proof. exact read_TraceInfo_no_panic. Qed.
Print Assumptions C12_read_TraceInfo_total.

(* ------------------------------------------------------------------------------ Context ... whole Proof *)
Theorem C12_rt_Context : forall c rest, wf_Context c -> read_Context (write_Context c ++ rest) = Ok (c, rest).
Proof. exact rt_Context. Qed.
Print Assumptions C12_rt_Context.
Example C12_rt_Context_nonvacuous : wf_Context ctx_small /\ wf_Context ctx_big.
Proof. exact (conj wf_ctx_small wf_ctx_big). Qed.

Theorem C12_narrow_Context : forall c, wf_Context c ->
  wrap 8 (len (ctx_modulus c)) = len (ctx_modulus c) /\ write_Context_ok c = true.
Proof. exact narrow_Context. Qed.
Print Assumptions C12_narrow_Context.

Theorem C12_rt_Commitments : forall c rest, len c < 65535 -> read_Commitments (write_Commitments c ++ rest) = Ok (c, rest).
Proof. exact rt_Commitments. Qed.
Print Assumptions C12_rt_Commitments.

Theorem C12_rt_Queries : forall q rest, len (q_values q) < 2 ^ 32 /\ len (q_paths q) < 2 ^ 32 ->
  read_Queries (write_Queries q ++ rest) = Ok (q, rest).
Proof. exact rt_Queries. Qed.
Print Assumptions C12_rt_Queries.

Theorem C12_rt_OodFrame : forall f rest,
  len (ood_trace_states f) < 2 ^ 16 /\ len (ood_lagrange f) < 2 ^ 16 /\ len (ood_evaluations f) < 2 ^ 16 ->
  read_OodFrame (write_OodFrame f ++ rest) = Ok (f, rest).
Proof. exact rt_OodFrame. Qed.
Print Assumptions C12_rt_OodFrame.

Theorem C12_narrow_OodFrame : forall width elem_bytes lagrange_elems num_evaluations,
  0 <= width <= 255 -> 0 <= elem_bytes <= 48 -> 0 <= lagrange_elems <= 64 -> 0 <= num_evaluations <= 1024 ->
  1 + 2 * width * elem_bytes < 2 ^ 16 /\ 1 + lagrange_elems * elem_bytes < 2 ^ 16 /\ num_evaluations * elem_bytes < 2 ^ 16.
Proof. exact narrow_OodFrame. Qed.
Print Assumptions C12_narrow_OodFrame.

(* the unrestricted claim "every OodFrame the setters can build round-trips" is false: the setters are unbounded
   and the u16 length prefix wraps (open finding C12-narrowing-unchecked) *)
Theorem C12_narrow_OodFrame_refuted :
  exists f, len (ood_evaluations f) = 2 ^ 16 /\ read_OodFrame (write_OodFrame f) <> Ok (f, []).
Proof. exact narrow_OodFrame_refuted. Qed.
Print Assumptions C12_narrow_OodFrame_refuted.

Theorem C12_rt_FriProofLayer : forall l rest, 0 < len (fl_values l) < 2 ^ 32 /\ len (fl_paths l) < 2 ^ 32 ->
  read_FriProofLayer (write_FriProofLayer l ++ rest) = Ok (l, rest).
Proof. exact rt_FriProofLayer. Qed.
Print Assumptions C12_rt_FriProofLayer.

Theorem C12_rt_FriProof : forall p rest, wf_FriProof p -> read_FriProof (write_FriProof p ++ rest) = Ok (p, rest).
Proof. exact rt_FriProof. Qed.
Print Assumptions C12_rt_FriProof.
Example C12_rt_FriProof_nonvacuous : wf_FriProof fri_ex.
Proof. exact wf_fri_ex. Qed.

Theorem C12_narrow_FriProof : forall num_layers rem_elems elem_bytes,
  0 <= num_layers <= 32 -> 0 <= rem_elems <= 256 -> 0 <= elem_bytes <= 48 ->
  wrap 8 num_layers = num_layers /\ wrap 16 (rem_elems * elem_bytes) = rem_elems * elem_bytes.
Proof. exact narrow_FriProof. Qed.
Print Assumptions C12_narrow_FriProof.

Theorem C12_narrow_FriProof_refuted :
  exists p, length (fri_layers p) = 256%nat /\ Forall wf_FriProofLayer (fri_layers p) /\
            read_FriProof (write_FriProof p) <> Ok (p, []).
Proof. exact narrow_FriProof_refuted. Qed.
Print Assumptions C12_narrow_FriProof_refuted.

(* whole proof *)
Theorem C12_rt_Proof : forall p rest, wf_Proof p -> read_Proof (write_Proof p ++ rest) = Ok (p, rest).
Proof. exact rt_Proof. Qed.
Print Assumptions C12_rt_Proof.
Example C12_rt_Proof_nonvacuous : wf_Proof proof_ex.
Proof. exact wf_proof_ex. Qed.

Theorem C12_write_Proof_no_assert : forall p, wf_Proof p -> write_Proof_ok p = true.
Proof. exact wf_Proof_ok. Qed.
Print Assumptions C12_write_Proof_no_assert.

(* ------------------------------------------------------------------------------------------ totality *)
(* no byte string makes any reader of the model panic (every Panic of the model is a constructor assert, and
   the readers validate before constructing); successful reads leave well-formed bytes *)
Theorem C12_read_Proof_never_panics : forall bs, is_bytes bs ->
  match read_Proof bs with Ok (_, rest) => True /\ is_bytes rest | Err _ => True | Panic => False end.
Proof. exact read_Proof_no_panic. Qed.
Print Assumptions C12_read_Proof_never_panics.

Theorem C12_read_Context_never_panics : forall bs, is_bytes bs ->
  match read_Context bs with Ok (_, rest) => True /\ is_bytes rest | Err _ => True | Panic => False end.
Proof. exact read_Context_no_panic. Qed.
Print Assumptions C12_read_Context_never_panics.

Theorem C12_read_FriProof_never_panics : forall bs, is_bytes bs ->
  match read_FriProof bs with Ok (_, rest) => True /\ is_bytes rest | Err _ => True | Panic => False end.
Proof. exact read_FriProof_no_panic. Qed.
Print Assumptions C12_read_FriProof_never_panics.

Theorem C12_read_vec_never_panics : forall A (P : A -> Prop) (r : Rd A),
  (forall bs, is_bytes bs -> match r bs with Ok (a, rest) => P a /\ is_bytes rest | Err _ => True | Panic => False end) ->
  forall bs, is_bytes bs ->
  match read_vec_of r bs with Ok (l, rest) => Forall P l /\ is_bytes rest | Err _ => True | Panic => False end.
Proof. exact @safe_read_vec_of. Qed.
Print Assumptions C12_read_vec_never_panics.

(* Context::read_from accepts only what Context::new accepts for the trace info / options it has read *)
Theorem C12_read_Context_total : forall bs, is_bytes bs ->
  match read_Context bs with
  | Ok (c, rest) => (wf_TraceInfo (ctx_trace_info c) /\ wf_ProofOptions (ctx_options c) /\ 1 <= len (ctx_modulus c) <= 255 /\
                     Context_new (ctx_modulus c) (ctx_trace_info c) (ctx_options c) = Ok c) /\ is_bytes rest
  | Err _ => True
  | Panic => False
  end.
Proof. exact read_Context_total. Qed.
Print Assumptions C12_read_Context_total.

(* ------------------------------------------------- the hand model equals the code regenerated by rs2v *)
(* coq/Gen/Serde.v and coq/Gen/Limits.v are regenerated from utils/core/src/serde/byte_{writer,reader}.rs,
   air/src/options.rs, air/src/air/trace_info.rs, air/src/proof/context.rs, fri/src/proof.rs on every run.
   The byte I/O skeleton (peek/read/write calls, the 9-byte test, slicing) stays in the hand model and is pinned
   by source guards of the units; everything arithmetic below is the translated source. *)
Theorem C12_gen_encoded_len : forall v, encoded_len v = Serde.serde_encoded_len v.
Proof. exact encoded_len_gen. Qed.
Print Assumptions C12_gen_encoded_len.

Theorem C12_gen_encoded_len_no_overflow : forall v, Serde.serde_encoded_len_ok v = true.
Proof. exact encoded_len_gen_no_overflow. Qed.
Print Assumptions C12_gen_encoded_len_no_overflow.

Theorem C12_gen_write_usize : forall v, write_usize v = write_usize_g v.
Proof. exact write_usize_gen. Qed.
Print Assumptions C12_gen_write_usize.

Theorem C12_gen_write_usize_no_overflow : forall v, Serde.serde_write_usize_enc_ok v (Serde.serde_encoded_len v) = true.
Proof. exact write_usize_gen_no_overflow. Qed.
Print Assumptions C12_gen_write_usize_no_overflow.

Theorem C12_gen_read_usize : forall bs, read_usize bs = read_usize_g bs.
Proof. exact read_usize_gen. Qed.
Print Assumptions C12_gen_read_usize.

(* the vint64 round trip stated on the regenerated arithmetic *)
Theorem C12_vint64_rt_gen : forall v rest, 0 <= v < 2 ^ 64 -> read_usize_g (write_usize_g v ++ rest) = Ok (v, rest).
Proof. exact vint64_rt_gen. Qed.
Print Assumptions C12_vint64_rt_gen.

(* the constructors accept exactly when the conjunction of their translated asserts holds, hence wf_ProofOptions /
   wf_TraceInfo / wf_Context are statements about the regenerated asserts and constants *)
Theorem C12_gen_ProofOptions_new : forall nq bf gf fe ff rd, 0 <= rd < 2 ^ 64 ->
  ProofOptions_new nq bf gf fe ff rd =
  if Limits.lim_po_new_checks_ok nq bf gf ff rd
  then Ok (mkPO (wrap 8 nq) (wrap 8 bf) (wrap 8 gf) fe (wrap 8 ff) (wrap 8 rd)) else Panic.
Proof. exact ProofOptions_new_gen. Qed.
Print Assumptions C12_gen_ProofOptions_new.

Theorem C12_gen_TraceInfo_new : forall main aux rands length_ meta,
  TraceInfo_new_multi_segment main aux rands length_ meta =
  if Limits.lim_ti_new_checks_ok main aux rands length_ (len meta) then Ok (mkTI main aux rands length_ meta) else Panic.
Proof. exact TraceInfo_new_gen. Qed.
Print Assumptions C12_gen_TraceInfo_new.

Theorem C12_gen_Context_new : forall modulus t o, 0 <= ti_length t -> 0 <= po_blowup_factor o ->
  Context_new modulus t o =
  if Limits.lim_ctx_new_checks_ok (ti_length t) (po_blowup_factor o) then Ok (mkCtx t modulus o) else Panic.
Proof. exact Context_new_gen. Qed.
Print Assumptions C12_gen_Context_new.

Theorem C12_gen_limits :
  Limits.lim_MAX_NUM_QUERIES = 255 /\ Limits.lim_MIN_BLOWUP_FACTOR = 2 /\ Limits.lim_MAX_BLOWUP_FACTOR = 128 /\
  Limits.lim_MAX_GRINDING_FACTOR = 32 /\ Limits.lim_FRI_MIN_FOLDING_FACTOR = 2 /\ Limits.lim_FRI_MAX_FOLDING_FACTOR = 16 /\
  Limits.lim_FRI_MAX_REMAINDER_DEGREE = 255 /\ Limits.lim_MIN_TRACE_LENGTH = 8 /\ Limits.lim_MAX_TRACE_WIDTH = 255 /\
  Limits.lim_MAX_META_LENGTH = 65535 /\ Limits.lim_MAX_RAND_SEGMENT_ELEMENTS = 255.
Proof. exact limits_gen. Qed.
Print Assumptions C12_gen_limits.

(* the readers: byte reads (hand) around the translated validation code *)
Theorem C12_gen_read_ProofOptions : forall bs, is_bytes bs -> read_ProofOptions bs = read_ProofOptions_g bs.
Proof. exact read_ProofOptions_gen. Qed.
Print Assumptions C12_gen_read_ProofOptions.

Theorem C12_gen_read_TraceInfo : forall bs, is_bytes bs -> read_TraceInfo bs = read_TraceInfo_g bs.
Proof. exact read_TraceInfo_gen. Qed.
Print Assumptions C12_gen_read_TraceInfo.

Theorem C12_gen_read_Context : forall bs, read_Context bs = read_Context_g bs.
Proof. exact read_Context_gen. Qed.
Print Assumptions C12_gen_read_Context.

Theorem C12_gen_read_FriProof : forall bs, read_FriProof bs = read_FriProof_g bs.
Proof. exact read_FriProof_gen. Qed.
Print Assumptions C12_gen_read_FriProof.
