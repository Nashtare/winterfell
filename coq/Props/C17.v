(* C17 — the committed composition polynomial equals its definition.
   Only statements, `exact` or `apply` of lemmas proved in Proofs/Composition*.v (whose hypothesis bundles are built from the
   hypotheses spelt out here; C17_ext_f64_embeddings also uses C08's f64_quad_laws / f64_cube_laws), and Print Assumptions.
   Model: coq/Model/Composition.v (tied to /repo by the correspondence of checks/c17.py on every run).
   Everything except the f64 instances (C17_ext_f64_*, the Examples) is stated for an arbitrary field (`FOps F` with `FLaws`)
   and arbitrary sizes. *)
From Coq Require Import List Arith ZArith.
From VBase Require Import FieldOps.
From VBase Require Import MachInt.
From VModel Require Import Composition CompositionLagrange CompositionMixed CompositionMixedWhole CompositionMixedFull ExtField.
From VModel Require Enforce EnforceLagrange.
From VModel Require FFT Stark.
From VProofs Require FFTSpec FFTEval FFTOffset FFTSegments StarkPoly StarkLagrangeRows.
From VProofs Require Import ZpLaws CompositionBase CompositionIndex CompositionVerifier CompositionTable CompositionFFT CompositionValid CompositionLagrange CompositionLagrangeTable CompositionLagrangePoly CompositionMixed CompositionMixedWhole CompositionMixedFull CompositionMixedFinal CompositionMixedInst CompositionLagrangeHonest CompositionLagrangeFinal ExtModel ExtConcrete CompositionExamples.
Import ListNotations.
Local Open Scope nat_scope.

(* ---- column split + recombination (composition_poly.rs `segment`, verifier/src/lib.rs fold): pure list lemma,
        every polynomial h, every number of columns k, every column length n *)
Theorem C17_column_split_recombine :
  forall {F} (O : FOps F) (L : FLaws O) (n : nat), n <> 0 ->
  forall k h z cols, length h <= k * n -> segment h n k = Some cols ->
  recombine O n (cp_evaluate_at O cols z) z = peval O h z.
Proof. intros F O L n Hn. exact (column_split_recombine O L n Hn). Qed.
Print Assumptions C17_column_split_recombine.

(* what `segment` does to a polynomial with MORE than k*n coefficients: it silently keeps the first k*n *)
Theorem C17_column_split_truncates :
  forall {F} (O : FOps F) (L : FLaws O) (n : nat), n <> 0 ->
  forall k h z cols, segment h n k = Some cols ->
  recombine O n (cp_evaluate_at O cols z) z = peval O (firstn (k * n) h) z.
Proof. intros F O L n Hn. exact (column_split_recombine_gen O L n Hn). Qed.
Print Assumptions C17_column_split_truncates.

(* ---- PeriodicValueTable::{new,get_row}: under what Air::get_periodic_column_polys asserts (non-empty columns whose
        length divides the trace length and the longest column; here powers of two) and the root-of-unity relations of
        get_root_of_unity, the table is built without panic and get_row(step) is, for EVERY step, the periodic values
        p_k(x_step^(n/len p_k)) at x_step = w_ce^step * offset *)
Theorem C17_periodic_row_spec :
  forall {F} (O : FOps F) (L : FLaws O) (n ceb : nat) (offset : F) (rou : nat -> F),
  n <> 0 -> ceb <> 0 ->
  cpow O (rou (n * ceb)) (n * ceb) = fone O ->
  forall ppolys : list (list F),
  ppolys <> [] ->
  (forall p, In p ppolys -> length p <> 0) ->
  (forall p, In p ppolys -> length p * (n / length p) = n) ->
  (forall p, In p ppolys -> exists q, fold_left Nat.max (map (@length F) ppolys) 0 = length p * q) ->
  (forall p, In p ppolys -> rou (length p * ceb) = cpow O (rou (n * ceb)) (n / length p)) ->
  exists t, ptable_new O n ceb offset rou ppolys = Some t /\
    forall step, pt_get_row t step
      = Some (map (fun p => peval O p (cpow O (fmul O (cpow O (rou (n * ceb)) step) offset) (n / length p))) ppolys).
Proof. intros F O L. exact (periodic_row_spec O L). Qed.
Print Assumptions C17_periodic_row_spec.

(* ---- the three prover-side representations of a boundary constraint: for ANY value polynomial (1 value, 2..62
        coefficients, 63 and more: both sides of the SMALL_POLY_DEGREE switch), ANY first step < n and EVERY step of the
        ce domain, SmallPolyConstraint::evaluate, LargePolyConstraint::evaluate (with its step_offset wrap-around) and,
        for one value, SingleValueConstraint::evaluate equal cc * BoundaryConstraint::evaluate_at(x_step, state[col]) *)
Theorem C17_boundary_repr_equiv :
  forall {F} (O : FOps F) (L : FLaws O) (n ceb : nat) (offset : F) (rou : nat -> F),
  n <> 0 -> ceb <> 0 ->
  cpow O (rou (n * ceb)) (n * ceb) = fone O ->
  cpow O (rou (n * ceb)) ceb = rou n ->
  forall ginv : F, fmul O ginv (rou n) = fone O ->
  forall (c : BC) (state : list F) (s : F),
  nth_error state (bc_col c) = Some s ->
  length (bc_poly c) <> 0 ->
  bc_xoff c = cpow O ginv (bc_first c) ->
  bc_first c < n ->
  length (bc_poly c) * (n * ceb / length (bc_poly c)) = n * ceb ->
  forall step, step < n * ceb ->
  let x := fmul O (cpow O (rou (n * ceb)) step) offset in
  let spec := Some (fmul O (bc_cc c) (bc_evaluate_at O c x s)) in
  small_eval O (small_new c) state x = spec
  /\ large_eval O (large_new O n ceb offset rou c) state step = spec
  /\ (length (bc_poly c) = 1 -> single_eval O (single_new O c) state = spec).
Proof. intros F O L. exact (boundary_repr_equiv O L). Qed.
Print Assumptions C17_boundary_repr_equiv.

(* ---- the verifier's evaluate_constraints (code structure: merged linear combinations, one division per divisor,
        `+=` loops, periodic values by Horner at z^(n/len)) equals the DEFINITION comp_def (one quotient per constraint,
        alpha_i on main constraint i, alpha_(num_main + j) on auxiliary constraint j, beta on each assertion, transition
        divisor (z^n - 1) / prod (z - g^k), k = n-exemptions..n-1) when it is given the frame T(z), T(g z) of the trace
        polynomials.  No non-vanishing assumption is needed (x / 0 = 0 on both sides). *)
Theorem C17_verifier_eval_agrees :
  forall {F} (O : FOps F) (L : FLaws O)
    (n : nat) (rou : nat -> F) (num_main num_aux : nat) (tmain : list F -> list F -> list F -> list F)
    (taux : list F -> list F -> list F -> list F -> list F -> list F -> list F) (ppolys : list (list F)) (exemptions : nat)
    (tcoef : list F) (main_groups aux_groups : list BGroup) (rands : list F) (tpolys apolys : list (list F)),
  (forall g, In g (main_groups ++ aux_groups) -> dv_ex (bg_div g) = []) ->
  (forall g c, In g main_groups -> In c (bg_cs g) -> bc_col c < length tpolys) ->
  (forall g c, In g aux_groups -> In c (bg_cs g) -> bc_col c < length apolys) ->
  (forall cur nxt pv, length (tmain cur nxt pv) = num_main) ->
  forall z : F,
  evaluate_constraints O n rou num_main tmain taux num_aux ppolys exemptions tcoef main_groups aux_groups rands
    (fun _ => None) (def_cur O tpolys z) (def_nxt O n rou tpolys z) (Some (def_acur O apolys z, def_anxt O n rou apolys z)) z
  = Some (comp_def O n rou tmain taux ppolys exemptions tcoef main_groups aux_groups rands true tpolys apolys z).
Proof. intros F O L. exact (verifier_eval_agrees_aux O L). Qed.
Print Assumptions C17_verifier_eval_agrees.

Theorem C17_verifier_eval_agrees_main_only :
  forall {F} (O : FOps F) (L : FLaws O)
    (n : nat) (rou : nat -> F) (num_main num_aux : nat) (tmain : list F -> list F -> list F -> list F)
    (taux : list F -> list F -> list F -> list F -> list F -> list F -> list F) (ppolys : list (list F)) (exemptions : nat)
    (tcoef : list F) (main_groups aux_groups : list BGroup) (rands : list F) (tpolys apolys : list (list F)),
  (forall g, In g (main_groups ++ aux_groups) -> dv_ex (bg_div g) = []) ->
  (forall g c, In g main_groups -> In c (bg_cs g) -> bc_col c < length tpolys) ->
  (forall cur nxt pv, length (tmain cur nxt pv) = num_main) ->
  forall z : F,
  evaluate_constraints O n rou num_main tmain taux num_aux ppolys exemptions tcoef main_groups aux_groups rands
    (fun _ => None) (def_cur O tpolys z) (def_nxt O n rou tpolys z) None z
  = Some (comp_def O n rou tmain taux ppolys exemptions tcoef main_groups aux_groups rands false tpolys apolys z).
Proof. intros F O L. exact (verifier_eval_agrees_main O L). Qed.
Print Assumptions C17_verifier_eval_agrees_main_only.

(* ---- table_row_spec (+ combine): DefaultConstraintEvaluator::evaluate (multi-segment path evaluate_fragment_full:
        frames read from the trace LDE at step * (lde blowup / ce blowup), periodic table row, main coefficients on main
        constraints and the FOLLOWING coefficients on auxiliary constraints, the three boundary representations, merging
        of auxiliary groups into main groups with an equal divisor, division by the divisors over the ce domain) returns,
        at EVERY index i of the ce domain, comp_def at x_i = w_ce^i * offset.
        Hypotheses: root-of-unity relations of get_root_of_unity; what get_periodic_column_polys / BoundaryConstraint::new
        / ConstraintDivisor::from_assertion guarantee (bc_ok, div_ok); the trace LDE rows are the trace polynomials on the
        LDE coset (C09). *)
Theorem C17_table_row_spec :
  forall {F} (O : FOps F) (L : FLaws O)
    (n ceb ldeb r : nat) (offset : F) (rou : nat -> F) (wlde ginv : F),
  n <> 0 -> ceb <> 0 -> r <> 0 -> ldeb = ceb * r ->
  cpow O wlde (n * ldeb) = fone O ->
  cpow O wlde r = rou (n * ceb) ->
  cpow O wlde ldeb = rou n ->
  fmul O ginv (rou n) = fone O ->
  forall (num_main : nat) (tmain : list F -> list F -> list F -> list F)
    (taux : list F -> list F -> list F -> list F -> list F -> list F -> list F) (ppolys : list (list F)) (exemptions : nat)
    (tcoef : list F) (main_groups aux_groups : list BGroup) (rands : list F) (tpolys apolys lde_main lde_aux : list (list F)),
  (forall cur nxt pv, length (tmain cur nxt pv) = num_main) ->
  exemptions <= n ->
  (forall p, In p ppolys -> length p <> 0) ->
  (forall p, In p ppolys -> length p * (n / length p) = n) ->
  (forall p, In p ppolys -> exists q, fold_left Nat.max (map (@length F) ppolys) 0 = length p * q) ->
  (forall p, In p ppolys -> rou (length p * ceb) = cpow O (rou (n * ceb)) (n / length p)) ->
  (forall g, In g main_groups -> div_ok n ceb (bg_div g) /\ (forall c, In c (bg_cs g) -> bc_ok O n ceb ginv tpolys c)) ->
  (forall g, In g aux_groups -> div_ok n ceb (bg_div g) /\ (forall c, In c (bg_cs g) -> bc_ok O n ceb ginv apolys c)) ->
  lde_rows_of O n ldeb offset wlde lde_main tpolys ->
  lde_rows_of O n ldeb offset wlde lde_aux apolys ->
  evaluate O n ceb ldeb offset rou num_main tmain taux ppolys exemptions tcoef main_groups aux_groups rands true lde_main lde_aux
    (fun _ v => v)
  = Some (map (fun i => comp_def O n rou tmain taux ppolys exemptions tcoef main_groups aux_groups rands true tpolys apolys
                          (fmul O (cpow O (rou (n * ceb)) i) offset)) (seq 0 (n * ceb))).
Proof. intros F O L. exact (evaluate_spec_aux O L). Qed.
Print Assumptions C17_table_row_spec.

(* ---- capstone.  FULL statement (not proved): for every valid trace of every AIR, the polynomial whose column
        commitments the prover sends equals comp_def at every field point.
        PROVED (partial): assuming, as explicit hypotheses, that (i) the interpolation used by CompositionPoly::new returns
        |ce| coefficients with the given evaluations on the ce coset and (ii) such coefficient lists are unique (both are
        C09/C20 statements), and that (iii) comp_def agrees, wherever no divisor vanishes (`good`, which must contain the
        ce coset), with a coefficient list q of at most min(|ce|, num_cols * n) coefficients (this is "deg comp_def <
        |ce domain|" and is where validity of the trace enters, C16): evaluate and CompositionPoly::new succeed and the
        recombination sum_i z^(i n) H_i(z) of the committed columns equals q(z) at EVERY z and comp_def(z) at every good z.
        (i)-(iii) are discharged in C17_composition_is_definition / C17_composition_is_definition_aux below; this theorem is
        the multi-segment path (a zero-width auxiliary segment is an instance of the model but not of the Rust code): the
        single-segment path evaluate_fragment_main, Lagrange-kernel constraints and extension fields (E != B) have their own
        theorems below. *)
Theorem C17_composition_is_definition_partial :
  forall {F} (O : FOps F) (L : FLaws O)
    (n ceb ldeb r : nat) (offset : F) (rou : nat -> F) (wlde ginv : F),
  n <> 0 -> ceb <> 0 -> r <> 0 -> ldeb = ceb * r ->
  cpow O wlde (n * ldeb) = fone O ->
  cpow O wlde r = rou (n * ceb) ->
  cpow O wlde ldeb = rou n ->
  fmul O ginv (rou n) = fone O ->
  forall (num_main : nat) (tmain : list F -> list F -> list F -> list F)
    (taux : list F -> list F -> list F -> list F -> list F -> list F -> list F) (ppolys : list (list F)) (exemptions : nat)
    (tcoef : list F) (main_groups aux_groups : list BGroup) (rands : list F) (tpolys apolys lde_main lde_aux : list (list F)),
  (forall cur nxt pv, length (tmain cur nxt pv) = num_main) ->
  exemptions <= n ->
  (forall p, In p ppolys -> length p <> 0) ->
  (forall p, In p ppolys -> length p * (n / length p) = n) ->
  (forall p, In p ppolys -> exists q, fold_left Nat.max (map (@length F) ppolys) 0 = length p * q) ->
  (forall p, In p ppolys -> rou (length p * ceb) = cpow O (rou (n * ceb)) (n / length p)) ->
  (forall g, In g main_groups -> div_ok n ceb (bg_div g) /\ (forall c, In c (bg_cs g) -> bc_ok O n ceb ginv tpolys c)) ->
  (forall g, In g aux_groups -> div_ok n ceb (bg_div g) /\ (forall c, In c (bg_cs g) -> bc_ok O n ceb ginv apolys c)) ->
  lde_rows_of O n ldeb offset wlde lde_main tpolys ->
  lde_rows_of O n ldeb offset wlde lde_aux apolys ->
  forall interp : list F -> list F,
  (forall evals, length evals = n * ceb ->
     length (interp evals) = n * ceb /\
     (forall i, i < n * ceb -> peval O (interp evals) (fmul O (cpow O (rou (n * ceb)) i) offset) = nth i evals (fzero O))) ->
  (forall p1 p2, length p1 = n * ceb -> length p2 = n * ceb ->
     (forall i, i < n * ceb -> peval O p1 (fmul O (cpow O (rou (n * ceb)) i) offset)
                               = peval O p2 (fmul O (cpow O (rou (n * ceb)) i) offset)) -> p1 = p2) ->
  forall (good : F -> Prop) (q : list F) (num_cols : nat),
  (forall z, good z ->
     peval O q z = comp_def O n rou tmain taux ppolys exemptions tcoef main_groups aux_groups rands true tpolys apolys z) ->
  (forall i, i < n * ceb -> good (fmul O (cpow O (rou (n * ceb)) i) offset)) ->
  length q <= n * ceb ->
  length q <= num_cols * n ->
  n < n * ceb ->
  exists evals cols,
    evaluate O n ceb ldeb offset rou num_main tmain taux ppolys exemptions tcoef main_groups aux_groups rands true lde_main lde_aux
      (fun _ v => v) = Some evals
    /\ composition_poly_new n interp evals num_cols = Some cols
    /\ (forall z, recombine O n (cp_evaluate_at O cols z) z = peval O q z)
    /\ (forall z, good z -> recombine O n (cp_evaluate_at O cols z) z
          = comp_def O n rou tmain taux ppolys exemptions tcoef main_groups aux_groups rands true tpolys apolys z).
Proof. intros F O L. exact (composition_is_definition_partial O L). Qed.
Print Assumptions C17_composition_is_definition_partial.

(* ---- table_row_spec for the SINGLE-segment prover path (evaluate_fragment_main: main frame only, the first num_main
        coefficients, BoundaryConstraints::evaluate_main; no auxiliary groups): every value returned by evaluate is
        comp_def (without auxiliary terms) at x_i = w_ce^i * offset *)
Theorem C17_table_row_spec_single_segment :
  forall (F : Type) (O0 : FOps F),
         FLaws O0 ->
         forall (n ceb ldeb r : nat) (offset : F) (rou : nat -> F) (wlde ginv : F),
         n <> 0 ->
         ceb <> 0 ->
         r <> 0 ->
         ldeb = ceb * r ->
         cpow O0 wlde (lde_size n ldeb) = fone O0 ->
         cpow O0 wlde r = wce n ceb rou ->
         cpow O0 wlde ldeb = gtrace n rou ->
         fmul O0 ginv (gtrace n rou) = fone O0 ->
         forall (num_main : nat) (tmain : list F -> list F -> list F -> list F)
           (taux : list F -> list F -> list F -> list F -> list F -> list F -> list F) (ppolys : list (list F))
           (exemptions : nat) (tcoef : list F) (main_groups aux_groups : list BGroup) (rands : list F)
           (tpolys apolys lde_main lde_aux : list (list F)),
         (forall cur nxt pv : list F, length (tmain cur nxt pv) = num_main) ->
         exemptions <= n ->
         (forall p : list F, In p ppolys -> length p <> 0) ->
         (forall p : list F, In p ppolys -> length p * (n / length p) = n) ->
         (forall p : list F,
          In p ppolys -> exists q : nat, fold_left Nat.max (map (length (A:=F)) ppolys) 0 = length p * q) ->
         (forall p : list F, In p ppolys -> rou (length p * ceb) = cpow O0 (wce n ceb rou) (n / length p)) ->
         (forall g : BGroup,
          In g main_groups ->
          div_ok n ceb (bg_div g) /\ (forall c : BC, In c (bg_cs g) -> bc_ok O0 n ceb ginv tpolys c)) ->
         (forall g : BGroup,
          In g aux_groups -> div_ok n ceb (bg_div g) /\ (forall c : BC, In c (bg_cs g) -> bc_ok O0 n ceb ginv apolys c)) ->
         lde_rows_of O0 n ldeb offset wlde lde_main tpolys ->
         aux_groups = [] ->
         evaluate O0 n ceb ldeb offset rou num_main tmain taux ppolys exemptions tcoef main_groups aux_groups rands
           false lde_main lde_aux (fun (_ : nat) (v : F) => v) =
         Some
           (map
              (fun i : nat =>
               comp_def O0 n rou tmain taux ppolys exemptions tcoef main_groups aux_groups rands false tpolys apolys
                 (ce_x O0 n ceb offset rou i)) (seq 0 (ce_size n ceb))).
Proof. exact @evaluate_spec_main. Qed.
Print Assumptions C17_table_row_spec_single_segment.

(* ---- capstone with the interpolation hypotheses DISCHARGED from C09 and the polynomial form of comp_def DISCHARGED from
        validity through C01's air_quotient_exists.  `interp_fft` is C09's faithful model of
        fft::interpolate_poly_with_offset applied with the inverse twiddles fft::get_inv_twiddles returns.
        Conclusion: evaluate and CompositionPoly::new succeed; there is ONE coefficient list Q (<= m coefficients) such
        that the recombination sum_i z^(i n) H_i(z) of the committed columns is Q(z) at EVERY z and is comp_def(z) at every
        z outside the trace domain (where the divisors are defined).
        REMAINING hypotheses (all explicit below), besides well-formedness of sizes and of what the air constructors produce:
        (1) root-of-unity relations of get_root_of_unity (w_lde of order |lde|, w_lde^r = w_ce primitive 2^(K+1)-th root,
            w_lde^ldeb = g primitive n-th root, periodic-cycle roots) and odd characteristic (2^(K+1) invertible);
        (2) the trace LDE rows are the trace polynomials on the LDE coset (C09_segments_spec describes the matrix the prover
            builds; the tie between that RowMatrix and the rows read by read_main_trace_frame_into is not modelled);
        (3) the transition numerator sum_i alpha_i C_i(T(x),T(gx),P(x)) and each group's numerator are given as coefficient
            lists N, Bm/Ba (i.e. the constraint evaluators are polynomial maps), each group's divisor x^a - b has the zero
            set Rm/Ra inside the trace domain, the numerators vanish where the constraints are enforced (VALIDITY of the
            trace) and their quotient lengths are bounded by m <= min(|ce|, num_cols * n) (C01_comp_cols_fit gives this
            bound for num_constraint_composition_columns);
        (4) the ce coset is disjoint from the trace domain.
        Not covered by this statement: Lagrange-kernel constraints (C17_composition_is_definition_lagrange below), extension
        fields (the `_ext` theorems below). *)
Theorem C17_composition_is_definition :
  forall (F : Type) (O0 : FOps F),
         FLaws O0 ->
         forall (n ceb ldeb r : nat) (offset : F) (rou : nat -> F) (wlde ginv : F),
         n <> 0 ->
         ceb <> 0 ->
         r <> 0 ->
         ldeb = ceb * r ->
         cpow O0 wlde (lde_size n ldeb) = fone O0 ->
         cpow O0 wlde r = wce n ceb rou ->
         cpow O0 wlde ldeb = gtrace n rou ->
         fmul O0 ginv (gtrace n rou) = fone O0 ->
         StarkPoly.primitive_root O0 (gtrace n rou) n ->
         forall (num_main : nat) (tmain : list F -> list F -> list F -> list F)
           (taux : list F -> list F -> list F -> list F -> list F -> list F -> list F) (ppolys : list (list F))
           (exemptions : nat) (tcoef : list F) (main_groups aux_groups : list BGroup) (rands : list F)
           (tpolys apolys lde_main lde_aux : list (list F)),
         (forall cur nxt pv : list F, length (tmain cur nxt pv) = num_main) ->
         exemptions <= n ->
         (forall p : list F, In p ppolys -> length p <> 0) ->
         (forall p : list F, In p ppolys -> length p * (n / length p) = n) ->
         (forall p : list F,
          In p ppolys -> exists q : nat, fold_left Nat.max (map (length (A:=F)) ppolys) 0 = length p * q) ->
         (forall p : list F, In p ppolys -> rou (length p * ceb) = cpow O0 (wce n ceb rou) (n / length p)) ->
         (forall gr : BGroup,
          In gr main_groups ->
          div_ok n ceb (bg_div gr) /\ (forall c : BC, In c (bg_cs gr) -> bc_ok O0 n ceb ginv tpolys c)) ->
         lde_rows_of O0 n ldeb offset wlde lde_main tpolys ->
         forall (two_adicity K : nat) (rouk : nat -> F) (itw : list F),
         ce_size n ceb = 2 ^ S K ->
         S K <= two_adicity ->
         rouk (S K) = wce n ceb rou ->
         FFTSpec.root_cond O0 (S K) (wce n ceb rou) ->
         FFT.get_inv_twiddles O0 two_adicity rouk (2 ^ S K) = Some itw ->
         offset <> fzero O0 ->
         fmul O0 (FFTSpec.two_pow_f O0 (S K)) (FFTOffset.n_inv O0 (S K)) = fone O0 ->
         (forall i : nat, i < ce_size n ceb -> ~ In (ce_x O0 n ceb offset rou i) (Stark.domain O0 (gtrace n rou) n)) ->
         forall num_cols m : nat,
         m <= ce_size n ceb ->
         m <= num_cols * n ->
         n < ce_size n ceb ->
         forall (N : list F) (Bm Rm Ba Ra : BGroup -> list F),
         (forall gr : BGroup, In gr main_groups -> forall z : F, peval O0 (Bm gr) z = group_numer O0 tpolys gr z) ->
         (forall gr : BGroup,
          In gr main_groups ->
          forall z : F, Stark.pprod O0 (Rm gr) z = fsub O0 (cpow O0 z (dv_a (bg_div gr))) (dv_b (bg_div gr))) ->
         (forall i : nat, i < n - exemptions -> peval O0 N (cpow O0 (gtrace n rou) i) = fzero O0) ->
         length N - (n - exemptions) <= m ->
         aux_groups = [] ->
         (forall z : F,
          peval O0 N z =
          rsum O0
            (map (fun ca : F * F => fmul O0 (snd ca) (fst ca))
               (combine (def_constraints O0 n rou tmain taux ppolys rands false tpolys apolys z) tcoef))) ->
         Forall
           (fun br : list F * list F =>
            NoDup (snd br) /\
            incl (snd br) (Stark.domain O0 (gtrace n rou) n) /\
            (forall r0 : F, In r0 (snd br) -> peval O0 (fst br) r0 = fzero O0) /\
            length (fst br) - length (snd br) <= m) (bs_of main_groups aux_groups false Bm Rm Ba Ra) ->
         exists (Q evals : list F) (cols : list (list F)),
           length Q <= m /\
           evaluate O0 n ceb ldeb offset rou num_main tmain taux ppolys exemptions tcoef main_groups aux_groups rands
             false lde_main lde_aux (fun (_ : nat) (v : F) => v) = Some evals /\
           composition_poly_new n (interp_fft O0 two_adicity itw offset) evals num_cols = Some cols /\
           (forall z : F, recombine O0 n (cp_evaluate_at O0 cols z) z = peval O0 Q z) /\
           (forall z : F,
            ~ In z (Stark.domain O0 (gtrace n rou) n) ->
            recombine O0 n (cp_evaluate_at O0 cols z) z =
            comp_def O0 n rou tmain taux ppolys exemptions tcoef main_groups aux_groups rands false tpolys apolys z).
Proof. exact @composition_is_definition_valid_main. Qed.
Print Assumptions C17_composition_is_definition.

Theorem C17_composition_is_definition_aux :
  forall (F : Type) (O0 : FOps F),
         FLaws O0 ->
         forall (n ceb ldeb r : nat) (offset : F) (rou : nat -> F) (wlde ginv : F),
         n <> 0 ->
         ceb <> 0 ->
         r <> 0 ->
         ldeb = ceb * r ->
         cpow O0 wlde (lde_size n ldeb) = fone O0 ->
         cpow O0 wlde r = wce n ceb rou ->
         cpow O0 wlde ldeb = gtrace n rou ->
         fmul O0 ginv (gtrace n rou) = fone O0 ->
         StarkPoly.primitive_root O0 (gtrace n rou) n ->
         forall (num_main : nat) (tmain : list F -> list F -> list F -> list F)
           (taux : list F -> list F -> list F -> list F -> list F -> list F -> list F) (ppolys : list (list F))
           (exemptions : nat) (tcoef : list F) (main_groups aux_groups : list BGroup) (rands : list F)
           (tpolys apolys lde_main lde_aux : list (list F)),
         (forall cur nxt pv : list F, length (tmain cur nxt pv) = num_main) ->
         exemptions <= n ->
         (forall p : list F, In p ppolys -> length p <> 0) ->
         (forall p : list F, In p ppolys -> length p * (n / length p) = n) ->
         (forall p : list F,
          In p ppolys -> exists q : nat, fold_left Nat.max (map (length (A:=F)) ppolys) 0 = length p * q) ->
         (forall p : list F, In p ppolys -> rou (length p * ceb) = cpow O0 (wce n ceb rou) (n / length p)) ->
         (forall gr : BGroup,
          In gr main_groups ->
          div_ok n ceb (bg_div gr) /\ (forall c : BC, In c (bg_cs gr) -> bc_ok O0 n ceb ginv tpolys c)) ->
         lde_rows_of O0 n ldeb offset wlde lde_main tpolys ->
         forall (two_adicity K : nat) (rouk : nat -> F) (itw : list F),
         ce_size n ceb = 2 ^ S K ->
         S K <= two_adicity ->
         rouk (S K) = wce n ceb rou ->
         FFTSpec.root_cond O0 (S K) (wce n ceb rou) ->
         FFT.get_inv_twiddles O0 two_adicity rouk (2 ^ S K) = Some itw ->
         offset <> fzero O0 ->
         fmul O0 (FFTSpec.two_pow_f O0 (S K)) (FFTOffset.n_inv O0 (S K)) = fone O0 ->
         (forall i : nat, i < ce_size n ceb -> ~ In (ce_x O0 n ceb offset rou i) (Stark.domain O0 (gtrace n rou) n)) ->
         forall num_cols m : nat,
         m <= ce_size n ceb ->
         m <= num_cols * n ->
         n < ce_size n ceb ->
         forall (N : list F) (Bm Rm Ba Ra : BGroup -> list F),
         (forall gr : BGroup, In gr main_groups -> forall z : F, peval O0 (Bm gr) z = group_numer O0 tpolys gr z) ->
         (forall gr : BGroup,
          In gr main_groups ->
          forall z : F, Stark.pprod O0 (Rm gr) z = fsub O0 (cpow O0 z (dv_a (bg_div gr))) (dv_b (bg_div gr))) ->
         (forall i : nat, i < n - exemptions -> peval O0 N (cpow O0 (gtrace n rou) i) = fzero O0) ->
         length N - (n - exemptions) <= m ->
         (forall gr : BGroup,
          In gr aux_groups ->
          div_ok n ceb (bg_div gr) /\ (forall c : BC, In c (bg_cs gr) -> bc_ok O0 n ceb ginv apolys c)) ->
         lde_rows_of O0 n ldeb offset wlde lde_aux apolys ->
         (forall gr : BGroup, In gr aux_groups -> forall z : F, peval O0 (Ba gr) z = group_numer O0 apolys gr z) ->
         (forall gr : BGroup,
          In gr aux_groups ->
          forall z : F, Stark.pprod O0 (Ra gr) z = fsub O0 (cpow O0 z (dv_a (bg_div gr))) (dv_b (bg_div gr))) ->
         (forall z : F,
          peval O0 N z =
          rsum O0
            (map (fun ca : F * F => fmul O0 (snd ca) (fst ca))
               (combine (def_constraints O0 n rou tmain taux ppolys rands true tpolys apolys z) tcoef))) ->
         Forall
           (fun br : list F * list F =>
            NoDup (snd br) /\
            incl (snd br) (Stark.domain O0 (gtrace n rou) n) /\
            (forall r0 : F, In r0 (snd br) -> peval O0 (fst br) r0 = fzero O0) /\
            length (fst br) - length (snd br) <= m) (bs_of main_groups aux_groups true Bm Rm Ba Ra) ->
         exists (Q evals : list F) (cols : list (list F)),
           length Q <= m /\
           evaluate O0 n ceb ldeb offset rou num_main tmain taux ppolys exemptions tcoef main_groups aux_groups rands
             true lde_main lde_aux (fun (_ : nat) (v : F) => v) = Some evals /\
           composition_poly_new n (interp_fft O0 two_adicity itw offset) evals num_cols = Some cols /\
           (forall z : F, recombine O0 n (cp_evaluate_at O0 cols z) z = peval O0 Q z) /\
           (forall z : F,
            ~ In z (Stark.domain O0 (gtrace n rou) n) ->
            recombine O0 n (cp_evaluate_at O0 cols z) z =
            comp_def O0 n rou tmain taux ppolys exemptions tcoef main_groups aux_groups rands true tpolys apolys z).
Proof. exact @composition_is_definition_valid_aux. Qed.
Print Assumptions C17_composition_is_definition_aux.

(* ---- hypothesis (2) of the capstone from C09: the matrix RowMatrix::evaluate_polys_over builds (C09_segments_spec), read
        row by row (`rows_of_matrix` = RowMatrix::row(r)), satisfies lde_rows_of.  (Stated separately; the capstone keeps
        lde_rows_of as a hypothesis on the rows given to the evaluator.) *)
Theorem C17_lde_rows_from_segments :
  forall {F} (O : FOps F) (L : FLaws O)
    (root_of_unity : nat -> F) (Nseg : nat) (polys : list (list F)) (tw : list F) (K b : nat) (wlde offset : F) (n ldeb : nat),
  n = 2 ^ S K -> ldeb = 2 ^ b ->
  0 < Nseg -> polys <> [] -> (forall p, In p polys -> length p = 2 ^ S K) -> length tw = 2 ^ K -> 0 < b ->
  root_of_unity (S K + b) = wlde -> FFTSpec.root_cond O (S K + b) wlde ->
  FFTEval.tw_ok O tw (S K) (FFT.fpow O wlde (2 ^ b)) ->
  exists M, FFT.evaluate_polys_over O root_of_unity Nseg polys tw offset (2 ^ b) = Some M /\
            lde_rows_of O n ldeb offset wlde (rows_of_matrix O M) polys.
Proof. intros F O L. exact (lde_rows_from_segments O L). Qed.
Print Assumptions C17_lde_rows_from_segments.

(* ---- the merge of auxiliary boundary groups into main groups with an equal divisor (prover BoundaryConstraints::new) is
        value-preserving: the prover's groups are the realisation (single / small / large lists of BOTH segments) of the
        abstract merged groups `ags`, and for every x the sum over the merged groups of (all main terms + all aux terms) times
        1/(x^a - b) equals the sum over ALL assertions of the main groups plus the sum over ALL assertions of the auxiliary
        groups — no matter which groups were merged.  (C17_table_row_spec uses exactly this; comp_def is per assertion.) *)
Theorem C17_group_merge_value_preserving :
  forall {F} (O : FOps F) (L : FLaws O) (n ceb : nat) (offset : F) (rou : nat -> F)
    (main_groups aux_groups : list BGroup) (tpolys apolys : list (list F)),
  prover_groups O n ceb offset rou main_groups aux_groups = map (realize O n ceb offset rou) (ags O main_groups aux_groups)
  /\ forall x : F,
     rsum O (map (fun ag => fmul O (ag_num O tpolys apolys x ag) (dfac O x (ag_div ag))) (ags O main_groups aux_groups))
     = fadd O (rsum O (map (fun g => fmul O (rsum O (map (bterm O tpolys x) (bg_cs g))) (dfac O x (bg_div g))) main_groups))
              (rsum O (map (fun g => fmul O (rsum O (map (bterm O apolys x) (bg_cs g))) (dfac O x (bg_div g))) aux_groups)).
Proof.
  intros F O L n ceb offset rou mg ag tp ap. split.
  - exact (prover_groups_realize O n ceb offset rou mg ag).
  - exact (ags_sum_spec O L mg ag tp ap).
Qed.
Print Assumptions C17_group_merge_value_preserving.

(* ---- Lagrange-kernel constraints.  Model: coq/Model/CompositionLagrange.v (prover/src/constraints/evaluator/
        lagrange.rs: s_precomputes, the flattened batch-inverted divisor vector with its slice index table,
        get_inverse_divisor_eval's `row % slice.len()`, the Lagrange frame read from the trace LDE, the boundary divisor
        inverses, the accumulation) on top of C16's air-level functions (coq/Model/EnforceLagrange.v).
        lag_def(x) = sum_{idx < v} coef_idx * (r[v-1-idx] * L(x) - (1 - r[v-1-idx]) * L(g^(2^(v-1-idx)) x)) / (x^(2^idx) - 1)
                     + (L(x) - prod_i (1 - r_i)) * cc_b / (x - 1)      (idx = k - 1; divisions by finv: x / 0 = 0, as in the code)
        THEOREM: the vector evaluate_constraints adds to the combined column is lag_def at EVERY point x_i = w_ce^i * offset of
        the ce domain; hypotheses: root-of-unity relations, the Lagrange column of the trace LDE holds the column polynomial on
        the LDE coset (C09), v coefficients / random elements, 2^idx divides |ce| for idx < v (n = 2^v). *)
Theorem C17_lagrange_row_spec :
  forall (F : Type) (O0 : FOps F),
         FLaws O0 ->
         forall (n ceb ldeb r' : nat) (offset : F) (rou : nat -> F) (wlde : F),
         n <> 0 ->
         ceb <> 0 ->
         r' <> 0 ->
         ldeb = ceb * r' ->
         cpow O0 wlde (lde_size n ldeb) = fone O0 ->
         cpow O0 wlde r' = wce n ceb rou ->
         cpow O0 wlde ldeb = gtrace n rou ->
         forall (v : nat) (Lp lde_lag : list F),
         length lde_lag = lde_size n ldeb ->
         (forall j : nat,
          j < lde_size n ldeb -> nth_error lde_lag j = Some (peval O0 Lp (fmul O0 (cpow O0 wlde j) offset))) ->
         forall (t : EnforceLagrange.LagTC) (rr : list F) (lb : F),
         length (EnforceLagrange.l_coef t) = v ->
         length rr = v ->
         length (EnforceLagrange.l_div t) = v ->
         v < 64 ->
         (forall idx : nat, idx < v -> 2 ^ idx * (ce_size n ceb / 2 ^ idx) = ce_size n ceb) ->
         lagrange_evaluate O0 n ceb ldeb offset rou v lde_lag t rr lb =
         Some (map (fun i : nat => lag_def O0 n rou v Lp t rr lb (ce_x O0 n ceb offset rou i)) (seq 0 (ce_size n ceb))).
Proof. exact @lagrange_evaluate_spec. Qed.
Print Assumptions C17_lagrange_row_spec.

(* the verifier's Lagrange section (evaluate_and_combine + boundary.evaluate_at on ANY frame c of v + 1 values, any x) is the
   same expression: with c = the OOD Lagrange frame L(z), L(gz), L(g^2 z), .. it is lag_def(z) *)
Theorem C17_verifier_lagrange_agrees :
  forall (F : Type) (O0 : FOps F),
         FLaws O0 ->
         forall n ceb ldeb r' : nat,
         n <> 0 ->
         ceb <> 0 ->
         r' <> 0 ->
         ldeb = ceb * r' ->
         forall (v : nat) (lde_lag : list F),
         length lde_lag = lde_size n ldeb ->
         forall (t : EnforceLagrange.LagTC) (rr : list F) (lb : F),
         length (EnforceLagrange.l_coef t) = v ->
         length rr = v ->
         length (EnforceLagrange.l_div t) = v ->
         (forall idx : nat,
          idx < v ->
          nth idx (EnforceLagrange.l_div t) {| Enforce.d_num := []; Enforce.d_ex := [] |} =
          {| Enforce.d_num := [((2 ^ Z.of_nat idx)%Z, fone O0)]; Enforce.d_ex := [] |}) ->
         v < 64 ->
         forall (c : list F) (x : F),
         length c = S v ->
         EnforceLagrange.lag_evaluate_and_combine O0 t c rr x =
         Some
           (rsum O0
              (map
                 (fun idx : nat =>
                  fmul O0 (lag_num O0 v t rr c idx) (finv O0 (fsub O0 (cpow O0 x (2 ^ idx)) (fone O0)))) 
                 (seq 0 v))) /\
         EnforceLagrange.lag_boundary_evaluate_at O0 rr c lb x =
         Some
           (fmul O0 (fmul O0 (fsub O0 (nth 0 c (fzero O0)) (EnforceLagrange.lag_assertion_value O0 rr)) lb)
              (finv O0 (fsub O0 x (fone O0)))).
Proof. exact @verifier_lagrange_agrees. Qed.
Print Assumptions C17_verifier_lagrange_agrees.

(* the table with the Lagrange terms: if evaluate (hook = identity) returns gf over the ce domain (C17_table_row_spec /
   C17_table_row_spec_single_segment: gf i = comp_def x_i), then evaluate with the hook of
   evaluate_lagrange_kernel_constraints (`acc[step] += lag[step]`, lag = map hf by C17_lagrange_row_spec: hf i = lag_def x_i)
   returns gf i + hf i at every index *)
Theorem C17_table_with_lagrange :
  forall (F : Type) (O0 : FOps F) (n ceb ldeb : nat) (offset : F) (rou : nat -> F) (num_main : nat)
           (tmain : list F -> list F -> list F -> list F)
           (taux : list F -> list F -> list F -> list F -> list F -> list F -> list F) (ppolys : list (list F))
           (exemptions : nat) (tcoef : list F) (main_groups aux_groups : list BGroup) (rands : list F) 
           (has_aux : bool) (lde_main lde_aux : list (list F)) (gf hf : nat -> F),
         evaluate O0 n ceb ldeb offset rou num_main tmain taux ppolys exemptions tcoef main_groups aux_groups rands
           has_aux lde_main lde_aux (fun (_ : nat) (v : F) => v) = Some (map gf (seq 0 (ce_size n ceb))) ->
         evaluate O0 n ceb ldeb offset rou num_main tmain taux ppolys exemptions tcoef main_groups aux_groups rands
           has_aux lde_main lde_aux (lagrange_acc_of O0 (map hf (seq 0 (ce_size n ceb)))) =
         Some (map (fun i : nat => fadd O0 (gf i) (hf i)) (seq 0 (ce_size n ceb))).
Proof. exact @evaluate_with_lagrange. Qed.
Print Assumptions C17_table_with_lagrange.

(* ---- the Lagrange-kernel terms are POLYNOMIALS.  For the kernel column polynomial Lp whose numerators vanish on
        their enforcement subgroups (hypothesis `numer_vanishes`: what C16_lagrange_honest_numerators_vanish proves, row by row,
        for the honest column; the translation of that Z-indexed row statement to this point statement is C01's, used in
        C17_lag_def_is_poly_honest below) and whose
        first cell is the asserted value: numerator_idx = (x^(2^idx) - 1) * q_idx as polynomials (via C01's vanish_divisible) *)
Theorem C17_lagrange_term_is_poly :
  forall (F : Type) (O0 : FOps F),
         FLaws O0 ->
         forall (n v : nat) (g : F),
         n = 2 ^ v ->
         StarkPoly.primitive_root O0 g n ->
         forall Lp rr : list F,
         length rr = v ->
         (forall idx j : nat,
          idx < v -> j < 2 ^ idx -> peval O0 (lag_numer_poly O0 v g Lp rr idx) (cpow O0 (hsub O0 v g idx) j) = fzero O0) ->
         forall idx : nat,
         idx < v ->
         exists q : list F,
           length q = length Lp - 2 ^ idx /\
           (forall x : F,
            peval O0 (lag_numer_poly O0 v g Lp rr idx) x =
            fmul O0 (fsub O0 (cpow O0 x (2 ^ idx)) (fone O0)) (peval O0 q x)).
Proof. exact @lagrange_term_is_poly. Qed.
Print Assumptions C17_lagrange_term_is_poly.

Theorem C17_lagrange_boundary_is_poly :
  forall (F : Type) (O0 : FOps F),
         FLaws O0 ->
         forall Lp rr : list F,
         peval O0 Lp (fone O0) = EnforceLagrange.lag_assertion_value O0 rr ->
         exists q : list F,
           length q = length Lp - 1 /\
           (forall x : F,
            fsub O0 (peval O0 Lp x) (EnforceLagrange.lag_assertion_value O0 rr) =
            fmul O0 (fsub O0 x (fone O0)) (peval O0 q x)).
Proof. exact @lagrange_boundary_is_poly. Qed.
Print Assumptions C17_lagrange_boundary_is_poly.

(* ... hence lag_def agrees with ONE coefficient list (at most |Lp| coefficients) wherever no Lagrange divisor vanishes *)
Theorem C17_lag_def_is_poly :
  forall (F : Type) (O0 : FOps F),
         FLaws O0 ->
         forall (n v : nat) (g : F),
         n = 2 ^ v ->
         StarkPoly.primitive_root O0 g n ->
         forall Lp rr : list F,
         length rr = v ->
         (forall idx j : nat,
          idx < v -> j < 2 ^ idx -> peval O0 (lag_numer_poly O0 v g Lp rr idx) (cpow O0 (hsub O0 v g idx) j) = fzero O0) ->
         peval O0 Lp (fone O0) = EnforceLagrange.lag_assertion_value O0 rr ->
         forall rou : nat -> F,
         g = gtrace n rou ->
         forall (t : EnforceLagrange.LagTC) (lb : F),
         exists Q : list F,
           length Q <= length Lp /\ (forall x : F, lag_good O0 v x -> lag_def O0 n rou v Lp t rr lb x = peval O0 Q x).
Proof. exact @lag_def_is_poly. Qed.
Print Assumptions C17_lag_def_is_poly.

(* capstone with the Lagrange terms, PARTIAL (compositional): given
     ev  = what evaluate returns with the Lagrange hook = cdef + ldef over the ce coset          (C17_table_with_lagrange),
     Qc  = a coefficient list for cdef = comp_def off the trace domain                          (comp_def_is_poly, C01; as in
                                                                                                  C17_composition_is_definition),
     Ql  = a coefficient list for ldef = lag_def off the Lagrange divisor zeros                 (C17_lag_def_is_poly),
     the interpolation round trip on the ce coset                                               (C09: interp_fft_roundtrip),
   CompositionPoly::new succeeds and the committed columns recombine to Qc + Ql at EVERY z and to comp_def(z) + lag_def(z)
   wherever both are defined.  The four premises are instantiated from their theorems in one statement, in the style of
   C17_composition_is_definition and with `numer_vanishes` derived for the honest column, in
   C17_composition_is_definition_lagrange below. *)
Theorem C17_composition_is_definition_lagrange_partial :
  forall (F : Type) (O0 : FOps F),
         FLaws O0 ->
         forall (n ceb : nat) (offset : F) (rou : nat -> F),
         n <> 0 ->
         forall interp : list F -> list F,
         (forall p : list F,
          length p = ce_size n ceb ->
          interp (map (fun i : nat => peval O0 p (ce_x O0 n ceb offset rou i)) (seq 0 (ce_size n ceb))) = p) ->
         forall num_cols : nat,
         n < ce_size n ceb ->
         forall (cdef ldef : F -> F) (goodc goodl : F -> Prop) (Qc Ql : list F) (ev : option (list F)),
         ev =
         Some
           (map (fun i : nat => fadd O0 (cdef (ce_x O0 n ceb offset rou i)) (ldef (ce_x O0 n ceb offset rou i)))
              (seq 0 (ce_size n ceb))) ->
         (forall z : F, goodc z -> peval O0 Qc z = cdef z) ->
         (forall z : F, goodl z -> peval O0 Ql z = ldef z) ->
         (forall i : nat, i < ce_size n ceb -> goodc (ce_x O0 n ceb offset rou i) /\ goodl (ce_x O0 n ceb offset rou i)) ->
         Nat.max (length Qc) (length Ql) <= ce_size n ceb ->
         Nat.max (length Qc) (length Ql) <= num_cols * n ->
         exists (evals : list F) (cols : list (list F)),
           ev = Some evals /\
           composition_poly_new n interp evals num_cols = Some cols /\
           (forall z : F, recombine O0 n (cp_evaluate_at O0 cols z) z = peval O0 (Stark.padd O0 Qc Ql) z) /\
           (forall z : F, goodc z -> goodl z -> recombine O0 n (cp_evaluate_at O0 cols z) z = fadd O0 (cdef z) (ldef z)).
Proof. exact @composition_is_definition_lagrange_partial. Qed.
Print Assumptions C17_composition_is_definition_lagrange_partial.

(* ---- extension fields.  `Emb OB OE emb mul_base`: emb is an injective ring homomorphism B -> E with
        mul_base x b = x * emb b.  Every MIXED operation of the pipeline (coq/Model/CompositionMixed.v: the places where the Rust
        code uses mul_base / E::from / polynom::eval::<B, E>) is the single-field operation over OE on the embedded base-field
        inputs, and what the prover computes in B before embedding (inverses, domain points, FFT-style evaluations, Horner
        values) commutes with emb.  So a C17 theorem instantiated at F := E (FLaws for the concrete extensions: C08) describes
        the mixed computation; C17_boundary_repr_equiv_ext is such a corollary, obtained from C17_boundary_repr_equiv.
        This theorem transports the mixed primitive operations only; the WHOLE evaluate()/evaluate_constraints (rows, groups,
        merge) over E != B and its equality with the single-field model on embedded inputs: C17_evaluate_mixed_embeds,
        C17_evaluate_mixed_full_embeds, C17_verifier_evaluate_constraints_mixed_embeds below. *)
Theorem C17_mixed_ops_are_embedded :
  forall (B E : Type) (OB : FOps B) (OE : FOps E),
         FLaws OB ->
         FLaws OE ->
         forall (emb : B -> E) (mul_base : E -> B -> E),
         Emb OB OE emb mul_base ->
         (forall b : B, emb (finv OB b) = finv OE (emb b)) /\
         (forall (p : list B) (x : B), emb (peval OB p x) = peval OE (map emb p) (emb x)) /\
         (forall (p : list B) (x : E), horner_mixed OE emb p x = horner OE (map emb p) x) /\
         (forall (rouB : nat -> B) (p : list B) (off : B) (blowup : nat),
          map emb (eval_poly_with_offset OB rouB p off blowup) =
          eval_poly_with_offset OE (fun m : nat => emb (rouB m)) (map emb p) (emb off) blowup) /\
         (forall (n ceb : nat) (offset : B) (rouB : nat -> B) (step : nat),
          emb (ce_x OB n ceb offset rouB step) = ce_x OE n ceb (emb offset) (fun m : nat => emb (rouB m)) step) /\
         (forall (evals : list B) (coefs : list E),
          lincomb_mixed OE mul_base evals coefs = lincomb OE (map emb evals) coefs) /\
         (forall (col : nat) (value : B) (cc : E) (state : list B),
          single_eval_mixed OB mul_base col value cc state =
          single_eval OE {| sc_col := col; sc_value := emb value; sc_cc := cc |} (map emb state)) /\
         (forall (col : nat) (poly : list B) (xoff : B) (cc : E) (state : list B) (x : B),
          small_eval_mixed OB mul_base col poly xoff cc state x =
          small_eval OE {| pc_col := col; pc_poly := map emb poly; pc_xoff := emb xoff; pc_cc := cc |} 
            (map emb state) (emb x)) /\
         (forall (col : nat) (values : list B) (so : nat) (cc : E) (state : list B) (step : nat),
          large_eval_mixed OB mul_base col values so cc state step =
          large_eval OE {| lc_col := col; lc_values := map emb values; lc_step_offset := so; lc_cc := cc |}
            (map emb state) step) /\
         (forall (acc value : E) (z e : B),
          acc_boundary_mixed OE mul_base acc value z = fadd OE acc (fmul OE value (emb z)) /\
          acc_transition_mixed OB OE mul_base acc value z e = fadd OE acc (fmul OE value (fmul OE (emb z) (emb e)))) /\
         (forall (col first : nat) (poly : list B) (xoff : B) (cc x tv : E),
          bc_evaluate_at_mixed OB OE emb poly xoff x tv =
          bc_evaluate_at OE
            {| bc_col := col; bc_poly := map emb poly; bc_first := first; bc_xoff := emb xoff; bc_cc := cc |} x tv) /\
         (forall (n : nat) (ppolys : list (list B)) (x : E),
          periodic_at_mixed OE emb n ppolys x = periodic_at OE n (map (map emb) ppolys) x).
Proof. exact @mixed_ops_are_embedded. Qed.
Print Assumptions C17_mixed_ops_are_embedded.

Theorem C17_boundary_repr_equiv_ext :
  forall (B E : Type) (OB : FOps B) (OE : FOps E),
         FLaws OB ->
         FLaws OE ->
         forall (emb : B -> E) (mul_base : E -> B -> E),
         Emb OB OE emb mul_base ->
         forall (n ceb : nat) (offset : B) (rouB : nat -> B),
         n <> 0 ->
         ceb <> 0 ->
         cpow OB (rouB (n * ceb)) (n * ceb) = fone OB ->
         cpow OB (rouB (n * ceb)) ceb = rouB n ->
         forall ginv : B,
         fmul OB ginv (rouB n) = fone OB ->
         forall (col first : nat) (poly : list B) (cc : E) (state : list B) (s : B),
         nth_error state col = Some s ->
         length poly <> 0 ->
         first < n ->
         length poly * (n * ceb / length poly) = n * ceb ->
         forall step : nat,
         step < n * ceb ->
         let xB := ce_x OB n ceb offset rouB step in
         let spec := Some (fmul OE cc (bc_evaluate_at_mixed OB OE emb poly (cpow OB ginv first) (emb xB) (emb s))) in
         small_eval_mixed OB mul_base col poly (cpow OB ginv first) cc state xB = spec /\
         large_eval_mixed OB mul_base col (eval_poly_with_offset OB rouB poly offset (n * ceb / length poly))
           (first * ceb) cc state step = spec /\
         (length poly = 1 -> single_eval_mixed OB mul_base col (nth 0 poly (fzero OB)) cc state = spec).
Proof. exact @boundary_repr_equiv_ext. Qed.
Print Assumptions C17_boundary_repr_equiv_ext.

(* the hypotheses hold for the quadratic and the cubic extension of f64 (C08), which are fields *)
Theorem C17_ext_f64_embeddings :
  Emb F64_ops (q_ops F64_ops (f64_x2 F64_ops)) (q_from_base F64_ops) (q_mul_base (f64_x2 F64_ops))
  /\ Emb F64_ops (c_ops F64_ops (f64_x3 F64_ops)) (c_from_base F64_ops) (c_mul_base (f64_x3 F64_ops))
  /\ FLaws (q_ops F64_ops (f64_x2 F64_ops)) /\ FLaws (c_ops F64_ops (f64_x3 F64_ops)).
Proof. exact (conj quad_f64_emb (conj cube_f64_emb (conj f64_quad_laws f64_cube_laws))). Qed.
Print Assumptions C17_ext_f64_embeddings.

(* ---- E != B for the WHOLE single-segment prover path.  coq/Model/CompositionMixedWhole.v `evaluate_mixed`:
        the periodic table, the domain points, the divisor inverses, the assertion polynomials / large-polynomial values, the
        trace LDE frames and the transition evaluations are BASE-field computations (the single-field functions over OB);
        coefficients and the table are extension-field values; they meet in mul_base.
        THEOREM: evaluate_mixed = the single-field evaluate over OE on the embedded inputs, for every Emb and every AIR whose
        transition evaluator commutes with the embedding. *)
Theorem C17_evaluate_mixed_embeds :
  forall (B E : Type) (OB : FOps B) (OE : FOps E),
         FLaws OB ->
         FLaws OE ->
         forall (emb : B -> E) (mul_base : E -> B -> E),
         Emb OB OE emb mul_base ->
         forall (n ceb ldeb : nat) (offset : B) (rou : nat -> B) (num_main : nat)
           (tmainB : list B -> list B -> list B -> list B) (tmainE : list E -> list E -> list E -> list E)
           (tauxE : list E -> list E -> list E -> list E -> list E -> list E -> list E),
         (forall cur nxt pv : list B, tmainE (map emb cur) (map emb nxt) (map emb pv) = map emb (tmainB cur nxt pv)) ->
         forall (ppolys : list (list B)) (exemptions : nat) (tcoef : list E) (groups : list BGm) 
           (rands : list E) (lde_main : list (list B)) (lde_aux : list (list E)),
         evaluate_mixed OB OE mul_base n ceb ldeb offset rou num_main tmainB ppolys exemptions tcoef groups lde_main =
         evaluate OE n ceb ldeb (emb offset) (fun m : nat => emb (rou m)) num_main tmainE tauxE 
           (map (map emb) ppolys) exemptions tcoef (map (embG emb) groups) [] rands false (map (map emb) lde_main)
           lde_aux (fun (_ : nat) (v : E) => v).
Proof. exact @evaluate_mixed_embeds. Qed.
Print Assumptions C17_evaluate_mixed_embeds.

(* table_row_spec for E != B: ALL hypotheses are about the base-field data (roots of unity, periodic columns, boundary
   constraints, trace LDE rows = trace polynomials on the LDE coset); conclusion: every value of the mixed evaluate() is
   comp_def over E with all base-field data embedded, at emb(x_i) *)
Theorem C17_table_row_spec_single_segment_ext :
  forall (B E : Type) (OB : FOps B) (OE : FOps E),
         FLaws OB ->
         FLaws OE ->
         forall (emb : B -> E) (mul_base : E -> B -> E),
         Emb OB OE emb mul_base ->
         forall (n ceb ldeb : nat) (offset : B) (rou : nat -> B) (num_main : nat)
           (tmainB : list B -> list B -> list B -> list B) (tmainE : list E -> list E -> list E -> list E)
           (tauxE : list E -> list E -> list E -> list E -> list E -> list E -> list E),
         (forall cur nxt pv : list B, tmainE (map emb cur) (map emb nxt) (map emb pv) = map emb (tmainB cur nxt pv)) ->
         forall (ppolys : list (list B)) (exemptions : nat) (tcoef : list E) (groups : list BGm) 
           (rands : list E) (lde_main : list (list B)),
         list (list E) ->
         forall (r' : nat) (wlde ginv : B),
         n <> 0 ->
         ceb <> 0 ->
         r' <> 0 ->
         ldeb = ceb * r' ->
         cpow OB wlde (lde_size n ldeb) = fone OB ->
         cpow OB wlde r' = wce n ceb rou ->
         cpow OB wlde ldeb = gtrace n rou ->
         fmul OB ginv (gtrace n rou) = fone OB ->
         (forall cur nxt pv : list E, length (tmainE cur nxt pv) = num_main) ->
         exemptions <= n ->
         (forall p : list B, In p ppolys -> length p <> 0) ->
         (forall p : list B, In p ppolys -> length p * (n / length p) = n) ->
         (forall p : list B,
          In p ppolys -> exists q : nat, fold_left Nat.max (map (length (A:=B)) ppolys) 0 = length p * q) ->
         (forall p : list B, In p ppolys -> rou (length p * ceb) = cpow OB (wce n ceb rou) (n / length p)) ->
         forall (tpolys : list (list B)) (apolys : list (list E)),
         (forall g : BGm,
          In g groups ->
          (dv_ex (gm_div g) = [] /\
           dv_a (gm_div g) <> 0 /\ dv_a (gm_div g) * (ce_size n ceb / dv_a (gm_div g)) = ce_size n ceb) /\
          (forall c : BCm,
           In c (gm_cs g) ->
           m_col c < length tpolys /\
           length (m_poly c) <> 0 /\
           m_xoff c = cpow OB ginv (m_first c) /\
           m_first c < n /\ length (m_poly c) * (ce_size n ceb / length (m_poly c)) = ce_size n ceb)) ->
         lde_rows_of OB n ldeb offset wlde lde_main tpolys ->
         evaluate_mixed OB OE mul_base n ceb ldeb offset rou num_main tmainB ppolys exemptions tcoef groups lde_main =
         Some
           (map
              (fun i : nat =>
               comp_def OE n (fun m : nat => emb (rou m)) tmainE tauxE (map (map emb) ppolys) exemptions tcoef
                 (map (embG emb) groups) [] rands false (map (map emb) tpolys) apolys
                 (emb (ce_x OB n ceb offset rou i))) (seq 0 (ce_size n ceb))).
Proof. exact @table_row_spec_single_segment_ext. Qed.
Print Assumptions C17_table_row_spec_single_segment_ext.

(* the capstone for E != B (single segment): premises = those of the table theorem (base field) + the interpolation round
   trip over E (C09 at F := E) + a coefficient list for comp_def over E (C01 at F := E); conclusion: the mixed evaluate()
   and CompositionPoly::new over E succeed and the committed columns recombine to the definition with embedded data.
   Below: the multi-segment path (C17_evaluate_mixed_full_embeds, C17_composition_is_definition_aux_ext), the verifier's
   evaluate_constraints as a whole (C17_verifier_evaluate_constraints_ext), the two E-level premises instantiated from
   C09 / C01 (C17_composition_is_definition_ext_closed).  REMAINING for E != B: the Lagrange terms. *)
Theorem C17_composition_is_definition_ext :
  forall (B E : Type) (OB : FOps B) (OE : FOps E),
         FLaws OB ->
         FLaws OE ->
         forall (emb : B -> E) (mul_base : E -> B -> E),
         Emb OB OE emb mul_base ->
         forall (n ceb ldeb : nat) (offset : B) (rou : nat -> B) (num_main : nat)
           (tmainB : list B -> list B -> list B -> list B) (tmainE : list E -> list E -> list E -> list E)
           (tauxE : list E -> list E -> list E -> list E -> list E -> list E -> list E),
         (forall cur nxt pv : list B, tmainE (map emb cur) (map emb nxt) (map emb pv) = map emb (tmainB cur nxt pv)) ->
         forall (ppolys : list (list B)) (exemptions : nat) (tcoef : list E) (groups : list BGm) 
           (rands : list E) (lde_main : list (list B)),
         list (list E) ->
         forall (r' : nat) (wlde ginv : B),
         n <> 0 ->
         ceb <> 0 ->
         r' <> 0 ->
         ldeb = ceb * r' ->
         cpow OB wlde (lde_size n ldeb) = fone OB ->
         cpow OB wlde r' = wce n ceb rou ->
         cpow OB wlde ldeb = gtrace n rou ->
         fmul OB ginv (gtrace n rou) = fone OB ->
         (forall cur nxt pv : list E, length (tmainE cur nxt pv) = num_main) ->
         exemptions <= n ->
         (forall p : list B, In p ppolys -> length p <> 0) ->
         (forall p : list B, In p ppolys -> length p * (n / length p) = n) ->
         (forall p : list B,
          In p ppolys -> exists q : nat, fold_left Nat.max (map (length (A:=B)) ppolys) 0 = length p * q) ->
         (forall p : list B, In p ppolys -> rou (length p * ceb) = cpow OB (wce n ceb rou) (n / length p)) ->
         forall (tpolys : list (list B)) (apolys : list (list E)),
         (forall g : BGm,
          In g groups ->
          (dv_ex (gm_div g) = [] /\
           dv_a (gm_div g) <> 0 /\ dv_a (gm_div g) * (ce_size n ceb / dv_a (gm_div g)) = ce_size n ceb) /\
          (forall c : BCm,
           In c (gm_cs g) ->
           m_col c < length tpolys /\
           length (m_poly c) <> 0 /\
           m_xoff c = cpow OB ginv (m_first c) /\
           m_first c < n /\ length (m_poly c) * (ce_size n ceb / length (m_poly c)) = ce_size n ceb)) ->
         lde_rows_of OB n ldeb offset wlde lde_main tpolys ->
         forall interp : list E -> list E,
         (forall p : list E,
          length p = ce_size n ceb ->
          interp
            (map (fun i : nat => peval OE p (ce_x OE n ceb (emb offset) (fun m : nat => emb (rou m)) i))
               (seq 0 (ce_size n ceb))) = p) ->
         forall (good : E -> Prop) (q : list E) (num_cols : nat),
         (forall z : E,
          good z ->
          peval OE q z =
          comp_def OE n (fun m : nat => emb (rou m)) tmainE tauxE (map (map emb) ppolys) exemptions tcoef
            (map (embG emb) groups) [] rands false (map (map emb) tpolys) apolys z) ->
         (forall i : nat, i < ce_size n ceb -> good (ce_x OE n ceb (emb offset) (fun m : nat => emb (rou m)) i)) ->
         length q <= ce_size n ceb ->
         length q <= num_cols * n ->
         n < ce_size n ceb ->
         exists (evals : list E) (cols : list (list E)),
           evaluate_mixed OB OE mul_base n ceb ldeb offset rou num_main tmainB ppolys exemptions tcoef groups lde_main =
           Some evals /\
           composition_poly_new n interp evals num_cols = Some cols /\
           (forall z : E, recombine OE n (cp_evaluate_at OE cols z) z = peval OE q z) /\
           (forall z : E,
            good z ->
            recombine OE n (cp_evaluate_at OE cols z) z =
            comp_def OE n (fun m : nat => emb (rou m)) tmainE tauxE (map (map emb) ppolys) exemptions tcoef
              (map (embG emb) groups) [] rands false (map (map emb) tpolys) apolys z).
Proof. exact @composition_is_definition_ext. Qed.
Print Assumptions C17_composition_is_definition_ext.

(* instances: quadratic and cubic extension of f64 (C08) *)
Theorem C17_ext_f64_whole_pipeline :
  (forall n ceb ldeb offset rou num_main tmainB tmainE tauxE,
     (forall cur nxt pv, tmainE (map (q_from_base F64_ops) cur) (map (q_from_base F64_ops) nxt) (map (q_from_base F64_ops) pv)
                         = map (q_from_base F64_ops) (tmainB cur nxt pv)) ->
     forall ppolys exemptions tcoef groups rands lde_main lde_aux,
     evaluate_mixed F64_ops (q_ops F64_ops (f64_x2 F64_ops)) (q_mul_base (f64_x2 F64_ops)) n ceb ldeb offset rou num_main tmainB
                    ppolys exemptions tcoef groups lde_main
     = evaluate (q_ops F64_ops (f64_x2 F64_ops)) n ceb ldeb (q_from_base F64_ops offset) (fun m => q_from_base F64_ops (rou m))
                num_main tmainE tauxE (map (map (q_from_base F64_ops)) ppolys) exemptions tcoef
                (map (embG (q_from_base F64_ops)) groups) [] rands false (map (map (q_from_base F64_ops)) lde_main) lde_aux
                (fun _ v => v))
  /\ (forall n ceb ldeb offset rou num_main tmainB tmainE tauxE,
     (forall cur nxt pv, tmainE (map (c_from_base F64_ops) cur) (map (c_from_base F64_ops) nxt) (map (c_from_base F64_ops) pv)
                         = map (c_from_base F64_ops) (tmainB cur nxt pv)) ->
     forall ppolys exemptions tcoef groups rands lde_main lde_aux,
     evaluate_mixed F64_ops (c_ops F64_ops (f64_x3 F64_ops)) (c_mul_base (f64_x3 F64_ops)) n ceb ldeb offset rou num_main tmainB
                    ppolys exemptions tcoef groups lde_main
     = evaluate (c_ops F64_ops (f64_x3 F64_ops)) n ceb ldeb (c_from_base F64_ops offset) (fun m => c_from_base F64_ops (rou m))
                num_main tmainE tauxE (map (map (c_from_base F64_ops)) ppolys) exemptions tcoef
                (map (embG (c_from_base F64_ops)) groups) [] rands false (map (map (c_from_base F64_ops)) lde_main) lde_aux
                (fun _ v => v)).
Proof.
  split; intros.
  - now apply quad_f64_evaluate_mixed_embeds.
  - now apply cube_f64_evaluate_mixed_embeds.
Qed.
Print Assumptions C17_ext_f64_whole_pipeline.

(* ---- the Lagrange polynomiality WITHOUT vanishing hypotheses, for the honest kernel column (C01's row-to-point
        translation, Proofs/StarkLagrangeRows.v = C01_lagrange_honest_numer_vanishes / C01_lagrange_honest_first_cell): premise
        Ql of C17_composition_is_definition_lagrange_partial. *)
Theorem C17_lag_def_is_poly_honest :
  forall (F : Type) (O0 : FOps F),
         FLaws O0 ->
         forall (n v : nat) (rou : nat -> F),
         n = 2 ^ v ->
         StarkPoly.primitive_root O0 (gtrace n rou) n ->
         forall Lp rr : list F,
         length rr = v ->
         (forall i : nat,
          i < n -> peval O0 Lp (cpow O0 (gtrace n rou) i) = nth i (StarkLagrangeRows.kernel_col O0 v rr) (fzero O0)) ->
         forall (t : EnforceLagrange.LagTC) (lb : F),
         exists Q : list F,
           length Q <= length Lp /\ (forall x : F, lag_good O0 v x -> lag_def O0 n rou v Lp t rr lb x = peval O0 Q x).
Proof. exact @lag_def_is_poly_honest. Qed.
Print Assumptions C17_lag_def_is_poly_honest.

(* ---- the Lagrange capstone as ONE closed statement (multi-segment path, honest kernel column).  Every premise of
        C17_composition_is_definition_lagrange_partial is instantiated from its theorem (table with the Lagrange hook;
        comp_def_is_poly via C01; lag_def_is_poly_honest via C01 + C16; interp_fft_roundtrip via C09).
        Conclusion: lagrange_evaluate and evaluate (with the hook `acc[step] += lag[step]`) succeed, CompositionPoly::new succeeds
        with C09's FFT interpolation, and the committed columns recombine to ONE coefficient list Q at EVERY z and to
        comp_def(z) + lag_def(z) at every z outside the trace domain and the Lagrange divisor zeros.
        REMAINING hypotheses, same kind as C17_composition_is_definition_aux: root-of-unity relations + odd characteristic; trace
        LDE rows (incl. the kernel column) = trace polynomials on the LDE coset; numerators of the ordinary constraints given as
        coefficient lists vanishing on the enforced steps (validity) with quotient lengths <= m; the kernel column polynomial
        interpolates the HONEST kernel column; |Lp|, m <= min(|ce|, num_cols * n); the ce coset avoids the trace domain and the
        Lagrange divisor zeros. *)
Theorem C17_composition_is_definition_lagrange :
  forall (F : Type) (O0 : FOps F),
         FLaws O0 ->
         forall (n ceb ldeb r : nat) (offset : F) (rou : nat -> F) (wlde ginv : F),
         n <> 0 ->
         ceb <> 0 ->
         r <> 0 ->
         ldeb = ceb * r ->
         cpow O0 wlde (lde_size n ldeb) = fone O0 ->
         cpow O0 wlde r = wce n ceb rou ->
         cpow O0 wlde ldeb = gtrace n rou ->
         fmul O0 ginv (gtrace n rou) = fone O0 ->
         StarkPoly.primitive_root O0 (gtrace n rou) n ->
         forall (num_main : nat) (tmain : list F -> list F -> list F -> list F)
           (taux : list F -> list F -> list F -> list F -> list F -> list F -> list F) (ppolys : list (list F))
           (exemptions : nat) (tcoef : list F) (main_groups aux_groups : list BGroup) (rands : list F)
           (tpolys apolys lde_main lde_aux : list (list F)),
         (forall cur nxt pv : list F, length (tmain cur nxt pv) = num_main) ->
         exemptions <= n ->
         (forall p : list F, In p ppolys -> length p <> 0) ->
         (forall p : list F, In p ppolys -> length p * (n / length p) = n) ->
         (forall p : list F,
          In p ppolys -> exists q : nat, fold_left Nat.max (map (length (A:=F)) ppolys) 0 = length p * q) ->
         (forall p : list F, In p ppolys -> rou (length p * ceb) = cpow O0 (wce n ceb rou) (n / length p)) ->
         (forall gr : BGroup,
          In gr main_groups ->
          div_ok n ceb (bg_div gr) /\ (forall c : BC, In c (bg_cs gr) -> bc_ok O0 n ceb ginv tpolys c)) ->
         lde_rows_of O0 n ldeb offset wlde lde_main tpolys ->
         forall (two_adicity K : nat) (rouk : nat -> F) (itw : list F),
         ce_size n ceb = 2 ^ S K ->
         S K <= two_adicity ->
         rouk (S K) = wce n ceb rou ->
         FFTSpec.root_cond O0 (S K) (wce n ceb rou) ->
         FFT.get_inv_twiddles O0 two_adicity rouk (2 ^ S K) = Some itw ->
         offset <> fzero O0 ->
         fmul O0 (FFTSpec.two_pow_f O0 (S K)) (FFTOffset.n_inv O0 (S K)) = fone O0 ->
         (forall i : nat, i < ce_size n ceb -> ~ In (ce_x O0 n ceb offset rou i) (Stark.domain O0 (gtrace n rou) n)) ->
         forall num_cols m : nat,
         m <= ce_size n ceb ->
         m <= num_cols * n ->
         n < ce_size n ceb ->
         forall (N : list F) (Bm Rm Ba Ra : BGroup -> list F),
         (forall gr : BGroup, In gr main_groups -> forall z : F, peval O0 (Bm gr) z = group_numer O0 tpolys gr z) ->
         (forall gr : BGroup,
          In gr main_groups ->
          forall z : F, Stark.pprod O0 (Rm gr) z = fsub O0 (cpow O0 z (dv_a (bg_div gr))) (dv_b (bg_div gr))) ->
         (forall i : nat, i < n - exemptions -> peval O0 N (cpow O0 (gtrace n rou) i) = fzero O0) ->
         length N - (n - exemptions) <= m ->
         (forall gr : BGroup,
          In gr aux_groups ->
          div_ok n ceb (bg_div gr) /\ (forall c : BC, In c (bg_cs gr) -> bc_ok O0 n ceb ginv apolys c)) ->
         lde_rows_of O0 n ldeb offset wlde lde_aux apolys ->
         (forall gr : BGroup, In gr aux_groups -> forall z : F, peval O0 (Ba gr) z = group_numer O0 apolys gr z) ->
         (forall gr : BGroup,
          In gr aux_groups ->
          forall z : F, Stark.pprod O0 (Ra gr) z = fsub O0 (cpow O0 z (dv_a (bg_div gr))) (dv_b (bg_div gr))) ->
         (forall z : F,
          peval O0 N z =
          rsum O0
            (map (fun ca : F * F => fmul O0 (snd ca) (fst ca))
               (combine (def_constraints O0 n rou tmain taux ppolys rands true tpolys apolys z) tcoef))) ->
         Forall
           (fun br : list F * list F =>
            NoDup (snd br) /\
            incl (snd br) (Stark.domain O0 (gtrace n rou) n) /\
            (forall r0 : F, In r0 (snd br) -> peval O0 (fst br) r0 = fzero O0) /\
            length (fst br) - length (snd br) <= m) (bs_of main_groups aux_groups true Bm Rm Ba Ra) ->
         forall v : nat,
         n = 2 ^ v ->
         forall (Lp lde_lag rr : list F) (t : EnforceLagrange.LagTC) (lb : F),
         length rr = v ->
         length (EnforceLagrange.l_coef t) = v ->
         length (EnforceLagrange.l_div t) = v ->
         v < 64 ->
         (forall i : nat,
          i < n -> peval O0 Lp (cpow O0 (gtrace n rou) i) = nth i (StarkLagrangeRows.kernel_col O0 v rr) (fzero O0)) ->
         length lde_lag = lde_size n ldeb ->
         (forall j : nat,
          j < lde_size n ldeb -> nth_error lde_lag j = Some (peval O0 Lp (fmul O0 (cpow O0 wlde j) offset))) ->
         length Lp <= ce_size n ceb ->
         length Lp <= num_cols * n ->
         (forall i : nat, i < ce_size n ceb -> lag_good O0 v (ce_x O0 n ceb offset rou i)) ->
         exists (lag Q evals : list F) (cols : list (list F)),
           lagrange_evaluate O0 n ceb ldeb offset rou v lde_lag t rr lb = Some lag /\
           evaluate O0 n ceb ldeb offset rou num_main tmain taux ppolys exemptions tcoef main_groups aux_groups rands
             true lde_main lde_aux (lagrange_acc_of O0 lag) = Some evals /\
           composition_poly_new n (interp_fft O0 two_adicity itw offset) evals num_cols = Some cols /\
           (forall z : F, recombine O0 n (cp_evaluate_at O0 cols z) z = peval O0 Q z) /\
           (forall z : F,
            ~ In z (Stark.domain O0 (gtrace n rou) n) ->
            lag_good O0 v z ->
            recombine O0 n (cp_evaluate_at O0 cols z) z =
            fadd O0
              (comp_def O0 n rou tmain taux ppolys exemptions tcoef main_groups aux_groups rands true tpolys apolys z)
              (lag_def O0 n rou v Lp t rr lb z)).
Proof.
  intros F O L n ceb ldeb r offset rou wlde ginv. intros.
  apply (composition_is_definition_lagrange O L n ceb ldeb r offset rou wlde ginv)
    with (K := K) (rouk := rouk) (m := m) (N := N) (Bm := Bm) (Rm := Rm) (Ba := Ba) (Ra := Ra);
    first [assumption | constructor; assumption].
Qed.
Print Assumptions C17_composition_is_definition_lagrange.

(* ---- the verifier's evaluate_constraints for E != B (coq/Model/CompositionMixedWhole.v evaluate_constraints_mixed:
        OOD frames and x in E; periodic polynomials, main value polynomials, all offsets and divisor constants in B, lifted by
        E::from / polynom::eval::<B, E>) is the single-field evaluate_constraints over OE on the embedded data ... *)
Theorem C17_verifier_evaluate_constraints_mixed_embeds :
  forall (B E : Type) (OB : FOps B) (OE : FOps E) (emb : B -> E) (mul_base : E -> B -> E),
         Emb OB OE emb mul_base ->
         forall (n : nat) (rou : nat -> B) (num_main num_aux : nat) (tmainE : list E -> list E -> list E -> list E)
           (tauxE : list E -> list E -> list E -> list E -> list E -> list E -> list E) (ppolys : list (list B))
           (exemptions : nat) (tcoef : list E) (main_groups : list BGm) (aux_groups : list BGa)
           (rands cur nxt : list E) (auxf : option (list E * list E)) (x : E),
         evaluate_constraints_mixed OB OE emb n rou num_main num_aux tmainE tauxE ppolys exemptions tcoef main_groups
           aux_groups rands cur nxt auxf x =
         evaluate_constraints OE n (fun m : nat => emb (rou m)) num_main tmainE tauxE num_aux 
           (map (map emb) ppolys) exemptions tcoef (map (embG emb) main_groups) (map (embGa emb) aux_groups) rands
           (fun _ : E => None) cur nxt auxf x.
Proof. exact @evaluate_constraints_mixed_embeds. Qed.
Print Assumptions C17_verifier_evaluate_constraints_mixed_embeds.

(* ... hence on the frame of the embedded trace polynomials at z it is comp_def over E with all base-field data embedded
   (from C17_verifier_eval_agrees at F := E) *)
Theorem C17_verifier_evaluate_constraints_ext :
  forall (B E : Type) (OB : FOps B) (OE : FOps E),
         FLaws OE ->
         forall (emb : B -> E) (mul_base : E -> B -> E),
         Emb OB OE emb mul_base ->
         forall (n : nat) (rou : nat -> B) (num_main num_aux : nat) (tmainE : list E -> list E -> list E -> list E)
           (tauxE : list E -> list E -> list E -> list E -> list E -> list E -> list E) (ppolys : list (list B))
           (exemptions : nat) (tcoef : list E) (main_groups : list BGm) (aux_groups : list BGa) 
           (rands : list E) (tpolys : list (list B)) (apolys : list (list E)),
         (forall g : BGm, In g main_groups -> dv_ex (gm_div g) = []) /\
         (forall g : BGa, In g aux_groups -> dv_ex (ga_div g) = []) ->
         (forall (g : BGm) (c : BCm), In g main_groups -> In c (gm_cs g) -> m_col c < length tpolys) ->
         (forall (g : BGa) (c : BCa), In g aux_groups -> In c (ga_cs g) -> a_col c < length apolys) ->
         (forall cur nxt pv : list E, length (tmainE cur nxt pv) = num_main) ->
         forall z : E,
         let tE := map (map emb) tpolys in
         evaluate_constraints_mixed OB OE emb n rou num_main num_aux tmainE tauxE ppolys exemptions tcoef main_groups
           aux_groups rands (def_cur OE tE z) (def_nxt OE n (fun m : nat => emb (rou m)) tE z)
           (Some (def_acur OE apolys z, def_anxt OE n (fun m : nat => emb (rou m)) apolys z)) z =
         Some
           (comp_def OE n (fun m : nat => emb (rou m)) tmainE tauxE (map (map emb) ppolys) exemptions tcoef
              (map (embG emb) main_groups) (map (embGa emb) aux_groups) rands true tE apolys z).
Proof. exact @verifier_evaluate_constraints_ext. Qed.
Print Assumptions C17_verifier_evaluate_constraints_ext.

(* ---- E != B for the MULTI-segment prover path.  coq/Model/CompositionMixedFull.v `evaluate_mixed_full`:
        evaluate_fragment_full + BoundaryConstraints::{new, evaluate_all} + combine with the main frame, periodic values, domain
        points, divisors and main transition evaluations in B; the auxiliary frame, auxiliary transition evaluations, auxiliary
        assertion polynomials, coefficients and the table in E; x and x_offset of auxiliary constraints in B through mul_base
        (horner_mb, eval_poly_with_offset_mb); auxiliary groups merged into main groups with `div_eqb` over B.
        THEOREM: it equals the single-field evaluate over OE on the embedded inputs (main groups via embG, auxiliary groups via
        embGa), for every Emb and every AIR whose evaluators commute with the embedding. *)
Theorem C17_evaluate_mixed_full_embeds :
  forall (B E : Type) (OB : FOps B) (OE : FOps E),
         FLaws OB ->
         FLaws OE ->
         forall (emb : B -> E) (mul_base : E -> B -> E),
         Emb OB OE emb mul_base ->
         forall (n ceb ldeb : nat) (offset : B) (rou : nat -> B) (num_main : nat)
           (tmainB : list B -> list B -> list B -> list B) (tmainE : list E -> list E -> list E -> list E)
           (tauxM : list B -> list B -> list E -> list E -> list B -> list E -> list E)
           (tauxE : list E -> list E -> list E -> list E -> list E -> list E -> list E),
         (forall cur nxt pv : list B, tmainE (map emb cur) (map emb nxt) (map emb pv) = map emb (tmainB cur nxt pv)) ->
         (forall (cur nxt : list B) (ac an : list E) (pv : list B) (rs : list E),
          tauxE (map emb cur) (map emb nxt) ac an (map emb pv) rs = tauxM cur nxt ac an pv rs) ->
         forall (ppolys : list (list B)) (exemptions : nat) (tcoef : list E) (main_groups : list BGm)
           (aux_groups : list BGa) (rands : list E) (lde_main : list (list B)) (lde_aux : list (list E)),
         evaluate_mixed_full OB OE mul_base n ceb ldeb offset rou num_main tmainB tauxM ppolys exemptions tcoef
           main_groups aux_groups rands lde_main lde_aux =
         evaluate OE n ceb ldeb (emb offset) (fun m : nat => emb (rou m)) num_main tmainE tauxE 
           (map (map emb) ppolys) exemptions tcoef (map (embG emb) main_groups) (map (embGa emb) aux_groups) rands true
           (map (map emb) lde_main) lde_aux (fun (_ : nat) (v : E) => v).
Proof. exact @evaluate_mixed_full_embeds. Qed.
Print Assumptions C17_evaluate_mixed_full_embeds.

(* table_row_spec for E != B, multi-segment: main-segment hypotheses on the base-field data, auxiliary segment in E *)
Theorem C17_table_row_spec_multi_segment_ext :
  forall (B E : Type) (OB : FOps B) (OE : FOps E),
         FLaws OB ->
         FLaws OE ->
         forall (emb : B -> E) (mul_base : E -> B -> E),
         Emb OB OE emb mul_base ->
         forall (n ceb ldeb : nat) (offset : B) (rou : nat -> B) (num_main : nat)
           (tmainB : list B -> list B -> list B -> list B) (tmainE : list E -> list E -> list E -> list E)
           (tauxM : list B -> list B -> list E -> list E -> list B -> list E -> list E)
           (tauxE : list E -> list E -> list E -> list E -> list E -> list E -> list E),
         (forall cur nxt pv : list B, tmainE (map emb cur) (map emb nxt) (map emb pv) = map emb (tmainB cur nxt pv)) ->
         (forall (cur nxt : list B) (ac an : list E) (pv : list B) (rs : list E),
          tauxE (map emb cur) (map emb nxt) ac an (map emb pv) rs = tauxM cur nxt ac an pv rs) ->
         forall (ppolys : list (list B)) (exemptions : nat) (tcoef : list E) (main_groups : list BGm)
           (aux_groups : list BGa) (rands : list E) (lde_main : list (list B)) (lde_aux : list (list E)) 
           (r' : nat) (wlde ginv : B),
         n <> 0 ->
         ceb <> 0 ->
         r' <> 0 ->
         ldeb = ceb * r' ->
         cpow OB wlde (lde_size n ldeb) = fone OB ->
         cpow OB wlde r' = wce n ceb rou ->
         cpow OB wlde ldeb = gtrace n rou ->
         fmul OB ginv (gtrace n rou) = fone OB ->
         (forall cur nxt pv : list E, length (tmainE cur nxt pv) = num_main) ->
         exemptions <= n ->
         (forall p : list B, In p ppolys -> length p <> 0) ->
         (forall p : list B, In p ppolys -> length p * (n / length p) = n) ->
         (forall p : list B,
          In p ppolys -> exists q : nat, fold_left Nat.max (map (length (A:=B)) ppolys) 0 = length p * q) ->
         (forall p : list B, In p ppolys -> rou (length p * ceb) = cpow OB (wce n ceb rou) (n / length p)) ->
         forall (tpolys : list (list B)) (apolys : list (list E)),
         (forall g : BGm,
          In g main_groups ->
          div_okB n ceb (gm_div g) /\
          (forall c : BCm,
           In c (gm_cs g) ->
           m_col c < length tpolys /\
           length (m_poly c) <> 0 /\
           m_xoff c = cpow OB ginv (m_first c) /\
           m_first c < n /\ length (m_poly c) * (ce_size n ceb / length (m_poly c)) = ce_size n ceb)) ->
         (forall g : BGa,
          In g aux_groups ->
          div_okB n ceb (ga_div g) /\
          (forall c : BCa,
           In c (ga_cs g) ->
           a_col c < length apolys /\
           length (a_poly c) <> 0 /\
           a_xoff c = cpow OB ginv (a_first c) /\
           a_first c < n /\ length (a_poly c) * (ce_size n ceb / length (a_poly c)) = ce_size n ceb)) ->
         lde_rows_of OB n ldeb offset wlde lde_main tpolys ->
         lde_rows_of OE n ldeb (emb offset) (emb wlde) lde_aux apolys ->
         evaluate_mixed_full OB OE mul_base n ceb ldeb offset rou num_main tmainB tauxM ppolys exemptions tcoef
           main_groups aux_groups rands lde_main lde_aux =
         Some
           (map
              (fun i : nat =>
               comp_def OE n (fun m : nat => emb (rou m)) tmainE tauxE (map (map emb) ppolys) exemptions tcoef
                 (map (embG emb) main_groups) (map (embGa emb) aux_groups) rands true (map (map emb) tpolys) apolys
                 (emb (ce_x OB n ceb offset rou i))) (seq 0 (ce_size n ceb))).
Proof.
  intros. apply table_row_spec_multi_segment_ext with (r' := r') (wlde := wlde) (ginv := ginv);
    first [assumption | constructor; assumption].
Qed.
Print Assumptions C17_table_row_spec_multi_segment_ext.

(* the capstone for E != B, multi-segment (premises: interpolation round trip over E, coefficient list for comp_def over E) *)
Theorem C17_composition_is_definition_aux_ext :
  forall (B E : Type) (OB : FOps B) (OE : FOps E),
         FLaws OB ->
         FLaws OE ->
         forall (emb : B -> E) (mul_base : E -> B -> E),
         Emb OB OE emb mul_base ->
         forall (n ceb ldeb : nat) (offset : B) (rou : nat -> B) (num_main : nat)
           (tmainB : list B -> list B -> list B -> list B) (tmainE : list E -> list E -> list E -> list E)
           (tauxM : list B -> list B -> list E -> list E -> list B -> list E -> list E)
           (tauxE : list E -> list E -> list E -> list E -> list E -> list E -> list E),
         (forall cur nxt pv : list B, tmainE (map emb cur) (map emb nxt) (map emb pv) = map emb (tmainB cur nxt pv)) ->
         (forall (cur nxt : list B) (ac an : list E) (pv : list B) (rs : list E),
          tauxE (map emb cur) (map emb nxt) ac an (map emb pv) rs = tauxM cur nxt ac an pv rs) ->
         forall (ppolys : list (list B)) (exemptions : nat) (tcoef : list E) (main_groups : list BGm)
           (aux_groups : list BGa) (rands : list E) (lde_main : list (list B)) (lde_aux : list (list E)) 
           (r' : nat) (wlde ginv : B),
         n <> 0 ->
         ceb <> 0 ->
         r' <> 0 ->
         ldeb = ceb * r' ->
         cpow OB wlde (lde_size n ldeb) = fone OB ->
         cpow OB wlde r' = wce n ceb rou ->
         cpow OB wlde ldeb = gtrace n rou ->
         fmul OB ginv (gtrace n rou) = fone OB ->
         (forall cur nxt pv : list E, length (tmainE cur nxt pv) = num_main) ->
         exemptions <= n ->
         (forall p : list B, In p ppolys -> length p <> 0) ->
         (forall p : list B, In p ppolys -> length p * (n / length p) = n) ->
         (forall p : list B,
          In p ppolys -> exists q : nat, fold_left Nat.max (map (length (A:=B)) ppolys) 0 = length p * q) ->
         (forall p : list B, In p ppolys -> rou (length p * ceb) = cpow OB (wce n ceb rou) (n / length p)) ->
         forall (tpolys : list (list B)) (apolys : list (list E)),
         (forall g : BGm,
          In g main_groups ->
          div_okB n ceb (gm_div g) /\
          (forall c : BCm,
           In c (gm_cs g) ->
           m_col c < length tpolys /\
           length (m_poly c) <> 0 /\
           m_xoff c = cpow OB ginv (m_first c) /\
           m_first c < n /\ length (m_poly c) * (ce_size n ceb / length (m_poly c)) = ce_size n ceb)) ->
         (forall g : BGa,
          In g aux_groups ->
          div_okB n ceb (ga_div g) /\
          (forall c : BCa,
           In c (ga_cs g) ->
           a_col c < length apolys /\
           length (a_poly c) <> 0 /\
           a_xoff c = cpow OB ginv (a_first c) /\
           a_first c < n /\ length (a_poly c) * (ce_size n ceb / length (a_poly c)) = ce_size n ceb)) ->
         lde_rows_of OB n ldeb offset wlde lde_main tpolys ->
         lde_rows_of OE n ldeb (emb offset) (emb wlde) lde_aux apolys ->
         forall interp : list E -> list E,
         (forall p : list E,
          length p = ce_size n ceb ->
          interp
            (map (fun i : nat => peval OE p (ce_x OE n ceb (emb offset) (fun m : nat => emb (rou m)) i))
               (seq 0 (ce_size n ceb))) = p) ->
         forall (good : E -> Prop) (q : list E) (num_cols : nat),
         (forall z : E,
          good z ->
          peval OE q z =
          comp_def OE n (fun m : nat => emb (rou m)) tmainE tauxE (map (map emb) ppolys) exemptions tcoef
            (map (embG emb) main_groups) (map (embGa emb) aux_groups) rands true (map (map emb) tpolys) apolys z) ->
         (forall i : nat, i < ce_size n ceb -> good (ce_x OE n ceb (emb offset) (fun m : nat => emb (rou m)) i)) ->
         length q <= ce_size n ceb ->
         length q <= num_cols * n ->
         n < ce_size n ceb ->
         exists (evals : list E) (cols : list (list E)),
           evaluate_mixed_full OB OE mul_base n ceb ldeb offset rou num_main tmainB tauxM ppolys exemptions tcoef
             main_groups aux_groups rands lde_main lde_aux = Some evals /\
           composition_poly_new n interp evals num_cols = Some cols /\
           (forall z : E, recombine OE n (cp_evaluate_at OE cols z) z = peval OE q z) /\
           (forall z : E,
            good z ->
            recombine OE n (cp_evaluate_at OE cols z) z =
            comp_def OE n (fun m : nat => emb (rou m)) tmainE tauxE (map (map emb) ppolys) exemptions tcoef
              (map (embG emb) main_groups) (map (embGa emb) aux_groups) rands true (map (map emb) tpolys) apolys z).
Proof.
  intros. apply composition_is_definition_aux_ext with (r' := r') (wlde := wlde) (ginv := ginv);
    first [assumption | constructor; assumption].
Qed.
Print Assumptions C17_composition_is_definition_aux_ext.

(* ---- the single-segment `_ext` capstone with BOTH extension-field premises instantiated (interpolation = C09's
        FFT model over E; polynomial form of comp_def over E from validity via C01 at F := E).  It is C17_composition_is_definition
        at F := E on the embedded data composed with C17_evaluate_mixed_embeds.  The hypotheses are statements over E about the
        EMBEDDED base-field data: the composition coefficients live in E, so the numerator polynomials and their vanishing are
        extension-field statements by nature; root-of-unity relations, periodic-column and boundary well-formedness are stated
        on `emb (rouB m)`, `map (map emb) ppolysB`, `map (embG emb) groupsB` (they follow from the base-field ones as in
        C17_table_row_spec_single_segment_ext; not re-derived in this statement). *)
Theorem C17_composition_is_definition_ext_closed :
  forall (B F : Type) (OB : FOps B) (O0 : FOps F),
         FLaws OB ->
         FLaws O0 ->
         forall (emb : B -> F) (mul_base : F -> B -> F),
         Emb OB O0 emb mul_base ->
         forall (offsetB : B) (rouB : nat -> B) (tmainB : list B -> list B -> list B -> list B)
           (tmain : list F -> list F -> list F -> list F),
         (forall cur nxt pv : list B, tmain (map emb cur) (map emb nxt) (map emb pv) = map emb (tmainB cur nxt pv)) ->
         forall (ppolysB : list (list B)) (groupsB : list BGm) (lde_mainB tpolysB : list (list B)) 
           (n ceb ldeb r : nat) (wlde ginv : F),
         n <> 0 ->
         ceb <> 0 ->
         r <> 0 ->
         ldeb = ceb * r ->
         cpow O0 wlde (lde_size n ldeb) = fone O0 ->
         cpow O0 wlde r = wce n ceb (fun m : nat => emb (rouB m)) ->
         cpow O0 wlde ldeb = gtrace n (fun m : nat => emb (rouB m)) ->
         fmul O0 ginv (gtrace n (fun m : nat => emb (rouB m))) = fone O0 ->
         StarkPoly.primitive_root O0 (gtrace n (fun m : nat => emb (rouB m))) n ->
         forall (num_main : nat) (taux : list F -> list F -> list F -> list F -> list F -> list F -> list F)
           (exemptions : nat) (tcoef rands : list F) (apolys : list (list F)),
         list (list F) ->
         (forall cur nxt pv : list F, length (tmain cur nxt pv) = num_main) ->
         exemptions <= n ->
         (forall p : list F, In p (map (map emb) ppolysB) -> length p <> 0) ->
         (forall p : list F, In p (map (map emb) ppolysB) -> length p * (n / length p) = n) ->
         (forall p : list F,
          In p (map (map emb) ppolysB) ->
          exists q : nat, fold_left Nat.max (map (length (A:=F)) (map (map emb) ppolysB)) 0 = length p * q) ->
         (forall p : list F,
          In p (map (map emb) ppolysB) ->
          emb (rouB (length p * ceb)) = cpow O0 (wce n ceb (fun m : nat => emb (rouB m))) (n / length p)) ->
         (forall gr : BGroup,
          In gr (map (embG emb) groupsB) ->
          div_ok n ceb (bg_div gr) /\ (forall c : BC, In c (bg_cs gr) -> bc_ok O0 n ceb ginv (map (map emb) tpolysB) c)) ->
         lde_rows_of O0 n ldeb (emb offsetB) wlde (map (map emb) lde_mainB) (map (map emb) tpolysB) ->
         forall (two_adicity K : nat) (rouk : nat -> F) (itw : list F),
         ce_size n ceb = 2 ^ S K ->
         S K <= two_adicity ->
         rouk (S K) = wce n ceb (fun m : nat => emb (rouB m)) ->
         FFTSpec.root_cond O0 (S K) (wce n ceb (fun m : nat => emb (rouB m))) ->
         FFT.get_inv_twiddles O0 two_adicity rouk (2 ^ S K) = Some itw ->
         emb offsetB <> fzero O0 ->
         fmul O0 (FFTSpec.two_pow_f O0 (S K)) (FFTOffset.n_inv O0 (S K)) = fone O0 ->
         (forall i : nat,
          i < ce_size n ceb ->
          ~
          In (ce_x O0 n ceb (emb offsetB) (fun m : nat => emb (rouB m)) i)
            (Stark.domain O0 (gtrace n (fun m : nat => emb (rouB m))) n)) ->
         forall num_cols m : nat,
         m <= ce_size n ceb ->
         m <= num_cols * n ->
         n < ce_size n ceb ->
         forall (N : list F) (Bm Rm Ba Ra : BGroup -> list F),
         (forall gr : BGroup,
          In gr (map (embG emb) groupsB) ->
          forall z : F, peval O0 (Bm gr) z = group_numer O0 (map (map emb) tpolysB) gr z) ->
         (forall gr : BGroup,
          In gr (map (embG emb) groupsB) ->
          forall z : F, Stark.pprod O0 (Rm gr) z = fsub O0 (cpow O0 z (dv_a (bg_div gr))) (dv_b (bg_div gr))) ->
         (forall i : nat,
          i < n - exemptions -> peval O0 N (cpow O0 (gtrace n (fun m0 : nat => emb (rouB m0))) i) = fzero O0) ->
         length N - (n - exemptions) <= m ->
         (forall z : F,
          peval O0 N z =
          rsum O0
            (map (fun ca : F * F => fmul O0 (snd ca) (fst ca))
               (combine
                  (def_constraints O0 n (fun m0 : nat => emb (rouB m0)) tmain taux (map (map emb) ppolysB) rands false
                     (map (map emb) tpolysB) apolys z) tcoef))) ->
         Forall
           (fun br : list F * list F =>
            NoDup (snd br) /\
            incl (snd br) (Stark.domain O0 (gtrace n (fun m0 : nat => emb (rouB m0))) n) /\
            (forall r0 : F, In r0 (snd br) -> peval O0 (fst br) r0 = fzero O0) /\
            length (fst br) - length (snd br) <= m) (bs_of (map (embG emb) groupsB) [] false Bm Rm Ba Ra) ->
         exists (Q evals : list F) (cols : list (list F)),
           length Q <= m /\
           evaluate_mixed OB O0 mul_base n ceb ldeb offsetB rouB num_main tmainB ppolysB exemptions tcoef groupsB
             lde_mainB = Some evals /\
           composition_poly_new n (interp_fft O0 two_adicity itw (emb offsetB)) evals num_cols = Some cols /\
           (forall z : F, recombine O0 n (cp_evaluate_at O0 cols z) z = peval O0 Q z) /\
           (forall z : F,
            ~ In z (Stark.domain O0 (gtrace n (fun m0 : nat => emb (rouB m0))) n) ->
            recombine O0 n (cp_evaluate_at O0 cols z) z =
            comp_def O0 n (fun m0 : nat => emb (rouB m0)) tmain taux (map (map emb) ppolysB) exemptions tcoef
              (map (embG emb) groupsB) [] rands false (map (map emb) tpolysB) apolys z).
Proof.
  intros B F OB O LB L emb mul_base H offsetB rouB tmainB tmain Htm ppolysB groupsB lde_mainB tpolysB n ceb ldeb r wlde ginv. intros.
  apply (composition_is_definition_ext_closed OB O LB L emb mul_base H offsetB rouB tmainB tmain Htm ppolysB groupsB lde_mainB
           tpolysB n ceb ldeb r wlde ginv)
    with (K := K) (rouk := rouk) (N := N) (Bm := Bm) (Rm := Rm) (Ba := Ba) (Ra := Ra);
    first [assumption | constructor; first [assumption | intros ? []]].
Qed.
Print Assumptions C17_composition_is_definition_ext_closed.

(* ---- non-vacuity: the theorems named by the Examples below, instantiated in the 64-bit field with ALL hypotheses discharged
        (Proofs/CompositionExamples.v).  Instance A: trace length 2, ce blowup 2, a periodic column, an auxiliary column,
        a single-value group at step 0, a two-value sequence group with first step 1, an auxiliary group sharing the first
        group's divisor.  Instance B (capstone): trace length 1, ce blowup 2, the empty AIR, interpolation over the two-point
        coset {7, -7} given explicitly and proved unique. *)
Example C17_periodic_row_spec_nonvacuous :
  exists t, ptable_new F64_ops 2 2 (e64 7) rouA ppolysA = Some t /\
    forall step, pt_get_row t step = Some (periodic_spec_row F64_ops 2 2 (e64 7) rouA ppolysA step).
Proof. exact periodic_row_spec_instance. Qed.

Example C17_boundary_repr_equiv_nonvacuous : forall step, step < 4 ->
  small_eval F64_ops (small_new cA) [e64 9] (ce_x F64_ops 2 2 (e64 7) rouA step)
    = bc_spec F64_ops cA (e64 9) (ce_x F64_ops 2 2 (e64 7) rouA step)
  /\ large_eval F64_ops (large_new F64_ops 2 2 (e64 7) rouA cA) [e64 9] step
    = bc_spec F64_ops cA (e64 9) (ce_x F64_ops 2 2 (e64 7) rouA step)
  /\ (length (bc_poly cA) = 1 -> single_eval F64_ops (single_new F64_ops cA) [e64 9]
    = bc_spec F64_ops cA (e64 9) (ce_x F64_ops 2 2 (e64 7) rouA step)).
Proof. exact boundary_repr_equiv_instance. Qed.

Example C17_table_row_spec_nonvacuous :
  evaluate F64_ops 2 2 2 (e64 7) rouA 1 tmainA tauxA ppolysA 1 [e64 11; e64 12] [gA; gA2] [gAaux] [] true
    (ldeA tpolysA) (ldeA apolysA) (fun _ v => v)
  = Some (map (fun i => comp_def F64_ops 2 rouA tmainA tauxA ppolysA 1 [e64 11; e64 12] [gA; gA2] [gAaux] [] true tpolysA apolysA
                          (ce_x F64_ops 2 2 (e64 7) rouA i)) (seq 0 (ce_size 2 2))).
Proof. exact table_row_spec_instance. Qed.

Example C17_verifier_eval_agrees_nonvacuous : forall z,
  evaluate_constraints F64_ops 2 rouA 1 tmainA tauxA 1 ppolysA 1 [e64 11; e64 12] [gA; gA2] [gAaux] [] (fun _ => None)
    (def_cur F64_ops tpolysA z) (def_nxt F64_ops 2 rouA tpolysA z)
    (Some (def_acur F64_ops apolysA z, def_anxt F64_ops 2 rouA apolysA z)) z
  = Some (comp_def F64_ops 2 rouA tmainA tauxA ppolysA 1 [e64 11; e64 12] [gA; gA2] [gAaux] [] true tpolysA apolysA z).
Proof. exact verifier_eval_agrees_instance. Qed.

Example C17_composition_is_definition_partial_nonvacuous :
  exists evals cols,
    evaluate F64_ops 1 2 2 (e64 7) rouB 0 (fun _ _ _ => []) (fun _ _ _ _ _ _ => []) [] 1 [] [] [] [] true
             (map (fun _ => []) (seq 0 2)) (map (fun _ => []) (seq 0 2)) (fun _ v => v) = Some evals
    /\ composition_poly_new 1 interpB evals 1 = Some cols
    /\ (forall z, recombine F64_ops 1 (cp_evaluate_at F64_ops cols z) z = peval F64_ops [] z)
    /\ (forall z, True -> recombine F64_ops 1 (cp_evaluate_at F64_ops cols z) z
          = comp_def F64_ops 1 rouB (fun _ _ _ => []) (fun _ _ _ _ _ _ => []) [] 1 [] [] [] [] true [] [] z).
Proof. exact composition_is_definition_partial_instance. Qed.

Example C17_column_split_recombine_nonvacuous :
  exists cols, segment [e64 1; e64 2; e64 3; e64 4; e64 5] 2 3 = Some cols /\
    forall z, recombine F64_ops 2 (cp_evaluate_at F64_ops cols z) z = peval F64_ops [e64 1; e64 2; e64 3; e64 4; e64 5] z.
Proof.
  eexists. split; [reflexivity|]. intros z.
  apply (C17_column_split_recombine F64_ops F64_laws 2 ltac:(discriminate) 3); [simpl; auto with arith | reflexivity].
Qed.

Example C17_table_row_spec_single_segment_nonvacuous :
  evaluate F64_ops 2 2 2 (e64 7) rouA 1 tmainA tauxA ppolysA 1 [e64 11] [gA; gA2] [] [] false (ldeA tpolysA) [] (fun _ v => v)
  = Some (map (fun i => comp_def F64_ops 2 rouA tmainA tauxA ppolysA 1 [e64 11] [gA; gA2] [] [] false tpolysA []
                          (ce_x F64_ops 2 2 (e64 7) rouA i)) (seq 0 (ce_size 2 2))).
Proof. exact table_row_spec_single_segment_instance. Qed.

(* all hypotheses of C17_composition_is_definition hold together (FFT model's inverse twiddles, root conditions, odd
   characteristic, primitive root, coset disjoint from the trace domain) — on the empty AIR over a trace of length 1 *)
Example C17_composition_is_definition_nonvacuous :
  exists itw, FFT.get_inv_twiddles F64_ops 32 (fun _ => m1) (2 ^ 1) = Some itw /\
  exists Q evals cols,
    length Q <= 0
    /\ evaluate F64_ops 1 2 2 (e64 7) rouB 0 (fun _ _ _ => []) (fun _ _ _ _ _ _ => []) [] 1 [] [] [] [] false
                (map (fun _ => []) (seq 0 2)) [] (fun _ v => v) = Some evals
    /\ composition_poly_new 1 (interp_fft F64_ops 32 itw (e64 7)) evals 1 = Some cols
    /\ (forall z, recombine F64_ops 1 (cp_evaluate_at F64_ops cols z) z = peval F64_ops Q z)
    /\ (forall z, ~ In z (Stark.domain F64_ops (gtrace 1 rouB) 1) -> recombine F64_ops 1 (cp_evaluate_at F64_ops cols z) z
          = comp_def F64_ops 1 rouB (fun _ _ _ => []) (fun _ _ _ _ _ _ => []) [] 1 [] [] [] [] false [] [] z).
Proof. exact composition_is_definition_instance. Qed.

Example C17_lagrange_row_spec_nonvacuous :
  lagrange_evaluate F64_ops 2 2 2 (e64 7) rouA 1 ldeLagA tLagA [e64 9] (e64 4)
  = Some (map (fun i => lag_def F64_ops 2 rouA 1 LpA tLagA [e64 9] (e64 4) (ce_x F64_ops 2 2 (e64 7) rouA i)) (seq 0 (ce_size 2 2))).
Proof. exact lagrange_evaluate_spec_instance. Qed.

Example C17_lag_def_is_poly_nonvacuous :
  exists Q, length Q <= length LpK /\ forall x, lag_good F64_ops 1 x ->
    lag_def F64_ops 2 rouA 1 LpK tLagA [r0L] (e64 4) x = peval F64_ops Q x.
Proof. exact lag_def_is_poly_instance. Qed.

Example C17_table_row_spec_single_segment_ext_nonvacuous :
  evaluate_mixed F64_ops OQ (q_mul_base (f64_x2 F64_ops)) 2 2 2 (e64 7) rouA 1 tmainA ppolysA 1 [(e64 11, e64 3)] [gmA; gmA2] (ldeA tpolysA)
  = Some (map (fun i => comp_def OQ 2 (fun m => embQ (rouA m)) tmainQ (fun _ _ _ _ _ _ => []) (map (map embQ) ppolysA) 1 [(e64 11, e64 3)]
                                 (map (embG embQ) [gmA; gmA2]) [] [] false (map (map embQ) tpolysA) []
                                 (embQ (ce_x F64_ops 2 2 (e64 7) rouA i))) (seq 0 (ce_size 2 2))).
Proof. exact table_row_spec_single_segment_ext_instance. Qed.
