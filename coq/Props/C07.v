(* C07 — base fields: arithmetic equals integer arithmetic modulo the prime.
   Only statements, `exact` of lemmas proved in Proofs/, and Print Assumptions. *)
From VBase Require Import MachInt.
From VGen Require Import F64.
From VBase Require Import ZpOps.
From VProofs Require Import F64Red F64Ops F64Exp F64Consts F64Inv NumTheoryPrime.
Open Scope Z_scope.

(* f64: Montgomery reduction, generated from math/src/field/f64/mod.rs *)
Theorem C07_f64_mont_red : forall x, 0 <= x < 2^64 * M ->
  0 <= f64_mont_red_cst x < M /\ (f64_mont_red_cst x * 2^64) mod M = x mod M.
Proof. exact mont_red_cst_spec. Qed.
Print Assumptions C07_f64_mont_red.

Theorem C07_f64_mul : forall a b, repr a -> repr b ->
  repr (f64_mul a b) /\ val (f64_mul a b) = (val a * val b) mod M.
Proof. exact f64_mul_spec. Qed.
Print Assumptions C07_f64_mul.

Theorem C07_f64_new : forall v, 0 <= v < 2^64 -> repr (f64_new v) /\ val (f64_new v) = v mod M.
Proof. exact f64_new_spec. Qed.
Print Assumptions C07_f64_new.

Theorem C07_f64_as_int : forall x, 0 <= x < 2^64 -> f64_as_int x = val x.
Proof. exact f64_as_int_spec. Qed.
Print Assumptions C07_f64_as_int.

Theorem C07_f64_add : forall a b, repr a -> repr b -> f64_add a b = (a + b) mod M.
Proof. exact f64_add_eq. Qed.
Print Assumptions C07_f64_add.

Theorem C07_f64_sub : forall a b, repr a -> repr b -> f64_sub a b = (a - b) mod M.
Proof. exact f64_sub_eq. Qed.
Print Assumptions C07_f64_sub.

Theorem C07_f64_neg : forall a, repr a -> f64_neg a = (- a) mod M.
Proof. exact f64_neg_eq. Qed.
Print Assumptions C07_f64_neg.

Theorem C07_f64_double : forall a, repr a -> f64_double a = (2 * a) mod M.
Proof. exact f64_double_eq. Qed.
Print Assumptions C07_f64_double.

Theorem C07_f64_mul_small : forall a r, repr a -> 0 <= r < 2^32 ->
  repr (f64_mul_small a r) /\ f64_mul_small a r = (a * r) mod M.
Proof. exact f64_mul_small_spec. Qed.
Print Assumptions C07_f64_mul_small.

Theorem C07_f64_eq : forall a b, 0 <= a < 2^64 -> 0 <= b < 2^64 -> f64_eq a b = (a =? b).
Proof. exact f64_eq_spec. Qed.
Print Assumptions C07_f64_eq.

Theorem C07_f64_val_inj : forall a b, repr a -> repr b -> val a = val b -> a = b.
Proof. exact val_inj. Qed.
Print Assumptions C07_f64_val_inj.

(* exponentiation / inversion / division: is_pow a r e := repr r /\ val r = (val a)^e mod M *)
Theorem C07_f64_exp : forall a p, repr a -> 0 <= p < 2^64 ->
  repr (f64_exp a p) /\ val (f64_exp a p) = (val a ^ p) mod M.
Proof. exact f64_exp_spec. Qed.
Print Assumptions C07_f64_exp.

(* inv is x^(M-2) (with Fermat's little theorem and primality of M -- Proofs/NumTheory* -- this is the
   multiplicative inverse; zero maps to zero) *)
Theorem C07_f64_inv_pow : forall a, repr a ->
  repr (f64_inv a) /\ val (f64_inv a) = (val a ^ (M - 2)) mod M.
Proof. exact f64_inv_pow. Qed.
Print Assumptions C07_f64_inv_pow.

Theorem C07_f64_inv_zero : f64_inv 0 = 0.
Proof. exact f64_inv_zero. Qed.
Print Assumptions C07_f64_inv_zero.

Theorem C07_f64_div : forall a b, repr a -> repr b ->
  repr (f64_div a b) /\ val (f64_div a b) = (val a * (val b ^ (M - 2) mod M)) mod M.
Proof. exact f64_div_spec. Qed.
Print Assumptions C07_f64_div.

(* constants *)
Theorem C07_f64_generator : val f64_GENERATOR = 7 /\ zpow_mod M 7 (M - 1) = 1 /\
  forallb (fun q => negb (zpow_mod M 7 ((M - 1) / q) =? 1)) [2; 3; 5; 17; 257; 65537] = true /\
  M - 1 = 2^32 * 3 * 5 * 17 * 257 * 65537.
Proof. exact (conj f64_generator_val (conj (proj1 f64_generator_order) (conj (proj2 f64_generator_order) f64_Mm1_factored))). Qed.
Print Assumptions C07_f64_generator.

Theorem C07_f64_two_adicity : f64_TWO_ADICITY = 32 /\ (M - 1) mod 2^32 = 0 /\ Z.odd ((M - 1) / 2^32) = true.
Proof. exact f64_two_adicity. Qed.
Print Assumptions C07_f64_two_adicity.

Theorem C07_f64_root_of_unity : val f64_TWO_ADIC_ROOT_OF_UNITY = 7277203076849721926 /\
  zpow_mod M 7277203076849721926 (2^32) = 1 /\ zpow_mod M 7277203076849721926 (2^31) = M - 1.
Proof. exact (conj (proj1 f64_root_def) f64_root_order). Qed.
Print Assumptions C07_f64_root_of_unity.

(* the three moduli are prime (Lucas/Pocklington certificates checked by vm_compute; Proofs/NumTheoryPrime.v) *)
Theorem C07_moduli_prime : Znumtheory.prime P64 /\ Znumtheory.prime P62 /\ Znumtheory.prime P128.
Proof. exact (conj P64_prime (conj P62_prime P128_prime)). Qed.
Print Assumptions C07_moduli_prime.

Theorem C07_f64_inv : forall a, repr a -> val a <> 0 ->
  repr (f64_inv a) /\ (val (f64_inv a) * val a) mod M = 1.
Proof. exact f64_inv_spec. Qed.
Print Assumptions C07_f64_inv.

Theorem C07_f64_div_mul : forall a b, repr a -> repr b -> val b <> 0 ->
  (val (f64_div a b) * val b) mod M = val a.
Proof. exact f64_div_mul. Qed.
Print Assumptions C07_f64_div_mul.

(* ---- trait defaults of math/src/field/traits.rs instantiated for f64 ---- *)
From VProofs Require Import F64ExpVartime.
From VProofs Require FieldRoots FieldBytesSpec.
From VModel Require Import FieldBytes.

(* exp_vartime: the generic variable-time loop (f64 overrides `exp` with a constant-time one) *)
Theorem C07_f64_exp_vartime_sound : forall fuel a p r, repr a -> 0 <= p < 2^64 ->
  f64_exp_vartime fuel a p = Some r -> repr r /\ val r = (val a ^ p) mod M.
Proof. exact f64_exp_vartime_sound. Qed.
Print Assumptions C07_f64_exp_vartime_sound.

Theorem C07_f64_exp_vartime_terminates : forall a p, 0 <= p < 2^64 ->
  exists r, f64_exp_vartime 66 a p = Some r.
Proof. exact f64_exp_vartime_terminates. Qed.
Print Assumptions C07_f64_exp_vartime_terminates.

Theorem C07_f64_exp_vartime_agrees : forall fuel a p r, repr a -> 0 <= p < 2^64 ->
  f64_exp_vartime fuel a p = Some r -> r = f64_exp a p.
Proof. exact f64_exp_vartime_agrees. Qed.
Print Assumptions C07_f64_exp_vartime_agrees.

(* get_root_of_unity(n): order exactly 2^n for 1 <= n <= TWO_ADICITY = 32; the asserts (and the
   shift-amount check) hold exactly for those n *)
Theorem C07_f64_get_root_of_unity : forall n, 1 <= n <= 32 ->
  let w := f64_get_root_of_unity n in
  repr w /\ val w = FieldRoots.R64.g64 ^ 2 ^ (32 - n) mod M /\
  val w ^ 2 ^ n mod M = 1 /\ val w ^ 2 ^ (n - 1) mod M = M - 1 /\
  forall k, 0 < k < 2 ^ n -> val w ^ k mod M <> 1.
Proof. exact FieldRoots.R64.f64_get_root_of_unity_spec. Qed.
Print Assumptions C07_f64_get_root_of_unity.

Theorem C07_f64_get_root_of_unity_ok : forall n, 0 <= n < 2^32 ->
  f64_get_root_of_unity_ok n = andb (1 <=? n) (n <=? 32).
Proof. exact FieldRoots.R64.f64_get_root_of_unity_ok_spec. Qed.
Print Assumptions C07_f64_get_root_of_unity_ok.

(* from_bytes_with_padding (hand model Model/FieldBytes.v over byte lists): a slice shorter than
   ELEMENT_BYTES = 8 always converts, to new(little-endian value); the value is below 256^7 <= M so
   the inner try_from cannot fail; longer slices hit the assert *)
Theorem C07_f64_from_bytes_with_padding : forall bs, (length bs < 8)%nat -> Forall FieldBytesSpec.byte bs ->
  f64_from_bytes_with_padding bs = FbOk (f64_new (of_le_bytes bs)) /\
  0 <= of_le_bytes bs < 256 ^ (8 - 1) /\
  repr (f64_new (of_le_bytes bs)) /\ val (f64_new (of_le_bytes bs)) = of_le_bytes bs.
Proof. exact FieldBytesSpec.f64_from_bytes_with_padding_spec. Qed.
Print Assumptions C07_f64_from_bytes_with_padding.

Theorem C07_f64_from_bytes_with_padding_long : forall bs, (8 <= length bs)%nat ->
  f64_from_bytes_with_padding bs = FbAssertLen.
Proof. exact FieldBytesSpec.f64_from_bytes_with_padding_long. Qed.
Print Assumptions C07_f64_from_bytes_with_padding_long.

Theorem C07_from_bytes_with_padding_never_deser_failed : forall bs, Forall FieldBytesSpec.byte bs ->
  f64_from_bytes_with_padding bs <> FbDeserFailed /\
  f62_from_bytes_with_padding bs <> FbDeserFailed /\
  f128_from_bytes_with_padding bs <> FbDeserFailed.
Proof. exact FieldBytesSpec.from_bytes_with_padding_never_deser_failed. Qed.
Print Assumptions C07_from_bytes_with_padding_never_deser_failed.

Theorem C07_moduli_above_padding :
  256 ^ (8 - 1) <= M /\ 256 ^ (8 - 1) <= F62Ops.M62 /\ 256 ^ (16 - 1) <= F128Limbs.M.
Proof. exact FieldBytesSpec.moduli_above_padding. Qed.
Print Assumptions C07_moduli_above_padding.

(* ---- conversions to and from integers / bool, conjugate, compound assignments,
        base_element (generated terms), raw byte views (Model/FieldBytes.v) for f64 ---- *)
From VProofs Require FieldConvSpec.

Theorem C07_f64_from_u8 : forall x, 0 <= x < 2^8 ->
  repr (f64_from_u8 x) /\ val (f64_from_u8 x) = x /\ f64_from_u8_ok x = true.
Proof. exact FieldConvSpec.C64.f64_from_u8_spec. Qed.
Print Assumptions C07_f64_from_u8.

Theorem C07_f64_from_u16 : forall x, 0 <= x < 2^16 ->
  repr (f64_from_u16 x) /\ val (f64_from_u16 x) = x /\ f64_from_u16_ok x = true.
Proof. exact FieldConvSpec.C64.f64_from_u16_spec. Qed.
Print Assumptions C07_f64_from_u16.

Theorem C07_f64_from_u32 : forall x, 0 <= x < 2^32 ->
  repr (f64_from_u32 x) /\ val (f64_from_u32 x) = x /\ f64_from_u32_ok x = true.
Proof. exact FieldConvSpec.C64.f64_from_u32_spec. Qed.
Print Assumptions C07_f64_from_u32.

Theorem C07_f64_from_bool : forall b,
  repr (f64_from_bool b) /\ val (f64_from_bool b) = b2z b /\ f64_from_bool_ok b = true.
Proof. exact FieldConvSpec.C64.f64_from_bool_spec. Qed.
Print Assumptions C07_f64_from_bool.

Theorem C07_f64_try_from_u64 : forall v, 0 <= v < 2^64 ->
  f64_try_from_u64 v = (if v <? M then Some (f64_new v) else None) /\
  (v < M -> repr (f64_new v) /\ val (f64_new v) = v) /\ f64_try_from_u64_ok v = true.
Proof. exact FieldConvSpec.C64.f64_try_from_u64_spec. Qed.
Print Assumptions C07_f64_try_from_u64.

Theorem C07_f64_try_from_usize : forall v, 0 <= v ->
  f64_try_from_usize v = if v <? M then Some (f64_new v) else None.
Proof. exact FieldConvSpec.C64.f64_try_from_usize_spec. Qed.
Print Assumptions C07_f64_try_from_usize.

(* back to integers: Ok (val e) exactly when val e < 2^N, otherwise Err -- never truncated *)
Theorem C07_f64_to_u8 : forall e, repr e -> f64_to_u8 e = if val e <? 2^8 then Some (val e) else None.
Proof. exact FieldConvSpec.C64.f64_to_u8_spec. Qed.
Print Assumptions C07_f64_to_u8.

Theorem C07_f64_to_u16 : forall e, repr e -> f64_to_u16 e = if val e <? 2^16 then Some (val e) else None.
Proof. exact FieldConvSpec.C64.f64_to_u16_spec. Qed.
Print Assumptions C07_f64_to_u16.

Theorem C07_f64_to_u32 : forall e, repr e -> f64_to_u32 e = if val e <? 2^32 then Some (val e) else None.
Proof. exact FieldConvSpec.C64.f64_to_u32_spec. Qed.
Print Assumptions C07_f64_to_u32.

Theorem C07_f64_to_bool : forall e, repr e ->
  f64_to_bool e = if val e =? 0 then Some false else if val e =? 1 then Some true else None.
Proof. exact FieldConvSpec.C64.f64_to_bool_spec. Qed.
Print Assumptions C07_f64_to_bool.

Theorem C07_f64_to_u64_u128 : forall e, repr e ->
  f64_to_u64 e = val e /\ f64_to_u128 e = val e /\ 0 <= val e < M.
Proof. exact FieldConvSpec.C64.f64_to_u64_spec. Qed.
Print Assumptions C07_f64_to_u64_u128.

Theorem C07_f64_sf_as_int : forall e, f64_sf_as_int e = f64_as_int e.
Proof. exact FieldConvSpec.C64.f64_sf_as_int_spec. Qed.
Print Assumptions C07_f64_sf_as_int.

Theorem C07_f64_conjugate : forall e, f64_conjugate e = e.
Proof. exact FieldConvSpec.C64.f64_conjugate_spec. Qed.
Print Assumptions C07_f64_conjugate.

Theorem C07_f64_assign : forall a b,
  f64_add_assign a b = f64_add a b /\ f64_sub_assign a b = f64_sub a b /\
  f64_mul_assign a b = f64_mul a b /\ f64_div_assign a b = f64_div a b.
Proof. exact FieldConvSpec.C64.f64_assign_spec. Qed.
Print Assumptions C07_f64_assign.

Theorem C07_f64_base_element : forall e i, f64_base_element e i = if i =? 0 then Some e else None.
Proof. exact FieldConvSpec.C64.f64_base_element_spec. Qed.
Print Assumptions C07_f64_base_element.

(* mont_red_var: private, #[allow(dead_code)], no caller; not part of any public behaviour *)
Theorem C07_f64_mont_red_var_dead_code_overflow :
  let x := (2^64 - 1) * M - 2^127 in
  0 <= x < 2^64 * M /\ f64_mont_red_var_ok x = false /\ f64_mont_red_var x = f64_mont_red_cst x.
Proof. exact FieldConvSpec.C64.f64_mont_red_var_dead_code_overflow. Qed.
Print Assumptions C07_f64_mont_red_var_dead_code_overflow.

Theorem C07_f64_as_bytes_same_residue : forall a b, repr a -> repr b ->
  (f64_as_bytes a = f64_as_bytes b <-> val a = val b).
Proof. exact FieldConvSpec.C64.f64_as_bytes_same_residue. Qed.
Print Assumptions C07_f64_as_bytes_same_residue.

(* the zero-copy views, generic in ELEMENT_BYTES nb and the alignment: length check, alignment check on the
   ADDRESS of the first byte, success with the LE words, round trip; no range check on the words *)
Theorem C07_bytes_as_elements_len_err : forall nb align addr bs, (length bs mod nb <> 0)%nat ->
  bytes_as_elements nb align addr bs = None.
Proof. exact FieldConvSpec.bytes_as_elements_len_err. Qed.
Print Assumptions C07_bytes_as_elements_len_err.

Theorem C07_bytes_as_elements_misaligned : forall nb align addr bs, addr mod Z.of_nat align <> 0 ->
  bytes_as_elements nb align addr bs = None.
Proof. exact FieldConvSpec.bytes_as_elements_misaligned. Qed.
Print Assumptions C07_bytes_as_elements_misaligned.

Theorem C07_bytes_as_elements_ok : forall nb align, (0 < nb)%nat -> forall addr bs,
  (length bs mod nb = 0)%nat -> addr mod Z.of_nat align = 0 -> Forall FieldBytesSpec.byte bs ->
  exists ws, bytes_as_elements nb align addr bs = Some ws /\
             length ws = (length bs / nb)%nat /\ elements_as_bytes nb ws = bs.
Proof. exact FieldConvSpec.bytes_as_elements_ok. Qed.
Print Assumptions C07_bytes_as_elements_ok.

Theorem C07_bytes_as_elements_roundtrip : forall nb align, (0 < nb)%nat -> forall addr ws,
  addr mod Z.of_nat align = 0 -> Forall (fun w => 0 <= w < 256 ^ Z.of_nat nb) ws ->
  bytes_as_elements nb align addr (elements_as_bytes nb ws) = Some ws.
Proof. exact FieldConvSpec.bytes_as_elements_roundtrip. Qed.
Print Assumptions C07_bytes_as_elements_roundtrip.

Theorem C07_bytes_as_elements_no_range_check :
  f64_bytes_as_elements 0 (to_le_bytes 8 (2^64 - 1)) = Some [2^64 - 1] /\ ~ repr (2^64 - 1) /\
  f62_bytes_as_elements 0 (to_le_bytes 8 (2^64 - 1)) = Some [2^64 - 1] /\ ~ F62Ops.repr62 (2^64 - 1) /\
  f128_bytes_as_elements 0 (to_le_bytes 16 (2^128 - 1)) = Some [2^128 - 1] /\ ~ F128Ops.repr128 (2^128 - 1).
Proof. exact FieldConvSpec.bytes_as_elements_no_range_check. Qed.
Print Assumptions C07_bytes_as_elements_no_range_check.

Theorem C07_try_from_slice_length : forall bs,
  (length bs <> 8%nat -> f64_try_from_slice bs = None /\ f62_try_from_slice bs = None) /\
  (length bs <> 16%nat -> f128_try_from_slice bs = None).
Proof. exact FieldConvSpec.try_from_slice_length. Qed.
Print Assumptions C07_try_from_slice_length.

Theorem C07_try_from_slice_exact : forall bs, Forall FieldBytesSpec.byte bs ->
  (length bs = 8%nat ->
     f64_try_from_slice bs = (if of_le_bytes bs <? M then Some (f64_new (of_le_bytes bs)) else None) /\
     f62_try_from_slice bs = F62.f62_try_from_u64 (of_le_bytes bs)) /\
  (length bs = 16%nat ->
     f128_try_from_slice bs = if of_le_bytes bs <? F128Limbs.M then Some (of_le_bytes bs) else None).
Proof. exact FieldConvSpec.try_from_slice_exact. Qed.
Print Assumptions C07_try_from_slice_exact.
