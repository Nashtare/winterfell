(* C02 — Soundness: proofs of invalid executions or for other public inputs are rejected.
   Only statements, `exact` of lemmas proved in Proofs/Soundness*.v, and Print Assumptions.

   WHAT IS NOT PROVED (and cannot be with the installed libraries: no probability / random-oracle theory):

     Full soundness statement.  Let AIR be a computation description, pub public inputs, opts proof options with
     blowup b, q queries, grinding w, over a field E (the extension field of the options) and a hash function
     modelled as a random oracle H.  For EVERY (unbounded or Q-query bounded) prover strategy P*:
         if no trace t with  valid(t, AIR, pub)  exists, then
         Pr_H [ verify(P*^H(AIR, pub, opts), pub, {opts}) = Ok ]  <=  eps_ALI + eps_DEEP + eps_FRI(b, q, w) + Q * 2^-lambda
     with eps_ALI ~ L/|E|, eps_DEEP ~ L * (deg + n) / |E| (list size L of the proximity regime) and eps_FRI the
     query-phase error of FRI (C05).  In particular: with overwhelming probability a proof built from a trace that
     violates a transition constraint at a non-exempt step, or an assertion, is rejected whichever cell carries the
     violation, and a proof for one statement is rejected for any other statement.

   WHAT IS PROVED below, for every field (FOps with FLaws) and all sizes: the deterministic enforcement structure
   (validity <-> divisibility of every numerator by its divisor on the enforcement domains; exempt-row corruption
   keeps the statement true; acceptance implies every check), and the counting cores of the two field-size terms
   (roots_bound / ood_counting_partial / ali_*_partial), and that the statement is bound into the coin seed
   (seed_binds_statement).  The probability bound itself is exercised by the falsifier of checks/c02.py (search for
   an accepted proof of an invalid trace), not proved. *)
From Coq Require Import List Arith Bool ZArith.
From VBase Require Import FieldOps ZpOps.
From VModel Require Import Soundness.
From VProofs Require Import ZpLaws SoundnessPoly SoundnessEnforce SoundnessBoundary SoundnessVerifier SoundnessCount SoundnessDeep SoundnessLagrange SoundnessExamples.
From VModel Require EnforceLagrange.
Import ListNotations.
Local Open Scope nat_scope.

(* ------------------------------------------------------------------ counting core *)
Theorem C02_root_factor : forall {F} (O : FOps F), FLaws O -> forall (p : list F) (a : F),
  peval O p a = fzero O <-> exists q, peqv O p (plin O a q).
Proof. exact (@root_factor). Qed.
Print Assumptions C02_root_factor.

Theorem C02_roots_bound : forall {F} (O : FOps F), FLaws O -> forall (p : list F) (d : nat) (rs : list F),
  pnonzero O p -> length p <= S d -> NoDup rs -> (forall r, In r rs -> peval O p r = fzero O) -> length rs <= d.
Proof. exact (@roots_bound). Qed.
Print Assumptions C02_roots_bound.

Theorem C02_roots_bound_degree : forall {F} (O : FOps F), FLaws O -> forall (p rs : list F),
  pnonzero O p -> NoDup rs -> (forall r, In r rs -> peval O p r = fzero O) -> length rs <= pdegree O p.
Proof. exact (@roots_bound_degree). Qed.
Print Assumptions C02_roots_bound_degree.

Theorem C02_agree_bound : forall {F} (O : FOps F), FLaws O -> forall (a b : list F) (d : nat) (rs : list F),
  length a <= S d -> length b <= S d -> ~ peqv O a b -> NoDup rs ->
  (forall r, In r rs -> peval O a r = peval O b r) -> length rs <= d.
Proof. exact (@agree_bound). Qed.
Print Assumptions C02_agree_bound.

Theorem C02_divides_zpoly_iff : forall {F} (O : FOps F), FLaws O -> forall (rs p : list F),
  NoDup rs -> (pdivides O (zpoly O rs) p <-> forall r, In r rs -> peval O p r = fzero O).
Proof. exact (@divides_zpoly_iff). Qed.
Print Assumptions C02_divides_zpoly_iff.

(* ------------------------------------------------------------------ reference validity predicate *)
Theorem C02_valid_b_spec : forall {F} (O : FOps F), FLaws O ->
  forall (trans : nat -> list F -> list F -> list F) t n k asserts,
  valid_b O trans t n k asserts = true <->
  ((forall i, i < n - k -> forall e, In e (trans i (row_at t i) (row_at t (S i))) -> e = fzero O) /\
   (forall a, In a asserts -> forall sv, In sv (asserted_cells O n a) -> cell O t (as_col a) (fst sv) = snd sv)).
Proof. exact (@valid_b_spec). Qed.
Print Assumptions C02_valid_b_spec.

(* ------------------------------------------------------------------ enforcement: invalid => not divisible.
   N j is ANY polynomial taking on the enforced steps g^i (i < n-k) the value of transition constraint j on the frame
   (row i, row i+1) — e.g. the composition of the constraint with the interpolated columns. *)
Theorem C02_invalid_transition_not_divisible : forall {F} (O : FOps F), FLaws O ->
  forall (trans : nat -> list F -> list F -> list F) (g : F) (n : nat) (t : list (list F)) (k m : nat) (N : nat -> list F),
  (forall j i, j < m -> i < n - k ->
     peval O (N j) (fpow O g i) = nth j (trans i (row_at t i) (row_at t (S i))) (fzero O)) ->
  forall j i, j < m -> i < n - k ->
  nth j (trans i (row_at t i) (row_at t (S i))) (fzero O) <> fzero O ->
  ~ pdivides O (trans_divisor_poly O g n k) (N j).
Proof. exact (@invalid_transition_not_divisible). Qed.
Print Assumptions C02_invalid_transition_not_divisible.

(* B is ANY polynomial taking on every asserted step the value (cell - asserted value), e.g. T_col - V *)
Theorem C02_invalid_assertion_not_divisible : forall {F} (O : FOps F), FLaws O ->
  forall (g : F) (n : nat) (t : list (list F)) (a : @Assertion F) (B : list F),
  (forall sv, In sv (asserted_cells O n a) ->
     peval O B (fpow O g (fst sv)) = fsub O (cell O t (as_col a) (fst sv)) (snd sv)) ->
  forall sv, In sv (asserted_cells O n a) -> cell O t (as_col a) (fst sv) <> snd sv ->
  ~ pdivides O (zpoly O (asserted_roots O g n a)) B.
Proof. exact (@invalid_assertion_not_divisible). Qed.
Print Assumptions C02_invalid_assertion_not_divisible.

(* the divisor of an assertion is the vanishing polynomial of its named steps (all three kinds) *)
Theorem C02_asserted_roots_bnd : forall {F} (O : FOps F) (g : F) (n : nat) (a : @Assertion F),
  asserted_roots O g n a =
  match as_kind a with
  | ASingle => bnd_roots O g (as_first a) (as_stride a) 1
  | _ => bnd_roots O g (as_first a) (as_stride a) (n / as_stride a)
  end.
Proof. exact (@asserted_roots_bnd). Qed.
Print Assumptions C02_asserted_roots_bnd.

(* valid <-> every numerator divisible by its divisor; g generates a domain of n distinct points *)
Theorem C02_valid_iff_divisible : forall {F} (O : FOps F), FLaws O ->
  forall (trans : nat -> list F -> list F -> list F) (g : F) (n : nat), NoDup (domain O g n) ->
  forall (t : list (list F)) (k m : nat) (asserts : list (@Assertion F)) (N : nat -> list F) (B : @Assertion F -> list F),
  (forall i cur next, length (trans i cur next) = m) ->
  (forall j i, j < m -> i < n - k ->
     peval O (N j) (fpow O g i) = nth j (trans i (row_at t i) (row_at t (S i))) (fzero O)) ->
  (forall a, In a asserts -> forall sv, In sv (asserted_cells O n a) ->
     peval O (B a) (fpow O g (fst sv)) = fsub O (cell O t (as_col a) (fst sv)) (snd sv)) ->
  (forall a, In a asserts ->
     NoDup (map fst (asserted_cells O n a)) /\ forall sv, In sv (asserted_cells O n a) -> fst sv < n) ->
  (valid O trans t n k asserts <->
   ((forall j, j < m -> pdivides O (trans_divisor_poly O g n k) (N j)) /\
    (forall a, In a asserts -> pdivides O (zpoly O (asserted_roots O g n a)) (B a)))).
Proof. exact (@valid_iff_divisible). Qed.
Print Assumptions C02_valid_iff_divisible.

Theorem C02_invalid_trace_not_divisible : forall {F} (O : FOps F), FLaws O ->
  forall (trans : nat -> list F -> list F -> list F) (g : F) (n : nat), NoDup (domain O g n) ->
  forall (t : list (list F)) (k m : nat) (asserts : list (@Assertion F)) (N : nat -> list F) (B : @Assertion F -> list F),
  (forall i cur next, length (trans i cur next) = m) ->
  (forall j i, j < m -> i < n - k ->
     peval O (N j) (fpow O g i) = nth j (trans i (row_at t i) (row_at t (S i))) (fzero O)) ->
  (forall a, In a asserts -> forall sv, In sv (asserted_cells O n a) ->
     peval O (B a) (fpow O g (fst sv)) = fsub O (cell O t (as_col a) (fst sv)) (snd sv)) ->
  (forall a, In a asserts ->
     NoDup (map fst (asserted_cells O n a)) /\ forall sv, In sv (asserted_cells O n a) -> fst sv < n) ->
  ~ valid O trans t n k asserts ->
  ~ ((forall j, j < m -> pdivides O (trans_divisor_poly O g n k) (N j)) /\
     (forall a, In a asserts -> pdivides O (zpoly O (asserted_roots O g n a)) (B a))).
Proof. exact (@invalid_trace_not_divisible). Qed.
Print Assumptions C02_invalid_trace_not_divisible.

(* a cell of a row n-k < i < n only takes part in exempt transitions; if it is not asserted, ANY value keeps the
   trace valid (hence, by valid_iff_divisible, every numerator divisible): the statement must still be accepted *)
Theorem C02_exempt_corruption_harmless : forall {F} (O : FOps F)
  (trans : nat -> list F -> list F -> list F) (n : nat) (t : list (list F)) (k : nat) (asserts : list (@Assertion F))
  (c i : nat) (v : F),
  valid O trans t n k asserts -> only_exempt n k i = true -> is_asserted O n asserts c i = false ->
  valid O trans (upd_cell t c i v) n k asserts.
Proof. exact (@exempt_corruption_harmless). Qed.
Print Assumptions C02_exempt_corruption_harmless.

(* the divisor evaluation code of the verifier (x^n - 1) / prod_{exempt} (x - e) IS the vanishing polynomial of the
   enforced steps g^0 .. g^(n-k-1), at every point that is not an exemption point *)
Theorem C02_trans_divisor_eval_spec : forall {F} (O : FOps F), FLaws O -> forall (g : F) (n : nat),
  NoDup (domain O g n) -> forall (k : nat) (x : F),
  0 < n -> fpow O g n = fone O -> ~ In x (trans_exempt O g n k) ->
  trans_divisor_eval O g n k x = peval O (trans_divisor_poly O g n k) x.
Proof. exact (@trans_divisor_eval_spec). Qed.
Print Assumptions C02_trans_divisor_eval_spec.

(* the boundary divisor evaluation code x^m - g^(a*m) (x^m - 1 for a = 0) IS the vanishing polynomial of the named steps
   a, a+stride, .., a+(m-1)*stride of a periodic / sequence assertion (stride*m = n), at EVERY point *)
Theorem C02_bnd_divisor_eval_spec : forall {F} (O : FOps F), FLaws O -> forall (g : F) (n : nat),
  NoDup (domain O g n) -> fpow O g n = fone O -> forall (first stride m : nat) (x : F),
  0 < m -> 0 < stride -> stride * m = n ->
  bnd_divisor_eval O g first m x = peval O (bnd_divisor_poly O g first stride m) x.
Proof. exact (@bnd_divisor_eval_spec). Qed.
Print Assumptions C02_bnd_divisor_eval_spec.

Theorem C02_bnd_divisor_eval_single : forall {F} (O : FOps F), FLaws O -> forall (g : F) (first stride : nat) (x : F),
  bnd_divisor_eval O g first 1 x = peval O (bnd_divisor_poly O g first stride 1) x.
Proof. exact (@bnd_divisor_eval_single). Qed.
Print Assumptions C02_bnd_divisor_eval_single.

(* ------------------------------------------------------------------ the verifier's decision
   (main and auxiliary trace segment; any carrier: base field or extension) *)
Theorem C02_verify_accept_implies : forall {F} (O : FOps F), FLaws O ->
  forall (eval_trans : list F -> list F -> list F -> list F)
         (eval_aux_trans : list F -> list F -> list F -> list F -> list F -> list F -> list F)
         (E : Env) (A : AirDesc) (C : Coins) (P : ProofObj),
  verify_model O eval_trans eval_aux_trans E A C P = Accept ->
  e_modulus E = p_modulus P /\
  (exists o, In o (e_acceptable E) /\ zlist_eqb (p_options P) o = true) /\
  (air_lagrange A <> None -> e_gkr_ok E = true) /\
  evaluate_constraints O eval_trans eval_aux_trans A C P = ood_reduce O (air_n A) (c_z C) 0 (p_ood_evals P) /\
  e_fri_commit_ok E = true /\ e_pow_ok E = true /\ e_trace_auth E = true /\ e_cons_auth E = true /\
  e_fri E (deep_evaluations O A C P) = true.
Proof. exact (@verify_accept_implies). Qed.
Print Assumptions C02_verify_accept_implies.

Theorem C02_verify_accept_iff : forall {F} (O : FOps F)
  (eval_trans : list F -> list F -> list F -> list F)
  (eval_aux_trans : list F -> list F -> list F -> list F -> list F -> list F -> list F)
  (E : Env) (A : AirDesc) (C : Coins) (P : ProofObj),
  verify_model O eval_trans eval_aux_trans E A C P = Accept <->
  (Z.eqb (e_modulus E) (p_modulus P) && existsb (zlist_eqb (p_options P)) (e_acceptable E) &&
   match air_lagrange A with Some _ => e_gkr_ok E | None => true end &&
   ood_equation_b O eval_trans eval_aux_trans A C P && e_fri_commit_ok E && e_pow_ok E && e_trace_auth E && e_cons_auth E &&
   e_fri E (deep_evaluations O A C P) = true).
Proof. exact (@verify_accept_iff). Qed.
Print Assumptions C02_verify_accept_iff.

(* every opened row (main, and auxiliary if the trace has one) enters the value handed to FRI as the DEEP quotient
   against the out-of-domain frame *)
Theorem C02_deep_evaluations_nth : forall {F} (O : FOps F) (A : AirDesc) (C : Coins) (P : ProofObj) q rt rc x,
  nth_error (p_q_trace P) q = Some rt -> nth_error (p_q_cons P) q = Some rc -> nth_error (c_xs C) q = Some x ->
  nth_error (deep_evaluations O A C P) q =
  Some (fadd O (fadd O (deep_trace_at O C P (fmul O (c_z C) (air_g A)) rt (cut_aux_row A (aux_row_at P q)) x)
                       (deep_lagrange_at O A C P (fmul O (c_z C) (air_g A)) (aux_row_at P q) x))
               (deep_cons_at O C P rc x)).
Proof. exact (@deep_evaluations_nth). Qed.
Print Assumptions C02_deep_evaluations_nth.

(* the coefficients of the auxiliary columns are those AFTER the main width (skipn (length row)) *)
Theorem C02_deep_trace_at_spec : forall {F} (O : FOps F), FLaws O -> forall (C : Coins) (P : ProofObj) zg row arow x,
  fsub O x (c_z C) <> fzero O -> fsub O x zg <> fzero O ->
  deep_trace_at O C P zg row arow x =
  match p_aux P, arow with
  | Some ax, Some ar =>
      fadd O (fdiv O (fadd O (dot O (cc_deep_trace C) (diffs O row (p_ood_cur P)))
                             (dot O (skipn (length row) (cc_deep_trace C)) (diffs O ar (ax_cur ax)))) (fsub O x (c_z C)))
             (fdiv O (fadd O (dot O (cc_deep_trace C) (diffs O row (p_ood_next P)))
                             (dot O (skipn (length row) (cc_deep_trace C)) (diffs O ar (ax_next ax)))) (fsub O x zg))
  | _, _ =>
      fadd O (fdiv O (dot O (cc_deep_trace C) (diffs O row (p_ood_cur P))) (fsub O x (c_z C)))
             (fdiv O (dot O (cc_deep_trace C) (diffs O row (p_ood_next P))) (fsub O x zg))
  end.
Proof. exact (@deep_trace_at_spec). Qed.
Print Assumptions C02_deep_trace_at_spec.

(* ------------------------------------------------------------------ DEEP coefficients of main and auxiliary columns
   (1) the index map of compose_trace_columns: main column i -> cc.trace[i], auxiliary column j -> cc.trace[main_width + j]
       (cc_offset).  It is injective over all columns of a trace of main width w and auxiliary width aw, it enumerates
       exactly 0 .. w+aw-1, and deep_trace_at IS the sum over all columns with these indexes. *)
Theorem C02_deep_coeff_index_aux_offset : forall w j, deep_coeff_index w (AuxCol j) = w + j.
Proof. exact deep_coeff_index_aux_offset. Qed.
Print Assumptions C02_deep_coeff_index_aux_offset.

Theorem C02_deep_coeff_index_injective : forall w aw (c c' : TraceCol),
  col_in_range w aw c -> col_in_range w aw c' -> deep_coeff_index w c = deep_coeff_index w c' -> c = c'.
Proof. exact deep_coeff_index_injective. Qed.
Print Assumptions C02_deep_coeff_index_injective.

Theorem C02_deep_coeff_index_enumerates : forall w aw,
  map (deep_coeff_index w) (all_cols w aw) = seq 0 (w + aw) /\ NoDup (map (deep_coeff_index w) (all_cols w aw)) /\
  (forall c, In c (all_cols w aw) <-> col_in_range w aw c).
Proof. exact (fun w aw => conj (deep_coeff_index_enumerates w aw) (conj (deep_coeff_index_NoDup w aw) (all_cols_in_range w aw))). Qed.
Print Assumptions C02_deep_coeff_index_enumerates.

Theorem C02_deep_trace_at_index_form : forall {F} (O : FOps F), FLaws O ->
  forall (C : Coins) (P : ProofObj) (ax : AuxOpen) zg row ar x,
  p_aux P = Some ax ->
  length (p_ood_cur P) = length row -> length (p_ood_next P) = length row ->
  length (ax_cur ax) = length ar -> length (ax_next ax) = length ar ->
  fsub O x (c_z C) <> fzero O -> fsub O x zg <> fzero O ->
  deep_trace_at O C P zg row (Some ar) x =
  fadd O (fdiv O (col_sum O (cc_deep_trace C) (deep_coeff_index (length row)) (all_cols (length row) (length ar))
                          row ar (p_ood_cur P) (ax_cur ax)) (fsub O x (c_z C)))
         (fdiv O (col_sum O (cc_deep_trace C) (deep_coeff_index (length row)) (all_cols (length row) (length ar))
                          row ar (p_ood_next P) (ax_next ax)) (fsub O x zg)).
Proof. exact (@deep_trace_at_index_form). Qed.
Print Assumptions C02_deep_trace_at_index_form.

(* (2) FULL binding statement (NOT proved, it needs the proximity / low-degree argument of FRI): if FRI accepts the DEEP
       evaluations then every opened column value lies on a polynomial of degree < n consistent with the claimed
       out-of-domain values of THAT column, except with probability ~ (number of columns) / |E| over the coefficients.
       Proved: the algebraic core at one query position.  For two assignments of out-of-domain trace values (same
       openings, same coins except the coefficient vector) the difference of the DEEP trace values is the dot product of
       the coefficient vector with the vector of per-column differences, column c sitting at position deep_coeff_index c ... *)
Theorem C02_deep_ood_difference_linear : forall {F} (O : FOps F), FLaws O ->
  forall (C : Coins) (P : ProofObj) (ax : AuxOpen) zg row ar x cur' next' acur' anext',
  p_aux P = Some ax ->
  length (p_ood_cur P) = length row -> length (p_ood_next P) = length row ->
  length cur' = length row -> length next' = length row ->
  length (ax_cur ax) = length ar -> length (ax_next ax) = length ar ->
  length acur' = length ar -> length anext' = length ar ->
  fsub O x (c_z C) <> fzero O -> fsub O x zg <> fzero O ->
  fsub O (deep_trace_at O C P zg row (Some ar) x)
         (deep_trace_at O C (with_ood P cur' next' acur' anext') zg row (Some ar) x) =
  dot O (cc_deep_trace C)
      (ood_delta O x (c_z C) zg (p_ood_cur P) cur' (p_ood_next P) next' ++
       ood_delta O x (c_z C) zg (ax_cur ax) acur' (ax_next ax) anext').
Proof. exact (@deep_ood_difference_linear). Qed.
Print Assumptions C02_deep_ood_difference_linear.

Theorem C02_ood_delta_nth : forall {F} (O : FOps F), FLaws O -> forall x z zg (cur cur' next next' : list F) i,
  length cur' = length cur -> length next = length cur -> length next' = length cur ->
  nth i (ood_delta O x z zg cur cur' next next') (fzero O) =
  fadd O (fdiv O (fsub O (nth i cur' (fzero O)) (nth i cur (fzero O))) (fsub O x z))
         (fdiv O (fsub O (nth i next' (fzero O)) (nth i next (fzero O))) (fsub O x zg)).
Proof. exact (@ood_delta_nth). Qed.
Print Assumptions C02_ood_delta_nth.

(*     ... hence, because the index map is injective (every column has its own coordinate): if the two assignments differ in
       column c (non-zero difference at this position), the coefficient vectors giving both the SAME DEEP value do not
       contain the unit vector of c, contain at most one vector on every line parallel to that coordinate, and are at
       most |F|^(m-1) of the |F|^m vectors (m = w + aw). *)
Theorem C02_deep_ood_binding_partial : forall {F} (O : FOps F), FLaws O ->
  forall (C : Coins) (P : ProofObj) (ax : AuxOpen) zg row ar x cur' next' acur' anext' (c : TraceCol),
  p_aux P = Some ax ->
  length (p_ood_cur P) = length row -> length (p_ood_next P) = length row ->
  length cur' = length row -> length next' = length row ->
  length (ax_cur ax) = length ar -> length (ax_next ax) = length ar ->
  length acur' = length ar -> length anext' = length ar ->
  fsub O x (c_z C) <> fzero O -> fsub O x zg <> fzero O ->
  let Dm := ood_delta O x (c_z C) zg (p_ood_cur P) cur' (p_ood_next P) next' in
  let Da := ood_delta O x (c_z C) zg (ax_cur ax) acur' (ax_next ax) anext' in
  let m := length row + length ar in
  let same cc := length cc = m /\
                 deep_trace_at O (with_deep_cc C cc) P zg row (Some ar) x =
                 deep_trace_at O (with_deep_cc C cc) (with_ood P cur' next' acur' anext') zg row (Some ar) x in
  col_in_range (length row) (length ar) c -> col_value O Dm Da c <> fzero O ->
  ~ same (unit_vec O m (deep_coeff_index (length row) c)) /\
  (forall al be, same al -> same be ->
     remove_nth (deep_coeff_index (length row) c) al = remove_nth (deep_coeff_index (length row) c) be -> al = be) /\
  (forall elems : list F, (forall y, In y elems) ->
   forall goods : list (list F), NoDup goods -> (forall cc, In cc goods -> same cc) -> length goods <= length elems ^ (m - 1)).
Proof. exact (@deep_ood_binding). Qed.
Print Assumptions C02_deep_ood_binding_partial.

(* (3) REFUTED for the aliased map (auxiliary column j -> cc.trace[j], the running index dropped): it is not injective, and
       opposite errors in main column 0 and auxiliary column 0 — in the opened values (1,0) vs (0,1), or in the claimed
       out-of-domain values (a+1, b-1) vs (a, b) — give the same DEEP trace value for ALL coin outputs (every coefficient
       vector), frames and points: only the sum of the two columns is bound. *)
Theorem C02_aliased_index_not_injective : forall w aw, 0 < w -> 0 < aw ->
  exists c c', col_in_range w aw c /\ col_in_range w aw c' /\ c <> c' /\ aliased_index c = aliased_index c'.
Proof. exact aliased_index_not_injective. Qed.
Print Assumptions C02_aliased_index_not_injective.

Theorem C02_deep_binding_aliased_refuted : forall {F} (O : FOps F), FLaws O ->
  (exists row row' ar ar' : list F, row <> row' /\ ar <> ar' /\
     forall (C : Coins) (P : ProofObj) (ax : AuxOpen) zg x a a2 b b2,
       p_aux P = Some ax -> p_ood_cur P = [a] -> p_ood_next P = [a2] -> ax_cur ax = [b] -> ax_next ax = [b2] ->
       deep_trace_at_gen O aliased_index_aux C P zg row (Some ar) x =
       deep_trace_at_gen O aliased_index_aux C P zg row' (Some ar') x) /\
  (exists d : F, d <> fzero O /\
     forall (C : Coins) (P : ProofObj) (ax : AuxOpen) zg x a a2 b b2 v u, p_aux P = Some ax ->
       [fadd O a d] <> [a] /\
       deep_trace_at_gen O aliased_index_aux C (with_ood P [fadd O a d] [a2] [fsub O b d] [b2]) zg [v] (Some [u]) x =
       deep_trace_at_gen O aliased_index_aux C (with_ood P [a] [a2] [b] [b2]) zg [v] (Some [u]) x).
Proof. exact (@deep_binding_aliased_refuted). Qed.
Print Assumptions C02_deep_binding_aliased_refuted.

(* acceptance read on polynomials: for a frame made of evaluations (main transition constraints on it give N_j(z), the
   H_i(z) are evaluations of the committed columns) the accepted equation is
   H(z) = ((sum_j alpha_j N_j)(z) + sum_j alpha_(nt+j) aux_j) / D(z) + boundary terms (main and auxiliary groups)
          + the Lagrange kernel part (all log2 n transition terms and the boundary term: C02_eval_lagrange_part_explicit),
   D the vanishing polynomial of the enforced steps *)
Theorem C02_accept_gives_polynomial_relation : forall {F} (O : FOps F), FLaws O ->
  forall (eval_trans : list F -> list F -> list F -> list F)
         (eval_aux_trans : list F -> list F -> list F -> list F -> list F -> list F -> list F)
         (E : Env) (A : AirDesc) (C : Coins) (P : ProofObj) (Ns Hs : list (list F)),
  verify_model O eval_trans eval_aux_trans E A C P = Accept ->
  0 < air_n A -> NoDup (domain O (air_g A) (air_n A)) -> fpow O (air_g A) (air_n A) = fone O ->
  ~ In (c_z C) (trans_exempt O (air_g A) (air_n A) (air_k A)) ->
  eval_trans (p_ood_cur P) (p_ood_next P) (periodic_at O A (c_z C)) = map (fun p => peval O p (c_z C)) Ns ->
  p_ood_evals P = map (fun h => peval O h (c_z C)) Hs ->
  peval O (combine_cols O (air_n A) 0 Hs) (c_z C) =
  fadd O (fadd O
         (fdiv O (fadd O (peval O (lincomb O (firstn (air_nt_main A) (cc_trans C)) Ns) (c_z C))
                         match p_aux P with
                         | None => fzero O
                         | Some ax => dot O (skipn (air_nt_main A) (cc_trans C))
                                        (eval_aux_trans (p_ood_cur P) (p_ood_next P) (ax_cur ax) (ax_next ax)
                                                        (periodic_at O A (c_z C)) (c_aux_rands C))
                         end)
                 (peval O (trans_divisor_poly O (air_g A) (air_n A) (air_k A)) (c_z C)))
         (eval_boundary_part O A C P))
         (eval_lagrange_part O A C P).
Proof. exact (@accept_gives_polynomial_relation). Qed.
Print Assumptions C02_accept_gives_polynomial_relation.

(* ------------------------------------------------------------------ Lagrange kernel column
   the Lagrange part of the out-of-domain equation (evaluator.rs section 3, computed by C16's model of air/src/air/lagrange/*
   with the divisors LagrangeKernelTransitionConstraints::new builds) in closed form: for a frame c of v + 1 values, v random
   elements r and v coefficients it is the sum of ALL v transition terms
       coef_idx * (r_(v-1-idx) * c_0 - (1 - r_(v-1-idx)) * c_(v-idx)) / (z^(2^idx) - 1),   idx = 0 .. v-1,
   plus the boundary term (c_0 - prod (1 - r_i)) * coef_b / (z - 1).  With C02_accept_gives_polynomial_relation: acceptance
   implies the out-of-domain equation INCLUDING these log2(n) + 1 terms.  (Frames / random elements / coefficients of other
   lengths make the Rust code panic; they are outside the verdict enum.) *)
Theorem C02_eval_lagrange_part_explicit : forall {F} (O : FOps F), FLaws O ->
  forall (A : AirDesc) (C : Coins) (P : ProofObj) (fr : list F) (lc : LagCoins) (v : nat),
  p_lagrange P = Some fr -> c_lagrange C = Some lc ->
  length fr = S v -> length (lg_rands lc) = v -> length (lg_cc_trans lc) = v -> v < 64 ->
  eval_lagrange_part O A C P =
  fadd O (fsum O (map (lag_term O v (lg_cc_trans lc) (lg_rands lc) fr (c_z C)) (seq 0 v)))
         (lag_boundary_term O (lg_rands lc) fr (lg_cc_bnd lc) (c_z C)).
Proof. exact (@eval_lagrange_part_explicit). Qed.
Print Assumptions C02_eval_lagrange_part_explicit.

Theorem C02_lag_term_def : forall {F} (O : FOps F) v (coefs rr c : list F) x idx,
  lag_term O v coefs rr c x idx =
  fmul O (fmul O (nth idx coefs (fzero O))
                 (fsub O (fmul O (nth (v - 1 - idx) rr (fzero O)) (nth 0 c (fzero O)))
                         (fmul O (fsub O (fone O) (nth (v - 1 - idx) rr (fzero O))) (nth (v - idx) c (fzero O)))))
         (finv O (fsub O (fpow O x (2 ^ idx)) (fone O))) /\
  forall lb, lag_boundary_term O rr c lb x =
  fmul O (fmul O (fsub O (nth 0 c (fzero O)) (EnforceLagrange.lag_assertion_value O rr)) lb) (finv O (fsub O x (fone O))).
Proof. exact (fun F O v coefs rr c x idx => conj eq_refl (fun lb => eq_refl)). Qed.
Print Assumptions C02_lag_term_def.

(* REFUTED for the seeded variant C02-r4airc2 in the model (LagrangeKernelTransitionConstraints::new builds one divisor fewer, the
   zip of evaluate_and_combine drops the last constraint): a frame changed ONLY in the entry c(g z), which only the last
   constraint k = v reads (numerator 1 and the boundary numerator are unchanged, numerator 2 changes), gets the same
   out-of-domain value as the original frame — the variant's OOD equation still holds — while the real one changes
   (and verify_model answers RejOod: C02_verify_model_lagrange_nonvacuous).  Instance: 64-bit field, n = 4, v = 2. *)
Theorem C02_dropped_last_lagrange_constraint_refuted :
  (EnforceLagrange.lag_raw F64_ops frame_l' (lg_rands lagc) 1 = EnforceLagrange.lag_raw F64_ops frame_l (lg_rands lagc) 1 /\
   EnforceLagrange.lag_raw F64_ops frame_l' (lg_rands lagc) 2 <> EnforceLagrange.lag_raw F64_ops frame_l (lg_rands lagc) 2 /\
   EnforceLagrange.lag_boundary_numerator F64_ops (lg_rands lagc) frame_l' (lg_cc_bnd lagc) =
   EnforceLagrange.lag_boundary_numerator F64_ops (lg_rands lagc) frame_l (lg_cc_bnd lagc)) /\
  evaluate_constraints_gen F64_ops lt_e la_e (lag_new_dropped F64_ops) air_l coins_l proof_l' =
  evaluate_constraints_gen F64_ops lt_e la_e (lag_new_dropped F64_ops) air_l coins_l proof_l /\
  evaluate_constraints F64_ops lt_e la_e air_l coins_l proof_l' <> evaluate_constraints F64_ops lt_e la_e air_l coins_l proof_l.
Proof. exact (conj frames_differ_in_last_constraint_only dropped_last_constraint_refuted). Qed.
Print Assumptions C02_dropped_last_lagrange_constraint_refuted.

(* ------------------------------------------------------------------ out-of-domain check: counting *)
Theorem C02_ood_reduce_is_evaluation : forall {F} (O : FOps F), FLaws O -> forall n z (hs : list (list F)) i,
  ood_reduce O n z i (map (fun h => peval O h z) hs) = peval O (combine_cols O n i hs) z.
Proof. exact (@ood_reduce_is_evaluation). Qed.
Print Assumptions C02_ood_reduce_is_evaluation.

(* PARTIAL (counting core of eps_DEEP only; the frame values are taken to be evaluations of the committed polynomials,
   which is what DEEP + FRI establish probabilistically): if H * Dd - Nn is not the zero polynomial, at most D points z
   satisfy H(z) = Nn(z) / Dd(z) *)
Theorem C02_ood_counting_partial : forall {F} (O : FOps F), FLaws O -> forall (H Nn Dd : list F) (D : nat) (zs : list F),
  pnonzero O (relation_poly O H Nn Dd) -> length (relation_poly O H Nn Dd) <= S D -> NoDup zs ->
  (forall z, In z zs -> peval O Dd z <> fzero O /\ peval O H z = fdiv O (peval O Nn z) (peval O Dd z)) ->
  length zs <= D.
Proof. exact (@ood_counting_partial). Qed.
Print Assumptions C02_ood_counting_partial.

(* ------------------------------------------------------------------ random linear combination: counting
   PARTIAL (linear-algebra core of eps_ALI; no cardinalities): the coefficient vectors making the combination
   divisible form a subspace that misses the unit vector of every non-divisible p_j ... *)
Theorem C02_ali_counting_partial : forall {F} (O : FOps F), FLaws O -> forall (d : list F) (ps : list (list F)),
  let good al := length al = length ps /\ pdivides O d (lincomb O al ps) in
  (forall al be, good al -> good be -> good (vadd O al be)) /\
  (forall c al, good al -> good (vscale O c al)) /\
  (forall j, j < length ps -> ~ pdivides O d (nth j ps []) -> ~ good (unit_vec O (length ps) j)).
Proof. exact (@ali_good_set_subspace). Qed.
Print Assumptions C02_ali_counting_partial.

(* ... and on every line in a non-divisible direction at most one coefficient is good
   (fibering F^k over the other coordinates: |good| <= |F|^(k-1) of |F|^k) *)
Theorem C02_ali_fiber_unique_partial : forall {F} (O : FOps F), FLaws O -> forall (d p0 p1 : list F) (a b : F),
  ~ pdivides O d p1 ->
  pdivides O d (padd O p0 (pscale O a p1)) -> pdivides O d (padd O p0 (pscale O b p1)) -> a = b.
Proof. exact (@ali_fiber_unique). Qed.
Print Assumptions C02_ali_fiber_unique_partial.

(* the count itself, for a finite field enumerated by [elems] (|F| = length elems when it has no duplicates): for FIXED
   polynomials p_1..p_k with some p_j not divisible by d, at most |F|^(k-1) of the |F|^k coefficient vectors make
   sum_i alpha_i p_i divisible by d.  (What remains unproved for eps_ALI is the proximity-gap setting, where "divisible" is
   replaced by "close to a low-degree polynomial".) *)
Theorem C02_ali_counting : forall {F} (O : FOps F), FLaws O -> forall (d : list F) (ps : list (list F)) (j : nat),
  j < length ps -> ~ pdivides O d (nth j ps []) ->
  forall elems : list F, (forall x, In x elems) ->
  forall goods : list (list F), NoDup goods ->
  (forall al, In al goods -> length al = length ps /\ pdivides O d (lincomb O al ps)) ->
  length goods <= length elems ^ (length ps - 1).
Proof. exact (@ali_counting). Qed.
Print Assumptions C02_ali_counting.

(* ------------------------------------------------------------------ the statement is in the seed *)
Theorem C02_seed_binds_statement : forall {F} (O : FOps F),
  (forall a b : Z, (0 <= a < 2^32)%Z -> (0 <= b < 2^32)%Z -> fofz O a = fofz O b -> a = b) ->
  forall s m1 m2 o pub s' m1' m2' o' pub',
  shape_ok s -> shape_ok s' -> opts_ok o -> opts_ok o' ->
  seed_of O s m1 m2 o pub = seed_of O s' m1' m2' o' pub' ->
  s = s' /\ m1 = m1' /\ m2 = m2' /\ o = o' /\ pub = pub'.
Proof. exact (@seed_binds_statement). Qed.
Print Assumptions C02_seed_binds_statement.

Theorem C02_seed_injectivity_hypothesis_holds :
  (forall a b : Z, (0 <= a < 2^32)%Z -> (0 <= b < 2^32)%Z -> fofz F64_ops a = fofz F64_ops b -> a = b) /\
  (forall a b : Z, (0 <= a < 2^32)%Z -> (0 <= b < 2^32)%Z -> fofz F62_ops a = fofz F62_ops b -> a = b) /\
  (forall a b : Z, (0 <= a < 2^32)%Z -> (0 <= b < 2^32)%Z -> fofz F128_ops a = fofz F128_ops b -> a = b).
Proof. exact (conj F64_ofz_inj (conj F62_ofz_inj F128_ofz_inj)). Qed.
Print Assumptions C02_seed_injectivity_hypothesis_holds.

Theorem C02_flat_avals_inj : forall {F} (O : FOps F),
  (forall a b : Z, (0 <= a < 2^32)%Z -> (0 <= b < 2^32)%Z -> fofz O a = fofz O b -> a = b) ->
  forall (a b : list (list F)),
  Forall (fun l => (Z.of_nat (length l) < 2^32)%Z) a -> Forall (fun l => (Z.of_nat (length l) < 2^32)%Z) b ->
  length a = length b -> flat_avals O a = flat_avals O b -> a = b.
Proof. exact (@flat_avals_inj). Qed.
Print Assumptions C02_flat_avals_inj.

(* ------------------------------------------------------------------ non-vacuity (instances over the 64-bit field) *)
Example C02_invalid_transition_nonvacuous :
  ~ valid F64_ops ctr t_bad 2 1 [a0] /\ ~ all_divisible F64_ops g2 2 1 1 [a0] (Nc t_bad) (Bc t_bad).
Proof. exact invalid_transition_instance. Qed.
Example C02_invalid_assertion_nonvacuous :
  ~ valid F64_ops ctr t_bad_a 2 1 [a0] /\ ~ all_divisible F64_ops g2 2 1 1 [a0] (Nc t_bad_a) (Bc t_bad_a).
Proof. exact invalid_assertion_instance. Qed.
Example C02_valid_nonvacuous :
  valid F64_ops ctr t_ok 2 1 [a0] /\ all_divisible F64_ops g2 2 1 1 [a0] (Nc t_ok) (Bc t_ok).
Proof. exact valid_instance. Qed.
Example C02_exempt_corruption_nonvacuous :
  valid F64_ops ctr t4 4 2 [a0] /\ only_exempt 4 2 3 = true /\ is_asserted F64_ops 4 [a0] 0 3 = false /\
  valid F64_ops ctr (upd_cell t4 0 3 (e 77)) 4 2 [a0].
Proof. exact exempt_corruption_instance. Qed.
Example C02_exempt_side_conditions_needed :
  only_exempt 4 2 2 = false /\ ~ valid F64_ops ctr (upd_cell t4 0 2 (e 77)) 4 2 [a0] /\
  is_asserted F64_ops 4 [a0] 0 0 = true /\ ~ valid F64_ops ctr (upd_cell t4 0 0 (e 77)) 4 2 [a0].
Proof. exact nonexempt_corruption_breaks. Qed.
Example C02_ood_counting_nonvacuous :
  let H := [e 0; e 1] in let Nn := [e 0] in let Dd := [e 1] in
  pnonzero F64_ops (relation_poly F64_ops H Nn Dd) /\ length (relation_poly F64_ops H Nn Dd) <= S 1 /\ NoDup [e 0] /\
  (forall z, In z [e 0] -> peval F64_ops Dd z <> fzero F64_ops /\
     peval F64_ops H z = fdiv F64_ops (peval F64_ops Nn z) (peval F64_ops Dd z)) /\
  length [e 0] <= 1.
Proof. exact ood_counting_instance. Qed.
Example C02_ali_nonvacuous :
  let d := [e 0; e 1] in let p0 := [e 0] in let p1 := [e 1] in
  ~ pdivides F64_ops d p1 /\ pdivides F64_ops d (padd F64_ops p0 (pscale F64_ops (e 0) p1)).
Proof. exact ali_instance. Qed.
Example C02_verify_model_nonvacuous :
  verify_model F64_ops ctr_e aux_e envx airx coinsx proofx = Accept /\
  verify_model F64_ops ctr_e aux_e envx airx coinsx proofy = RejOod /\
  verify_model F64_ops ctr_e aux_e (mkEnv 7 [[1%Z; 2%Z]] true true true true true (fun _ => true)) airx coinsx proofx = Accept.
Proof. exact (conj (proj1 verify_accept_instance) (conj (proj1 (proj2 verify_accept_instance)) (proj1 verify_accept_instance))). Qed.
(* with an auxiliary segment: accepted / an auxiliary out-of-domain value changed is rejected; the auxiliary terms enter *)
Example C02_verify_model_aux_nonvacuous :
  verify_model F64_ops ctr_e aux_e envx airx coinsx proofxa = Accept /\
  verify_model F64_ops ctr_e aux_e envx airx coinsx proofya = RejOod /\
  p_ood_evals proofxa <> p_ood_evals proofx /\
  length (deep_evaluations F64_ops airx coinsx proofxa) = 2 /\
  deep_evaluations F64_ops airx coinsx proofxa <> deep_evaluations F64_ops airx coinsx proofya.
Proof. exact verify_accept_instance_aux. Qed.
(* the hypotheses of deep_ood_binding_partial are satisfiable, and its "same" set is neither empty nor everything *)
Example C02_deep_ood_binding_nonvacuous :
  let P := proof_d in let C := coins_d in let zg := e6 7 in let x := e6 10 in
  p_aux P = Some (mkAuxOpen [e6 8] [e6 9] []) /\
  fsub F64_ops x (c_z C) <> fzero F64_ops /\ fsub F64_ops x zg <> fzero F64_ops /\
  col_value F64_ops (ood_delta F64_ops x (c_z C) zg [e6 3] [e6 4] [e6 4] [e6 4])
            (ood_delta F64_ops x (c_z C) zg [e6 8] [e6 8] [e6 9] [e6 9]) (MainCol 0) <> fzero F64_ops /\
  deep_trace_at F64_ops (with_deep_cc C [e6 0; e6 1]) P zg [e6 1] (Some [e6 2]) x =
  deep_trace_at F64_ops (with_deep_cc C [e6 0; e6 1]) (with_ood P [e6 4] [e6 4] [e6 8] [e6 9]) zg [e6 1] (Some [e6 2]) x /\
  deep_trace_at F64_ops (with_deep_cc C [e6 1; e6 0]) P zg [e6 1] (Some [e6 2]) x <>
  deep_trace_at F64_ops (with_deep_cc C [e6 1; e6 0]) (with_ood P [e6 4] [e6 4] [e6 8] [e6 9]) zg [e6 1] (Some [e6 2]) x.
Proof. exact deep_ood_binding_instance. Qed.
(* the witnesses of the refuted statement are separated by the real index map, not by the aliased one *)
Example C02_real_map_separates_aliased_witness :
  deep_trace_at F64_ops coins_d proof_d (e6 7) [fadd F64_ops (fzero F64_ops) (fone F64_ops)]
                (Some [fsub F64_ops (fone F64_ops) (fone F64_ops)]) (e6 10) <>
  deep_trace_at F64_ops coins_d proof_d (e6 7) [fzero F64_ops] (Some [fone F64_ops]) (e6 10) /\
  deep_trace_at_gen F64_ops aliased_index_aux coins_d proof_d (e6 7) [fadd F64_ops (fzero F64_ops) (fone F64_ops)]
                (Some [fsub F64_ops (fone F64_ops) (fone F64_ops)]) (e6 10) =
  deep_trace_at_gen F64_ops aliased_index_aux coins_d proof_d (e6 7) [fzero F64_ops] (Some [fone F64_ops]) (e6 10).
Proof. exact (conj real_map_separates aliased_map_does_not). Qed.
(* a run with a Lagrange kernel column: accepted; the GKR verdict false: RejGkr; the frame entry read by the last Lagrange
   constraint changed: RejOod *)
Example C02_verify_model_lagrange_nonvacuous :
  verify_model F64_ops lt_e la_e (env_l true) air_l coins_l proof_l = Accept /\
  verify_model F64_ops lt_e la_e (env_l false) air_l coins_l proof_l = RejGkr /\
  verify_model F64_ops lt_e la_e (env_l true) air_l coins_l proof_l' = RejOod /\
  length (deep_evaluations F64_ops air_l coins_l proof_l) = 2.
Proof. exact verify_lagrange_instance. Qed.
Example C02_lagrange_part_nonzero : eval_lagrange_part F64_ops air_l coins_l proof_l <> fzero F64_ops.
Proof. exact lagrange_part_nonzero. Qed.
