(* C15 — FRI completeness and the folding identity.
   Only statements, `exact` of lemmas proved in Proofs/Fri*.v, Print Assumptions, non-vacuity examples.
   Model: Model/Fri.v (hand-written from fri/src, tied to the source by the correspondence run of checks/c15.py). *)
From Coq Require Import List Arith Bool Lia ZArith.
From VBase Require Import FieldOps MachInt.
From VGen Require Import FriInt.
From VModel Require Import Merkle Fri FriMerkle.
From VBase Require Import ZpOps.
From VProofs Require Import FriIdx FriField FriInterp FriProver FriRoots FriCoset FriComplete FriMerkleInst FriFields FriQuad FriGen ZpLaws.
From VModel Require Import ExtField.
From VProofs Require Import ExtModel.
Import ListNotations.
Local Open Scope nat_scope.

(* ---------------------------------------------------------------- position folding *)
(* for the inputs on which the Rust code does not panic (see C15_fold_positions_panics), the result is the
   order-preserving de-duplication ([dedup]: first occurrences) of the positions reduced modulo the folded domain
   size; it has no duplicates, every folded position is in range, and it contains exactly the reductions *)
Theorem C15_fold_positions_spec : forall ps d n,
  n <> 0 -> (d / n <> 0 \/ ps = []) ->
  exists l, fold_positions ps d n = Ok l /\
    l = dedup (map (fun p => p mod (d / n)) ps) /\
    NoDup l /\
    (d / n <> 0 -> forall x, In x l -> x < d / n) /\
    (forall x, In x l <-> exists p, In p ps /\ x = p mod (d / n)).
Proof. exact fold_positions_spec. Qed.
Print Assumptions C15_fold_positions_spec.

Theorem C15_fold_positions_panics : forall ps d n,
  fold_positions ps d n = Panic <-> (n = 0 \/ (d / n = 0 /\ ps <> [])).
Proof. exact fold_positions_panics. Qed.
Print Assumptions C15_fold_positions_panics.

Example C15_fold_positions_doc : fold_positions [1; 9; 12; 20] 32 4 = Ok [1; 4].
Proof. reflexivity. Qed.

(* ---------------------------------------------------------------- layer count *)
(* num_fri_layers terminates for every folding factor >= 2 and returns the LEAST k such that the domain folded
   k times is at most (remainder_max_degree + 1) * blowup *)
Theorem C15_num_fri_layers_spec : forall o d, 2 <= fo_folding o ->
  exists k, num_fri_layers o d = Some k /\
    folded_size k d (fo_folding o) <= (fo_remmax o + 1) * fo_blowup o /\
    (forall j, j < k -> (fo_remmax o + 1) * fo_blowup o < folded_size j d (fo_folding o)).
Proof. exact num_fri_layers_spec. Qed.
Print Assumptions C15_num_fri_layers_spec.

Theorem C15_num_fri_layers_valid_options : forall b n r o d, options_new b n r = Ok o ->
  exists k, num_fri_layers o d = Some k.
Proof. exact num_fri_layers_valid_options. Qed.
Print Assumptions C15_num_fri_layers_valid_options.

(* the well-formed schedule (every layer >= 2 rows, remainder domain >= 2 points, remainder >= 1 coefficient) for
   power-of-two parameters: domain 2^a, folding 2^f (f >= 1), blowup 2^b, layer count k:   k*f < a  and  b <= a - k*f *)
Theorem C15_well_formed_schedule_pow2 : forall a f b r, 1 <= f ->
  let o := mkOpts (2 ^ b) (2 ^ f) r in
  well_formed_schedule o (2 ^ a) <->
  exists k, num_fri_layers o (2 ^ a) = Some k /\ k * f < a /\ b <= a - k * f.
Proof. exact well_formed_pow2. Qed.
Print Assumptions C15_well_formed_schedule_pow2.

(* an ill-formed schedule accepted by FriOptions::new: domain 16, folding 16 -> one layer with a single row *)
Example C15_ill_formed_witness : ~ well_formed_schedule (mkOpts 2 16 1) 16.
Proof. intros [k [Hk [_ [H _]]]]. vm_compute in Hk. injection Hk as <-. vm_compute in H. lia. Qed.

(* ---------------------------------------------------------------- layer layout *)
(* query_layout_agree: the rows the prover opens for the folded positions (row q of the transposed layer =
   evaluations q, q + rl, ..., q + (N-1) rl) are exactly where the verifier's get_query_values looks: for EVERY
   queried position p — duplicates and positions colliding after folding included — it returns the evaluation at p *)
Theorem C15_query_layout_agree : forall (A : Type) (d0 : A) N rl evals ps,
  N <> 0 -> rl <> 0 -> (forall p, In p ps -> p < rl * N) ->
  get_query_values N (map (row_of d0 N rl evals) (fold_positions_core ps rl)) ps (fold_positions_core ps rl) (rl * N)
  = Ok (map (fun p => nth p evals d0) ps).
Proof. exact (@get_query_values_layout). Qed.
Print Assumptions C15_query_layout_agree.

(* the prover's transposition produces those rows, and grouping the flattened rows (query_layer, and the verifier
   channel's group_slice_elements) gives them back *)
Theorem C15_transpose_rows : forall (A : Type) (d0 : A) N evals rl, N <> 0 -> length evals = rl * N ->
  transpose_slice d0 N evals = Ok (map (row_of d0 N rl evals) (seq 0 rl)).
Proof. exact (@transpose_slice_rows). Qed.
Print Assumptions C15_transpose_rows.

Theorem C15_group_concat : forall (A : Type) (rows : list (list A)) N, N <> 0 ->
  (forall r, In r rows -> length r = N) -> group_slice N (concat rows) = Ok rows.
Proof. exact (@group_slice_concat). Qed.
Print Assumptions C15_group_concat.

(* ---------------------------------------------------------------- the folding identity *)
Section Folding.
Context {F : Type} (O : FOps F) (L : FLaws O).

(* exp_vartime (square-and-multiply, as used by the model for domain points) is the power *)
Theorem C15_fexp_spec : forall x n, fexp O x n = fpow O x n.
Proof. exact (fexp_spec O L). Qed.

(* N = 2, explicit formula: with the row [f(x); f(-x)] the folded value is (f(x)+f(-x))/2 + alpha (f(x)-f(-x))/(2x) *)
Theorem C15_drp_row_2 : forall a b x alpha, x <> fzero O -> fadd O (fone O) (fone O) <> fzero O ->
  drp_row O 2 (fneg O (fone O)) (finv O (fnat O 2)) (finv O x) alpha [a; b]
  = fadd O (fdiv O (fadd O a b) (fadd O (fone O) (fone O)))
           (fmul O alpha (fdiv O (fsub O a b) (fmul O (fadd O (fone O) (fone O)) x))).
Proof. exact (drp_row_2 O L). Qed.

(* ... hence f(x) = f0(x^2) + x f1(x^2) folds to f0(x^2) + alpha f1(x^2) *)
Theorem C15_drp_identity_2 : forall f0 f1 x alpha, x <> fzero O -> fadd O (fone O) (fone O) <> fzero O ->
  drp_row O 2 (fneg O (fone O)) (finv O (fnat O 2)) (finv O x) alpha
    [fadd O f0 (fmul O x f1); fsub O f0 (fmul O x f1)] = fadd O f0 (fmul O alpha f1).
Proof. exact (drp_identity_2 O L). Qed.

(* uniqueness of interpolation and exactness of the Lagrange form the verifier evaluates *)
Theorem C15_interp_unique : forall xs p q, length p <= length xs -> length q <= length xs -> NoDup xs ->
  (forall x, In x xs -> peval O p x = peval O q x) -> forall a, peval O p a = peval O q a.
Proof. exact (interp_unique O L). Qed.

Theorem C15_lagrange_exact : forall xs p a, NoDup xs -> length p <= length xs ->
  interp_eval O xs (map (peval O p) xs) a = peval O p a.
Proof. exact (lagrange_exact O L). Qed.

(* every folding factor N (2, 4, 8, 16, ...): w a primitive N-th root of unity, winv its inverse (the root of the
   inverse twiddles), N invertible in the field.  Row = values at the points x, x w, ..., x w^(N-1). *)
Section AnyN.
Variable N : nat.
Variable w winv : F.
Hypothesis w_pow : fpow O w N = fone O.
Hypothesis w_prim : forall d, 0 < d < N -> fpow O w d <> fone O.
Hypothesis w_inv : fmul O w winv = fone O.
Hypothesis N_nonzero : fnat O N <> fzero O.

(* the coefficient list the prover computes for a row (inverse DFT, scaling by 1/N and powers of 1/x)
   interpolates the row *)
Theorem C15_row_poly_interpolates : forall x row m, x <> fzero O -> length row = N -> m < N ->
  peval O (scale_series O (idft O N winv row) (finv O (fnat O N)) (finv O x)) (fmul O x (fpow O w m)) = nth m row (fzero O).
Proof. intros; now apply (row_poly_interpolates O L N w winv w_pow w_prim w_inv). Qed.

(* drp_identity: f(y) = sum_{j<N} y^j f_j(y^N)  ==>  folding the row of f at x with challenge alpha gives
   (sum_j alpha^j f_j)(x^N), the folded polynomial at the folded point *)
Theorem C15_drp_identity : forall x fs alpha, x <> fzero O -> length fs = N ->
  drp_row O N winv (finv O (fnat O N)) (finv O x) alpha (map (fval O N fs) (row_nodes O N w x))
  = peval O (fold_slices O alpha fs) (fpow O x N).
Proof. exact (drp_identity O L N w winv w_pow w_prim w_inv N_nonzero). Qed.

(* degree_propagates: the folded polynomial sum_j alpha^j f_j has at most as many coefficients as the longest slice
   (deg f <= d  ==>  every slice has <= floor(d/N) + 1 coefficients) *)
Theorem C15_degree_propagates : forall fs alpha k, (forall fj, In fj fs -> length fj <= k) ->
  length (fold_slices O alpha fs) <= k.
Proof. exact (fold_slices_length O). Qed.

(* per-layer consistency of prover and verifier (composed over all layers in C15_fri_complete below):
   for EVERY row the value the verifier computes (Lagrange interpolant of the opened row at alpha) is the value
   the prover's apply_drp put into the next layer *)
Theorem C15_layer_consistency : forall x row alpha, x <> fzero O -> length row = N ->
  interp_eval O (row_nodes O N w x) row alpha = drp_row O N winv (finv O (fnat O N)) (finv O x) alpha row.
Proof. exact (verifier_row_eq_prover_row O L N w winv w_pow w_prim w_inv N_nonzero). Qed.
End AnyN.
End Folding.

Print Assumptions C15_fexp_spec.
Print Assumptions C15_drp_row_2.
Print Assumptions C15_drp_identity_2.
Print Assumptions C15_interp_unique.
Print Assumptions C15_lagrange_exact.
Print Assumptions C15_row_poly_interpolates.
Print Assumptions C15_drp_identity.
Print Assumptions C15_degree_propagates.
Print Assumptions C15_layer_consistency.

(* non-vacuity: the hypotheses of Section AnyN are satisfiable (f64, N = 2, w = winv = -1) *)
Example C15_roots_hypotheses_satisfiable : exists w winv : Zp P64,
  fpow F64_ops w 2 = fone F64_ops /\ (forall d, 0 < d < 2 -> fpow F64_ops w d <> fone F64_ops) /\
  fmul F64_ops w winv = fone F64_ops /\ fnat F64_ops 2 <> fzero F64_ops.
Proof.
  exists (fneg F64_ops (fone F64_ops)), (fneg F64_ops (fone F64_ops)).
  split; [apply zp_val_inj; vm_compute; reflexivity|]. split.
  - intros d Hd. assert (d = 1) by lia. subst. intros H. apply (f_equal zp_val) in H. vm_compute in H. discriminate.
  - split; [apply zp_val_inj; vm_compute; reflexivity|].
    intros H. apply (f_equal zp_val) in H. vm_compute in H. discriminate.
Qed.

(* ---------------------------------------------------------------- prover reuse *)
(* prover_reusable: whatever proof build_proof returns, the prover it leaves behind is the one FriProver::new creates
   (layers and remainder cleared), so the next build_layers does not hit `assert!(self.layers.is_empty())`.  That the
   second proof equals a fresh prover's proof is then immediate for the model (same function, same state) and is
   tested on the real crate (correspondence op `twice`, falsifier c). *)
Theorem C15_prover_reusable : forall (F MT MN : Type) (mt_prove_batch : MT -> list nat -> option MN)
  (p p' : @prover F MT) positions proof,
  build_proof MT MN mt_prove_batch p positions = Ok (p', proof) ->
  p' = prover_new MT (pr_options MT p) /\ pr_layers MT p' = [] /\ pr_remainder MT p' = [] /\
  fp_remainder proof = pr_remainder MT p /\ fp_partitions proof = 1.
Proof. exact (@prover_reusable). Qed.
Print Assumptions C15_prover_reusable.

(* ================================================================ whole cosets, remainder, end to end *)
Section WholeCoset.
Context {F : Type} (O : FOps F) (L : FLaws O).
(* the family B::get_root_of_unity(k), k <= K = TWO_ADICITY, characterised by three facts *)
Variable rou : nat -> F.
Variable K : nat.
Hypothesis K_pos : 1 <= K.
Hypothesis rou_sq : forall k, k < K -> fmul O (rou (S k)) (rou (S k)) = rou k.
Hypothesis rou_1 : rou 1 = fneg O (fone O).
Hypothesis two_nz : fadd O (fone O) (fone O) <> fzero O.

(* consequences: exact order 2^k *)
Theorem C15_rou_primitive : forall k, k <= K ->
  fpow O (rou k) (2 ^ k) = fone O /\ forall d, 0 < d < 2 ^ k -> fpow O (rou k) d <> fone O.
Proof.
  intros k Hk. pose proof (Build_rou_family O rou K K_pos rou_sq rou_1 two_nz) as R.
  split; [now apply (rou_order O L rou K R) | now apply (rou_prim O L rou K R)].
Qed.

(* (1) apply_drp over the whole coset, in the order the code produces: for f = concat cs (coefficient chunks of
   length N = 2^f, i.e. f(y) = sum_m y^(mN) c_m(y); the j-th slice f_j collects the j-th entries), evaluated over
   offset*<g>, g = rou(rho+f), |<g>| = 2^rho * N: transposition gives the rows, and apply_drp returns, for
   i = 0 .. 2^rho - 1, the value of the folded polynomial  sum_m X^m c_m(alpha) = sum_j alpha^j f_j(X)  at the folded
   point X_i = (offset g^i)^N.  Every folding factor 2^f with rho + f <= K (so 2, 4, 8, 16). *)
Theorem C15_apply_drp_coset : forall rho f, 1 <= f -> rho + f <= K ->
  forall cs offset alpha, offset <> fzero O -> Forall (fun c => length c = 2 ^ f) cs ->
  let P := concat cs in
  let evals := coset_evals O P offset (rou (rho + f)) (2 ^ rho * 2 ^ f) in
  transpose_slice (fzero O) (2 ^ f) evals = Ok (map (row_of (fzero O) (2 ^ f) (2 ^ rho) evals) (seq 0 (2 ^ rho))) /\
  apply_drp O rou K (2 ^ f) (map (row_of (fzero O) (2 ^ f) (2 ^ rho) evals) (seq 0 (2 ^ rho))) offset alpha
  = Ok (map (fun i => peval O (map (fun c => peval O c alpha) cs) (fpow O (fmul O offset (fpow O (rou (rho + f)) i)) (2 ^ f)))
            (seq 0 (2 ^ rho))).
Proof. intros rho f Hf Hrf. exact (apply_drp_coset O L rou K K_pos rou_sq rou_1 two_nz rho f Hf Hrf). Qed.

(* layer_relabelling: the code calls the points of the next layer offset * g_next^i; in that labelling the output is the
   evaluation over offset*<rou rho> of [fold_next] = (folded polynomial)(offset^(N-1) * y), same number of coefficients / N *)
Theorem C15_apply_drp_coset_relabelled : forall rho f, 1 <= f -> rho + f <= K ->
  forall P m offset alpha, offset <> fzero O -> length P = m * 2 ^ f ->
  let evals := coset_evals O P offset (rou (rho + f)) (2 ^ rho * 2 ^ f) in
  apply_drp O rou K (2 ^ f) (map (row_of (fzero O) (2 ^ f) (2 ^ rho) evals) (seq 0 (2 ^ rho))) offset alpha
  = Ok (coset_evals O (fold_next O f alpha offset P) offset (rou rho) (2 ^ rho)) /\
  length (fold_next O f alpha offset P) = m.
Proof.
  intros rho f Hf Hrf P m offset alpha Ho HP. split.
  - exact (apply_drp_coset_relabelled O L rou K K_pos rou_sq rou_1 two_nz rho f Hf Hrf P m offset alpha Ho HP).
  - exact (fold_next_length O f alpha offset P m HP).
Qed.

(* (2) the remainder step: interpolate_poly_with_offset (set_remainder) applied to the evaluations of a polynomial
   over offset*<rou mu> returns its coefficients, zero-padded to the domain size; the model's radix-2 FFT is the DFT *)
Theorem C15_interpolate_coset : forall mu P offset, 1 <= mu <= K -> offset <> fzero O -> length P <= 2 ^ mu ->
  interpolate_poly_with_offset O rou K (coset_evals O P offset (rou mu) (2 ^ mu)) offset
  = Ok (P ++ repeat (fzero O) (2 ^ mu - length P)).
Proof. exact (interpolate_coset O L rou K K_pos rou_sq rou_1 two_nz). Qed.

Theorem C15_fft_rec_idft : forall k w l, length l = 2 ^ k ->
  (k = 0 \/ fpow O w (2 ^ (k - 1)) = fneg O (fone O)) -> fft_rec O k w l = idft O (2 ^ k) w l.
Proof. exact (fft_rec_idft O L). Qed.

(* (3) fri_complete, end to end for the MODEL prover and verifier.  Externals are the abstract Section variables of
   Model/Fri.v; the hypotheses about them are exactly:
     merkle_new_ok, merkle_batch_complete : C10_new_ok / C10_batch_complete for the abstract tree functions
                                            (depth 1..62, non-empty duplicate-free in-range index list of <= 255 entries)
     draw_total                            : the coin's draw yields an element (DefaultRandomCoin gives up after 1000
                                             rejected candidates; the verifier draws once more than the prover, after
                                             the remainder commitment)
   Statement: domain 2^a, folding 2^f supported, blowup 2^b, the schedule has k layers and is well formed
   (k f < a, b <= a - k f), a <= K, a <= 62, P has 2^(a-b) coefficients (degree <= bound, zero-padded), positions
   non-empty, in range, at most 255 (duplicates and collisions after folding allowed): the prover succeeds and the
   verifier (channel construction, FriVerifier::new, verify) returns Ok on its proof. *)
Section EndToEnd.
Variable gen_offset : F.
Hypothesis offset_nz : gen_offset <> fzero O.
Variable dbg : bool.
Variable D : Type.
Variable D_eqb : D -> D -> bool.
Hypothesis D_eqb_spec : forall a b, D_eqb a b = true <-> a = b.
Variable hash_elements : list F -> D.
Variable MT MN : Type.
Variable mt_new : list D -> option MT.
Variable mt_root : MT -> D.
Variable mt_prove_batch : MT -> list nat -> option MN.
Variable mt_verify_batch : D -> list nat -> list D -> MN -> nat -> auth_res.
Variable CS : Type.
Variable cs_reseed : CS -> D -> CS.
Variable cs_draw : CS -> CS * draw_res F.
Hypothesis merkle_new_ok : forall leaves d, 1 <= d -> length leaves = 2 ^ d -> exists t, mt_new leaves = Some t.
Hypothesis merkle_batch_complete : forall leaves t d indexes dflt,
  mt_new leaves = Some t -> length leaves = 2 ^ d -> 1 <= d <= 62 ->
  indexes <> [] -> length indexes <= 255 -> NoDup indexes -> (forall i, In i indexes -> i < length leaves) ->
  exists nodes, mt_prove_batch t indexes = Some nodes /\
    mt_verify_batch (mt_root t) indexes (map (fun i => nth i leaves dflt) indexes) nodes d = AuthOk.
Hypothesis draw_total : forall c, exists c' a, cs_draw c = (c', DrawOk a).

Theorem C15_fri_complete : forall f b remmax, 1 <= f -> supported_folding (2 ^ f) = true ->
  forall a k P positions coin0,
  num_fri_layers (mkOpts (2 ^ b) (2 ^ f) remmax) (2 ^ a) = Some k -> k * f < a -> b <= a - k * f -> a <= K -> a <= 62 ->
  length P = 2 ^ (a - b) ->
  positions <> [] /\ length positions <= 255 /\ (forall p, In p positions -> p < 2 ^ a) ->
  let evals := coset_evals O P gen_offset (rou a) (2 ^ a) in
  exists cs proof p',
    prove O rou K gen_offset D hash_elements MT MN mt_new mt_root mt_prove_batch CS cs_reseed cs_draw
          (mkOpts (2 ^ b) (2 ^ f) remmax) coin0 evals positions = Ok (cs, proof, p') /\
    run_verifier O rou K gen_offset dbg D D_eqb hash_elements MN mt_verify_batch CS cs_reseed cs_draw true
          (mkOpts (2 ^ b) (2 ^ f) remmax) coin0 proof cs (2 ^ (a - b) - 1) (2 ^ a)
          (map (fun p => nth p evals (fzero O)) positions) positions
    = RunVerdict (Ok tt).
Proof.
  intros f b remmax Hf Hs.
  exact (fri_complete O L rou K K_pos rou_sq rou_1 two_nz gen_offset offset_nz dbg D D_eqb D_eqb_spec hash_elements MT MN
           mt_new mt_root mt_prove_batch mt_verify_batch CS cs_reseed cs_draw merkle_new_ok merkle_batch_complete draw_total
           f b remmax Hf Hs).
Qed.
End EndToEnd.
End WholeCoset.

Print Assumptions C15_rou_primitive.
Print Assumptions C15_apply_drp_coset.
Print Assumptions C15_apply_drp_coset_relabelled.
Print Assumptions C15_interpolate_coset.
Print Assumptions C15_fft_rec_idft.
Print Assumptions C15_fri_complete.

(* (3') fri_complete with the Merkle externals instantiated by the Merkle model of C10 (Model/Merkle.v through
   Model/FriMerkle.v: MerkleTree::new / root / prove_batch / verify_batch, positions nat <-> usize) and the Merkle
   hypotheses DISCHARGED by C10's theorems (mt_new_ok, batch_complete; Proofs/FriMerkleInst.v), for every digest type
   with a decidable equality, every default digest and every merge function.
   FINAL PREMISE LIST: the field laws; the root-of-unity family facts (rou(k+1)^2 = rou(k) for k < K, rou(1) = -1,
   1 + 1 <> 0, 1 <= K); gen_offset <> 0; D_eqb decides equality; draw_total (the public coin's draw yields an element:
   DefaultRandomCoin gives up after 1000 rejected candidates, which is outside the claim of the property; C19 proves
   that draw returns the first admissible candidate and never panics, not that one exists); and the parameters:
   supported folding 2^f, well-formed schedule (k f < a, b <= a - k f), a <= K, a <= 62, 2^(a-b) coefficients,
   a non-empty list of at most 255 in-range positions. *)
Theorem C15_fri_complete_merkle : forall (F : Type) (O : FOps F), FLaws O ->
  forall (rou : nat -> F) (K : nat), 1 <= K ->
  (forall k, k < K -> fmul O (rou (S k)) (rou (S k)) = rou k) -> rou 1 = fneg O (fone O) ->
  fadd O (fone O) (fone O) <> fzero O ->
  forall (gen_offset : F), gen_offset <> fzero O ->
  forall (dbg : bool) (D : Type) (D_eqb : D -> D -> bool), (forall a b, D_eqb a b = true <-> a = b) ->
  forall (d0 : D) (merge : D -> D -> D) (hash_elements : list F -> D)
         (CS : Type) (cs_reseed : CS -> D -> CS) (cs_draw : CS -> CS * draw_res F),
  (forall c, exists c' a, cs_draw c = (c', DrawOk a)) ->
  forall f b remmax, 1 <= f -> supported_folding (2 ^ f) = true ->
  forall a k P positions coin0,
  num_fri_layers (mkOpts (2 ^ b) (2 ^ f) remmax) (2 ^ a) = Some k -> k * f < a -> b <= a - k * f -> a <= K -> a <= 62 ->
  length P = 2 ^ (a - b) ->
  positions <> [] /\ length positions <= 255 /\ (forall p, In p positions -> p < 2 ^ a) ->
  let evals := coset_evals O P gen_offset (rou a) (2 ^ a) in
  exists cs proof p',
    prove O rou K gen_offset D hash_elements (mtree D) (list (list D))
          (cm_new D d0 merge) (cm_root D d0) (cm_prove_batch D d0) CS cs_reseed cs_draw
          (mkOpts (2 ^ b) (2 ^ f) remmax) coin0 evals positions = Ok (cs, proof, p') /\
    run_verifier O rou K gen_offset dbg D D_eqb hash_elements (list (list D)) (cm_verify_batch D D_eqb merge)
          CS cs_reseed cs_draw true
          (mkOpts (2 ^ b) (2 ^ f) remmax) coin0 proof cs (2 ^ (a - b) - 1) (2 ^ a)
          (map (fun p => nth p evals (fzero O)) positions) positions
    = RunVerdict (Ok tt).
Proof.
  intros F O L rou K HK Hsq H1 H2 gen_offset Hoff dbg D D_eqb Hspec d0 merge hash_elements CS cs_reseed cs_draw Hdraw
         f b remmax Hf Hs.
  exact (fri_complete_merkle D D_eqb Hspec d0 merge O L rou K HK Hsq H1 H2 gen_offset Hoff dbg hash_elements
           CS cs_reseed cs_draw Hdraw f b remmax Hf Hs).
Qed.
Print Assumptions C15_fri_complete_merkle.

(* (3'') ... and with the field instantiated: the prime field F64 (sigma type over canonical residues, Proofs/ZpLaws.v)
   with the crate's constants: roots rouF64(k) = TWO_ADIC_ROOT_OF_UNITY^(2^(TWO_ADICITY - k)), TWO_ADICITY = 32,
   domain offset GENERATOR — the root-family facts and offset <> 0 are checked by computation (Proofs/FriFields.v).
   FINAL PREMISE LIST: D_eqb decides equality; draw_total; the schedule/parameter conditions. *)
Theorem C15_fri_complete_f64 : forall (dbg : bool) (D : Type) (D_eqb : D -> D -> bool),
  (forall a b, D_eqb a b = true <-> a = b) ->
  forall (d0 : D) (merge : D -> D -> D) (CS : Type) (cs_reseed : CS -> D -> CS)
         (hash_elements : list (Zp P64) -> D) (cs_draw : CS -> CS * draw_res (Zp P64)),
  (forall c, exists c' a, cs_draw c = (c', DrawOk a)) ->
  forall f b remmax, 1 <= f -> supported_folding (2 ^ f) = true ->
  forall a k P positions coin0,
  num_fri_layers (mkOpts (2 ^ b) (2 ^ f) remmax) (2 ^ a) = Some k -> k * f < a -> b <= a - k * f -> a <= 32 -> a <= 62 ->
  length P = 2 ^ (a - b) ->
  positions <> [] /\ length positions <= 255 /\ (forall p, In p positions -> p < 2 ^ a) ->
  let evals := coset_evals F64_ops P genF64 (rouF64 a) (2 ^ a) in
  exists cs proof p',
    prove F64_ops rouF64 32 genF64 D hash_elements (mtree D) (list (list D))
          (cm_new D d0 merge) (cm_root D d0) (cm_prove_batch D d0) CS cs_reseed cs_draw
          (mkOpts (2 ^ b) (2 ^ f) remmax) coin0 evals positions = Ok (cs, proof, p') /\
    run_verifier F64_ops rouF64 32 genF64 dbg D D_eqb hash_elements (list (list D)) (cm_verify_batch D D_eqb merge)
          CS cs_reseed cs_draw true
          (mkOpts (2 ^ b) (2 ^ f) remmax) coin0 proof cs (2 ^ (a - b) - 1) (2 ^ a)
          (map (fun p => nth p evals (fzero F64_ops)) positions) positions
    = RunVerdict (Ok tt).
Proof. exact fri_complete_f64. Qed.
Print Assumptions C15_fri_complete_f64.

(* (3'') ... and with the field instantiated: the prime field F128 (sigma type over canonical residues, Proofs/ZpLaws.v)
   with the crate's constants: roots rouF128(k) = TWO_ADIC_ROOT_OF_UNITY^(2^(TWO_ADICITY - k)), TWO_ADICITY = 40,
   domain offset GENERATOR — the root-family facts and offset <> 0 are checked by computation (Proofs/FriFields.v).
   FINAL PREMISE LIST: D_eqb decides equality; draw_total; the schedule/parameter conditions. *)
Theorem C15_fri_complete_f128 : forall (dbg : bool) (D : Type) (D_eqb : D -> D -> bool),
  (forall a b, D_eqb a b = true <-> a = b) ->
  forall (d0 : D) (merge : D -> D -> D) (CS : Type) (cs_reseed : CS -> D -> CS)
         (hash_elements : list (Zp P128) -> D) (cs_draw : CS -> CS * draw_res (Zp P128)),
  (forall c, exists c' a, cs_draw c = (c', DrawOk a)) ->
  forall f b remmax, 1 <= f -> supported_folding (2 ^ f) = true ->
  forall a k P positions coin0,
  num_fri_layers (mkOpts (2 ^ b) (2 ^ f) remmax) (2 ^ a) = Some k -> k * f < a -> b <= a - k * f -> a <= 40 -> a <= 62 ->
  length P = 2 ^ (a - b) ->
  positions <> [] /\ length positions <= 255 /\ (forall p, In p positions -> p < 2 ^ a) ->
  let evals := coset_evals F128_ops P genF128 (rouF128 a) (2 ^ a) in
  exists cs proof p',
    prove F128_ops rouF128 40 genF128 D hash_elements (mtree D) (list (list D))
          (cm_new D d0 merge) (cm_root D d0) (cm_prove_batch D d0) CS cs_reseed cs_draw
          (mkOpts (2 ^ b) (2 ^ f) remmax) coin0 evals positions = Ok (cs, proof, p') /\
    run_verifier F128_ops rouF128 40 genF128 dbg D D_eqb hash_elements (list (list D)) (cm_verify_batch D D_eqb merge)
          CS cs_reseed cs_draw true
          (mkOpts (2 ^ b) (2 ^ f) remmax) coin0 proof cs (2 ^ (a - b) - 1) (2 ^ a)
          (map (fun p => nth p evals (fzero F128_ops)) positions) positions
    = RunVerdict (Ok tt).
Proof. exact fri_complete_f128. Qed.
Print Assumptions C15_fri_complete_f128.

(* (3''') the quadratic extension field over F64 — the case the STARK pipeline uses whenever an extension is selected: the FRI
   domain lives in the base field and is embedded (E::from); the root-family facts and offset <> 0 are TRANSPORTED through the
   embedding, an injective ring homomorphism (C08: ExtModel.q_embed_hom; Proofs/FriQuad.v), the field laws of the extension
   are C08's f64_quad_laws.  Same premise list as C15_fri_complete_f64: D_eqb decides equality, draw_total, the parameters. *)
Theorem C15_fri_complete_f64_quad : forall (dbg : bool) (D : Type) (D_eqb : D -> D -> bool),
  (forall a b, D_eqb a b = true <-> a = b) ->
  forall (d0 : D) (merge : D -> D -> D) (CS : Type) (cs_reseed : CS -> D -> CS)
         (hash_elements : list (Zp P64 * Zp P64) -> D) (cs_draw : CS -> CS * draw_res (Zp P64 * Zp P64)),
  (forall c, exists c' a, cs_draw c = (c', DrawOk a)) ->
  forall f b remmax, 1 <= f -> supported_folding (2 ^ f) = true ->
  forall a k P positions coin0,
  num_fri_layers (mkOpts (2 ^ b) (2 ^ f) remmax) (2 ^ a) = Some k -> k * f < a -> b <= a - k * f -> a <= 32 -> a <= 62 ->
  length P = 2 ^ (a - b) ->
  positions <> [] /\ length positions <= 255 /\ (forall p, In p positions -> p < 2 ^ a) ->
  let evals := coset_evals Q64 P genQ64 (rouQ64 a) (2 ^ a) in
  exists cs proof p',
    prove Q64 rouQ64 32 genQ64 D hash_elements (mtree D) (list (list D))
          (cm_new D d0 merge) (cm_root D d0) (cm_prove_batch D d0) CS cs_reseed cs_draw
          (mkOpts (2 ^ b) (2 ^ f) remmax) coin0 evals positions = Ok (cs, proof, p') /\
    run_verifier Q64 rouQ64 32 genQ64 dbg D D_eqb hash_elements (list (list D)) (cm_verify_batch D D_eqb merge)
          CS cs_reseed cs_draw true
          (mkOpts (2 ^ b) (2 ^ f) remmax) coin0 proof cs (2 ^ (a - b) - 1) (2 ^ a)
          (map (fun p => nth p evals (fzero Q64)) positions) positions
    = RunVerdict (Ok tt).
Proof. exact fri_complete_f64_quad. Qed.
Print Assumptions C15_fri_complete_f64_quad.

(* (3''') the quadratic extension field over F128 — the case the STARK pipeline uses whenever an extension is selected: the FRI
   domain lives in the base field and is embedded (E::from); the root-family facts and offset <> 0 are TRANSPORTED through the
   embedding, an injective ring homomorphism (C08: ExtModel.q_embed_hom; Proofs/FriQuad.v), the field laws of the extension
   are C08's f128_quad_laws.  Same premise list as C15_fri_complete_f128: D_eqb decides equality, draw_total, the parameters. *)
Theorem C15_fri_complete_f128_quad : forall (dbg : bool) (D : Type) (D_eqb : D -> D -> bool),
  (forall a b, D_eqb a b = true <-> a = b) ->
  forall (d0 : D) (merge : D -> D -> D) (CS : Type) (cs_reseed : CS -> D -> CS)
         (hash_elements : list (Zp P128 * Zp P128) -> D) (cs_draw : CS -> CS * draw_res (Zp P128 * Zp P128)),
  (forall c, exists c' a, cs_draw c = (c', DrawOk a)) ->
  forall f b remmax, 1 <= f -> supported_folding (2 ^ f) = true ->
  forall a k P positions coin0,
  num_fri_layers (mkOpts (2 ^ b) (2 ^ f) remmax) (2 ^ a) = Some k -> k * f < a -> b <= a - k * f -> a <= 40 -> a <= 62 ->
  length P = 2 ^ (a - b) ->
  positions <> [] /\ length positions <= 255 /\ (forall p, In p positions -> p < 2 ^ a) ->
  let evals := coset_evals Q128 P genQ128 (rouQ128 a) (2 ^ a) in
  exists cs proof p',
    prove Q128 rouQ128 40 genQ128 D hash_elements (mtree D) (list (list D))
          (cm_new D d0 merge) (cm_root D d0) (cm_prove_batch D d0) CS cs_reseed cs_draw
          (mkOpts (2 ^ b) (2 ^ f) remmax) coin0 evals positions = Ok (cs, proof, p') /\
    run_verifier Q128 rouQ128 40 genQ128 dbg D D_eqb hash_elements (list (list D)) (cm_verify_batch D D_eqb merge)
          CS cs_reseed cs_draw true
          (mkOpts (2 ^ b) (2 ^ f) remmax) coin0 proof cs (2 ^ (a - b) - 1) (2 ^ a)
          (map (fun p => nth p evals (fzero Q128)) positions) positions
    = RunVerdict (Ok tt).
Proof. exact fri_complete_f128_quad. Qed.
Print Assumptions C15_fri_complete_f128_quad.

(* non-vacuity of the root-family hypotheses: f64, K = 2, roots 1, -1, 2^48 (2^96 = -1 in the Goldilocks field) *)
Example C15_root_family_satisfiable : exists rou : nat -> Zp P64,
  (forall k, k < 2 -> fmul F64_ops (rou (S k)) (rou (S k)) = rou k) /\ rou 1 = fneg F64_ops (fone F64_ops) /\
  fadd F64_ops (fone F64_ops) (fone F64_ops) <> fzero F64_ops.
Proof.
  exists (fun k => match k with 0 => fone F64_ops | 1 => fneg F64_ops (fone F64_ops) | _ => fofz F64_ops (2 ^ 48)%Z end).
  split; [|split].
  - intros k Hk. destruct k as [|[|k]]; [| |lia]; apply zp_val_inj; vm_compute; reflexivity.
  - reflexivity.
  - intros H. apply (f_equal zp_val) in H. vm_compute in H. discriminate.
Qed.

(* ================================================================ the model computes the GENERATED integer terms *)
(* coq/Gen/FriInt.v is regenerated from fri/src by rs2v on every run of the check (unit FriInt); the theorems below say
   that the hand model's functions compute exactly those terms, for values in the usize range. *)
Theorem C15_gen_options_new : forall b n r,
  options_new b n r = if fri_options_new_checks_ok (Z.of_nat b) (Z.of_nat n) (Z.of_nat r) then Ok (mkOpts b n r) else Panic.
Proof. exact options_new_gen. Qed.
Print Assumptions C15_gen_options_new.

(* num_fri_layers = the generated fuelled while loop (fuel domain_size + 1), when (remainder_max_degree + 1) * blowup and
   domain_size + 1 fit into a usize (the Rust multiplication is unchecked in release and panics in debug otherwise) *)
Theorem C15_gen_num_fri_layers : forall o d, fo_folding o <> 0 ->
  (Z.of_nat d + 1 < 2 ^ 64)%Z -> (Z.of_nat ((fo_remmax o + 1) * fo_blowup o) < 2 ^ 64)%Z -> u64 (fo_remmax o + 1) ->
  option_map Z.of_nat (num_fri_layers o d) = fri_num_fri_layers (S d) (gopts o) (Z.of_nat d).
Proof. exact num_fri_layers_gen. Qed.
Print Assumptions C15_gen_num_fri_layers.

Theorem C15_gen_fold_positions : forall ps d ff, ff <> 0 -> (d / ff <> 0 \/ ps = []) ->
  fold_positions ps d ff = Ok (fold_positions_core ps (Z.to_nat (fri_fold_target_size (Z.of_nat d) (Z.of_nat ff)))).
Proof. exact fold_positions_gen. Qed.
Print Assumptions C15_gen_fold_positions.

Theorem C15_gen_map_positions_to_indexes : forall ps d ff np, np <> 1 -> np <> 0 -> ff <> 0 ->
  (forall p, In p ps -> fri_map_position_index_ok (Z.of_nat p) (Z.of_nat np)
                          (fri_map_positions_sizes (Z.of_nat d) (Z.of_nat ff) (Z.of_nat np)) = true) ->
  map_positions_to_indexes ps d ff np
  = Ok (map (fun p => Z.to_nat (fri_map_position_index (Z.of_nat p) (Z.of_nat np)
                                  (fri_map_positions_sizes (Z.of_nat d) (Z.of_nat ff) (Z.of_nat np)))) ps).
Proof. exact map_positions_to_indexes_gen. Qed.
Print Assumptions C15_gen_map_positions_to_indexes.

(* divisions by the folding factor: running degree bound, domain size, row length of get_query_values, folded domain *)
Theorem C15_gen_layer_divisions : forall x N, N <> 0 ->
  fri_verify_layer_degree_update (Z.of_nat x) (Z.of_nat N) = Z.of_nat (x / N) /\
  fri_verify_layer_domain_update (Z.of_nat x) (Z.of_nat N) = Z.of_nat (x / N) /\
  fri_query_row_length (Z.of_nat x) (Z.of_nat N) = Z.of_nat (x / N) /\
  fri_fold_target_size (Z.of_nat x) (Z.of_nat N) = Z.of_nat (x / N).
Proof. exact verify_layer_updates_gen. Qed.
Print Assumptions C15_gen_layer_divisions.
