(* C05 — FRI soundness: what the verifier enforces (deterministic part).
   Only statements, `exact` of lemmas proved in Proofs/Fri*.v, Print Assumptions.

   NOT PROVED (and not provable here): the probabilistic statement "a function that is delta-far from every
   polynomial of degree <= bound is rejected except with probability eps" — it needs proximity-gap results
   (BCIKS20) far outside this development.  What is proved is that the model verifier (Model/Fri.v, tied to
   fri/src/verifier/mod.rs by the correspondence run on honest, adversarial and malformed transcripts) accepts
   IF AND ONLY IF the conditions (a)-(f) of [fri_accepts] hold, for every field with the field laws, every
   digest type / hash function / Merkle authentication function / folding factor / transcript:
     (a) every layer opening authenticates against the layer commitment          [layer_accepts: mt_verify_batch = AuthOk]
     (b) the values carried into a layer are the opened ones and the value carried to the next layer is the
         interpolant of the opened row at that layer's alpha                      [get_query_values = vs_evals; interp_eval]
     (c) no degree truncation at any layer                                        [vs_mdp1 mod N = 0]
     (d) |remainder| <= allowed, (e) the remainder agrees with the last folded values at every folded position
     (f) the remainder hashes to the commitment sent after the layer commitments  [the REPAIRED check]
   and that the code before the repair enforced (a)-(e) only, which makes the remainder-after-queries attack a
   theorem about it (C05_adaptive_remainder_accepted_unrepaired). *)
From Coq Require Import List Arith Bool ZArith.
From VBase Require Import FieldOps MachInt.
From VGen Require Import FriInt.
From VModel Require Import Merkle Fri FriMerkle.
From VProofs Require Import MerkleSingle MerkleBind FriAccept FriBinding FriIdx FriCount FriQuery FriQueryLoop FriMerkleInst FriGen FriExamples.
Import ListNotations.
Local Open Scope nat_scope.

Section C05.
Context {F : Type} (O : FOps F) (L : FLaws O).
Variable gen_offset : F.
Variable dbg : bool.
Variable D : Type.
Variable D_eqb : D -> D -> bool.
Hypothesis D_eqb_spec : forall a b, D_eqb a b = true <-> a = b.
Variable hash_elements : list F -> D.
Variable MN : Type.
Variable mt_verify_batch : D -> list nat -> list D -> MN -> nat -> auth_res.

Theorem C05_fri_accept_iff : forall N v ch evaluations positions,
  verify_generic O gen_offset dbg D D_eqb hash_elements MN mt_verify_batch N v ch evaluations positions = Ok tt <->
  fri_accepts O gen_offset dbg D hash_elements MN mt_verify_batch true N v ch evaluations positions.
Proof. exact (fri_accept_iff O L gen_offset dbg D D_eqb D_eqb_spec hash_elements MN mt_verify_batch). Qed.

(* one iteration of the layer loop, both directions: the per-layer conditions (a), (b), (c) *)
Theorem C05_layer_step_accepts : forall N v roots depth s s',
  layer_step O gen_offset dbg D MN mt_verify_batch N v roots depth s = Ok s' <->
  layer_accepts O gen_offset dbg D MN mt_verify_batch N v roots depth s s'.
Proof. exact (layer_step_accepts O L gen_offset dbg D MN mt_verify_batch). Qed.

(* the remainder part, both directions: (d), (e), (f) *)
Theorem C05_verify_remainder_accepts : forall check v num_layers s,
  verify_remainder O gen_offset D D_eqb hash_elements MN check v num_layers s = Ok tt <->
  remainder_accepts O gen_offset D hash_elements MN check v num_layers s.
Proof. exact (verify_remainder_accepts O L gen_offset D D_eqb D_eqb_spec hash_elements MN). Qed.

(* the code before the repair: the same characterisation WITHOUT (f) *)
Theorem C05_fri_accept_iff_unrepaired : forall N v ch evaluations positions,
  verify_generic_unrepaired O gen_offset dbg D D_eqb hash_elements MN mt_verify_batch N v ch evaluations positions = Ok tt <->
  fri_accepts O gen_offset dbg D hash_elements MN mt_verify_batch false N v ch evaluations positions.
Proof. exact (fri_accept_iff_unrepaired O L gen_offset dbg D D_eqb D_eqb_spec hash_elements MN mt_verify_batch). Qed.

(* fri_remainder_unbound (about the UNREPAIRED code): an accepted transcript stays accepted when the remainder is
   replaced, after the positions are known, by any short enough polynomial with the same values at the folded
   last-layer positions; the commitments play no role *)
Theorem C05_adaptive_remainder_accepted_unrepaired : forall N v ch evaluations positions r',
  fri_accepts O gen_offset dbg D hash_elements MN mt_verify_batch false N v ch evaluations positions ->
  (forall num_layers s,
     num_fri_layers (v_options D v) (v_domain_size D v) = Some num_layers ->
     layers_accept O gen_offset dbg D MN mt_verify_batch num_layers N v (folding_roots_of O D N v) 0
       (initial_state D MN v ch evaluations positions) s ->
     length r' <= vs_mdp1 D MN s /\
     remainder_agrees O gen_offset r' (vs_gen D MN s) (vs_positions D MN s) (vs_evals D MN s)) ->
  fri_accepts O gen_offset dbg D hash_elements MN mt_verify_batch false N v (with_remainder D MN ch r') evaluations positions.
Proof. exact (adaptive_remainder_accepted_unrepaired O gen_offset dbg D hash_elements MN mt_verify_batch). Qed.

(* ... and the repaired verifier rejects every replaced remainder that does not hash to the committed value *)
Theorem C05_adaptive_remainder_rejected : forall N v ch evaluations positions r' num_layers,
  num_fri_layers (v_options D v) (v_domain_size D v) = Some num_layers ->
  nth_error (v_commitments D v) num_layers <> Some (hash_elements r') ->
  ~ fri_accepts O gen_offset dbg D hash_elements MN mt_verify_batch true N v (with_remainder D MN ch r') evaluations positions.
Proof. exact (adaptive_remainder_rejected O gen_offset dbg D hash_elements MN mt_verify_batch). Qed.

(* fri_binding: two decoded proof layers parsed by the channel, both authenticating against the same layer commitment at
   the same indexes with the same number of rows: the opened rows are identical, or [find_row_collision] returns two
   different rows with the same hash_elements digest, or a collision of the Merkle authentication function is exhibited.
   Abstract version: Merkle binding (two openings of the SAME depth d >= 1 — the depth is fixed by the verifier: both
   openings are checked at depth log2 of the layer's domain size, FriBinding.parse_layer_leaves) is a Section
   hypothesis; it is discharged for the Merkle model of C10 in C05_fri_binding_merkle below. *)
Section Binding.
Variable coll : Type.
Variable find_merkle_collision : D -> list nat -> list D * MN * nat -> list D * MN * nat -> option coll.
Variable is_merkle_collision : coll -> Prop.
Hypothesis merkle_binding : forall root indexes l1 n1 l2 n2 d,
  1 <= d ->
  mt_verify_batch root indexes l1 n1 d = AuthOk -> mt_verify_batch root indexes l2 n2 d = AuthOk ->
  length l1 = length l2 ->
  l1 = l2 \/ exists c, find_merkle_collision root indexes (l1, n1, d) (l2, n2, d) = Some c /\ is_merkle_collision c.

Theorem C05_fri_binding : forall N ds pl1 pl2 q1 q2 l1 l2 n1 n2 d1 d2 commitment indexes,
  parse_layer D hash_elements MN N ds pl1 = Some (Some (q1, (l1, n1, d1))) ->
  parse_layer D hash_elements MN N ds pl2 = Some (Some (q2, (l2, n2, d2))) ->
  mt_verify_batch commitment indexes l1 n1 d1 = AuthOk ->
  mt_verify_batch commitment indexes l2 n2 d2 = AuthOk ->
  length l1 = length l2 ->
  exists rows1 rows2, group_slice N q1 = Ok rows1 /\ group_slice N q2 = Ok rows2 /\
    (rows1 = rows2 \/
     (exists r1 r2, find_row_collision O rows1 rows2 = Some (r1, r2) /\ r1 <> r2 /\ hash_elements r1 = hash_elements r2) \/
     (exists c, find_merkle_collision commitment indexes (l1, n1, d1) (l2, n2, d2) = Some c /\ is_merkle_collision c)).
Proof. exact (fri_binding O L D hash_elements MN mt_verify_batch coll find_merkle_collision is_merkle_collision merkle_binding). Qed.
End Binding.

End C05.

Print Assumptions C05_fri_accept_iff.
Print Assumptions C05_layer_step_accepts.
Print Assumptions C05_verify_remainder_accepts.
Print Assumptions C05_fri_accept_iff_unrepaired.
Print Assumptions C05_adaptive_remainder_accepted_unrepaired.
Print Assumptions C05_adaptive_remainder_rejected.
Print Assumptions C05_fri_binding.

(* fri_binding, UNCONDITIONAL w.r.t. Merkle: the authentication function is MerkleTree::verify_batch of the Merkle model
   of C10 (Model/Merkle.v through Model/FriMerkle.v), for every digest type with a decidable equality, every default
   digest and every merge function; the Merkle part is discharged by C10_batch_binding_two (Proofs/MerkleBind.v
   batch_binding_two: two batch openings of the SAME depth d >= 1 on the same usize index list with the same root
   have equal leaves or find_batch_collision2 returns a collision of merge).  That both openings are checked at the
   same depth >= 1 is a fact about the verifier model: parse_layer fixes it to log2 of the layer's domain size
   (FriBinding.parse_layer_leaves); positions are nat, hence usize values.
   FINAL PREMISE LIST: the field laws (for the decidable equality of rows) and D_eqb decides equality. *)
Theorem C05_fri_binding_merkle : forall (F : Type) (O : FOps F), FLaws O ->
  forall (D : Type) (D_eqb : D -> D -> bool), (forall a b, D_eqb a b = true <-> a = b) ->
  forall (d0 : D) (merge : D -> D -> D) (hash_elements : list F -> D),
  forall N ds pl1 pl2 q1 q2 l1 l2 n1 n2 d1 d2 commitment indexes,
  parse_layer D hash_elements (list (list D)) N ds pl1 = Some (Some (q1, (l1, n1, d1))) ->
  parse_layer D hash_elements (list (list D)) N ds pl2 = Some (Some (q2, (l2, n2, d2))) ->
  cm_verify_batch D D_eqb merge commitment indexes l1 n1 d1 = AuthOk ->
  cm_verify_batch D D_eqb merge commitment indexes l2 n2 d2 = AuthOk ->
  length l1 = length l2 ->
  exists rows1 rows2, group_slice N q1 = Ok rows1 /\ group_slice N q2 = Ok rows2 /\
    (rows1 = rows2 \/
     (exists r1 r2, find_row_collision O rows1 rows2 = Some (r1, r2) /\ r1 <> r2 /\ hash_elements r1 = hash_elements r2) \/
     (exists c, cm_find_collision D D_eqb d0 merge commitment indexes (l1, n1, d1) (l2, n2, d2) = Some c /\
                is_collision D merge c)).
Proof.
  intros F O L D D_eqb Hspec d0 merge hash_elements.
  exact (fri_binding_merkle D D_eqb Hspec d0 merge O L hash_elements).
Qed.
Print Assumptions C05_fri_binding_merkle.

(* fri_query_counting_partial — the counting step of the soundness argument (pure counting, no probability theory):
   for a last-layer function E fixed before the queries and a remainder R, check (e) passes on a vector ps of q
   last-layer positions iff R agrees with E at every entry, and exactly (n - bad)^q of the n^q vectors pass, where
   bad = number of positions in [0,n) where R and E disagree (so at most ((1-delta) n)^q when bad >= delta n).
   PARTIAL: vectors of last-layer positions only (the passage from first-layer query positions through fold_positions is
   C05_fri_query_counting_lde_partial below); the relation between distance from the code and `bad` (proximity gaps) is
   NOT treated. *)
Theorem C05_fri_query_counting_partial : forall (F : Type) (O : FOps F) (gen_offset : F) R g E n q,
  let bad := length (filter (fun p => negb (good_position O gen_offset R g E p)) (seq 0 n)) in
  length (filter (fun ps => remainder_check O gen_offset R g ps (map (fun p => nth p E (fzero O)) ps)) (vectors n q))
  = (n - bad) ^ q /\ length (vectors n q) = n ^ q.
Proof. exact (@fri_query_counting_partial). Qed.
Print Assumptions C05_fri_query_counting_partial.

(* fri_query_counting_lde_partial — the counting step from the FIRST-layer (LDE) query positions: domain D = n * N^k,
   k foldings by N (fold_positions = mod + dedup, [fold_chain]), last layer of n points of which `bad` are bad.  Every
   last-layer position has exactly N^k preimages; check (e) on the folded positions passes iff every query position
   reduces mod n to a good position; exactly (D - bad * N^k)^q of the D^q position vectors pass, i.e. a fraction
   ((D - bad * N^k) / D)^q = (1 - bad/n)^q.  Still pure counting (partial): missing towards the epsilon of the
   property are (1) that the q positions are uniform and independent (they come from the coin: C19 / random-oracle
   assumption) and (2) the proximity-gap theorem relating the distance of the committed function from the code to `bad` and to the
   probability over the challenges alpha. *)
Theorem C05_fri_query_counting_lde_partial : forall (F : Type) (O : FOps F) (gen_offset : F) R g E n N k q,
  N <> 0 -> n <> 0 ->
  let D := n * N ^ k in
  let bad := length (filter (fun p => negb (good_position O gen_offset R g E p)) (seq 0 n)) in
  length (filter (fun ps => let last := fold_chain k ps D N in
                            remainder_check O gen_offset R g last (map (fun p => nth p E (fzero O)) last))
                 (vectors D q))
  = (D - bad * N ^ k) ^ q /\ length (vectors D q) = D ^ q.
Proof. exact (@fri_query_counting_lde_partial). Qed.
Print Assumptions C05_fri_query_counting_lde_partial.

(* fri_query_counting_all_checks_partial — EVERY comparison of the query phase, for layer functions E_0..E_(k-1), challenges and a
   remainder R fixed before the positions are drawn.  cs is the list of checks (level i, predicate on the positions reached
   after i foldings): the layer comparisons `evaluations != query_values` (InvalidLayerFolding) are [good_fold], the remainder
   comparison is [good_rem]; C05_query_comparisons says that the model's comparison functions are exactly the conjunction of
   these predicates over the current positions, and C05_layer_step_opened_iff that the model's layer step succeeds iff its
   comparison does (positions de-duplicated by fold_positions as in the code).  Then: a position vector passes all checks iff
   every LDE position reduces (mod the layer's domain size) into the good set of every check; exactly (D - U)^q of the D^q
   vectors pass, U = size of the union of the preimages of the bad sets; and (D - U)^q <= (D - bad_c N^level)^q for every
   single check c, i.e. the passing fraction is at most (1 - max_c bad_c/|domain_c|)^q.  Pure counting (partial): not claimed
   are the uniformity/independence of the drawn positions and the proximity-gap theorem relating the distance of E_0 from the code to the bad sets. *)
Theorem C05_fri_query_counting_all_checks_partial : forall (N : nat) (cs : list (nat * (nat -> bool))) n k q, N <> 0 -> n <> 0 ->
  (forall c, In c cs -> fst c <= k) ->
  let D := n * N ^ k in
  let U := length (filter (fun p => negb (pos_ok_checks cs n N k p)) (seq 0 D)) in
  (forall ps, (forall p, In p ps -> p < D) -> pass_checks cs n N k ps = forallb (pos_ok_checks cs n N k) ps) /\
  length (filter (pass_checks cs n N k) (vectors D q)) = (D - U) ^ q /\ length (vectors D q) = D ^ q /\
  (forall i g, In (i, g) cs ->
     (D - U) ^ q <= (D - length (filter (fun x => negb (g x)) (seq 0 (level_size n N k i))) * N ^ i) ^ q).
Proof. intros N. exact (fri_query_counting_all_checks_partial N). Qed.
Print Assumptions C05_fri_query_counting_all_checks_partial.

Theorem C05_query_comparisons : forall (F : Type) (O : FOps F) (gen_offset : F) (roots : list F) (N : nat),
  (forall g Eprev Enext rl alpha P,
     list_feqb O (map (foldval O gen_offset roots N g Eprev rl alpha) P) (map (fun p => nth p Enext (fzero O)) P)
     = forallb (good_fold O gen_offset roots N g Eprev Enext rl alpha) P) /\
  (forall R gk gprev Eprev rl alpha P,
     remainder_check O gen_offset R gk P (map (foldval O gen_offset roots N gprev Eprev rl alpha) P)
     = forallb (good_rem O gen_offset roots N R gk gprev Eprev rl alpha) P).
Proof. intros. split; intros; [apply layer_compare_forallb | apply remainder_compare_forallb]. Qed.
Print Assumptions C05_query_comparisons.

Theorem C05_layer_step_opened_iff : forall (F : Type) (O : FOps F), FLaws O ->
  forall (gen_offset : F) (dbg : bool) (D : Type) (hash_elements : list F -> D) (MN : Type)
         (mt_verify_batch : D -> list nat -> list D -> MN -> nat -> auth_res)
         N v roots depth s s' E rl alpha commitment nodes d proofs' queries',
  N <> 0 -> rl <> 0 -> vs_size D MN s = rl * N -> (forall p, In p (vs_positions D MN s) -> p < rl * N) ->
  fo_folding (v_options D v) = N -> v_partitions D v = 1 ->
  nth_error (v_commitments D v) depth = Some commitment -> nth_error (v_alphas D v) depth = Some alpha ->
  let folded := fold_positions_core (vs_positions D MN s) rl in
  let rows := map (row_of (fzero O) N rl E) folded in
  vc_proofs D MN (vs_chan D MN s) = (map hash_elements rows, nodes, d) :: proofs' ->
  vc_queries D MN (vs_chan D MN s) = concat rows :: queries' ->
  mt_verify_batch commitment folded (map hash_elements rows) nodes d = AuthOk ->
  vs_mdp1 D MN s mod N = 0 ->
  (layer_step O gen_offset dbg D MN mt_verify_batch N v roots depth s = Ok s' <->
   vs_evals D MN s = map (fun p => nth p E (fzero O)) (vs_positions D MN s) /\
   s' = mkVS D MN (fexp O (vs_gen D MN s) N) rl (vs_mdp1 D MN s / N) folded
             (map (foldval O gen_offset roots N (vs_gen D MN s) E rl alpha) folded) (chan_tail D MN (vs_chan D MN s))).
Proof. intros F O L gen_offset dbg D hash_elements MN mt_verify_batch. exact (layer_step_opened_iff O L gen_offset dbg D hash_elements MN mt_verify_batch). Qed.
Print Assumptions C05_layer_step_opened_iff.

(* query_phase_iff_pass_checks — the single iff: k >= 1 committed layer functions l0 :: rest ([clayer]: evaluation vector,
   challenge, commitment, Merkle nodes, depth) on the LDE domain D = n * N^k; the evaluations handed to the verifier are those of
   the first committed function at the query positions ps; the channel opens the committed functions at the folded positions
   ([opened]) and every opening authenticates ([auth_all]); no degree truncation (running bound e * N^k).  Then the model's
   query phase — layers_loop over all layers followed by the remainder comparison — succeeds IFF pass_checks cs ps, with cs =
   [checks_from]: the comparison of layer j against the fold of layer j-1 at level j (good_fold), the remainder comparison at
   level k (good_rem).  Together with C05_fri_query_counting_all_checks_partial: exactly (D - U)^q of the D^q position vectors
   make the model's query phase succeed.  Duplicates in ps are handled as in the code (fold_positions de-duplicates). *)
Theorem C05_query_phase_iff_pass_checks : forall (F : Type) (O : FOps F), FLaws O ->
  forall (gen_offset : F) (dbg : bool) (D : Type) (hash_elements : list F -> D) (MN : Type)
         (mt_verify_batch : D -> list nat -> list D -> MN -> nat -> auth_res) (roots : list F) (N : nat), N <> 0 ->
  forall (R : list F) (l0 : clayer D MN) rest v pre_c tail_c pre_a tail_a g n e ps cm ptail qtail rem,
  let Ls := l0 :: rest in
  let k := length Ls in
  let Dm := n * N ^ k in
  let cs := checks_from O gen_offset D MN roots N R rest 1 g (cl_E D MN l0) (Dm / N) (cl_alpha D MN l0) (fexp O g N) (Dm / N) in
  n <> 0 -> (forall p, In p ps -> p < Dm) ->
  v_commitments D v = pre_c ++ map (cl_commitment D MN) Ls ++ tail_c ->
  v_alphas D v = pre_a ++ map (cl_alpha D MN) Ls ++ tail_a ->
  length pre_a = length pre_c -> fo_folding (v_options D v) = N -> v_partitions D v = 1 ->
  auth_all O D hash_elements MN mt_verify_batch N Ls ps Dm ->
  ((exists s', layers_loop O gen_offset dbg D MN mt_verify_batch k N v roots (length pre_c)
                 (mkVS D MN g Dm (e * N ^ k) ps (FriQueryLoop.evals_at O (cl_E D MN l0) ps)
                       (mkVCh D MN cm (fst (opened O D hash_elements MN N Ls ps Dm) ++ ptail)
                                      (snd (opened O D hash_elements MN N Ls ps Dm) ++ qtail) rem 1)) = Ok s' /\
               remainder_check O gen_offset R (vs_gen D MN s') (vs_positions D MN s') (vs_evals D MN s') = true)
   <-> pass_checks cs n N k ps = true).
Proof.
  intros F O L gen_offset dbg D hash_elements MN mt_verify_batch roots N HN R.
  exact (query_phase_iff_pass_checks O L gen_offset dbg D hash_elements MN mt_verify_batch roots N HN R).
Qed.
Print Assumptions C05_query_phase_iff_pass_checks.

(* ---------------------------------------------------------------- the model computes the GENERATED integer terms
   (coq/Gen/FriInt.v, regenerated from fri/src by rs2v on every run) *)
(* FriProof::parse_layers: the guard `domain_size < folding_factor` and the division, as the model's parse_layers does *)
Theorem C05_gen_parse_layers : forall F D (h : list F -> D) MN N d pl rest, N <> 0 ->
  parse_layers D h MN N d (pl :: rest) =
  match fri_parse_layers_step (Z.of_nat d) (Z.of_nat N) 0 with
  | None => Some None
  | Some ds =>
    match parse_layer D h MN N (Z.to_nat ds) pl with
    | None => None
    | Some None => Some None
    | Some (Some (q, mp)) =>
      match parse_layers D h MN N (Z.to_nat ds) rest with
      | None => None
      | Some None => Some None
      | Some (Some (qs, mps)) => Some (Some (q :: qs, mp :: mps))
      end
    end
  end.
Proof. exact parse_layers_unfold_gen. Qed.
Print Assumptions C05_gen_parse_layers.

(* FriVerifier::new: the domain size, when the checked arithmetic does not overflow *)
Theorem C05_gen_verifier_domain : forall m o,
  fri_verifier_new_domain_ok (Z.of_nat m) (gopts o) = true ->
  fri_verifier_new_domain (Z.of_nat m) (gopts o) = Z.of_nat (Fri.next_pow2 (m + 1) * fo_blowup o).
Proof. exact verifier_new_domain_gen. Qed.
Print Assumptions C05_gen_verifier_domain.

(* FriVerifier::new: one iteration of the commitment loop of the model (draw_alphas) performs the generated degree-truncation
   test and division of the running bound *)
Theorem C05_gen_draw_alphas_head : forall F D CS (reseed : CS -> D -> CS) (draw : CS -> CS * draw_res F)
  coin c rest depth o mdp1 coin2 alpha, fo_folding o <> 0 -> u64 (S (length rest)) ->
  draw (reseed coin c) = (coin2, DrawOk alpha) ->
  draw_alphas D CS reseed draw coin (c :: rest) depth (length (c :: rest) - 1) mdp1 (fo_folding o)
  = match fri_verifier_new_step (Z.of_nat depth) (Z.of_nat (length (c :: rest))) (gopts o) (Z.of_nat mdp1) with
    | None => Err (DegreeTruncation (mdp1 - 1) (fo_folding o) depth)
    | Some m =>
      bind (draw_alphas D CS reseed draw coin2 rest (S depth) (length (c :: rest) - 1) (Z.to_nat m) (fo_folding o))
           (fun r => let (cF, al) := r in Ok (cF, alpha :: al))
    end.
Proof. exact draw_alphas_head_gen. Qed.
Print Assumptions C05_gen_draw_alphas_head.

(* verify_generic: the per-layer divisibility test (c) and the remainder length test (d) of the model are the generated ones *)
Theorem C05_gen_degree_checks : forall mdp1 N depth len, N <> 0 ->
  fri_verify_layer_bound (Z.of_nat mdp1) (Z.of_nat N) depth = (if negb (mdp1 mod N =? 0) then None else Some true) /\
  fri_verify_remainder_bound (Z.of_nat len) (Z.of_nat mdp1) = (if mdp1 <? len then None else Some true).
Proof. intros. split; [now apply verify_layer_bound_gen | apply verify_remainder_bound_gen]. Qed.
Print Assumptions C05_gen_degree_checks.

(* non-vacuity of the characterisation: the executable instantiation (f64, ToyHasher, one FRI layer, queries 1, 5, 6 with a
   collision after folding) accepts the model prover's proof, and answers RemainderCommitmentMismatch when the remainder is
   changed after the commitment (the unrepaired verifier reaches the evaluation check instead) *)
Example C05_accepting_transcript_exists : ex_run 0%Z = Some (1, RunVerdict (Ok tt), RunVerdict (Ok tt)).
Proof. exact ex_honest_accepted. Qed.
Example C05_changed_remainder_rejected :
  ex_run 1%Z = Some (1, RunVerdict (Err RemainderCommitmentMismatch), RunVerdict (Err InvalidRemainderFolding)).
Proof. exact ex_changed_remainder_rejected. Qed.
