(* C19 — public coin contract (crypto/src/random/default.rs).
   Only statements, `exact` of lemmas proved in Proofs/, and Print Assumptions.
   Every theorem before the non-vacuity instances is universally quantified over the digest type D and the hash
   oracles hash_elements / merge / merge_with_int / as_bytes: nothing is assumed about them (no collision resistance,
   no length conditions) unless written as a hypothesis.  The model is Model/Coin.v; it is tied to the crate by the history correspondence. *)
From VBase Require Import MachInt.
From VGen Require Import F64.
From VModel Require Import ToyHash Coin.
From VGen Require F62 F128.
From VProofs Require F62Ops F128Limbs F128Ops.
From VProofs Require Import F64Red F64Ops Coin CoinProps CoinToy CoinFields.
Open Scope Z_scope.

(* ---------------------------------------------------------------------------------------------- determinism *)

(* equal histories give equal states and equal outputs *)
Theorem C19_coin_deterministic : forall D (hash_elements : list Z -> D) merge merge_with_int dbytes e1 e2 ops1 ops2,
  e1 = e2 -> ops1 = ops2 ->
  run D merge merge_with_int dbytes (coin_new D hash_elements e1) ops1 =
  run D merge merge_with_int dbytes (coin_new D hash_elements e2) ops2.
Proof. exact coin_deterministic. Qed.
Print Assumptions C19_coin_deterministic.

(* the coin depends on the hash functions only through their values: pointwise equal oracles, equal runs *)
Theorem C19_run_oracle_ext : forall D (m1 m2 : D -> D -> D) (i1 i2 : D -> Z -> D) (b1 b2 : D -> list Z),
  (forall a b, m1 a b = m2 a b) -> (forall a n, i1 a n = i2 a n) -> (forall a, b1 a = b2 a) ->
  forall c ops, run D m1 i1 b1 c ops = run D m2 i2 b2 c ops.
Proof. exact run_oracle_ext. Qed.
Print Assumptions C19_run_oracle_ext.

(* outputs of a prefix of a history do not depend on later operations *)
Theorem C19_outputs_causal : forall D merge merge_with_int dbytes (c : coin D) a b,
  firstn (length a) (snd (run D merge merge_with_int dbytes c (a ++ b))) = snd (run D merge merge_with_int dbytes c a).
Proof. exact outputs_causal. Qed.
Print Assumptions C19_outputs_causal.

(* ---------------------------------------------------------------------------------------------- draw *)

(* every element returned by draw, for every element type (modulus, coefficient width, degree), every state and
   every hash: the right number of coefficients, each below the modulus *)
Theorem C19_draw_valid : forall D merge_with_int dbytes k (c c' : coin D) e,
  coin_draw D merge_with_int dbytes k c = (c', Ok e) ->
  length e = fk_deg k /\ Forall (fun v => v < fk_M k) e.
Proof. exact draw_valid. Qed.
Print Assumptions C19_draw_valid.

(* with as_bytes returning bytes: coefficients are canonical residues 0 <= v < M *)
Theorem C19_draw_valid_canonical : forall D merge_with_int dbytes k (c c' : coin D) e,
  (forall d, Forall (fun b => 0 <= b < 256) (dbytes d)) ->
  coin_draw D merge_with_int dbytes k c = (c', Ok e) ->
  length e = fk_deg k /\ Forall (fun v => 0 <= v < fk_M k) e.
Proof. exact draw_valid_nonneg. Qed.
Print Assumptions C19_draw_valid_canonical.

(* the same at the level of whole histories: the i-th output of any run, if it is a drawn element *)
Theorem C19_run_draws_valid : forall D merge merge_with_int dbytes (c : coin D) ops i k e,
  nth_error ops i = Some (OpDraw k) ->
  nth_error (snd (run D merge merge_with_int dbytes c ops)) i = Some (OutElem (Ok e)) ->
  length e = fk_deg k /\ Forall (fun v => v < fk_M k) e.
Proof. exact run_draws_valid. Qed.
Print Assumptions C19_run_draws_valid.

(* f64: the stored Montgomery word BaseElement::new(v) (generated model of math/src/field/f64) is canonical and denotes v *)
Theorem C19_draw_f64_internal_canonical : forall D merge_with_int dbytes deg (c c' : coin D) e,
  (forall d, Forall (fun b => 0 <= b < 256) (dbytes d)) ->
  coin_draw D merge_with_int dbytes (fk_f64 deg) c = (c', Ok e) ->
  Forall (fun v => repr (f64_new v) /\ val (f64_new v) = v) e.
Proof. exact draw_f64_internal_canonical. Qed.
Print Assumptions C19_draw_f64_internal_canonical.

(* f62: the stored word BaseElement::new(v) (generated model of math/src/field/f62) lies in the representation range
   [0, 2M) and its as_int is the drawn value v *)
Theorem C19_draw_f62_internal_word : forall D merge_with_int dbytes,
  (forall d, Forall (fun b => 0 <= b < 256) (dbytes d)) ->
  forall deg (c c' : coin D) e, coin_draw D merge_with_int dbytes (fk_f62 deg) c = (c', Ok e) ->
  Forall (fun v => F62Ops.repr62 (F62.f62_new v) /\ F62.f62_as_int (F62.f62_new v) = v /\
                   F62Ops.val62 (F62.f62_new v) = v) e.
Proof. exact draw_f62_internal. Qed.
Print Assumptions C19_draw_f62_internal_word.

(* f128: the stored word is the drawn value itself (identity representation), canonical: v < M; new / try_from fix it *)
Theorem C19_draw_f128_internal_word : forall D merge_with_int dbytes,
  (forall d, Forall (fun b => 0 <= b < 256) (dbytes d)) ->
  forall deg (c c' : coin D) e, coin_draw D merge_with_int dbytes (fk_f128 deg) c = (c', Ok e) ->
  Forall (fun v => F128Ops.repr128 v /\ F128.f128_as_int v = v /\ F128.f128_new v = v /\
                   F128.f128_try_from_u128 v = Some v) e.
Proof. exact draw_f128_internal. Qed.
Print Assumptions C19_draw_f128_internal_word.

(* exact behaviour: draw returns the FIRST admissible counter-mode output hash(seed || counter+j), j <= 1000, and
   Err exactly when the next 1000 outputs are all inadmissible; it never panics for elements of at most 32 bytes *)
Theorem C19_draw_first_valid : forall D merge_with_int dbytes k (c c' : coin D) r,
  coin_draw D merge_with_int dbytes k c = (c', r) ->
  0 <= counter c -> counter c + 1000 < 2 ^ 64 -> (elem_bytes k <= 32)%nat ->
  seed c' = seed c /\
  match r with
  | Ok e => exists j, 1 <= j <= 1000 /\ counter c' = counter c + j /\
              from_random_bytes k (draw_bytes D merge_with_int dbytes k (seed c) (counter c) j) = Some e /\
              forall i, 1 <= i < j -> from_random_bytes k (draw_bytes D merge_with_int dbytes k (seed c) (counter c) i) = None
  | Err => counter c' = counter c + 1000 /\
           forall i, 1 <= i <= 1000 -> from_random_bytes k (draw_bytes D merge_with_int dbytes k (seed c) (counter c) i) = None
  | Panic => False
  end.
Proof. exact draw_first_valid. Qed.
Print Assumptions C19_draw_first_valid.

(* the rejection test is exactly "some coefficient >= modulus" *)
Theorem C19_from_random_bytes_accepts : forall k bytes, length bytes = elem_bytes k ->
  Forall (fun v => v < fk_M k) (map of_le_bytes (chunks (fk_eb k) (fk_deg k) bytes)) ->
  from_random_bytes k bytes = Some (map of_le_bytes (chunks (fk_eb k) (fk_deg k) bytes)).
Proof. exact from_random_bytes_accepts. Qed.
Print Assumptions C19_from_random_bytes_accepts.

Theorem C19_from_random_bytes_rejects : forall k bytes v,
  In v (map of_le_bytes (chunks (fk_eb k) (fk_deg k) bytes)) -> fk_M k <= v -> from_random_bytes k bytes = None.
Proof. exact from_random_bytes_rejects. Qed.
Print Assumptions C19_from_random_bytes_rejects.

(* the only panic of draw below counter overflow: an element type wider than as_bytes() (CubeExtension<f128>) *)
Theorem C19_draw_panic_oversize : forall D merge_with_int dbytes k (c : coin D),
  (32 < elem_bytes k)%nat -> counter c + 1 < 2 ^ 64 ->
  coin_draw D merge_with_int dbytes k c = (mkCoin (seed c) (counter c + 1), Panic).
Proof. exact draw_panic_oversize. Qed.
Print Assumptions C19_draw_panic_oversize.

(* ---------------------------------------------------------------------------------------------- draw_integers *)

(* the complete case table, for all arguments *)
Theorem C19_draw_integers_spec : forall D merge_with_int dbytes (c : coin D) n dom nonce, 0 <= n ->
  let s' := nonce_seed D merge_with_int c nonce in
  coin_draw_integers D merge_with_int dbytes c n dom nonce =
    if negb (is_pow2 dom) then (c, Panic)
    else if dom <=? n then (c, Err)
    else if n =? 0 then (mkCoin s' 1000, Ok (ints_vals D merge_with_int dbytes s' 0 (dom - 1) 1000))
    else if n <=? 1000 then (mkCoin s' n, Ok (ints_vals D merge_with_int dbytes s' 0 (dom - 1) (Z.to_nat n)))
    else (mkCoin s' 1000, Err).
Proof. exact draw_integers_spec. Qed.
Print Assumptions C19_draw_integers_spec.

(* the contract: power-of-two domain, 1 <= n <= 1000, n < domain: exactly n values, each the PRNG word mod domain *)
Theorem C19_draw_integers_ok : forall D merge_with_int dbytes (c : coin D) n dom nonce,
  is_pow2 dom = true -> 1 <= n <= 1000 -> n < dom ->
  exists vals, coin_draw_integers D merge_with_int dbytes c n dom nonce = (mkCoin (nonce_seed D merge_with_int c nonce) n, Ok vals) /\
               Z.of_nat (length vals) = n /\ Forall (fun v => 0 <= v < dom) vals /\
               vals = map (fun j => le64 D dbytes (prng D merge_with_int (nonce_seed D merge_with_int c nonce) 0 (Z.of_nat j)) mod dom)
                          (seq 1 (Z.to_nat n)).
Proof. exact draw_integers_ok. Qed.
Print Assumptions C19_draw_integers_ok.

(* converse, at the level of whole histories: whenever a run outputs integers for a request of n >= 1 values *)
Theorem C19_run_ints_valid : forall D merge merge_with_int dbytes (c : coin D) ops i n dom nonce vals, 1 <= n ->
  nth_error ops i = Some (OpInts n dom nonce) ->
  nth_error (snd (run D merge merge_with_int dbytes c ops)) i = Some (OutInts (Ok vals)) ->
  Z.of_nat (length vals) = n /\ Forall (fun v => 0 <= v < dom) vals.
Proof. exact run_ints_valid. Qed.
Print Assumptions C19_run_ints_valid.

Theorem C19_is_pow2_spec : forall x, is_pow2 x = true <-> exists k, 0 <= k /\ x = 2 ^ k.
Proof. exact is_pow2_spec. Qed.
Print Assumptions C19_is_pow2_spec.

(* Panic domain (the documented assert: domain not a power of two) and Err domain (count >= domain size, or more
   than 1000 values) exactly *)
Theorem C19_draw_integers_panic_iff : forall D merge_with_int dbytes (c : coin D) n dom nonce, 0 <= n ->
  (snd (coin_draw_integers D merge_with_int dbytes c n dom nonce) = Panic <-> ~ exists k, 0 <= k /\ dom = 2 ^ k).
Proof. exact draw_integers_panic_iff. Qed.
Print Assumptions C19_draw_integers_panic_iff.

Theorem C19_draw_integers_err_iff : forall D merge_with_int dbytes (c : coin D) n dom nonce, 0 <= n ->
  (snd (coin_draw_integers D merge_with_int dbytes c n dom nonce) = Err <->
   (is_pow2 dom = true /\ (dom <= n \/ 1000 < n))).
Proof. exact draw_integers_err_iff. Qed.
Print Assumptions C19_draw_integers_err_iff.

(* outside the property's quantifier (counts 1..255): a request for zero values returns 1000 values *)
Theorem C19_draw_integers_zero_count : forall D merge_with_int dbytes (c : coin D) dom nonce, is_pow2 dom = true ->
  exists vals, coin_draw_integers D merge_with_int dbytes c 0 dom nonce = (mkCoin (nonce_seed D merge_with_int c nonce) 1000, Ok vals) /\
               length vals = 1000%nat.
Proof. exact draw_integers_zero_count. Qed.
Print Assumptions C19_draw_integers_zero_count.

(* ---------------------------------------------------------------------------------------------- check_leading_zeros, PoW *)

Theorem C19_check_lz_pure : forall D merge merge_with_int dbytes (c : coin D) v,
  fst (step D merge merge_with_int dbytes c (OpLz v)) = c.
Proof. exact check_lz_pure. Qed.
Print Assumptions C19_check_lz_pure.

(* deleting every check_leading_zeros call from a history changes neither the final state nor any other output *)
Theorem C19_check_lz_transparent : forall D merge merge_with_int dbytes (c : coin D) ops,
  run D merge merge_with_int dbytes c (filter (not_lz D) ops) =
  (fst (run D merge merge_with_int dbytes c ops), filter not_lz_out (snd (run D merge merge_with_int dbytes c ops))).
Proof. exact lz_transparent. Qed.
Print Assumptions C19_check_lz_transparent.

Theorem C19_check_lz_range : forall D merge_with_int dbytes (c : coin D) v,
  0 <= coin_check_lz D merge_with_int dbytes c v <= 64.
Proof. exact check_lz_range. Qed.
Print Assumptions C19_check_lz_range.

(* meaning of the measure: t <= measure  iff  2^t divides the little-endian u64 head of hash(seed || nonce) *)
Theorem C19_check_lz_ge_iff : forall D merge_with_int dbytes (c : coin D) v t,
  (forall d, Forall (fun b => 0 <= b < 256) (dbytes d)) -> 0 <= t <= 64 ->
  (t <= coin_check_lz D merge_with_int dbytes c v <-> le64 D dbytes (merge_with_int (seed c) v) mod 2 ^ t = 0).
Proof. exact check_lz_ge_iff. Qed.
Print Assumptions C19_check_lz_ge_iff.

(* the predicate searched by ProverChannel::grind_query_seed is the predicate tested by the verifier *)
Theorem C19_pow_pred_agree : forall D merge_with_int dbytes (c : coin D) gf nonce,
  pow_search_pred D merge_with_int dbytes c gf nonce = pow_verifier_accepts D merge_with_int dbytes c gf nonce.
Proof. exact pow_pred_agree. Qed.
Print Assumptions C19_pow_pred_agree.

(* the nonce found by the prover's search: accepted by the verifier on a coin in the same state, least such nonce
   >= 1, and its measure is the trailing-zero count of the head of the seed installed by draw_integers(.., nonce) *)
Theorem C19_pow_measure_agree : forall D merge_with_int dbytes fuel (c : coin D) gf nonce,
  grind D merge_with_int dbytes fuel c gf = Some nonce ->
  1 <= nonce < 2 ^ 64 - 1 /\
  pow_verifier_accepts D merge_with_int dbytes c gf nonce = true /\
  (forall m, 1 <= m < nonce -> pow_verifier_accepts D merge_with_int dbytes c gf m = false) /\
  (forall n dom, 0 <= n -> is_pow2 dom && (n <? dom) = true ->
     coin_check_lz D merge_with_int dbytes c nonce =
     ctz 64 (le64 D dbytes (seed (fst (coin_draw_integers D merge_with_int dbytes c n dom nonce))))).
Proof. exact pow_measure_agree. Qed.
Print Assumptions C19_pow_measure_agree.

Theorem C19_grind_complete : forall D merge_with_int dbytes fuel (c : coin D) gf nonce,
  1 <= nonce <= Z.of_nat fuel -> nonce < 2 ^ 64 - 1 ->
  pow_verifier_accepts D merge_with_int dbytes c gf nonce = true ->
  exists n', grind D merge_with_int dbytes fuel c gf = Some n' /\ n' <= nonce.
Proof. exact grind_complete. Qed.
Print Assumptions C19_grind_complete.

(* ---------------------------------------------------------------------------------------------- what a history feeds to the hash *)

(* the seed after a history is the hash chain over (seed elements; reseed data and nonces in order), nothing else *)
Theorem C19_seed_of_history : forall D hash_elements merge merge_with_int dbytes e ops, Forall (wf_op D) ops ->
  seed (fst (run D merge merge_with_int dbytes (coin_new D hash_elements e) ops)) =
  chain_seed D hash_elements merge merge_with_int e (absorbs D ops).
Proof. exact seed_of_history. Qed.
Print Assumptions C19_seed_of_history.

(* Two histories that differ in the seed elements, in a reseed datum or a nonce (or in the sequence of absorbs), or
   in the number of PRNG calls since the last absorb, pass different (seed, counter) arguments to merge_with_int
   at the next draw, or find_collision returns an explicit collision / cross-oracle coincidence.  No collision
   resistance is assumed; deqb is any decision procedure for equality of digests. *)
Theorem C19_history_inputs_injective : forall D hash_elements merge merge_with_int dbytes (deqb : D -> D -> bool),
  (forall a b, deqb a b = true <-> a = b) ->
  forall e1 ops1 e2 ops2, Forall (wf_op D) ops1 -> Forall (wf_op D) ops2 ->
  let c1 := fst (run D merge merge_with_int dbytes (coin_new D hash_elements e1) ops1) in
  let c2 := fst (run D merge merge_with_int dbytes (coin_new D hash_elements e2) ops2) in
  (e1, absorbs D ops1) <> (e2, absorbs D ops2) \/ counter c1 <> counter c2 ->
  next_input D c1 <> next_input D c2 \/
  valid_collision D hash_elements merge merge_with_int
    (find_collision D hash_elements merge merge_with_int deqb e1 (absorbs D ops1) e2 (absorbs D ops2)).
Proof. exact history_inputs_injective. Qed.
Print Assumptions C19_history_inputs_injective.

(* for histories of the same shape the exhibited collision is a collision of a single oracle *)
Theorem C19_same_shape_collision_is_proper : forall D hash_elements merge merge_with_int (deqb : D -> D -> bool) e1 a1 e2 a2,
  map (absorb_kind D) a1 = map (absorb_kind D) a2 ->
  is_cross D (find_collision D hash_elements merge merge_with_int deqb e1 a1 e2 a2) = false.
Proof. exact same_shape_collision_is_proper. Qed.
Print Assumptions C19_same_shape_collision_is_proper.

(* "number of earlier draws" is relative to the last reseed: the counter restarts at every reseed (by design, see
   the anchor's state description), so draws made before a reseed leave no trace *)
Theorem C19_draws_before_reseed_forgotten : forall D merge merge_with_int dbytes (c : coin D) pre d,
  Forall (is_reader D) pre -> 0 <= counter c ->
  fst (run D merge merge_with_int dbytes c (pre ++ [OpReseed d])) = coin_reseed D merge c d.
Proof. exact draws_before_reseed_forgotten. Qed.
Print Assumptions C19_draws_before_reseed_forgotten.

Theorem C19_outputs_after_reseed_independent : forall D merge merge_with_int dbytes (c : coin D) pre1 pre2 d rest,
  Forall (is_reader D) pre1 -> Forall (is_reader D) pre2 -> 0 <= counter c ->
  run D merge merge_with_int dbytes (fst (run D merge merge_with_int dbytes c (pre1 ++ [OpReseed d]))) rest =
  run D merge merge_with_int dbytes (fst (run D merge merge_with_int dbytes c (pre2 ++ [OpReseed d]))) rest.
Proof. exact outputs_after_reseed_independent. Qed.
Print Assumptions C19_outputs_after_reseed_independent.

(* since the last reseed, every additional draw changes the input of the next hash call *)
Theorem C19_extra_draw_changes_input : forall D merge merge_with_int dbytes (c : coin D) k,
  0 <= counter c -> counter c + 1 < 2 ^ 64 ->
  next_input D (fst (step D merge merge_with_int dbytes c (OpDraw k))) <> next_input D c.
Proof. exact extra_draw_changes_input. Qed.
Print Assumptions C19_extra_draw_changes_input.

Theorem C19_more_draws_larger_counter : forall D merge merge_with_int dbytes (c : coin D) ks,
  0 <= counter c -> counter c + 1000 * Z.of_nat (length ks) < 2 ^ 64 ->
  counter c + Z.of_nat (length ks) <= counter (fst (run D merge merge_with_int dbytes c (map (@OpDraw D) ks))).
Proof. exact more_draws_larger_counter. Qed.
Print Assumptions C19_more_draws_larger_counter.

(* u64 counter: at most 1000 per operation, so `self.counter += 1` cannot overflow (debug panic / release wrap)
   in fewer than 2^64 / 1000 operations *)
Theorem C19_counter_bound : forall D merge merge_with_int dbytes (c : coin D) ops, Forall (wf_op D) ops -> 0 <= counter c ->
  0 <= counter (fst (run D merge merge_with_int dbytes c ops)) <= counter c + 1000 * Z.of_nat (length ops).
Proof. exact counter_bound. Qed.
Print Assumptions C19_counter_bound.

(* ---------------------------------------------------------------------------------------------- non-vacuity *)
(* the byte-view hypotheses hold for the two instantiations used by the correspondence *)
Theorem C19_toy_dbytes_wf : forall d, Forall (fun b => 0 <= b < 256) (toy_dbytes d) /\ length (toy_dbytes d) = 32%nat.
Proof. exact toy_dbytes_wf. Qed.
Print Assumptions C19_toy_dbytes_wf.

Theorem C19_wide_dbytes_wf : forall d, Forall (fun b => 0 <= b < 256) (wide_dbytes d).
Proof. exact wide_dbytes_wf. Qed.
Print Assumptions C19_wide_dbytes_wf.

(* outcome classes are inhabited: draw Ok after a rejection (ToyHasher), draw Err after 1000 tries (WideToy mode 3);
   integers Ok / Err (count = domain) / Panic / Err (1001 values); a successful nonce search.  The oversize Panic of
   draw and the zero count have their instances in Proofs/CoinToy.v (draw_panic_oversize_ex, draw_integers_zero_ex) *)
Theorem C19_ex_draw_ok_after_rejection :
  coin_draw Z toy_merge_int toy_dbytes (fk_f62 1) c0 = (mkCoin 5323811113220503390 2, Ok [910144776332636229]) /\
  from_random_bytes (fk_f62 1) (firstn 8 (toy_dbytes (toy_merge_int (seed c0) 1))) = None.
Proof. exact draw_ok_after_rejection. Qed.
Print Assumptions C19_ex_draw_ok_after_rejection.

Theorem C19_ex_draw_err : exists s,
  coin_draw (list Z) (wide_merge_int 3) wide_dbytes (fk_f64 3) (wide_coin_new 3 8 [1; 2; 3]) = (mkCoin s 1000, Err).
Proof. exact draw_err_after_1000. Qed.
Print Assumptions C19_ex_draw_err.

Theorem C19_ex_draw_integers :
  coin_draw_integers Z toy_merge_int toy_dbytes c0 5 8 7 = (mkCoin 12659942608561989065 5, Ok [0; 3; 1; 3; 5]) /\
  coin_draw_integers Z toy_merge_int toy_dbytes c0 8 8 7 = (c0, Err) /\
  coin_draw_integers Z toy_merge_int toy_dbytes c0 3 6 7 = (c0, Panic) /\
  coin_draw_integers Z toy_merge_int toy_dbytes c0 1001 2048 7 = (mkCoin 12659942608561989065 1000, Err).
Proof. exact (conj draw_integers_ok_ex (conj draw_integers_err_count (conj draw_integers_panic_pow2 draw_integers_err_ex))). Qed.
Print Assumptions C19_ex_draw_integers.

Theorem C19_ex_grind : toy_grind 200 c0 4 = Some 6 /\ coin_check_lz Z toy_merge_int toy_dbytes c0 1 = 1 /\
  4 <= coin_check_lz Z toy_merge_int toy_dbytes c0 6.
Proof. exact grind_ex. Qed.
Print Assumptions C19_ex_grind.

(* both disjuncts of C19_history_inputs_injective are inhabited: different inputs; and a cross-oracle coincidence that
   needs no collision of the underlying hash (new([H(e); d]) is the same coin as new(e).reseed(d) for hashers that
   hash plain concatenations) *)
Theorem C19_ex_injective :
  let c1 := fst (toy_coin_run (toy_coin_new 8 [1; 2; 3]) [OpReseed 77]) in
  let c2 := fst (toy_coin_run (toy_coin_new 8 [1; 2; 3]) [OpReseed 78]) in
  ([1; 2; 3], absorbs Z [OpReseed 77]) <> ([1; 2; 3], absorbs Z [OpReseed 78]) /\ next_input Z c1 <> next_input Z c2.
Proof. exact injective_ex. Qed.
Print Assumptions C19_ex_injective.

Theorem C19_ex_shape_ambiguity :
  toy_coin_new 8 amb_e1 = fst (toy_coin_run (toy_coin_new 8 amb_e2) [OpReseed amb_d]) /\
  find_collision Z (toy_hash_elems 8) toy_merge toy_merge_int Z.eqb amb_e1 [] amb_e2 [AData amb_d] =
    CrossElemsMerge Z amb_e1 (toy_hash_elems 8 amb_e2) amb_d /\
  valid_collision Z (toy_hash_elems 8) toy_merge toy_merge_int
    (find_collision Z (toy_hash_elems 8) toy_merge toy_merge_int Z.eqb amb_e1 [] amb_e2 [AData amb_d]).
Proof. exact shape_ambiguity_toy. Qed.
Print Assumptions C19_ex_shape_ambiguity.
