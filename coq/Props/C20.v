(* C20 — polynomial arithmetic and batch utilities satisfy their algebraic identities.
   Only statements, `exact` of lemmas proved in Proofs/, Print Assumptions, non-vacuity examples.
   Every theorem is for an ARBITRARY carrier F with operations O : FOps F satisfying the field laws FLaws O
   (base fields and their extensions alike) and for lists of ANY length.
   `peval O p x` = Σ p_i x^i is the specification of a coefficient list (PolyBase.peval). *)
From Coq Require Import List Arith ZArith Bool.
From VBase Require Import FieldOps ZpOps.
From VGen Require Import F64 F62 F128.
From VModel Require Import Polynom ExtField PolynomExt.
From VProofs Require Import PolyBase PolyArith PolyCoeff PolyUtils PolyDiv PolyExact PolyMixed PolyRoots PolyInterp PolyBatch PolyUnique PolyInst.
From VProofs Require Import ZpLaws ExtTheory ExtModel ExtConcrete.
Import ListNotations.
Local Open Scope nat_scope.

Section C20.
Context {F : Type} (O : FOps F) (L : FLaws O).
Local Notation zero := (fzero O).
Local Notation one := (fone O).

(* ---------------------------------------------------------------- evaluation *)
Theorem C20_eval_horner : forall p x, eval O p x = peval O p x.
Proof. exact (eval_horner O L). Qed.

Theorem C20_eval_many : forall p xs, eval_many O p xs = map (peval O p) xs.
Proof. exact (eval_many_spec O L). Qed.

(* ---------------------------------------------------------------- add / sub / mul_by_scalar / mul *)
Theorem C20_add_spec : forall a b x,
  peval O (add O a b) x = fadd O (peval O a x) (peval O b x) /\ length (add O a b) = Nat.max (length a) (length b).
Proof. intros; split. apply (add_spec O L). apply add_length. Qed.

Theorem C20_add_coeff : forall a b i, nth i (add O a b) zero = fadd O (nth i a zero) (nth i b zero).
Proof. exact (add_nth O L). Qed.

Theorem C20_sub_spec : forall a b x,
  peval O (sub O a b) x = fsub O (peval O a x) (peval O b x) /\ length (sub O a b) = Nat.max (length a) (length b).
Proof. intros; split. apply (sub_spec O L). apply sub_length. Qed.

Theorem C20_sub_coeff : forall a b i, nth i (sub O a b) zero = fsub O (nth i a zero) (nth i b zero).
Proof. exact (sub_nth O L). Qed.

Theorem C20_mul_by_scalar_spec : forall p k x,
  peval O (mul_by_scalar O p k) x = fmul O k (peval O p x) /\ length (mul_by_scalar O p k) = length p.
Proof. intros; split. apply (mul_by_scalar_spec O L). apply mul_by_scalar_length. Qed.

(* mul (repaired code) never panics, has length la+lb-1 (0 when both are empty) and is the product *)
Theorem C20_mul_spec : forall a b,
  exists r, mul O a b = Ok r /\ length r = length a + length b - 1 /\
            forall x, peval O r x = fmul O (peval O a x) (peval O b x).
Proof. intros a b. destruct (mul_run O L a b) as (r & H1 & H2 & _ & H4). now exists r. Qed.

(* the code before the repair panicked exactly on two empty slices (usize underflow) *)
Theorem C20_mul_unrepaired_total_iff : forall a b, mul_unrepaired O a b <> Panic <-> (a <> [] \/ b <> []).
Proof. exact (mul_unrepaired_total_iff O L). Qed.

(* ---------------------------------------------------------------- degree_of / remove_leading_zeros *)
Theorem C20_degree_of_spec : forall poly,
  (forall k, degree_of O poly < k -> nth k poly zero = zero) /\
  ((exists k, nth k poly zero <> zero) ->
     degree_of O poly < length poly /\ nth (degree_of O poly) poly zero <> zero) /\
  ((forall k, nth k poly zero = zero) -> degree_of O poly = 0).
Proof. exact (degree_of_spec O L). Qed.

Theorem C20_remove_leading_zeros_spec : forall values,
  let r := remove_leading_zeros O values in
  values = r ++ repeat zero (length values - length r) /\
  (r = [] \/ last r zero <> zero) /\
  (forall x, peval O r x = peval O values x).
Proof. exact (remove_leading_zeros_spec O L). Qed.

(* ---------------------------------------------------------------- batch inversion *)
Theorem C20_batch_inversion_spec : forall vs,
  length (batch_inversion O vs) = length vs /\
  forall i, i < length vs ->
    nth i (batch_inversion O vs) zero = if feqb O (nth i vs zero) zero then zero else finv O (nth i vs zero).
Proof. intros; split. apply (batch_inversion_length O L). intros; now apply (batch_inversion_nth O L). Qed.

Theorem C20_batch_inversion_mul : forall vs i, i < length vs -> nth i vs zero <> zero ->
  fmul O (nth i vs zero) (nth i (batch_inversion O vs) zero) = one.
Proof. exact (batch_inversion_mul O L). Qed.

(* ---------------------------------------------------------------- power series *)
Theorem C20_power_series_spec : forall b n,
  exists l, get_power_series O b n = Ok l /\ length l = n /\ forall i, i < n -> nth i l zero = fpow O b i.
Proof. exact (get_power_series_spec O L). Qed.

Theorem C20_power_series_with_offset_spec : forall b s n,
  exists l, get_power_series_with_offset O b s n = Ok l /\ length l = n /\
            forall i, i < n -> nth i l zero = fmul O s (fpow O b i).
Proof. exact (get_power_series_with_offset_spec O L). Qed.

(* ---------------------------------------------------------------- add_in_place / mul_acc *)
Theorem C20_add_in_place_spec : forall a b,
  (length a = length b ->
     exists r, add_in_place O a b = Ok r /\ length r = length a /\
               forall i, i < length a -> nth i r zero = fadd O (nth i a zero) (nth i b zero)) /\
  (add_in_place O a b <> Panic <-> length a = length b).
Proof. exact (add_in_place_spec O). Qed.

Theorem C20_mul_acc_spec : forall a b c,
  (length a = length b ->
     exists r, mul_acc O a b c = Ok r /\ length r = length a /\
               forall i, i < length a -> nth i r zero = fadd O (nth i a zero) (fmul O (nth i b zero) c)) /\
  (mul_acc O a b c <> Panic <-> length a = length b).
Proof. exact (mul_acc_spec O L). Qed.

(* ---------------------------------------------------------------- synthetic division by x^a - b *)
(* in-place layout: `q` is the slice after the call (quotient in the low len-a entries, the top a entries zero),
   `r` the discarded remainder: for a = 1 the final carry `c`, for a >= 2 the low a entries before the shift *)
Theorem C20_syn_div_in_place_spec : forall p a b q r, syn_div_in_place_full O p a b = Ok (q, r) ->
  (forall x, peval O p x = fadd O (fmul O (peval O q x) (fsub O (fpow O x a) b)) (peval O r x)) /\
  length q = length p /\ length r = a /\ skipn (length p - a) q = repeat zero a.
Proof. exact (syn_div_full_spec O L). Qed.

Theorem C20_syn_div_spec : forall p a b q, syn_div O p a b = Ok q ->
  length q = length p /\ skipn (length p - a) q = repeat zero a /\
  exists r, length r = a /\
    forall x, peval O p x = fadd O (fmul O (peval O q x) (fsub O (fpow O x a) b)) (peval O r x).
Proof. exact (syn_div_spec O L). Qed.

(* exact Panic domain = the three documented conditions *)
Theorem C20_syn_div_total_iff : forall p a b, syn_div O p a b <> Panic <-> (a <> 0 /\ b <> zero /\ a < length p).
Proof. exact (syn_div_public_total_iff O L). Qed.

(* ---------------------------------------------------------------- synthetic division by a list of roots *)
Theorem C20_syn_div_roots_spec : forall p roots q, syn_div_roots_in_place O p roots = Ok q ->
  length q = length p /\
  exists rem, length rem = length roots /\
    forall x, peval O p x = fadd O (fmul O (peval O q x) (pprod O roots x)) (peval O rem x).
Proof. exact (syn_div_roots_spec O L). Qed.

Theorem C20_syn_div_roots_total_iff : forall p roots,
  syn_div_roots_in_place O p roots <> Panic <-> (roots <> [] /\ length roots < length p).
Proof. exact (syn_div_roots_total_iff O). Qed.

(* ---------------------------------------------------------------- long division *)
(* `aw` is the working copy of the dividend after the loop; the remainder is its first `degree_of b` entries *)
Theorem C20_div_spec : forall a b q aw, div_full O a b = Ok (q, aw) ->
  (forall x, peval O a x = fadd O (fmul O (peval O q x) (peval O b x)) (peval O (firstn (degree_of O b) aw) x)) /\
  degree_of O b < length b /\ nth (degree_of O b) b zero <> zero /\ degree_of O b <= degree_of O a /\
  (a <> [] -> length q = degree_of O a - degree_of O b + 1) /\ (a = [] -> q = []).
Proof. exact (div_full_spec O L). Qed.

Theorem C20_div_quot_rem : forall a b q, div O a b = Ok q ->
  exists r, length r < length b /\ length r <= degree_of O b /\
            forall x, peval O a x = fadd O (fmul O (peval O q x) (peval O b x)) (peval O r x).
Proof. exact (div_spec O L). Qed.

(* exact Panic domain (repaired code): the divisor is a non-zero polynomial of degree <= degree of the dividend *)
Theorem C20_div_total_iff : forall a b,
  div O a b <> Panic <-> (degree_of O b <= degree_of O a /\ nth (degree_of O b) b zero <> zero).
Proof. exact (div_total_iff O L). Qed.

(* ---------------------------------------------------------------- expansion from roots *)
(* never panics; the uninitialised vector's content (`init`) is irrelevant; monic, length n+1, = prod (x - xs_i) *)
Theorem C20_poly_from_roots_spec : forall xs,
  exists p, poly_from_roots O xs = Ok p /\ length p = S (length xs) /\ last p zero = one /\
            (forall x, peval O p x = pprod O xs x) /\
            (forall init, length init = S (length xs) -> poly_from_roots_init O init xs = Ok p).
Proof.
  intros xs. exists (roots_poly O xs). split. apply (poly_from_roots_spec O).
  split. apply roots_poly_length. split. apply (roots_poly_monic O).
  split. apply (roots_poly_peval O L). intros init H. now apply (fill_zero_roots_spec O).
Qed.

Theorem C20_poly_from_roots_vanishes : forall xs p r, poly_from_roots O xs = Ok p -> In r xs -> peval O p r = zero.
Proof.
  intros xs p r H Hin. rewrite (poly_from_roots_spec O) in H. inversion H; subst.
  rewrite (roots_poly_peval O L). now apply (pprod_root O L).
Qed.

(* ---------------------------------------------------------------- interpolation (repaired code) *)
(* distinct X coordinates, ZERO INCLUDED: the result has length n and passes through every point;
   with remove_leading_zeros = true the result is remove_leading_zeros of it (same polynomial, length <= n) *)
Theorem C20_interpolate_spec : forall dbg xs ys, NoDup xs -> length ys = length xs ->
  exists p, interpolate O dbg xs ys false = Ok p /\ length p = length xs /\
            interpolate O dbg xs ys true = Ok (remove_leading_zeros O p) /\
            forall m, m < length xs -> peval O p (nth m xs zero) = nth m ys zero.
Proof. exact (interpolate_spec O L). Qed.

(* eval_many o interpolate = id on distinct points *)
Theorem C20_eval_many_interpolate : forall dbg xs ys p, NoDup xs -> length ys = length xs ->
  interpolate O dbg xs ys false = Ok p -> eval_many O p xs = ys.
Proof.
  intros dbg xs ys p Hnd Hl Hp. destruct (interpolate_spec O L dbg xs ys Hnd Hl) as (p' & H1 & _ & _ & H4).
  rewrite Hp in H1. inversion H1; subst p'. rewrite (eval_many_spec O L).
  apply (nth_ext _ _ zero zero). now rewrite map_length.
  rewrite map_length. intros i Hi. rewrite (nth_indep _ zero (peval O p zero)) by now rewrite map_length.
  rewrite map_nth. now apply H4.
Qed.

(* exact Panic domain in the debug profile (duplicates in xs do not panic); release profile: next theorem *)
Theorem C20_interpolate_total_iff : forall xs ys rlz,
  interpolate O true xs ys rlz <> Panic <-> length xs = length ys.
Proof. exact (interpolate_total_iff O L). Qed.

(* release profile: no debug_assert; panics exactly when ys is shorter than xs (index `ys[i]`) *)
Theorem C20_interpolate_release_total_iff : forall xs ys rlz,
  interpolate O false xs ys rlz <> Panic <-> length xs <= length ys.
Proof. exact (interpolate_release_total_iff O L). Qed.

(* DEFECT (repaired, fixes/c20-polynom-zero-x-and-empty-inputs.diff): before the repair the numerators were
   computed with syn_div(&roots, 1, x), which asserts x != 0: every point set containing X = 0 panicked *)
Theorem C20_interpolate_unrepaired_refuted : forall dbg xs ys rlz,
  In zero xs -> interpolate_unrepaired O dbg xs ys rlz = Panic.
Proof. exact (interpolate_unrepaired_zero O L). Qed.

(* ---------------------------------------------------------------- interpolate_batch *)
(* any N >= 1, any number of batches, rows of length N (the array type): never panics and row i of the result is
   exactly what `interpolate` returns on batch i (duplicates and X = 0 allowed; the `roots` vector reused between
   batches and the single batch inversion over all n*N denominators make no difference) *)
Theorem C20_interpolate_batch_spec : forall dbg N xs ys, 1 <= N -> length xs = length ys ->
  (forall r, In r xs -> length r = N) -> (forall r, In r ys -> length r = N) ->
  exists ps, interpolate_batch O dbg N xs ys = Ok ps /\ length ps = length xs /\
    forall i, i < length xs -> interpolate O dbg (nth i xs []) (nth i ys []) false = Ok (nth i ps []).
Proof. exact (interpolate_batch_spec O L). Qed.

(* hence, for rows of N distinct X coordinates, polynomial i passes through the points of batch i *)
Theorem C20_interpolate_batch_evaluates : forall dbg N xs ys ps, 1 <= N -> length xs = length ys ->
  (forall r, In r xs -> length r = N /\ NoDup r) -> (forall r, In r ys -> length r = N) ->
  interpolate_batch O dbg N xs ys = Ok ps ->
  forall i j, i < length xs -> j < N ->
    length (nth i ps []) = N /\ peval O (nth i ps []) (nth j (nth i xs []) zero) = nth j (nth i ys []) zero.
Proof. exact (interpolate_batch_evaluates O L). Qed.

(* ---------------------------------------------------------------- uniqueness: interpolate o eval_many = id *)
Theorem C20_interpolate_eval_many : forall dbg xs p, NoDup xs -> length p <= length xs ->
  interpolate O dbg xs (eval_many O p xs) false = Ok (p ++ repeat zero (length xs - length p)).
Proof. exact (interpolate_eval_many O L). Qed.

Theorem C20_interpolate_eval_many_rlz : forall dbg xs p, NoDup xs -> length p <= length xs ->
  interpolate O dbg xs (eval_many O p xs) true = Ok (remove_leading_zeros O p).
Proof. exact (interpolate_eval_many_rlz O L). Qed.

Theorem C20_interpolate_unique : forall dbg xs ys q, NoDup xs -> length ys = length xs -> length q = length xs ->
  (forall m, m < length xs -> peval O q (nth m xs zero) = nth m ys zero) ->
  interpolate O dbg xs ys false = Ok q.
Proof. exact (interpolate_unique O L). Qed.

(* ---------------------------------------------------------------- exact division (synthetic divisions) *)
(* (x - b) q divided by x - b returns q (padded with one zero) and remainder 0 *)
Theorem C20_syn_div_exact_linear : forall q b, q <> [] -> b <> zero ->
  syn_div_in_place_full O (linmul O q b) 1 b = Ok (q ++ [zero], [zero]).
Proof. exact (syn_div_exact_linear O L). Qed.

(* q * prod (x - r_i), built by multiplying by the linear factors in order, divided by the list of roots returns q
   padded with m zeros (repeated roots and the root 0 allowed) *)
Theorem C20_syn_div_roots_exact : forall roots q, roots <> [] -> q <> [] ->
  syn_div_roots_in_place O (fold_left (linmul O) roots q) roots = Ok (q ++ repeat zero (length roots)).
Proof. exact (syn_div_roots_exact O L). Qed.

(* ---------------------------------------------------------------- coefficient-level statements (normal forms) *)
(* `coeff O p k` = nth k p 0;  `conv O p q k` = gsum_{i<=k} p_i q_{k-i} is the k-th coefficient of the product.
   Identities of coefficient lists are stronger than identities of polynomial functions over a finite field. *)
Theorem C20_conv_def : forall p q k,
  conv O p q k = gsum O (fun i => fmul O (coeff O p i) (coeff O q (k - i))) (S k).
Proof. reflexivity. Qed.

(* the crate's mul computes exactly the convolution *)
Theorem C20_mul_coeff : forall a b r, mul O a b = Ok r -> forall k, coeff O r k = conv O a b k.
Proof. exact (mul_coeff O L). Qed.

(* long division, coefficient by coefficient: a_k = (q*b)_k + r_k for every k, r = first deg(b) entries of the copy *)
Theorem C20_div_coeff_spec : forall a b q aw, div_full O a b = Ok (q, aw) ->
  forall k, coeff O a k = fadd O (conv O q b k) (coeff O (firstn (degree_of O b) aw) k).
Proof. exact (div_coeff_spec O L). Qed.

(* quotient and remainder are unique as coefficient lists (leading coefficient of b non-zero, deg r < deg b) *)
Theorem C20_divmod_unique : forall b n q1 q2 r1 r2,
  coeff O b n <> zero -> (forall j, n < j -> coeff O b j = zero) ->
  (forall k, n <= k -> coeff O r1 k = zero) -> (forall k, n <= k -> coeff O r2 k = zero) ->
  (forall k, fadd O (conv O q1 b k) (coeff O r1 k) = fadd O (conv O q2 b k) (coeff O r2 k)) ->
  (forall k, coeff O q1 k = coeff O q2 k) /\ (forall k, coeff O r1 k = coeff O r2 k).
Proof. exact (divmod_unique O L). Qed.

(* EXACT LONG DIVISION: if a = q0 * b coefficient-wise, b a non-zero polynomial, q0 non-zero, then div does not
   panic, returns q0 (same coefficients; length deg(q0)+1, i.e. q0 without its leading zeros) and the remainder part
   of the working copy is zero.  (q0 = 0 with deg b > 0 is the documented panic "divisor of higher degree".) *)
Theorem C20_div_exact : forall a b q0,
  coeff O b (degree_of O b) <> zero -> (exists j, coeff O q0 j <> zero) ->
  (forall k, coeff O a k = conv O q0 b k) ->
  exists q aw, div_full O a b = Ok (q, aw) /\
    (forall k, coeff O q k = coeff O q0 k) /\
    (forall k, coeff O (firstn (degree_of O b) aw) k = zero) /\
    degree_of O a = degree_of O q0 + degree_of O b /\
    length q = degree_of O q0 + 1.
Proof. exact (div_exact O L). Qed.

(* the same with the crate's own product: div (mul q0 b) b = q0 *)
Theorem C20_div_mul_exact : forall q0 b a,
  coeff O b (degree_of O b) <> zero -> (exists j, coeff O q0 j <> zero) -> mul O q0 b = Ok a ->
  exists q aw, div_full O a b = Ok (q, aw) /\
    (forall k, coeff O q k = coeff O q0 k) /\ (forall k, coeff O (firstn (degree_of O b) aw) k = zero) /\
    length q = degree_of O q0 + 1.
Proof. exact (div_mul_exact O L). Qed.

(* EXACT DIVISION BY x^a - b, a >= 2 (both loop variants, b = 1 included): if p_k = q_{k-a} - b q_k for all k
   (p = q * (x^a - b)), the slice becomes q padded with zeros and the discarded remainder is zero *)
Theorem C20_syn_div_exact : forall p a b q, 2 <= a -> b <> zero -> length q + a <= length p -> q <> [] ->
  (forall k, coeff O p k = fsub O (if a <=? k then coeff O q (k - a) else zero) (fmul O b (coeff O q k))) ->
  syn_div_in_place_full O p a b
  = Ok ((q ++ repeat zero (length p - a - length q)) ++ repeat zero a, repeat zero a).
Proof. exact (syn_div_exact_gen O L). Qed.

(* the same with the crate's own product and the divisor as a list: syn_div (mul q [-b,0,..,0,1]) a b = q *)
Theorem C20_syn_div_mul_exact : forall q a b p, 2 <= a -> b <> zero -> q <> [] ->
  mul O q (xa_minus_b O a b) = Ok p ->
  syn_div_in_place_full O p a b = Ok (q ++ repeat zero a, repeat zero a).
Proof. exact (syn_div_mul_exact O L). Qed.

End C20.

Print Assumptions C20_eval_horner.
Print Assumptions C20_eval_many.
Print Assumptions C20_add_spec.
Print Assumptions C20_add_coeff.
Print Assumptions C20_sub_spec.
Print Assumptions C20_sub_coeff.
Print Assumptions C20_mul_by_scalar_spec.
Print Assumptions C20_mul_spec.
Print Assumptions C20_mul_unrepaired_total_iff.
Print Assumptions C20_degree_of_spec.
Print Assumptions C20_remove_leading_zeros_spec.
Print Assumptions C20_batch_inversion_spec.
Print Assumptions C20_batch_inversion_mul.
Print Assumptions C20_power_series_spec.
Print Assumptions C20_power_series_with_offset_spec.
Print Assumptions C20_add_in_place_spec.
Print Assumptions C20_mul_acc_spec.
Print Assumptions C20_syn_div_in_place_spec.
Print Assumptions C20_syn_div_spec.
Print Assumptions C20_syn_div_total_iff.
Print Assumptions C20_syn_div_roots_spec.
Print Assumptions C20_syn_div_roots_total_iff.
Print Assumptions C20_div_spec.
Print Assumptions C20_div_quot_rem.
Print Assumptions C20_div_total_iff.
Print Assumptions C20_poly_from_roots_spec.
Print Assumptions C20_poly_from_roots_vanishes.
Print Assumptions C20_interpolate_spec.
Print Assumptions C20_eval_many_interpolate.
Print Assumptions C20_interpolate_total_iff.
Print Assumptions C20_interpolate_release_total_iff.
Print Assumptions C20_interpolate_unrepaired_refuted.
Print Assumptions C20_interpolate_batch_spec.
Print Assumptions C20_interpolate_batch_evaluates.
Print Assumptions C20_interpolate_eval_many.
Print Assumptions C20_interpolate_eval_many_rlz.
Print Assumptions C20_interpolate_unique.
Print Assumptions C20_syn_div_exact_linear.
Print Assumptions C20_syn_div_roots_exact.
Print Assumptions C20_conv_def.
Print Assumptions C20_mul_coeff.
Print Assumptions C20_div_coeff_spec.
Print Assumptions C20_divmod_unique.
Print Assumptions C20_div_exact.
Print Assumptions C20_div_mul_exact.
Print Assumptions C20_syn_div_exact.
Print Assumptions C20_syn_div_mul_exact.

(* ---------------------------------------------------------------- non-vacuity *)
(* the hypothesis `FLaws O` is satisfiable: GF(7) *)
Theorem C20_laws_inhabited : FLaws f7_ops.
Proof. exact f7_laws. Qed.
Print Assumptions C20_laws_inhabited.

(* the extension fields over which the correspondence also runs the models (Model/PolynomExt.v) are the q_ops / c_ops
   of C08, for which C08 proves the field laws over the typed prime fields: every theorem above applies to them *)
Theorem C20_extension_ops_are_C08 : forall F (O : FOps F) (I2 : Ext2Impl F) (I3 : Ext3Impl F),
  quad_ops O I2 = q_ops O I2 /\ cube_ops O I3 = c_ops O I3.
Proof. intros; split; reflexivity. Qed.
Print Assumptions C20_extension_ops_are_C08.

Theorem C20_extension_fields_satisfy_laws :
  FLaws (quad_ops F64_ops (f64_x2 F64_ops)) /\ FLaws (quad_ops F62_ops (f62_x2 F62_ops)) /\
  FLaws (quad_ops F128_ops (f128_x2 F128_ops)) /\
  FLaws (cube_ops F64_ops (f64_x3 F64_ops)) /\ FLaws (cube_ops F62_ops (f62_x3 F62_ops)).
Proof. exact (conj f64_quad_laws (conj f62_quad_laws (conj f128_quad_laws (conj f64_cube_laws f62_cube_laws)))). Qed.
Print Assumptions C20_extension_fields_satisfy_laws.

(* ---------------------------------------------------------------- mixed instantiations eval<B,E>, mul_acc<F,E> *)
(* for every extension carrier E with field laws and ANY map `from : B -> E` (E::from): *)
Theorem C20_eval_mixed_spec : forall (B E : Type) (OE : FOps E), FLaws OE -> forall (from : B -> E) p x,
  eval_mixed OE from p x = peval OE (map from p) x /\ eval_mixed OE from p x = eval OE (map from p) x.
Proof. intros B E OE LE from p x. split. apply (eval_mixed_spec OE LE). apply eval_mixed_eq_eval. Qed.
Print Assumptions C20_eval_mixed_spec.

Theorem C20_mul_acc_mixed_spec : forall (B E : Type) (OE : FOps E) (mul_base : E -> B -> E) (zb : B) a b c,
  (length a = length b ->
     exists r, mul_acc_mixed OE mul_base a b c = Ok r /\ length r = length a /\
               forall i, i < length a -> nth i r (fzero OE) = fadd OE (nth i a (fzero OE)) (mul_base c (nth i b zb))) /\
  (mul_acc_mixed OE mul_base a b c <> Panic <-> length a = length b).
Proof. intros B E OE. exact (mul_acc_mixed_spec OE). Qed.
Print Assumptions C20_mul_acc_mixed_spec.

(* with C08's mul_base = multiplication by the embedded base element, mul_acc<F,E> is mul_acc<E,E> on the embedded
   vector: stated for the f64 quadratic and cubic extensions over any base field with FLaws (the other three alike) *)
Theorem C20_mul_acc_mixed_is_embedded : forall F (O : FOps F), FLaws O ->
  (forall a b c, mul_acc_mixed_quad O (f64_x2 O) a b c
                 = mul_acc (quad_ops O (f64_x2 O)) a (map (q_from_base O) b) c) /\
  (forall a b c, mul_acc_mixed_cube O (f64_x3 O) a b c
                 = mul_acc (cube_ops O (f64_x3 O)) a (map (c_from_base O) b) c).
Proof.
  intros F O L. split; intros a b c.
  - apply mul_acc_mixed_embed. intros e y. apply (q_mul_base_spec O (f64_x2 O) _ (f64_x2_correct O L)).
  - apply mul_acc_mixed_embed. intros e y. apply (c_mul_base_spec O (f64_x3 O) _ _ _ _ _ _ _ _ (f64_x3_correct O L)).
Qed.
Print Assumptions C20_mul_acc_mixed_is_embedded.

(* instances of the theorems' hypotheses and conclusions, computed by the kernel *)
Example ex_interpolate_zero_x :           (* distinct xs containing 0, equal lengths: Ok, and evaluates back to ys *)
  NoDup [e0; e1; e3] /\ interpolate f7_ops true [e0; e1; e3] [e5; e0; e2] false = Ok [e5; e0; e2] /\
  eval_many f7_ops [e5; e0; e2] [e0; e1; e3] = [e5; e0; e2] /\
  interpolate_unrepaired f7_ops true [e0; e1; e3] [e5; e0; e2] false = Panic.
Proof.
  split. { repeat constructor; simpl; intuition discriminate. } vm_compute. repeat split.
Qed.

Example ex_interpolate_batch :            (* two batches, N = 2, X = 0 present: equals interpolate on each batch *)
  interpolate_batch f7_ops true 2 [[e0; e1]; [e3; e4]] [[e5; e0]; [e1; e1]] = Ok [[e5; e2]; [e1; e0]] /\
  interpolate f7_ops true [e0; e1] [e5; e0] false = Ok [e5; e2] /\
  interpolate f7_ops true [e3; e4] [e1; e1] false = Ok [e1; e0] /\
  interpolate_batch f7_ops true 0 [[]] [[]] = Panic /\
  interpolate f7_ops true [e0; e1; e3] (eval_many f7_ops [e2; e6] [e0; e1; e3]) false = Ok [e2; e6; e0].
Proof. vm_compute. repeat split. Qed.

Example ex_exact :                        (* div (mul q0 b) b = q0 with zero remainder; syn_div (q (x^2 - 3)) 2 3 = q *)
  mul f7_ops [e3; e0; e5] [e2; e6; e1; e0] = Ok [e6; e4; e6; e2; e5; e0] /\
  div_full f7_ops [e6; e4; e6; e2; e5; e0] [e2; e6; e1; e0] = Ok ([e3; e0; e5], [e0; e0; e3; e0; e5; e0]) /\
  syn_div_in_place_full f7_ops [e5; e1; e3; e2] 2 e3 = Ok ([e3; e2; e0; e0], [e0; e0]).
Proof. vm_compute. repeat split. Qed.

Example ex_div :                          (* (x^3+x^2+2x+2) / (x^2+2) = x+1, remainder in the working copy *)
  div_full f7_ops [e2; e2; e1; e1] [e2; e0; e1; e0] = Ok ([e1; e1], [e0; e0; e1; e1]) /\
  div f7_ops [e1] [e0; e0] = Panic /\ div f7_ops [e1] [e1; e1] = Panic /\ div f7_ops [] [e3] = Ok [].
Proof. vm_compute. repeat split. Qed.

Example ex_syn_div :                      (* a = 1, a = 2 with b = 1 (fast path) and b <> 1; panic classes *)
  syn_div f7_ops [e2; e2; e1; e1] 1 e6 = Ok [e2; e0; e1; e0] /\
  syn_div_in_place_full f7_ops [e1; e2; e3; e4; e5] 2 e1 = Ok ([e1; e4; e5; e0; e0], [e2; e6]) /\
  syn_div_in_place_full f7_ops [e1; e2; e3; e4; e5] 2 e3 = Ok ([e4; e4; e5; e0; e0], [e6; e0]) /\
  syn_div f7_ops [e1; e2] 0 e1 = Panic /\ syn_div f7_ops [e1; e2] 1 e0 = Panic /\ syn_div f7_ops [e1; e2] 2 e1 = Panic.
Proof. vm_compute. repeat split. Qed.

Example ex_batch_inversion :              (* zeros at the first, a middle and the last position *)
  batch_inversion f7_ops [e0; e2; e0; e3; e0] = [e0; e4; e0; e5; e0] /\ batch_inversion f7_ops [] = [] /\
  batch_inversion f7_ops [e0] = [e0].
Proof. vm_compute. repeat split. Qed.

Example ex_power_series_mul :
  get_power_series f7_ops e3 5 = Ok [e1; e3; e2; e6; e4] /\ get_power_series f7_ops e3 0 = Ok [] /\
  get_power_series_with_offset f7_ops e3 e2 3 = Ok [e2; e6; e4] /\
  mul f7_ops [e1; e1] [e2; e0; e1] = Ok [e2; e2; e1; e1] /\ mul f7_ops [] [] = Ok [] /\
  mul_unrepaired f7_ops [] [] = Panic /\ poly_from_roots f7_ops [e1; e2] = Ok [e2; e4; e1].
Proof. vm_compute. repeat split. Qed.

(* the same models run on canonical residues of a 64-bit prime field (what the correspondence executes) *)
Example ex_zp :
  interpolate (zp_ops P64) true [0; 1; 5]%Z [7; 9; 3]%Z false
    = Ok [7; 5534023220824375299; 12912720848590209024]%Z /\
  interpolate_batch (zp_ops 97) true 2 [[0; 1]; [3; 4]]%Z [[5; 7]; [1; 1]]%Z = Ok [[5; 2]; [1; 0]]%Z.
Proof. vm_compute. repeat split. Qed.
