(* C08 — extension fields: arithmetic equals polynomial arithmetic modulo the irreducible polynomial.
   Only statements, `exact` of lemmas proved in Proofs/Ext*.v, Print Assumptions, non-vacuity examples.

   The objects of the theorems are the GENERATED translations (coq/Gen/F64.v, F62.v, F128.v, regenerated from
   /repo/math/src/field/{f64,f62,f128}/mod.rs on every run) of the `impl ExtensibleField<2|3> for BaseElement`
   bodies: f64_ext2_mul, f64_ext2_square, ..., f128_ext2_frobenius, and the hand model (Model/ExtField.v) of the
   generic wrappers QuadExtension<B> / CubeExtension<B> on top of them (vtables f64_x2, f62_x2, f128_x2, f64_x3, f62_x3).

   Part A is for an ARBITRARY field (F, O : FOps F, FLaws O).  Part B instantiates the three concrete prime fields
   (F64_ops, F62_ops, F128_ops of Proofs/ZpLaws.v: canonical residues with the operations of `zp_ops p`, which is what
   the correspondence executes) and discharges every side condition of Part A (irreducibility, Frobenius constants).

   Irreducible polynomials (documented in the Rust sources):  f64: x^2 - x + 2, x^3 - x - 1;
   f62: x^2 - x - 1, x^3 + 2x + 2;  f128: x^2 - x - 1.
   `qs_mul O c` is the schoolbook product reduced by x^2 = x + c, `cs_mul O u v` by x^3 = u x + v (ExtTheory.v);
   the five `*_mul_spec` theorems below also spell the reduced product out coefficient by coefficient. *)
From Coq Require Import ZArith List Bool Ring_theory.
From VBase Require Import MachInt FieldOps ZpOps.
From VGen Require Import F64 F62 F128.
From VModel Require Import ExtField.
From VProofs Require Import NumTheoryPrime ZpLaws ExtTheory ExtModel ExtConcrete ExtSlice.
Import ListNotations.

Section C08.
Context {F : Type} (O : FOps F) (L : FLaws O).
Local Notation zero := (fzero O).
Local Notation one := (fone O).
Local Notation two := (fadd O (fone O) (fone O)).
Local Notation "a +f b" := (fadd O a b) (at level 50, left associativity).
Local Notation "a -f b" := (fsub O a b) (at level 50, left associativity).
Local Notation "a *f b" := (fmul O a b) (at level 40, left associativity).

(* ================================================================ A.1 multiplication = reduced schoolbook product *)
(* f64 quadratic, x^2 = x - 2 *)
Theorem C08_f64_ext2_mul_spec : forall a0 a1 b0 b1,
  f64_ext2_mul O (a0, a1) (b0, b1) = (a0 *f b0 -f two *f (a1 *f b1), a0 *f b1 +f a1 *f b0 +f a1 *f b1).
Proof. exact (f64_ext2_mul_spec O L). Qed.
(* f62 / f128 quadratic, x^2 = x + 1 *)
Theorem C08_f62_ext2_mul_spec : forall a0 a1 b0 b1,
  f62_ext2_mul O (a0, a1) (b0, b1) = (a0 *f b0 +f a1 *f b1, a0 *f b1 +f a1 *f b0 +f a1 *f b1).
Proof. exact (f62_ext2_mul_spec O L). Qed.
Theorem C08_f128_ext2_mul_spec : forall a0 a1 b0 b1,
  f128_ext2_mul O (a0, a1) (b0, b1) = (a0 *f b0 +f a1 *f b1, a0 *f b1 +f a1 *f b0 +f a1 *f b1).
Proof. exact (f128_ext2_mul_spec O L). Qed.
(* f64 cubic, x^3 = x + 1, x^4 = x^2 + x *)
Theorem C08_f64_ext3_mul_spec : forall a0 a1 a2 b0 b1 b2,
  f64_ext3_mul O (a0, a1, a2) (b0, b1, b2) =
  (a0 *f b0 +f (a1 *f b2 +f a2 *f b1),
   a0 *f b1 +f a1 *f b0 +f (a1 *f b2 +f a2 *f b1) +f a2 *f b2,
   a0 *f b2 +f a1 *f b1 +f a2 *f b0 +f a2 *f b2).
Proof. exact (f64_ext3_mul_spec O L). Qed.
(* f62 cubic, x^3 = -2x - 2, x^4 = -2x^2 - 2x *)
Theorem C08_f62_ext3_mul_spec : forall a0 a1 a2 b0 b1 b2,
  f62_ext3_mul O (a0, a1, a2) (b0, b1, b2) =
  (a0 *f b0 -f two *f (a1 *f b2 +f a2 *f b1),
   a0 *f b1 +f a1 *f b0 -f two *f (a1 *f b2 +f a2 *f b1) -f two *f (a2 *f b2),
   a0 *f b2 +f a1 *f b1 +f a2 *f b0 -f two *f (a2 *f b2)).
Proof. exact (f62_ext3_mul_spec O L). Qed.

(* the dedicated squaring routines of f64 and mul_base *)
Theorem C08_f64_ext2_square_spec : forall a, f64_ext2_square O a = f64_ext2_mul O a a.
Proof. exact (q_square_spec O (f64_x2 O) _ (f64_x2_correct O L)). Qed.
Theorem C08_f64_ext3_square_spec : forall a, f64_ext3_square O a = f64_ext3_mul O a a.
Proof. exact (c_square_spec O (f64_x3 O) _ _ _ _ _ _ _ _ (f64_x3_correct O L)). Qed.
Theorem C08_ext_mul_base_spec :
  (forall a b, f64_ext2_mul_base O a b = f64_ext2_mul O a (b, zero)) /\
  (forall a b, f62_ext2_mul_base O a b = f62_ext2_mul O a (b, zero)) /\
  (forall a b, f128_ext2_mul_base O a b = f128_ext2_mul O a (b, zero)) /\
  (forall a b, f64_ext3_mul_base O a b = f64_ext3_mul O a (b, zero, zero)) /\
  (forall a b, f62_ext3_mul_base O a b = f62_ext3_mul O a (b, zero, zero)).
Proof.
  exact (conj (q_mul_base_spec O (f64_x2 O) _ (f64_x2_correct O L))
        (conj (q_mul_base_spec O (f62_x2 O) _ (f62_x2_correct O L))
        (conj (q_mul_base_spec O (f128_x2 O) _ (f128_x2_correct O L))
        (conj (c_mul_base_spec O (f64_x3 O) _ _ _ _ _ _ _ _ (f64_x3_correct O L))
              (c_mul_base_spec O (f62_x3 O) _ _ _ _ _ _ _ _ (f62_x3_correct O L)))))).
Qed.

(* the five vtables implement F[x]/(x^2 - x - c) resp. F[x]/(x^3 - u x - v) with the Frobenius matrix built from
   the constants of the source (f64_k.. / f62_k.. are `fofz O <the integer literal of the source>`) *)
Theorem C08_f64_x2_correct : Ext2Correct O (f64_x2 O) (fneg2 O).
Proof. exact (f64_x2_correct O L). Qed.
Theorem C08_f62_x2_correct : Ext2Correct O (f62_x2 O) one.
Proof. exact (f62_x2_correct O L). Qed.
Theorem C08_f128_x2_correct : Ext2Correct O (f128_x2 O) one.
Proof. exact (f128_x2_correct O L). Qed.
Theorem C08_f64_x3_correct :
  Ext3Correct O (f64_x3 O) one one (f64_k01 O) (f64_k02 O) (f64_k11 O) (f64_k12 O) (f64_k21 O) (f64_k22 O).
Proof. exact (f64_x3_correct O L). Qed.
Theorem C08_f62_x3_correct :
  Ext3Correct O (f62_x3 O) (fneg2 O) (fneg2 O) (f62_k01 O) (f62_k02 O) (f62_k11 O) (f62_k12 O) (f62_k21 O) (f62_k22 O).
Proof. exact (f62_x3_correct O L). Qed.

(* ================================================================ A.2 QuadExtension<B>, any correct vtable *)
Section Quad.
Variable I : Ext2Impl F.
Variable c : F.
Hypothesis IC : Ext2Correct O I c.

(* commutative ring: + and - coefficient-wise, ONE = (1, 0), mul = ExtensibleField::mul *)
Theorem C08_quad_ring :
  @ring_theory (F * F)%type (q_zero O) (q_one O) (q_add O) (q_mul I) (q_sub O) (q_neg O) (@eq (F * F)).
Proof. exact (q_ring O L I c IC). Qed.
Theorem C08_quad_square_spec : forall a, q_square I a = q_mul I a a.
Proof. exact (q_square_spec O I c IC). Qed.
Theorem C08_quad_mul_base_spec : forall a b,
  q_mul_base I a b = q_mul I a (q_from_base O b) /\ q_mul_base I a b = (fst a *f b, snd a *f b).
Proof. intros; split. apply (q_mul_base_spec O I c IC). apply (q_mul_base_coeff O L I c IC). Qed.
Theorem C08_quad_double_spec : forall a, q_double O a = q_add O a a.
Proof. exact (q_double_spec O L). Qed.
(* embedding the base field is an injective ring homomorphism *)
Theorem C08_quad_embed_hom :
  q_from_base O zero = q_zero O /\ q_from_base O one = q_one O /\
  (forall x y, q_from_base O (x +f y) = q_add O (q_from_base O x) (q_from_base O y)) /\
  (forall x y, q_from_base O (x -f y) = q_sub O (q_from_base O x) (q_from_base O y)) /\
  (forall x, q_from_base O (fneg O x) = q_neg O (q_from_base O x)) /\
  (forall x y, q_from_base O (x *f y) = q_mul I (q_from_base O x) (q_from_base O y)) /\
  (forall x y, q_from_base O x = q_from_base O y -> x = y).
Proof. exact (q_embed_hom O L I c IC). Qed.
(* conjugation: ring automorphism, involutive, fixes exactly the base field *)
Theorem C08_quad_conj_automorphism :
  (forall a b, q_conjugate I (q_add O a b) = q_add O (q_conjugate I a) (q_conjugate I b)) /\
  (forall a b, q_conjugate I (q_mul I a b) = q_mul I (q_conjugate I a) (q_conjugate I b)) /\
  q_conjugate I (q_one O) = q_one O /\
  (forall a, q_conjugate I (q_conjugate I a) = a) /\
  (forall a, q_conjugate I a = a <-> snd a = zero).
Proof. exact (q_conj_automorphism O L I c IC). Qed.
(* a . conj(a) lies in the base field: the debug_assert of inv never fires; debug and release agree *)
Theorem C08_quad_norm_in_base : forall a, snd (q_norm I a) = zero.
Proof. exact (q_norm_in_base O L I c IC). Qed.
Theorem C08_quad_inv_no_panic : forall dbg a, q_inv O I dbg a = q_inv O I false a /\ q_inv O I dbg a <> None.
Proof. exact (q_inv_no_panic O L I c IC). Qed.
Theorem C08_quad_inv_zero : forall dbg, q_inv O I dbg (q_zero O) = Some (q_zero O).
Proof. exact (q_inv_zero O L I). Qed.
(* (a == b) iff the coefficients are equal *)
Theorem C08_quad_eqb_spec : forall a b, q_eqb O a b = true <-> a = b.
Proof. exact (q_eqb_spec O L). Qed.
(* every non-zero element has an inverse, provided the discriminant 1 + 4c is not a square (irreducibility) *)
Theorem C08_quad_inv_spec : (forall s, s *f s <> qs_disc O c) ->
  forall dbg a, a <> q_zero O -> exists ia, q_inv O I dbg a = Some ia /\ q_mul I a ia = q_one O.
Proof. exact (q_inv_spec O L I c IC). Qed.
Theorem C08_quad_div_spec : (forall s, s *f s <> qs_disc O c) ->
  forall dbg a b, b <> q_zero O -> exists d, q_div O I dbg a b = Some d /\ q_mul I d b = a.
Proof. exact (q_div_spec O L I c IC). Qed.
Theorem C08_quad_no_zero_div : (forall s, s *f s <> qs_disc O c) ->
  forall a b, q_mul I a b = q_zero O -> a = q_zero O \/ b = q_zero O.
Proof. exact (q_no_zero_div O L I c IC). Qed.
(* exp / exp_vartime = repeated multiplication (q_pow a n = a . a ... a, n factors) *)
Theorem C08_quad_exp_spec : forall a e, (0 <= e)%Z -> q_exp O I a e = q_pow O I a (Z.to_nat e).
Proof. intros a e _. exact (q_exp_spec O L I c IC a e). Qed.
(* packaged: the quadratic extension is itself a field in the sense of FieldOps.v (inv totalised by inv 0 = 0), so
   every theorem stated "for every FOps with FLaws" (C20 polynomials, ...) applies to it *)
Theorem C08_quad_is_field : (forall s, s *f s <> qs_disc O c) -> FLaws (q_ops O I).
Proof. exact (q_laws O L I c IC). Qed.
End Quad.

(* ================================================================ A.3 CubeExtension<B>, any correct vtable *)
Section Cube.
Variable I : Ext3Impl F.
Variables u v k01 k02 k11 k12 k21 k22 : F.
Hypothesis IC : Ext3Correct O I u v k01 k02 k11 k12 k21 k22.
(* the finitely many constant equations: psi := frob(phi) = (k01,k11,k21), chi := frob(phi^2) = (k02,k12,k22);
   chi = psi^2, psi^3 = u psi + v, frob(frob(psi)) = phi *)
Local Notation Consts := (Frob3Consts O u v k01 k02 k11 k12 k21 k22).
(* (k11 - 1)(k22 - 1) - k12 k21 *)
Local Notation det := (cs_fix_det O k11 k12 k21 k22).

Theorem C08_cube_ring :
  @ring_theory (F * F * F)%type (c_zero O) (c_one O) (c_add O) (c_mul I) (c_sub O) (c_neg O) (@eq (F * F * F)).
Proof. exact (c_ring O L I _ _ _ _ _ _ _ _ IC). Qed.
Theorem C08_cube_square_spec : forall a, c_square I a = c_mul I a a.
Proof. exact (c_square_spec O I _ _ _ _ _ _ _ _ IC). Qed.
Theorem C08_cube_mul_base_spec : forall a b,
  c_mul_base I a b = c_mul I a (c_from_base O b) /\ c_mul_base I a b = (c0 a *f b, c1 a *f b, c2 a *f b).
Proof. intros; split. apply (c_mul_base_spec O I _ _ _ _ _ _ _ _ IC). apply (c_mul_base_coeff O L I _ _ _ _ _ _ _ _ IC). Qed.
Theorem C08_cube_double_spec : forall a, c_double O a = c_add O a a.
Proof. exact (c_double_spec O L). Qed.
Theorem C08_cube_embed_hom :
  c_from_base O zero = c_zero O /\ c_from_base O one = c_one O /\
  (forall x y, c_from_base O (x +f y) = c_add O (c_from_base O x) (c_from_base O y)) /\
  (forall x y, c_from_base O (x -f y) = c_sub O (c_from_base O x) (c_from_base O y)) /\
  (forall x, c_from_base O (fneg O x) = c_neg O (c_from_base O x)) /\
  (forall x y, c_from_base O (x *f y) = c_mul I (c_from_base O x) (c_from_base O y)) /\
  (forall x y, c_from_base O x = c_from_base O y -> x = y).
Proof. exact (c_embed_hom O L I _ _ _ _ _ _ _ _ IC). Qed.
Theorem C08_cube_conj_linear :
  (forall a b, c_conjugate I (c_add O a b) = c_add O (c_conjugate I a) (c_conjugate I b)) /\
  (forall x, c_conjugate I (c_from_base O x) = c_from_base O x) /\
  c_conjugate I (c_one O) = c_one O.
Proof. exact (c_conj_linear O L I _ _ _ _ _ _ _ _ IC). Qed.
Theorem C08_cube_conj_automorphism : Consts -> det <> zero ->
  (forall a b, c_conjugate I (c_mul I a b) = c_mul I (c_conjugate I a) (c_conjugate I b)) /\
  (forall a, c_conjugate I (c_conjugate I (c_conjugate I a)) = a) /\
  (forall a, c_conjugate I a = a <-> (c1 a = zero /\ c2 a = zero)).
Proof. exact (c_conj_automorphism O L I _ _ _ _ _ _ _ _ IC). Qed.
Theorem C08_cube_norm_in_base : Consts -> det <> zero ->
  forall a, c1 (c_norm I a) = zero /\ c2 (c_norm I a) = zero.
Proof. exact (c_norm_in_base O L I _ _ _ _ _ _ _ _ IC). Qed.
Theorem C08_cube_inv_no_panic : Consts -> det <> zero ->
  forall dbg a, c_inv O I dbg a = c_inv O I false a /\ c_inv O I dbg a <> None.
Proof. exact (c_inv_no_panic O L I _ _ _ _ _ _ _ _ IC). Qed.
Theorem C08_cube_inv_zero : forall dbg, c_inv O I dbg (c_zero O) = Some (c_zero O).
Proof. exact (c_inv_zero O L I). Qed.
Theorem C08_cube_eqb_spec : forall a b, c_eqb O a b = true <-> a = b.
Proof. exact (c_eqb_spec O L). Qed.
(* every non-zero element has an inverse, provided x^3 - u x - v has no root in F (irreducibility of a cubic) *)
Theorem C08_cube_inv_spec : Consts -> det <> zero -> cs_no_root O u v ->
  forall dbg a, a <> c_zero O -> exists ia, c_inv O I dbg a = Some ia /\ c_mul I a ia = c_one O.
Proof. exact (c_inv_spec O L I _ _ _ _ _ _ _ _ IC). Qed.
Theorem C08_cube_div_spec : Consts -> det <> zero -> cs_no_root O u v ->
  forall dbg a b, b <> c_zero O -> exists d, c_div O I dbg a b = Some d /\ c_mul I d b = a.
Proof. exact (c_div_spec O L I _ _ _ _ _ _ _ _ IC). Qed.
Theorem C08_cube_no_zero_div : cs_no_root O u v ->
  forall a b, c_mul I a b = c_zero O -> a = c_zero O \/ b = c_zero O.
Proof. exact (c_no_zero_div O L I _ _ _ _ _ _ _ _ IC). Qed.
Theorem C08_cube_exp_spec : forall a e, (0 <= e)%Z -> c_exp O I a e = c_pow O I a (Z.to_nat e).
Proof. intros a e _. exact (c_exp_spec O L I _ _ _ _ _ _ _ _ IC a e). Qed.
Theorem C08_cube_is_field : Consts -> det <> zero -> cs_no_root O u v -> FLaws (c_ops O I).
Proof. exact (c_laws O L I _ _ _ _ _ _ _ _ IC). Qed.
End Cube.

(* ================================================================ A.4 slices (list model of the zero-copy casts) *)
Theorem C08_quad_slice_roundtrip :
  (forall l : list (F * F), q_slice_from_base (q_slice_as_base l) = Some l) /\
  (forall (l : list F) g, q_slice_from_base l = Some g -> q_slice_as_base g = l) /\
  (forall l : list F, q_slice_from_base l = None <-> (length l mod 2 <> 0)%nat) /\
  (forall l : list (F * F), length (q_slice_as_base l) = (2 * length l)%nat).
Proof.
  exact (conj q_slice_roundtrip_ext (conj q_slice_roundtrip_base (conj q_slice_from_base_panics_iff q_slice_as_base_length))).
Qed.
Theorem C08_cube_slice_roundtrip :
  (forall l : list (F * F * F), c_slice_from_base (c_slice_as_base l) = Some l) /\
  (forall (l : list F) g, c_slice_from_base l = Some g -> c_slice_as_base g = l) /\
  (forall l : list F, c_slice_from_base l = None <-> (length l mod 3 <> 0)%nat) /\
  (forall l : list (F * F * F), length (c_slice_as_base l) = (3 * length l)%nat).
Proof.
  exact (conj c_slice_roundtrip_ext (conj c_slice_roundtrip_base (conj c_slice_from_base_panics_iff c_slice_as_base_length))).
Qed.
End C08.

Print Assumptions C08_f64_ext2_mul_spec.
Print Assumptions C08_f62_ext2_mul_spec.
Print Assumptions C08_f128_ext2_mul_spec.
Print Assumptions C08_f64_ext3_mul_spec.
Print Assumptions C08_f62_ext3_mul_spec.
Print Assumptions C08_f64_ext2_square_spec.
Print Assumptions C08_f64_ext3_square_spec.
Print Assumptions C08_ext_mul_base_spec.
Print Assumptions C08_f64_x2_correct.
Print Assumptions C08_f62_x2_correct.
Print Assumptions C08_f128_x2_correct.
Print Assumptions C08_f64_x3_correct.
Print Assumptions C08_f62_x3_correct.
Print Assumptions C08_quad_ring.
Print Assumptions C08_quad_square_spec.
Print Assumptions C08_quad_mul_base_spec.
Print Assumptions C08_quad_double_spec.
Print Assumptions C08_quad_embed_hom.
Print Assumptions C08_quad_conj_automorphism.
Print Assumptions C08_quad_norm_in_base.
Print Assumptions C08_quad_inv_no_panic.
Print Assumptions C08_quad_inv_zero.
Print Assumptions C08_quad_eqb_spec.
Print Assumptions C08_quad_inv_spec.
Print Assumptions C08_quad_div_spec.
Print Assumptions C08_quad_no_zero_div.
Print Assumptions C08_quad_exp_spec.
Print Assumptions C08_quad_is_field.
Print Assumptions C08_cube_ring.
Print Assumptions C08_cube_square_spec.
Print Assumptions C08_cube_mul_base_spec.
Print Assumptions C08_cube_double_spec.
Print Assumptions C08_cube_embed_hom.
Print Assumptions C08_cube_conj_linear.
Print Assumptions C08_cube_conj_automorphism.
Print Assumptions C08_cube_norm_in_base.
Print Assumptions C08_cube_inv_no_panic.
Print Assumptions C08_cube_inv_zero.
Print Assumptions C08_cube_eqb_spec.
Print Assumptions C08_cube_inv_spec.
Print Assumptions C08_cube_div_spec.
Print Assumptions C08_cube_no_zero_div.
Print Assumptions C08_cube_exp_spec.
Print Assumptions C08_cube_is_field.
Print Assumptions C08_quad_slice_roundtrip.
Print Assumptions C08_cube_slice_roundtrip.

(* ================================================================ B. the concrete fields: every hypothesis discharged *)
(* B.0 the hypothesis FLaws is satisfiable by the three base fields (ZpLaws.v; primality in NumTheoryPrime.v) *)
Theorem C08_base_fields_are_fields : FLaws F64_ops /\ FLaws F62_ops /\ FLaws F128_ops.
Proof. exact (conj F64_laws (conj F62_laws F128_laws)). Qed.
Print Assumptions C08_base_fields_are_fields.

(* B.1 irreducibility, quadratic: the discriminants -7 (x^2 - x + 2) and 5 (x^2 - x - 1) are non-residues:
   d^((p-1)/2) = p - 1 (kernel computation) and no element squares to d (Euler criterion via Fermat) *)
Theorem C08_quad_irreducible :
  (zp_val (qs_disc F64_ops (fneg2 F64_ops)) = P64 - 7 /\ zpow_mod P64 (P64 - 7) ((P64 - 1) / 2) = P64 - 1)%Z /\
  (zp_val (qs_disc F62_ops (fone F62_ops)) = 5 /\ zpow_mod P62 5 ((P62 - 1) / 2) = P62 - 1)%Z /\
  (zp_val (qs_disc F128_ops (fone F128_ops)) = 5 /\ zpow_mod P128 5 ((P128 - 1) / 2) = P128 - 1)%Z /\
  (forall s, fmul F64_ops s s <> qs_disc F64_ops (fneg2 F64_ops)) /\
  (forall s, fmul F62_ops s s <> qs_disc F62_ops (fone F62_ops)) /\
  (forall s, fmul F128_ops s s <> qs_disc F128_ops (fone F128_ops)).
Proof.
  exact (conj f64_disc_val (conj f62_disc_val (conj f128_disc_val
        (conj f64_disc_nonsquare (conj f62_disc_nonsquare f128_disc_nonsquare))))).
Qed.
Print Assumptions C08_quad_irreducible.

(* B.2 the SageMath Frobenius constants of the cubic extensions satisfy the constant equations, the fixed-point
   determinant is a unit, and the constants ARE phi^p and (phi^2)^p (square-and-multiply with the generated
   mul/square through the model's exp): Frobenius is x |-> x^p.  Quadratic: phi^p = 1 - phi. *)
Theorem C08_f64_frob3_consts :
  Frob3Consts F64_ops (fone F64_ops) (fone F64_ops)
    (f64_k01 F64_ops) (f64_k02 F64_ops) (f64_k11 F64_ops) (f64_k12 F64_ops) (f64_k21 F64_ops) (f64_k22 F64_ops) /\
  cs_fix_det F64_ops (f64_k11 F64_ops) (f64_k12 F64_ops) (f64_k21 F64_ops) (f64_k22 F64_ops) <> fzero F64_ops.
Proof. exact (conj f64_frob3_consts f64_fix_det). Qed.
Print Assumptions C08_f64_frob3_consts.
Theorem C08_f62_frob3_consts :
  Frob3Consts F62_ops (fneg2 F62_ops) (fneg2 F62_ops)
    (f62_k01 F62_ops) (f62_k02 F62_ops) (f62_k11 F62_ops) (f62_k12 F62_ops) (f62_k21 F62_ops) (f62_k22 F62_ops) /\
  cs_fix_det F62_ops (f62_k11 F62_ops) (f62_k12 F62_ops) (f62_k21 F62_ops) (f62_k22 F62_ops) <> fzero F62_ops.
Proof. exact (conj f62_frob3_consts f62_fix_det). Qed.
Print Assumptions C08_f62_frob3_consts.

Theorem C08_frob_consts_spec :
  (c_exp F64_ops (f64_x3 F64_ops) (phi F64_ops) P64 = f64_ext3_frobenius F64_ops (phi F64_ops) /\
   c_exp F64_ops (f64_x3 F64_ops) (phi2 F64_ops) P64 = f64_ext3_frobenius F64_ops (phi2 F64_ops)) /\
  (c_exp F62_ops (f62_x3 F62_ops) (phi F62_ops) P62 = f62_ext3_frobenius F62_ops (phi F62_ops) /\
   c_exp F62_ops (f62_x3 F62_ops) (phi2 F62_ops) P62 = f62_ext3_frobenius F62_ops (phi2 F62_ops)) /\
  q_exp F64_ops (f64_x2 F64_ops) (fzero F64_ops, fone F64_ops) P64 = f64_ext2_frobenius F64_ops (fzero F64_ops, fone F64_ops) /\
  q_exp F62_ops (f62_x2 F62_ops) (fzero F62_ops, fone F62_ops) P62 = f62_ext2_frobenius F62_ops (fzero F62_ops, fone F62_ops) /\
  q_exp F128_ops (f128_x2 F128_ops) (fzero F128_ops, fone F128_ops) P128 = f128_ext2_frobenius F128_ops (fzero F128_ops, fone F128_ops).
Proof.
  exact (conj (c_exp_basis F64_ops F64_laws _ _ _ _ _ _ _ _ _ (f64_x3_correct F64_ops F64_laws) f64_frob3_consts P64 f64_phi_pow)
        (conj (c_exp_basis F62_ops F62_laws _ _ _ _ _ _ _ _ _ (f62_x3_correct F62_ops F62_laws) f62_frob3_consts P62 f62_phi_pow)
        (conj f64_frob2_consts_spec (conj f62_frob2_consts_spec f128_frob2_consts_spec)))).
Qed.
Print Assumptions C08_frob_consts_spec.

(* B.3 irreducibility, cubic: x^3 - x - 1 has no root mod P64, x^3 + 2x + 2 has no root mod P62 *)
Theorem C08_cubic_irreducible :
  cs_no_root F64_ops (fone F64_ops) (fone F64_ops) /\ cs_no_root F62_ops (fneg2 F62_ops) (fneg2 F62_ops).
Proof. exact (conj f64_cubic_no_root f62_cubic_no_root). Qed.
Print Assumptions C08_cubic_irreducible.

(* B.4 every non-zero element has an inverse, inv never panics, for the five extension fields *)
Theorem C08_f64_quad_inv_spec : forall dbg a, a <> q_zero F64_ops ->
  exists ia, q_inv F64_ops (f64_x2 F64_ops) dbg a = Some ia /\ f64_ext2_mul F64_ops a ia = q_one F64_ops.
Proof. exact (q_inv_spec F64_ops F64_laws _ _ (f64_x2_correct F64_ops F64_laws) f64_disc_nonsquare). Qed.
Print Assumptions C08_f64_quad_inv_spec.
Theorem C08_f62_quad_inv_spec : forall dbg a, a <> q_zero F62_ops ->
  exists ia, q_inv F62_ops (f62_x2 F62_ops) dbg a = Some ia /\ f62_ext2_mul F62_ops a ia = q_one F62_ops.
Proof. exact (q_inv_spec F62_ops F62_laws _ _ (f62_x2_correct F62_ops F62_laws) f62_disc_nonsquare). Qed.
Print Assumptions C08_f62_quad_inv_spec.
Theorem C08_f128_quad_inv_spec : forall dbg a, a <> q_zero F128_ops ->
  exists ia, q_inv F128_ops (f128_x2 F128_ops) dbg a = Some ia /\ f128_ext2_mul F128_ops a ia = q_one F128_ops.
Proof. exact (q_inv_spec F128_ops F128_laws _ _ (f128_x2_correct F128_ops F128_laws) f128_disc_nonsquare). Qed.
Print Assumptions C08_f128_quad_inv_spec.
Theorem C08_f64_cube_inv_spec : forall dbg a, a <> c_zero F64_ops ->
  exists ia, c_inv F64_ops (f64_x3 F64_ops) dbg a = Some ia /\ f64_ext3_mul F64_ops a ia = c_one F64_ops.
Proof.
  exact (c_inv_spec F64_ops F64_laws _ _ _ _ _ _ _ _ _ (f64_x3_correct F64_ops F64_laws)
           f64_frob3_consts f64_fix_det f64_cubic_no_root).
Qed.
Print Assumptions C08_f64_cube_inv_spec.
Theorem C08_f62_cube_inv_spec : forall dbg a, a <> c_zero F62_ops ->
  exists ia, c_inv F62_ops (f62_x3 F62_ops) dbg a = Some ia /\ f62_ext3_mul F62_ops a ia = c_one F62_ops.
Proof.
  exact (c_inv_spec F62_ops F62_laws _ _ _ _ _ _ _ _ _ (f62_x3_correct F62_ops F62_laws)
           f62_frob3_consts f62_fix_det f62_cubic_no_root).
Qed.
Print Assumptions C08_f62_cube_inv_spec.

(* B.4' hence the five extension fields are fields (FLaws instances usable by every generic theorem of /verif) *)
Theorem C08_extension_fields_are_fields :
  FLaws (q_ops F64_ops (f64_x2 F64_ops)) /\ FLaws (q_ops F62_ops (f62_x2 F62_ops)) /\
  FLaws (q_ops F128_ops (f128_x2 F128_ops)) /\
  FLaws (c_ops F64_ops (f64_x3 F64_ops)) /\ FLaws (c_ops F62_ops (f62_x3 F62_ops)).
Proof. exact (conj f64_quad_laws (conj f62_quad_laws (conj f128_quad_laws (conj f64_cube_laws f62_cube_laws)))). Qed.
Print Assumptions C08_extension_fields_are_fields.

(* B.5 cubic conjugation is a field automorphism of order 3 fixing exactly the base field; the norm is in the base
   field (the debug_asserts of CubeExtension::inv never fire); no zero divisors *)
Theorem C08_f64_cube_conj_automorphism :
  (forall a b, f64_ext3_frobenius F64_ops (f64_ext3_mul F64_ops a b) =
               f64_ext3_mul F64_ops (f64_ext3_frobenius F64_ops a) (f64_ext3_frobenius F64_ops b)) /\
  (forall a, f64_ext3_frobenius F64_ops (f64_ext3_frobenius F64_ops (f64_ext3_frobenius F64_ops a)) = a) /\
  (forall a, f64_ext3_frobenius F64_ops a = a <-> (c1 a = fzero F64_ops /\ c2 a = fzero F64_ops)).
Proof.
  exact (c_conj_automorphism F64_ops F64_laws _ _ _ _ _ _ _ _ _ (f64_x3_correct F64_ops F64_laws) f64_frob3_consts f64_fix_det).
Qed.
Print Assumptions C08_f64_cube_conj_automorphism.
Theorem C08_f62_cube_conj_automorphism :
  (forall a b, f62_ext3_frobenius F62_ops (f62_ext3_mul F62_ops a b) =
               f62_ext3_mul F62_ops (f62_ext3_frobenius F62_ops a) (f62_ext3_frobenius F62_ops b)) /\
  (forall a, f62_ext3_frobenius F62_ops (f62_ext3_frobenius F62_ops (f62_ext3_frobenius F62_ops a)) = a) /\
  (forall a, f62_ext3_frobenius F62_ops a = a <-> (c1 a = fzero F62_ops /\ c2 a = fzero F62_ops)).
Proof.
  exact (c_conj_automorphism F62_ops F62_laws _ _ _ _ _ _ _ _ _ (f62_x3_correct F62_ops F62_laws) f62_frob3_consts f62_fix_det).
Qed.
Print Assumptions C08_f62_cube_conj_automorphism.
Theorem C08_cube_norm_in_base_concrete :
  (forall a, c1 (c_norm (f64_x3 F64_ops) a) = fzero F64_ops /\ c2 (c_norm (f64_x3 F64_ops) a) = fzero F64_ops) /\
  (forall a, c1 (c_norm (f62_x3 F62_ops) a) = fzero F62_ops /\ c2 (c_norm (f62_x3 F62_ops) a) = fzero F62_ops).
Proof.
  exact (conj (c_norm_in_base F64_ops F64_laws _ _ _ _ _ _ _ _ _ (f64_x3_correct F64_ops F64_laws) f64_frob3_consts f64_fix_det)
              (c_norm_in_base F62_ops F62_laws _ _ _ _ _ _ _ _ _ (f62_x3_correct F62_ops F62_laws) f62_frob3_consts f62_fix_det)).
Qed.
Print Assumptions C08_cube_norm_in_base_concrete.
Theorem C08_cube_no_zero_div_concrete :
  (forall a b, f64_ext3_mul F64_ops a b = c_zero F64_ops -> a = c_zero F64_ops \/ b = c_zero F64_ops) /\
  (forall a b, f62_ext3_mul F62_ops a b = c_zero F62_ops -> a = c_zero F62_ops \/ b = c_zero F62_ops).
Proof.
  exact (conj (c_no_zero_div F64_ops F64_laws _ _ _ _ _ _ _ _ _ (f64_x3_correct F64_ops F64_laws) f64_cubic_no_root)
              (c_no_zero_div F62_ops F62_laws _ _ _ _ _ _ _ _ _ (f62_x3_correct F62_ops F62_laws) f62_cubic_no_root)).
Qed.
Print Assumptions C08_cube_no_zero_div_concrete.

(* B.6 what is proved is what is run: the sigma-type instance and the executable `zp_ops p` instance of the generated
   terms agree coefficient-wise on values (val2 / val3 = the canonical residues) *)
Theorem C08_executable_instance_agrees :
  (forall a b, val2 (f64_ext2_mul F64_ops a b) = f64_ext2_mul (zp_ops P64) (val2 a) (val2 b)) /\
  (forall a, val2 (f64_ext2_square F64_ops a) = f64_ext2_square (zp_ops P64) (val2 a)) /\
  (forall a, val2 (f64_ext2_frobenius F64_ops a) = f64_ext2_frobenius (zp_ops P64) (val2 a)) /\
  (forall a b, val3 (f64_ext3_mul F64_ops a b) = f64_ext3_mul (zp_ops P64) (val3 a) (val3 b)) /\
  (forall a, val3 (f64_ext3_square F64_ops a) = f64_ext3_square (zp_ops P64) (val3 a)) /\
  (forall a, val3 (f64_ext3_frobenius F64_ops a) = f64_ext3_frobenius (zp_ops P64) (val3 a)) /\
  (forall a b, val2 (f62_ext2_mul F62_ops a b) = f62_ext2_mul (zp_ops P62) (val2 a) (val2 b)) /\
  (forall a, val2 (f62_ext2_frobenius F62_ops a) = f62_ext2_frobenius (zp_ops P62) (val2 a)) /\
  (forall a b, val3 (f62_ext3_mul F62_ops a b) = f62_ext3_mul (zp_ops P62) (val3 a) (val3 b)) /\
  (forall a, val3 (f62_ext3_frobenius F62_ops a) = f62_ext3_frobenius (zp_ops P62) (val3 a)) /\
  (forall a b, val2 (f128_ext2_mul F128_ops a b) = f128_ext2_mul (zp_ops P128) (val2 a) (val2 b)) /\
  (forall a, val2 (f128_ext2_frobenius F128_ops a) = f128_ext2_frobenius (zp_ops P128) (val2 a)) /\
  (forall dbg a, oval2 (q_inv F64_ops (f64_x2 F64_ops) dbg a) = q_inv (zp_ops P64) (f64_x2 (zp_ops P64)) dbg (val2 a)) /\
  (forall dbg a, oval3 (c_inv F64_ops (f64_x3 F64_ops) dbg a) = c_inv (zp_ops P64) (f64_x3 (zp_ops P64)) dbg (val3 a)).
Proof.
  exact (conj (f64_ext2_mul_val P64 _) (conj (f64_ext2_square_val P64 _) (conj (f64_ext2_frob_val P64 _)
        (conj (f64_ext3_mul_val P64 _) (conj (f64_ext3_square_val P64 _) (conj (f64_ext3_frob_val P64 _)
        (conj (f62_ext2_mul_val P62 _) (conj (f62_ext2_frob_val P62 _) (conj (f62_ext3_mul_val P62 _)
        (conj (f62_ext3_frob_val P62 _) (conj (f128_ext2_mul_val P128 _) (conj (f128_ext2_frob_val P128 _)
        (conj (q_inv_val P64 _ (f64_x2 _) (f64_x2 _) (f64_ext2_mul_val P64 _) (f64_ext2_frob_val P64 _))
              (c_inv_val P64 _ (f64_x3 _) (f64_x3 _) (f64_ext3_mul_val P64 _) (f64_ext3_frob_val P64 _))))))))))))))).
Qed.
Print Assumptions C08_executable_instance_agrees.

(* B.6' the inverse theorems restated on the executable instance itself (plain Z, canonical residues) *)
Theorem C08_inv_spec_executable :
  (forall dbg a0 a1, 0 <= a0 < P64 -> 0 <= a1 < P64 -> (a0, a1) <> (0, 0) ->
     exists ia, q_inv (zp_ops P64) (f64_x2 (zp_ops P64)) dbg (a0, a1) = Some ia /\
                f64_ext2_mul (zp_ops P64) (a0, a1) ia = (1, 0))%Z /\
  (forall dbg a0 a1, 0 <= a0 < P62 -> 0 <= a1 < P62 -> (a0, a1) <> (0, 0) ->
     exists ia, q_inv (zp_ops P62) (f62_x2 (zp_ops P62)) dbg (a0, a1) = Some ia /\
                f62_ext2_mul (zp_ops P62) (a0, a1) ia = (1, 0))%Z /\
  (forall dbg a0 a1, 0 <= a0 < P128 -> 0 <= a1 < P128 -> (a0, a1) <> (0, 0) ->
     exists ia, q_inv (zp_ops P128) (f128_x2 (zp_ops P128)) dbg (a0, a1) = Some ia /\
                f128_ext2_mul (zp_ops P128) (a0, a1) ia = (1, 0))%Z /\
  (forall dbg a0 a1 a2, 0 <= a0 < P64 -> 0 <= a1 < P64 -> 0 <= a2 < P64 -> (a0, a1, a2) <> (0, 0, 0) ->
     exists ia, c_inv (zp_ops P64) (f64_x3 (zp_ops P64)) dbg (a0, a1, a2) = Some ia /\
                f64_ext3_mul (zp_ops P64) (a0, a1, a2) ia = (1, 0, 0))%Z /\
  (forall dbg a0 a1 a2, 0 <= a0 < P62 -> 0 <= a1 < P62 -> 0 <= a2 < P62 -> (a0, a1, a2) <> (0, 0, 0) ->
     exists ia, c_inv (zp_ops P62) (f62_x3 (zp_ops P62)) dbg (a0, a1, a2) = Some ia /\
                f62_ext3_mul (zp_ops P62) (a0, a1, a2) ia = (1, 0, 0))%Z.
Proof.
  exact (conj (q_inv_exec P64 _ (f64_x2 _) (f64_x2 _) (f64_ext2_mul_val P64 _) (f64_ext2_frob_val P64 _) C08_f64_quad_inv_spec)
        (conj (q_inv_exec P62 _ (f62_x2 _) (f62_x2 _) (f62_ext2_mul_val P62 _) (f62_ext2_frob_val P62 _) C08_f62_quad_inv_spec)
        (conj (q_inv_exec P128 _ (f128_x2 _) (f128_x2 _) (f128_ext2_mul_val P128 _) (f128_ext2_frob_val P128 _) C08_f128_quad_inv_spec)
        (conj (c_inv_exec P64 _ (f64_x3 _) (f64_x3 _) (f64_ext3_mul_val P64 _) (f64_ext3_frob_val P64 _) C08_f64_cube_inv_spec)
              (c_inv_exec P62 _ (f62_x3 _) (f62_x3 _) (f62_ext3_mul_val P62 _) (f62_ext3_frob_val P62 _) C08_f62_cube_inv_spec))))).
Qed.
Print Assumptions C08_inv_spec_executable.

(* B.7 serialization round trips (canonical residues; p <= 256^nb) *)
Theorem C08_serde_roundtrip : forall p nb, (0 < p <= 256 ^ Z.of_nat nb)%Z ->
  (forall a rest, (0 <= fst a < p)%Z -> (0 <= snd a < p)%Z -> q_read p nb (q_write nb a ++ rest) = Some (a, rest)) /\
  (forall a, (0 <= fst a < p)%Z -> (0 <= snd a < p)%Z -> q_try_from_bytes p nb (q_write nb a) = Some a) /\
  (forall a rest, (0 <= c0 a < p)%Z -> (0 <= c1 a < p)%Z -> (0 <= c2 a < p)%Z ->
     c_read p nb (c_write nb a ++ rest) = Some (a, rest)) /\
  (forall a, (0 <= c0 a < p)%Z -> (0 <= c1 a < p)%Z -> (0 <= c2 a < p)%Z -> c_try_from_bytes p nb (c_write nb a) = Some a) /\
  (forall bs v rest, (forall b, In b bs -> (0 <= b)%Z) -> base_read p nb bs = Some (v, rest) -> (0 <= v < p)%Z).
Proof.
  intros p nb H.
  exact (conj (q_read_write p nb H) (conj (q_try_from_bytes_write p nb H) (conj (c_read_write p nb H)
        (conj (c_try_from_bytes_write p nb H) (base_read_canonical p nb))))).
Qed.
Print Assumptions C08_serde_roundtrip.

(* converse: a successful read consumed exactly the canonical encoding of the element it returns *)
Theorem C08_serde_read_inv : forall p nb,
  (forall bs a rest, (forall b, In b bs -> 0 <= b < 256)%Z -> q_read p nb bs = Some (a, rest) ->
     bs = q_write nb a ++ rest /\ (0 <= fst a < p)%Z /\ (0 <= snd a < p)%Z) /\
  (forall bs a rest, (forall b, In b bs -> 0 <= b < 256)%Z -> c_read p nb bs = Some (a, rest) ->
     bs = c_write nb a ++ rest /\ (0 <= c0 a < p)%Z /\ (0 <= c1 a < p)%Z /\ (0 <= c2 a < p)%Z).
Proof. intros p nb. exact (conj (q_read_inv p nb) (c_read_inv p nb)). Qed.
Print Assumptions C08_serde_read_inv.

(* ================================================================ non-vacuity: instances computed by the kernel on
   the executable instance `zp_ops P64` / `zp_ops P62` / `zp_ops P128` (canonical residues) *)
Local Open Scope Z_scope.
Example ex_f64_quad_boundary :   (* (p-1, p-1) * (p-1, p-1), its inverse, conjugate; x^2 = x - 2 *)
  let O := zp_ops P64 in let I := f64_x2 O in let a := (P64 - 1, P64 - 1) in
  q_mul I a a = (P64 - 1, 3) /\ q_square I a = q_mul I a a /\
  option_map (q_mul I a) (q_inv O I true a) = Some (1, 0) /\
  q_conjugate I a = (P64 - 2, 1) /\ q_norm I a = (4, 0) /\
  q_mul I (0, 1) (0, 1) = (P64 - 2, 1) /\ q_inv O I true (0, 0) = Some (0, 0).
Proof. cbv zeta. vm_compute. repeat split. Qed.

Example ex_f64_cube_boundary :   (* x * x^2 = x + 1; inverse of (p-1, 0, p-1); norm in base; frobenius of order 3 *)
  let O := zp_ops P64 in let I := f64_x3 O in let a := (P64 - 1, 0, P64 - 1) in
  c_mul I (0, 1, 0) (0, 0, 1) = (1, 1, 0) /\ c_square I a = c_mul I a a /\
  option_map (c_mul I a) (c_inv O I true a) = Some (1, 0, 0) /\
  c1 (c_norm I a) = 0 /\ c2 (c_norm I a) = 0 /\ c0 (c_norm I a) <> 0 /\
  c_conjugate I (c_conjugate I (c_conjugate I a)) = a /\ c_conjugate I a <> a /\
  c_conjugate I (7, 0, 0) = (7, 0, 0).
Proof. cbv zeta. vm_compute. repeat split; discriminate. Qed.

Example ex_f62_f128 :            (* x^2 = x + 1 (f62, f128), x^3 = -2x - 2 (f62) *)
  q_mul (f62_x2 (zp_ops P62)) (0, 1) (0, 1) = (1, 1) /\
  q_mul (f128_x2 (zp_ops P128)) (0, 1) (0, 1) = (1, 1) /\
  c_mul (f62_x3 (zp_ops P62)) (0, 1, 0) (0, 0, 1) = (P62 - 2, P62 - 2, 0) /\
  option_map (c_mul (f62_x3 (zp_ops P62)) (0, P62 - 1, 1)) (c_inv (zp_ops P62) (f62_x3 (zp_ops P62)) true (0, P62 - 1, 1))
    = Some (1, 0, 0) /\
  option_map (q_mul (f128_x2 (zp_ops P128)) (P128 - 1, 2)) (q_inv (zp_ops P128) (f128_x2 (zp_ops P128)) true (P128 - 1, 2))
    = Some (1, 0).
Proof.
  destruct C08_inv_spec_executable as (_ & _ & Q128 & _ & C62).
  do 3 (split; [vm_compute; reflexivity|]). split.
  - destruct (C62 true 0 (P62 - 1) 1) as (ia & E & M); [split; [discriminate|reflexivity] .. | discriminate |].
    rewrite E. exact (f_equal Some M).
  - destruct (Q128 true (P128 - 1) 2) as (ia & E & M); [split; [discriminate|reflexivity] .. | discriminate |].
    rewrite E. exact (f_equal Some M).
Qed.

Example ex_slices_serde :
  q_slice_as_base [(1, 2); (3, 4)] = [1; 2; 3; 4] /\ q_slice_from_base [1; 2; 3; 4] = Some [(1, 2); (3, 4)] /\
  q_slice_from_base [1; 2; 3] = None /\ c_slice_from_base [1; 2; 3; 4; 5; 6] = Some [(1, 2, 3); (4, 5, 6)] /\
  c_slice_from_base [1; 2; 3; 4] = None /\
  q_try_from_bytes P64 8 (q_write 8 (P64 - 1, 1)) = Some (P64 - 1, 1) /\
  q_try_from_bytes P64 8 (to_le_bytes 8 P64 ++ to_le_bytes 8 1) = None /\        (* non-canonical coefficient *)
  q_try_from_bytes P64 8 (q_write 8 (1, 2) ++ [0]) = None.                      (* wrong length *)
Proof. vm_compute. repeat split. Qed.
